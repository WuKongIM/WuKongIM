(* C21 — Every component routes a key to the same hash slot.
   Statements; each is closed by a lemma of Proof/Crc32.v or by a few lines that instantiate
   or assemble such lemmas. *)
From WK Require Import Base.Base Gen.Consts_C21 Model.Crc32 Proof.Crc32.
Open Scope N_scope.

(* the table the code reads is the table of the IEEE polynomial 0xEDB88320 *)
Theorem c21_table_is_ieee : gen_table = IEEETable.
Proof. exact table_is_ieee. Qed.
Print Assumptions c21_table_is_ieee.

(* checksumIEEEString (table loop) = CRC-32 definition, for every byte string *)
Theorem c21_table_eq_spec : forall key, all_bytes key = true ->
  crc32_table key = crc32_bitwise key.
Proof. exact crc32_table_eq_bitwise. Qed.
Print Assumptions c21_table_eq_spec.

(* every component computes the same hash slot for the same key and count *)
Theorem c21_components_agree : forall key count, all_bytes key = true ->
  routing_slot key count = hashslot_slot key count.
Proof.
  intros key count H. unfold routing_slot, hashslot_slot. rewrite (crc32_table_eq_bitwise key H). reflexivity.
Qed.
Print Assumptions c21_components_agree.

(* the value is below the count (counts 1..65535 and beyond) *)
Theorem c21_lt_count : forall key count, 0 < count ->
  routing_slot key count < count /\ hashslot_slot key count < count.
Proof. intros key count H. split; exact (mod_slot_lt _ count H). Qed.
Print Assumptions c21_lt_count.

(* the monitor evaluated on implementation traces accepts what the model produces *)
Theorem c21_model_satisfies_monitor : forall key count, all_bytes key = true ->
  C21_monitor (C21Case key count (routing_slot key count) (hashslot_slot key count)
                       (hashslot_slot key count) (crc32_table key) (crc32_bitwise key)) = 0.
Proof. exact Crc32.model_satisfies_monitor. Qed.
Print Assumptions c21_model_satisfies_monitor.

(* non-vacuity: a concrete key *)
Example c21_example : routing_slot (hx "7531") 1024 = hashslot_slot (hx "7531") 1024
                      /\ crc32_bitwise (hx "313233343536373839") = 3421780262.
Proof. split; vm_compute; reflexivity. Qed.
