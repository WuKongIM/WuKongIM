(* C03 — Append receipts are exact, contiguous and retry-stable.
   Statements; each is closed by a lemma, or a few lines assembling lemmas, of Proof/QuorumLog_C03.v, Proof/QuorumLog_Commit.v, Proof/ReplicaLog.v.

   The full statement is FALSE of the faithful model (and of the code): with the Pebble store,
   ServerAllocatedMessageIDs, a command evicted from the retained cache (or an owner restart) and
   no stored idempotency key pair, the sequencedFresh fast path stores the command again — known
   finding C03-K1 = DESIGN §0 F4 — see c03_fastpath_refuted.  The partial statements below hold
   for every owner state and every network (all fault outcomes). *)
From WK Require Import Base.Base.
From WK Require Import Model.ReplicaLog Model.QuorumLog Model.Cluster Model.Monitor_C03.
From WK Require Import Proof.ReplicaLog Proof.QuorumLog_Commit Proof.QuorumLog_C03.
Open Scope N_scope.

(* the exact append of both stores: a Durable Sync found the log end exactly at the proposal's
   base and appended exactly the derived entries and rows (and bound both proposal indexes);
   AlreadyDurable leaves log and indexes untouched; every other outcome leaves the replica unchanged *)
Theorem c03_sync_effect : forall k rp mu rp' o nf,
  sync k rp mu = (rp', o, nf) -> sync_effect rp mu rp' o.
Proof. exact sync_effect_holds. Qed.
Print Assumptions c03_sync_effect.

(* an entry once stored is never altered by a Sync: the old log is a prefix of the new one *)
Theorem c03_sync_log_prefix : forall k rp mu rp' o nf,
  sync k rp mu = (rp', o, nf) -> exists ext, rp_log rp' = rp_log rp ++ ext.
Proof. exact sync_log_prefix. Qed.
Print Assumptions c03_sync_log_prefix.

(* content comparison is exact: a sealed proposal accepts precisely its own records
   (the digest is injective in the records) *)
Theorem c03_same_content_iff_same_records : forall d recs,
  well_sealed d -> sameProposalContent d recs = true -> recs = dp_records d.
Proof. exact sameProposalContent_records. Qed.
Print Assumptions c03_same_content_iff_same_records.

(* c03_contiguous: a fresh command that passes the durability round gets First = frontier + 1,
   one sequence per record, HW = Last; the owner's frontier becomes Last; on the leader's replica
   the proposal was appended exactly at the log end (or was already there, unchanged) *)
Theorem c03_contiguous : forall cfg n st local p a d n1 res st2 rc,
  commit_admitted cfg st a p ->
  sealBusinessProposal a (qc_frontier st) (qc_hw st) (pr_cmd p) (pr_records p) (pr_sa p) = Some d ->
  runDurableRound n local (a_voters a) (a_q a) (cf_rot cfg) d = (n1, res) ->
  finishCommit cfg (set_pending st (Some (Retained d receipt_zero false))) a (Retained d receipt_zero false) res = (st2, COk rc) ->
  rc = Receipt (a_id a) (pr_cmd p) (rs_leo (qc_frontier st) + 1) (rs_leo (qc_frontier st) + lenN (pr_records p))
               (rs_leo (qc_frontier st) + lenN (pr_records p)) /\
  rs_leo (qc_frontier st2) = rc_last rc /\ qc_hw st2 = rc_last rc /\ qc_pending st2 = None /\
  (exists es, DeriveProposalEntries (dp_manifest d) (pr_records p) = Some es /\
     ((rp_leo (net_rep n local) = rs_leo (qc_frontier st) /\
       rp_log (net_rep n1 local) = rp_log (net_rep n local) ++ combine es (pr_records p)) \/
      (rp_log (net_rep n1 local) = rp_log (net_rep n local) /\
       by_cmd (rp_bycmd (net_rep n local)) (pr_cmd p) = Some (dp_manifest d)))).
Proof. exact Commit_fresh_exact. Qed.
Print Assumptions c03_contiguous.

(* every path of an admitted Commit (used to read the theorems above as a case analysis) *)
Theorem c03_commit_paths : forall cfg n st local p a n' st' r,
  commit_admitted cfg st a p -> Commit cfg n st local p = (n', st', r) ->
  commit_shape cfg n st local p a n' st' r.
Proof. exact Commit_shape. Qed.
Print Assumptions c03_commit_paths.

(* c03_retry_stable / c03_conflicting_retry_rejected, command still retained: identical content
   returns the stored receipt, different content ErrLogConflict; no replica, no owner field changes *)
Theorem c03_retained_retry : forall cfg n st local p a rt n' st' r,
  commit_admitted cfg st a p ->
  get_retained (qc_retained st) (pr_cmd p) = Some rt -> rt_durable rt = true ->
  Commit cfg n st local p = (n', st', r) ->
  n' = n /\ st' = st /\
  ((sameProposalContent (rt_prop rt) (pr_records p) = true /\ r = COk (rt_receipt rt)) \/
   (sameProposalContent (rt_prop rt) (pr_records p) = false /\ r = CErr EConflict)).
Proof. exact Commit_retained. Qed.
Print Assumptions c03_retained_retry.

(* conflicting reuse of the pending (ambiguous) command: ErrLogConflict, nothing changes *)
Theorem c03_pending_conflict_rejected : forall cfg n st local p a pend n' st' r,
  commit_admitted cfg st a p ->
  get_retained (qc_retained st) (pr_cmd p) = None -> qc_pending st = Some pend ->
  tag_eqb (m_cmd (dp_manifest (rt_prop pend))) (pr_cmd p) = true ->
  sameProposalContent (rt_prop pend) (pr_records p) = false ->
  Commit cfg n st local p = (n', st', r) -> n' = n /\ st' = st /\ r = CErr EConflict.
Proof. exact Commit_pending_conflict. Qed.
Print Assumptions c03_pending_conflict_rejected.

(* c03_retry_stable_partial — evicted or restarted retry (not retained, nothing pending) of a command
   the leader's store knows under manifest m0, when the store takes the slow path (memory store;
   Pebble unless ServerAllocatedMessageIDs and base = log end): the leader's replica is not
   written, the only possible success is m0's own range (First = base+1, Last, HW = Last) and then
   the proposal's records are exactly the stored ones — a reuse with different content is never
   acknowledged *)
Theorem c03_retry_stable_partial : forall cfg n st local p a m0 n' st' r,
  commit_admitted cfg st a p ->
  get_retained (qc_retained st) (pr_cmd p) = None -> qc_pending st = None ->
  by_cmd (rp_bycmd (net_rep n local)) (pr_cmd p) = Some m0 ->
  (forall d, sealBusinessProposal a (qc_frontier st) (qc_hw st) (pr_cmd p) (pr_records p) (pr_sa p) = Some d ->
             m0 <> dp_manifest d /\ slow_path (nt_kind n) (net_rep n local) (dp_mutation d)) ->
  Commit cfg n st local p = (n', st', r) ->
  net_rep n' local = net_rep n local /\
  (forall rc, r = COk rc ->
     exists recs, lookupCommand (nt_kind n) (net_rep n local) (pr_cmd p) (cf_maxrecs cfg) = inr (Some (m0, recs)) /\
                  rc = Receipt (a_id a) (pr_cmd p) (m_base m0 + 1) (m_last m0) (m_last m0) /\ pr_records p = recs).
Proof. exact Commit_known_command_slow_path. Qed.
Print Assumptions c03_retry_stable_partial.

(* c03_retry_stable_memory: the memory store always takes the slow path *)
Theorem c03_retry_stable_memory : forall rp mu, slow_path SMem rp mu.
Proof. exact (fun _ _ => or_introl eq_refl). Qed.
Print Assumptions c03_retry_stable_memory.

(* c03_fastpath_refuted (C03-K1): on the Pebble model, capacity-1 retained cache, server allocated
   ids, records without a stored key pair: command 1, command 2, command 1 again
   (a) with identical content is acknowledged at 3..3 instead of 1..1 (stored twice), and
   (b) with different content is acknowledged at 3..3 instead of being rejected;
   the monitor classifies both traces as known finding (code 2) *)
Theorem c03_fastpath_refuted :
  (fst (run_model (f4_cfg SPebble) (cluster_init (f4_cfg SPebble)) (f4_ops f4_r1)) =
     [ RInstalled (1, 1, 1) 0 0; RReceipt (1, 1, 1) (TUser 1) 1 1 1; RReceipt (1, 1, 1) (TUser 2) 2 2 2;
       RReceipt (1, 1, 1) (TUser 1) 3 3 3 ] /\
   C03_monitor (model_case (f4_cfg SPebble) (f4_ops f4_r1)) = 2) /\
  (fst (run_model (f4_cfg SPebble) (cluster_init (f4_cfg SPebble)) (f4_ops f4_r3)) =
     [ RInstalled (1, 1, 1) 0 0; RReceipt (1, 1, 1) (TUser 1) 1 1 1; RReceipt (1, 1, 1) (TUser 2) 2 2 2;
       RReceipt (1, 1, 1) (TUser 1) 3 3 3 ] /\
   C03_monitor (model_case (f4_cfg SPebble) (f4_ops f4_r3)) = 2).
Proof. exact (conj f4_identical_retry_stored_again f4_conflicting_reuse_accepted). Qed.
Print Assumptions c03_fastpath_refuted.

(* the same two schedules on the memory store: same range returned / ErrLogConflict, monitor 0 *)
Theorem c03_same_schedules_memory_ok :
  fst (run_model (f4_cfg SMem) (cluster_init (f4_cfg SMem)) (f4_ops f4_r1)) =
    [ RInstalled (1, 1, 1) 0 0; RReceipt (1, 1, 1) (TUser 1) 1 1 1; RReceipt (1, 1, 1) (TUser 2) 2 2 2;
      RReceipt (1, 1, 1) (TUser 1) 1 1 1 ] /\
  fst (run_model (f4_cfg SMem) (cluster_init (f4_cfg SMem)) (f4_ops f4_r3)) =
    [ RInstalled (1, 1, 1) 0 0; RReceipt (1, 1, 1) (TUser 1) 1 1 1; RReceipt (1, 1, 1) (TUser 2) 2 2 2;
      RErr EConflict ] /\
  C03_monitor (model_case (f4_cfg SMem) (f4_ops f4_r1)) = 0 /\
  C03_monitor (model_case (f4_cfg SMem) (f4_ops f4_r3)) = 0.
Proof. exact f4_memory_is_stable. Qed.
Print Assumptions c03_same_schedules_memory_ok.

(* c03_model_satisfies_monitor, BOUNDED (finite domain, vm_compute): for all 2801 schedules of at most 4
   operations over a 7-operation alphabet (two commands x two contents, a commit whose responses are
   all lost, owner restart, reinstall) after the initial install, 3 voters, quorum 2, cache capacity 1,
   the monitor evaluated on the model's own observations returns
     0 on the memory store, 0 on the Pebble store with client-supplied ids, and only 0 or the
     known-finding code 2 (never 1) on the Pebble store with server allocated ids.
   The unbounded link between model and monitor is given step-wise by the theorems above. *)
Theorem c03_model_satisfies_monitor_bounded :
  all_codes_in [0] (f4_cfg SMem) (c03_alphabet true) 4 = true /\
  all_codes_in [0] (f4_cfg SPebble) (c03_alphabet false) 4 = true /\
  all_codes_in [0; 2] (f4_cfg SPebble) (c03_alphabet true) 4 = true.
Proof. exact (conj c03_bounded_memory (conj c03_bounded_pebble_client_ids c03_bounded_pebble_server_ids)). Qed.
Print Assumptions c03_model_satisfies_monitor_bounded.

(* non-vacuity of commit_admitted *)
Example c03_admitted_example :
  let a := Auth (1, 1, 1) 1 [1; 2; 3] 2 false in
  commit_admitted (f4_cfg SMem) (QChan (Some a) rstate_zero 0 true None [] []) a
                  (Proposal (1, 1, 1) (TUser 1) [f4_r1] true).
Proof. repeat split; reflexivity. Qed.
