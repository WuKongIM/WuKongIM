(* C09 — Storage mutations are crash-atomic (level: PARTIAL).
   Proved on the model (Model/MsgStore.v over Model/KV.v): every API call but the
   paged compat DiscardForRestore commits at most one batch carrying rows, secondary
   indexes, checkpoint, epoch point and retention state together; under Pebble's contract -- a batch committed with
   Sync is atomic and durable when Commit returns, batches become durable in
   commit order (Model/KV.v [crash_states]; TRUSTED, exercised by the crash
   harness, not proved) -- a stop while a call is in flight recovers the store
   before or after that call, a stop after its return recovers the store after
   it, and every recoverable store is related to the plain sequential logs
   (consistent indexes, log end = last row or retained maximum).
   For every membership-filter implementation; histories of any length; the
   multi-channel StoreAppendBatch is included, the paged DiscardForRestore is not
   ([op_okb]): of that call it is proved that every store a stop inside it can leave
   satisfies the monitor's per-binding check [chk_entry] and that afterwards no key
   of the channel is left; neither that the end state is related to the plain logs
   again nor the monitor's clause [mid_ok] for a stop inside the call has a model theorem. *)
From WK Require Import Base.Base Model.KV Gen.Consts_C07 Model.MsgStore Model.MsgStore_C07 Model.MsgStore_C09
     Proof.KV Proof.MsgStore_base Proof.MsgStore_rel Proof.MsgStore_reads Proof.MsgStore_C07 Proof.MsgStore_discard Proof.MsgStore_C09.

(* One mutation API call = at most one committed batch (append, apply, compat
   append, multi-channel batch, truncations, trim call, checkpoint), and the call
   changes the store only through that batch.  The one exception is the PAGED compat
   DiscardForRestore ([not_paged] excludes it here): see c09_call_commits_batches and
   c09_discard_* below. *)
Theorem c09_one_batch_per_call :
  forall (F : Type) (f_empty : F) (f_may : F -> bytes * bytes -> bool) (f_add : F -> bytes * bytes -> F)
         (st : mstate F) (o : op),
    not_paged o ->
    let st' := fst (step F f_empty f_may f_add st o) in
    (st_kv F st' = st_kv F st /\ st_log F st' = st_log F st)
    \/ exists b, st_kv F st' = kapply (st_kv F st) b /\ st_log F st' = st_log F st ++ [b].
Proof. exact step_one_batch. Qed.
Print Assumptions c09_one_batch_per_call.

(* EVERY call, the paged one included, changes the store only through the list of
   batches it commits, in order. *)
Theorem c09_call_commits_batches :
  forall (F : Type) (f_empty : F) (f_may : F -> bytes * bytes -> bool) (f_add : F -> bytes * bytes -> F)
         (st : mstate F) (o : op),
    let st' := fst (step F f_empty f_may f_add st o) in
    exists bs, st_log F st' = st_log F st ++ bs /\ st_kv F st' = run_batches key_eqb (st_kv F st) bs.
Proof. exact step_batches. Qed.
Print Assumptions c09_call_commits_batches.

(* The store is exactly the fold of the committed batches (nothing changes it behind their back). *)
Theorem c09_store_is_fold_of_batches :
  forall (F : Type) (f_empty : F) (f_may : F -> bytes * bytes -> bool) (f_add : F -> bytes * bytes -> F)
         (st : mstate F) (o : op),
    kv_is_log F st -> kv_is_log F (fst (step F f_empty f_may f_add st o)).
Proof.
  intros F f_empty f_may f_add st o.
  exact (kv_is_log_many F st _ (step_batches F f_empty f_may f_add st o)).
Qed.
Print Assumptions c09_store_is_fold_of_batches.

(* Atomicity: a crash while a call is in flight recovers the store before the
   call or the store after it -- never a part of its batch. *)
Theorem c09_prefix_in_flight :
  forall (F : Type) (f_empty : F) (f_may : F -> bytes * bytes -> bool) (f_add : F -> bytes * bytes -> F)
         (st : mstate F) (o : op) (s : kvs),
    not_paged o ->
    kv_is_log F st ->
    crash_states key_eqb [] (st_log F (fst (step F f_empty f_may f_add st o))) (length (st_log F st)) s ->
    s = st_kv F st \/ s = st_kv F (fst (step F f_empty f_may f_add st o)).
Proof. exact crash_in_flight. Qed.
Print Assumptions c09_prefix_in_flight.

(* ... for any call: the store after a PREFIX of the batches of that call. *)
Theorem c09_prefix_in_flight_paged :
  forall (F : Type) (f_empty : F) (f_may : F -> bytes * bytes -> bool) (f_add : F -> bytes * bytes -> F)
         (st : mstate F) (o : op) (s : kvs),
    kv_is_log F st ->
    crash_states key_eqb [] (st_log F (fst (step F f_empty f_may f_add st o))) (length (st_log F st)) s ->
    exists bs k, st_log F (fst (step F f_empty f_may f_add st o)) = st_log F st ++ bs /\ (k <= length bs)%nat
                 /\ s = run_batches key_eqb (st_kv F st) (firstn k bs).
Proof. exact crash_in_flight_many. Qed.
Print Assumptions c09_prefix_in_flight_paged.

(* The paged DiscardForRestore: its batches (one per page: the rows of the page with
   ALL their index entries; then the partition range delete + catalog row) each keep
   the index invariant [IdxInv] (= the monitor's [chk_entry] on every binding: no
   index entry dangles, every stored row has its global-id / client-msg-no /
   idempotency / sender entries unless tainted by a trusted duplicate), so it holds
   after every prefix of them; after the call no key of the channel is left.
   Needs nothing but the invariant itself on the store the call starts from. *)
Theorem c09_discard_pages_keep_index_inv :
  forall (F : Type) (t : aspec) (st : mstate F) (c : N),
    swf (st_kv F st) -> IdxInv (st_kv F st) t ->
    exists bs,
      st_log F (fst (DiscardForRestore F st c)) = st_log F st ++ bs
      /\ st_kv F (fst (DiscardForRestore F st c)) = run_batches key_eqb (st_kv F st) bs
      /\ (forall k, IdxInv (run_batches key_eqb (st_kv F st) (firstn k bs)) t)
      /\ (snd (DiscardForRestore F st c) = ok tt ->
          forall k, in_partition c k = true \/ k = KyCat c -> kget k (st_kv F (fst (DiscardForRestore F st c))) = None).
Proof. exact discard_batches. Qed.
Print Assumptions c09_discard_pages_keep_index_inv.

(* ... in particular from every store related to the plain logs: whatever a stop
   inside the call recovers passes the monitor's per-binding index check. *)
Theorem c09_discard_crash_inv :
  forall (F : Type) (st : mstate F) (s : aspec) (c : N) (x : kvs),
    Rkv (st_kv F st) s -> kv_is_log F st ->
    crash_states key_eqb [] (st_log F (fst (DiscardForRestore F st c))) (length (st_log F st)) x ->
    forallb (chk_entry x s) x = true.
Proof. exact discard_crash_inv. Qed.
Print Assumptions c09_discard_crash_inv.

(* the building block: one stored row with its index entries (the terminal batch:
   Proof/MsgStore_discard.v [terminal_IdxInv]) *)
Theorem c09_delete_row_keeps_index_inv :
  forall (kv : kvs) (t : aspec) (c q : N) (r : row),
    IdxInv kv t -> kget (KyRow c q) kv = Some (VRow r) -> IdxInv (kapply kv (stageDeleteMessage c r)) t.
Proof. exact del_row_IdxInv. Qed.
Print Assumptions c09_delete_row_keeps_index_inv.

(* Durability: after the call has returned, every crash recovers the store after it. *)
Theorem c09_durable_after_return :
  forall (F : Type) (f_empty : F) (f_may : F -> bytes * bytes -> bool) (f_add : F -> bytes * bytes -> F)
         (st : mstate F) (o : op) (s : kvs),
    kv_is_log F st ->
    crash_states key_eqb [] (st_log F (fst (step F f_empty f_may f_add st o)))
                 (length (st_log F (fst (step F f_empty f_may f_add st o)))) s ->
    s = st_kv F (fst (step F f_empty f_may f_add st o)).
Proof. exact crash_after_return. Qed.
Print Assumptions c09_durable_after_return.

(* Generic form (Model/KV.v): an invariant kept by every single batch holds in every crash state. *)
Theorem c09_crash_inv :
  forall (Inv : kvs -> Prop) (s0 : kvs) (bs : list kbatch),
    Inv s0 -> (forall s b, Inv s -> In b bs -> Inv (kapply s b)) ->
    forall durable s, crash_states key_eqb s0 bs durable s -> Inv s.
Proof. exact (crash_inv key_eqb (K := key) (V := value)). Qed.
Print Assumptions c09_crash_inv.

(* Recovery: a store that is related to the plain logs ([Rkv]) gives, opened with
   empty caches, a related state: all of C07 (reads total, indexes sound,
   contiguity, LEO = last row or retained maximum) holds after restart.  That the
   store a crash recovers IS related follows from [c09_prefix_in_flight] /
   [c09_durable_after_return] (it is the store before or after a call) and
   [c07_reachable]; it is not stated as one theorem. *)
Theorem c09_recovered_related :
  forall (F : Type) (f_empty : F) (kv : kvs) (s : aspec) (log : list kbatch),
    Rkv kv s -> R F (MS F kv (fun _ => cc_init F f_empty) log) s.
Proof. exact recovered_related. Qed.
Print Assumptions c09_recovered_related.

(* The monitor's per-crash predicates hold of every store related to the logs:
   it shows exactly the logs and satisfies the index invariant ... *)
Theorem c09_inv :
  forall (kv : kvs) (s : aspec), Rkv kv s ->
    recovered_is kv (leos_of kv) s = true /\ kv_inv kv (leos_of kv) s = true.
Proof. intros kv s H. split; [exact (recovered_is_ok kv s H)|exact (kv_inv_ok kv s H)]. Qed.
Print Assumptions c09_inv.

(* ... hence the monitor accepts every crash observation the model can produce
   (recovered keys = the model's store after j ops, j inside every label's window). *)
Theorem c09_model_satisfies_monitor :
  forall (ops : list op) (crashes : list crash) (kvfinal : list kvent),
    Forall op_okb ops -> Forall (model_crash (run_kvs xinit ops)) crashes ->
    C09_monitor (C09Case (C07Case true (entries ops (snd (xrun true ops))) kvfinal) crashes) = 0.
Proof. exact c09_monitor_zero_on_model. Qed.
Print Assumptions c09_model_satisfies_monitor.

(* ---- non-vacuity ------------------------------------------------------------------------------------------ *)

Definition c09_rec (i : N) (uid cno : string) : rec := MsgStore.R i (hx cno) (hx uid) [97] 5%Z 0 0 0.

Definition c09_ops : list op :=
  [ OAppend 0 0 0 [c09_rec 1 "7531" "6e31"; c09_rec 2 "" "6e32"];
    OApply 0 3 [c09_rec 3 "7532" ""] (Some (1, 0, 2)) (Some (1, 2));
    OTrim 0 1 0%Z 0%Z; OTrunc 0 3; OCkpt 0 1 0 2 ].

(* every call of this history commits exactly one batch: 5 batches, and the
   append's batch carries row, global id index, idempotency / client index,
   sender index and catalog together *)
Example c09_ex_batches :
  length (st_log _ (fst (xrun true c09_ops))) = 5%nat
  /\ length (nth_or [] 0 (st_log _ (fst (xrun true c09_ops)))) = 8%nat.
Proof. split; vm_compute; reflexivity. Qed.

(* the monitor is not vacuous: a recovered store that holds the row of an append
   but not its idempotency index entry (a torn batch) is flagged *)
Example c09_monitor_rejects_torn_batch :
  C09_monitor (C09Case
    (C07Case true [E (OAppend 0 0 0 [c09_rec 1 "7531" "6e31"]) (XApp 1 1 1) []] [])
    [Cr [(0, 1, 0)] [1; 0; 0]
        [KRow 0 1 1 0 (hx "6e31") (hx "7531") (hashPayload [97]) [97] 5%Z 0; KGid 1 0 1;
         KSseq 0 (hx "7531") 1 1; KCat 0 0]]) = 1.
Proof. vm_compute. reflexivity. Qed.

(* ... and so is a lost acknowledged mutation (store before the call although it had returned) *)
Example c09_monitor_rejects_lost_durable :
  C09_monitor (C09Case
    (C07Case true [E (OAppend 0 0 0 [c09_rec 1 "7531" "6e31"]) (XApp 1 1 1) []] [])
    [Cr [(1, 1, 0)] [0; 0; 0] []]) = 1.
Proof. vm_compute. reflexivity. Qed.

(* ... while the whole batch, present or absent, is accepted in flight *)
Example c09_monitor_accepts_atomic :
  C09_monitor (C09Case
    (C07Case true [E (OAppend 0 0 0 [c09_rec 1 "7531" "6e31"]) (XApp 1 1 1) []] [])
    [Cr [(0, 1, 50)] [0; 0; 0] [];
     Cr [(0, 1, 100); (1, 1, 0)] [1; 0; 0]
        [KRow 0 1 1 0 (hx "6e31") (hx "7531") (hashPayload [97]) [97] 5%Z 0; KGid 1 0 1;
         KIdem 0 (hx "6e31") (hx "7531") 1 1 (hashPayload [97]); KSseq 0 (hx "7531") 1 1; KCat 0 0]]) = 0.
Proof. vm_compute. reflexivity. Qed.

(* the paged DiscardForRestore: the call commits TWO batches here (one page with the
   row, its global-id, idempotency and sender entries, then the partition / catalog batch); the model
   offers exactly one store between them (the row and its entries gone, catalog still
   there); afterwards the channel restarts at sequence 1 *)
Definition c09_discard_ops : list op :=
  [ OAppend 0 0 0 [c09_rec 1 "7531" "6e31"]; ODiscard 0; OLeo 0; OAppend 0 0 0 [c09_rec 2 "7531" "6e31"] ].

Example c09_ex_discard :
  length (st_log _ (fst (xrun true c09_discard_ops))) = 4%nat
  /\ map (@length (@wop key value)) (st_log _ (fst (xrun true c09_discard_ops))) = [5%nat; 4%nat; 2%nat; 5%nat]
  /\ map (fun l => map (@length (key * value)) l) (run_mids xinit c09_discard_ops) = [[]; [1%nat]; []; []]
  /\ map fst (snd (xrun true c09_discard_ops)) = [XApp 1 1 1; XOk; XN 0; XApp 1 1 1].
Proof. repeat split; vm_compute; reflexivity. Qed.

(* the monitor flags the TORN page of the seeded change C09-b: a stop inside the
   discard recovers the row with its channel-local index entries but WITHOUT its
   global message-id entry ... *)
Example c09_monitor_rejects_torn_discard_page :
  C09_monitor (C09Case
    (C07Case true [E (OAppend 0 0 0 [c09_rec 1 "7531" "6e31"]) (XApp 1 1 1) []; E (ODiscard 0) XOk []] [])
    [Cr [(1, 2, 100)] [1; 0; 0]
        [KRow 0 1 1 0 (hx "6e31") (hx "7531") (hashPayload [97]) [97] 5%Z 0;
         KIdem 0 (hx "6e31") (hx "7531") 1 1 (hashPayload [97]); KSseq 0 (hx "7531") 1 1; KCat 0 0]]) = 1.
Proof. vm_compute. reflexivity. Qed.

(* ... and accepts the store between a whole page and the terminal batch, the store
   before the call and the store after it *)
Example c09_monitor_accepts_whole_discard_pages :
  C09_monitor (C09Case
    (C07Case true [E (OAppend 0 0 0 [c09_rec 1 "7531" "6e31"]) (XApp 1 1 1) []; E (ODiscard 0) XOk []] [])
    [Cr [(1, 2, 100); (1, 2, 0)] [0; 0; 0] [KCat 0 0];
     Cr [(1, 2, 0)] [1; 0; 0]
        [KRow 0 1 1 0 (hx "6e31") (hx "7531") (hashPayload [97]) [97] 5%Z 0; KGid 1 0 1;
         KIdem 0 (hx "6e31") (hx "7531") 1 1 (hashPayload [97]); KSseq 0 (hx "7531") 1 1; KCat 0 0];
     Cr [(1, 2, 100); (2, 2, 0)] [0; 0; 0] []]) = 0.
Proof. vm_compute. reflexivity. Qed.
