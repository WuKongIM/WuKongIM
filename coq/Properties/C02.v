(* C02 — Replica logs agree on every committed offset.
   Statements; each is closed by a lemma, or a few lines assembling lemmas, of Proof/ReplicaLog_WF.v (store level), Proof/Cluster_WF.v (lifting through
   every owner / cluster operation) and Proof/Cluster_C02.v (witness, bounded checks).

   Proved unbounded, for every schedule of installs, commits, restarts, outages, follower gap repairs
   and (bounded) standalone checkpoints, under every fault plan, on both store back ends:
     each replica log is an unbroken predecessor hash chain from genesis, committed <= log end,
     the committed watermark never moves backwards and no entry identity at or below it ever changes.
   The pairwise agreement clause is FALSE of the faithful model and of the code once the deposed
   leader's standalone checkpoint is in the schedule (c02_checkpoint_refuted, known finding C02-K1,
   same root cause as C01-K1); without it, it is checked on a bounded schedule family only. *)
From WK Require Import Base.Base.
From WK Require Import Model.ReplicaLog Model.QuorumLog Model.Cluster Model.Monitor_C02.
From WK Require Import Proof.ReplicaLog Proof.ReplicaLog_WF Proof.Cluster_WF Proof.Cluster_C02.
Open Scope N_scope.

(* the invariant of one replica (chain, committed <= log end, by-last index rows name the stored
   entries) holds for the empty replica and is preserved, together with "committed never regresses
   and no entry identity at or below it changes", by every Sync ... *)
Theorem c02_sync_preserves : forall k rp mu rp' o nf,
  WF rp -> sync k rp mu = (rp', o, nf) -> WF rp' /\ keeps rp rp'.
Proof. exact (fun k rp mu rp' o nf W H => sync_rep_ok k rp mu rp' o nf H W). Qed.
Print Assumptions c02_sync_preserves.

(* ... by every recovery suffix replacement (it refuses cuts below committed) ... *)
Theorem c02_replace_preserves : forall k rp q rp' lo,
  WF rp -> replace k rp q = inr (rp', lo) -> WF rp' /\ keeps rp rp'.
Proof. exact (fun k rp q rp' lo W H => replace_rep_ok k rp q rp' lo H W). Qed.
Print Assumptions c02_replace_preserves.

(* ... and by a standalone checkpoint of a watermark within the log *)
Theorem c02_checkpoint_preserves : forall rp w,
  WF rp -> w <= rp_leo rp -> WF (storeCheckpoint rp w) /\ keeps rp (storeCheckpoint rp w).
Proof. exact (fun rp w W H => storeCheckpoint_rep_ok rp w H W). Qed.
Print Assumptions c02_checkpoint_preserves.

(* one step of a schedule: every replica is related by (WF -> WF /\ keeps) *)
Theorem c02_step_preserves : forall cfg c op c' r,
  ckpt_bounded c op -> q_step cfg c op = (c', r) ->
  forall v, WF (net_rep (cl_net c) v) -> WF (net_rep (cl_net c') v) /\ keeps (net_rep (cl_net c) v) (net_rep (cl_net c') v).
Proof.
  exact (fun cfg c op c' r Hb H =>
           proj2 (q_step_lift rep_ok rep_ok_refl rep_ok_trans sync_rep_ok replace_rep_ok storeCheckpoint_rep_ok
                              cfg c op c' r Hb H)).
Qed.
Print Assumptions c02_step_preserves.

(* c02_chain, c02_committed_le_leo, c02_committed_monotone — every schedule from the initial cluster
   whose standalone checkpoints stay within the log of their node:
   in the reached cluster every replica is a chain with committed <= log end, and relative to ANY
   earlier point of the schedule its committed watermark did not regress and its committed prefix is
   unchanged (stated here from the initial cluster and, by c02_step_preserves, step by step) *)
Theorem c02_chain_and_watermark : forall cfg ops,
  run_bounded cfg (cluster_init cfg) ops ->
  (forall v, WF (net_rep (cl_net (run_cluster cfg (cluster_init cfg) ops)) v)) /\
  (forall v, keeps (net_rep (cl_net (cluster_init cfg)) v) (net_rep (cl_net (run_cluster cfg (cluster_init cfg) ops)) v)).
Proof. exact (fun cfg ops => run_cluster_WF cfg ops (cluster_init cfg) (all_WF_init cfg)). Qed.
Print Assumptions c02_chain_and_watermark.

Theorem c02_invariant_from_any_point : forall cfg ops c,
  (forall v, WF (net_rep (cl_net c) v)) -> run_bounded cfg c ops ->
  (forall v, WF (net_rep (cl_net (run_cluster cfg c ops)) v)) /\
  (forall v, keeps (net_rep (cl_net c) v) (net_rep (cl_net (run_cluster cfg c ops)) v)).
Proof. exact (fun cfg ops c H1 H2 => run_cluster_WF cfg ops c H1 H2). Qed.
Print Assumptions c02_invariant_from_any_point.

(* what the invariant says, spelled out (its third clause, about the by-last index rows, is internal) *)
Theorem c02_invariant_meaning : forall rp, WF rp ->
  chain_raw 1 0 0 D0 (rp_log rp) /\ rp_hw rp <= rp_leo rp.
Proof. exact (fun rp H => conj (proj1 H) (proj1 (proj2 H))). Qed.
Print Assumptions c02_invariant_meaning.

(* c02_checkpoint_refuted (C02-K1): F1 extended by the deposed leader's checkpoint of the acknowledged
   watermark: node 1 and node 2 both consider offset 1 committed and hold different entries
   (commands 1 and 2); the checkpoints of the schedule are within the log; monitor code 2 *)
Theorem c02_checkpoint_refuted :
  let c := snd (run_model k1_cfg (cluster_init k1_cfg) k1_ops) in
  fst (run_model k1_cfg (cluster_init k1_cfg) k1_ops) =
    [ RInstalled (1, 1, 1) 0 0; RNone; RReceipt (1, 1, 1) (TUser 1) 1 1 1; RBool true; RNone; RNone;
      RInstalled (1, 2, 2) 0 0; RReceipt (1, 2, 2) (TUser 2) 1 1 1; RReceipt (1, 2, 2) (TUser 3) 2 2 2 ] /\
  option_map i_cmd (committed_entry c 1 1) = Some (TUser 1) /\
  option_map i_cmd (committed_entry c 2 1) = Some (TUser 2) /\
  C02_monitor (model_case k1_cfg k1_ops) = 2.
Proof. exact k1_checkpointed_entry_replaced. Qed.
Print Assumptions c02_checkpoint_refuted.

(* c02_checkpoint_k2_refuted (C02-K2, monitor code 3): the C01-K2 history extended by the deposed leader's
   checkpoint of the acknowledged watermark: an Install whose frontier round every voter answers, but which
   loses the identity-page reply of a holder while the stable voters still reproduce the quorum LEO, drops the
   acknowledged (and checkpointed) entry; after the next failover node 1 considers offset 1 committed with the
   old entry, nodes 2 and 3 with the new one. *)
Theorem c02_checkpoint_k2_refuted :
  let c := snd (run_model k1_cfg (cluster_init k1_cfg) k2_ops) in
  fst (run_model k1_cfg (cluster_init k1_cfg) k2_ops) =
    [ RInstalled (1, 1, 1) 0 0; RErr EQuorumUnavailable; RInstalled (1, 2, 2) 0 0;
      RReceipt (1, 2, 2) (TUser 2) 1 1 1; RBool true; RInstalled (1, 3, 3) 0 0; RNone;
      RInstalled (1, 4, 4) 0 0; RReceipt (1, 4, 4) (TUser 3) 1 1 1; RReceipt (1, 4, 4) (TUser 4) 2 2 2 ] /\
  option_map i_cmd (committed_entry c 1 1) = Some (TUser 2) /\
  option_map i_cmd (committed_entry c 2 1) = Some (TUser 3) /\
  option_map i_cmd (committed_entry c 3 1) = Some (TUser 3) /\
  C02_monitor (model_case k1_cfg k2_ops) = 3.
Proof. exact k2_checkpointed_entry_replaced. Qed.
Print Assumptions c02_checkpoint_k2_refuted.

Theorem c02_k2_refuting_schedule_is_bounded : run_bounded k1_cfg (cluster_init k1_cfg) k2_ops.
Proof. exact k2_ops_bounded. Qed.
Print Assumptions c02_k2_refuting_schedule_is_bounded.

Theorem c02_refuting_schedule_is_bounded : run_bounded k1_cfg (cluster_init k1_cfg) k1_ops.
Proof. exact k1_ops_bounded. Qed.
Print Assumptions c02_refuting_schedule_is_bounded.

(* c02_agreement, BOUNDED (finite domain, vm_compute): all schedules of at most 4 operations over a
   9-operation alphabet (bare-quorum commit, full commit, nodes 1 and 3 down / up, failover install on
   node 2, commit by node 2, gap repair of node 3) after the initial install: the whole monitor
   (chain, bounds, monotone, pairwise agreement) returns 0 on the model's own observations; with the
   standalone checkpoint added to the alphabet only 0 or the known-finding code 2 *)
Theorem c02_model_satisfies_monitor_bounded :
  c02_codes_in [0] (c02_alphabet false) 4 = true /\ c02_codes_in [0; 2] (c02_alphabet true) 4 = true.
Proof. exact (conj c02_bounded_no_checkpoint c02_bounded_with_checkpoint). Qed.
Print Assumptions c02_model_satisfies_monitor_bounded.
