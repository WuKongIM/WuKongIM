(* C31 — Online delivery preserves per-channel order and recipient coverage.

   Models (coq/Model/Delivery*.v) of internal/runtime/delivery:
     pq / pq_enqueue / pq_pop      orderedPlanQueue (node array, free list, per-shard head/tail)
     shardIndex / plan_shard       orderedPlanQueue.shardIndex (FNV-1a of channel type and id)
     processPlan, run_owners, run_batches, pushWithRetry, do_attempt, pushOwnerLocal (local_loop)
                                   Runtime.processPlan .. pushOwnerLocal, the ports as oracles
     sys / sys_step                producers, admission close, one worker per shard, port calls
                                   interleaved arbitrarily (Runtime.runWorker)
   Definitions the statements use that are not in Model/: QInv, abs, chain, last_opt (Proof/Delivery_queue.v);
   no_reject (Delivery_local.v); orc_ok, next_routes, first_of (Delivery_retry.v); g_get, g_keys,
   offline_of (Delivery_cover.v); remote_contract (Delivery_monitor.v); plan_contract (Delivery_accept.v);
   chain_exact (Delivery_props.v); shard_row_of (Delivery_top.v).  walk, offline_spec, expected_routes,
   resolved_pairs and the monitors are in Model/Delivery_C31.v. *)
From WK Require Import Base.Base Gen.Consts_C31 Model.Delivery Model.Delivery_C31 Model.Delivery_sys.
From WK Require Import Proof.Delivery_queue Proof.Delivery_hist Proof.Delivery_sys
     Proof.Delivery_local Proof.Delivery_retry Proof.Delivery_cover Proof.Delivery_monitor
     Proof.Delivery_accept Proof.Delivery_props Proof.Delivery_top.
From Coq Require Import Permutation.
Open Scope N_scope.

(* ---- 1. the queue ------------------------------------------------------------ *)

(* For EVERY history of enqueue / pop calls the array + free-list structure answers
   exactly like a vector of per-shard FIFO lists holding at most [cap] plans; the
   representation invariant QInv (free chain and shard chains partition the node
   indices without repetition, tails are the last nodes, depth = queued plans) holds
   afterwards and [abs] reads the lists off the chains. *)
Theorem c31_queue_refines_fifo : forall (cap shards : nat) (cs : list qcall),
  (0 < cap)%nat -> (0 < shards)%nat ->
  let '(q, rets) := pq_run (newq_nat cap shards) cs in
  let '(a, arets) := aq_run cap (repeat [] shards) cs in
  rets = arets
  /\ exists fl sl, QInv q fl sl /\ abs q sl = a /\ (aq_total a <= cap)%nat /\ pq_cap q = cap.
Proof. exact queue_refines_fifo. Qed.
Print Assumptions c31_queue_refines_fifo.

(* single steps of the simulation *)
Theorem c31_enqueue_refines : forall q fl sl closed p q' r,
  QInv q fl sl -> pq_enqueue q closed p = (q', r) ->
  exists fl' sl', QInv q' fl' sl'
    /\ aq_enqueue (pq_cap q) (abs q sl) closed p = (abs q' sl', r)
    /\ pq_cap q' = pq_cap q /\ length sl' = length sl.
Proof. exact enqueue_refines. Qed.
Print Assumptions c31_enqueue_refines.

Theorem c31_pop_refines : forall q fl sl s q' g,
  QInv q fl sl -> pq_pop q s = (q', g) ->
  exists fl' sl', QInv q' fl' sl'
    /\ aq_pop (abs q sl) s = (abs q' sl', g)
    /\ pq_cap q' = pq_cap q /\ length sl' = length sl.
Proof. exact pop_refines. Qed.
Print Assumptions c31_pop_refines.

(* per shard the plans come out in the order they went in: what was dequeued from
   shard s is a prefix of what was accepted into shard s, the rest is still queued *)
Theorem c31_queue_fifo : forall (cap shards : nat) (cs : list qcall) (s : nat),
  (0 < cap)%nat -> (0 < shards)%nat -> (s < shards)%nat ->
  let '(_, rets) := pq_run (newq_nat cap shards) cs in
  exists queued, enq_of shards s cs rets = pop_of s cs rets ++ queued.
Proof. exact queue_fifo. Qed.
Print Assumptions c31_queue_fifo.

(* all plans of one channel go to one shard *)
Theorem c31_shard_function : forall n p p',
  e_chtype (p_event p) = e_chtype (p_event p') -> e_chid (p_event p) = e_chid (p_event p') ->
  plan_shard n p = plan_shard n p'.
Proof. exact shard_function. Qed.
Print Assumptions c31_shard_function.

(* the FNV-1a model reproduces the vectors computed by the compiled shardIndex *)
Example c31_shard_vectors_ok :
  forallb (fun r : N * N * bytes * N => let '(sh, ty, id, idx) := r in shardIndex sh ty id =? idx)
          c31_shard_vectors = true.
Proof. vm_compute. reflexivity. Qed.

(* ---- 2. per-channel FIFO under every interleaving ------------------------------ *)

(* sys_run executes an ARBITRARY interleaving of enqueues, admission close, dequeues by
   the one worker of each shard, and single port calls (with arbitrary call lists per
   plan).  Two port calls of one shard are ordered like the acceptance stamps of their
   plans: no later plan overtakes an earlier one, and their calls never interleave. *)
Theorem c31_channel_fifo : forall (X : Type) (cap shards : nat),
  (0 < cap)%nat -> (0 < shards)%nat ->
  forall (evs : list (sev X)) (e1 e2 : N * nat * plan * X * N),
  let st := sys_run X cap shards evs in
  In e1 (s_log X st) -> In e2 (s_log X st) ->
  le_shard X e1 = le_shard X e2 -> le_stamp X e1 < le_stamp X e2 ->
  le_time X e1 < le_time X e2.
Proof.
  intros X cap shards Hc Hs evs e1 e2.
  exact (logok_order X _ (si_log X shards _ _ _ _ _ _ (sys_run_inv X cap shards Hc Hs evs)) e1 e2).
Qed.
Print Assumptions c31_channel_fifo.

(* every port call belongs to an accepted plan, is made after its acceptance, by the
   worker of the shard its channel hashes to *)
Theorem c31_calls_accepted : forall (X : Type) (cap shards : nat),
  (0 < cap)%nat -> (0 < shards)%nat ->
  forall (evs : list (sev X)) (e : N * nat * plan * X * N),
  let st := sys_run X cap shards evs in
  In e (s_log X st) ->
  In (le_stamp X e, le_shard X e, le_plan X e) (s_acc X st)
  /\ le_stamp X e < le_time X e
  /\ le_shard X e = plan_shard shards (le_plan X e).
Proof.
  intros X cap shards Hc Hs evs e st H. pose proof (sys_run_inv X cap shards Hc Hs evs) as I.
  destruct (si_log_t X shards _ _ _ _ _ _ I e H) as (_ & T2 & T3).
  exact (conj T3 (conj T2 (proj1 (si_acc X shards _ _ _ _ _ _ I _ _ _ T3)))).
Qed.
Print Assumptions c31_calls_accepted.

(* ---- 3. owner-local push ------------------------------------------------------- *)

(* Accepted, Retryable and Dropped partition the pushed routes (as multisets), for
   every behaviour of the session writer, the ACK tracker and the context *)
Theorem c31_local_result_partition : forall c ev owner rs orc cx,
  let '(err, r) := pushOwnerLocal c ev owner rs orc cx in
  err = 0 -> Permutation (l_acc r ++ l_retry r ++ l_drop r) rs.
Proof.
  intros c ev owner rs orc cx. destruct (pushOwnerLocal c ev owner rs orc cx) as [err r] eqn:E.
  intros ->. rewrite (pushOwnerLocal_ok _ _ _ _ _ _ _ E). apply lspec_partition.
Qed.
Print Assumptions c31_local_result_partition.

(* a session is only ever written for an exact route of this push that names this owner *)
Theorem c31_local_writes_exact : forall c ev owner rs orc cx w,
  In w (l_writes (snd (pushOwnerLocal c ev owner rs orc cx))) ->
  In (w_route w) rs /\ route_valid (e_msgid ev) owner (w_route w) = true.
Proof.
  intros c ev owner rs orc cx w. rewrite pushOwnerLocal_eq.
  destruct ((c_local c =? 0) || (owner =? 0) || negb (owner =? c_local c)); [intros []|].
  apply lspec_writes.
Qed.
Print Assumptions c31_local_writes_exact.

(* ---- 4. retries ---------------------------------------------------------------- *)

(* chain_exact rs l: the first attempt pushes rs, every further attempt pushes exactly
   the Retryable set of the previous one (the same routes after an error / panic);
   at most n attempts *)
Theorem c31_retry_exact : forall c ev o n rs orc cx l st orc' cx',
  pushWithRetry c ev o n rs orc cx = (l, st, orc', cx') ->
  chain_exact rs l /\ (length l <= n)%nat.
Proof. exact retry_exact. Qed.
Print Assumptions c31_retry_exact.

(* if the remote owner port honours its contract (Retryable is drawn from R) and the
   tracker grants reservations, no attempt pushes or writes a route outside R *)
Theorem c31_retry_within : forall c ev o R, o <> 0 ->
  forall n rs orc cx l st orc' cx',
  pushWithRetry c ev o n rs orc cx = (l, st, orc', cx') ->
  orc_ok orc -> remote_contract R orc -> incl rs R ->
  Forall (fun a => incl (att_routes a) R /\ a_owner a = o) l.
Proof.
  intros c ev o R Ho n rs orc cx l st orc' cx' E OK RC Hin.
  exact (proj1 (pushWithRetry_incl c ev o R Ho _ _ _ _ _ _ _ _ E OK RC Hin)).
Qed.
Print Assumptions c31_retry_within.

(* ---- 5. coverage --------------------------------------------------------------- *)

(* one group per owner; the group of owner o is exactly the list of non-suppressed
   routes (owner != 0, not the sender's own session) of the resolved targets that o
   owns, in order and with multiplicity; batching loses and repeats nothing *)
Theorem c31_coverage_batches : forall c p ans,
  let g := rs_groups (resolve_plan c p ans) in
  let expected := expected_routes (p_event p) (resolved_pairs (p_targets p) ans) in
  NoDup (g_keys g)
  /\ (forall o, g_get o g = filter (fun r => r_owner r =? o) expected)
  /\ (forall o, concat (chunks (c_batch c) (g_get o g)) = g_get o g)
  /\ (forall o b, In b (chunks (c_batch c) (g_get o g)) -> b <> [] /\ (length b <= c_batch c)%nat).
Proof.
  intros c p ans. pose proof (plan_groups_inv c p ans) as GI.
  split; [exact (gi_nodup _ _ GI)|]. split; [exact (gi_get _ _ GI)|].
  split; [intros o; apply chunks_concat, c_batch_pos| intros o b; apply chunks_bounds, c_batch_pos].
Qed.
Print Assumptions c31_coverage_batches.

(* when the plan's context never ends: for every owner the monitor's walk accepts the
   attempts (every retry pushes exactly the previous retry set) and the first attempt
   of the i-th batch hands over the i-th batch: push.Routes for a remote owner; for the
   local owner, with a session writer, one write per valid route (first_of states this
   under att_cancel a = false, which holds of every attempt here since cx = false) *)
Theorem c31_coverage_pushed : forall c p ans orc res cx,
  c_has_presence c = true -> (forall o, orc_ok (orc o)) ->
  processPlan c p ans false orc false = (res, cx) -> cx = false ->
  forall o, exists firsts,
    walk (c_retry c) 0 None (by_owner o (po_atts res)) = (true, firsts)
    /\ Forall2 (first_of c (p_event p) o)
         (chunks (c_batch c)
            (filter (fun r => r_owner r =? o)
                    (expected_routes (p_event p) (resolved_pairs (p_targets p) ans)))) firsts.
Proof. exact coverage_pushed. Qed.
Print Assumptions c31_coverage_pushed.

(* offline_of pairs [] is the list resolve_targets accumulates for the offline report
   (rs_offline (resolve_plan c p ans) when tracking is on: plan_offline in
   Proof/Delivery_props.v).  It lists, without repetition, exactly the recipients of a
   resolved target that have no route in that target's presence answer *)
Theorem c31_offline_once : forall p ans,
  let off := offline_of (resolved_pairs (p_targets p) ans) [] in
  nodup_bytes off = true
  /\ (forall u, In u off <-> offline_spec (resolved_pairs (p_targets p) ans) u = true).
Proof.
  intros p ans. destruct (offline_of_spec (resolved_pairs (p_targets p) ans) [] eq_refl) as [A B].
  split; [exact A|]. intros u. rewrite (B u). simpl. tauto.
Qed.
Print Assumptions c31_offline_once.

(* never both: a recipient listed under one target only, with presence answers scoped
   to their targets, is not pushed when it is reported offline *)
Theorem c31_offline_never_pushed : forall p ans u,
  offline_spec (resolved_pairs (p_targets p) ans) u = true ->
  (forall tr tr', In tr (resolved_pairs (p_targets p) ans) -> In tr' (resolved_pairs (p_targets p) ans) ->
      In u (t_recips (fst tr)) -> In u (t_recips (fst tr')) -> tr = tr') ->
  (forall tr, In tr (resolved_pairs (p_targets p) ans) ->
      has_route_for u (snd tr) = true -> In u (t_recips (fst tr))) ->
  forall r, In r (expected_routes (p_event p) (resolved_pairs (p_targets p) ans)) -> r_uid r <> u.
Proof. exact offline_never_pushed. Qed.
Print Assumptions c31_offline_never_pushed.

(* ---- 6. the monitors accept what the models produce -------------------------------- *)

(* plan_contract: the tracker grants reservations (no per-session limit) and a remote
   owner reports as Retryable only routes of this plan addressed to it *)
Theorem c31_plan_model_satisfies_monitor : forall c p ans panic cx0 orc,
  plan_contract p ans orc ->
  plan_monitor c p ans panic cx0 (fst (processPlan c p ans panic orc cx0)) = true.
Proof. exact plan_model_accepted. Qed.
Print Assumptions c31_plan_model_satisfies_monitor.

Theorem c31_model_satisfies_monitor_plan : forall c steps,
  (forall st, In st steps -> exists orc,
      plan_contract (pl_plan st) (pl_ans st) orc
      /\ pl_obs st = fst (processPlan c (pl_plan st) (pl_ans st) (pl_panic st) orc (pl_cx0 st))) ->
  C31_monitor (CPlan c steps) = 0.
Proof.
  intros c steps H. unfold C31_monitor, C31_ok. rewrite (proj2 (forallb_forall _ _)); [reflexivity|].
  intros st Hst. destruct (H st Hst) as (orc & PC & ->). exact (plan_model_accepted _ _ _ _ _ _ PC).
Qed.
Print Assumptions c31_model_satisfies_monitor_plan.

Theorem c31_model_satisfies_monitor_push : forall c steps,
  (forall st, In st steps -> ps_obs st = push_model c st) ->
  C31_monitor (CPush c steps) = 0.
Proof.
  intros c steps H. unfold C31_monitor, C31_ok. rewrite (proj2 (forallb_forall _ _)); [reflexivity|].
  intros st Hst. rewrite (H st Hst). apply push_model_accepted.
Qed.
Print Assumptions c31_model_satisfies_monitor_push.

Theorem c31_model_satisfies_monitor_queue : forall cap shards ops,
  C31_monitor (CQueue cap shards (q_model_steps (newOrderedPlanQueue cap shards) ops)) = 0.
Proof. intros cap shards ops. unfold C31_monitor, C31_ok. rewrite queue_model_accepted. reflexivity. Qed.
Print Assumptions c31_model_satisfies_monitor_queue.

Theorem c31_model_satisfies_monitor_shard : forall keys,
  (forall sh ty id, In (sh, ty, id) keys -> 0 < sh) ->
  C31_monitor (CShard (map shard_row_of keys)) = 0.
Proof.
  intros keys H. unfold C31_monitor, C31_ok. rewrite (shard_rows_fun_ok shardIndex); [reflexivity|].
  intros sh ty id Hin. apply N.mod_lt, N.neq_0_lt_0, (H sh ty id Hin).
Qed.
Print Assumptions c31_model_satisfies_monitor_shard.

(* the ordering clause of the concurrent monitor (times_pair_ok: plans of one channel
   enqueued one after the other have all their port calls one after the other) holds
   on the ticket data of every run of the system *)
Theorem c31_model_satisfies_monitor_order : forall (X : Type) (cap shards : nat),
  (0 < cap)%nat -> (0 < shards)%nat ->
  forall evs : list (sev X),
  all_pairs times_pair_ok (sys_times X (sys_run X cap shards evs)) = true.
Proof. exact sys_times_ok. Qed.
Print Assumptions c31_model_satisfies_monitor_order.

(* ---- 7. non-vacuity ---------------------------------------------------------------- *)

Definition ex_r (u : N) (o s : N) : route := Route [u] o 1 (1000 + s) s [] 0 0.
Definition ex_ev : event := Event 7 3 [103; 49] 2 [97] 1 9.
Definition ex_cfg : cfg := Cfg 1 2%Z 3%Z 1%Z 0%Z true true true true.
(* two targets; recipient b has no route (offline); a's own sending session (owner 1,
   session 9) is suppressed; owner 2 is remote, owner 1 local; batch size 2 *)
Definition ex_plan : plan :=
  Plan 1 ex_ev [Target 1 [[97]; [98]]; Target 1 [[99]; [100]]].
Definition ex_ans : list answer :=
  [AOk [ex_r 97 1 9; ex_r 97 1 2; ex_r 97 2 3];
   AOk [ex_r 99 2 1; ex_r 100 2 2; ex_r 100 1 4]].
(* local owner: first write retryable, then accepted on the retry; remote owner: first
   batch reports one route retryable, the transport fails once on the retry *)
Definition ex_orc (o : N) : list oout :=
  if o =? 1 then [OLocal [LWrite 2 false; LWrite 1 false]; OLocal [LWrite 1 false]]
  else if o =? 2 then
    [ORemote [ex_r 97 2 3] [ex_r 99 2 1] [] 0; ORemote [] [] [] 1; ORemote [ex_r 99 2 1] [] [] 0;
     ORemote [ex_r 100 2 2] [] [] 0]
  else [].

Example c31_example_plan :
  let r := fst (processPlan ex_cfg ex_plan ex_ans false ex_orc false) in
  po_offline r = [[[98]]]
  /\ map (fun a => (a_owner a, map r_sess (att_routes a))) (po_atts r)
     = [(1, [2; 4]); (1, [2]); (2, [3; 1]); (2, [1]); (2, [1]); (2, [2])]
  /\ po_class r = 0
  /\ plan_monitor ex_cfg ex_plan ex_ans false false r = true.
Proof. vm_compute. repeat split; reflexivity. Qed.

Example c31_example_contract : plan_contract ex_plan ex_ans ex_orc.
Proof.
  split.
  - intros o l Hl. unfold ex_orc in Hl.
    destruct (o =? 1); [|destruct (o =? 2)]; simpl in Hl.
    + destruct Hl as [E|[E|F]]; [inversion E; subst| inversion E; subst| destruct F];
        unfold no_reject; simpl; intuition discriminate.
    + intuition discriminate.
    + destruct Hl.
  - intros o acc retry drop err Hin r Hr. unfold ex_orc in Hin.
    destruct (o =? 1); [|destruct (o =? 2) eqn:E2]; simpl in Hin.
    + intuition discriminate.
    + apply N.eqb_eq in E2. subst o.
      destruct Hin as [E|[E|[E|[E|F]]]]; [inversion E; subst| inversion E; subst| inversion E; subst| inversion E; subst| destruct F];
        simpl in Hr; try (destruct Hr; fail).
      destruct Hr as [<-|F]; [|destruct F].
      split; [apply mem_route_in; vm_compute; reflexivity| reflexivity].
    + destruct Hin.
Qed.

(* the queue: capacity 2, two shards; the third enqueue parks, nodes are recycled *)
Definition ex_p (m : N) (ch : N) : plan := Plan 1 (Event m m [ch] 1 [] 0 0) [].
Example c31_example_queue :
  let cs := [CEnq false (ex_p 1 65); CEnq false (ex_p 2 65); CEnq false (ex_p 3 66);
             CPop (plan_shard 2 (ex_p 1 65)); CEnq false (ex_p 3 66); CEnq true (ex_p 4 65);
             CPop (plan_shard 2 (ex_p 1 65)); CPop (plan_shard 2 (ex_p 1 65))] in
  snd (pq_run (newq_nat 2 2) cs)
  = [REnq EnqOk; REnq EnqOk; REnq EnqFull; RPop (Some (ex_p 1 65)); REnq EnqOk; REnq EnqClosed;
     RPop (Some (ex_p 2 65)); RPop (if (plan_shard 2 (ex_p 3 66) =? plan_shard 2 (ex_p 1 65))%nat
                                    then Some (ex_p 3 66) else None)].
Proof. vm_compute. reflexivity. Qed.

(* the system: two plans of one channel, two workers; the second plan's calls come after the first's *)
Example c31_example_sys :
  let s := plan_shard 2 (ex_p 1 65) in
  let st := sys_run nat 4 2 [SEnq nat (ex_p 1 65); SEnq nat (ex_p 2 65); SPop nat s [10; 11]%nat;
                             SPop nat s [20]%nat; SCall nat s; SCall nat s; SCall nat s;
                             SPop nat s [20]%nat; SCall nat s] in
  map (fun e => (le_stamp nat e, le_time nat e)) (s_log nat st) = [(2, 9); (1, 6); (1, 5)].
Proof. vm_compute. reflexivity. Qed.
