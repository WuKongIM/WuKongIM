(* C30 — Message ids are unique and increasing.
   The model is the allocator's transition system over its atomic steps
   (Generate / floor.Load / floor.CompareAndSwap); [run evs] executes an
   ARBITRARY interleaving [evs] of any number of threads, with ARBITRARY
   generator outputs.  [log] lists completed calls, newest first, stamped with
   the logical time of call and return. *)
From WK Require Import Base.Base Model.MsgIds Proof.MsgIds.
Open Scope N_scope.

(* in completion (CAS) order ids strictly increase — hence are pairwise distinct *)
Theorem c30_unique_increasing : forall evs l1 b l2 a ida idb,
  log (run evs) = l1 ++ b :: l2 -> In a l2 ->
  d_ret a = RNext ida -> d_ret b = RNext idb -> ida < idb.
Proof.
  intros evs l1 b l2 a ida idb E Ha Ea Eb.
  pose proof (completion_order evs l1 b l2 a idb E Ha Eb) as P. rewrite Ea in P. exact P.
Qed.
Print Assumptions c30_unique_increasing.

(* once SetFloor f has returned nil, every id issued by a later CAS is > f *)
Theorem c30_floor_respected : forall evs l1 b l2 a f idb,
  log (run evs) = l1 ++ b :: l2 -> In a l2 ->
  d_ret a = RSetOk f -> d_ret b = RNext idb -> f < idb.
Proof.
  intros evs l1 b l2 a f idb E Ha Ea Eb.
  pose proof (completion_order evs l1 b l2 a idb E Ha Eb) as P. rewrite Ea in P. exact P.
Qed.
Print Assumptions c30_floor_respected.

(* the same, phrased on what a caller can observe (call/return real-time order):
   any two Next calls return different ids, and if one returned before the
   other was called its id is smaller *)
Theorem c30_realtime_next : forall evs i j a b ida idb,
  i <> j -> nth_error (log (run evs)) i = Some a -> nth_error (log (run evs)) j = Some b ->
  d_ret a = RNext ida -> d_ret b = RNext idb ->
  ida <> idb /\ (d_end a < d_start b -> ida < idb).
Proof.
  intros evs i j a b ida idb Hij Hi Hj Ea Eb. pose proof (pair_ok_run evs i j a b Hij Hi Hj) as P.
  unfold pair_ok, before in P. rewrite Ea, Eb in P. apply andb_true_iff in P. destruct P as [P1 P2].
  split; [apply N.eqb_neq, negb_true_iff, P1|]. intro Hlt. apply N.ltb_lt in Hlt. rewrite Hlt in P2. apply N.ltb_lt, P2.
Qed.
Print Assumptions c30_realtime_next.

Theorem c30_realtime_floor : forall evs i j a b f idb,
  i <> j -> nth_error (log (run evs)) i = Some a -> nth_error (log (run evs)) j = Some b ->
  d_ret a = RSetOk f -> d_ret b = RNext idb -> d_end a < d_start b -> f < idb.
Proof.
  intros evs i j a b f idb Hij Hi Hj Ea Eb Hlt. pose proof (pair_ok_run evs i j a b Hij Hi Hj) as P.
  unfold pair_ok, before in P. rewrite Ea, Eb in P. apply N.ltb_lt in Hlt. rewrite Hlt in P. apply N.ltb_lt, P.
Qed.
Print Assumptions c30_realtime_floor.

(* every change of the floor is a strict increase (no ABA on the CAS word) *)
Theorem c30_floor_strict : forall evs e,
  floor (run (evs ++ [e])) = floor (run evs) \/ floor (run evs) < floor (run (evs ++ [e])).
Proof. intros evs e. rewrite run_snoc. apply floor_step, inv_run. Qed.
Print Assumptions c30_floor_strict.

(* SetFloor never synthesises ids: the floor only ever holds generator outputs *)
Theorem c30_never_synthesises : forall evs,
  incl (stored (run evs)) (gens (run evs))
  /\ (floor (run evs) = 0 \/ In (floor (run evs)) (gens (run evs))).
Proof. intro evs. split; [apply inv_stored | apply inv_floor_gen]; apply inv_run. Qed.
Print Assumptions c30_never_synthesises.

(* the monitor evaluated on implementation histories accepts every history the model produces *)
Theorem c30_model_satisfies_monitor : forall evs sq fls,
  C30_monitor (C30Case sq (log (run evs)) fls) = 0.
Proof. exact model_satisfies_monitor. Qed.
Print Assumptions c30_model_satisfies_monitor.

(* non-vacuity: two threads race; thread 1's CAS fails and it retries with a fresh value;
   a SetFloor above the floor is accepted, a later one whose probe is too small is rejected *)
Example c30_example_race :
  let evs := [ECallNext 0; ECallNext 1; EStep 0 10; EStep 1 11; EStep 0 0; EStep 1 0;
              EStep 0 0 (* CAS ok: 10 *); EStep 1 0 (* CAS fails *); EStep 1 12; EStep 1 0; EStep 1 0;
              ECallSetFloor 0 20; EStep 0 0; EStep 0 25; EStep 0 0; EStep 0 0;
              ECallSetFloor 1 40; EStep 1 0; EStep 1 30] in
  map d_ret (log (run evs)) = [RSetErr 40; RSetOk 20; RNext 12; RNext 10] /\ floor (run evs) = 25.
Proof. vm_compute. split; reflexivity. Qed.
