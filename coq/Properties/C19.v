(* C19 — The controller state file is replaced atomically.

   Statements, each closed by [exact] of a lemma of Proof/StateFile*.v or by a few lines
   assembling such lemmas.
   Model/StateFile.v: a file system with crash semantics (durable directory + any prefix of the
   pending directory operations; unsynced inodes hold arbitrary bytes), [save_ops] = the step
   sequence of statefile.Store.Save, [Load] reads the main path (name 0) only;
   state.Encode / state.Decode over the transcribed cluster state with JSON ([parse], [render])
   and CRC-32C ([ck]) as parameters.  Trusted: POSIX (rename atomicity, fsync). *)
From WK Require Import Base.Base Gen.Consts_C18 Model.CtrlFSM Model.StateFile Model.StateFile_C19.
From WK Require Import Proof.StateFile Proof.StateFile_C19.
Open Scope N_scope.

(* a crash after ANY prefix of Save's steps, with ANY prefix of the pending directory operations on
   disk and ANY bytes in unsynced inodes: the main path reads exactly what it read before or exactly
   the new bytes, and is settled again (temp files never matter: Load reads name 0 only) *)
Theorem c19_old_or_new : forall s0 t data,
  settled s0 = true -> bounded s0 -> t <> 0 ->
  forall k j junk,
    let s := crash (run s0 (firstn k (save_ops t data))) j junk in
    (read s 0 = read s0 0 \/ read s 0 = Some data) /\ settled s = true.
Proof. exact old_or_new. Qed.
Print Assumptions c19_old_or_new.

(* any history of Save attempts each cut by a crash (completed or not): the main path holds the
   initial bytes or the complete bytes of one of the attempts — never a partial or mixed file *)
Theorem c19_history : forall junk l s0 n,
  settled s0 = true -> bounded s0 -> Forall (fun a => a_t a <> 0) l ->
  In (read (history s0 junk n l) 0) (read s0 0 :: map (fun a => Some (a_data a)) l)
  /\ settled (history s0 junk n l) = true.
Proof. exact history_reads. Qed.
Print Assumptions c19_history.

(* without a crash, readers see the old bytes until the rename and the new bytes from then on *)
Theorem c19_visible_switch : forall s0 t data,
  settled s0 = true -> bounded s0 -> t <> 0 ->
  forall k, read (run s0 (firstn k (save_ops t data))) 0 = if (k <? 5)%nat then read s0 0 else Some data.
Proof. exact visible_switch. Qed.
Print Assumptions c19_visible_switch.

(* the hook fails: the temp file is removed and the main path is untouched *)
Theorem c19_hook_failure_keeps_old : forall s0 t data,
  settled s0 = true -> bounded s0 -> t <> 0 ->
  read (run s0 (save_ops_hook_fails t data)) 0 = read s0 0
  /\ dir_get (f_dir (run s0 (save_ops_hook_fails t data))) t = None.
Proof. exact hook_failure_keeps_old. Qed.
Print Assumptions c19_hook_failure_keeps_old.

(* Decode accepts a file only if it parses to a document of the current schema whose non-empty
   checksum field equals the checksum of its own content and which validates; anything else —
   in particular a file whose content no longer matches its checksum — is rejected *)
Theorem c19_reject_corrupt : forall parse ck data s,
  Decode parse ck data = Some s ->
  exists st, parse data = Some st
             /\ s_schema st = CurrentSchemaVersion
             /\ s_checksum st <> [] /\ s_checksum st = ck st
             /\ s = set_checksum (Normalize st) (ck st) /\ Validate s = true.
Proof. exact decode_consistent. Qed.
Print Assumptions c19_reject_corrupt.

(* what Encode writes, Decode reads back (normalized, with its checksum) *)
Theorem c19_encode_decode : forall parse render ck,
  (forall s, parse (render s) = Some s) -> (forall s x, ck (set_checksum s x) = ck s) -> (forall s, ck s <> []) ->
  forall st data, Encode render ck st = Some data ->
  Decode parse ck data = Some (set_checksum (Normalize st) (ck (Normalize st))).
Proof. exact encode_decode. Qed.
Print Assumptions c19_encode_decode.

(* ---- the monitor on the model's runs ---- *)

(* whatever coding of file contents is used, the content found after a crash is coded as the
   old or as the new content *)
Theorem c19_model_satisfies_monitor_crash : forall (code : option bytes -> Z) s0 t data,
  settled s0 = true -> bounded s0 -> t <> 0 ->
  forall k j junk,
    old_or_new_b (code (read s0 0)) (code (Some data))
                 (code (read (crash (run s0 (firstn k (save_ops t data))) j junk) 0)) = true.
Proof.
  intros code s0 t data Hs Hb Ht k j junk. unfold old_or_new_b.
  destruct (old_or_new s0 t data Hs Hb Ht k j junk) as [[H|H] _]; unfold reads_old, reads_new in H;
    rewrite H, Z.eqb_refl; [reflexivity|apply orb_true_r].
Qed.
Print Assumptions c19_model_satisfies_monitor_crash.

Theorem c19_model_satisfies_monitor : forall v has_old, v < 4 ->
  let '(h, a, l) := model_hook v has_old in
  C19_monitor (HookCase v has_old h a v l) = 0 /\ C19_mismatch (HookCase v has_old h a v l) = false.
Proof. exact model_hook_ok. Qed.
Print Assumptions c19_model_satisfies_monitor.

(* every history the model can run — any sequence of Saves into one directory, each completed,
   killed inside the hook or failed by the hook, with temp names chosen fresh — satisfies the history
   clause: a Save that returned nil is what Load returns, an interrupted one leaves the previous or the
   new state *)
Theorem c19_model_satisfies_monitor_history : forall plan,
  C19_monitor (HistCase (model_hist (fs_start false) 0 plan)) = 0.
Proof.
  intro plan. unfold C19_monitor. rewrite (model_hist_ok plan (fs_start false) 0 (-1)%Z); [reflexivity| |reflexivity].
  intros m i E. discriminate E.
Qed.
Print Assumptions c19_model_satisfies_monitor_history.

(* the kill clause of the monitor is "the last reported state or the next one" *)
Theorem c19_kill_clause : forall n done loaded, n <> 0 ->
  kill_ok n done loaded = true <->
  (loaded = Z.of_N (done mod n) \/ (done <> 0 /\ loaded = Z.of_N ((done - 1) mod n)) \/ (done = 0 /\ loaded = (-1)%Z)).
Proof. exact kill_ok_spec. Qed.
Print Assumptions c19_kill_clause.

(* non-vacuity: a settled, bounded file system with a previous file *)
Example c19_example : settled (fs_start true) = true /\ settled (fs_start false) = true
                      /\ read (run (fs_start true) (save_ops 1 [1])) 0 = Some [1].
Proof. repeat split; vm_compute; reflexivity. Qed.
