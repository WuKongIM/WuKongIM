(* C26 — Node transport frames and RPC responses are correctly correlated.
   Statements; each is closed by a lemma of Proof/*.v or by a few lines that
   instantiate or assemble such lemmas.
   Part (a): wire header codec, ReadFrame, WriteFrames (Model/Wire.v).
   Part (b): the RPC pending table and Conn.Call correlation (Model/Pending.v): the
   correlation theorems hold over ALL interleavings of the table's atomic steps; the
   FailAll, method/step, monitor and conn theorems are about sequential histories.

   Vocabulary defined in Proof/: [frame_in_domain f] (Proof/Wire.v): Kind, Priority,
   ServiceID and RequestID of f's header fit their Go types; [msgs g] (Proof/Pending.v):
   the messages in flight, buffered and received; [closes_local script]
   (Proof/Pending_conn.v): no local Close carries a peer-originated error class. *)
From WK Require Import Base.Base Base.Lists Base.Bytes Gen.Consts_C26 Model.Wire Model.Pending Model.C26Case.
From WK Require Import Proof.Wire Proof.Wire_monitor Proof.Pending Proof.Pending_monitor Proof.Pending_conn.
Open Scope N_scope.

(* ---- (a) every frame header round-trips ---------------------------------- *)

(* a header with a known kind and priority, field values in their Go types'
   ranges and BodyLen <= max decodes to itself from its 24-byte encoding,
   whatever follows it on the wire *)
Theorem c26_header_roundtrip : forall h rest max, header_ok h max = true ->
  decode_header (encode_header h ++ rest) max = WOk h.
Proof. exact header_roundtrip. Qed.
Print Assumptions c26_header_roundtrip.

(* DecodeHeader after EncodeHeader is exactly the outbound validation, for every header *)
Theorem c26_decode_encode : forall h rest max, header_in_domain h = true ->
  decode_header (encode_header h ++ rest) max =
  match validate_outbound_header h max with Some e => WErr e | None => WOk h end.
Proof. exact decode_encode. Qed.
Print Assumptions c26_decode_encode.

(* the other direction: whatever DecodeHeader accepts is the encoding of what it
   returns (no two distinct 24-byte headers decode to the same Header) *)
Theorem c26_accepted_is_encoding : forall enc max h, all_bytes enc = true ->
  decode_header enc max = WOk h -> firstn header_size enc = encode_header h.
Proof. exact decode_ok_is_encoding. Qed.
Print Assumptions c26_accepted_is_encoding.

(* ---- (a) malformed headers are rejected ----------------------------------- *)

(* bad magic, version, flags, reserved bits, kind, priority, oversize body (or a
   short buffer) => a validation error, never a header *)
Theorem c26_reject : forall enc max, hdr_malformed enc max = true ->
  exists e, decode_header enc max = WErr e /\ validation_error e = true.
Proof. exact malformed_rejected. Qed.
Print Assumptions c26_reject.

(* and only those are rejected *)
Theorem c26_accept_iff_wellformed : forall enc max,
  (exists h, decode_header enc max = WOk h) <-> hdr_malformed enc max = false.
Proof.
  intros enc max. split.
  - intros [h D]. exact (decode_ok_wellformed enc max h D).
  - exact (wellformed_accepted enc max).
Qed.
Print Assumptions c26_accept_iff_wellformed.

(* ---- (a) ... before the body is allocated ---------------------------------- *)

(* ReadFrame reaches the body allocator only with the BodyLen of a header that
   passed every check; that length is within [0, max] *)
Theorem c26_validate_before_alloc : forall stream max n,
  ro_alloc (read_frame stream max) = Some n ->
  exists h, decode_header (firstn header_size stream) max = WOk h /\ n = h_bodylen h
            /\ body_exceeds_max n max = false /\ (0 <= max)%Z /\ (Z.of_N n <= max)%Z.
Proof. exact read_alloc_validated. Qed.
Print Assumptions c26_validate_before_alloc.

(* a header that fails validation ends ReadFrame right after the 24 header
   bytes: no allocation, no byte of the body consumed *)
Theorem c26_rejected_header_stops_reader : forall stream max e,
  ro_res (read_frame stream max) = WErr e -> validation_error e = true ->
  ro_alloc (read_frame stream max) = None /\ ro_consumed (read_frame stream max) = HeaderSize.
Proof. exact validation_error_stops_at_header. Qed.
Print Assumptions c26_rejected_header_stops_reader.

(* ---- (a) frames round-trip through WriteFrames / ReadFrame ------------------ *)

(* [written_frames fs]: the frames with BodyLen set to the body length; nothing is assumed
   about what follows them on the wire *)
Theorem c26_frames_roundtrip : forall fs max b rest, forallb frame_in_domain fs = true ->
  write_frames fs max = WOk b ->
  read_frames (length fs) (b ++ rest) max = written_frames fs.
Proof. exact write_read_roundtrip. Qed.
Print Assumptions c26_frames_roundtrip.

(* ---- the monitor of part (a) accepts every trace of the model -------------- *)

Theorem c26_wire_model_satisfies_monitor :
  (forall enc max, all_bytes enc = true ->
     C26_monitor (C26Dec enc max (decode_header enc max) (reenc_of (decode_header enc max))) = 0)
  /\ (forall h max, header_in_domain h = true ->
     C26_monitor (C26Enc h max (encode_header h) (decode_header (encode_header h) max)) = 0)
  /\ (forall stream max, all_bytes stream = true ->
     let o := read_frame stream max in
     C26_monitor (C26Read stream max (ro_res o) (ro_consumed o) (ro_beyond o) (ro_alloc_over o)
                          (reenc_of_hb (ro_res o))) = 0)
  /\ (forall fs max, forallb frame_in_domain fs = true ->
     C26_monitor (C26Write fs max (write_frames fs max)
        (match write_frames fs max with WOk b => read_frames (length fs) b max | WErr _ => [] end)) = 0).
Proof.
  repeat split; intros; cbn [C26_monitor].
  - rewrite mon_dec_model by assumption. reflexivity.
  - rewrite mon_enc_model by assumption. reflexivity.
  - rewrite mon_read_model by assumption. reflexivity.
  - rewrite mon_write_model by assumption. reflexivity.
Qed.
Print Assumptions c26_wire_model_satisfies_monitor.

(* ---- (b) each call receives exactly its own response or an error -------------------

   [trun cap ginit tr = Some g]: tr is any interleaving of the table's atomic steps
   (insert under the shard lock, Complete's lookup+delete, FailAll's close and
   per-entry sweep, every individual trySend, every receive) performed by
   well-formed clients: request ids are never reused and every call registers its
   own buffered channel (Conn.Call: atomic counter + make(chan, 1)). *)

(* never another call's response: a message completed for request id [id] that
   channel [c] received was registered by the call that owns [c], and [c] has no
   other owner *)
Theorem c26_exactly_own : forall cap tr g c m id,
  trun cap ginit tr = Some g -> In (c, m) (g_recvd g) -> m_tag m = Some id ->
  In (c, id) (g_owner g) /\ forall id', In (c, id') (g_owner g) -> id' = id.
Proof.
  intros cap tr g c m id R IN T. pose proof (reach_init cap tr g R) as I.
  assert (O : In (c, id) (g_owner g)).
  { apply (inv_msgs cap g I c m id); [exact (in_msgs_recvd g _ IN)|exact T]. }
  split; [exact O|]. intros id' O'.
  exact (f_equal snd (NoDup_map_inj fst _ _ _ (inv_owner_chan cap g I) O' O eq_refl)).
Qed.
Print Assumptions c26_exactly_own.

(* a response completed for [id] is never in flight to, buffered in, or received
   from any channel but the one [id] was registered with *)
Theorem c26_response_goes_to_owner : forall cap tr g c c' m id,
  trun cap ginit tr = Some g -> In (c, m) (msgs g) -> m_tag m = Some id ->
  In (c', id) (g_owner g) -> c = c'.
Proof.
  intros cap tr g c c' m id R IN T O'. pose proof (reach_init cap tr g R) as I.
  exact (f_equal fst (NoDup_map_inj snd _ _ _ (inv_owner_id cap g I) (inv_msgs cap g I c m id IN T) O' eq_refl)).
Qed.
Print Assumptions c26_response_goes_to_owner.

(* a caller receives at most one value (response or error) *)
Theorem c26_at_most_one : forall cap tr g c,
  trun cap ginit tr = Some g -> count_chan c (g_recvd g) <= 1.
Proof.
  intros cap tr g c R. exact (count_chan_nodup c _ (nodup_recvd cap g (reach_init cap tr g R))).
Qed.
Print Assumptions c26_at_most_one.

(* the non-blocking send never finds the caller's buffer full: no response is
   dropped although trySend may drop *)
Theorem c26_no_drop : forall cap tr g, trun cap ginit tr = Some g -> g_drops g = 0.
Proof. intros cap tr g R. exact (inv_drops cap g (reach_init cap tr g R)). Qed.
Print Assumptions c26_no_drop.

(* FailAll empties and closes the table; afterwards no method registers anything *)
Theorem c26_no_leak_after_failall : forall caps e s,
  let s1 := fail_all (cap_of caps) e s in
  ps_entries s1 = [] /\ ps_closed s1 = true
  /\ forall ops, let final := fold_left (fun st o => fst (pstep caps st o)) ops s1 in
                 ps_entries final = [] /\ ps_closed final = true.
Proof.
  intros caps e s. cbv zeta. destruct (fail_all_empties_closes (cap_of caps) e s) as [E C].
  split; [exact E|]. split; [exact C|].
  intro ops. revert E C. generalize (fail_all (cap_of caps) e s).
  induction ops as [|o ops IH]; intros s1 E C; cbn [fold_left]; [split; assumption|].
  destruct (closed_stays_empty caps s1 o C E) as [C' E']. exact (IH _ E' C').
Qed.
Print Assumptions c26_no_leak_after_failall.

(* Complete and Store, as used for the sequential correspondence, are the step sequences a
   single uninterrupted call performs (FailAll is not linked to its steps by a theorem) *)
Theorem c26_complete_is_remove_then_send : forall cap id p e g,
  ps_inflight (g_st g) = [] ->
  exists g', trun cap g [TRemove id p e; TSend 0] = Some g'
             /\ g_st g' = fst (complete cap id p e (g_st g)).
Proof. exact complete_as_steps. Qed.
Print Assumptions c26_complete_is_remove_then_send.

Theorem c26_store_is_insert_or_fail : forall cap id c g,
  ps_inflight (g_st g) = [] -> id_used id g = false -> chan_used c g = false -> 1 <= cap c ->
  exists g', trun cap g (if ps_closed (g_st g) then [TStoreClosed c; TSend 0] else [TInsert id c]) = Some g'
             /\ g_st g' = store cap id c (g_st g).
Proof. exact store_as_steps. Qed.
Print Assumptions c26_store_is_insert_or_fail.

(* the table monitor accepts every sequential history of the model (the monitor does not look
   at the shard fields of the case; they are compared by [C26_mismatch] only) *)
Theorem c26_pending_model_satisfies_monitor : forall nshards caps ops,
  C26_monitor (C26Pend nshards caps (combine ops (prun caps pinit ops))
                       (shard_count nshards) []) = 0.
Proof. intros. cbn [C26_monitor]. rewrite mon_pend_model. reflexivity. Qed.
Print Assumptions c26_pending_model_satisfies_monitor.

(* conn level (conn.Conn.Call over a scripted peer): every script the model's
   acceptor accepts satisfies the conn monitor — a call only returns a payload or
   remote error that the peer wrote for the request id that carried that call's
   request, and request ids on the wire are pairwise distinct.  [closes_local]:
   the error handed to a local Close is not one of the peer-originated classes. *)
Theorem c26_conn_accept_implies_monitor : forall script final,
  closes_local script = true ->
  C26_mismatch (C26Conn script final) = false -> C26_monitor (C26Conn script final) = 0.
Proof.
  intros script final CL MM. cbn [C26_mismatch C26_monitor] in *.
  destruct (crun cinit script) as [s ok] eqn:R. apply negb_false_iff, andb_true_iff in MM. destruct MM as [-> FO].
  rewrite (conn_accept_monitor script final s CL R FO). reflexivity.
Qed.
Print Assumptions c26_conn_accept_implies_monitor.

(* stress runs: the monitor is the acceptance predicate itself *)
Theorem c26_stress_monitor_is_acceptance : forall calls,
  C26_mismatch (C26Stress calls) = false <-> C26_monitor (C26Stress calls) = 0.
Proof.
  intro calls. cbn [C26_mismatch C26_monitor]. destruct (forallb stress_allowed calls); cbn; split; intro H; try reflexivity; discriminate.
Qed.
Print Assumptions c26_stress_monitor_is_acceptance.

(* non-vacuity of (b): a concrete interleaving where a duplicate response and a
   late response race with a cancellation *)
Example c26_example_interleaving :
  match trun (fun _ => 1) ginit
          [TInsert 1 10; TInsert 2 20; TRemove 2 (hx "62") 0; TRemove 1 (hx "61") 0;
           TRemove 2 (hx "ff") 0; TSend 1; TDelete 1; TSend 0; TRecv 20; TRecv 10; TRecv 20] with
  | Some g => g_recvd g = [(10, Msg (Some 1) (hx "61") 0); (20, Msg (Some 2) (hx "62") 0)]
              /\ g_drops g = 0 /\ ps_entries (g_st g) = []
  | None => False
  end.
Proof. vm_compute. repeat split; reflexivity. Qed.

(* non-vacuity *)
Example c26_example_header :
  let h := Header FrameKindRPCRequest PriorityRPC 7 42 5 in
  header_ok h 64 = true
  /\ encode_header h = hx "574b010003030007000000000000002a0000000500000000"
  /\ decode_header (encode_header h) 4 = WErr ETooLarge
  /\ hdr_malformed (hx "574b020003030007000000000000002a0000000500000000") 64 = true.
Proof. vm_compute. repeat split; reflexivity. Qed.
