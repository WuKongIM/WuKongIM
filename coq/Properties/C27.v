(* C27 — Internal cluster codecs round-trip and reject garbage.
   Only statements; each is closed by a lemma of Proof/ClusterCodec*.v or by a few lines that
   instantiate or assemble such lemmas.

   Reading guide.  [fmt A] is the description language of Model/ClusterCodecBase.v;
   [decode f], [encode f], [wf f] (the encoder's domain, a boolean) and
   [allocs f] (the allocation requests a decoder issues) are its ONE
   interpreter.  Part 1 states the combinator lemmas once, for every format.
   Parts 2-5 instantiate them for the Go codecs (the functions named as in the
   code).  Part 6 ties the monitor run on implementation traces to the
   theorems.  Part 7 is the refuted clause (known finding C27-K1). *)
From WK Require Import Base.Base Base.Bytes Gen.Consts_C27.
From WK Require Import Model.ClusterCodecBase Model.ClusterCodec_Replication Model.ClusterCodec_Propose
  Model.ClusterCodec_Channels Model.ClusterCodec_SlotFSM Model.ClusterCodec_C27.
From WK Require Import Proof.ClusterCodecBase Proof.ClusterCodec_Replication Proof.ClusterCodec_Propose
  Proof.ClusterCodec_Channels Proof.ClusterCodec_SlotFSM Proof.ClusterCodec_C27.
Open Scope N_scope.

(* ================= 1. the combinators, for every format ================================= *)

(* round trip, with any bytes after the encoding left untouched *)
Theorem c27_combinator_roundtrip : forall A (f : fmt A) v rest,
  wf f v = true -> decode f (encode f v ++ rest) = Some (v, rest).
Proof. exact decode_encode. Qed.
Print Assumptions c27_combinator_roundtrip.

(* a successful parse does not depend on what follows the bytes it consumed *)
Theorem c27_combinator_stable : forall A (f : fmt A) a v r b,
  decode f a = Some (v, r) -> decode f (a ++ b) = Some (v, r ++ b).
Proof. exact decode_stable. Qed.
Print Assumptions c27_combinator_stable.

(* every strict prefix of an encoding is rejected by the whole-input decoder *)
Theorem c27_combinator_truncation_rejected : forall A (f : fmt A) v p s,
  wf f v = true -> encode f v = p ++ s -> s <> [] -> decode_full f p = None.
Proof. exact truncation_rejected. Qed.
Print Assumptions c27_combinator_truncation_rejected.

(* ... and so is an encoding followed by anything *)
Theorem c27_combinator_trailing_rejected : forall A (f : fmt A) v s,
  wf f v = true -> s <> [] -> decode_full f (encode f v ++ s) = None.
Proof. exact trailing_rejected. Qed.
Print Assumptions c27_combinator_trailing_rejected.

(* allocation is bounded BEFORE it happens, on every input: a slice whose declared count
   is checked against a constant has at most [c] elements ([r] = false: no other kind of
   count occurs), one checked against the remaining input at most that many, a byte
   copy is never longer than the input *)
Theorem c27_combinator_alloc_bounded : forall A (f : fmt A) r c bs,
  capped r c f -> Forall (alloc_ok r c (blen bs)) (allocs f bs).
Proof. exact allocs_bounded. Qed.
Print Assumptions c27_combinator_alloc_bounded.

(* the declared count of a list is checked before [make] *)
Theorem c27_count_checked_first : forall ck max a n r,
  p_count ck max a = Some (Some n, r) ->
  (ck_rem ck = false -> n <= max) /\ (ck_rem ck = true -> n <= blen r).
Proof. exact p_count_bounded. Qed.
Print Assumptions c27_count_checked_first.

(* encoding/binary.PutUvarint / Uvarint *)
Theorem c27_uvarint_roundtrip : forall x rest,
  x < 18446744073709551616 -> p_uvarint (put_uvarint x ++ rest) = Some (x, rest).
Proof. exact p_uvarint_put. Qed.
Print Assumptions c27_uvarint_roundtrip.

(* the equality the case comparison uses is sound *)
Theorem c27_veqb_sound : forall A (f : fmt A) x y, veqb f x y = true -> x = y.
Proof. exact veqb_sound. Qed.
Print Assumptions c27_veqb_sound.

(* ================= 2. pkg/channel/replication/codec.go ===================================== *)

Theorem c27_replication_result_roundtrip : forall b e,
  wf exchangeBatchResult b = true ->
  EncodeExchangeBatchResult b = Some e -> DecodeExchangeBatchResult e = Some b.
Proof. exact result_roundtrip. Qed.
Print Assumptions c27_replication_result_roundtrip.

Theorem c27_replication_result_truncation_rejected : forall b e p s,
  wf exchangeBatchResult b = true -> EncodeExchangeBatchResult b = Some e ->
  e = p ++ s -> s <> [] -> DecodeExchangeBatchResult p = None.
Proof. exact result_truncation_rejected. Qed.
Print Assumptions c27_replication_result_truncation_rejected.

Theorem c27_replication_result_trailing_rejected : forall b e s,
  wf exchangeBatchResult b = true -> EncodeExchangeBatchResult b = Some e -> s <> [] ->
  DecodeExchangeBatchResult (e ++ s) = None.
Proof. exact result_trailing_rejected. Qed.
Print Assumptions c27_replication_result_trailing_rejected.

(* any input whatever: slices of at most 256 elements, byte copies no longer than the input *)
Theorem c27_replication_result_alloc_bounded : forall data,
  Forall (alloc_ok false 256 (blen data)) (allocs exchangeBatchResult data).
Proof. intro data. exact (allocs_bounded _ _ _ _ data exchangeBatchResult_capped). Qed.
Print Assumptions c27_replication_result_alloc_bounded.

(* request frames; [valid i item] stands for request.Valid() of the item at position i *)
Theorem c27_replication_batch_roundtrip : forall valid b e,
  wf (exchangeBatch valid) b = true ->
  EncodeExchangeBatch valid b = Some e -> DecodeExchangeBatch valid e = Some b.
Proof. exact batch_roundtrip. Qed.
Print Assumptions c27_replication_batch_roundtrip.

Theorem c27_replication_batch_truncation_rejected : forall valid b e p s,
  wf (exchangeBatch valid) b = true -> EncodeExchangeBatch valid b = Some e ->
  e = p ++ s -> s <> [] -> DecodeExchangeBatch valid p = None.
Proof. exact batch_truncation_rejected. Qed.
Print Assumptions c27_replication_batch_truncation_rejected.

Theorem c27_replication_batch_trailing_rejected : forall valid b e s,
  wf (exchangeBatch valid) b = true -> EncodeExchangeBatch valid b = Some e -> s <> [] ->
  DecodeExchangeBatch valid (e ++ s) = None.
Proof. exact batch_trailing_rejected. Qed.
Print Assumptions c27_replication_batch_trailing_rejected.

Theorem c27_replication_batch_alloc_bounded : forall valid data,
  Forall (alloc_ok false 256 (blen data)) (allocs (exchangeBatch valid) data).
Proof. intros valid data. exact (allocs_bounded _ _ _ _ data (exchangeBatch_capped valid)). Qed.
Print Assumptions c27_replication_batch_alloc_bounded.

(* Whatever the decoders accept — from ANY byte string — is within the declared bounds:
   at most 256 items, at most 256 entries / proposals / records / indexes per slice,
   versions within uint16, sizes within int, request ids non-zero and, for request frames,
   Valid() at every position (the accept set is inside the encoder's domain) *)
Theorem c27_replication_result_decoded_in_bounds : forall data b,
  all_bytes data = true -> DecodeExchangeBatchResult data = Some b -> wf exchangeBatchResult b = true.
Proof. exact result_decoded_in_bounds. Qed.
Print Assumptions c27_replication_result_decoded_in_bounds.

Theorem c27_replication_batch_decoded_in_bounds : forall valid data b,
  all_bytes data = true -> DecodeExchangeBatch valid data = Some b -> wf (exchangeBatch valid) b = true.
Proof. exact batch_decoded_in_bounds. Qed.
Print Assumptions c27_replication_batch_decoded_in_bounds.

(* the same for every format whose counts are checked against constants *)
Theorem c27_combinator_decoded_in_domain : forall A (f : fmt A) a v r,
  wfmt f -> all_bytes a = true -> decode f a = Some (v, r) -> wf f v = true /\ all_bytes r = true.
Proof. exact decode_wf. Qed.
Print Assumptions c27_combinator_decoded_in_domain.

(* whatever is decoded has the only version, a valid priority and 1..256 items *)
Theorem c27_replication_batch_decoded_bounds : forall valid data b,
  DecodeExchangeBatch valid data = Some b ->
  eb_version b = ExchangeVersion /\ priority_valid (eb_priority b) = true
  /\ 1 <= blen (eb_items b) <= MaxExchangeBatchItems.
Proof. exact batch_decoded_bounds. Qed.
Print Assumptions c27_replication_batch_decoded_bounds.

(* ================= 3. pkg/cluster/propose/codec.go, pkg/cluster/net/codec.go ================ *)

Theorem c27_propose_payload_roundtrip : forall slot cmd,
  slot < 65536 -> DecodePayload (EncodePayload slot cmd) = Some (slot, cmd).
Proof. exact payload_roundtrip. Qed.
Print Assumptions c27_propose_payload_roundtrip.

Theorem c27_propose_payload_short_rejected : forall p, (length p < 3)%nat -> DecodePayload p = None.
Proof. exact payload_short_rejected. Qed.
Print Assumptions c27_propose_payload_short_rejected.

(* The envelope has no length field: a prefix of at least 3 bytes IS the envelope of a
   shorter command.  The truncation clause of C27 can only be asked of the header. *)
Theorem c27_propose_payload_prefix_is_envelope : forall slot cmd k,
  slot < 65536 -> (k <= length cmd)%nat ->
  firstn (3 + k) (EncodePayload slot cmd) = EncodePayload slot (firstn k cmd).
Proof. intros slot cmd k _ _. apply payload_prefix. Qed.
Print Assumptions c27_propose_payload_prefix_is_envelope.

Theorem c27_propose_forward_roundtrip : forall r,
  forward_wf r = true ->
  exists e, EncodeForwardRequest r = Some e /\ DecodeForwardRequest e = Some r.
Proof. exact forward_roundtrip. Qed.
Print Assumptions c27_propose_forward_roundtrip.

Theorem c27_propose_forward_truncation_rejected : forall r e p s,
  forward_wf r = true -> EncodeForwardRequest r = Some e ->
  e = p ++ s -> s <> [] -> DecodeForwardRequest p = None.
Proof. exact forward_truncation_rejected. Qed.
Print Assumptions c27_propose_forward_truncation_rejected.

Theorem c27_net_header_roundtrip : forall version kind payload,
  CheckHeader (PutHeader [] version kind ++ payload) version kind = Some payload.
Proof. exact header_roundtrip. Qed.
Print Assumptions c27_net_header_roundtrip.

Theorem c27_net_header_short_rejected : forall p v k, (length p < 2)%nat -> CheckHeader p v k = None.
Proof. exact header_short_rejected. Qed.
Print Assumptions c27_net_header_short_rejected.

Theorem c27_net_header_mismatch_rejected : forall v k v' k' payload,
  (v =? v') && (k =? k') = false -> CheckHeader (PutHeader [] v k ++ payload) v' k' = None.
Proof. exact header_mismatch_rejected. Qed.
Print Assumptions c27_net_header_mismatch_rejected.

(* ================= 4. pkg/cluster/channels/codec.go ========================================== *)

(* for EVERY frame format (f_pull, f_append_batch, f_pull_response, ... are instances) *)
Theorem c27_channels_frame_roundtrip : forall A (f : fmt (N * A)) vx e,
  wf f vx = true -> encode_frame f vx = Some e -> decode_frame f e = Some vx.
Proof. exact frame_roundtrip. Qed.
Print Assumptions c27_channels_frame_roundtrip.

Theorem c27_channels_frame_truncation_rejected : forall A (f : fmt (N * A)) vx e p s,
  wf f vx = true -> encode_frame f vx = Some e -> e = p ++ s -> s <> [] -> decode_frame f p = None.
Proof. exact frame_truncation_rejected. Qed.
Print Assumptions c27_channels_frame_truncation_rejected.

Theorem c27_channels_frame_trailing_rejected : forall A (f : fmt (N * A)) vx e s,
  wf f vx = true -> encode_frame f vx = Some e -> s <> [] -> decode_frame f (e ++ s) = None.
Proof. exact frame_trailing_rejected. Qed.
Print Assumptions c27_channels_frame_trailing_rejected.

(* every count of the fourteen modelled frames is checked against the remaining input ... *)
Theorem c27_channels_frames_count_checked :
  capped true 0 f_pull /\ capped true 0 f_pull_batch /\ capped true 0 f_ack /\ capped true 0 f_pull_hint
  /\ capped true 0 f_pull_hint_batch /\ capped true 0 f_notify /\ capped true 0 f_append
  /\ capped true 0 f_append_batch /\ capped true 0 f_last_visible /\ capped true 0 f_conversation_heads
  /\ capped true 0 f_committed_reads /\ capped true 0 f_pull_response /\ capped true 0 f_append_response
  /\ capped true 0 f_last_visible_response.
Proof.
  exact channels_frames_capped.
Qed.
Print Assumptions c27_channels_frames_count_checked.

(* ... hence on any input no make([]T, n) has n above the input length *)
Theorem c27_channels_alloc_bounded : forall A (f : fmt A) data,
  capped true 0 f ->
  Forall (fun a => match a with AList n => n <= blen data | ABytes n => n <= blen data end) (allocs f data).
Proof. exact channels_alloc_bounded. Qed.
Print Assumptions c27_channels_alloc_bounded.

Theorem c27_channels_version_refused : forall A (f : fmt (N * A)) vx,
  version_writable (fst vx) = false -> encode_frame f vx = None.
Proof. exact frame_version_refused. Qed.
Print Assumptions c27_channels_version_refused.

(* ================= 5. pkg/slot/fsm/command.go ================================================== *)

Theorem c27_fsm_command_roundtrip : forall c e,
  command_wf c = true -> encodeCommand c = Some e -> decodeCommand e = Some c.
Proof. exact command_roundtrip. Qed.
Print Assumptions c27_fsm_command_roundtrip.

(* A modelled command is decoded only from "header + whole fields": bytes ending inside a
   field are rejected.  (A frame cut AT a field boundary is again a frame — absent fields
   keep their zero value, by the format's design — see c27_fsm_prefix_at_boundary.) *)
Theorem c27_fsm_decoded_is_complete : forall data c,
  decodeCommand data = Some c -> (forall t, c <> CmdOther t) -> tlv_complete data = true.
Proof. exact decoded_is_complete. Qed.
Print Assumptions c27_fsm_decoded_is_complete.

Theorem c27_fsm_prefix_at_boundary : forall u,
  str_ok (u_uid u) = true ->
  decodeCommand ([commandVersion; cmdTypeUpsertUser] ++ enc_fields [(tagUserUID, u_uid u)])
  = Some (CmdUpsertUser (User (u_uid u) [] 0 0)).
Proof. exact user_prefix_at_boundary. Qed.
Print Assumptions c27_fsm_prefix_at_boundary.

Theorem c27_fsm_unknown_type_rejected : forall v t body,
  existsb (N.eqb t) commandTypes = false -> decodeCommand (v :: t :: body) = None.
Proof. exact unknown_type_rejected. Qed.
Print Assumptions c27_fsm_unknown_type_rejected.

(* ================= 6. the monitor accepts the traces of the model ================================
   stated for: result frames in value, truncation and mutated / arbitrary bytes mode; request
   frames, forward requests, one channels frame (f_append_batch; the lemma behind it holds for
   every frame format) and FSM commands in value mode *)

(* value mode: the model's own encoding, decode, accepted prefixes; no allocation *)
Theorem c27_model_satisfies_monitor : forall b e,
  wf exchangeBatchResult b = true -> EncodeExchangeBatchResult b = Some e ->
  C27_monitor (C27Case 0 e true (PReplResult (Some b) (DecodeExchangeBatchResult e)) false
                       (model_trunc_ok DecodeExchangeBatchResult e) 0 0 0) = 0.
Proof.
  intros b e W E.
  exact (monitor_eq_model _ _ _ _ _ _ _ b e (veqb_refl _ _ b W) W (result_roundtrip b e W E)
           (fun p s => result_truncation_rejected b e p s W E)).
Qed.
Print Assumptions c27_model_satisfies_monitor.

(* truncation mode *)
Theorem c27_model_prefix_satisfies_monitor : forall b e p s,
  wf exchangeBatchResult b = true -> EncodeExchangeBatchResult b = Some e -> e = p ++ s -> s <> [] ->
  C27_monitor (C27Case 1 p true (PReplResult None (DecodeExchangeBatchResult p)) false [] 0 0 0) = 0.
Proof.
  intros b e p s W E Hp Hs. exact (monitor_eq_prefix _ _ _ _ _ _ _ _ (result_truncation_rejected b e p s W E Hp Hs)).
Qed.
Print Assumptions c27_model_prefix_satisfies_monitor.

(* mutated / arbitrary bytes *)
Theorem c27_model_bytes_satisfy_monitor : forall mode data,
  2 <= mode -> all_bytes data = true ->
  C27_monitor (C27Case mode data true (PReplResult None (DecodeExchangeBatchResult data)) false [] 0 0 0) = 0.
Proof.
  intros mode data M B.
  exact (monitor_eq_bytes _ _ _ _ _ _ _ _ _ _ M (fun y D => result_decoded_in_bounds data y B D)).
Qed.
Print Assumptions c27_model_bytes_satisfy_monitor.

Theorem c27_model_satisfies_monitor_batch : forall bits b e,
  wf (exchangeBatch (valid_of bits)) b = true -> EncodeExchangeBatch (valid_of bits) b = Some e ->
  C27_monitor (C27Case 0 e true (PReplBatch bits (Some b) (DecodeExchangeBatch (valid_of bits) e)) false
                       (model_trunc_ok (DecodeExchangeBatch (valid_of bits)) e) 0 0 0) = 0.
Proof.
  intros bits b e W E.
  exact (monitor_eq_model _ _ _ _ _ _ _ b e (veqb_refl _ _ b W) W (batch_roundtrip _ b e W E)
           (fun p s => batch_truncation_rejected _ b e p s W E)).
Qed.
Print Assumptions c27_model_satisfies_monitor_batch.

Theorem c27_model_satisfies_monitor_forward : forall r e,
  forward_wf r = true -> EncodeForwardRequest r = Some e ->
  C27_monitor (C27Case 0 e true (PForward (Some r) (DecodeForwardRequest e)) false
                       (model_trunc_ok DecodeForwardRequest e) 0 0 0) = 0.
Proof.
  intros r e W E. destruct (forward_roundtrip r W) as (e' & E' & D). rewrite E in E'. injection E' as <-.
  exact (monitor_eq_model _ _ _ _ _ _ _ r e (forward_eqb_refl r) eq_refl D
           (fun p s => forward_truncation_rejected r e p s W E)).
Qed.
Print Assumptions c27_model_satisfies_monitor_forward.

Theorem c27_model_satisfies_monitor_channels : forall vx e,
  wf f_append_batch vx = true -> encode_frame f_append_batch vx = Some e ->
  C27_monitor (C27Case 0 e true (PChAppendBatch (Some vx) (decode_frame f_append_batch e)) false
                       (model_trunc_ok (decode_frame f_append_batch) e) 0 0 0) = 0.
Proof. intros vx e. exact (frame_model_satisfies_monitor _ f_append_batch clear_append_batch _ vx e). Qed.
Print Assumptions c27_model_satisfies_monitor_channels.

Theorem c27_model_satisfies_monitor_fsm : forall c e,
  command_wf c = true -> encodeCommand c = Some e ->
  C27_monitor (C27Case 0 e true (PFsm (Some c) (decodeCommand e)) false
                       (model_trunc_ok (fun p => match decodeCommand p with
                                                  | Some (CmdOther _) => None | r => r end) e) 0 0 0) = 0.
Proof. exact fsm_model_satisfies_monitor. Qed.
Print Assumptions c27_model_satisfies_monitor_fsm.

(* ================= 7. refuted: the channels codec drops struct fields (C27-K1) =================== *)

(* FULL STATEMENT (false of the faithful model and of the code):
     forall vx e, fields of vx in range -> encode_frame f_append_batch vx = Some e ->
                  decode_frame f_append_batch e = Some vx.
   appendMessage does not write Message.SyncOnce (nor appendRecord Record.SyncOnce, nor
   appendMeta Meta.RouteGeneration): *)
Theorem c27_channels_sync_once_not_encoded : forall ver m,
  encode (readMessage ver) m =
  encode (readMessage ver)
         (CMessage (cm_id m) (cm_seq m) (cm_channel_id m) (cm_channel_type m) (cm_setting m) (cm_from_uid m)
                   (cm_client_msg_no m) (cm_ts m) (cm_trace_id m) (cm_channel_key m) false (cm_payload m)).
Proof. exact message_sync_once_not_encoded. Qed.
Print Assumptions c27_channels_sync_once_not_encoded.

Theorem c27_channels_decoded_sync_once_false : forall ver data m r,
  decode (readMessage ver) data = Some (m, r) -> cm_sync_once m = false.
Proof. exact message_decoded_sync_once_false. Qed.
Print Assumptions c27_channels_decoded_sync_once_false.

(* the witness (corpus/C27/k1_append_batch_synconce.json; reproduced on the code):
   a forwarded append batch with one sync-once message decodes to the same batch
   WITHOUT the flag *)
Theorem c27_channels_roundtrip_refuted :
  exists e, encode_frame f_append_batch (k1_request true) = Some e
            /\ decode_frame f_append_batch e = Some (k1_request false)
            /\ k1_request false <> k1_request true.
Proof. exact append_batch_sync_once_lost. Qed.
Print Assumptions c27_channels_roundtrip_refuted.

(* and the monitor gives that trace the finding's code, not 0 and not 1 *)
Theorem c27_k1_witness_has_code_2 :
  exists e, encode_frame f_append_batch (k1_request true) = Some e /\
    C27_monitor (C27Case 0 e true (PChAppendBatch (Some (k1_request true)) (decode_frame f_append_batch e)) false
                         [] 0 0 0) = 2.
Proof. exact k1_witness_has_code_2. Qed.
Print Assumptions c27_k1_witness_has_code_2.

(* ================= non-vacuity ======================================================================= *)

(* a two-item result frame is in the domain and is encoded *)
Example c27_example_result : wf exchangeBatchResult ex_result = true
                             /\ exists e, EncodeExchangeBatchResult ex_result = Some e.
Proof. split; [exact ex_result_wf|exact ex_result_encodes]. Qed.

(* Go's Uvarint accepts a non-minimal encoding, rejects the 11th byte and a 10th byte above 1 *)
Example c27_example_uvarint :
  p_uvarint (hx "8000") = Some (0, []) /\ p_uvarint (hx "ffffffffffffffffff01") = Some (18446744073709551615, [])
  /\ p_uvarint (hx "ffffffffffffffffff02") = None /\ p_uvarint (hx "8080808080808080808000") = None
  /\ p_uvarint (hx "80") = None.
Proof. repeat split; vm_compute; reflexivity. Qed.

(* a declared count above the bound is rejected before anything is allocated *)
Example c27_example_count_rejected :
  DecodeExchangeBatchResult (hx "038102") = None /\ allocs exchangeBatchResult (hx "038102") = [].
Proof. split; vm_compute; reflexivity. Qed.

(* a legacy forward frame *)
Example c27_example_forward_legacy :
  DecodeForwardRequest (hx "01000000070009000000026869")
  = Some (ForwardRequest 7 9 ProposalClassForeground false (hx "6869")).
Proof. vm_compute. reflexivity. Qed.

(* an upsert-user command, whole and cut inside its second field *)
Example c27_example_fsm :
  decodeCommand (hx "010101000000027531020000000174") = Some (CmdUpsertUser (User (hx "7531") (hx "74") 0 0))
  /\ decodeCommand (hx "0101010000000275310200000001") = None
  /\ decodeCommand (hx "01010100000002753102000000") = None.
Proof. repeat split; vm_compute; reflexivity. Qed.
