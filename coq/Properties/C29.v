(* C29 — Send results are aligned, ordered and idempotent
   (internal/runtime/channelappend).

   Pure cores (Model/ChanAppend.v, tied to the code by exports on every run):
   newIdempotentAppendBatch / expandCompletions / appendResultCompletions /
   activeAppendItems, the per-channel writer's sequencing and reorder buffer.
   Pipeline: [reach s0 hw limit evs] is the state of one channel's append
   pipeline after ANY interleaving [evs] of submissions, effect issues, effect
   runs and completion applications, against ANY appender / idempotency ports
   satisfying the appender contract ([append_contract], [lookup_contract]); the
   hash functions are arbitrary. *)
From WK Require Import Base.Base Gen.Consts_C29 Model.ChanAppend Model.ChanAppend_C29
     Proof.ChanAppend_coalesce Proof.ChanAppend_expand Proof.ChanAppend_writer
     Proof.ChanAppend_run Proof.ChanAppend_pipeline Proof.ChanAppend_store Proof.ChanAppend_monitor
     Proof.ChanAppend_probe Proof.ChanAppend_monitor_pure Proof.ChanAppend_shard.
From Coq Require Import Sorted Permutation.
Open Scope N_scope.

(* ---- aligned: the coalescer ------------------------------------------------------------------- *)

(* for ARBITRARY hash functions the coalesced batch is a sub-sequence [pos] of the
   items; every item's owner slot holds the item itself or an EARLIER item that
   is the same logical send, in which case the item carries both key fields *)
Theorem c29_coalesce_aligned : forall hashf fp items,
  exists pos, coalesced items (newIdempotentAppendBatch hashf fp items) pos.
Proof. exact nb_coalesced. Qed.
Print Assumptions c29_coalesce_aligned.

(* hash / fingerprint collisions can never merge different sends: two items share
   an owner only if they are the same (uid, client number, payload) and keyed *)
Theorem c29_coalesce_sound : forall hashf fp items i j,
  (i < j)%nat -> (j < length items)%nat ->
  let b := newIdempotentAppendBatch hashf fp items in
  owner_of b i = owner_of b j ->
  cmdat items i = cmdat items j /\ keyed (cmdat items i) = true /\ keyed (cmdat items j) = true.
Proof. exact nb_sound. Qed.
Print Assumptions c29_coalesce_sound.

(* the stack-table pre-check is EXACT for any fingerprint function: within the
   documented bound it terminates and answers true iff two keyed items of the batch
   are the same logical send (collisions neither fake nor hide a duplicate) *)
Theorem c29_precheck_exact : forall (fp : cmd -> N) (items : list psend),
  N.of_nat (length items) <= c29_stack_item_limit ->
  exists r, hasCoalescibleIdempotentItems fp items = Some r /\ (r = true <-> coalescible_pair items).
Proof. exact hasCoalescible_exact. Qed.
Print Assumptions c29_precheck_exact.

(* completeness: when the payload hash separates the payloads that occur under one
   key in the batch, equal keyed sends always share one owner (any fingerprint) *)
Theorem c29_coalesce_complete : forall hashf fp items,
  hash_separates hashf items ->
  forall i j, (i < j)%nat -> (j < length items)%nat ->
  keyed (cmdat items i) = true -> cmdat items i = cmdat items j ->
  let b := newIdempotentAppendBatch hashf fp items in
  owner_of b i = owner_of b j.
Proof. exact nb_complete. Qed.
Print Assumptions c29_coalesce_complete.

(* expandCompletions: one completion per original item, in its own position,
   carrying its owner's result; only the owner's own position stays committed *)
Theorem c29_expand_aligned : forall items b pos unique,
  coalesced items b pos -> map cp_item unique = ib_items b ->
  length (expandCompletions b unique) = length items
  /\ forall i, (i < length items)%nat ->
       nth i (expandCompletions b unique) dflt_comp = expanded_at items b pos unique i.
Proof. exact expand_aligned. Qed.
Print Assumptions c29_expand_aligned.

(* appendResultCompletions: one completion per item whatever the result vector's length *)
Theorem c29_result_completions_aligned : forall items res,
  map cp_item (appendResultCompletions items res) = items
  /\ forall i it, nth_error items i = Some it ->
       nth_error (appendResultCompletions items res) i = Some (arc_one it (nth_error res i)).
Proof. intros items res. split; [apply arc_items|apply arc_nth_error]. Qed.
Print Assumptions c29_result_completions_aligned.

(* activeAppendItems: the live items in order + one error completion per inactive item *)
Theorem c29_active_split : forall items, activeAppendItems items = activeAppendItems_spec items.
Proof. exact activeAppendItems_correct. Qed.
Print Assumptions c29_active_split.

(* ---- ordered completion drain ------------------------------------------------------------------- *)

(* ANY arrivals (duplicated, stale, not yet issued): deliveries carry consecutive
   sequence numbers from the drain position, none twice, each an arrived event *)
Theorem c29_drain_in_order_any : forall evs s out s',
  entries_ok s -> apply_all s evs = (out, s') ->
  consec (ws_drain s) (map ev_seq out)
  /\ ws_drain s' = ws_drain s + N.of_nat (length out)
  /\ entries_ok s'
  /\ (forall e, In e out -> In e evs \/ In e (buffered s))
  /\ NoDup (map ev_seq out).
Proof. exact drain_in_order_any. Qed.
Print Assumptions c29_drain_in_order_any.

(* the completions of effects 0..n-1, each once, in ANY order: all are delivered,
   in sequence order, each exactly once, and the buffer ends empty *)
Theorem c29_drain_in_order : forall hw limit evs out s',
  NoDup (map ev_seq evs) ->
  (forall k, k < N.of_nat (length evs) -> In k (map ev_seq evs)) ->
  apply_all (newChannelState hw limit) evs = (out, s') ->
  map ev_seq out = ChanAppend_writer.nseq (length evs)
  /\ Permutation out evs
  /\ ws_drain s' = N.of_nat (length evs)
  /\ ws_ready s' = None /\ ws_completed s' = [].
Proof. exact drain_in_order_perm. Qed.
Print Assumptions c29_drain_in_order.

(* ---- one effect against contract-abiding ports --------------------------------------------------- *)

(* one effect: the log is extended admissibly, the event carries one completion per
   item of the effect, each a failure, a record stored by this run, a record found by
   lookup, or the copy handed to a coalesced duplicate; committed completions are
   ordered like their tags *)
Theorem c29_run_aligned : forall St do_append do_nlookup hashf fp slog Wf,
  append_contract St do_append slog Wf -> lookup_contract St do_nlookup hashf slog ->
  forall s e ev s',
  Wf (slog s) -> LogOK (slog s) -> StronglySorted tag_lt (ef_items e) ->
  run St do_append do_nlookup hashf fp s e = (ev, s') ->
  exists ext, slog s' = slog s ++ ext /\ Wf (slog s') /\ ext_ok (slog s) ext (ef_items e)
    /\ ev_seq ev = ef_seq e
    /\ Permutation (map cp_item (ev_items ev)) (ef_items e)
    /\ Forall (eorigin St do_append hashf slog (slog s) ext) (ev_items ev)
    /\ (forall c1 c2, In c1 (ev_items ev) -> In c2 (ev_items ev) ->
           cp_committed c1 = true -> cp_committed c2 = true -> tagof c1 < tagof c2 ->
           r_seq (cp_res c1) < r_seq (cp_res c2)).
Proof. exact run_spec. Qed.
Print Assumptions c29_run_aligned.

(* ---- the pipeline: aligned, idempotent, ordered ------------------------------------------------------
   [reach St do_append do_nlookup hashf fp s0 hw limit evs]: the pipeline state after
   the events [evs], from an empty channel log, with backlog limit [hw] and
   AppendInflightBatchesPerChannel [limit]. *)

(* every item receives at most one result, only submitted items do, and once
   nothing is in flight every submitted item has received exactly one *)
Theorem c29_exactly_one_result : forall St do_append do_nlookup hashf fp slog Wf,
  append_contract St do_append slog Wf -> lookup_contract St do_nlookup hashf slog ->
  forall s0 hw limit evs, slog s0 = [] -> Wf [] ->
  let p := reach St do_append do_nlookup hashf fp s0 hw limit evs in
  NoDup (map tagof (p_delivered p))
  /\ (forall c, In c (p_delivered p) -> In (cp_item c) (p_submitted p))
  /\ (quiescent St p = true -> Permutation (map cp_item (p_delivered p)) (p_submitted p)).
Proof.
  intros St do_append do_nlookup hashf fp slog Wf Ha Hl s0 hw limit evs E W.
  exact (inv_exactly_one St hashf slog Wf _ (reach_inv St do_append do_nlookup hashf fp slog Wf Ha Hl s0 hw limit evs E W)).
Qed.
Print Assumptions c29_exactly_one_result.

(* a successful result names a record of the channel log with the item's sender
   and client number — its own record (same tag and payload) or, for a keyed item,
   one with the same payload, or the same payload hash, or any payload when the
   item's payload hash is 0 (unchecked) *)
Theorem c29_success_backed : forall St do_append do_nlookup hashf fp slog Wf,
  append_contract St do_append slog Wf -> lookup_contract St do_nlookup hashf slog ->
  forall s0 hw limit evs c, slog s0 = [] -> Wf [] ->
  let p := reach St do_append do_nlookup hashf fp s0 hw limit evs in
  In c (p_delivered p) -> backed hashf (slog (p_store p)) c.
Proof.
  intros St do_append do_nlookup hashf fp slog Wf Ha Hl s0 hw limit evs c E W p Hc.
  exact (pi_backed St hashf slog Wf _ (reach_inv St do_append do_nlookup hashf fp slog Wf Ha Hl s0 hw limit evs E W) c (delivered_in St _ c Hc)).
Qed.
Print Assumptions c29_success_backed.

(* a retried send (same non-empty sender and client number) returns the original id and sequence ... *)
Theorem c29_retry_same_result : forall St do_append do_nlookup hashf fp slog Wf,
  append_contract St do_append slog Wf -> lookup_contract St do_nlookup hashf slog ->
  forall s0 hw limit evs c1 c2, slog s0 = [] -> Wf [] ->
  let p := reach St do_append do_nlookup hashf fp s0 hw limit evs in
  In c1 (p_delivered p) -> In c2 (p_delivered p) ->
  is_success (cp_res c1) = true -> is_success (cp_res c2) = true ->
  keyed (ps_cmd (cp_item c1)) = true ->
  same_key (ps_cmd (cp_item c1)) (ps_cmd (cp_item c2)) = true ->
  r_id (cp_res c1) = r_id (cp_res c2) /\ r_seq (cp_res c1) = r_seq (cp_res c2).
Proof.
  intros St do_append do_nlookup hashf fp slog Wf Ha Hl s0 hw limit evs c1 c2 E W.
  exact (inv_retry_same_result St hashf slog Wf _ c1 c2 (reach_inv St do_append do_nlookup hashf fp slog Wf Ha Hl s0 hw limit evs E W)).
Qed.
Print Assumptions c29_retry_same_result.

(* ... without storing a second message *)
Theorem c29_no_second_message : forall St do_append do_nlookup hashf fp slog Wf,
  append_contract St do_append slog Wf -> lookup_contract St do_nlookup hashf slog ->
  forall s0 hw limit evs r r', slog s0 = [] -> Wf [] ->
  let log := slog (p_store (reach St do_append do_nlookup hashf fp s0 hw limit evs)) in
  In r log -> In r' log -> keyed (pr_cmd r) = true -> same_key (pr_cmd r) (pr_cmd r') = true -> r = r'.
Proof.
  intros St do_append do_nlookup hashf fp slog Wf Ha Hl s0 hw limit evs r r' E W.
  exact (lo_keys _ (pi_log St hashf slog Wf _ (reach_inv St do_append do_nlookup hashf fp slog Wf Ha Hl s0 hw limit evs E W)) r r').
Qed.
Print Assumptions c29_no_second_message.

(* a reused key with a different payload (different non-zero payload hashes) never
   yields a successful message next to the original one *)
Theorem c29_reuse_rejected : forall St do_append do_nlookup hashf fp slog Wf,
  append_contract St do_append slog Wf -> lookup_contract St do_nlookup hashf slog ->
  forall s0 hw limit evs c1 c2, slog s0 = [] -> Wf [] ->
  let p := reach St do_append do_nlookup hashf fp s0 hw limit evs in
  In c1 (p_delivered p) -> In c2 (p_delivered p) ->
  is_success (cp_res c1) = true ->
  keyed (ps_cmd (cp_item c1)) = true ->
  same_key (ps_cmd (cp_item c1)) (ps_cmd (cp_item c2)) = true ->
  hashf (c_pay (ps_cmd (cp_item c1))) <> hashf (c_pay (ps_cmd (cp_item c2))) ->
  hashf (c_pay (ps_cmd (cp_item c1))) <> 0 -> hashf (c_pay (ps_cmd (cp_item c2))) <> 0 ->
  is_success (cp_res c2) = false.
Proof.
  intros St do_append do_nlookup hashf fp slog Wf Ha Hl s0 hw limit evs c1 c2 E W.
  exact (inv_reuse_rejected St hashf slog Wf _ c1 c2 (reach_inv St do_append do_nlookup hashf fp slog Wf Ha Hl s0 hw limit evs E W)).
Qed.
Print Assumptions c29_reuse_rejected.

(* default configuration (at most one append in flight per channel): committed
   completions get strictly increasing sequences in submission order *)
Theorem c29_seq_increasing_committed : forall St do_append do_nlookup hashf fp slog Wf,
  append_contract St do_append slog Wf -> lookup_contract St do_nlookup hashf slog ->
  forall s0 hw limit evs c1 c2, slog s0 = [] -> Wf [] -> (limit <= 1)%Z ->
  let p := reach St do_append do_nlookup hashf fp s0 hw limit evs in
  In c1 (p_delivered p) -> In c2 (p_delivered p) ->
  cp_committed c1 = true -> cp_committed c2 = true -> tagof c1 < tagof c2 ->
  r_seq (cp_res c1) < r_seq (cp_res c2).
Proof.
  intros St do_append do_nlookup hashf fp slog Wf Ha Hl s0 hw limit evs c1 c2 E W L p H1 H2.
  exact (po_order St _ (reach_ord St do_append do_nlookup hashf fp slog Wf Ha Hl s0 hw limit evs E W L) c1 c2 (delivered_in St _ c1 H1) (delivered_in St _ c2 H2)).
Qed.
Print Assumptions c29_seq_increasing_committed.

(* ... and when a failed append commits nothing, ALL new messages (successes whose
   log record was appended for that very submission) are ordered.  Without
   [atomic_failures] the statement is false: c29_seq_increasing_refuted (C29-K2). *)
Theorem c29_seq_increasing : forall St do_append do_nlookup hashf fp slog Wf,
  append_contract St do_append slog Wf -> lookup_contract St do_nlookup hashf slog ->
  forall s0 hw limit evs c1 c2, slog s0 = [] -> Wf [] -> (limit <= 1)%Z ->
  atomic_failures St do_append slog ->
  let p := reach St do_append do_nlookup hashf fp s0 hw limit evs in
  In c1 (p_delivered p) -> In c2 (p_delivered p) ->
  is_fresh St slog p c1 -> is_fresh St slog p c2 -> tagof c1 < tagof c2 ->
  r_seq (cp_res c1) < r_seq (cp_res c2).
Proof.
  intros St do_append do_nlookup hashf fp slog Wf Ha Hl s0 hw limit evs c1 c2 E W L A.
  exact (fresh_increasing St slog _ c1 c2 (reach_ord St do_append do_nlookup hashf fp slog Wf Ha Hl s0 hw limit evs E W L)
           (reach_fresh St do_append do_nlookup hashf fp slog Wf Ha Hl s0 hw limit evs E W A)).
Qed.
Print Assumptions c29_seq_increasing.

(* ---- the hypotheses are satisfiable; the full ordering statement needs atomic failures ----------- *)

(* the strict-store ports the harness ties to the code on every run (real
   pkg/db/message store + real infra/cluster adapters behind a scripted fake node)
   satisfy both contracts, from an empty well-formed log, for EVERY fault script *)
Theorem c29_contract_satisfiable : forall af lf,
  ss_log (SS [] af lf []) = [] /\ contig []
  /\ append_contract sstore ss_do_append ss_log contig
  /\ lookup_contract sstore ss_do_nlookup idempotencyPayloadHash ss_log.
Proof.
  intros af lf. split; [reflexivity|]. split; [apply contig_nil|].
  split; [apply ss_append_contract|apply ss_lookup_contract].
Qed.
Print Assumptions c29_contract_satisfiable.

(* C29-K2 (known finding): without [atomic_failures] the conclusion of
   c29_seq_increasing is false — one batch [keyed; keyless; keyed] whose append
   commits and then reports ErrAppendFailed: the keyless send is appended again and
   gets sequence 4, above the 3 of the later-submitted third item; both are new messages *)
Theorem c29_seq_increasing_refuted :
  let p := ss_reach [FFailAfter E_APPEND_FAILED] [] 0 1 k2_events in
  quiescent sstore p = true /\
  exists c1 c2, In c1 (p_delivered p) /\ In c2 (p_delivered p)
    /\ is_fresh sstore ss_log p c1 /\ is_fresh sstore ss_log p c2
    /\ tagof c1 < tagof c2 /\ r_seq (cp_res c2) < r_seq (cp_res c1).
Proof. exact seq_increasing_refuted. Qed.
Print Assumptions c29_seq_increasing_refuted.

(* the property monitor evaluated on implementation histories accepts the history of
   every quiescent state the pipeline model reaches (one append in flight, atomic failures) *)
Theorem c29_model_satisfies_monitor : forall St do_append do_nlookup fp slog Wf,
  append_contract St do_append slog Wf -> lookup_contract St do_nlookup idempotencyPayloadHash slog ->
  forall s0 hw limit evs, slog s0 = [] -> Wf [] -> (limit <= 1)%Z -> atomic_failures St do_append slog ->
  let p := reach St do_append do_nlookup idempotencyPayloadHash fp s0 hw limit evs in
  quiescent St p = true ->
  let h := hist_of St slog p in
  C29_monitor (C29Hist (hi_ordered h) (hi_calls h) (hi_sends h) (hi_logs h)) = 0.
Proof.
  intros St do_append do_nlookup fp slog Wf Ha Hl s0 hw limit evs E W L A p Q h.
  exact (model_hist_monitor St do_append do_nlookup fp slog Wf Ha Hl s0 hw limit evs E W L A Q).
Qed.
Print Assumptions c29_model_satisfies_monitor.

(* ... and on the coalescer cases it accepts whatever the model computes, for ANY batch
   whose items are indexed by position (the shape the harness builds) and any scripts *)
Theorem c29_model_satisfies_monitor_coal : forall items us rs,
  map ps_index items = ChanAppend_C29.nseq (length items) ->
  C29_monitor (C29Coalesce items us rs (coal_model items us rs)) = 0.
Proof. exact model_coal_monitor. Qed.
Print Assumptions c29_model_satisfies_monitor_coal.

(* ... and on the writer cases, for ANY limits and ANY op history *)
Theorem c29_model_satisfies_monitor_writer : forall hw limit ops,
  C29_monitor (C29Writer hw limit ops (wrun (newChannelState hw limit, 0) 0 ops)) = 0.
Proof. exact model_writer_monitor. Qed.
Print Assumptions c29_model_satisfies_monitor_writer.

(* non-vacuity: a batch with a coalesced duplicate, a retry of a stored message and a
   key reuse, over the strict store: the duplicate and the retry return the original
   (id, seq), the reuse is rejected, one message is stored *)
Example c29_example_retry_and_reuse :
  let evs := [PSubmit [(Cmd [117] [97] [112], 7, false, 0); (Cmd [117] [97] [112], 8, false, 0)];
              PAdvance; PRun 0; PApply 0;
              PSubmit [(Cmd [117] [97] [112], 9, false, 0)]; PAdvance; PRun 0; PApply 0;
              PSubmit [(Cmd [117] [97] [113], 10, false, 0)]; PAdvance; PRun 0; PApply 0] in
  let p := ss_reach [] [] 0 1 evs in
  map (fun c => (tagof c, r_id (cp_res c), r_seq (cp_res c), is_success (cp_res c), cp_committed c)) (p_delivered p)
  = [(0, 7, 1, true, true); (1, 7, 1, true, false); (2, 7, 1, true, false); (3, 0, 0, false, false)]
  /\ map pr_id (ss_log (p_store p)) = [7].
Proof. vm_compute. split; reflexivity. Qed.

(* the ordering theorems are about the DEFAULT configuration: the regenerated constant
   defaultAppendInflightBatchesPerChannel keeps one append in flight per channel *)
Example c29_default_single_inflight : (Z.of_N c29_default_inflight <= 1)%Z.
Proof. vm_compute. discriminate. Qed.

(* ---- one writer per channel (shard.go getOrCreate / reclaim sweep, writer.go idleExpired) ---------
   The ordering theorems are about ONE pipeline per channel.  The shard may delete a
   writer from its map only when idleExpired holds; as transcribed from the code this
   implies the writer owns no admitted, unfinished send ... *)
Theorem c29_reclaim_only_idle : forall w now retention,
  idleExpired w now retention = true -> has_work w = false.
Proof. intros w now retention H. exact (proj1 (expired_harmless _ _ _ H)). Qed.
Print Assumptions c29_reclaim_only_idle.

(* ... hence, for every interleaving of submissions (with creation + sweep), writer
   advances, append completions and clock ticks, a channel has at most one writer — in
   the map or already swept — that holds admitted-but-unfinished work *)
Theorem c29_single_writer : forall retention hw limit evs ch,
  (length (working_writers (srun writer_idle retention hw limit evs) ch) <= 1)%nat.
Proof. exact single_working_writer. Qed.
Print Assumptions c29_single_writer.

(* seeded change C29-b: with the test "nothing runnable right now" a writer whose append
   is in flight is swept and the channel gets a second working writer *)
Theorem c29_single_writer_refuted :
  length (working_writers (srun idle_nothing_runnable 10 0 1 reclaim_witness) 1) = 2%nat.
Proof. exact single_working_writer_refuted. Qed.
Print Assumptions c29_single_writer_refuted.
