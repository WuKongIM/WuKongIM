(* Properties/C17.v — C17: channel migration cutover is fenced and irreversible.

   Model: Model/ChanMigration.v (task rows, the twelve migration commands of
   pkg/db/meta/compat.go applied through the ApplyBatch of pkg/slot/fsm: staging, commit
   with overlay maps, stale fallback), runtime-meta rows from Model/RuntimeMeta.v.
   Monitor: Model/ChanMigration_C17.v.  Every theorem is closed under the global context; each is
   closed by a lemma of Proof/ChanMigration*.v or by a few lines that instantiate such lemmas. *)
From WK Require Import Base.Base.
From WK Require Import Gen.Consts_C15 Gen.Consts_C17 Model.RuntimeMeta Model.ChanMigration Model.ChanMigration_C17.
From WK Require Import Proof.RuntimeMeta Proof.ChanMigration Proof.ChanMigration_cmds Proof.ChanMigration_inv
                       Proof.ChanMigration_step Proof.ChanMigration_meta Proof.ChanMigration_trace
                       Proof.ChanMigration_monitor Proof.ChanMigration_link Proof.ChanMigration_temporal
                       Proof.ChanMigration_case Proof.ChanMigration_witness.
Open Scope N_scope.

(* ---- 1. a cutover commits only with a matching drain proof ---------------------------------------

   Whenever the commit of a batch (any batch, any position) accepts a
   CommitChannelLeaderTransfer or PromoteLearnerAndRemoveReplica, the task row [t] and the
   runtime-meta row [m] it loaded satisfy [cutover_proof_matches]: the drain proof stored in
   the task is complete, DrainedFenceVersion = m.WriteFenceVersion = the expected version <> 0,
   DrainedChannelEpoch / DrainedLeaderEpoch / DrainedLeaderNode are m's current channel epoch,
   leader epoch and leader, the fence token is the task id (task and meta agree on token and
   version), NowMS <= m.WriteFenceUntilMS, and both optimistic guards match. *)
Theorem c17_commit_needs_proof :
  forall d cs c h cs',
    is_cutover c = true -> cmd_trans c = Some h ->
    stageChannelMigrationTaskAndMeta d cs c = Ok cs' ->
    exists t m,
      loadChannelMigrationTask d cs (tguard_key (tr_guard h)) = Some t
      /\ loadRuntimeMeta d cs (rguard_chan (tr_rguard h)) = Some m
      /\ cutover_proof_matches t m h (cutover_now c) = true.
Proof. exact stage_cutover_needs_proof. Qed.
Print Assumptions c17_commit_needs_proof.

(* ---- 2. at most one active task per channel ---------------------------------------------------------

   [db_inv d]: task rows have distinct keys and every active task is the one the active index of
   its channel points at.  It holds of the empty database, every one-command ApplyBatch
   preserves it (whatever the command and its outcome), and under it two active tasks of one
   channel are the same row.  (Multi-command batches: see c17_batch_double_active_refuted.) *)
Theorem c17_single_active_step :
  forall d c d' r, db_inv d -> apply_one d c = (d', r) -> db_inv d'.
Proof. exact apply_one_inv. Qed.
Print Assumptions c17_single_active_step.

Theorem c17_single_active :
  forall cs t1 t2,
    let d := run_singles db_empty cs in
    In t1 (db_tasks d) -> In t2 (db_tasks d) ->
    isActive t1 = true -> isActive t2 = true -> task_chan t1 = task_chan t2 ->
    t1 = t2 /\ active_get d (task_chan t1) = Some (t_task_id t1).
Proof.
  intros cs t1 t2 d I1 I2 A1 A2 C.
  pose proof (run_singles_inv cs db_empty db_inv_empty) as I.
  split; [exact (inv_single_active _ _ _ I I1 I2 A1 A2 C)|exact (proj2 I _ I1 A1)].
Qed.
Print Assumptions c17_single_active.

(* ---- 3. a committed or promoted task can no longer be aborted (per command) ------------------------

   An Abort applied to a task that is terminal or whose phase is VerifyNewLeader,
   VerifyMembership or ClearFence is rejected: the mutator returns ErrConflict, so the stage
   function returns a stale-class error and writes nothing. *)
Theorem c17_abort_rejected_post_commit :
  forall d cs h completed last_error t,
    loadChannelMigrationTask d cs (tguard_key (tr_guard h)) = Some t ->
    isTerminal t || post_commit_phase (t_phase t) = true ->
    exists e, stageChannelMigrationTaskAndMeta d cs (CAbort h completed last_error) = Err e
              /\ isStaleMetaCommitError e = true.
Proof. exact stage_abort_rejected_post_commit. Qed.
Print Assumptions c17_abort_rejected_post_commit.

(* ---- 4. no command overwrites or clears another task's fence ----------------------------------------

   A guarded task+meta command applied to task [t] and meta row [m] either leaves the four
   write-fence fields alone, or the fence was free or held by t's id before AND is free or held
   by t's id afterwards.  (Normalisation and the route-generation bump of the stage function do
   not touch the fence fields: fence_stored.) *)
Theorem c17_fence_ownership :
  forall c t m t' m',
    mutate_task_meta c t m = Ok (t', m') ->
    fence_eqb m m' = true
    \/ (fence_free_or m (t_task_id t) /\ fence_free_or m' (t_task_id t)).
Proof. exact mutate_fence_ownership. Qed.
Print Assumptions c17_fence_ownership.

Theorem c17_fence_untouched_by_normalisation :
  forall ex m, fence_eqb m (bumpRuntimeRoute ex (normalizeChannelRuntimeMeta m) true) = true.
Proof. exact fence_stored. Qed.
Print Assumptions c17_fence_untouched_by_normalisation.

(* ---- 5. every accepted step leaves the channel metadata valid ----------------------------------------

   Whatever stageChannelMigrationTaskAndMeta writes passed validateChannelRuntimeMeta (and the
   task row validateChannelMigrationTask); a row that passes it has, after normalisation, a
   non-empty replica set, 1 <= MinISR <= |replicas|, ISR within replicas, and a leader that is
   0 or a member of both. *)
Theorem c17_meta_valid :
  forall d cs c cs',
    stageChannelMigrationTaskAndMeta d cs c = Ok cs' ->
    cs' = cs
    \/ exists h t m, cmd_trans c = Some h
         /\ loadChannelMigrationTask d cs' (tguard_key (tr_guard h)) = Some t
         /\ loadRuntimeMeta d cs' (rguard_chan (tr_rguard h)) = Some m
         /\ validateChannelMigrationTask t = true /\ validateChannelRuntimeMeta m = true
         /\ meta_get (cs_pend cs') (rguard_chan (tr_rguard h)) = Some m.
Proof. exact stage_writes_valid. Qed.
Print Assumptions c17_meta_valid.

Theorem c17_valid_meta_meaning :
  forall m, validateChannelRuntimeMeta m = true -> meta_wellformed (normalizeChannelRuntimeMeta m).
Proof. exact validateChannelRuntimeMeta_wellformed. Qed.
Print Assumptions c17_valid_meta_meaning.

(* MinISR stays satisfiable: a task+meta command applied to a stored (normalized) row keeps MinISR and
   never shrinks the ISR; the stage function stores normalizeUint64Set of the mutator's ISR. *)
Theorem c17_isr_not_shrunk :
  forall c t m t' m',
    ssorted (rm_isr m) ->
    mutate_task_meta c t m = Ok (t', m') ->
    rm_min_isr m' = rm_min_isr m
    /\ (length (rm_isr m) <= length (normalizeUint64Set (rm_isr m')))%nat.
Proof. exact mutate_isr. Qed.
Print Assumptions c17_isr_not_shrunk.

Theorem c17_stored_isr :
  forall ex nm,
    rm_isr (bumpRuntimeRoute ex (normalizeChannelRuntimeMeta nm) true) = normalizeUint64Set (rm_isr nm)
    /\ rm_min_isr (bumpRuntimeRoute ex (normalizeChannelRuntimeMeta nm) true) = rm_min_isr nm.
Proof. exact stored_isr. Qed.
Print Assumptions c17_stored_isr.

(* ---- 6. terminal tasks are immutable by the task+meta commands ----------------------------------------- *)
Theorem c17_terminal_immutable_by_meta_cmds :
  forall d cs c cs' h t,
    cmd_trans c = Some h ->
    loadChannelMigrationTask d cs (tguard_key (tr_guard h)) = Some t ->
    isTerminal t = true ->
    stageChannelMigrationTaskAndMeta d cs c = Ok cs' ->
    loadChannelMigrationTask d cs' (tguard_key (tr_guard h)) = Some t.
Proof. exact stage_terminal_immutable. Qed.
Print Assumptions c17_terminal_immutable_by_meta_cmds.

(* ---- the temporal reading, under executor discipline -------------------------------------------------------

   FULL STATEMENT (false, see section 7): in every history, once a task is committed / promoted no
   AbortChannelMigration on it is accepted later.
   PARTIAL: it holds for histories of one-command batches that respect executor discipline
   ([history_disciplined]: no ResetChannelWriteFenceToPreCutover is issued against, accepted or
   not, and no Claim/Advance issued against would change the phase / embedded flag of, a task that
   is in a post-commit phase — what the migration executor does): once the cutover of a task is done ([cutover_locked]: phase VerifyNewLeader /
   VerifyMembership / ClearFence, not the embedded leader-transfer leg of a replica replacement)
   it stays done for as long as the row exists and no abort on it is accepted. *)
Theorem c17_cutover_locked_step :
  forall d c k t,
    db_inv d -> disciplined d c ->
    task_get (db_tasks d) k = Some t -> cutover_locked t = true ->
    match task_get (db_tasks (fst (apply_one d c))) k with
    | None => True
    | Some t' => cutover_locked t' = true
    end.
Proof. exact locked_step. Qed.
Print Assumptions c17_cutover_locked_step.

Theorem c17_no_abort_after_commit_partial :
  forall cs d k t,
    db_inv d -> history_disciplined d cs ->
    task_get (db_tasks d) k = Some t -> cutover_locked t = true ->
    no_abort_while_present d k cs.
Proof. exact no_abort_after_commit. Qed.
Print Assumptions c17_no_abort_after_commit_partial.

(* ---- the monitor accepts every trace of the model (one-command batches) ------------------------------------

   [model_trace chs db_empty cs]: what the harness would print if the implementation were the model
   (one-command batches cs, channel alphabet chs).  On every such trace the monitor returns 0, 2 (K1)
   or 3 (K2): never 1, never 4; it returns 0 when the history is disciplined.  Hence
   (c17_case_link) on a case file of one-command batches with C17_mismatch = false the verdict is 0, 2
   or 3: a code 1 (or 4) there means the implementation left the model. *)
Theorem c17_model_satisfies_monitor :
  forall chs cs, Forall (covers chs) cs -> good (C17_monitor_on (model_trace chs db_empty cs)).
Proof. exact model_satisfies_monitor. Qed.
Print Assumptions c17_model_satisfies_monitor.

Theorem c17_model_satisfies_monitor_disciplined :
  forall chs cs,
    Forall (covers chs) cs -> history_disciplined db_empty cs ->
    C17_monitor_on (model_trace chs db_empty cs) = 0.
Proof.
  intros chs cs Cv Dz.
  apply (mon_run_on_model chs cs db_empty mstate_init 0 (sim_init chs) Cv (or_introl eq_refl)); auto.
  intro k. apply mark_zero_clean.
Qed.
Print Assumptions c17_model_satisfies_monitor_disciplined.

Theorem c17_model_trace_agrees :
  forall chs cs d, run_mismatch d (model_trace chs d cs) = false.
Proof. exact model_trace_no_mismatch. Qed.
Print Assumptions c17_model_trace_agrees.

Theorem c17_case_link :
  forall chs c,
    case_shape chs (c_steps c) -> Forall (covers chs) (map cmd_of (c_steps c)) ->
    C17_mismatch c = false -> good (C17_monitor c).
Proof.
  intros chs c Sh Cv Mm. unfold C17_monitor.
  rewrite (no_mismatch_is_model_trace chs _ _ Sh Mm). exact (model_satisfies_monitor _ _ Cv).
Qed.
Print Assumptions c17_case_link.

(* ---- 7. the temporal reading is FALSE of the code: three refutations (known findings) -----------------

   K1: histories of one-command batches in which CommitChannelLeaderTransfer is accepted, a
   generic AdvanceChannelMigrationTask (or Claim) then moves the task back to a pre-commit phase
   and AbortChannelMigration is accepted.  K2: same with ResetChannelWriteFenceToPreCutover on an
   expired fence.  K3: one two-command batch after which a channel has two active tasks.
   Each witness is corpus/C17/k*.json; the model reproduces every row the real code showed. *)
Theorem c17_rewind_abort_refuted :
  exists bs, all_single bs = true /\ abort_after_cutover db_empty [] bs = true.
Proof.
  exists (batches_of k1_advance_rewind_abort_case).
  destruct c17_rewind_abort_refuted_witness as (_ & A & B & _). split; assumption.
Qed.
Print Assumptions c17_rewind_abort_refuted.

Theorem c17_rewind_abort_monitor_code :
  C17_mismatch k1_advance_rewind_abort_case = false /\ C17_monitor k1_advance_rewind_abort_case = 2
  /\ C17_mismatch k1_claim_rewind_abort_case = false /\ C17_monitor k1_claim_rewind_abort_case = 2.
Proof.
  destruct c17_rewind_abort_refuted_witness as (M1 & _ & _ & C1).
  destruct c17_claim_rewind_abort_refuted_witness as (M2 & _ & _ & C2). auto.
Qed.
Print Assumptions c17_rewind_abort_monitor_code.

Theorem c17_reset_rewind_abort_refuted :
  C17_mismatch k2_reset_rewind_abort_case = false
  /\ all_single (batches_of k2_reset_rewind_abort_case) = true
  /\ abort_after_cutover db_empty [] (batches_of k2_reset_rewind_abort_case) = true
  /\ C17_monitor k2_reset_rewind_abort_case = 3.
Proof. exact c17_reset_rewind_abort_refuted_witness. Qed.
Print Assumptions c17_reset_rewind_abort_refuted.

Theorem c17_batch_double_active_refuted :
  C17_mismatch k3_batch_double_active_case = false
  /\ double_active (run_batches db_empty (removelast (batches_of k3_batch_double_active_case))) = false
  /\ double_active (run_batches db_empty (batches_of k3_batch_double_active_case)) = true
  /\ C17_monitor k3_batch_double_active_case = 4.
Proof. exact c17_batch_double_active_refuted_witness. Qed.
Print Assumptions c17_batch_double_active_refuted.

(* ---- non-vacuity ------------------------------------------------------------------------------------------ *)

(* a replica replacement whose embedded leader-transfer leg commits, ends with ClearFence ->
   AddLearner, and is then aborted: accepted by the code and NOT a violation *)
Example c17_embedded_leg_then_abort_is_fine :
  C17_mismatch r03_embedded_leg_then_abort_case = false /\ C17_monitor r03_embedded_leg_then_abort_case = 0.
Proof. exact c17_embedded_leg_then_abort_ok. Qed.
Print Assumptions c17_embedded_leg_then_abort_is_fine.

(* executor-like walks (corpus/C17/r01, r02, r04): the model reproduces them and the monitor is silent;
   in r01 a CommitChannelLeaderTransfer is accepted and the AbortChannelMigration after it is rejected *)
Example c17_happy_paths_ok :
  C17_mismatch r01_leader_transfer_happy_case = false /\ C17_monitor r01_leader_transfer_happy_case = 0
  /\ C17_mismatch r02_replica_replace_happy_case = false /\ C17_monitor r02_replica_replace_happy_case = 0
  /\ C17_mismatch r04_stale_proofs_rejected_case = false /\ C17_monitor r04_stale_proofs_rejected_case = 0.
Proof. exact happy_paths_ok. Qed.
Print Assumptions c17_happy_paths_ok.

Example c17_happy_path_commits_and_rejects_abort :
  existsb (fun s => match s with
                    | ([CCommit _ _ _ _ _], Full o) => bres_eqb (o_res o) (BResults [0])
                    | _ => false end) (c_raw_steps r01_leader_transfer_happy_case) = true
  /\ existsb (fun s => match s with
                       | ([CAbort _ _ _], Same r) => bres_eqb r (BResults [1])
                       | _ => false end) (c_raw_steps r01_leader_transfer_happy_case) = true.
Proof. exact happy_path_commits_and_rejects_abort. Qed.
Print Assumptions c17_happy_path_commits_and_rejects_abort.
