(* C01 — Acknowledged channel appends survive failover and crashes.
   Statements; each is closed by a lemma, or a few lines assembling lemmas, of
   Proof/{QuorumLog_C01,QuorumLog_C01_partial,QuorumLog_Commit,LogMatching,Cluster_WF,ReplicaLog}.v.

   The full statement is FALSE of the faithful model and of the code: c01_refuted is the F1 schedule
   (DESIGN §0 F1, known finding C01-K1): 3 voters, write quorum 2, every install reaches 2 voters, never
   more than 1 node down, and the new writable leader lacks the acknowledged entry. *)
From WK Require Import Base.Base.
From WK Require Import Model.ReplicaLog Model.QuorumLog Model.Cluster Model.Monitor_C01.
From WK Require Import Proof.ReplicaLog Proof.QuorumLog_Commit Proof.QuorumLog_C01.
From WK Require Import Proof.ReplicaLog_WF Proof.LogMatching Proof.Cluster_WF Proof.QuorumLog_C01_partial.
Open Scope N_scope.

(* a durable Sync (Durable or AlreadyDurable) leaves the replica holding every entry of the
   proposal, identical, at its index — both store back ends *)
Theorem c01_durable_vote_holds : forall k rp mu rp' o nf,
  sync k rp mu = (rp', o, nf) -> outcome_durable o = true ->
  holds_proposal rp' (mu_manifest mu) (mu_records mu) = true.
Proof. exact sync_durable_holds. Qed.
Print Assumptions c01_durable_vote_holds.

(* c01_receipt_implies_quorum, one durability round (business proposal or barrier), for every
   network and fault plan: success means the local node holds the proposal and at least wq DISTINCT
   voters do (the local one among local :: followers) *)
Theorem c01_round_success_implies_quorum : forall n local voters wq rot p n' res,
  NoDup voters -> runDurableRound n local voters wq rot p = (n', res) -> rr_ok res = true ->
  holdsP p n' local = true /\
  exists S, NoDup S /\ incl S (local :: round_followers voters local rot) /\ wq <= H_count p n' S.
Proof. exact runDurableRound_quorum. Qed.
Print Assumptions c01_round_success_implies_quorum.

(* ... and a round only succeeds with a durable local write, >= wq durable votes, outcome Durable *)
Theorem c01_round_success_needs_local : forall n local voters wq rot p n' res,
  runDurableRound n local voters wq rot p = (n', res) ->
  exists n1 o1, submitLocal n local p = (n1, o1) /\
    net_rep n' local = net_rep n1 local /\
    (rr_ok res = true -> rr_local res = true /\ wq <=? rr_votes res = true /\ rr_outcome res = ODurable) /\
    (rr_local res = true -> outcome_durable o1 = true).
Proof. exact runDurableRound_local. Qed.
Print Assumptions c01_round_success_needs_local.

(* c01_receipt_implies_quorum for Commit: on the only path that issues a new receipt (sealed
   proposal, successful round) the leader and >= WriteQuorum distinct voters hold the range *)
Theorem c01_receipt_implies_quorum : forall cfg n st local p a d n1 res,
  NoDup (a_voters a) -> In local (a_voters a) ->
  sealBusinessProposal a (qc_frontier st) (qc_hw st) (pr_cmd p) (pr_records p) (pr_sa p) = Some d ->
  runDurableRound n local (a_voters a) (a_q a) (cf_rot cfg) d = (n1, res) -> rr_ok res = true ->
  holdsP d n1 local = true /\
  exists S, NoDup S /\ incl S (a_voters a) /\ a_q a <= H_count d n1 S.
Proof.
  intros cfg n st local p a d n1 res Hnd Hin _ Hr Hok.
  destruct (runDurableRound_quorum _ _ _ _ _ _ _ _ Hnd Hr Hok) as (Hl & S & S1 & S2 & S3).
  split; [exact Hl|]. exists S. split; [exact S1|]. split; [|exact S3].
  intros x Hx. destruct (S2 x Hx) as [<- | Hf]; [exact Hin | exact (proj1 (proj1 (round_followers_In _ _ _ _) Hf))].
Qed.
Print Assumptions c01_receipt_implies_quorum.

(* c01_fail_closed: when the local replica's persisted committed watermark exceeds the selected
   prefix, repair returns an error and no replica is written ... *)
Theorem c01_repair_fails_closed : forall n local voters q sel maxBytes s es,
  load (nt_kind n) (net_rep n local) [] = Some (s, es) -> sl_index sel < rs_committed s ->
  exists e, repairQuorumPrefix n local voters q sel maxBytes = (n, inl e).
Proof. exact repair_fails_closed. Qed.
Print Assumptions c01_repair_fails_closed.

(* ... hence Install returns an error and leaves every replica log unchanged (or never reached
   recovery because the owner was already ready under this authority) *)
Theorem c01_fail_closed : forall cfg n st local a s es sel,
  load (nt_kind n) (net_rep n local) [] = Some (s, es) ->
  recoverQuorumPrefix n local (a_voters a) (a_q a) = inr sel -> sl_index sel < rs_committed s ->
  forall n' st' r, Install cfg n st local a = (n', st', r) -> n' = n /\ exists e, r = IErr e \/
    (exists x leo hw, r = IOk x leo hw /\ st' = st /\ qc_ready st = true).
Proof. exact Install_fails_closed. Qed.
Print Assumptions c01_fail_closed.

(* c01_refuted (C01-K1): leader 1 commits one proposal with node 3 down (Receipt 1..1, held by {1,2});
   node 1 goes down, node 3 returns empty; authority (1,2,2) is installed on node 2 whose recovery probe
   is answered by {2,3}: Install succeeds with LEO = 0 — node 2 truncated the acknowledged entry and is
   writable.  The monitor classifies the model's own trace as known finding (code 2). *)
Theorem c01_refuted :
  fst (run_model f1_cfg (cluster_init f1_cfg) f1_ops) =
    [ RInstalled (1, 1, 1) 0 0; RNone; RReceipt (1, 1, 1) (TUser 1) 1 1 1; RNone; RNone;
      RInstalled (1, 2, 2) 0 0 ] /\
  rp_leo (net_rep (cl_net (snd (run_model f1_cfg (cluster_init f1_cfg) f1_ops))) 2) = 0 /\
  C01_monitor (model_case f1_cfg f1_ops) = 2.
Proof. exact f1_acked_entry_lost. Qed.
Print Assumptions c01_refuted.

(* c01_k2_refuted (C01-K2, same root cause as C01-K1 one probe round later): leader 3 writes X at index 1
   locally only (never acknowledged); leader 1 (1,2,2) commits Y: Receipt 1..1, held by {1,2}.  Authority
   (1,3,3) is installed on node 2; all three voters answer the frontier round, node 1's identity-page reply
   is lost; the stable voters {2,3} still reproduce quorum LEO 1 and quorum watermark 0 (node 3's divergent
   log is as long), so recoverQuorumPrefix does not fail closed, finds no 2 identical copies at index 1 and
   the Install succeeds with LEO = 0: node 2 truncated the acknowledged entry and is writable.  The monitor
   classifies the model's own trace as known finding C01-K2 (code 3). *)
Theorem c01_k2_refuted :
  fst (run_model f1_cfg (cluster_init f1_cfg) k2_ops) =
    [ RInstalled (1, 1, 1) 0 0; RErr EQuorumUnavailable; RInstalled (1, 2, 2) 0 0;
      RReceipt (1, 2, 2) (TUser 2) 1 1 1; RInstalled (1, 3, 3) 0 0 ] /\
  rp_leo (net_rep (cl_net (snd (run_model f1_cfg (cluster_init f1_cfg) k2_ops))) 2) = 0 /\
  C01_monitor (model_case f1_cfg k2_ops) = 3.
Proof. exact k2_acked_entry_lost. Qed.
Print Assumptions c01_k2_refuted.

(* the same install when node 3 holds no longer divergent log: the stable voters {2,3} have quorum LEO 0,
   not 1, the post-page guard fails closed (ErrRecoveryProbeIncomplete), node 2 keeps the entry; monitor 0 *)
Theorem c01_k2_guard_false_fails_closed :
  fst (run_model f1_cfg (cluster_init f1_cfg) k2_closed_ops) =
    [ RInstalled (1, 1, 1) 0 0; RInstalled (1, 2, 2) 0 0;
      RReceipt (1, 2, 2) (TUser 2) 1 1 1; RErr EProbeIncomplete ] /\
  rp_leo (net_rep (cl_net (snd (run_model f1_cfg (cluster_init f1_cfg) k2_closed_ops))) 2) = 1 /\
  C01_monitor (model_case f1_cfg k2_closed_ops) = 0.
Proof. exact k2_guard_false_fails_closed. Qed.
Print Assumptions c01_k2_guard_false_fails_closed.

(* BOUNDED, lost identity-page replies: all 37449 schedules of at most 5 operations over k2_alphabet after
   leader 3's install: the monitor returns 0, 2 (C01-K1) or 3 (C01-K2), never 1 *)
Theorem c01_model_satisfies_monitor_bounded_page_faults :
  c01_codes_in_from (OInstall 3 (1, 1, 1) false 2 no_faults) [0; 2; 3] k2_alphabet 5 = true.
Proof. exact c01_bounded_lost_page_replies. Qed.
Print Assumptions c01_model_satisfies_monitor_bounded_page_faults.

(* the two-commit variant of F1 is safe: the replica-persisted watermark (1) exceeds the selected
   prefix (0), the install fails closed; with node 1 back it succeeds with a barrier at 3; monitor 0 *)
Theorem c01_two_commits_fail_closed :
  fst (run_model f1_cfg (cluster_init f1_cfg) f1_two_commits_ops) =
    [ RInstalled (1, 1, 1) 0 0; RNone; RReceipt (1, 1, 1) (TUser 1) 1 1 1; RReceipt (1, 1, 1) (TUser 2) 2 2 2;
      RNone; RNone; RErr EConflict; RNone; RInstalled (1, 2, 2) 3 3 ] /\
  C01_monitor (model_case f1_cfg f1_two_commits_ops) = 0.
Proof. exact f1_two_commits_fail_closed. Qed.
Print Assumptions c01_two_commits_fail_closed.

(* c01_partial / c01_model_satisfies_monitor, BOUNDED (finite domain, vm_compute), 3 voters, quorum 2:
   (a) all 3906 schedules of at most 5 operations over {bare-quorum commit, full commit, failover install
       on node 2, commit by node 2, restart of node 2} after the initial install — every voter answers
       every recovery probe, so at least Q respondents hold each acknowledged entry: the monitor returns 0, every acknowledged
       entry is on every later installed leader;
   (b) all 7381 schedules of at most 4 operations when nodes 1 and 3 may also go down / come back:
       the monitor returns 0 or the known-finding code 2, never 1. *)
Theorem c01_model_satisfies_monitor_bounded :
  c01_codes_in [0] (c01_alphabet false) 5 = true /\ c01_codes_in [0; 2] (c01_alphabet true) 4 = true.
Proof. exact (conj c01_bounded_all_answer c01_bounded_with_outages). Qed.
Print Assumptions c01_model_satisfies_monitor_bounded.

(* ---- c01_partial (unbounded, conditional) -------------------------------------------------------------------

   WF2 = the replica log is an unbroken hash chain from genesis whose digests are the (structural) hash
   of the entry's own fields, row and predecessor digest.  It holds for every replica reached by every
   schedule (c01_all_replicas_well_formed).

   selection_covers n sel idx e = idx <= selected index, and some well-formed voter holds e at idx and the
   selected identity at the selected index.  This is what the condition "at least Q of the probe's respondents hold
   the acknowledged entry" yields through quorum intersection with the >= Q supporters of the selection
   WHEN the selected index reaches idx; in F1 it fails because the selected index (0) is below the entry (1). *)

(* log matching: two well-formed logs holding the same identity at index k agree on every index <= k *)
Theorem c01_log_matching : forall (A B : replica) k e,
  WF A -> WF B -> digests_ok A -> digests_ok B ->
  ent_at A k = Some e -> ent_at B k = Some e ->
  forall idx, idx <= k -> ent_at A idx = ent_at B idx.
Proof. exact log_matching. Qed.
Print Assumptions c01_log_matching.

(* a successful repair leaves the installing node ending exactly in the selected identity *)
Theorem c01_repair_installs_selection : forall n local voters q sel maxBytes n1 recovered,
  repairQuorumPrefix n local voters q sel maxBytes = (n1, inr recovered) -> 0 < sl_index sel ->
  rs_leo recovered = sl_index sel /\ rs_tail recovered = sl_ident sel /\
  ent_at (net_rep n1 local) (sl_index sel) = Some (sl_ident sel).
Proof. exact repair_success_tail. Qed.
Print Assumptions c01_repair_installs_selection.

(* every successful Install either was the idempotent answer of an already ready owner, or is
   recoverQuorumPrefix ; repairQuorumPrefix ; optional barrier *)
Theorem c01_install_is_recover_repair_barrier : forall cfg n st local a n' st' x leo hw,
  Install cfg n st local a = (n', st', IOk x leo hw) ->
  (n' = n /\ st' = st /\ qc_ready st = true) \/
  exists sel n1 recovered,
    recoverQuorumPrefix n local (a_voters a) (a_q a) = inr sel /\
    repairQuorumPrefix n local (a_voters a) (a_q a) sel (cf_pagebytes cfg) = (n1, inr recovered) /\
    (n' = n1 \/ exists bs, writeCurrentTermBarrier n1 a recovered (cf_rot cfg) = (n', inr bs)).
Proof. exact Install_ok_recovery_path. Qed.
Print Assumptions c01_install_is_recover_repair_barrier.

(* c01_partial: an Install that succeeds through recovery with a selection covering the entry leaves
   the installed, writable node holding that entry, identical, at its index *)
Theorem c01_partial : forall cfg n st local a n' st' x leo hw idx e,
  Install cfg n st local a = (n', st', IOk x leo hw) -> qc_ready st = false ->
  WF2 (net_rep n local) ->
  (forall sel, recoverQuorumPrefix n local (a_voters a) (a_q a) = inr sel -> selection_covers n sel idx e) ->
  ent_at (net_rep n' local) idx = Some e.
Proof. exact Install_keeps_covered_entry. Qed.
Print Assumptions c01_partial.

(* the well-formedness premise of c01_partial holds on every schedule *)
Theorem c01_all_replicas_well_formed : forall cfg ops,
  run_bounded cfg (cluster_init cfg) ops ->
  forall v, WF2 (net_rep (cl_net (run_cluster cfg (cluster_init cfg) ops)) v).
Proof. exact (fun cfg ops => run_cluster_WF2 cfg ops _ (WF2_init cfg)). Qed.
Print Assumptions c01_all_replicas_well_formed.
