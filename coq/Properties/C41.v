(* C41 — Stopping the send pipeline never drops accepted sends.

   Model (Model/StopPipeline_C41.v): the stop / drain protocol shared by the
   three stages of the send pipeline — gateway sendExecutor (DrainSends / stop),
   channelappend.Group (SubmitLocal / Stop / finishStop) and delivery.Runtime
   (EnqueueRecipientDeliveryPlan / Quiesce / Stop) — as one transition system
   over the code's atomic steps: the admission critical section (rejected once
   stopping, otherwise the in-flight counter grows), the task's terminal result
   (counter shrinks), stop callers (set stopping, start the single background
   drainer once, wait for it or for their own deadline) and the drainer (when
   nothing is in flight: cancel the runtime, done).  [sc_cod c] is the one
   structural difference between the stages: Runtime.Stop cancels the run
   context when its caller's deadline expires; Group.Stop, DrainSends and
   Runtime.Quiesce do not.  [srun c evs] executes an ARBITRARY interleaving of
   any number of tasks and stop callers.  The gateway stage is additionally
   modelled in full detail in Model/GatewaySend.v (C28: c28_drain_fence,
   c28_drain_completes, c28_quiescent_complete, c28_mailbox_closed_after_drain). *)
From WK Require Import Base.Base Model.GatewaySend Model.StopPipeline_C41 Proof.GatewaySend_lib
  Proof.StopPipeline_C41.
Open Scope N_scope.

(* after a stop began nothing is admitted: stopping stays set and the in-flight counter never grows *)
Theorem c41_no_admission_after_stop : forall c st e,
  s_stopping st = true ->
  s_stopping (sstep c st e) = true /\ s_inflight (sstep c st e) <= s_inflight st.
Proof. exact no_admission_after_stop. Qed.
Print Assumptions c41_no_admission_after_stop.

(* real-time form: a task admitted by the pipeline was submitted no later than the
   return of every stop call *)
Theorem c41_no_admission_after_stop_realtime : forall c evs x s,
  In x (s_subs (srun c evs)) -> hb_acc x = true -> In s (s_stops (srun c evs)) -> hb_t0 x <= hp_t1 s.
Proof. intros c evs. exact (i_fence c _ (sinv_run c evs)). Qed.
Print Assumptions c41_no_admission_after_stop_realtime.

(* every task admitted before the stop has its terminal result once the drain is done ... *)
Theorem c41_admitted_get_terminal : forall c evs x,
  s_done (srun c evs) = true -> In x (s_subs (srun c evs)) -> hb_acc x = true ->
  exists e, In e (s_terms (srun c evs)) /\ ht_task e = hb_task x.
Proof. intros c evs x. exact (done_all_terminal c _ x (sinv_run c evs)). Qed.
Print Assumptions c41_admitted_get_terminal.

(* ... strictly before any stop call returns nil *)
Theorem c41_stop_returns_after_terminal : forall c evs s x,
  In s (s_stops (srun c evs)) -> hp_ok s = true -> In x (s_subs (srun c evs)) -> hb_acc x = true ->
  exists e, In e (s_terms (srun c evs)) /\ ht_task e = hb_task x /\ ht_t e < hp_t1 s.
Proof. intros c evs. exact (i_stopped c _ (sinv_run c evs)). Qed.
Print Assumptions c41_stop_returns_after_terminal.

(* at most one terminal result per task, and only for admitted tasks *)
Theorem c41_terminal_once : forall c evs,
  NoDup (map ht_task (s_terms (srun c evs)))
  /\ forall e, In e (s_terms (srun c evs)) ->
       exists x, In x (s_subs (srun c evs)) /\ hb_task x = ht_task e /\ hb_acc x = true.
Proof.
  intros c evs. pose proof (sinv_run c evs) as I.
  exact (conj (i_term_nodup c _ I) (fun e He => proj2 (i_term_fin c _ I e He))).
Qed.
Print Assumptions c41_terminal_once.

(* a stop whose caller deadline expires does not cancel or discard admitted work
   (Group.Stop, DrainSends, Quiesce: no cancel-on-deadline):
   structurally — a caller's step taken with an expired deadline (stated for any pc of the caller,
   hence nothing about [s_stopping]) touches no task, counter, log of submits or results — *)
Theorem c41_deadline_does_not_cancel : forall c st d,
  sc_cod c = false ->
  let st' := sstep c st (SStop d true) in
  s_tpc st' = s_tpc st /\ s_inflight st' = s_inflight st /\ s_cancelled st' = s_cancelled st
  /\ s_subs st' = s_subs st /\ s_terms st' = s_terms st /\ s_done st' = s_done st
  /\ (s_dstarted st = true -> s_dstarted st' = true).
Proof.
  intros c st d Hcod. destruct (stop_step_frame c st d true) as (H1 & H2 & H3 & H4 & H5 & H6 & H7).
  repeat split; auto.
Qed.
Print Assumptions c41_deadline_does_not_cancel.

(* — and globally: the runtime is cancelled only after the drain found nothing in
   flight, so no admitted task ever ends cancelled *)
Theorem c41_cancel_only_after_drain : forall c evs,
  sc_cod c = false -> s_cancelled (srun c evs) = true ->
  s_done (srun c evs) = true /\ s_inflight (srun c evs) = 0.
Proof.
  intros c evs Hcod Hc. pose proof (sinv_run c evs) as I. pose proof (i_cancel c _ I Hc Hcod) as Hd.
  exact (conj Hd (proj1 (proj2 (i_done c _ I Hd)))).
Qed.
Print Assumptions c41_cancel_only_after_drain.

Theorem c41_never_cancelled : forall c evs e,
  sc_cod c = false -> In e (s_terms (srun c evs)) -> ht_res e <> RCancel.
Proof.
  intros c evs e Hcod He Hr. destruct (i_rc c _ (sinv_run c evs) e He Hr) as [H _]. congruence.
Qed.
Print Assumptions c41_never_cancelled.

(* a later stop call does not restart or undo the drain that is already running: its steps
   leave the drainer started, the tasks, the counter and the submit / terminal logs as they are *)
Theorem c41_second_stop_reuses : forall c st d timeout,
  s_dstarted st = true ->
  let st' := sstep c st (SStop d timeout) in
  s_dstarted st' = true /\ s_tpc st' = s_tpc st /\ s_inflight st' = s_inflight st
  /\ s_subs st' = s_subs st /\ s_terms st' = s_terms st /\ (s_done st = true -> s_done st' = true).
Proof.
  intros c st d timeout Hd. destruct (stop_step_frame c st d timeout) as (H1 & H2 & H3 & H4 & H5 & H6 & _).
  cbv zeta. rewrite H5. repeat split; auto.
Qed.
Print Assumptions c41_second_stop_reuses.

(* the monitor evaluated on implementation histories accepts every history of the model *)
Theorem c41_model_satisfies_monitor : forall c evs comp final,
  sc_cod c = false -> (final = true -> squiescent (srun c evs)) ->
  smonitor comp final (shist_of (srun c evs)) = 0.
Proof. intros c evs comp final. exact (smonitor_inv c _ comp final (sinv_run c evs)). Qed.
Print Assumptions c41_model_satisfies_monitor.

(* delivery.Runtime.Stop is the one stop of the pipeline that cancels on an expired
   deadline: the third clause of the property is FALSE for it.  Witness (model): two
   admitted plans, a Stop whose deadline expires while they are pending, both end
   cancelled; reproduced on the real code (corpus/C41, known-finding signature 2). *)
Theorem c41_runtime_stop_refuted :
  exists c evs e, sc_cod c = true /\ In e (s_terms (srun c evs)) /\ ht_res e = RCancel
                  /\ smonitor 3 true (shist_of (srun c evs)) = 2.
Proof. exact runtime_stop_refuted. Qed.
Print Assumptions c41_runtime_stop_refuted.

(* and that signature is the only way the monitor can be non-zero on the model of Runtime.Stop *)
Theorem c41_runtime_stop_only_known_signature : forall c evs final,
  (final = true -> squiescent (srun c evs)) ->
  smonitor 3 final (shist_of (srun c evs)) = 0 \/ smonitor 3 final (shist_of (srun c evs)) = 2.
Proof. intros c evs final. exact (smonitor_inv_cod c _ final (sinv_run c evs)). Qed.
Print Assumptions c41_runtime_stop_only_known_signature.

(* the atomicity the theorems rest on is the code's: lifecycle check and admission under ONE
   lock.  On the variant [sstep_split] (check and admission in separate critical sections —
   the seeded change C41-a) a stop completes in between: the drain is done, yet a task is
   admitted afterwards, stays in flight without terminal result, and the monitor is 1 *)
Theorem c41_split_check_refuted :
  let c := SCfg 1 false in
  let evs := [SSubmit 0; STask 0 ROk; SStopCall 0; SStop 0 false; SStop 0 false; SDrainer; SStop 0 false; STask 0 ROk] in
  let st := srun_split c evs in
  s_done st = true /\ s_inflight st = 1 /\ s_tpc st 0%nat = TWork
  /\ map hb_acc (s_subs st) = [true] /\ s_terms st = [] /\ map hp_ok (s_stops st) = [true]
  /\ smonitor 1 false (shist_of st) = 1
  /\ smonitor 1 false (shist_of (srun c evs)) = 0.
Proof. exact split_check_refuted. Qed.
Print Assumptions c41_split_check_refuted.

(* non-vacuity: a stop with an expiring deadline, a second stop that joins the same drain,
   a submit after the stop is rejected, the admitted task completes normally *)
Example c41_example_run :
  let c := SCfg 3 false in
  let evs := [SSubmit 0; STask 0 ROk; SStopCall 0; SStop 0 false; SStop 0 false; SStop 0 true;
              SSubmit 1; STask 1 ROk; STask 0 ROk; SStopCall 1; SStop 1 false; SStop 1 false; SDrainer; SStop 1 false] in
  let st := srun c evs in
  map (fun x => (hb_task x, hb_acc x)) (s_subs st) = [(0%nat, true); (1%nat, false)]
  /\ map (fun e => (ht_task e, ht_res e)) (s_terms st) = [(0%nat, ROk)]
  /\ map hp_ok (s_stops st) = [false; true] /\ s_cancelled st = true /\ s_inflight st = 0
  /\ smonitor 1 true (shist_of st) = 0.
Proof. vm_compute. repeat split; reflexivity. Qed.
