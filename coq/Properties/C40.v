(* C40 — Message event projection is monotonic and fail-closed.
   Statements; each is closed by a lemma of Proof/MsgEvent*.v or by a few lines that
   instantiate or assemble such lemmas.

   Model: Model/MsgEvent.v (reducers, the three tables, the slot command, the
   leader-side stream cache and the finish path).  encoding/json enters through
   payload views (see the header of Model/MsgEvent.v); TrimSpace/ToLower are
   the ASCII versions. *)
From WK Require Import Base.Base.
From WK Require Import Gen.Consts_C40 Model.MsgEvent Model.MsgEvent_C40.
From WK Require Import Proof.MsgEvent Proof.MsgEvent_monitor Proof.MsgEvent_node.
Open Scope N_scope.

(* ------------------------------------------------------------------------------------------
   1. The durable event sequence only increases
   ------------------------------------------------------------------------------------------ *)

(* reducer: an applied event gets the successor of the message cursor, as cursor,
   lane sequence and result; an event that is not applied changes nothing *)
Theorem c40_seq_strict_reducer : forall state ex cursor cex e,
  let '(st', cu', did, res) := reduceMessageEventAppend state ex cursor cex e in
  let cur := if cex then cu_seq cursor else 0 in
  (did = true -> cu_seq cu' = wrap_succ cur /\ st_seq st' = cu_seq cu' /\ r_seq res = cu_seq cu')
  /\ (did = false -> cu' = cursor /\ st' = state /\ res = messageEventAppendResult e state).
Proof.
  intros state ex cursor cex e. destruct (reduce_noop_cond state ex e) eqn:C.
  - rewrite (reduce_noop _ _ cursor cex _ C). split; [discriminate|]. intros _. repeat split.
  - destruct (reduce_apply state ex cursor cex e C) as (st' & cu' & res & E & [-> Hc Hs _ _ _ _]). rewrite E.
    split; [|discriminate]. intros _. cbn [r_seq messageEventAppendResult]. repeat split; assumption.
Qed.
Print Assumptions c40_seq_strict_reducer.

(* Shard.AppendMessageEvent / Batch.AppendMessageEvent: either nothing changes, or exactly
   the cursor of the event's message advances to its successor, which is the sequence
   of the result and of the lane; every other cursor is untouched *)
Theorem c40_seq_strict : forall db hs e out db',
  AppendMessageEvent db hs e = (out, db') ->
  db' = db
  \/ exists ne r st',
      normalizeMessageEventAppend e = Some ne /\ out = (ENone, Some r)
      /\ get_applied db hs (e_channel ne) (e_ctype ne) (e_msgno ne) (e_id ne) = None
      /\ cursor_seq db' hs (e_channel ne) (e_ctype ne) (e_msgno ne)
         = wrap_succ (cursor_seq db hs (e_channel ne) (e_ctype ne) (e_msgno ne))
      /\ r_seq r = cursor_seq db' hs (e_channel ne) (e_ctype ne) (e_msgno ne)
      /\ get_state db' hs (e_channel ne) (e_ctype ne) (e_msgno ne) (e_key ne) = Some st'
      /\ st_seq st' = r_seq r /\ r_key r = e_key ne
      /\ (forall hs' c t m, cursor_at hs' c t m (hs, mkCursor (e_channel ne) (e_ctype ne) (e_msgno ne) 0 0%Z) = false ->
                            cursor_seq db' hs' c t m = cursor_seq db hs' c t m).
Proof. exact append_seq_strict. Qed.
Print Assumptions c40_seq_strict.

(* the successor is +1 below the 64-bit limit *)
Theorem c40_successor : forall x, x < u64max -> wrap_succ x = x + 1.
Proof. exact wrap_succ_lt. Qed.
Print Assumptions c40_successor.

(* histories of any length below 2^64-1 events: a message's cursor never decreases and
   grows by at most one per event *)
Theorem c40_seq_monotone_history : forall evs db hs c t m,
  cursor_seq db hs c t m + N.of_nat (length evs) <= u64max ->
  cursor_seq db hs c t m <= cursor_seq (run_appends db evs) hs c t m
  /\ cursor_seq (run_appends db evs) hs c t m <= cursor_seq db hs c t m + N.of_nat (length evs).
Proof. exact run_cursor_monotone. Qed.
Print Assumptions c40_seq_monotone_history.

(* a WriteBatch (and the slot command that wraps it) is the sequence of its appends *)
Theorem c40_batch_is_sequence : forall db evs, snd (batch_appends db evs) = run_appends db evs.
Proof. exact batch_appends_run. Qed.
Print Assumptions c40_batch_is_sequence.

(* one append keeps the invariant "every lane's sequence is at or below its message's cursor";
   it holds of the empty tables ([lanes_below_empty]) *)
Theorem c40_lane_seq_below_cursor : forall db hs e,
  lanes_below_cursor db ->
  (forall ne, normalizeMessageEventAppend e = Some ne ->
              cursor_seq db hs (e_channel ne) (e_ctype ne) (e_msgno ne) < u64max) ->
  lanes_below_cursor (snd (AppendMessageEvent db hs e)).
Proof. exact append_lanes_below. Qed.
Print Assumptions c40_lane_seq_below_cursor.

(* ------------------------------------------------------------------------------------------
   2. Terminal events finalize their lane once
   ------------------------------------------------------------------------------------------ *)

(* an applied event leaves the lane terminal exactly when it is close / error / cancel / finish *)
Theorem c40_terminal_iff_terminal_event : forall state ex cursor cex e,
  reduce_noop_cond state ex e = false ->
  exists st' cu' res,
    reduceMessageEventAppend state ex cursor cex e = (st', cu', true, res)
    /\ isMessageEventTerminal (st_status st') = isMessageEventTerminalEvent (e_etype e).
Proof.
  intros state ex cursor cex e H. destruct (reduce_apply state ex cursor cex e H) as (st' & cu' & res & E & S).
  exists st', cu', res. split; [exact E | exact (as_terminal _ _ _ _ _ _ _ _ S)].
Qed.
Print Assumptions c40_terminal_iff_terminal_event.

(* a terminal lane is never changed again, by any history of appends *)
Theorem c40_terminal_once : forall evs db hs c t m key s,
  get_state db hs c t m key = Some s -> isMessageEventTerminal (st_status s) = true ->
  get_state (run_appends db evs) hs c t m key = Some s.
Proof. exact run_preserves_terminal. Qed.
Print Assumptions c40_terminal_once.

(* an event addressed to a terminal lane is a no-op that returns the stored lane *)
Theorem c40_terminal_noop : forall db hs e ne s,
  normalizeMessageEventAppend e = Some ne ->
  get_applied db hs (e_channel ne) (e_ctype ne) (e_msgno ne) (e_id ne) = None ->
  get_state db hs (e_channel ne) (e_ctype ne) (e_msgno ne) (e_key ne) = Some s ->
  isMessageEventTerminal (st_status s) = true ->
  AppendMessageEvent db hs e = ((ENone, Some (messageEventAppendResult ne s)), db).
Proof.
  intros db hs e ne s Nm Ga Gs T. apply (append_finalized db hs e ne s Nm Ga Gs). rewrite T. apply orb_true_r.
Qed.
Print Assumptions c40_terminal_noop.

(* ------------------------------------------------------------------------------------------
   3. A replayed event id is not applied twice
   ------------------------------------------------------------------------------------------ *)

(* any recorded id: nothing changes; the recorded lane, sequence and status come back *)
Theorem c40_replay_noop : forall db hs e ne a,
  normalizeMessageEventAppend e = Some ne ->
  get_applied db hs (e_channel ne) (e_ctype ne) (e_msgno ne) (e_id ne) = Some a ->
  exists r, AppendMessageEvent db hs e = ((ENone, Some r), db)
            /\ r_key r = ap_key a /\ r_seq r = ap_seq a /\ r_status r = ap_status a /\ r_id r = e_id ne.
Proof. exact append_replay. Qed.
Print Assumptions c40_replay_noop.

(* the same call again: same outcome (the whole result), no change *)
Theorem c40_replay_idempotent : forall db hs e out db',
  AppendMessageEvent db hs e = (out, db') -> AppendMessageEvent db' hs e = (out, db').
Proof. exact append_idempotent. Qed.
Print Assumptions c40_replay_idempotent.

(* applied-id rows are never overwritten or lost *)
Theorem c40_applied_rows_persist : forall evs db hs c t m id a,
  get_applied db hs c t m id = Some a -> get_applied (run_appends db evs) hs c t m id = Some a.
Proof. exact run_preserves_applied. Qed.
Print Assumptions c40_applied_rows_persist.

(* an applied event replayed after ANY further history changes nothing and returns
   its original lane, sequence and status *)
Theorem c40_replay_after_history : forall db hs e out db1 evs ne r,
  AppendMessageEvent db hs e = (out, db1) -> db1 <> db ->
  normalizeMessageEventAppend e = Some ne -> out = (ENone, Some r) ->
  let db2 := run_appends db1 evs in
  exists r', AppendMessageEvent db2 hs e = ((ENone, Some r'), db2)
             /\ r_key r' = r_key r /\ r_seq r' = r_seq r /\ r_status r' = r_status r.
Proof. exact replay_after_history. Qed.
Print Assumptions c40_replay_after_history.

(* ------------------------------------------------------------------------------------------
   4. The finish path is fail-closed
   ------------------------------------------------------------------------------------------ *)

(* delta / snapshot / open events only touch the cache *)
Theorem c40_cache_only_not_durable : forall st e fail ne,
  normalizeMessageEventAppend e = Some ne -> isMessageEventCacheOnlyEvent (e_etype ne) = true ->
  let '(out, st') := appendMessageEventLocal st e fail in
  ao_proposals out = [] /\ n_db st' = n_db st.
Proof. exact cache_only_not_durable. Qed.
Print Assumptions c40_cache_only_not_durable.

(* no open cached lane and no snapshot in the payload: ErrMessageEventStreamCacheMiss,
   nothing proposed, node state (cache and tables) unchanged *)
Theorem c40_finish_fail_closed : forall st e fail fin,
  normalizeMessageEventAppend e = Some fin ->
  bytes_eqb (e_etype fin) EventTypeStreamFinish = true ->
  slot_local (n_local st) (hash_slot_of st (e_channel fin) + 1) = true ->
  openStatesForFinish (n_cache st) fin = [] ->
  p_hassnap (e_payload fin) = false ->
  appendMessageEventLocal st e fail = (mkAppendOut ECacheMiss None [], st).
Proof.
  intros st e fail fin Nm Fi Lo Op Hs. rewrite (append_local_finish st e fail fin Nm Fi Lo).
  exact (finish_local_cache_miss st fin fail Op Hs).
Qed.
Print Assumptions c40_finish_fail_closed.

(* restore reset, restore pause and resume, and the loss of authority over the channel's hash slot
   each leave no open lane *)
Theorem c40_cache_loss_leaves_no_open_lane : forall ca e,
  openStatesForFinish (resetAfterRestore ca) e = []
  /\ openStatesForFinish (pauseForRestore ca) e = []
  /\ openStatesForFinish (resumeAfterRestore ca) e = []
  /\ (forall hash_slot_of lost, existsb (N.eqb (hash_slot_of (e_channel e))) lost = true ->
        openStatesForFinish (removeHashSlotsObserved ca hash_slot_of lost) e = []).
Proof. exact cache_loss_leaves_no_open_lane. Qed.
Print Assumptions c40_cache_loss_leaves_no_open_lane.

(* otherwise exactly one proposal: one flush close per open cached lane (in lane
   order) followed by the finish *)
Theorem c40_finish_proposal : forall st e fail fin,
  normalizeMessageEventAppend e = Some fin ->
  bytes_eqb (e_etype fin) EventTypeStreamFinish = true ->
  slot_local (n_local st) (hash_slot_of st (e_channel fin) + 1) = true ->
  (nil_b (openStatesForFinish (n_cache st) fin) && negb (p_hassnap (e_payload fin))) = false ->
  exists rs, ao_proposals (fst (appendMessageEventLocal st e fail))
             = [with_results (map (finishFlushMessageEvent fin) (openStatesForFinish (n_cache st) fin) ++ [fin]) rs].
Proof.
  intros st e fail fin Nm Fi Lo Op. rewrite (append_local_finish st e fail fin Nm Fi Lo).
  exact (finish_local_proposal st fin fail Op).
Qed.
Print Assumptions c40_finish_proposal.

(* FULL STATEMENT (false of the code, see c40_finish_fail_closed_refuted):
     a successful finish makes every open cached lane durable with its cached snapshot.
   PARTIAL: under the explicit hypotheses
     - the finish payload is not a JSON object that the terminal decoder rejects,
     - the proposed events are their own normal forms, the open lanes have distinct keys,
     - the lane is not durable yet and its flush id is unused,
   the lane is durable and terminal afterwards and its snapshot is the cached one
   (or the one the finish payload carries). *)
Theorem c40_finish_persists_cached_partial : forall st fin out st' lane c0,
  let opens := openStatesForFinish (n_cache st) fin in
  let hs := hash_slot_of st (e_channel fin) in
  let events := map (finishFlushMessageEvent fin) opens ++ [fin] in
  appendMessageEventFinishLocal st fin false = (out, st') -> ao_err out = ENone ->
  (forall ev, In ev events -> normalizeMessageEventAppend ev = Some ev) ->
  NoDup (map st_key opens) ->
  views_coherent (e_payload fin) ->
  (p_obj (e_payload fin) = true -> merge_decodes (e_payload fin) = true) ->
  In lane opens ->
  is_empty (s_raw (st_snap lane)) = false -> tsnap_of_canon (s_canon (st_snap lane)) = Some c0 ->
  get_state (n_db st) hs (e_channel fin) (e_ctype fin) (e_msgno fin) (st_key lane) = None ->
  get_applied (n_db st) hs (e_channel fin) (e_ctype fin) (e_msgno fin) (finishFlushMessageEventID (e_id fin) (st_key lane)) = None ->
  exists s', get_state (n_db st') hs (e_channel fin) (e_ctype fin) (e_msgno fin) (st_key lane) = Some s'
             /\ isMessageEventTerminal (st_status s') = true
             /\ s_raw (st_snap s') = (if p_hassnap (e_payload fin) then p_tsnap_canon (e_payload fin) else s_canon (st_snap lane)).
Proof.
  intros st fin out st' lane c0 opens hs events E Ok Hnorm Hnodup Vc Hdec Hin Hsn Hc0.
  rewrite (finish_local_db _ _ _ _ _ E Ok). apply flush_run; try assumption.
  - intros ev Hev. apply Hnorm, in_or_app. left. exact Hev.
  - rewrite Hc0. discriminate.
Qed.
Print Assumptions c40_finish_persists_cached_partial.

(* close / error / cancel: the proposed payload decodes to the cached snapshot (same hypotheses on the payload) *)
Theorem c40_terminal_merges_cache_partial : forall ca e session state c0,
  isMessageEventTerminalEvent (e_etype e) = true ->
  find_session ca (e_channel e) (e_ctype e) (e_msgno e) = Some session ->
  assoc (e_key e) (ss_states session) = Some state ->
  is_empty (st_key state) = false ->
  is_empty (s_raw (st_snap state)) = false -> tsnap_of_canon (s_canon (st_snap state)) = Some c0 ->
  views_coherent (e_payload e) ->
  (p_obj (e_payload e) = true -> merge_decodes (e_payload e) = true) ->
  exists raw, terminal_snapshot (e_payload (mergeTerminalPayload ca e)) = Some raw
              /\ s_raw raw = (if p_hassnap (e_payload e) then p_tsnap_canon (e_payload e) else s_canon (st_snap state)).
Proof.
  intros ca e session state c0 Te Fs As Ke Sn Hc Vc Hd.
  rewrite (mergeTerminalPayload_hit ca e session state Te Fs As Ke Sn).
  apply merged_snapshot; try assumption. rewrite Hc. discriminate.
Qed.
Print Assumptions c40_terminal_merges_cache_partial.

(* ------------------------------------------------------------------------------------------
   5. Monitor link: the monitor on the model's own traces
   ------------------------------------------------------------------------------------------ *)

(* every reducer call of the model satisfies the monitor *)
Theorem c40_model_satisfies_monitor_reduce : forall st ex cu (cex : bool) e,
  let '(st', cu', did, res) := reduceMessageEventAppend st ex cu cex e in
  C40_monitor (C40Reduce st ex cu cex e st' cu' did res) = 0.
Proof. exact reduce_model_satisfies_monitor. Qed.
Print Assumptions c40_model_satisfies_monitor_reduce.

(* every history of Shard / WriteBatch appends: the trace of the model satisfies the monitor *)
Theorem c40_model_satisfies_monitor : forall ops ks,
  C40_monitor (C40Meta (meta_trace ks db_empty ops)) = 0.
Proof. exact (fun ops ks => meta_model_satisfies_monitor ops ks db_empty). Qed.
Print Assumptions c40_model_satisfies_monitor.

(* every node history: on the trace of the model the table part of the monitor (atomic
   proposals, results consistent with the abstract tables, dumps equal to them) never
   fires — the monitor's value is that of the finish / panic / cache-only clauses
   ([node_clauses]; no value is claimed for them here: F1 and F2 read the cache dumps, so it depends
   on [ks] covering the messages of the history) *)
Theorem c40_model_satisfies_monitor_node : forall ops ks max_sessions chan_hs hs_count,
  C40_monitor (C40Node max_sessions hs_count chan_hs (node_trace ks (node_init max_sessions chan_hs hs_count) ops))
  = node_clauses ks (node_init max_sessions chan_hs hs_count) [] ops.
Proof. exact (fun ops ks max_sessions chan_hs hs_count => node_monitor_is_clauses ops ks (node_init max_sessions chan_hs hs_count) []). Qed.
Print Assumptions c40_model_satisfies_monitor_node.

(* ------------------------------------------------------------------------------------------
   6. Witnesses (each history is replayed on the implementation from corpus/C40/)
   ------------------------------------------------------------------------------------------ *)

Definition ks1 : list dump_key := [(1, hx "6731", 2%Z, hx "6d31")].
Definition chan1 : list (bytes * N) := [(hx "6731", 1)].
Definition run_w (ops : list NodeOp) : c40_case := C40Node 0 2 chan1 (node_trace ks1 (node_init 0 chan1 2) ops).

(* delta "ab"; finish {"end_reason":2}: flushed and completed *)
Definition w_ok : list NodeOp := [
   (NEv (mkEvent (hx "6731") (2)%Z (hx "6d31") (hx "6531") (hx "6d61696e") (hx "73747265616d2e64656c7461") (hx "7075626c6963") (10)%Z (mkPayload (hx "7b226b696e64223a2274657874222c2264656c7461223a226162227d") (Some (hx "6162")) (Some (hx "")) (hx "7b226b696e64223a2274657874222c2264656c7461223a226162227d") true None (hx "") 0 (hx "") true false) (11)%Z) false);
   (NEv (mkEvent (hx "6731") (2)%Z (hx "6d31") (hx "6631") (hx "6d61696e") (hx "73747265616d2e66696e697368") (hx "7075626c6963") (10)%Z (mkPayload (hx "7b22656e645f726561736f6e223a327d") None None (hx "7b22656e645f726561736f6e223a327d") true None (hx "") 2 (hx "") true false) (11)%Z) false)].
Example c40_example_finish_flushes : C40_monitor (run_w w_ok) = 0.
Proof. vm_compute. reflexivity. Qed.

(* delta "ab"; cache reset (restore / leader change); finish without snapshot: cache miss, nothing durable *)
Definition w_miss : list NodeOp := [(NEv (mkEvent (hx "6731") (2)%Z (hx "6d31") (hx "6531") (hx "6d61696e") (hx "73747265616d2e64656c7461") (hx "7075626c6963") (10)%Z (mkPayload (hx "7b226b696e64223a2274657874222c2264656c7461223a226162227d") (Some (hx "6162")) (Some (hx "")) (hx "7b226b696e64223a2274657874222c2264656c7461223a226162227d") true None (hx "") 0 (hx "") true false) (11)%Z) false);
   NReset;
   (NEv (mkEvent (hx "6731") (2)%Z (hx "6d31") (hx "6631") (hx "6d61696e") (hx "73747265616d2e66696e697368") (hx "7075626c6963") (10)%Z (mkPayload (hx "7b22656e645f726561736f6e223a327d") None None (hx "7b22656e645f726561736f6e223a327d") true None (hx "") 2 (hx "") true false) (11)%Z) false)].
Example c40_example_cache_miss :
  C40_monitor (run_w w_miss) = 0
  /\ map (fun x => no_err (snd x)) (node_trace ks1 (node_init 0 chan1 2) w_miss) = [ENone; ENone; ECacheMiss]
  /\ n_db (fold_left (fun st op => snd (node_step st op)) w_miss (node_init 0 chan1 2)) = db_empty.
Proof. vm_compute. repeat split; reflexivity. Qed.

(* non-vacuity of c40_finish_persists_cached_partial: its hypotheses hold in the
   state reached by w_ok's delta, for w_ok's finish and the cached lane "main" *)
Definition st_after_delta : NodeSt :=
  match w_ok with op :: _ => snd (node_step (node_init 0 chan1 2) op) | [] => node_init 0 chan1 2 end.
Definition fin_ok : Event :=
  match w_ok with
  | [_; NEv e _] => match normalizeMessageEventAppend e with Some ne => ne | None => e end
  | _ => mkEvent [] 0%Z [] [] [] [] [] 0%Z payload_empty 0%Z
  end.
Example c40_example_finish_persists_hypotheses :
  let st := st_after_delta in let fin := fin_ok in
  let lane := hd state_zero (openStatesForFinish (n_cache st) fin) in
  exists s', get_state (n_db (snd (appendMessageEventFinishLocal st fin false)))
                       (hash_slot_of st (e_channel fin)) (e_channel fin) (e_ctype fin) (e_msgno fin) (st_key lane) = Some s'
             /\ isMessageEventTerminal (st_status s') = true
             /\ s_raw (st_snap s') = marshal_text (hx "6162").
Proof.
  intros st fin lane.
  destruct (appendMessageEventFinishLocal st fin false) as [out st'] eqn:E. cbn [snd].
  assert (Hok : ao_err (fst (appendMessageEventFinishLocal st fin false)) = ENone) by (vm_compute; reflexivity).
  rewrite E in Hok. cbn [fst] in Hok.
  destruct (c40_finish_persists_cached_partial st fin out st' lane (s_canon (st_snap lane)) E Hok) as (s' & G & T & R).
  - intros ev Hin. vm_compute in Hin. destruct Hin as [<-|[<-|[]]]; vm_compute; reflexivity.
  - vm_compute. repeat constructor. intros [].
  - intro H. vm_compute in H. discriminate.
  - intro H. vm_compute. reflexivity.
  - vm_compute. left. reflexivity.
  - vm_compute. reflexivity.
  - vm_compute. reflexivity.
  - vm_compute. reflexivity.
  - vm_compute. reflexivity.
  - exists s'. split; [exact G|]. split; [exact T|]. rewrite R. vm_compute. reflexivity.
Qed.

(* KNOWN FINDING C40-K1 (monitor code 2).  delta "ab" acknowledged; finish with payload
   {"end_reason":300}: the merged flush payload does not decode (end_reason is a uint8),
   the lane is closed durably WITHOUT the cached snapshot and the completed marker is written *)
Definition w_k1 : list NodeOp := [(NEv (mkEvent (hx "6731") (2)%Z (hx "6d31") (hx "6531") (hx "6d61696e") (hx "73747265616d2e64656c7461") (hx "7075626c6963") (10)%Z (mkPayload (hx "7b226b696e64223a2274657874222c2264656c7461223a226162227d") (Some (hx "6162")) (Some (hx "")) (hx "7b226b696e64223a2274657874222c2264656c7461223a226162227d") true None (hx "") 0 (hx "") true false) (11)%Z) false);
   (NEv (mkEvent (hx "6731") (2)%Z (hx "6d31") (hx "6631") (hx "6d61696e") (hx "73747265616d2e66696e697368") (hx "7075626c6963") (10)%Z (mkPayload (hx "7b22656e645f726561736f6e223a3330307d") None None (hx "7b22656e645f726561736f6e223a3330307d") false None (hx "") 0 (hx "") true false) (11)%Z) false)].
Theorem c40_finish_fail_closed_refuted :
  exists ops, C40_monitor (run_w ops) = 2
              /\ map (fun x => no_err (snd x)) (node_trace ks1 (node_init 0 chan1 2) ops) = [ENone; ENone].
Proof. exists w_k1. vm_compute. split; reflexivity. Qed.
Print Assumptions c40_finish_fail_closed_refuted.

(* the same defect on a close: {"end_reason":"done"} closes the lane without the cached deltas *)
Definition w_k1_close : list NodeOp := [(NEv (mkEvent (hx "6731") (2)%Z (hx "6d31") (hx "6531") (hx "6d61696e") (hx "73747265616d2e64656c7461") (hx "7075626c6963") (10)%Z (mkPayload (hx "7b226b696e64223a2274657874222c2264656c7461223a226162227d") (Some (hx "6162")) (Some (hx "")) (hx "7b226b696e64223a2274657874222c2264656c7461223a226162227d") true None (hx "") 0 (hx "") true false) (11)%Z) false);
   (NEv (mkEvent (hx "6731") (2)%Z (hx "6d31") (hx "6331") (hx "6d61696e") (hx "73747265616d2e636c6f7365") (hx "7075626c6963") (10)%Z (mkPayload (hx "7b22656e645f726561736f6e223a22646f6e65227d") None None (hx "7b22656e645f726561736f6e223a22646f6e65227d") false None (hx "") 0 (hx "") true false) (11)%Z) false)].
Example c40_terminal_merges_cache_refuted :
  let st := fold_left (fun st op => snd (node_step st op)) w_k1_close (node_init 0 chan1 2) in
  option_map (fun s => (st_status s, s_raw (st_snap s))) (get_state (n_db st) 1 (hx "6731") 2%Z (hx "6d31") (hx "6d61696e"))
  = Some (EventStatusClosed, []).
Proof. vm_compute. reflexivity. Qed.

(* OBSERVATION (not covered by the property text): deltas acknowledged before a cache
   loss are not in the completed projection when later deltas re-open the lane:
   delta "ab"; reset; delta "c"; finish => completed with "c" only *)
Definition w_partial : list NodeOp := [(NEv (mkEvent (hx "6731") (2)%Z (hx "6d31") (hx "6531") (hx "6d61696e") (hx "73747265616d2e64656c7461") (hx "7075626c6963") (10)%Z (mkPayload (hx "7b226b696e64223a2274657874222c2264656c7461223a226162227d") (Some (hx "6162")) (Some (hx "")) (hx "7b226b696e64223a2274657874222c2264656c7461223a226162227d") true None (hx "") 0 (hx "") true false) (11)%Z) false);
   NReset;
   (NEv (mkEvent (hx "6731") (2)%Z (hx "6d31") (hx "6532") (hx "6d61696e") (hx "73747265616d2e64656c7461") (hx "7075626c6963") (10)%Z (mkPayload (hx "7b226b696e64223a2274657874222c2264656c7461223a2263227d") (Some (hx "63")) (Some (hx "")) (hx "7b226b696e64223a2274657874222c2264656c7461223a2263227d") true None (hx "") 0 (hx "") true false) (11)%Z) false);
   (NEv (mkEvent (hx "6731") (2)%Z (hx "6d31") (hx "6631") (hx "6d61696e") (hx "73747265616d2e66696e697368") (hx "7075626c6963") (10)%Z (mkPayload (hx "7b22656e645f726561736f6e223a327d") None None (hx "7b22656e645f726561736f6e223a327d") true None (hx "") 2 (hx "") true false) (11)%Z) false)].
Example c40_acked_deltas_survive_refuted :
  let st := fold_left (fun st op => snd (node_step st op)) w_partial (node_init 0 chan1 2) in
  C40_monitor (run_w w_partial) = 0
  /\ option_map (fun s => s_raw (st_snap s)) (get_state (n_db st) 1 (hx "6731") 2%Z (hx "6d31") (hx "6d61696e"))
     = Some (marshal_text (hx "63")).
Proof. vm_compute. split; reflexivity. Qed.

(* OBSERVATION: a finish that carries a snapshot passes the cache-miss check with an empty
   cache, but the reducer ignores a finish payload: the completed marker is written and
   the snapshot is stored nowhere *)
Definition w_snapshot_only : list NodeOp := [(NEv (mkEvent (hx "6731") (2)%Z (hx "6d31") (hx "6531") (hx "6d61696e") (hx "73747265616d2e64656c7461") (hx "7075626c6963") (10)%Z (mkPayload (hx "7b226b696e64223a2274657874222c2264656c7461223a226162227d") (Some (hx "6162")) (Some (hx "")) (hx "7b226b696e64223a2274657874222c2264656c7461223a226162227d") true None (hx "") 0 (hx "") true false) (11)%Z) false);
   NReset;
   (NEv (mkEvent (hx "6731") (2)%Z (hx "6d31") (hx "6631") (hx "6d61696e") (hx "73747265616d2e66696e697368") (hx "7075626c6963") (10)%Z (mkPayload (hx "7b22736e617073686f74223a7b226b696e64223a2274657874222c2274657874223a2266696e616c227d2c22656e645f726561736f6e223a327d") None None (hx "7b22736e617073686f74223a7b226b696e64223a2274657874222c2274657874223a2266696e616c227d2c22656e645f726561736f6e223a327d") true (Some (hx "7b226b696e64223a2274657874222c2274657874223a2266696e616c227d")) (hx "7b226b696e64223a2274657874222c2274657874223a2266696e616c227d") 2 (hx "") true true) (11)%Z) false)].
Example c40_finish_snapshot_only_drops_it :
  let st := fold_left (fun st op => snd (node_step st op)) w_snapshot_only (node_init 0 chan1 2) in
  C40_monitor (run_w w_snapshot_only) = 0
  /\ map (fun x => (st_key (snd x), s_raw (st_snap (snd x)))) (db_states (n_db st)) = [(EventKeyFinish, [])].
Proof. vm_compute. split; reflexivity. Qed.

(* FIXED (a05aa1e4b; was finding C40-K2): a terminal event whose payload is the JSON literal
   null, on a lane with cached deltas, used to panic in mergeMessageEventTerminalPayload
   (assignment to entry in nil map).  It now merges like the empty object: the close succeeds
   and the lane is closed durably WITH the cached snapshot. *)
Definition w_k2 : list NodeOp := [(NEv (mkEvent (hx "6731") (2)%Z (hx "6d31") (hx "6531") (hx "6d61696e") (hx "73747265616d2e64656c7461") (hx "7075626c6963") (10)%Z (mkPayload (hx "7b226b696e64223a2274657874222c2264656c7461223a226162227d") (Some (hx "6162")) (Some (hx "")) (hx "7b226b696e64223a2274657874222c2264656c7461223a226162227d") true None (hx "") 0 (hx "") true false) (11)%Z) false);
   (NEv (mkEvent (hx "6731") (2)%Z (hx "6d31") (hx "6331") (hx "6d61696e") (hx "73747265616d2e636c6f7365") (hx "7075626c6963") (10)%Z (mkPayload (hx "6e756c6c") None None (hx "6e756c6c") true None (hx "") 0 (hx "") true false) (11)%Z) false)].
Theorem c40_terminal_null_payload_merges :
  let st := fold_left (fun st op => snd (node_step st op)) w_k2 (node_init 0 chan1 2) in
  C40_monitor (run_w w_k2) = 0
  /\ map (fun x => no_err (snd x)) (node_trace ks1 (node_init 0 chan1 2) w_k2) = [ENone; ENone]
  /\ option_map (fun s => (st_status s, s_raw (st_snap s))) (get_state (n_db st) 1 (hx "6731") 2%Z (hx "6d31") (hx "6d61696e"))
     = Some (EventStatusClosed, marshal_text (hx "6162")).
Proof. vm_compute. repeat split; reflexivity. Qed.
Print Assumptions c40_terminal_null_payload_merges.

(* non-vacuity of the replay theorems: an applied close replayed returns the same result *)
Example c40_example_replay :
  let e := match w_k1_close with [_; NEv e _] => e | _ => match w_ok with NEv e _ :: _ => e | _ => mkEvent [] 0%Z [] [] [] [] [] 0%Z payload_empty 0%Z end end in
  let '(o1, db1) := AppendMessageEvent db_empty 0 e in
  let '(o2, db2) := AppendMessageEvent db1 0 e in
  outcome_eqb o1 o2 = true /\ fst o1 = ENone /\ cursor_seq db2 0 (hx "6731") 2%Z (hx "6d31") = 1.
Proof. vm_compute. repeat split; reflexivity. Qed.
