(* C04 — A deposed or fenced authority cannot acknowledge appends.
   Statements; each is closed by a lemma of Proof/QuorumLog_C04.v or by a few lines that instantiate or
   assemble such lemmas.

   Install / Commit are the transcriptions of quorumLog.Install / quorumLog.Commit
   (Model/QuorumLog.v).  Every theorem quantifies over an arbitrary network [n]
   (replica contents, nodes down, fault plan of the call) and an arbitrary owner state, hence
   over every outcome of recovery, repair, barrier and durability rounds, and — because the
   per-channel mutex makes whole calls atomic — over every interleaving of Install and Commit. *)
From WK Require Import Base.Base.
From WK Require Import Model.ReplicaLog Model.QuorumLog Model.Cluster Model.Monitor_C04 Proof.QuorumLog_C04.
From WK Require Import Proof.QuorumLog_C04_cross.
Open Scope N_scope.

(* compareAuthorityID is the lexicographic order on (epoch, term, fence); the probes printed by
   the compiled code agree with it *)
Theorem c04_compare_is_lexicographic : forall a b,
  (compareAuthorityID a b = Lt <-> aid_lt a b) /\ (compareAuthorityID a b = Eq <-> a = b) /\
  (compareAuthorityID a b = Gt <-> aid_lt b a).
Proof. exact (fun a b => conj (compare_Lt a b) (conj (compare_Eq a b) (compare_Gt a b))). Qed.
Print Assumptions c04_compare_is_lexicographic.

Theorem c04_compare_matches_code :
  compareAuthorityID (2, 2, 2) (3, 1, 1) = Lt /\ cmp_epoch_lt_term_gt = (-1)%Z /\
  compareAuthorityID (2, 2, 2) (2, 3, 1) = Lt /\ cmp_term_lt_fence_gt = (-1)%Z /\
  compareAuthorityID (2, 2, 2) (2, 2, 1) = Gt /\ cmp_fence_gt = 1%Z /\
  compareAuthorityID (2, 2, 2) (2, 2, 2) = Eq /\ cmp_equal = 0%Z.
Proof. exact compare_probes_match_code. Qed.
Print Assumptions c04_compare_matches_code.

(* the authority an owner runs under never decreases, whatever Install returns *)
Theorem c04_authority_monotone : forall cfg n st local a n' st' r,
  Install cfg n st local a = (n', st', r) -> auth_le (qc_auth st) (qc_auth st').
Proof. exact Install_authority_monotone. Qed.
Print Assumptions c04_authority_monotone.

(* Commit never changes the authority or the readiness of the owner *)
Theorem c04_commit_keeps_authority : forall cfg n st local p n' st' r,
  Commit cfg n st local p = (n', st', r) -> qc_auth st' = qc_auth st /\ qc_ready st' = qc_ready st.
Proof. exact Commit_keeps_admission. Qed.
Print Assumptions c04_commit_keeps_authority.

(* an older authority can never be installed again: the call is refused (ErrStaleMeta, or
   ErrInvalidConfig for a malformed request) and neither the owner nor any replica changes *)
Theorem c04_older_install_rejected : forall cfg n st local a cur n' st' r,
  qc_auth st = Some cur -> aid_lt (a_id a) (a_id cur) ->
  Install cfg n st local a = (n', st', r) ->
  n' = n /\ st' = st /\ (r = IErr EStale \/ r = IErr EInvalid).
Proof. exact Install_older_rejected. Qed.
Print Assumptions c04_older_install_rejected.

(* a successful Install returns the requested authority, unfenced and not older than the
   previous one, and leaves the owner ready under exactly that authority *)
Theorem c04_install_ok_exact : forall cfg n st local a n' st' x leo hw,
  Install cfg n st local a = (n', st', IOk x leo hw) ->
  x = a_id a /\ a_wf a = false /\ qc_ready st' = true /\
  (exists b, qc_auth st' = Some b /\ a_id b = a_id a /\ a_wf b = false) /\
  (forall cur, qc_auth st = Some cur -> aid_le (a_id cur) (a_id a)).
Proof. exact Install_ok. Qed.
Print Assumptions c04_install_ok_exact.

(* a higher authority fences the owner even when its Install fails afterwards (recovery,
   repair or barrier error): the owner then sits under the new authority, not ready *)
Theorem c04_failed_higher_install_still_fences : forall cfg n st local a n' st' e,
  (forall cur, qc_auth st = Some cur -> aid_lt (a_id cur) (a_id a)) ->
  Install cfg n st local a = (n', st', IErr e) ->
  (st' = st /\ n' = n /\ e = EInvalid) \/ (qc_auth st' = Some a /\ qc_ready st' = false).
Proof. exact Install_failed_higher_fences. Qed.
Print Assumptions c04_failed_higher_install_still_fences.

(* appends proposed under any authority other than the installed one, under a fenced authority,
   or to an owner that is not ready are rejected; nothing is written anywhere *)
Theorem c04_stale_commit_rejected : forall cfg n st local p a n' st' r,
  qc_auth st = Some a -> (pr_expected p <> a_id a \/ a_wf a = true \/ qc_ready st = false) ->
  Commit cfg n st local p = (n', st', r) ->
  n' = n /\ st' = st /\
  (r = CErr EInvalid \/ r = CErr ENotReady \/ r = CErr EStale \/ r = CErr EFenced).
Proof. exact Commit_stale_rejected. Qed.
Print Assumptions c04_stale_commit_rejected.

(* a receipt is issued only by a ready owner and carries its installed, unfenced authority,
   which is the authority the proposal expected *)
Theorem c04_receipt_authority : forall cfg n st local p n' st' rc,
  owner_inv st -> Commit cfg n st local p = (n', st', COk rc) ->
  qc_ready st = true /\ exists a, qc_auth st = Some a /\ a_wf a = false /\
                                  pr_expected p = a_id a /\ rc_auth rc = a_id a.
Proof. exact Commit_receipt_authority. Qed.
Print Assumptions c04_receipt_authority.

(* WriteFence.Set(): Install fails and touches no replica *)
Theorem c04_fence_blocks_install : forall cfg n st local a n' st' r,
  a_wf a = true -> Install cfg n st local a = (n', st', r) -> exists e, r = IErr e /\ n' = n.
Proof. exact Install_fenced_fails. Qed.
Print Assumptions c04_fence_blocks_install.

(* the owner invariant (ready => unfenced authority; pending / retained work only on ready
   owners; retained receipts carry the current authority) holds initially and is kept *)
Theorem c04_owner_invariant :
  owner_inv qchannel_empty /\
  (forall cfg n st local a n' st' r, owner_inv st -> Install cfg n st local a = (n', st', r) -> owner_inv st') /\
  (forall cfg n st local p n' st' r, owner_inv st -> Commit cfg n st local p = (n', st', r) -> owner_inv st').
Proof. exact (conj owner_inv_empty (conj Install_preserves_inv Commit_preserves_inv)). Qed.
Print Assumptions c04_owner_invariant.

(* appends already admitted reach a terminal result: Commit is a total function whose only
   loop, the completion loop of runDurableRound, never exhausts its fuel (more fuel gives the
   same result), and a pending proposal exists only on a ready owner (so its retry is admitted
   again, see c04_owner_invariant) *)
Theorem c04_admitted_terminates : forall n local voters wq rot p k,
  runDurableRound n local voters wq rot p =
  (let fs := round_followers voters local rot in
   let '(n1, o1) := submitLocal n local p in
   let '(n2, queue) := submit_all n1 local p (firstn (N.to_nat (wq - 1)) fs) [(true, o1)] in
   round_loop (S (S (length voters)) + k) n2 local wq p queue (skipn (N.to_nat (wq - 1)) fs)
              false 0 ONotWritten false false).
Proof. exact runDurableRound_fuel_sufficient. Qed.
Print Assumptions c04_admitted_terminates.

(* the OWNER-LOCAL clauses of the monitor (c04_holds; the cluster-wide clause is treated below) accept
   every trace of the model: for every
   configuration and every schedule of installs, commits, restarts, outages, repairs and
   checkpoints, from the initial cluster *)
Theorem c04_model_satisfies_monitor : forall cfg ops,
  c04_holds (model_trace cfg (cluster_init cfg) ops) = true.
Proof.
  intros cfg ops. apply c04_run_model. intro v. cbn [cluster_init cl_owners]. rewrite get_owner_init. apply c04_rel_init.
Qed.
Print Assumptions c04_model_satisfies_monitor.

(* ---- across nodes ------------------------------------------------------------------------------------------------

   The fencing state of quorum_log.go is per owner.  Across nodes an older authority is stopped only by what the
   newer one made durable: its barrier (written when the recovered log is non-empty) or its first business
   proposal.  Over an EMPTY log nothing is written at install time, and the full statement is false:
   known finding C04-K1. *)

(* c04_cross_node_empty_log_refuted: (1,1,1) installed on node 1, the newer (1,2,2) installed on node 2, both
   over an empty log; the deposed leader 1 then gets Receipt 1..1 under (1,1,1); the new leader's first
   proposal fails with ErrLogConflict.  The monitor classifies the model's own trace as C04-K1 (code 2).
   Same input: corpus/C04/cross_node_empty_log.json, replayed on the code every run. *)
Theorem c04_cross_node_empty_log_refuted :
  fst (run_model x_cfg (cluster_init x_cfg) x_ops) =
    [ RInstalled (1, 1, 1) 0 0; RInstalled (1, 2, 2) 0 0; RReceipt (1, 1, 1) (TUser 1) 1 1 1; RErr EConflict ] /\
  C04_monitor (model_case x_cfg x_ops) = 2.
Proof. exact cross_node_empty_log_receipt. Qed.
Print Assumptions c04_cross_node_empty_log_refuted.

(* c04_cross_node_blocked_partial — the positive statement, for every network and fault plan, both stores:
   a durability round (hence a NEW receipt, which is only issued after a successful round, see
   c03_commit_paths / c01_receipt_implies_quorum) is impossible once more than N - WriteQuorum voters hold, at
   the proposal's first index, an entry that is not the proposal's own first entry — in particular once the
   newer authority's barrier or first business proposal is quorum-durable at the deposed leader's next index.
   Explicit hypothesis (hence _partial): the foreign entries sit exactly at the proposal's first index; the
   case of a deposed frontier beyond the new leader's barrier needs log matching across replicas as well. *)
Theorem c04_cross_node_blocked_partial : forall n local voters wq rot p es F n' res,
  NoDup voters -> DeriveProposalEntries (dp_manifest p) (dp_records p) = Some es ->
  NoDup F -> incl F (local :: round_followers voters local rot) ->
  (forall f, In f F -> exists x, ent_at (net_rep n f) (m_base (dp_manifest p) + 1) = Some x /\ hd_error es <> Some x) ->
  (length (local :: round_followers voters local rot) < length F + N.to_nat wq)%nat ->
  runDurableRound n local voters wq rot p = (n', res) -> rr_ok res = false.
Proof. exact round_blocked_by_foreign_entries. Qed.
Print Assumptions c04_cross_node_blocked_partial.

(* the whole monitor (owner-local + cluster-wide clause) on the model's own observations, BOUNDED (finite domain,
   vm_compute), 3 voters, quorum 2, all 2801 schedules of at most 4 operations over {install (1,2,2) on node 2,
   two commands by the deposed leader 1, a command by node 2, restart of node 2, node 3 down / up}:
   after the bare initial install (empty log) the codes are 0 or the known-finding code 2, never 1;
   after one acknowledged proposal (non-empty log: the newer authority writes its barrier) always 0. *)
Theorem c04_cross_node_monitor_bounded :
  c04_codes_in [0; 2] [OInstall 1 (1, 1, 1) false 2 no_faults] 4 = true /\
  c04_codes_in [0] [OInstall 1 (1, 1, 1) false 2 no_faults;
                    OCommit 1 (1, 1, 1) (TUser 5) [Rec (TUser 5) 2 2 40 5 false 1] false no_faults] 4 = true.
Proof. exact (conj c04_bounded_empty_log c04_bounded_non_empty_log). Qed.
Print Assumptions c04_cross_node_monitor_bounded.

(* ---- non-vacuity -------------------------------------------------------------------------------- *)

Definition c04_demo_cfg : qconfig := QCfg SMem 3 2 2 3 65536 0.
Definition c04_demo_rec : record := Rec (TUser 7) 1 1 42 5 false 1.
Definition c04_demo_ops : list qop :=
  [ OInstall 1 (1, 1, 1) false 2 no_faults;
    OCommit 1 (1, 1, 1) (TUser 1) [c04_demo_rec] false no_faults;
    OInstall 1 (1, 2, 2) true 2 no_faults;                              (* higher, fenced *)
    OCommit 1 (1, 1, 1) (TUser 2) [c04_demo_rec] false no_faults;       (* deposed authority *)
    OInstall 1 (1, 1, 1) false 2 no_faults;                             (* older authority again *)
    OInstall 1 (1, 2, 3) false 2 no_faults;                             (* fence cleared by a newer one *)
    OCommit 1 (1, 2, 2) (TUser 3) [c04_demo_rec] false no_faults;
    OCommit 1 (1, 2, 3) (TUser 3) [c04_demo_rec] false no_faults ].

(* the model answers: installed, receipt 1..1, write fenced, not ready, stale meta,
   installed (barrier at 2), stale meta, receipt 3..3 *)
Example c04_demo_trace :
  map snd (model_trace c04_demo_cfg (cluster_init c04_demo_cfg) c04_demo_ops) =
  [ RInstalled (1, 1, 1) 0 0; RReceipt (1, 1, 1) (TUser 1) 1 1 1; RErr EFenced; RErr ENotReady; RErr EStale;
    RInstalled (1, 2, 3) 2 2; RErr EStale; RReceipt (1, 2, 3) (TUser 3) 3 3 3 ].
Proof. vm_compute. reflexivity. Qed.

(* the monitor is not trivially true: a receipt under the deposed authority after the higher
   install, or a successful install of the older authority, is flagged *)
Example c04_monitor_rejects_deposed_receipt :
  c04_holds [ (OInstall 1 (1, 1, 1) false 2 no_faults, RInstalled (1, 1, 1) 0 0);
              (OInstall 1 (1, 2, 2) false 2 no_faults, RInstalled (1, 2, 2) 0 0);
              (OCommit 1 (1, 1, 1) (TUser 1) [c04_demo_rec] false no_faults, RReceipt (1, 1, 1) (TUser 1) 1 1 1) ] = false
  /\
  c04_holds [ (OInstall 1 (1, 2, 2) false 2 no_faults, RInstalled (1, 2, 2) 0 0);
              (OInstall 1 (1, 1, 1) false 2 no_faults, RInstalled (1, 1, 1) 0 0) ] = false
  /\
  c04_holds [ (OInstall 1 (1, 1, 1) false 2 no_faults, RInstalled (1, 1, 1) 0 0);
              (OInstall 1 (1, 2, 2) true 2 no_faults, RErr EFenced);
              (OCommit 1 (1, 1, 1) (TUser 1) [c04_demo_rec] false no_faults, RReceipt (1, 1, 1) (TUser 1) 1 1 1) ] = false.
Proof. repeat split; vm_compute; reflexivity. Qed.
