(* C34 — Conversation unread counts and visibility are exact.
   Statements; each is closed by a lemma of Proof/Conversation.v or by a few lines that
   read off or assemble such lemmas.

   Vocabulary (Model/Conversation.v): [mrow] = the user's membership row,
   [head] = the committed channel head the hydrator returned,
   [conversationFromMembership] = the row+head -> list item computation of
   List/Retry, [List]/[Retry] = what the two read paths report for the row,
   [ClearUnread]/[SetUnread]/[DeleteConversation] = the commands composed with
   the pkg/db/meta membership mutations they issue.  All sequence numbers are
   arbitrary naturals (no bound); [N.sub] is truncated subtraction.
     spec_floor row hd          = max (join-1, deletedTo, retention)
     spec_effective_read row hd = max (spec_floor, readSeq, ownLastSend)
     committed_after er last    = #{ s | 1 <= s <= last /\ er < s }
     final st ops               = the stored row after running ops with [step]  *)
From WK Require Import Base.Base Gen.Consts_C34 Model.Conversation Proof.Conversation.
Open Scope N_scope.

(* maxMembershipFloor (variadic) is the maximum of its arguments *)
Theorem c34_max_floor_is_max : forall l,
  (forall v, In v l -> v <= maxMembershipFloor l) /\ (l <> [] -> In (maxMembershipFloor l) l).
Proof. intro l. split; [exact (mmf_upper l)|exact (mmf_attained l)]. Qed.
Print Assumptions c34_max_floor_is_max.

(* the visibility floor and effective read point of the code are the spec's *)
Theorem c34_read_point : forall row hd,
  visibilityFloor row hd = spec_floor row hd
  /\ maxMembershipFloor [visibilityFloor row hd; r_read row; h_own hd] = spec_effective_read row hd.
Proof. intros row hd. split; [exact (floor_spec row hd)|exact (eread_spec row hd)]. Qed.
Print Assumptions c34_read_point.

(* unread = last - effective read (truncated at 0) = the number of committed
   messages after the effective read point *)
Theorem c34_unread_formula : forall row hd c, conversationFromMembership row hd = Some c ->
  c_unread c = h_last hd - spec_effective_read row hd
  /\ c_unread c = committed_after (spec_effective_read row hd) (h_last hd).
Proof.
  intros row hd c H. rewrite committed_after_sub. split; exact (cfm_unread row hd c H).
Qed.
Print Assumptions c34_unread_formula.

(* never "negative": no wrap-around, the count is at most the head *)
Theorem c34_nonneg_le_last : forall row hd c, conversationFromMembership row hd = Some c ->
  c_unread c <= h_last hd.
Proof. intros row hd c H. rewrite (cfm_unread row hd c H). apply N.le_sub_l. Qed.
Print Assumptions c34_nonneg_le_last.

(* a last message is shown only if it is the head's message, lies above the
   visibility floor: at/after the join point, after the delete-to boundary and
   after the retention boundary — and a post-join, post-delete message exists *)
Theorem c34_last_visible : forall row hd c s,
  conversationFromMembership row hd = Some c -> c_last c = Some s ->
  h_msg hd = Some s /\ spec_floor row hd < s
  /\ r_join row <= s /\ r_deleted row < s /\ h_ret hd < s
  /\ r_join row <= h_last hd /\ r_deleted row < h_last hd.
Proof. exact last_visible. Qed.
Print Assumptions c34_last_visible.

(* a row is omitted exactly when nothing is visible and it is not currently activated
   (ActivatedAt <= 0; hide resets it to 0) *)
Theorem c34_hidden_when_nothing_visible : forall row hd,
  conversationFromMembership row hd = None <->
  visibleMessage row hd = false /\ (r_activated row <= 0)%Z.
Proof. exact cfm_none. Qed.
Print Assumptions c34_hidden_when_nothing_visible.

(* List and Retry only ever show items for live rows, computed by the above *)
Theorem c34_listing_sound : forall st hd c,
  List st hd = LItem c \/ Retry st hd = LItem c ->
  exists row, st = Some row /\ r_tomb row = false /\ conversationFromMembership row hd = Some c.
Proof. exact listed_item_inv. Qed.
Print Assumptions c34_listing_sound.

(* SetUnread's target read cursor *)
Theorem c34_set_target : forall row hd n,
  setUnreadTarget row hd n = N.max (spec_floor row hd) (h_last hd - n).
Proof. exact set_target_spec. Qed.
Print Assumptions c34_set_target.

(* after an accepted ClearUnread, the listing under the same head reports 0 *)
Theorem c34_clear_zero : forall st hd now c,
  res_err (ClearUnread st hd now) = 0 ->
  List (res_st (ClearUnread st hd now)) hd = LItem c \/ Retry (res_st (ClearUnread st hd now)) hd = LItem c ->
  c_unread c = 0.
Proof. exact clear_zero. Qed.
Print Assumptions c34_clear_zero.

(* after an accepted SetUnread n, the listing under the same head reports at most n *)
Theorem c34_set_at_most_n : forall st hd now n c,
  res_err (SetUnread st hd now n) = 0 ->
  List (res_st (SetUnread st hd now n)) hd = LItem c \/ Retry (res_st (SetUnread st hd now n)) hd = LItem c ->
  (0 <= n)%Z /\ (Z.of_N (c_unread c) <= n)%Z.
Proof. exact set_at_most. Qed.
Print Assumptions c34_set_at_most_n.

(* after an accepted DeleteConversation nothing is listed under the same head *)
Theorem c34_delete_hides : forall st hd now,
  res_err (DeleteConversation st hd now) = 0 ->
  List (res_st (DeleteConversation st hd now)) hd = LNone
  /\ Retry (res_st (DeleteConversation st hd now)) hd = LNone.
Proof. exact delete_hides. Qed.
Print Assumptions c34_delete_hides.

(* along ANY history of clear / set / delete / activate / observe ops with
   arbitrary heads and clocks, the read cursor and the delete-to boundary never
   move backwards, the join point and liveness are untouched, no row appears *)
Theorem c34_cursors_monotone : forall ops row,
  exists row', final (Some row) ops = Some row'
    /\ r_read row <= r_read row' /\ r_deleted row <= r_deleted row'
    /\ r_join row' = r_join row /\ r_tomb row' = r_tomb row.
Proof. intros ops row. exact (proj1 (transition_ok_Some _ _) (history_monotone ops (Some row))). Qed.
Print Assumptions c34_cursors_monotone.

Theorem c34_no_row_created : forall ops, final None ops = None.
Proof. intro ops. exact (proj1 (transition_ok_None _) (history_monotone ops None)). Qed.
Print Assumptions c34_no_row_created.

(* the monitor evaluated on implementation traces accepts every trace the model
   can produce: any initial row (or none), any history *)
Theorem c34_model_satisfies_monitor : forall st ops,
  C34_monitor (C34Case st (combine ops (run st ops))) = 0.
Proof. exact model_satisfies_monitor. Qed.
Print Assumptions c34_model_satisfies_monitor.

Theorem c34_model_no_mismatch : forall st ops,
  C34_mismatch (C34Case st (combine ops (run st ops))) = false.
Proof. exact model_no_mismatch. Qed.
Print Assumptions c34_model_no_mismatch.

(* ---- non-vacuity ------------------------------------------------------------------ *)

(* joined at 5, read 6, deleted to 3, head 10 with retention 4, own last send 8:
   effective read 8, two unread, message 10 shown *)
Example c34_ex_item :
  conversationFromMembership (MRow 5 6 3 0%Z false 0%Z) (Head 1 10 4 8 (Some 10))
  = Some (Conv 5 0%Z 6 3 0%Z (Some 10) 2).
Proof. vm_compute. reflexivity. Qed.

(* joined at 12 > head 10, never activated: omitted; activated: shown empty, unread 0 *)
Example c34_ex_hidden :
  conversationFromMembership (MRow 12 0 0 0%Z false 0%Z) (Head 1 10 0 0 (Some 10)) = None
  /\ conversationFromMembership (MRow 12 0 0 7%Z false 0%Z) (Head 1 10 0 0 (Some 10))
     = Some (Conv 12 7%Z 0 0 0%Z None 0).
Proof. vm_compute. split; reflexivity. Qed.

(* a history: set-unread 2, clear, delete — on a row with 9 unread *)
Example c34_ex_history :
  let hd := Head 1 10 0 0 (Some 10) in
  map (fun b => (b_err b, b_call b, unread_of (b_retry b)))
      (run (Some (MRow 1 1 0 0%Z false 0%Z))
           [Op OObserve 1%Z hd; Op (OSet 2%Z) 2%Z hd; Op OClear 3%Z hd; Op ODelete 4%Z hd])
  = [(0, CNone, Some 9); (0, CAdvance 8 2%Z, Some 2); (0, CAdvance 10 3%Z, Some 0); (0, CHide 10 4%Z, None)].
Proof. vm_compute. reflexivity. Qed.

(* values at the top of the uint64 range *)
Example c34_ex_edge :
  conversationFromMembership (MRow 0 0 0 0%Z false 0%Z)
    (Head 1 18446744073709551615 0 0 (Some 18446744073709551615))
  = Some (Conv 0 0%Z 0 0 0%Z (Some 18446744073709551615) 18446744073709551615).
Proof. vm_compute. reflexivity. Qed.
