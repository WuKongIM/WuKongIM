(* Proof/Archive_binding.v — C38 (uses Archive): the digest chain binds every object of an archive.
   Two repositories that both hold a consistent archive [id] and whose top-level manifests
   have the same digest agree on every object the archive reaches — or a collision of the
   hash [H] is exhibited.  Corollaries: any single change / deletion / size lie / swap of
   reachable objects makes VerifyPublishedArchive fail, or exhibits a collision. *)
From WK Require Import Base.Base Base.Lists Gen.Consts_C38 Model.Archive Proof.Archive.
Open Scope N_scope.

Section Binding.
  Variable body : Type.
  Variable blen : body -> N.
  Variable H : body -> bytes.
  Variable unz : body -> option (N * bytes).
  Variable json_archive : body -> option archive_manifest.
  Variable json_slot : body -> option slot_manifest.
  Variable json_marker : body -> option complete_marker.
  Variable canon_archive : archive_manifest -> body -> bool.
  Variable canon_slot : slot_manifest -> body -> bool.
  Variable canon_marker : complete_marker -> body -> bool.
  Variable enc_marker : complete_marker -> body.
  (* bodies can be compared (bytes.Equal) *)
  Variable body_eq_dec : forall a b : body, {a = b} + {a <> b}.
  (* the canonical-form check pins the bytes: canonical means "is the encoding" *)
  Hypothesis canon_marker_enc : forall k kb, canon_marker k kb = true -> kb = enc_marker k.

  Local Notation store := (store body).
  Local Notation get := (get body).
  Local Notation put := (put body).
  Local Notation del := (del body).
  Local Notation honest := (honest_object body blen).
  Local Notation load_archive := (load_archive_manifest body json_archive canon_archive).
  Local Notation load_slot := (load_slot_manifest body json_slot canon_slot).
  Local Notation verify := (verify_published_archive body blen H unz json_archive json_slot json_marker
                              canon_archive canon_slot canon_marker).
  Local Notation chunk_ok := (chunk_consistentb body blen H unz).
  Local Notation slot_ok := (slot_consistentb body blen H unz json_slot canon_slot).
  Local Notation consistent := (consistentb body blen H unz json_archive json_slot json_marker
                                  canon_archive canon_slot canon_marker).

  Definition collision : Prop := exists b1 b2 : body, b1 <> b2 /\ H b1 = H b2.

  Definition slot_keys (st : store) (id : bytes) (r : slot_ref) : list bytes :=
    (root_of id ++ sr_key r)
    :: match get st (root_of id ++ sr_key r) with
       | Some (b, _) => match load_slot b with
                        | Ok sm => map (fun c => root_of id ++ cr_key c) (sm_chunks sm)
                        | Err _ => []
                        end
       | None => []
       end.
  Definition reachable (st : store) (id : bytes) (m : archive_manifest) : list bytes :=
    manifest_key id :: complete_key id :: flat_map (slot_keys st id) (am_slots m).

  Lemma chunks_bound st st' root : forall cs,
    forallb (chunk_ok st root) cs = true -> forallb (chunk_ok st' root) cs = true ->
    collision \/ (forall c, In c cs -> get st (root ++ cr_key c) = get st' (root ++ cr_key c)).
  Proof.
    induction cs as [|c rest IH]; intros C1 C2; [right; intros c []|].
    cbn [forallb] in C1, C2. apply andb_true_iff in C1. apply andb_true_iff in C2.
    destruct C1 as [C1 R1]. destruct C2 as [C2 R2].
    destruct (IH R1 R2) as [Hc|Heq]; [left; exact Hc|].
    (* same descriptor, so same digest: equal bodies or a collision *)
    apply chunk_ok_iff in C1 as (b & G1 & _ & _ & S1 & _). apply chunk_ok_iff in C2 as (b' & G2 & _ & _ & S2 & _).
    destruct (body_eq_dec b b') as [<-|Nb]; [|left; exists b, b'; split; [exact Nb|congruence]].
    right. intros c0 [<-|Hin]; [congruence|apply Heq; exact Hin].
  Qed.

  Lemma slot_bound st st' id i r :
    slot_ok st id i r = true -> slot_ok st' id i r = true ->
    collision \/ (forall k, In k (slot_keys st id r) -> get st k = get st' k).
  Proof.
    intros (_ & b & sm & H1 & L1 & _ & S1 & _ & _ & _ & _ & C1)%slot_ok_iff
           (_ & b' & sm' & H2 & L2 & _ & S2 & _ & _ & _ & _ & C2)%slot_ok_iff.
    apply honest_get in H1 as (G1 & _). apply honest_get in H2 as (G2 & _). unfold slot_keys. rewrite G1, L1.
    (* both manifests have the digest the reference names: equal bodies or a collision *)
    destruct (body_eq_dec b b') as [<-|Nb]; [|left; exists b, b'; split; [exact Nb|congruence]].
    rewrite L1 in L2. injection L2 as <-.
    destruct (chunks_bound st st' (root_of id) (sm_chunks sm) C1 C2) as [Hc|Heq]; [left; exact Hc|].
    right. intros k [<-|Hin]; [congruence|]. apply in_map_iff in Hin as (c & <- & Hin). exact (Heq c Hin).
  Qed.

  Lemma slots_bound st st' id : forall slots i,
    forallb_idx (slot_ok st id) i slots = true -> forallb_idx (slot_ok st' id) i slots = true ->
    collision \/ (forall k, In k (flat_map (slot_keys st id) slots) -> get st k = get st' k).
  Proof.
    induction slots as [|r rest IH]; intros i C1 C2; [right; intros k []|].
    cbn [forallb_idx] in C1, C2. apply andb_true_iff in C1. apply andb_true_iff in C2.
    destruct C1 as [C1 R1]. destruct C2 as [C2 R2].
    destruct (IH _ R1 R2) as [Hc|Heq]; [left; exact Hc|].
    destruct (slot_bound st st' id i r C1 C2) as [Hc|Heq1]; [left; exact Hc|].
    right. intros k Hin. cbn [flat_map] in Hin. apply in_app_iff in Hin.
    destruct Hin as [Hin|Hin]; [apply Heq1; exact Hin|apply Heq; exact Hin].
  Qed.

  Lemma consistent_top st id m : consistent st id m = true ->
    exists mb kb, get st (manifest_key id) = Some (mb, blen mb)
                  /\ get st (complete_key id) = Some (kb, blen kb)
                  /\ load_archive mb = Ok m
                  /\ kb = enc_marker (CM CompleteMarkerFormat CompleteMarkerVersion (H mb) (blen mb))
                  /\ (exists k, json_marker kb = Some k /\ cm_sha k = H mb)
                  /\ forallb_idx (slot_ok st id) 0 (am_slots m) = true.
  Proof.
    intros (_ & _ & mb & kb & k & Hm & Hk & La & _ & Jk & Vk & Ck & Eb & Es & S)%consistent_iff.
    apply honest_get in Hm as (Gm & _). apply honest_get in Hk as (Gk & _).
    exists mb, kb. repeat split; try assumption; [|exists k; split; assumption].
    rewrite (canon_marker_enc _ _ Ck).
    f_equal. apply validate_complete_marker_inv in Vk as (E1 & E2 & _).
    destruct k as [f v s n]. cbn [cm_format cm_version cm_sha cm_bytes] in *. subst. reflexivity.
  Qed.

  Theorem archives_bound st st' id m m' mb mb' sz sz' :
    consistent st id m = true -> consistent st' id m' = true ->
    get st (manifest_key id) = Some (mb, sz) -> get st' (manifest_key id) = Some (mb', sz') ->
    H mb = H mb' ->
    collision \/ (m = m' /\ forall k, In k (reachable st id m) -> get st k = get st' k).
  Proof.
    intros C1 C2 G1 G2 Hh.
    destruct (consistent_top st id m C1) as (b1 & k1 & Gm1 & Gk1 & L1 & Ek1 & _ & S1).
    destruct (consistent_top st' id m' C2) as (b2 & k2 & Gm2 & Gk2 & L2 & Ek2 & _ & S2).
    rewrite Gm1 in G1. inversion G1; subst b1 sz. rewrite Gm2 in G2. inversion G2; subst b2 sz'.
    destruct (body_eq_dec mb mb') as [Eb|Nb]; [|left; exists mb, mb'; split; assumption].
    subst mb'. rewrite L1 in L2. inversion L2; subst m'.
    destruct (slots_bound st st' id (am_slots m) 0 S1 S2) as [Hc|Heq]; [left; exact Hc|].
    right. split; [reflexivity|].
    intros k [E|[E|Hin]].
    - subst k. rewrite Gm1, Gm2. reflexivity.
    - subst k. rewrite Gk1, Gk2, Ek1, Ek2. reflexivity.
    - apply Heq. exact Hin.
  Qed.

  Theorem mutation_detected st st' id m :
    verify st id = Ok m ->
    (get st' (manifest_key id) = get st (manifest_key id) \/ get st' (complete_key id) = get st (complete_key id)) ->
    (exists k, In k (reachable st id m) /\ get st' k <> get st k) ->
    (exists e, verify st' id = Err e) \/ collision.
  Proof.
    intros V Hshare (k & Hin & Hne).
    destruct (verify st' id) as [m'|e] eqn:V'; [|left; exists e; reflexivity].
    right. apply verify_sound in V. apply verify_sound in V'.
    destruct (consistent_top st id m V) as (mb & kb & Gm & Gk & _ & _ & (k1 & J1 & S1) & _).
    destruct (consistent_top st' id m' V') as (mb' & kb' & Gm' & Gk' & _ & _ & (k2 & J2 & S2) & _).
    assert (Hh : H mb = H mb').
    { destruct Hshare as [Em|Ec].
      - rewrite Gm, Gm' in Em. congruence.
      - (* the same marker names the digest of both manifests *)
        rewrite Gk, Gk' in Ec. injection Ec as -> _. congruence. }
    destruct (archives_bound st st' id m m' mb mb' (blen mb) (blen mb') V V' Gm Gm' Hh) as [Hc|[_ Heq]]; [exact Hc|].
    exfalso. apply Hne. symmetry. apply Heq. exact Hin.
  Qed.

  Corollary single_put_detected st id m k b sz b' sz' :
    verify st id = Ok m -> In k (reachable st id m) ->
    get st k = Some (b, sz) -> (b', sz') <> (b, sz) ->
    (exists e, verify (put k b' sz' st) id = Err e) \/ collision.
  Proof.
    intros V Hin G Hne.
    apply (mutation_detected st (put k b' sz' st) id m V).
    - destruct (bytes_eq_dec k (manifest_key id)) as [E|N].
      + right. subst k. apply get_put_other. apply manifest_neq_complete.
      + left. apply get_put_other. exact N.
    - exists k. split; [exact Hin|]. rewrite get_put_same, G. intro E. inversion E. apply Hne. congruence.
  Qed.

  Corollary delete_detected st id m k :
    verify st id = Ok m -> In k (reachable st id m) -> get st k <> None ->
    (exists e, verify (del k st) id = Err e) \/ collision.
  Proof.
    intros V Hin G.
    apply (mutation_detected st (del k st) id m V).
    - destruct (bytes_eq_dec k (manifest_key id)) as [E|N].
      + right. subst k. apply get_del_other. apply manifest_neq_complete.
      + left. apply get_del_other. exact N.
    - exists k. split; [exact Hin|]. rewrite get_del_same. intro E. apply G. symmetry. exact E.
  Qed.

  Corollary swap_detected st id m k1 k2 b1 s1 b2 s2 :
    verify st id = Ok m -> In k1 (reachable st id m) ->
    k1 <> manifest_key id -> k2 <> manifest_key id -> k1 <> k2 ->
    get st k1 = Some (b1, s1) -> get st k2 = Some (b2, s2) -> (b1, s1) <> (b2, s2) ->
    (exists e, verify (put k1 b2 s2 (put k2 b1 s1 st)) id = Err e) \/ collision.
  Proof.
    intros V Hin N1 N2 N12 G1 G2 Hne.
    apply (mutation_detected st _ id m V).
    - left. rewrite get_put_other by exact N1. apply get_put_other. exact N2.
    - exists k1. split; [exact Hin|]. rewrite get_put_same, G1. intro E. inversion E. apply Hne. congruence.
  Qed.
End Binding.
