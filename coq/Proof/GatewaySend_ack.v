(* Proof/GatewaySend_ack.v — with CloseOnHandlerError and a handler that does not
   panic: for every session, handled = acked ++ r where r (handled without a
   SENDACK) is non-empty only if the session is closed. *)
From Coq Require Import Sorting.Sorted.
From WK Require Import Base.Base Model.GatewaySend Proof.GatewaySend_lib Proof.GatewaySend_split
  Proof.GatewaySend_acct Proof.GatewaySend_order.
Open Scope N_scope.

Definition nopanic (e : ev) : Prop := match e with EWork _ CPanic => False | _ => True end.

Record Strict (st : state) : Prop := {
  s_ack : forall s, exists r, finq (disps st) s = ackq (wire st) s ++ r /\ (r <> [] -> sclosed st s = true);
  (* what handleHandlerError will give up belongs to sessions closed or queued for closing *)
  s_werr : forall k n tc cur rest, wpcs st k = WErr n tc cur rest ->
           forall x, In x cur -> In (t_s x) tc \/ sclosed st (t_s x) = true }.

Lemma strict_open st s : Strict st -> sclosed st s = false -> finq (disps st) s = ackq (wire st) s.
Proof.
  intros S Hcl. destruct (s_ack st S s) as [r [H1 H2]]. rewrite H1.
  destruct r; [apply app_nil_r|]. rewrite H2 in Hcl by discriminate. discriminate.
Qed.

Lemma acks_prefix c st s : Order c st -> Strict st -> exists r, accq (sends st) s = ackq (wire st) s ++ r.
Proof.
  intros O S. destruct (s_ack st S s) as [r [H1 _]]. rewrite (o_acc c st O s), H1, <- app_assoc. eauto.
Qed.

Lemma strict_init : Strict init.
Proof. constructor; cbn; intros; [exists []; split; [reflexivity|congruence] | discriminate]. Qed.

Lemma strict_tick st : Strict st -> Strict (tick st).
Proof. intros [? ?]. constructor; assumption. Qed.

(* the worker of shard k goes to w; [items] are logged as handled without SENDACK: their
   sessions are closed.  No session reopens. *)
Lemma strict_wk st st' k w items t :
  Strict st -> wpcs st' = upd (wpcs st) k w ->
  disps st' = disps st ++ map (fun x => HDisp (t_s x) (t_q x) t) items ->
  (forall x, In x items -> sclosed st (t_s x) = true) ->
  (forall s, ackq (wire st') s = ackq (wire st) s) ->
  (forall s, sclosed st s = true -> sclosed st' s = true) ->
  (forall n tc cur rest, w = WErr n tc cur rest ->
     forall x, In x cur -> In (t_s x) tc \/ sclosed st' (t_s x) = true) ->
  Strict st'.
Proof.
  intros [Ha Hw] Hwp Hd Hit Hq Hc Hp. constructor.
  - intro s. destruct (Ha s) as [r [H1 H2]]. exists (r ++ qs_of s items).
    rewrite Hd, Hq, finq_app, finq_drop, H1, app_assoc. split; [reflexivity|]. intro Hr. apply Hc.
    destruct r as [|q0 r'].
    + cbn [app] in Hr. destruct (qs_of_nonempty s items Hr) as [x [Hin Hx]]. rewrite <- Hx. apply Hit. exact Hin.
    + apply H2. discriminate.
  - intros k0 n tc cur rest. rewrite Hwp. by_idx k0 k; [apply Hp|].
    intros Hk x Hx. destruct (Hw k0 n tc cur rest Hk x Hx) as [H|H]; [left; exact H|right; apply Hc; exact H].
Qed.

Lemma strict_wk_pc st st' k w :
  Strict st -> wpcs st' = upd (wpcs st) k w ->
  disps st' = disps st -> wire st' = wire st -> sclosed st' = sclosed st ->
  (forall n tc cur rest, w = WErr n tc cur rest ->
     forall x, In x cur -> In (t_s x) tc \/ sclosed st (t_s x) = true) ->
  Strict st'.
Proof.
  intros S Hwp Hd Hw Hc Hp. apply (strict_wk st st' k w [] 0 S Hwp); rewrite ?Hd, ?Hw, ?Hc; auto.
  symmetry. apply app_nil_r.
Qed.

Lemma strict_frame st st' :
  Strict st -> wpcs st' = wpcs st -> disps st' = disps st -> (forall s, ackq (wire st') s = ackq (wire st) s) ->
  (forall s, sclosed st s = true -> sclosed st' s = true) ->
  Strict st'.
Proof.
  intros [Ha Hw] Hwp Hd Hq Hc. constructor.
  - intro s. destruct (Ha s) as [r [H1 H2]]. exists r. rewrite Hd, Hq. split; [exact H1|]. intro Hr. apply Hc, H2, Hr.
  - intros k n tc cur rest. rewrite Hwp. intros Hk x Hx.
    destruct (Hw k n tc cur rest Hk x Hx) as [H|H]; [left; exact H|right; apply Hc; exact H].
Qed.

(* the handler writes the SENDACK of x: its session is open, so all its handled SENDs so far
   were acknowledged *)
Lemma strict_ack st st' k w x t t' :
  Strict st -> sclosed st (t_s x) = false ->
  wpcs st' = upd (wpcs st) k w -> (forall n tc cur rest, w <> WErr n tc cur rest) ->
  disps st' = disps st ++ [HDisp (t_s x) (t_q x) t'] -> wire st' = wire st ++ [HWire (t_s x) 0 (t_q x) t] ->
  sclosed st' = sclosed st -> Strict st'.
Proof.
  intros S Hcl Hwp Hw Hd Hwi Hsc. pose proof (strict_open st _ S Hcl) as Hopen. destruct S as [Ha Hwe]. constructor.
  - intro s. rewrite Hd, Hwi, Hsc, ackq_app, finq_app, ackq_one. unfold finq at 2. cbn [map filter hd_s].
    destruct (Nat.eqb (t_s x) s) eqn:E; cbn [andb N.eqb map hd_q].
    + apply Nat.eqb_eq in E. subst s. exists []. rewrite Hopen, app_nil_r. split; [reflexivity|congruence].
    + rewrite !app_nil_r. apply Ha.
  - rewrite Hwp, Hsc. intros k0 n0 tc cur0 rest0. by_idx k0 k; [intro E; destruct (Hw _ _ _ _ E) | apply Hwe].
Qed.

Lemma strict_sub c st s : Strict st -> Strict (sub_step c s st).
Proof.
  intro S. destruct (sub_step_cases c s st) as [-> | p a q0 f -> _ _ _ | q b t0 -> _ | q b t0 -> _].
  - exact S.
  - apply (strict_frame st _ S); auto.
  - apply (strict_wk_pc st _ (shard_of c s) (wake (wpcs st (shard_of c s))) S); try reflexivity.
    intros n tc cur rest Hw. apply (s_werr st S (shard_of c s) n tc cur rest).
    destruct (wpcs st (shard_of c s)); try discriminate Hw; exact Hw.
  - apply (strict_frame st _ S); auto. intros s0. sp. apply upd_true_mono.
Qed.

Lemma strict_work c st k ch :
  c_closeonerr c = true -> ch <> CPanic -> Order c st -> Strict st -> Strict (work_step c k ch st).
Proof.
  intros Hce Hnp O S. pose proof (fun st' w => strict_wk_pc st st' k w S) as Pc.
  destruct (work_step_cases c k ch st)
    as [-> | w q f -> _ _ _ _ He | x r its -> _ _ _ | n cur ca rest -> Hw | n x cur ca rest -> Hw
        | n cur ca rest -> E _ | n cur rest -> Hw | n s tc cur rest -> Hw | r -> _ _ | -> _ _].
  - exact S.
  - eapply Pc; try reflexivity. intros ? ? ? ? E. destruct (He _ _ _ _ E).
  - eapply Pc; try reflexivity; discriminate.
  - (* handleHandlerError will close every session of the unit *)
    rewrite Hce. eapply Pc; try reflexivity.
    intros ? ? ? ? H x Hx. inversion H; subst. left. apply in_dedup, in_map, (o_cursub c st O k _ _ _ _ Hw), Hx.
  - destruct (sclosed st (t_s x)) eqn:Hcl.
    + apply (strict_wk st _ k (WDisp n cur ca rest) [x] (now st) S); try reflexivity; auto;
        [intros y [<-|[]]; exact Hcl | discriminate].
    + apply (strict_ack st _ k (WDisp n cur ca rest) x (now st) (now st) S Hcl); try reflexivity; discriminate.
  - destruct (Hnp E).
  - (* what is given up belongs to sessions handleHandlerError has closed *)
    apply (strict_wk st _ k (next_unit n rest) cur (now st) S); try reflexivity; auto.
    + intros x Hx. destruct (s_werr st S k _ _ _ _ Hw x Hx) as [[]|H]. exact H.
    + destruct rest; discriminate.
  - apply (strict_wk st _ k (WErr n tc cur rest) [] (now st) S); try reflexivity; sp.
    + symmetry. apply app_nil_r.
    + intros x [].
    + intro s0. apply upd_true_mono.
    + intros ? ? ? ? H x Hx. inversion H; subst.
      destruct (s_werr st S k _ _ _ _ Hw x Hx) as [[<-|Hin]|Hc];
        [right; apply upd_same | left; exact Hin | right; apply upd_true_mono; exact Hc].
  - eapply Pc; try reflexivity; discriminate.
  - eapply Pc; try reflexivity; discriminate.
Qed.

Lemma strict_send c st s b : Strict st -> Strict (stepT c st (ESend s b)).
Proof.
  intro S. cbn [stepT]. destruct (spcs st s); try exact S.
  destruct ((s <? c_nsess c)%nat && negb (sclosed st s)); [|exact S]. apply (strict_frame st _ S); auto.
Qed.

Lemma strict_ctl c st e : ctl_ev e -> Strict st -> Strict (stepT c st e).
Proof.
  intros He S. destruct (ctl_step_frame c st e He) as ((_ & H2 & _) & (H5 & _) & H7 & H8).
  apply (strict_frame st _ S); assumption.
Qed.

Lemma strict_stepT c st e :
  c_closeonerr c = true -> nopanic e -> Order c st -> Strict st -> Strict (stepT c st e).
Proof.
  intros Hce Hnp O S. destruct e as [s b|s|k ch| | | | | | ]; try (apply strict_ctl; [exact I | exact S]).
  - apply strict_send. exact S.
  - cbn [stepT]. destruct (s <? c_nsess c)%nat; [apply strict_sub|]; exact S.
  - cbn [stepT]. destruct (k <? c_shards c)%nat; [|exact S]. apply strict_work; try assumption. intros ->. exact Hnp.
Qed.

Lemma strict_run c evs : c_closeonerr c = true -> Forall nopanic evs -> Strict (run c evs).
Proof.
  intros Hce Hnp.
  apply (run_inv_ev c nopanic (fun st => Order c st /\ Strict st)); [split; [apply order_init | apply strict_init] | | exact Hnp].
  intros st e He [O S]. split; [apply order_step, O|].
  rewrite step_eq. apply strict_stepT; [exact Hce | exact He | apply order_tick, O | apply strict_tick, S].
Qed.
