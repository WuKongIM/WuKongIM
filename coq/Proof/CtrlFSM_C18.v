(* Proof/CtrlFSM_C18.v — the frame theorems of Proof/CtrlFSM_frame.v instantiated with the
   transcribed state and applyMutation, the handler contract being discharged by
   Proof/CtrlFSM_handlers.v.  state.Checksum stays a section variable [ck]: any function of
   the state that ignores the checksum field. *)
From WK Require Import Base.Base Base.Lists.
From WK Require Import Gen.Consts_C18 Model.CtrlFSM Model.CtrlFSM_C18.
From WK Require Import Proof.CtrlFSM_norm Proof.CtrlFSM_getset Proof.CtrlFSM_handlers Proof.CtrlFSM_frame.
From Coq Require Import Sorting.Sorted.
Open Scope N_scope.

Definition dflt_entry : N * N * Command :=
  (0, 0, Cmd [] 0 None None None [] None None None None None None None None None None None).

Section Concrete.
  Variable ck : CState -> bytes.
  Hypothesis ck_blind : forall s x, ck (set_checksum s x) = ck s.

  Definition ckokS (s : CState) : bool := bytes_eqb (s_checksum s) (ck s).

  (* ---- the hypotheses of the frame: the record laws are those of Proof/CtrlFSM_getset.v ---- *)
  Lemma body_eq_refl s : body_eq s s = true. Proof. apply CState_body_eqb_refl. Qed.
  Lemma body_eq_set_applied a b v : body_eq (set_applied a v) b = body_eq a b. Proof. reflexivity. Qed.
  Lemma body_eq_set_checksum a b x : body_eq (set_checksum a x) b = body_eq a b. Proof. reflexivity. Qed.
  Lemma logical_eq_set_applied a b v : logical_eq (set_applied a v) b = logical_eq a b. Proof. reflexivity. Qed.
  Lemma logical_eq_set_checksum a b x : logical_eq (set_checksum a x) b = logical_eq a b. Proof. reflexivity. Qed.
  Lemma ckokS_saved s : ckokS (set_checksum s (ck s)) = true.
  Proof. unfold ckokS. rewrite ck_blind. cbn [s_checksum set_checksum]. apply bytes_eqb_refl. Qed.
  Lemma Good_valid s : Good s -> Validate s = true. Proof. intros (V & _). exact V. Qed.
  Lemma Good_set_applied s v : Good s -> Good (set_applied s v).
  Proof.
    intros (V & Hn & Hl). split; [rewrite Validate_set_applied; exact V|].
    split; [rewrite Normalize_set_applied, Hn; reflexivity|exact Hl].
  Qed.
  Lemma Good_set_checksum s x : Good (set_checksum s x) <-> Good s.
  Proof.
    unfold Good. rewrite Validate_set_checksum, Normalize_set_checksum. cbn [s_rev set_checksum].
    split; intros (V & Hn & Hl); (split; [exact V|split; [|exact Hl]]).
    - rewrite <- (set_checksum_id s), <- (set_checksum_set_checksum s x (s_checksum s)).
      rewrite <- Hn at 2. rewrite set_checksum_set_checksum, <- Normalize_set_checksum, set_checksum_id. reflexivity.
    - rewrite Hn. reflexivity.
  Qed.

  Lemma applyMutation_init s i t cmd :
    bytes_eqb (k_kind cmd) KindInitClusterState = true -> applyMutation s i t cmd = applyInit s i cmd.
  Proof. intro Hk. unfold applyMutation. rewrite Hk. reflexivity. Qed.

  Lemma H_HC_pre : forall i t c,
      let s' := fst (applyMutation empty_state i t c) in
      let r := snd (applyMutation empty_state i t c) in
      (s_rev s' = 0 -> s' = empty_state /\ (r_class r = cNoop \/ r_class r = cRejected))
      /\ (s_rev s' <> 0 -> r_class r = cChanged /\ s_rev s' = 1 /\ s_applied s' <= i /\ Good s').
  Proof.
    intros i t c. cbv zeta.
    destruct (bytes_eqb (k_kind c) KindInitClusterState) eqn:Hk.
    - rewrite applyMutation_init by exact Hk.
      destruct (applyInit_pre empty_state i c eq_refl) as [H0 H1]. split; [exact H0|]. intro H.
      destruct (H1 H) as (Hc & Hr & Ha & Hg). rewrite Ha.
      split; [exact Hc|]. split; [exact Hr|]. split; [apply N.le_refl|exact Hg].
    - destruct (applyMutation_ok empty_state i t c Hk) as [Hpre _].
      destruct (Hpre eq_refl) as [He Hc]. rewrite He.
      split; [intros _; split; [reflexivity|exact Hc]|intro H; exfalso; apply H; reflexivity].
  Qed.

  Lemma H_HC_post : forall s i t c,
      Good s -> good_ok s (fst (applyMutation s i t c)) (snd (applyMutation s i t c)).
  Proof.
    intros s i t c Hg.
    destruct (bytes_eqb (k_kind c) KindInitClusterState) eqn:Hk.
    - rewrite applyMutation_init by exact Hk. apply applyInit_post. exact Hg.
    - destruct (applyMutation_ok s i t c Hk) as [_ Hpost]. exact (Hpost Hg).
  Qed.

  (* one alternative per hypothesis of Section FrameProof, in the order they stand there *)
  Ltac frame_hyp :=
    first [ exact s_rev_set_checksum | exact s_applied_set_checksum | exact s_rev_set_applied | exact s_applied_set_applied
          | exact set_checksum_set_checksum | exact (fun s v x => eq_sym (set_applied_set_checksum s x v))
          | exact ck_blind | exact (eq_refl : s_rev empty_state = 0) | exact (eq_refl : s_applied empty_state = 0)
          | exact CState_eqb_refl | exact body_eq_refl | exact body_eq_set_applied | exact body_eq_set_checksum
          | exact logical_eq_set_applied | exact logical_eq_set_checksum | exact ckokS_saved
          | exact Good_rev | exact Good_valid | exact Good_set_applied | exact Good_set_checksum
          | exact applyMutation_blind | exact H_HC_pre | exact H_HC_post ].

  Variable log : list Entry.
  Hypothesis sorted : StronglySorted N.lt (map e_idx log).

  Definition tlog : list (N * N * Command) := map entry_tuple log.

  Lemma sorted_nth (l : list N) d : StronglySorted N.lt l ->
    forall i j, (i < j)%nat -> (j < length l)%nat -> nth i l d < nth j l d.
  Proof.
    induction 1 as [|x l Hs IH Hx]; intros i j Hij Hj; [cbn in Hj; lia|].
    destruct j as [|j]; [lia|]. cbn [length] in Hj. destruct i as [|i]; cbn [nth].
    - rewrite Forall_forall in Hx. apply Hx. apply nth_In. lia.
    - apply IH; lia.
  Qed.

  Lemma increasing_tlog : forall i j, (i < j)%nat -> (j < length tlog)%nat ->
                                      idx tlog dflt_entry i < idx tlog dflt_entry j.
  Proof.
    intros i j Hij Hj. unfold idx, ent, tlog in *. rewrite map_length in Hj.
    assert (E : forall k, fst (fst (nth k (map entry_tuple log) dflt_entry)) = nth k (map e_idx log) 0).
    { intro k. rewrite <- (map_nth (fun e => fst (fst e)) (map entry_tuple log) dflt_entry k).
      rewrite map_map. reflexivity. }
    rewrite !E. apply sorted_nth; [exact sorted|exact Hij|rewrite map_length; exact Hj].
  Qed.

  Definition S_ref (k : nat) : CState :=
    Sref s_rev s_applied set_applied set_checksum applyMutation ck empty_state tlog dflt_entry k.
  Definition R_ref (k : nat) : Result :=
    Rref s_rev s_applied set_applied set_checksum applyMutation ck empty_state tlog dflt_entry k.
  Definition M_ref (k : nat) : Machine CState :=
    refM s_rev s_applied set_applied set_checksum applyMutation ck empty_state tlog dflt_entry k.

  Definition c_run (cmds : list cmdstep) : list (Step CState) :=
    run_cmds s_rev s_applied set_applied set_checksum applyMutation ck empty_state tlog (fresh empty_state) 0 cmds.
  Definition c_wf (cmds : list cmdstep) : Prop :=
    scen_wf s_rev s_applied set_applied set_checksum applyMutation ck empty_state tlog dflt_entry cmds.
  Definition c_parts (parts : list (list Entry)) : Machine CState * list Result :=
    apply_parts s_rev s_applied set_applied set_checksum applyMutation ck (fresh empty_state) (map (map entry_tuple) parts).

  (* the frame theorems below are instantiated by unifying with the goal; the invariant and the
     observation functions the goal does not mention are named *)

  Theorem model_monitor (scens : list (list cmdstep)) :
    Forall c_wf scens ->
    monitor_gen s_rev s_applied Validate ckokS CState_eqb body_eq logical_eq empty_state
                (map e_idx log) (c_run (repeat (CBatch 1 0) (length log))) (map c_run scens) = true.
  Proof.
    intro Hwf.
    replace (map e_idx log) with (map (fun e : N * N * Command => fst (fst e)) tlog)
      by (unfold tlog; rewrite map_map; reflexivity).
    replace (length log) with (length tlog) by (unfold tlog; apply map_length).
    unfold c_run.
    eapply frame_monitor with (Good := Good) (dflt := dflt_entry); [frame_hyp .. | exact increasing_tlog | exact Hwf].
  Qed.

  Theorem model_partition (parts : list (list Entry)) :
    concat parts = log -> c_parts parts = c_parts (map (fun e => [e]) log).
  Proof.
    intro Hcat. unfold c_parts.
    replace (map (map entry_tuple) (map (fun e => [e]) log)) with (map (fun e => [e]) tlog)
      by (unfold tlog; rewrite !map_map; reflexivity).
    eapply partition_invariant with (Good := Good) (ckok := ckokS) (body_eq := body_eq) (logical_eq := logical_eq)
                                    (dflt := dflt_entry); [frame_hyp .. | exact increasing_tlog | ].
    unfold tlog. rewrite <- Hcat. symmetry. apply concat_map.
  Qed.

  Definition entry_at (k : nat) : N * N * Command := ent tlog dflt_entry k.

  Theorem model_replay_noop h c cnt :
    (h <= length log)%nat -> (c + cnt <= h)%nat -> s_rev (S_ref h) <> 0 ->
    ApplyBatch s_rev s_applied set_applied set_checksum applyMutation ck (restart empty_state (M_ref h)) 0
               (map entry_at (seq c cnt))
    = (M_ref h, BO (repeat (Rs cNoop ReasonAlreadyApplied (s_rev (S_ref h)) (s_applied (S_ref h)) [] 0) cnt)
                   false (Some (S_ref h)) (Some (S_ref h))).
  Proof.
    intros Hh Hc E. unfold M_ref, S_ref, entry_at.
    eapply replay_noop with (Good := Good) (ckok := ckokS) (body_eq := body_eq) (logical_eq := logical_eq);
      [frame_hyp .. | exact increasing_tlog | | exact Hc | exact E].
    unfold tlog. rewrite map_length. exact Hh.
  Qed.

  Theorem model_replay_preinit h c cnt :
    (h <= length log)%nat -> (c + cnt <= h)%nat -> s_rev (S_ref h) = 0 ->
    ApplyBatch s_rev s_applied set_applied set_checksum applyMutation ck (restart empty_state (M_ref h)) 0
               (map entry_at (seq c cnt))
    = (M_ref h, BO (map R_ref (seq c cnt)) false (Some empty_state) None).
  Proof.
    intros Hh Hc E. unfold M_ref, S_ref, R_ref, entry_at.
    eapply replay_preinit with (Good := Good) (ckok := ckokS) (body_eq := body_eq) (logical_eq := logical_eq);
      [frame_hyp .. | exact increasing_tlog | | exact Hc | exact E].
    unfold tlog. rewrite map_length. exact Hh.
  Qed.

  (* the classes are distinct numbers, so each implication picks its disjunct; R is the rest of
     a right-nested conjunction the four clauses stand in front of *)
  Lemma by_class c (A B D R : Prop) :
    ((c = cNoop \/ c = cRejected) /\ A) \/ (c = cChanged /\ B) \/ (c = cUpdated /\ D) -> R ->
    (c = cChanged \/ c = cUpdated \/ c = cNoop \/ c = cRejected)
    /\ (c = cChanged -> B) /\ (c = cUpdated -> D) /\ (c = cNoop \/ c = cRejected -> A) /\ R.
  Proof.
    unfold cChanged, cUpdated, cNoop, cRejected.
    intros [[[-> | ->] HA]|[[-> HB]|[-> HD]]] HR; repeat split; auto;
      intros; try discriminate; intuition discriminate.
  Qed.

  Theorem model_step_contract k : (k < length log)%nat ->
    let pre := S_ref k in let post := S_ref (S k) in let r := R_ref k in
    (r_class r = cChanged \/ r_class r = cUpdated \/ r_class r = cNoop \/ r_class r = cRejected)
    /\ (r_class r = cChanged -> s_rev post = s_rev pre + 1)
    /\ (r_class r = cUpdated -> s_rev post = s_rev pre /\ logical_eq post pre = true)
    /\ (r_class r = cNoop \/ r_class r = cRejected -> body_eq post pre = true)
    /\ (s_rev post = 0 -> post = empty_state)
    /\ (s_rev post <> 0 -> Validate post = true /\ ckokS post = true /\ r_rev r = s_rev post
                            /\ s_applied post = fst (fst (entry_at k)) /\ r_applied r = s_applied post).
  Proof.
    intro Hk. cbv zeta. unfold S_ref, R_ref, entry_at.
    edestruct (@ref_step CState Command s_rev s_applied set_applied set_checksum applyMutation ck empty_state)
      with (Good := Good) (ckok := ckokS) (body_eq := body_eq) (logical_eq := logical_eq)
           (log := tlog) (dflt := dflt_entry) (k := k)
      as [[E [Hpre Hpost Hrr Hc Hra]]|[E [Hg _ Hck Hrr Hra Hap Hle Hcl]]];
      [frame_hyp .. | exact increasing_tlog | unfold tlog; rewrite map_length; exact Hk | | ].
    - rewrite Hpre, Hpost. apply by_class; [left; split; [exact Hc|apply body_eq_refl]|].
      split; [reflexivity|]. intro X. exfalso. apply X. reflexivity.
    - apply by_class; [exact Hcl|]. split; [intro X; contradiction|]. intros _.
      split; [apply Good_valid; exact Hg|]. split; [exact Hck|]. split; [exact Hrr|].
      split; [exact Hap|]. rewrite Hra. symmetry. exact Hap.
  Qed.
End Concrete.

(* ---- the clauses of the property, one by one (projections of [model_step_contract]) ---- *)

Section Clauses.
  Variable ck : CState -> bytes.
  Hypothesis ck_blind : forall s x, ck (set_checksum s x) = ck s.
  Variable log : list Entry.
  Hypothesis sorted : StronglySorted N.lt (map e_idx log).
  Variable k : nat.
  Hypothesis Hk : (k < length log)%nat.

  Lemma model_revision_plus_one :
    r_class (R_ref ck log k) = cChanged -> s_rev (S_ref ck log (S k)) = s_rev (S_ref ck log k) + 1.
  Proof. exact (proj1 (proj2 (model_step_contract ck ck_blind log sorted k Hk))). Qed.

  Lemma model_updated_keeps_revision :
    r_class (R_ref ck log k) = cUpdated ->
    s_rev (S_ref ck log (S k)) = s_rev (S_ref ck log k) /\ logical_eq (S_ref ck log (S k)) (S_ref ck log k) = true.
  Proof. exact (proj1 (proj2 (proj2 (model_step_contract ck ck_blind log sorted k Hk)))). Qed.

  Lemma model_rejected_untouched :
    r_class (R_ref ck log k) = cNoop \/ r_class (R_ref ck log k) = cRejected ->
    body_eq (S_ref ck log (S k)) (S_ref ck log k) = true.
  Proof. exact (proj1 (proj2 (proj2 (proj2 (model_step_contract ck ck_blind log sorted k Hk))))). Qed.

  Lemma model_result_class :
    r_class (R_ref ck log k) = cChanged \/ r_class (R_ref ck log k) = cUpdated
    \/ r_class (R_ref ck log k) = cNoop \/ r_class (R_ref ck log k) = cRejected.
  Proof. exact (proj1 (model_step_contract ck ck_blind log sorted k Hk)). Qed.

  Lemma model_persisted_valid :
    s_rev (S_ref ck log (S k)) <> 0 ->
    Validate (S_ref ck log (S k)) = true /\ ckokS ck (S_ref ck log (S k)) = true.
  Proof.
    intro E. destruct (proj2 (proj2 (proj2 (proj2 (proj2 (model_step_contract ck ck_blind log sorted k Hk))))) E) as (V & C & _).
    split; assumption.
  Qed.

  Lemma model_preinit_nothing :
    s_rev (S_ref ck log (S k)) = 0 -> S_ref ck log (S k) = empty_state.
  Proof. exact (proj1 (proj2 (proj2 (proj2 (proj2 (model_step_contract ck ck_blind log sorted k Hk)))))). Qed.
End Clauses.

(* ---- a concrete log (non-vacuity and the corner with non-increasing indices) ---- *)

Definition ex_node (status : bytes) : Node :=
  Nd 1 (hx "6e31") (hx "6e31") [NodeRoleControllerVoter; NodeRoleData] NodeJoinStateActive status 1.
Definition ex_cmd (kind : bytes) : Command :=
  Cmd kind 0 None None None [] None None None None None None None None None None None.
Definition ex_init : Command :=
  Cmd KindInitClusterState 0 None
      (Some (IC (hx "776b") (Cfg 2 8 1 0) [CV 1 (hx "6e31") ControllerRoleVoter] [ex_node NodeStatusAlive]))
      None [] None None None None None None None None None None None.
Definition ex_upsert (status : bytes) : Command :=
  Cmd KindUpsertNode 0 None None (Some (ex_node status)) [] None None None None None None None None None None None.
Definition ex_log : list Entry :=
  [En 3 1 (ex_upsert NodeStatusDown); En 5 1 ex_init; En 6 1 (ex_upsert NodeStatusSuspect);
   En 9 2 (ex_upsert NodeStatusSuspect)].
(* the same init and upsert with indices out of order: not a Raft log *)
Definition ex_unsorted : list Entry := [En 5 1 ex_init; En 3 1 (ex_upsert NodeStatusSuspect)].
