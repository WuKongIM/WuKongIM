(* Proof/RaftLog_ops.v — association lists; plan_save against ref_save (payload files under
   fresh ids); the reads observe / Entries / Term against the reference, including the meta
   row a read may persist. *)
From WK Require Import Base.Base Base.Lists Gen.Consts_C14 Model.RaftLog
     Proof.RaftLog_lists Proof.RaftLog_ref Proof.RaftLog_pebble.
From Coq Require Import ZifyBool ZifyN ZifyNat.
Open Scope N_scope.

Lemma aget_aset {A} k k' (v : A) l : aget k' (aset k v l) = if k =? k' then Some v else aget k' l.
Proof.
  induction l as [|[k2 v2] l IH]; cbn [aset aget]; [reflexivity|].
  destruct (k2 =? k) eqn:E; cbn [aget]; [|rewrite IH; destruct (k2 =? k') eqn:E2; [|reflexivity]].
  - destruct (k =? k') eqn:E1; [reflexivity|]. replace (k2 =? k') with false by lia. reflexivity.
  - replace (k =? k') with false by lia. reflexivity.
Qed.

Lemma aget_aset_eq {A} k (v : A) l : aget k (aset k v l) = Some v.
Proof. rewrite aget_aset, N.eqb_refl. reflexivity. Qed.

Lemma aget_aset_neq {A} k k' (v : A) l : k' <> k -> aget k' (aset k v l) = aget k' l.
Proof. intro H. rewrite aget_aset. replace (k =? k') with false by lia. reflexivity. Qed.

Lemma aget_default_aset {A} (d : A) k k' v l :
  match aget k' (aset k v l) with Some x => x | None => d end
  = if k =? k' then v else match aget k' l with Some x => x | None => d end.
Proof. rewrite aget_aset. destruct (k =? k'); reflexivity. Qed.

Lemma rows_of_aset_same k v kv : rows_of k (aset k v kv) = v.
Proof. unfold rows_of. rewrite aget_aset_eq. reflexivity. Qed.
Lemma rows_of_aset_other k k' v kv : k' <> k -> rows_of k' (aset k v kv) = rows_of k' kv.
Proof. intro H. unfold rows_of. rewrite aget_aset_neq by assumption. reflexivity. Qed.

(* snapshot payload files only grow, under fresh ids *)

Definition files_ext (files : list (N * bytes)) (next : N) (files' : list (N * bytes)) (next' : N) : Prop :=
  (files' = files /\ next' = next) \/ (exists d, files' = (next, d) :: files /\ next' = next + 1).

Lemma snap_rel_ext files next files' next' ks s :
  files_ext files next files' next' -> snap_rel files next ks s -> snap_rel files' next' ks s.
Proof.
  intros [[-> ->]|(d & -> & ->)] H; [exact H|].
  destruct ks as [mf|]; [|exact H]. cbn in *.
  destruct H as (H1 & H2 & H3 & H4 & H5 & H6 & H7 & H8).
  repeat split; try assumption; [lia|].
  replace (next =? mf_id mf) with false by lia. exact H8.
Qed.

Lemma RowsInv_ext files next files' next' rw r :
  files_ext files next files' next' -> RowsInv files next rw r -> RowsInv files' next' rw r.
Proof.
  intros Hx (Hh & Hc & He & Hs & Hm). repeat split; try assumption.
  eapply snap_rel_ext; eassumption.
Qed.

(* [snap_rel_ext] again: nothing here is transitive *)
Lemma files_ext_trans f1 n1 f2 n2 ks s :
  files_ext f1 n1 f2 n2 -> snap_rel f1 n1 ks s -> snap_rel f2 n2 ks s.
Proof. apply snap_rel_ext. Qed.

Definition files_mono (c c' : cstate) : Prop :=
  forall ks s, snap_rel (c_files c) (c_next c) ks s -> snap_rel (c_files c') (c_next c') ks s.

Lemma files_ext_mono c c' : files_ext (c_files c) (c_next c) (c_files c') (c_next c') -> files_mono c c'.
Proof. intros H ks s. apply snap_rel_ext, H. Qed.

(* planning leaves rows and cache alone and only publishes payload files *)
Definition plan_ext (c c' : cstate) : Prop :=
  c_kv c' = c_kv c /\ c_cache c' = c_cache c /\ files_mono c c'.

Lemma plan_ext_refl c : plan_ext c c.
Proof. split; [reflexivity|]. split; [reflexivity|]. intros ks s H. exact H. Qed.

Lemma plan_ext_trans c1 c2 c3 : plan_ext c1 c2 -> plan_ext c2 c3 -> plan_ext c1 c3.
Proof.
  intros (Hk1 & Hc1 & Hm1) (Hk2 & Hc2 & Hm2). split; [congruence|]. split; [congruence|].
  intros ks s H. apply Hm2, Hm1, H.
Qed.

(* planSnapshotSave decides as the reference does *)
Lemma plan_save_eq c sc r hs ents s :
  wf r -> RowsInv (c_files c) (c_next c) (rows_of sc (c_kv c)) r -> snapshot_ok r s = true ->
  let fents := filterEntriesAfterSnapshot ents (s_idx s) in
  plan_save c sc hs ents (Some s) =
  if s_idx s <? r_sidx r then Err errSnapOutOfDate
  else if r_sidx r <? s_idx s
  then Ok (CS (c_kv c) (c_cache c) ((c_next c, s_data s) :: c_files c) (c_next c + 1),
           WSv hs fents (Some (smeta_of s))
               (Some (MF (s_idx s) (s_term s) (s_conf s) (blen (s_data s)) (s_sum s) (c_next c))))
  else if same_snapshot s (r_snap r)
  then Ok (c, WSv hs fents (Some (smeta_of s)) (k_snap (rows_of sc (c_kv c))))
  else Err errOther.
Proof.
  intros Hwf Hinv Hsn. cbn zeta. pose proof (validate_ok _ _ _ _ Hwf Hinv) as Hval.
  destruct Hinv as (_ & _ & _ & Hs & _).
  unfold plan_save. rewrite Hval. cbn [negb]. destruct (snapshot_ok_inv r s Hsn) as (Hi & _ & Ht & _).
  replace ((s_idx s =? 0) || (s_term s =? 0)) with false by lia.
  destruct (k_snap (rows_of sc (c_kv c))) as [mf|]; cbn [snap_rel] in Hs.
  - destruct Hs as (Hp & Hix & Htx & Hcf & Hsz & Hsum & _). rewrite Hix, Htx, Hcf, Hsz, Hsum. fold (r_sidx r).
    destruct (s_idx s <? r_sidx r) eqn:E1; [reflexivity|]. destruct (r_sidx r <? s_idx s) eqn:E2; [reflexivity|].
    rewrite (same_snapshot_manifest r s Hsn) by lia. destruct (same_snapshot s (r_snap r)); reflexivity.
  - assert (H0 : r_sidx r = 0) by (unfold r_sidx; rewrite Hs; reflexivity).
    replace (s_idx s <? r_sidx r) with false by lia. replace (r_sidx r <? s_idx s) with true by lia. reflexivity.
Qed.

Lemma plan_save_ok c sc r hs ents snap r' :
  wf r -> RowsInv (c_files c) (c_next c) (rows_of sc (c_kv c)) r ->
  req_valid r (WSave hs ents snap) = true ->
  ref_save false r hs ents snap = ROk r' ->
  exists c' sv,
    plan_save c sc hs ents snap = Ok (c', sv)
    /\ plan_ext c c'
    /\ plan_ok (c_files c') (c_next c') (rows_of sc (c_kv c)) r hs ents snap sv.
Proof.
  intros Hwf Hinv Hv Href. destruct (req_valid_save _ _ _ _ Hv) as (_ & _ & Hsn & _).
  pose proof Hinv as (_ & _ & _ & Hs & _). destruct snap as [s|].
  2:{ exists c. eexists. split; [reflexivity|]. split; [apply plan_ext_refl|]. split; [reflexivity|exact Hs]. }
  rewrite (plan_save_eq c sc r hs ents s Hwf Hinv Hsn). cbn zeta.
  destruct (snapshot_ok_inv r s Hsn) as (Hi & _).
  destruct (ref_save_accepts _ _ _ _ _ Href) as [[Heq Hsm]|Hgt].
  - (* the stored snapshot again: no staging, the stored manifest is handed back *)
    replace (s_idx s <? r_sidx r) with false by lia. replace (r_sidx r <? s_idx s) with false by lia.
    rewrite Hsm. destruct (k_snap (rows_of sc (c_kv c))) as [mf|] eqn:Eks; cbn [snap_rel] in Hs.
    2:{ unfold r_sidx in Heq. rewrite Hs in Heq. cbn in Heq. lia. }
    exists c. eexists. split; [reflexivity|]. split; [apply plan_ext_refl|]. exists mf. split; [reflexivity|]. split; [|intros _; exact Eks].
    rewrite (same_snapshot_eq r s Hsn Heq Hsm). exact Hs.
  - replace (s_idx s <? r_sidx r) with false by lia. replace (r_sidx r <? s_idx s) with true by lia.
    eexists. eexists. split; [reflexivity|].
    split; [split; [reflexivity|]; split; [reflexivity|]; apply files_ext_mono; right; eexists; split; reflexivity|].
    cbn [c_files c_next].
    eexists. split; [reflexivity|]. split; [|intro; lia].
    cbn. rewrite N.eqb_refl. repeat split; try reflexivity; lia.
Qed.

Lemma plan_save_rej c sc r hs ents snap e :
  wf r -> RowsInv (c_files c) (c_next c) (rows_of sc (c_kv c)) r ->
  req_valid r (WSave hs ents snap) = true ->
  ref_save false r hs ents snap = RRej e -> plan_save c sc hs ents snap = Err e.
Proof.
  intros Hwf Hinv Hv Href. destruct (ref_save_rej _ _ _ _ _ Href) as (s & -> & Hcase).
  destruct (req_valid_save _ _ _ _ Hv) as (_ & _ & Hsn & _).
  rewrite (plan_save_eq c sc r hs ents s Hwf Hinv Hsn). cbn zeta.
  destruct Hcase as [[Hlt ->]|(Heq & Hns & ->)]; [rewrite Hlt; reflexivity|].
  replace (s_idx s <? r_sidx r) with false by lia. replace (r_sidx r <? s_idx s) with false by lia.
  rewrite Hns. reflexivity.
Qed.

(* a read may persist a reconstructed meta row; nothing else of the store changes *)
Definition meta_persisted (c c' : cstate) (sc : N) (r : rstate) : Prop :=
  c_files c' = c_files c /\ c_next c' = c_next c /\ c_cache c' = c_cache c
  /\ (c_kv c' = c_kv c \/ c_kv c' = aset sc (rows_of sc (c_kv c')) (c_kv c))
  /\ RowsInv (c_files c') (c_next c') (rows_of sc (c_kv c')) r
  /\ k_snap (rows_of sc (c_kv c')) = k_snap (rows_of sc (c_kv c)).

Lemma meta_persisted_refl c sc r :
  RowsInv (c_files c) (c_next c) (rows_of sc (c_kv c)) r -> meta_persisted c c sc r.
Proof. intro H. exact (conj eq_refl (conj eq_refl (conj eq_refl (conj (or_introl eq_refl) (conj H eq_refl))))). Qed.

Lemma ensureMeta_sim c sc r cs :
  wf r -> RowsInv (c_files c) (c_next c) (rows_of sc (c_kv c)) r -> ref_conf r = Some cs ->
  exists rw',
    ensureMeta (rows_of sc (c_kv c)) = Ok (canon_meta r cs, rw')
    /\ meta_persisted c (match k_meta (rows_of sc (c_kv c)) with Some _ => c | None => set_rows c sc rw' end) sc r.
Proof.
  intros Hwf Hinv Hcs. pose proof Hinv as (Hh & Hc & He & Hs & Hm).
  unfold ensureMeta, currentMeta. rewrite (validate_ok _ _ _ _ Hwf Hinv). cbn [negb].
  set (rw := rows_of sc (c_kv c)) in *.
  destruct (k_meta rw) as [m|] eqn:Ekm.
  - destruct Hm as (cs' & Hcs' & ->). rewrite Hcs in Hcs'. injection Hcs' as <-.
    exists rw. split; [reflexivity|apply meta_persisted_refl; exact Hinv].
  - destruct Hm as (Hp & Ha). pose proof Hp as (Hh0 & Ha0 & Hs0 & He0).
    rewrite (ref_conf_pristine r Hp) in Hcs. injection Hcs as <-.
    rewrite loadEntries_00, He, He0, Ha.
    assert (Hcm : canon_meta r [] = M 1 0 0 0 0 [])
      by (unfold canon_meta, r_last, r_sidx; rewrite Hs0, He0, Ha0; reflexivity).
    rewrite Hcm. eexists. split; [reflexivity|].
    unfold meta_persisted, set_rows. cbn [c_kv c_files c_next c_cache]. rewrite rows_of_aset_same.
    split; [reflexivity|]. split; [reflexivity|]. split; [reflexivity|]. split; [right; reflexivity|].
    split; [|reflexivity]. unfold RowsInv. cbn [k_hs k_cfg k_ents k_snap k_meta k_applied].
    split; [exact Hh|]. split; [exact Hc|]. split; [symmetry; exact He0|]. split; [exact Hs|].
    exists []. split; [apply ref_conf_pristine; assumption|]. symmetry. exact Hcm.
Qed.

Lemma loadSnapshot_sim c sc r :
  wf r -> RowsInv (c_files c) (c_next c) (rows_of sc (c_kv c)) r -> loadSnapshot c sc = Some (r_snap r).
Proof.
  intros Hwf Hinv. pose proof Hinv as (_ & _ & _ & Hs & _).
  unfold loadSnapshot. rewrite (validate_ok _ _ _ _ Hwf Hinv). cbn [negb].
  destruct (k_snap (rows_of sc (c_kv c))) as [mf|]; cbn [snap_rel] in Hs.
  - destruct Hs as (Hp & Hi & Ht & Hcf & Hsz & Hsum & Hid & Hfile).
    rewrite Hfile, Hsz, N.eqb_refl, Hi, Ht, Hcf, Hsum. destruct (r_snap r); reflexivity.
  - rewrite Hs. reflexivity.
Qed.

Lemma observe_sim c sc r cs :
  wf r -> RowsInv (c_files c) (c_next c) (rows_of sc (c_kv c)) r -> ref_conf r = Some cs ->
  exists c', observe c sc = (c', ref_observe r) /\ meta_persisted c c' sc r.
Proof.
  intros Hwf Hinv Hcs. pose proof Hinv as (Hh & Hc & He & _).
  destruct (ensureMeta_sim c sc r cs Hwf Hinv Hcs) as (rw' & Hem & Hper).
  unfold observe. rewrite Hem.
  set (c' := match k_meta _ with Some _ => c | None => set_rows c sc rw' end) in *.
  pose proof Hper as (_ & _ & _ & _ & Hinv' & _).
  rewrite (loadSnapshot_sim c' sc r Hwf Hinv').
  exists c'. split; [|exact Hper].
  unfold ref_observe. rewrite Hcs, loadEntries_00, Hh, Hc, He. reflexivity.
Qed.

Lemma pebble_entries_eq c sc r lo hi mx :
  RowsInv (c_files c) (c_next c) (rows_of sc (c_kv c)) r ->
  pebble_entries c sc lo hi mx = limit_size mx (filter (fun e => in_window lo hi (e_idx e)) (r_ents r)).
Proof.
  intros (_ & _ & He & _). unfold pebble_entries, loadEntries. rewrite He. reflexivity.
Qed.

Lemma window_limit_safe r lo hi mx :
  wf r ->
  entries_safe r lo hi (limit_size mx (filter (fun e => in_window lo hi (e_idx e)) (r_ents r))) = true.
Proof.
  intro Hwf. pose proof (wf_contig _ Hwf) as Hc. unfold entries_safe.
  apply andb_true_iff. split.
  - apply forallb_forall. intros e He. destruct (limit_window_In _ _ _ _ _ He) as [Hm Hw].
    unfold in_window in Hw. rewrite Hw. cbn [andb].
    unfold ref_entry_at. pose proof (contig_in _ _ _ Hc Hm) as Hb.
    replace (r_sidx r <? e_idx e) with true by lia.
    replace (N.to_nat (e_idx e - r_sidx r - 1)) with (N.to_nat (e_idx e - (r_sidx r + 1))) by lia.
    rewrite (contig_in_nth _ _ _ Hc Hm). apply entry_eqb_refl.
  - destruct (filter_window_contig _ _ lo hi Hc) as [b Hb].
    destruct (limit_size_prefix mx (filter (fun e => in_window lo hi (e_idx e)) (r_ents r))) as [k ->].
    apply (contig_head b), contig_firstn, Hb.
Qed.

Lemma ref_entries_window r lo hi mx :
  wf r -> r_first r <= lo -> lo <= hi -> hi <= r_last r + 1 ->
  limit_size mx (filter (fun e => in_window lo hi (e_idx e)) (r_ents r)) = ref_entries r lo hi mx.
Proof.
  intros (Hc & _) H1 H2 H3. unfold ref_entries, r_first, r_last in *.
  rewrite (filter_window (r_sidx r + 1) (r_ents r) lo hi Hc).
  f_equal.
  replace (N.to_nat (lo - (r_sidx r + 1))) with (N.to_nat (lo - r_sidx r - 1)) by lia.
  destruct (hi =? 0) eqn:Hz; [lia|].
  replace (N.max lo (r_sidx r + 1)) with lo by lia. reflexivity.
Qed.

Lemma judge_entries_window r lo hi mx :
  wf r -> judge_entries lo hi mx (limit_size mx (filter (fun e => in_window lo hi (e_idx e)) (r_ents r))) r = true.
Proof.
  intro Hwf. unfold judge_entries.
  destruct ((r_first r <=? lo) && (lo <=? hi) && (hi <=? r_last r + 1)) eqn:E.
  - rewrite (ref_entries_window r lo hi mx Hwf) by lia. apply entries_eqb_refl.
  - apply window_limit_safe. exact Hwf.
Qed.

Lemma pebble_term_sim c sc r cs i :
  wf r -> RowsInv (c_files c) (c_next c) (rows_of sc (c_kv c)) r -> ref_conf r = Some cs ->
  exists c',
    pebble_term c sc i = (c', Some (match r_term r i with Some t => t | None => 0 end))
    /\ meta_persisted c c' sc r.
Proof.
  intros Hwf Hinv Hcs. pose proof Hinv as (_ & _ & He & _). pose proof Hwf as (Hcont & _ & _ & Hz & _).
  unfold pebble_term, row_get. rewrite He, (r_term_find r i Hcont).
  destruct (find (fun e => e_idx e =? i) (r_ents r)) as [e|].
  { exists c. split; [reflexivity|apply meta_persisted_refl; exact Hinv]. }
  destruct (i =? 0) eqn:Ei0.
  - exists c. split; [|apply meta_persisted_refl; exact Hinv].
    destruct (r_sidx r =? i) eqn:E; [|reflexivity]. rewrite Hz by lia. reflexivity.
  - destruct (ensureMeta_sim c sc r cs Hwf Hinv Hcs) as (rw' & Hem & Hper). rewrite Hem.
    eexists. split; [reflexivity|exact Hper].
Qed.

Lemma loadSnapshot_ext c c' sc :
  c_kv c' = c_kv c -> c_files c' = c_files c -> loadSnapshot c' sc = loadSnapshot c sc.
Proof. intros Hk Hf. unfold loadSnapshot. rewrite Hk, Hf. reflexivity. Qed.

(* the reads do not consult DB.stateCache *)
Lemma reads_ignore_cache c sc :
  snd (observe (drop_cache c) sc) = snd (observe c sc)
  /\ (forall lo hi mx, pebble_entries (drop_cache c) sc lo hi mx = pebble_entries c sc lo hi mx)
  /\ (forall i, snd (pebble_term (drop_cache c) sc i) = snd (pebble_term c sc i)).
Proof.
  split; [|split; [reflexivity|]].
  - unfold observe. change (c_kv (drop_cache c)) with (c_kv c).
    destruct (ensureMeta (rows_of sc (c_kv c))) as [[m r']|]; [|reflexivity].
    set (c1 := match k_meta _ with Some _ => drop_cache c | None => set_rows (drop_cache c) sc r' end).
    set (c2 := match k_meta _ with Some _ => c | None => set_rows c sc r' end).
    rewrite (loadSnapshot_ext c2 c1 sc) by (subst c1 c2; destruct (k_meta _); reflexivity).
    destruct (loadSnapshot c2 sc); reflexivity.
  - intro i. unfold pebble_term. change (c_kv (drop_cache c)) with (c_kv c).
    destruct (row_get i (k_ents (rows_of sc (c_kv c)))); [reflexivity|].
    destruct (i =? 0); [reflexivity|].
    destruct (ensureMeta (rows_of sc (c_kv c))) as [[m r']|]; reflexivity.
Qed.
