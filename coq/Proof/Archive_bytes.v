(* Proof/Archive_bytes.v — C38 (uses Archive, Archive_binding, Archive_publish): the concrete instance [body := bytes].
   The canonical-form check pins the bytes, so the loaders are strict; the encoding of a valid
   COMPLETE marker is a small non-empty object; the instances [verify_b], [consistent_b],
   [publish_b] in which only SHA-256 [H], Zstandard [unz] and the strict JSON decoders [json_*]
   stay abstract, and publication at that instance. *)
From WK Require Import Base.Base Base.Lists Gen.Consts_C38 Model.Archive.
From WK Require Import Proof.Archive Proof.Archive_binding Proof.Archive_publish.
Open Scope N_scope.

Lemma canon_marker_bytes_enc m b : canon_marker_bytes m b = true -> b = enc_complete_marker_bytes m.
Proof. intros E%bytes_eqb_eq. auto. Qed.
Lemma canon_repo_bytes_enc m b : canon_repo_bytes m b = true -> b = enc_repo_marker_bytes m.
Proof. intros E%bytes_eqb_eq. auto. Qed.

Lemma load_with_bytes_strict {A} (json : bytes -> option A) validate (enc : A -> bytes) b m :
  load_with json validate (fun m b => bytes_eqb (enc m) b) b = Ok m <-> json b = Some m /\ validate m = None /\ b = enc m.
Proof. rewrite load_with_iff, bytes_eqb_eq. split; intros (J & V & E); auto. Qed.

Lemma dec_digits_length : forall fuel n acc, (length (dec_digits fuel n acc) <= fuel + length acc)%nat.
Proof.
  induction fuel as [|f IH]; intros n acc; cbn [dec_digits]; [lia|].
  destruct (n / 10 =? 0); [cbn [length]; lia|].
  specialize (IH (n / 10) ((48 + n mod 10) :: acc)). cbn [length] in IH. lia.
Qed.

Lemma dec_N_length n : (length (dec_N n) <= S (N.to_nat (N.log2 n)))%nat.
Proof. unfold dec_N. pose proof (dec_digits_length (S (N.to_nat (N.log2 n))) n []). cbn [length] in *. lia. Qed.

Lemma dec_digits_mono : forall f x acc, (length acc <= length (dec_digits f x acc))%nat.
Proof.
  induction f as [|f IH]; intros x acc; cbn [dec_digits]; [lia|].
  destruct (x / 10 =? 0); [cbn [length]; lia|].
  specialize (IH (x / 10) ((48 + x mod 10) :: acc)). cbn [length] in IH. lia.
Qed.

Lemma dec_N_nonempty n : (1 <= length (dec_N n))%nat.
Proof.
  unfold dec_N. cbn [dec_digits]. destruct (n / 10 =? 0); [cbn [length]; lia|].
  pose proof (dec_digits_mono (N.to_nat (N.log2 n)) (n / 10) [48 + n mod 10]) as Hm. cbn [length] in Hm. lia.
Qed.

Lemma json_str_body_hex : forall s, forallb is_lower_hex s = true -> json_str_body s = s.
Proof.
  induction s as [|c s IH]; [reflexivity|]. cbn [forallb]. intros [Ec Es]%andb_true_iff.
  assert (Hr : 48 <= c <= 57 \/ 97 <= c <= 102).
  { unfold is_lower_hex, is_digit in Ec. apply orb_true_iff in Ec as [Ec|Ec]; apply andb_true_iff in Ec as [E1 E2];
      apply N.leb_le in E1; apply N.leb_le in E2; lia. }
  (* none of the escaped characters is a hexadecimal digit *)
  assert (Hn : forall x, x < 48 \/ 57 < x < 97 \/ 102 < x -> (c =? x) = false) by (intros x Hx; apply N.eqb_neq; lia).
  cbn [json_str_body]. replace (c <? 128) with true by (symmetry; apply N.ltb_lt; lia).
  unfold esc_ascii. rewrite !Hn by lia. replace (c <? 32) with false by (symmetry; apply N.ltb_ge; lia).
  cbn [orb app]. rewrite IH by exact Es. reflexivity.
Qed.

(* everything of an encoded marker but its digest and its size: the format string, the version, the
   four field names, at most 4 bytes of punctuation per field (two quotes, colon, comma) and 16 for the
   braces and the quotes of the digest; 4000 is slack: any bound below maxStoredManifestBytes - 66 - 23
   would do (66 = the quoted 64-digit digest, 23 = the longest decimal of a size <= 2^22) *)
Lemma marker_constant_part_le_4000 :
  Nat.leb (length (jstr CompleteMarkerFormat) + length (dec_N CompleteMarkerVersion)
           + length (concat fields_CompleteMarker) + length fields_CompleteMarker * 4 + 16) 4000 = true.
Proof. vm_compute. reflexivity. Qed.

Lemma fields_CompleteMarker_4 : exists a b c d, fields_CompleteMarker = [a; b; c; d].
Proof. unfold fields_CompleteMarker. do 4 eexists. reflexivity. Qed.

Lemma enc_marker_small k :
  validate_complete_marker k = None -> cm_bytes k <= maxArchiveManifestBytes ->
  0 < blen_bytes (enc_complete_marker_bytes k) /\ blen_bytes (enc_complete_marker_bytes k) <= maxStoredManifestBytes.
Proof.
  intros V Hle. apply validate_complete_marker_inv in V as (E1 & E2 & _ & Es).
  unfold validate_sha256 in Es. apply andb_true_iff in Es. destruct Es as [Es1 Es2]. apply Nat.eqb_eq in Es1.
  unfold blen_bytes, enc_complete_marker_bytes, jobj.
  split; [cbn [app length]; lia|].
  pose proof marker_constant_part_le_4000 as Hf. apply Nat.leb_le in Hf.
  destruct fields_CompleteMarker_4 as (a & b & c & d & Ef). rewrite Ef in *.
  rewrite E1, E2.
  cbn [jkv jjoin concat] in *. unfold jstr at 2. rewrite (json_str_body_hex _ Es2).
  repeat (rewrite app_length in * || cbn [length] in * ).
  pose proof (dec_N_length (cm_bytes k)) as Hd.
  assert (Hlog : (N.to_nat (N.log2 (cm_bytes k)) <= 22)%nat).
  { destruct (N.eq_dec (cm_bytes k) 0) as [Ez|Nz]; [rewrite Ez; cbn; lia|].
    assert (N.log2 (cm_bytes k) <= N.log2 maxArchiveManifestBytes) by (apply N.log2_le_mono; exact Hle).
    assert (N.log2 maxArchiveManifestBytes <= 22) by (vm_compute; discriminate). lia. }
  unfold maxStoredManifestBytes. lia.
Qed.

(* bodies are byte strings, json.Marshal is the concrete encoder, the canonical-form check is
   byte equality with it *)
Section Bytes.
  Variable H : bytes -> bytes.                                 (* SHA-256, hex *)
  Variable unz : bytes -> option (N * bytes).                  (* Zstandard decode *)
  Variable json_archive : bytes -> option archive_manifest.    (* strict JSON decode *)
  Variable json_slot : bytes -> option slot_manifest.
  Variable json_marker : bytes -> option complete_marker.
  Variable json_repo : bytes -> option repo_marker.

  Definition verify_b := verify_published_archive bytes blen_bytes H unz json_archive json_slot json_marker
                           canon_archive_bytes canon_slot_bytes canon_marker_bytes.
  Definition consistent_b := consistentb bytes blen_bytes H unz json_archive json_slot json_marker
                               canon_archive_bytes canon_slot_bytes canon_marker_bytes.
  Definition publish_b := publish_archive bytes blen_bytes H unz json_archive json_slot json_marker json_repo
                            canon_archive_bytes canon_slot_bytes canon_marker_bytes canon_repo_bytes
                            enc_archive_manifest_bytes enc_complete_marker_bytes enc_repo_marker_bytes bytes_eqb.
  Definition reachable_b := reachable bytes json_slot canon_slot_bytes.
  Definition collision_b : Prop := exists b1 b2 : bytes, b1 <> b2 /\ H b1 = H b2.

  (* the strict decoder inverts the encoder on every valid marker, and a canonical decode of a
     manifest encoding is that manifest: hypotheses of the theorem (the JSON layer is abstract; tied to
     encoding/json by the codec cases) *)
  Theorem published_verifies_b st rq st' m :
    (forall k, validate_complete_marker k = None -> json_marker (enc_complete_marker_bytes k) = Some k) ->
    (forall a a', json_archive (enc_archive_manifest_bytes a) = Some a' ->
                  canon_archive_bytes a' (enc_archive_manifest_bytes a) = true -> a' = a) ->
    publish_b st rq = (st', Ok m) -> get bytes st (corrupt_key (pr_id rq)) = None ->
    verify_b st' (pr_id rq) = Ok m.
  Proof.
    intros Hjk Hja P Hnc.
    apply (published_verifies bytes blen_bytes H unz json_archive json_slot json_marker json_repo
             canon_archive_bytes canon_slot_bytes canon_marker_bytes canon_repo_bytes
             enc_archive_manifest_bytes enc_complete_marker_bytes enc_repo_marker_bytes bytes_eqb
             (fun a b E => proj1 (bytes_eqb_eq a b) E) Hja st rq st' m P Hnc).
    intros k Vk Hle. unfold marker_faithful. split; [apply Hjk; exact Vk|].
    split; [unfold canon_marker_bytes; apply bytes_eqb_refl|]. apply enc_marker_small; assumption.
  Qed.

  Theorem load_marker_strict kb mb k :
    load_complete_marker bytes blen_bytes H json_archive json_marker canon_archive_bytes canon_marker_bytes kb mb = Ok k ->
    kb = enc_complete_marker_bytes k /\ validate_complete_marker k = None
    /\ cm_bytes k = blen_bytes mb /\ cm_sha k = H mb
    /\ exists m, mb = enc_archive_manifest_bytes m /\ validate_archive_manifest m = None.
  Proof.
    intro L. apply load_marker_inv in L. destruct L as (_ & V & C & Hb & Hs & (m & La)).
    apply load_with_bytes_strict in La as (_ & Vm & Em).
    repeat split; auto; [apply canon_marker_bytes_enc; exact C|]. exists m. auto.
  Qed.
End Bytes.

Theorem load_msg_strict (json_msg : bytes -> option msg_manifest) b m :
  load_message_chunk_manifest bytes json_msg canon_msg_bytes b = Ok m ->
  json_msg b = Some m /\ validate_message_chunk_manifest m = None /\ b = enc_msg_manifest_bytes m
  /\ N.of_nat (length (mm_chunks m)) <= maxMessageChunks.
Proof.
  intros (J & V & E)%(load_with_bytes_strict json_msg validate_message_chunk_manifest enc_msg_manifest_bytes).
  repeat split; auto.
  unfold validate_message_chunk_manifest in V.
  destruct (negb (bytes_eqb (mm_format m) messageChunkManifestFormat) || negb (mm_version m =? messageChunkManifestVersion)
            || (DefaultHashSlotCount <=? mm_hash_slot m)); [discriminate|].
  destruct (mm_chunks m) as [|c cs] eqn:Ec; [discriminate|].
  destruct (maxMessageChunks <? N.of_nat (length (c :: cs))) eqn:El; [discriminate|].
  apply N.ltb_ge in El. exact El.
Qed.
