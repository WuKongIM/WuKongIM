(* Proof/RaftDriver_inv.v — C12: the invariant of the driver model and its
   preservation by every micro-operation that is "valid" in its state.  The
   validity conditions are discharged for the op lists of every step in
   Proof/RaftDriver_steps.v from the library hypotheses (SMS).  The invariant is that
   of a state machine with a durable applied index (durable_sm = true); the plain
   variant violates it, see c12_plain_state_machine_reapplies. *)
From WK Require Import Base.Base Base.Lists Model.RaftDriver Proof.RaftDriver_lists Proof.RaftDriver_exec.
From Coq Require Import Sorted ZifyBool ZifyN ZifyNat.
Open Scope N_scope.

Definition applied_tr (tr : list event) : list entry := flat_map applied_of_event tr.

Lemma applied_tr_app a b : applied_tr (a ++ b) = applied_tr a ++ applied_tr b.
Proof. unfold applied_tr. apply flat_map_app. Qed.

Lemma exec_applied o s :
  live s -> applied_tr (n_tr (exec o s)) = applied_tr (n_tr s) ++ match o with OCall c => c | _ => [] end.
Proof.
  intro L. rewrite (exec_tr o s L), applied_tr_app. f_equal.
  destruct o as [hs ents snap| |ms| | |idx| | | | | |i|]; cbn [ev_of]; try reflexivity.
  - destruct hs, ents, snap; reflexivity.
  - destruct ms; reflexivity.
  - apply app_nil_r.
  - destruct (idx <=? v_applied s); [|destruct (markApplied (durable_sm s) (sm_idx s) idx)]; reflexivity.
  - destruct (durable_sm s); reflexivity.
Qed.

Definition dur_of (s : node) : dur := mkDur (d_log s) (d_hs s) (d_snap s).

Section Inv.

Variable clog : N -> entry.
Hypothesis clog_idx : forall i, e_idx (clog i) = i.

(* the entries applied "elsewhere" (by the replicas that produced the snapshots this node receives) *)
Variable GS : entry -> Prop.
(* what is assumed about the entries a Ready asks to persist when futures are waiting (used by the
   future theorems only; True for the others) *)
Variable TrackHyp : node -> list entry -> Prop.

Notation centries := (centries clog).
Notation clean := (clean clog).
Notation sound := (sound clog).
Notation complete := (complete clog).
Notation call_ok := (call_ok clog).
Notation calls_ok := (calls_ok clog).

Definition snap_good (i : N) (c : list entry) : Prop :=
  0 < i /\ sorted c /\ sound c 0 i /\ complete c 0 i.

Definition known (s : node) (e : entry) : Prop := In e (applied_tr (n_tr s)) \/ GS e.

(* the library never rewrites what it has declared committed, and the commit index never goes back *)
Definition save_stable (s : node) (hs : option hardstate) (ents : list entry) : Prop :=
  (forall h, hs = Some h -> hs_commit (d_hs s) <= hs_commit h)
  /\ (forall e, In e ents -> hs_commit (d_hs s) < e_idx e).

(* per operation: what INV needs (OSave, ORestore, the first conjunct of OCall, OMarkApplied, OCompactMark, OCompactSave); what
   persist-before-send needs (OSend, the second conjunct of OCall: read by PERS_preserved only); what the
   invariant of the futures needs (OTrack, OResolve: read by FINV_exec only).  ORestore's
   [d_snap s = 0 -> d_applied s <= i] keeps i_dapplied; the OSave before every ORestore has stored the snapshot
   index, so the premise is false there (sync_tail_phase uses that). *)
Definition mop_valid (o : mop) (s : node) : Prop :=
  match o with
  | OSave hs ents snap =>
      save_stable s hs ents
      /\ match snap with
         | Some (i, _, c) => snap_good i c /\ (forall e, In e c -> GS e)
         | None => True
         end
  | OTrack ents => TrackHyp s ents
  | OSend ms => forallb (msg_ok (dur_of s)) ms = true
  | ORestore i c =>
      snap_good i c /\ (d_snap s = 0 -> d_applied s <= i) /\ v_applied s <= i
      /\ (forall e, In e c -> known s e)
  | OCall ents => call_ok (g_pos s) ents /\ forallb (applied_ok (dur_of s)) ents = true
  | OMarkApplied index => clean (g_pos s) index /\ (v_applied s < index -> sm_idx s <= index)
  | OResolve ents => forall e, In e ents -> e = clog (e_idx e) /\ In e (applied_tr (n_tr s))
  | OCompactMark i => i <= g_pos s
  | OCompactSave i => i = g_pos s /\ 0 < i
  | _ => True
  end.

Fixpoint valid_seq (ops : list mop) (s : node) : Prop :=
  match ops with
  | [] => True
  | o :: r => (live s -> mop_valid o s) /\ valid_seq r (exec o s)
  end.

Lemma valid_seq_app a b s : valid_seq (a ++ b) s <-> valid_seq a s /\ valid_seq b (exec_all a s).
Proof.
  revert s. induction a as [|o a IH]; intro s; cbn [app valid_seq].
  - rewrite exec_all_nil. tauto.
  - rewrite exec_all_cons, IH. tauto.
Qed.

Lemma valid_seq_firstn k ops s : valid_seq ops s -> valid_seq (firstn k ops) s.
Proof.
  revert ops s. induction k as [|k IH]; intros ops s H; [exact I|].
  destruct ops as [|o r]; [exact I|]. cbn [firstn valid_seq] in *. split; [apply H | apply IH, H].
Qed.

Lemma valid_seq_dead ops s : ~ live s -> valid_seq ops s.
Proof.
  revert s. induction ops as [|o r IH]; intros s H; [exact I|]. cbn [valid_seq]. split.
  - intro L. contradiction.
  - rewrite exec_dead by exact H. apply IH, H.
Qed.

Record INV (s : node) : Prop := mkINV {
  i_durable : durable_sm s = true;
  i_sorted : sorted (sm_hist s);
  i_sound : sound (sm_hist s) 0 (sm_idx s);
  i_complete : complete (sm_hist s) 0 (g_pos s);
  i_smpos : sm_idx s <= g_pos s;
  i_dapplied : d_snap s = 0 -> d_applied s <= g_pos s;
  i_vapplied : v_applied s <= g_pos s;
  i_snap : d_snap s <> 0 -> snap_good (d_snap s) (d_snapc s);
  (* every command the state machine holds, and every command its stored snapshot holds, has been
     handed to a state machine by this replica or by the ones that produced the snapshots it received *)
  i_hist_known : forall e, In e (sm_hist s) -> known s e;
  i_snap_known : forall e, In e (d_snapc s) -> known s e;
  (* everything this replica handed to its state machine is the committed entry of its index, a command *)
  i_applied_sound : forall e, In e (applied_tr (n_tr s)) -> e = clog (e_idx e) /\ is_normal e = true /\ 0 < e_idx e
}.

Lemma known_mono s s' e :
  (forall x, In x (applied_tr (n_tr s)) -> In x (applied_tr (n_tr s'))) -> known s e -> known s' e.
Proof. intros H [A|B]; [left; apply H, A | right; exact B]. Qed.

Lemma INV_same_core s s' : same_core s s' -> INV s -> INV s'.
Proof. intros (sub & pend & l & out & ->) I. destruct I. constructor; assumption. Qed.

Lemma call_ok_first_gt p c e : call_ok p c -> In e c -> p < e_idx e.
Proof. intros (_ & _ & Hsd & _) He. destruct (Hsd e He) as (_ & _ & H). lia. Qed.

(* the invariant only reads these components of the state *)
Lemma INV_frame s s' :
  durable_sm s' = durable_sm s -> sm_hist s' = sm_hist s -> sm_idx s' = sm_idx s -> g_pos s' = g_pos s ->
  d_snap s' = d_snap s -> d_snapc s' = d_snapc s -> d_applied s' = d_applied s -> v_applied s' = v_applied s ->
  applied_tr (n_tr s') = applied_tr (n_tr s) -> INV s -> INV s'.
Proof.
  intros E1 E2 E3 E4 E5 E6 E7 E8 E9 []. constructor; unfold known; rewrite ?E1, ?E2, ?E3, ?E4, ?E5, ?E6, ?E7, ?E8, ?E9; assumption.
Qed.

(* in the lemmas below the components an operation changes are dealt with first, as named facts; [inv_fields]
   then opens the record, rewrites the applied entries with [Et] and closes every field that is a hypothesis *)
Local Ltac inv_fields Et := constructor; unfold known in *; nsimpl; rewrite ?Et; try assumption.

Lemma INV_save hs ents snap s :
  INV s -> live s -> mop_valid (OSave hs ents snap) s -> INV (exec (OSave hs ents snap) s).
Proof.
  intros I L [_ V]. pose proof (exec_applied (OSave hs ents snap) s L) as Et. rewrite app_nil_r in Et.
  destruct (exec_save_live hs ents snap s L) as [(_ & _ & _ & E)|E]; rewrite E in *; [exact I|].
  unfold save_body in *. destruct snap as [[[i t] c]|]; cbn zeta in *.
  - destruct V as [[G0 G] Vk].
    assert (Hk : forall e, In e c -> In e (applied_tr (n_tr s)) \/ GS e) by (intros e He; right; apply Vk, He).
    assert (Hd : i = 0 -> d_applied s <= g_pos s) by lia.
    destruct I. inv_fields Et. intros _. exact (conj G0 G).
  - apply (INV_frame s); try reflexivity; assumption.
Qed.

Lemma INV_restore i c s :
  INV s -> live s -> mop_valid (ORestore i c) s -> INV (exec (ORestore i c) s).
Proof.
  intros I L ((G0 & Gs & Gsd & Gc) & Vd & Va & Vk).
  pose proof (exec_applied (ORestore i c) s L) as Et. rewrite app_nil_r in Et.
  exec_on L. destruct I. inv_fields Et. lia.
Qed.

Lemma INV_call c s :
  INV s -> live s -> mop_valid (OCall c) s -> INV (exec (OCall c) s).
Proof.
  intros I L [V _]. pose proof (exec_applied (OCall c) s L) as Et.
  pose proof (call_ok_last_gt clog _ _ V) as Hgt. destruct V as (Hne & Hs & Hsd & Hc). destruct I. exec_on L.
  rewrite (lastApplied_default c (sm_idx s) (g_pos s) Hne) in *.
  replace (N.max (g_pos s) (lastApplied c (g_pos s))) with (lastApplied c (g_pos s)) in * by lia.
  assert (Hsorted : sorted (sm_hist s ++ c)).
  { apply sorted_app_intro; [exact i_sorted0 | exact Hs|].
    intros a b Ha Hb. destruct (i_sound0 a Ha) as (_ & _ & A). destruct (Hsd b Hb) as (_ & _ & B). lia. }
  assert (Hsound : sound (sm_hist s ++ c) 0 (lastApplied c (g_pos s))).
  { apply (sound_app clog); [apply (sound_weaken clog _ _ _ _ _ i_sound0) | apply (sound_weaken clog _ _ _ _ _ Hsd)]; lia. }
  assert (Hcomplete : complete (sm_hist s ++ c) 0 (lastApplied c (g_pos s)))
    by (apply (complete_app clog _ _ _ (g_pos s)); assumption).
  assert (Hhist : forall e, In e (sm_hist s ++ c) -> In e (applied_tr (n_tr s) ++ c) \/ GS e).
  { intros e He. apply in_app_or in He. destruct He as [He|He]; [|left; apply in_or_app; right; exact He].
    destruct (i_hist_known0 e He) as [A|B]; [left; apply in_or_app; left; exact A | right; exact B]. }
  assert (Hsnap : forall e, In e (d_snapc s) -> In e (applied_tr (n_tr s) ++ c) \/ GS e).
  { intros e He. destruct (i_snap_known0 e He) as [A|B]; [left; apply in_or_app; left; exact A | right; exact B]. }
  assert (Happlied : forall e, In e (applied_tr (n_tr s) ++ c) -> e = clog (e_idx e) /\ is_normal e = true /\ 0 < e_idx e).
  { intros e He. apply in_app_or in He. destruct He as [He|He]; [apply i_applied_sound0, He|].
    destruct (Hsd e He) as (A & B & C). split; [exact A|]. split; [exact B | lia]. }
  inv_fields Et; [lia | intro Z; specialize (i_dapplied0 Z); lia | lia].
Qed.

Lemma INV_mark idx s :
  INV s -> live s -> mop_valid (OMarkApplied idx) s ->
  INV (exec (OMarkApplied idx) s) /\ live (exec (OMarkApplied idx) s).
Proof.
  intros I L [Vc Vs]. pose proof (exec_applied (OMarkApplied idx) s L) as Et. rewrite app_nil_r in Et.
  exec_on L. destruct (idx <=? v_applied s) eqn:Eg; [split; assumption|].
  apply N.leb_gt in Eg. specialize (Vs Eg). destruct I.
  unfold markApplied in *. rewrite i_durable0 in *.
  replace (idx <? sm_idx s) with false in * by (symmetry; apply N.ltb_ge; exact Vs).
  assert (Hcomp : complete (sm_hist s) 0 (N.max (g_pos s) idx)).
  { destruct (N.le_gt_cases idx (g_pos s)).
    - replace (N.max (g_pos s) idx) with (g_pos s) by lia. exact i_complete0.
    - replace (N.max (g_pos s) idx) with idx by lia.
      eapply (complete_extend clog); [exact i_complete0 | exact Vc]. }
  destruct (sm_idx s =? idx); (split; [inv_fields Et; lia | exact L]).
Qed.

Lemma INV_compact_mark i s :
  INV s -> live s -> mop_valid (OCompactMark i) s -> INV (exec (OCompactMark i) s).
Proof.
  intros I L V. pose proof (exec_applied (OCompactMark i) s L) as Et. rewrite app_nil_r in Et.
  exec_on L. destruct I. rewrite i_durable0 in *. cbn [mop_valid] in V.
  assert (Hd : d_snap s = 0 -> i <= g_pos s) by (intros _; exact V). inv_fields Et.
Qed.

Lemma INV_compact_save i s :
  INV s -> live s -> mop_valid (OCompactSave i) s -> INV (exec (OCompactSave i) s).
Proof.
  intros I L [-> V0]. pose proof (exec_applied (OCompactSave (g_pos s)) s L) as Et. rewrite app_nil_r in Et.
  exec_on L. destruct I.
  assert (Hgood : g_pos s <> 0 -> snap_good (g_pos s) (sm_hist s)).
  { intros _. split; [exact V0|]. split; [exact i_sorted0|]. split; [|exact i_complete0].
    apply (sound_weaken clog _ _ _ _ _ i_sound0); lia. }
  inv_fields Et. intro. lia.
Qed.

(* OSend, OEnqueue, ODequeue, OAccept touch nothing the invariant reads *)
Lemma INV_exec o s : INV s -> live s -> mop_valid o s -> INV (exec o s) /\ live (exec o s).
Proof.
  intros I L V. destruct (futs_op o) eqn:F.
  { pose proof (exec_core o s F) as C. split; [exact (INV_same_core _ _ C I) | exact (same_core_live _ _ C L)]. }
  destruct (exec_quiet o s L F) as (_ & _ & L'). pose proof (exec_applied o s L) as Et.
  destruct o as [hs ents snap| |ms|i c|c|idx| |t| |upto| |i|i]; try discriminate F;
    try (rewrite app_nil_r in Et; split; [|exact L']).
  - apply INV_save; assumption.
  - apply (INV_frame s); try exact Et; try exact I; exec_on L; destruct ms; reflexivity.
  - apply INV_restore; assumption.
  - split; [apply INV_call; assumption | exact L'].
  - apply INV_mark; assumption.
  - apply (INV_frame s); try exact Et; try exact I; exec_on L; reflexivity.
  - apply (INV_frame s); try exact Et; try exact I; exec_on L; reflexivity.
  - apply (INV_frame s); try exact Et; try exact I; exec_on L; reflexivity.
  - apply INV_compact_mark; assumption.
  - apply INV_compact_save; assumption.
Qed.

Lemma INV_exec_any o s : INV s -> (live s -> mop_valid o s) -> INV (exec o s).
Proof.
  intros I V. destruct (live_dec s) as [L|D].
  - apply INV_exec; [exact I | exact L | apply V, L].
  - rewrite exec_dead by exact D. exact I.
Qed.

(* also from a state that is not live (needed after a cut, exec_cut_SINV); valid_run of RaftDriver_steps is the
   live version, with the view equation *)
Lemma INV_exec_all ops : forall s, INV s -> valid_seq ops s -> INV (exec_all ops s).
Proof.
  induction ops as [|o r IH]; intros s I V; [exact I|].
  cbn [valid_seq] in V. destruct V as [V1 V2]. rewrite exec_all_cons. apply IH; [|exact V2].
  apply INV_exec_any; assumption.
Qed.

Lemma live_exec_all ops : forall s, INV s -> live s -> valid_seq ops s -> live (exec_all ops s).
Proof.
  induction ops as [|o r IH]; intros s I L V; [exact L|].
  cbn [valid_seq] in V. destruct V as [V1 V2]. rewrite exec_all_cons.
  destruct (INV_exec o s I L (V1 L)) as [I' L']. apply IH; assumption.
Qed.

Lemma INV_history s :
  INV s ->
  sorted (sm_hist s)
  /\ (forall e, In e (sm_hist s) -> e = clog (e_idx e) /\ is_normal e = true /\ 0 < e_idx e <= sm_idx s)
  /\ (forall i, 0 < i <= sm_idx s -> is_normal (clog i) = true -> In (clog i) (sm_hist s)).
Proof using Type.
  intros []. split; [assumption|]. split; [assumption|].
  intros i Hi Hn. apply i_complete0; [|exact Hn]. clear - Hi i_smpos0. lia.
Qed.

End Inv.

Lemma INV_applied_agree clog GS1 GS2 s1 s2 e1 e2 :
  INV clog GS1 s1 -> INV clog GS2 s2 ->
  In e1 (applied_tr (n_tr s1)) -> In e2 (applied_tr (n_tr s2)) -> e_idx e1 = e_idx e2 -> e1 = e2.
Proof.
  intros I1 I2 A1 A2 E.
  destruct (i_applied_sound _ _ _ I1 e1 A1) as (X1 & _). destruct (i_applied_sound _ _ _ I2 e2 A2) as (X2 & _).
  rewrite X1, X2, E. reflexivity.
Qed.

