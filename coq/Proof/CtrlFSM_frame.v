(* Proof/CtrlFSM_frame.v — the ApplyBatch frame theorems of C18, generic in the state type, the
   command type and the mutation function [mutate] (applyMutation), from an explicit handler
   contract: HC_blind (mutate ignores the checksum field), HC_pre (on ClusterState{}), HC_post
   (on a Good state), Good being an invariant that implies revision <> 0 and Validate.
   Proof/CtrlFSM_handlers.v discharges the contract.  Main result [frame_monitor]: for every
   log with strictly increasing indices and every well-formed scenario the observations of
   the frame satisfy [monitor_gen], the predicate the harness evaluates on the implementation. *)
From WK Require Import Base.Base Base.Lists.
From WK Require Import Gen.Consts_C18 Model.CtrlFSM Model.CtrlFSM_C18.
From Coq Require Import ZifyBool ZifyN ZifyNat.
Open Scope N_scope.

Lemma seq_head_bounds k j n : (k + S j <= n)%nat -> (k < n)%nat /\ (S k + j <= n)%nat.
Proof. lia. Qed.

Lemma of_nat_add c n : N.of_nat (c + N.to_nat n) = N.of_nat c + n.
Proof. rewrite Nat2N.inj_add, N2Nat.id. reflexivity. Qed.

Lemma skipn_nth {A} (d : A) l : forall c, (c < length l)%nat -> skipn c l = nth c l d :: skipn (S c) l.
Proof.
  induction l as [|x l IH]; intros c Hc; [inversion Hc|].
  destruct c as [|c]; [reflexivity|]. cbn [skipn nth]. rewrite IH by exact (proj2 (Nat.succ_lt_mono _ _) Hc). reflexivity.
Qed.

Lemma firstn_skipn_seq {A} (d : A) l : forall cnt c, (c + cnt <= length l)%nat ->
  firstn cnt (skipn c l) = map (fun k => nth k l d) (seq c cnt).
Proof.
  induction cnt as [|cnt IH]; intros c Hc; [reflexivity|]. destruct (seq_head_bounds _ _ _ Hc) as [Hc1 Hc2].
  rewrite (skipn_nth d) by exact Hc1. cbn [firstn seq map]. rewrite IH by exact Hc2. reflexivity.
Qed.

Lemma skipn_add {A} (l : list A) : forall a b, skipn (a + b) l = skipn b (skipn a l).
Proof.
  induction l as [|x l IH]; intros a b.
  - rewrite !skipn_nil. reflexivity.
  - destruct a as [|a]; [reflexivity|]. cbn [Nat.add skipn]. apply IH.
Qed.

Section FrameProof.
  Context {St C : Type}.
  Variable revision applied : St -> N.
  Variable set_app : St -> N -> St.
  Variable set_ck : St -> bytes -> St.
  Variable mutate : St -> N -> N -> C -> St * Result.
  Variable ck : St -> bytes.
  Variable empty : St.
  Variable valid ckok : St -> bool.
  Variable eqS body_eq logical_eq : St -> St -> bool.
  Variable Good : St -> Prop.

  Hypothesis rev_set_ck : forall s x, revision (set_ck s x) = revision s.
  Hypothesis app_set_ck : forall s x, applied (set_ck s x) = applied s.
  Hypothesis rev_set_app : forall s v, revision (set_app s v) = revision s.
  Hypothesis app_set_app : forall s v, applied (set_app s v) = v.
  Hypothesis set_ck_set_ck : forall s a b, set_ck (set_ck s a) b = set_ck s b.
  Hypothesis set_ck_set_app : forall s v x, set_ck (set_app s v) x = set_app (set_ck s x) v.
  Hypothesis ck_set_ck : forall s x, ck (set_ck s x) = ck s.
  Hypothesis rev_empty : revision empty = 0.
  Hypothesis app_empty : applied empty = 0.

  Hypothesis eqS_refl : forall s, eqS s s = true.
  Hypothesis body_eq_refl : forall s, body_eq s s = true.
  Hypothesis body_eq_set_app : forall a b v, body_eq (set_app a v) b = body_eq a b.
  Hypothesis body_eq_set_ck : forall a b x, body_eq (set_ck a x) b = body_eq a b.
  Hypothesis logical_eq_set_app : forall a b v, logical_eq (set_app a v) b = logical_eq a b.
  Hypothesis logical_eq_set_ck : forall a b x, logical_eq (set_ck a x) b = logical_eq a b.
  Hypothesis ckok_saved : forall s, ckok (set_ck s (ck s)) = true.

  Hypothesis Good_rev : forall s, Good s -> revision s <> 0.
  Hypothesis Good_valid : forall s, Good s -> valid s = true.
  Hypothesis Good_set_app : forall s v, Good s -> Good (set_app s v).
  Hypothesis Good_set_ck : forall s x, Good (set_ck s x) <-> Good s.

  Hypothesis HC_blind : forall s1 s2 i t c,
      set_ck s1 [] = set_ck s2 [] ->
      set_ck (fst (mutate s1 i t c)) [] = set_ck (fst (mutate s2 i t c)) []
      /\ snd (mutate s1 i t c) = snd (mutate s2 i t c).
  Hypothesis HC_pre : forall i t c,
      let s' := fst (mutate empty i t c) in
      let r := snd (mutate empty i t c) in
      (revision s' = 0 -> s' = empty /\ (r_class r = cNoop \/ r_class r = cRejected))
      /\ (revision s' <> 0 -> r_class r = cChanged /\ revision s' = 1 /\ applied s' <= i /\ Good s').
  Hypothesis HC_post : forall s i t c,
      Good s ->
      let s' := fst (mutate s i t c) in
      let r := snd (mutate s i t c) in
      Good s' /\ applied s' = applied s
      /\ (((r_class r = cNoop \/ r_class r = cRejected) /\ s' = s)
          \/ (r_class r = cChanged /\ revision s' = revision s + 1)
          \/ (r_class r = cUpdated /\ revision s' = revision s /\ logical_eq s' s = true)).

  (* AE/AL/AB: apply_entry, apply_loop, ApplyBatch of the model; a suffix k: on entry number k of
     the log; m: without the already-applied test *)
  Notation AE := (apply_entry revision applied set_app mutate).
  Notation AL := (apply_loop revision applied set_app mutate).
  Notation AB := (ApplyBatch revision applied set_app set_ck mutate ck).

  (* equal but for the checksum field *)
  Definition sim (a b : St) : Prop := set_ck a [] = set_ck b [].

  Lemma sim_refl a : sim a a. Proof. reflexivity. Qed.
  Lemma sim_sym a b : sim a b -> sim b a. Proof. unfold sim; intro H; symmetry; exact H. Qed.
  Lemma sim_trans a b c : sim a b -> sim b c -> sim a c.
  Proof. unfold sim; intros H1 H2; rewrite H1; exact H2. Qed.
  Lemma sim_set_ck a x : sim (set_ck a x) a.
  Proof. unfold sim. apply set_ck_set_ck. Qed.
  Lemma sim_rev a b : sim a b -> revision a = revision b.
  Proof. unfold sim; intro H. rewrite <- (rev_set_ck a []), H. apply rev_set_ck. Qed.
  Lemma sim_app a b : sim a b -> applied a = applied b.
  Proof. unfold sim; intro H. rewrite <- (app_set_ck a []), H. apply app_set_ck. Qed.
  Lemma sim_ck a b : sim a b -> ck a = ck b.
  Proof. unfold sim; intro H. rewrite <- (ck_set_ck a []), H. apply ck_set_ck. Qed.
  Lemma sim_set_ck_eq a b x : sim a b -> set_ck a x = set_ck b x.
  Proof. unfold sim; intro H. rewrite <- (set_ck_set_ck a [] x), H. apply set_ck_set_ck. Qed.
  Lemma sim_set_app a b v : sim a b -> sim (set_app a v) (set_app b v).
  Proof. unfold sim; intro H. rewrite !set_ck_set_app, H. reflexivity. Qed.
  Lemma sim_Good a b : sim a b -> Good a -> Good b.
  Proof.
    unfold sim; intros H G. apply (Good_set_ck b []). rewrite <- H. apply Good_set_ck. exact G.
  Qed.

  (* carries its own checksum: what Save was handed *)
  Definition ck_consistent (s : St) : Prop := set_ck s (ck s) = s.
  Lemma saved_consistent s : ck_consistent (set_ck s (ck s)).
  Proof. unfold ck_consistent. rewrite ck_set_ck, set_ck_set_ck. reflexivity. Qed.
  Lemma sim_saved a b : sim a b -> ck_consistent b -> set_ck a (ck a) = b.
  Proof.
    intros H Hc. rewrite (sim_ck _ _ H), (sim_set_ck_eq _ _ (ck b) H). exact Hc.
  Qed.

  (* apply_entry without the already-applied test: the else-branch of Model.apply_entry *)
  Definition AE_mut (next : St) (idx term : N) (cmd : C) : St * Result :=
    let '(n1, r) := mutate next idx term cmd in
    let n2 := if negb (revision n1 =? 0) && (applied n1 <? idx) then set_app n1 idx else n1 in
    let r2 := with_rev_applied r (revision n2) (applied n2) in
    let r3 := if (revision n2 =? 0) && (r_class r =? cRejected) then with_rev_applied r2 (r_rev r2) idx else r2 in
    (n2, r3).

  Lemma AE_is_mut f next idx term cmd :
    f = 0 \/ applied next < idx -> AE f next idx term cmd = AE_mut next idx term cmd.
  Proof.
    intro H. unfold apply_entry, AE_mut.
    destruct H as [->|H]; [reflexivity|]. rewrite (proj2 (N.leb_gt _ _) H), andb_false_r. reflexivity.
  Qed.

  Lemma AE_already f next idx term cmd :
    f <> 0 -> idx <= applied next ->
    AE f next idx term cmd = (next, already_applied revision applied next).
  Proof.
    intros Hf Hi. unfold apply_entry.
    rewrite (proj2 (N.eqb_neq _ _) Hf), (proj2 (N.leb_le _ _) Hi). reflexivity.
  Qed.

  Lemma AE_mut_sim a b idx term cmd :
    sim a b ->
    sim (fst (AE_mut a idx term cmd)) (fst (AE_mut b idx term cmd))
    /\ snd (AE_mut a idx term cmd) = snd (AE_mut b idx term cmd).
  Proof.
    intro H. unfold AE_mut.
    destruct (HC_blind a b idx term cmd H) as [Hs Hr].
    destruct (mutate a idx term cmd) as [na ra]. destruct (mutate b idx term cmd) as [nb rb].
    cbn [fst snd] in *. subst rb.
    fold (sim na nb) in Hs.
    rewrite (sim_rev _ _ Hs), (sim_app _ _ Hs).
    destruct (negb (revision nb =? 0) && (applied nb <? idx)) eqn:E; cbn [fst snd].
    - assert (Hs2 := sim_set_app _ _ idx Hs).
      rewrite (sim_rev _ _ Hs2), (sim_app _ _ Hs2). split; [exact Hs2 | reflexivity].
    - rewrite (sim_rev _ _ Hs), (sim_app _ _ Hs). split; [exact Hs | reflexivity].
  Qed.

  (* what a one-entry ApplyBatch publishes: the old state while the revision stays 0, else the
     candidate with its checksum *)
  Definition save_form (prev n2 : St) : St :=
    if revision n2 =? 0 then prev else set_ck n2 (ck n2).

  Variable log : list (N * N * C).
  Variable dflt : N * N * C.
  Definition ent (k : nat) : N * N * C := nth k log dflt.
  Definition idx (k : nat) : N := fst (fst (ent k)).
  Definition AEk (f : N) (s : St) (k : nat) : St * Result :=
    AE f s (fst (fst (ent k))) (snd (fst (ent k))) (snd (ent k)).
  Definition AEmk (s : St) (k : nat) : St * Result :=
    AE_mut s (fst (fst (ent k))) (snd (fst (ent k))) (snd (ent k)).

  Hypothesis increasing : forall i j, (i < j)%nat -> (j < length log)%nat -> idx i < idx j.

  Lemma AEm_empty k :
    let n2 := fst (AEmk empty k) in
    let r := snd (AEmk empty k) in
    (revision n2 = 0 -> n2 = empty /\ r_rev r = 0
                        /\ (r_class r = cNoop \/ r_class r = cRejected)
                        /\ r_applied r = (if r_class r =? cRejected then idx k else 0))
    /\ (revision n2 <> 0 -> r_class r = cChanged /\ revision n2 = 1 /\ applied n2 = idx k /\ Good n2
                            /\ r_rev r = 1 /\ r_applied r = idx k).
  Proof.
    cbv zeta. unfold AEmk, AE_mut, idx. destruct (ent k) as [[i t] c]. cbn [fst snd].
    pose proof (HC_pre i t c) as H. cbv zeta in H.
    destruct (mutate empty i t c) as [n1 r]. cbn [fst snd] in *.
    destruct H as [H0 H1].
    destruct (N.eq_dec (revision n1) 0) as [E|E].
    - destruct (H0 E) as [He Hc]. subst n1.
      rewrite rev_empty. cbn [N.eqb negb andb fst snd].
      rewrite rev_empty, app_empty. split; [|intro; congruence].
      intros _. split; [reflexivity|].
      destruct Hc as [Hc|Hc]; rewrite ?Hc; cbn; rewrite ?Hc; cbn; repeat split; auto.
    - destruct (H1 E) as (Hc & Hr & Ha & Hg).
      rewrite (proj2 (N.eqb_neq _ _) E). cbn [negb andb].
      split.
      + destruct (applied n1 <? i); cbn [fst]; rewrite ?rev_set_app; intro; congruence.
      + intros _. rewrite Hc.
        destruct (applied n1 <? i) eqn:El; cbn [fst snd].
        * rewrite rev_set_app, app_set_app, Hr. cbn.
          repeat split; auto.
        * apply N.ltb_ge in El. assert (applied n1 = i) by (apply N.le_antisymm; assumption).
          rewrite Hr, H. cbn. repeat split; auto.
  Qed.

  Lemma AEm_good s k :
    Good s -> applied s < idx k ->
    let n2 := fst (AEmk s k) in
    let r := snd (AEmk s k) in
    Good n2 /\ applied n2 = idx k /\ r_rev r = revision n2 /\ r_applied r = idx k
    /\ (((r_class r = cNoop \/ r_class r = cRejected) /\ n2 = set_app s (idx k))
        \/ (r_class r = cChanged /\ revision n2 = revision s + 1)
        \/ (r_class r = cUpdated /\ revision n2 = revision s /\ logical_eq n2 s = true)).
  Proof.
    cbv zeta. unfold AEmk, AE_mut, idx. destruct (ent k) as [[i t] c]. cbn [fst snd]. intros Hg Hlt.
    pose proof (HC_post s i t c Hg) as H. cbv zeta in H.
    destruct (mutate s i t c) as [n1 r]. cbn [fst snd] in *.
    destruct H as (Hg1 & Ha1 & Hcl).
    rewrite (proj2 (N.eqb_neq _ _) (Good_rev _ Hg1)), Ha1, (proj2 (N.ltb_lt _ _) Hlt). cbn [negb andb fst snd].
    rewrite rev_set_app, app_set_app, (proj2 (N.eqb_neq _ _) (Good_rev _ Hg1)). cbn [andb snd].
    split; [apply Good_set_app; exact Hg1|]. split; [reflexivity|].
    split; [reflexivity|]. split; [reflexivity|].
    destruct Hcl as [[Hc He]|[[Hc Hrv]|(Hc & Hrv & Hl)]].
    - left. split; [exact Hc|]. rewrite He. reflexivity.
    - right; left. split; [exact Hc | exact Hrv].
    - right; right. split; [exact Hc|]. split; [exact Hrv|]. rewrite logical_eq_set_app. exact Hl.
  Qed.

  (* S_k: the published state after k entries applied one at a time; R_k: the result of entry k *)
  Fixpoint Sref (k : nat) : St :=
    match k with
    | O => empty
    | S k' => save_form (Sref k') (fst (AEmk (Sref k') k'))
    end.
  Definition Rref (k : nat) : Result := snd (AEmk (Sref k) k).

  (* ClusterState{} until init; afterwards Good, saved, applied index = index of the last entry *)
  Definition Jinv (k : nat) : Prop :=
    (revision (Sref k) = 0 -> Sref k = empty)
    /\ (revision (Sref k) <> 0 ->
        Good (Sref k) /\ ck_consistent (Sref k) /\ (0 < k)%nat /\ applied (Sref k) = idx (k - 1)).

  Lemma applied_lt k : (k < length log)%nat -> Jinv k -> revision (Sref k) <> 0 -> applied (Sref k) < idx k.
  Proof.
    intros Hk [_ I1] E. destruct (I1 E) as (_ & _ & Hpos & Ha). rewrite Ha. apply increasing; [|exact Hk].
    apply Nat.sub_lt; [exact Hpos|exact Nat.lt_0_1].
  Qed.

  Record preinit_step (pre post : St) (r : Result) (i : N) : Prop := {
    pi_pre : pre = empty;
    pi_post : post = empty;
    pi_rev : r_rev r = 0;
    pi_class : r_class r = cNoop \/ r_class r = cRejected;
    pi_applied : r_applied r = (if r_class r =? cRejected then i else 0) }.

  Record saved_step (pre post : St) (r : Result) (i : N) : Prop := {
    ss_good : Good post;
    ss_consistent : ck_consistent post;
    ss_ckok : ckok post = true;
    ss_rev : r_rev r = revision post;
    ss_rapplied : r_applied r = i;
    ss_applied : applied post = i;
    ss_pre : applied pre <= i;
    ss_outcome : ((r_class r = cNoop \/ r_class r = cRejected) /\ body_eq post pre = true)
                 \/ (r_class r = cChanged /\ revision post = revision pre + 1)
                 \/ (r_class r = cUpdated /\ revision post = revision pre /\ logical_eq post pre = true) }.

  Lemma ref_step_cases k : (k < length log)%nat -> Jinv k ->
    (revision (Sref (S k)) = 0 /\ preinit_step (Sref k) (Sref (S k)) (Rref k) (idx k))
    \/ (revision (Sref (S k)) <> 0 /\ saved_step (Sref k) (Sref (S k)) (Rref k) (idx k)).
  Proof.
    intros Hk J. unfold Rref. cbn [Sref]. unfold save_form.
    destruct (N.eq_dec (revision (Sref k)) 0) as [Ek|Ek].
    - rewrite (proj1 J Ek).
      pose proof (AEm_empty k) as H. cbv zeta in H. destruct H as [H0 H1].
      destruct (N.eq_dec (revision (fst (AEmk empty k))) 0) as [E|E].
      + left. destruct (H0 E) as (Hn & Hrr & Hc & Hra).
        rewrite (proj2 (N.eqb_eq _ _) E). split; [exact rev_empty|]. split; auto.
      + right. destruct (H1 E) as (Hc & Hr1 & Ha & Hg & Hrr & Hra).
        rewrite (proj2 (N.eqb_neq _ _) E). rewrite rev_set_ck. split; [exact E|].
        split; rewrite ?rev_set_ck, ?app_set_ck, ?rev_empty, ?app_empty.
        * apply Good_set_ck; exact Hg.
        * apply saved_consistent.
        * apply ckok_saved.
        * congruence.
        * exact Hra.
        * exact Ha.
        * apply N.le_0_l.
        * right; left. split; [exact Hc|]. rewrite Hr1. reflexivity.
    - right. pose proof (applied_lt k Hk J Ek) as Hlt.
      pose proof (AEm_good (Sref k) k (proj1 (proj2 J Ek)) Hlt) as H. cbv zeta in H.
      destruct H as (Hg2 & Ha2 & Hrr & Hra & Hcl).
      pose proof (Good_rev _ Hg2) as Hr2.
      rewrite (proj2 (N.eqb_neq _ _) Hr2), rev_set_ck. split; [exact Hr2|].
      split; rewrite ?rev_set_ck, ?app_set_ck.
      + apply Good_set_ck; exact Hg2.
      + apply saved_consistent.
      + apply ckok_saved.
      + exact Hrr.
      + exact Hra.
      + exact Ha2.
      + apply N.lt_le_incl, Hlt.
      + destruct Hcl as [[Hc He]|[[Hc Hrv]|(Hc & Hrv & Hl)]].
        * left. split; [exact Hc|]. rewrite body_eq_set_ck, He, body_eq_set_app. apply body_eq_refl.
        * right; left. split; assumption.
        * right; right. split; [exact Hc|]. split; [exact Hrv|]. rewrite logical_eq_set_ck. exact Hl.
  Qed.

  Lemma Jinv_all k : (k <= length log)%nat -> Jinv k.
  Proof.
    induction k as [|k IH]; intro Hk.
    - split; [reflexivity|]. intro H. exfalso. exact (H rev_empty).
    - destruct (ref_step_cases k Hk (IH (Nat.lt_le_incl _ _ Hk))) as [[E P]|[E S]].
      + split; [intros _; exact (pi_post _ _ _ _ P)|intro H; contradiction].
      + split; [intro H; contradiction|intros _]. rewrite Nat.sub_1_r. cbn [Nat.pred].
        split; [exact (ss_good _ _ _ _ S)|]. split; [exact (ss_consistent _ _ _ _ S)|].
        split; [apply Nat.lt_0_succ|exact (ss_applied _ _ _ _ S)].
  Qed.

  Definition ref_step k (Hk : (k < length log)%nat) := ref_step_cases k Hk (Jinv_all k (Nat.lt_le_incl _ _ Hk)).

  Lemma Sref_zero h : (h <= length log)%nat -> revision (Sref h) = 0 -> Sref h = empty.
  Proof. intro Hh. exact (proj1 (Jinv_all h Hh)). Qed.

  Lemma Sref_rev_mono_le j k : (j <= k)%nat -> (k <= length log)%nat ->
                               revision (Sref j) <> 0 -> revision (Sref k) <> 0.
  Proof.
    intros Hjk Hk E. induction Hjk as [|k Hjk IH]; [exact E|].
    destruct (ref_step k Hk) as [[_ P]|[E' _]]; [pose proof (pi_pre _ _ _ _ P) as Hpre|exact E'].
    exfalso. apply (IH (Nat.lt_le_incl _ _ Hk)). rewrite Hpre. exact rev_empty.
  Qed.

  Lemma Sref_zero_empty j k : (j <= k)%nat -> (k <= length log)%nat ->
                              revision (Sref k) = 0 -> Sref j = empty.
  Proof.
    intros Hjk Hk E. apply Sref_zero; [exact (Nat.le_trans _ _ _ Hjk Hk)|].
    destruct (N.eq_dec (revision (Sref j)) 0) as [E0|E0]; [exact E0|].
    exfalso. exact (Sref_rev_mono_le j k Hjk Hk E0 E).
  Qed.

  (* on the reference run the already-applied test never fires *)
  Lemma AE_ref k : (k < length log)%nat -> AEk (revision (Sref k)) (Sref k) k = AEmk (Sref k) k.
  Proof using All.
    intro Hk. unfold AEk, AEmk. apply AE_is_mut.
    destruct (N.eq_dec (revision (Sref k)) 0) as [E|E]; [left; exact E|right].
    exact (applied_lt k Hk (Jinv_all k (Nat.lt_le_incl _ _ Hk)) E).
  Qed.

  (* inside a batch the state is S_(k+1) but for the checksum; at revision 0 it is ClusterState{} *)
  Lemma step_unsaved k : (k < length log)%nat ->
    let n2 := fst (AEmk (Sref k) k) in
    sim n2 (Sref (S k)) /\ (revision n2 = 0 -> Sref k = empty /\ n2 = empty).
  Proof.
    intro Hk. cbv zeta. pose proof (Jinv_all k (Nat.lt_le_incl _ _ Hk)) as J.
    assert (Hz : revision (fst (AEmk (Sref k) k)) = 0 -> Sref k = empty /\ fst (AEmk (Sref k) k) = empty).
    { intro E. destruct (N.eq_dec (revision (Sref k)) 0) as [Ek|Ek].
      - pose proof (proj1 J Ek) as He. split; [exact He|]. rewrite He in *.
        pose proof (AEm_empty k) as H. cbv zeta in H. exact (proj1 (proj1 H E)).
      - exfalso. pose proof (AEm_good (Sref k) k (proj1 (proj2 J Ek)) (applied_lt k Hk J Ek)) as H.
        cbv zeta in H. exact (Good_rev _ (proj1 H) E). }
    split; [|exact Hz]. cbn [Sref]. unfold save_form.
    destruct (N.eq_dec (revision (fst (AEmk (Sref k) k))) 0) as [E|E].
    - rewrite (proj2 (N.eqb_eq _ _) E). destruct (Hz E) as [He Hn]. rewrite Hn, He. apply sim_refl.
    - rewrite (proj2 (N.eqb_neq _ _) E). apply sim_sym, sim_set_ck.
  Qed.

  Notation ALk f s l := (AL f s (map ent l)).

  Lemma AL_cons f s k l :
    ALk f s (k :: l) = (fst (ALk f (fst (AEk f s k)) l), snd (AEk f s k) :: snd (ALk f (fst (AEk f s k)) l)).
  Proof.
    cbn [map apply_loop]. unfold AEk. destruct (ent k) as [[i t] c]. cbn [fst snd].
    destruct (AE f s i t c) as [n r]. cbn [fst snd]. destruct (AL f n (map ent l)); reflexivity.
  Qed.

  (* what entry k yields when (re-)applied to a machine holding S_h: [expected_result] of
     Model/CtrlFSM_C18.v over positions *)
  Definition exp_result (h k : nat) : Result :=
    if (k <? h)%nat && negb (revision (Sref h) =? 0)
    then Rs cNoop ReasonAlreadyApplied (revision (Sref h)) (applied (Sref h)) [] 0
    else Rref k.

  Lemma exp_result_fresh h k : (h <= k)%nat -> exp_result h k = Rref k.
  Proof. intro H. unfold exp_result. rewrite (proj2 (Nat.ltb_ge _ _) H). reflexivity. Qed.

  Lemma replay_entry h k :
    (k < h)%nat -> (h <= length log)%nat ->
    AEk (revision (Sref h)) (Sref h) k = (Sref h, exp_result h k).
  Proof.
    intros Hk Hh. unfold exp_result. rewrite (proj2 (Nat.ltb_lt _ _) Hk). cbn [andb].
    assert (Hkl : (k < length log)%nat) by (exact (Nat.lt_le_trans _ _ _ Hk Hh)).
    destruct (N.eq_dec (revision (Sref h)) 0) as [E|E].
    - (* before init: S_k = S_(k+1) = S_h = ClusterState{}, the entry is applied again *)
      rewrite (proj2 (N.eqb_eq _ _) E). cbn [negb].
      unfold AEk. rewrite AE_is_mut by (left; exact E). fold (AEmk (Sref h) k).
      pose proof (Sref_zero_empty k h (Nat.lt_le_incl _ _ Hk) Hh E) as Ek.
      rewrite (Sref_zero h Hh E), <- Ek.
      destruct (step_unsaved k Hkl) as [Hs Hz].
      apply injective_projections; [cbn [fst]|reflexivity].
      assert (E2 : revision (fst (AEmk (Sref k) k)) = 0)
        by (rewrite (sim_rev _ _ Hs), (Sref_zero_empty (S k) h Hk Hh E); exact rev_empty).
      rewrite (proj2 (Hz E2)). symmetry. exact Ek.
    - rewrite (proj2 (N.eqb_neq _ _) E). cbn [negb].
      unfold AEk. rewrite AE_already; [reflexivity|exact E|].
      destruct (proj2 (Jinv_all h Hh) E) as (_ & _ & Hpos & Ha). rewrite Ha.
      destruct (Nat.eq_dec k (h - 1)) as [->|Hne]; [apply N.le_refl|].
      apply N.lt_le_incl, increasing; clear - Hk Hh Hne; lia.
  Qed.

  Lemma fresh_entry h j cand :
    (h <= j)%nat -> (j < length log)%nat ->
    sim cand (Sref j) -> (revision cand = 0 -> cand = empty) ->
    let p := AEk (revision (Sref h)) cand j in
    snd p = Rref j /\ sim (fst p) (Sref (S j)) /\ (revision (fst p) = 0 -> fst p = empty).
  Proof.
    intros Hhj Hj Hsim Hz. cbv zeta.
    assert (Hmut : AEk (revision (Sref h)) cand j = AEmk cand j).
    { unfold AEk, AEmk. apply AE_is_mut.
      destruct (N.eq_dec (revision (Sref h)) 0) as [E|E]; [left; exact E|right].
      rewrite (sim_app _ _ Hsim).
      exact (applied_lt j Hj (Jinv_all j (Nat.lt_le_incl _ _ Hj))
                        (Sref_rev_mono_le h j Hhj (Nat.lt_le_incl _ _ Hj) E)). }
    rewrite Hmut.
    destruct (AE_mut_sim cand (Sref j) (fst (fst (ent j))) (snd (fst (ent j))) (snd (ent j)) Hsim) as [Hs Hr].
    fold (AEmk cand j) in Hs, Hr. fold (AEmk (Sref j) j) in Hs, Hr.
    destruct (step_unsaved j Hj) as [Hs2 Hz2].
    split; [exact Hr|]. split; [exact (sim_trans _ _ _ Hs Hs2)|].
    intro E0. rewrite (sim_rev _ _ Hs) in E0. destruct (Hz2 E0) as [He Hn].
    rewrite (Hz ltac:(rewrite (sim_rev _ _ Hsim), He; exact rev_empty)). rewrite He in Hn. exact Hn.
  Qed.

  (* the candidate state inside a batch that started on S_h, before entry c: S_h itself while
     entries are replayed, then S_c but for the checksum *)
  Definition in_batch (h c : nat) (cand : St) : Prop :=
    ((c <= h)%nat -> cand = Sref h)
    /\ ((h <= c)%nat -> sim cand (Sref c) /\ (revision cand = 0 -> cand = empty)).

  Lemma in_batch_start h c : (c <= h)%nat -> (h <= length log)%nat -> in_batch h c (Sref h).
  Proof.
    intros Hc Hh. split; [reflexivity|]. intro H. rewrite (Nat.le_antisymm _ _ Hc H).
    split; [apply sim_refl|apply Sref_zero; exact Hh].
  Qed.

  Lemma in_batch_end h e cand : (h <= length log)%nat -> in_batch h e cand ->
    sim cand (Sref (Nat.max h e)) /\ (revision cand = 0 -> cand = empty).
  Proof.
    intros Hh [Hrep Hfr]. destruct (Nat.le_ge_cases e h) as [H|H].
    - rewrite (Nat.max_l _ _ H), (Hrep H). split; [apply sim_refl|apply Sref_zero; exact Hh].
    - rewrite (Nat.max_r _ _ H). exact (Hfr H).
  Qed.

  Lemma in_batch_entry h c cand : (h <= length log)%nat -> (c < length log)%nat -> in_batch h c cand ->
    let p := AEk (revision (Sref h)) cand c in snd p = exp_result h c /\ in_batch h (S c) (fst p).
  Proof.
    intros Hh Hc [Hrep Hfr]. cbv zeta. destruct (le_lt_dec h c) as [Hle|Hlt].
    - destruct (Hfr Hle) as [Hsim Hz].
      destruct (fresh_entry h c cand Hle Hc Hsim Hz) as (Hr & Hs & Hz').
      rewrite exp_result_fresh by exact Hle. split; [exact Hr|]. split; [|intros _; split; assumption].
      intro H. exfalso. exact (Nat.lt_irrefl _ (Nat.le_trans _ _ _ H Hle)).
    - rewrite (Hrep (Nat.lt_le_incl _ _ Hlt)), replay_entry by assumption. cbn [fst snd].
      split; [reflexivity|]. apply in_batch_start; assumption.
  Qed.

  Lemma batch_loop h : (h <= length log)%nat -> forall cnt c cand,
    (c + cnt <= length log)%nat -> in_batch h c cand ->
    let p := ALk (revision (Sref h)) cand (seq c cnt) in
    snd p = map (exp_result h) (seq c cnt) /\ in_batch h (c + cnt) (fst p).
  Proof.
    intro Hh. induction cnt as [|cnt IH]; intros c cand Hc Hin; cbv zeta.
    - cbn [seq map apply_loop fst snd]. rewrite Nat.add_0_r. split; [reflexivity|exact Hin].
    - destruct (seq_head_bounds _ _ _ Hc) as [Hc1 Hc2]. cbn [seq]. rewrite AL_cons. cbn [fst snd map].
      destruct (in_batch_entry h c cand Hh Hc1 Hin) as [Hr Hin'].
      destruct (IH (S c) _ Hc2 Hin') as [IHr IHin].
      rewrite Hr, IHr, Nat.add_succ_r. split; [reflexivity|exact IHin].
  Qed.

  Definition store_of (k : nat) : option St :=
    if revision (Sref k) =? 0 then None else Some (Sref k).

  Lemma store_of_zero k : revision (Sref k) = 0 -> store_of k = None.
  Proof. intro E. unfold store_of. rewrite (proj2 (N.eqb_eq _ _) E). reflexivity. Qed.
  Lemma store_of_nz k : revision (Sref k) <> 0 -> store_of k = Some (Sref k).
  Proof. intro E. unfold store_of. rewrite (proj2 (N.eqb_neq _ _) E). reflexivity. Qed.

  (* published S_h, persisted S_hs; [refM k] is the machine after k entries, all Saves succeeding *)
  Definition mach (h hs : nat) (dg : bool) : Machine St := Mk (Sref h) (store_of hs) dg.
  Definition refM (k : nat) : Machine St := Mk (Sref k) (store_of k) false.

  Lemma refM_zero_eq j k : (j <= k)%nat -> (k <= length log)%nat -> revision (Sref k) = 0 -> refM j = refM k.
  Proof.
    intros Hjk Hk E. unfold refM.
    assert (Ej : Sref j = empty) by (apply (Sref_zero_empty j k); assumption).
    rewrite (store_of_zero k E). rewrite store_of_zero by (rewrite Ej; exact rev_empty).
    rewrite Ej, (Sref_zero k Hk E). reflexivity.
  Qed.

  Lemma restart_mach h hs dg : (hs <= length log)%nat -> restart empty (mach h hs dg) = refM hs.
  Proof.
    intro Hhs. unfold restart, mach, refM. cbn [m_store]. unfold store_of.
    destruct (revision (Sref hs) =? 0) eqn:E; [|reflexivity].
    rewrite (Sref_zero hs Hhs (proj1 (N.eqb_eq _ _) E)). reflexivity.
  Qed.

  Lemma take_seq c cnt : (N.to_nat c + N.to_nat cnt <= length log)%nat ->
    take_entries log c cnt = map ent (seq (N.to_nat c) (N.to_nat cnt)).
  Proof. intro H. unfold take_entries. apply (firstn_skipn_seq dflt). exact H. Qed.

  (* entries c .. c+cnt on the machine after h entries (c <= h: a replay): the Save fails, leaving
     S_h published, or the machine is the one after h' = max h (c+cnt) entries *)
  Lemma AB_ref h c cnt mode h' :
    (c <= h)%nat -> (h <= length log)%nat -> (c + cnt <= length log)%nat -> h' = Nat.max h (c + cnt) ->
    AB (refM h) mode (map ent (seq c cnt)) =
      if negb (mode =? 0) && negb (revision (Sref h') =? 0)
      then (mach h (if mode =? 1 then h else h') true,
            BO (map (exp_result h) (seq c cnt)) true None (Some (Sref h')))
      else (refM h', BO (map (exp_result h) (seq c cnt)) false (Some (Sref h')) (store_of h')).
  Proof.
    intros Hc Hh Hn ->. unfold ApplyBatch.
    change (m_state (refM h)) with (Sref h). change (m_store (refM h)) with (store_of h).
    destruct (batch_loop h Hh cnt c (Sref h) Hn (in_batch_start h c Hc Hh)) as (Hr & Hin).
    apply (in_batch_end h _ _ Hh) in Hin. destruct Hin as [Hs Hz].
    destruct (AL (revision (Sref h)) (Sref h) (map ent (seq c cnt))) as [N' rs]. cbn [fst snd] in *.
    subst rs. rewrite (sim_rev _ _ Hs).
    set (h' := Nat.max h (c + cnt)%nat) in *.
    assert (HT : (h' <= length log)%nat) by (apply Nat.max_lub; assumption).
    destruct (N.eq_dec (revision (Sref h')) 0) as [E|E].
    - rewrite (proj2 (N.eqb_eq _ _) E), andb_false_r.
      rewrite (refM_zero_eq h h' (Nat.le_max_l _ _) HT E), (store_of_zero _ E).
      rewrite (Hz ltac:(rewrite (sim_rev _ _ Hs); exact E)), (Sref_zero h' HT E). reflexivity.
    - rewrite (proj2 (N.eqb_neq _ _) E), andb_true_r.
      destruct (proj2 (Jinv_all _ HT) E) as (_ & Hck & _).
      rewrite (sim_saved _ _ Hs Hck). unfold refM, mach.
      destruct (mode =? 0); [|destruct (mode =? 1)]; rewrite ?(store_of_nz _ E); reflexivity.
  Qed.

  Notation RUN := (run_cmds revision applied set_app set_ck mutate ck empty log).
  Notation BSTEP := (batch_step revision applied set_app set_ck mutate ck log).

  Definition refO (k : nat) : Step St :=
    ST 0 1 0 [Rref k] false (Some (Sref (S k))) (store_of (S k)) (Sref (S k)) (store_of (S k)) false.

  Lemma BSTEP_refM h c cnt mode h' :
    (c <= h)%nat -> (h <= length log)%nat -> (c + N.to_nat cnt <= length log)%nat -> h' = Nat.max h (c + N.to_nat cnt) ->
    BSTEP (refM h) (N.of_nat c) cnt mode =
      let res := map (exp_result h) (seq c (N.to_nat cnt)) in
      if negb (mode =? 0) && negb (revision (Sref h') =? 0)
      then let hs := if mode =? 1 then h else h' in
           (mach h hs true, ST 0 cnt mode res true None (Some (Sref h')) (Sref h) (store_of hs) true)
      else (refM h', ST 0 cnt mode res false (Some (Sref h')) (store_of h') (Sref h') (store_of h') false).
  Proof.
    intros Hc Hh Hlen E. unfold batch_step. rewrite take_seq by (rewrite Nat2N.id; exact Hlen).
    rewrite Nat2N.id, (AB_ref h c (N.to_nat cnt) mode h' Hc Hh Hlen E).
    destruct (negb (mode =? 0) && negb (revision (Sref h') =? 0)); reflexivity.
  Qed.

  Lemma BSTEP_ref k : (k < length log)%nat -> BSTEP (refM k) (N.of_nat k) 1 0 = (refM (S k), refO k).
  Proof.
    intro Hk. rewrite (BSTEP_refM k k 1 0 (S k)) by (clear - Hk; lia).
    cbv zeta. change (N.to_nat 1) with 1%nat. cbn [N.eqb negb andb seq map].
    rewrite exp_result_fresh by apply Nat.le_refl. reflexivity.
  Qed.

  Lemma run_singles : forall j k, (k + j <= length log)%nat ->
    RUN (refM k) (N.of_nat k) (repeat (CBatch 1 0) j) = map refO (seq k j).
  Proof.
    induction j as [|j IH]; intros k Hk; [reflexivity|]. destruct (seq_head_bounds _ _ _ Hk) as [Hk1 Hk2].
    cbn [repeat run_cmds seq map]. rewrite BSTEP_ref by exact Hk1.
    cbn [st_err refO]. rewrite N.add_1_r, <- Nat2N.inj_succ.
    rewrite IH by exact Hk2. reflexivity.
  Qed.

  Definition ref_obs : list (Step St) := map refO (seq 0 (length log)).
  Definition ref_states : list St := empty :: map st_pub ref_obs.
  Definition ref_results : list Result := map (fun s => hd no_outcome (st_results s)) ref_obs.

  Lemma Sk_ref k : (k <= length log)%nat -> Sk empty ref_states (N.of_nat k) = Sref k.
  Proof.
    intro Hk. unfold Sk, ref_states, ref_obs. rewrite Nat2N.id.
    destruct k as [|k]; [reflexivity|]. cbn [nth]. rewrite map_map.
    exact (nth_map_seq (fun x => st_pub (refO x)) _ k empty Hk).
  Qed.

  Lemma Rk_ref k : (k < length log)%nat -> Rk ref_results (N.of_nat k) = Rref k.
  Proof.
    intro Hk. unfold Rk, ref_results, ref_obs. rewrite Nat2N.id. rewrite map_map.
    exact (nth_map_seq (fun x => hd no_outcome (st_results (refO x))) _ k no_outcome Hk).
  Qed.

  Notation CHECK_REF_STEP := (check_ref_step revision applied valid ckok eqS body_eq logical_eq).
  Notation CHECK_REF := (check_ref revision applied valid ckok eqS body_eq logical_eq).

  Lemma check_ref_step_ok k : (k < length log)%nat -> CHECK_REF_STEP (Sref k) (idx k) (refO k) = true.
  Proof.
    intro Hk. unfold check_ref_step, refO.
    cbn [st_kind st_n st_mode st_err st_degraded st_results st_pub st_final st_store st_saved N.eqb negb andb].
    unfold oo_eq. rewrite eqS_refl. cbn [andb].
    destruct (ref_step k Hk) as [[E [Hpre Hpost Hrr Hc Hra]]|[E [Hg _ Hck Hrr Hra Hap Hle Hcl]]].
    - rewrite (store_of_zero _ E). rewrite Hrr, Hra, Hpre, Hpost, rev_empty, app_empty.
      cbn [N.eqb oo_none andb]. rewrite eqS_refl. cbn [andb].
      destruct Hc as [Hc|Hc]; rewrite Hc; cbn; rewrite ?N.eqb_refl; cbn; apply body_eq_refl.
    - rewrite (store_of_nz _ E). rewrite Hrr, Hra, Hap, N.eqb_refl, (proj2 (N.eqb_neq _ _) E).
      rewrite (Good_valid _ Hg), Hck, !N.eqb_refl, eqS_refl. rewrite N.max_r by exact Hle. rewrite N.eqb_refl.
      cbn [andb].
      destruct Hcl as [[Hc He]|[[Hc Hrv]|(Hc & Hrv & Hl)]].
      + rewrite He. destruct Hc as [Hc|Hc]; rewrite Hc; reflexivity.
      + rewrite Hc, Hrv. cbn. apply N.eqb_refl.
      + rewrite Hc, Hrv, Hl. cbn. rewrite N.eqb_refl. reflexivity.
  Qed.

  Lemma check_ref_ok : forall j k, (k + j <= length log)%nat ->
    CHECK_REF (Sref k) (map idx (seq k j)) (map refO (seq k j)) = true.
  Proof.
    induction j as [|j IH]; intros k Hk; [reflexivity|].
    destruct (seq_head_bounds _ _ _ Hk) as [Hk1 Hk2].
    cbn [seq map check_ref]. rewrite check_ref_step_ok by exact Hk1. cbn [andb refO st_pub]. apply IH. exact Hk2.
  Qed.

  Notation CHECK_STEPS := (check_steps revision applied eqS empty ref_states ref_results (lenN log)).

  Lemma results_eqb_refl l : list_eqb Result_eqb l l = true.
  Proof.
    apply list_eqb_refl. intro r. unfold Result_eqb. rewrite !N.eqb_refl, bytes_eqb_refl.
    unfold TSums_eqb. rewrite list_eqb_refl; [reflexivity|].
    intro x. unfold TSum_eqb. rewrite bytes_eqb_refl, !Bool.eqb_reflx. reflexivity.
  Qed.

  Lemma expected_results_eq h : (h <= length log)%nat -> forall cnt c, (c + cnt <= length log)%nat ->
    expected_results revision applied empty ref_states ref_results (N.of_nat h) (N.of_nat c) cnt
    = map (exp_result h) (seq c cnt).
  Proof.
    intro Hh. induction cnt as [|cnt IH]; intros c Hc; [reflexivity|].
    destruct (seq_head_bounds _ _ _ Hc) as [Hc1 Hc2].
    cbn [expected_results seq map]. rewrite N.add_1_r, <- Nat2N.inj_succ.
    rewrite IH by exact Hc2. f_equal.
    unfold expected_result, exp_result. rewrite Sk_ref by exact Hh. rewrite Rk_ref by exact Hc1.
    replace (N.of_nat c <? N.of_nat h) with (c <? h)%nat; [reflexivity|].
    clear. destruct (Nat.ltb_spec c h); symmetry; [apply N.ltb_lt|apply N.ltb_ge]; lia.
  Qed.

  Lemma expected_store_ok k : (k <= length log)%nat ->
    expected_store revision eqS empty ref_states (N.of_nat k) (store_of k) = true.
  Proof.
    intro Hk. unfold expected_store. rewrite Sk_ref by exact Hk. unfold store_of.
    destruct (revision (Sref k) =? 0); [reflexivity|]. cbn. apply eqS_refl.
  Qed.

  (* batches stay inside the log, a failed Save is followed by a restart, a restart replays from an
     acknowledged position.  Whether a store mode <> 0 makes the batch fail depends on the run
     (nothing is saved while the revision is 0): hence the reference to [Sref] *)
  Fixpoint wf_cmds (c h hs : nat) (dg : bool) (cmds : list cmdstep) : Prop :=
    match cmds with
    | [] => True
    | CBatch cnt mode :: r =>
      dg = false /\ (c + N.to_nat cnt <= length log)%nat
      /\ let h' := Nat.max h (c + N.to_nat cnt) in
         if negb (mode =? 0) && negb (revision (Sref h') =? 0)
         then wf_cmds c h (if mode =? 1 then hs else h') true r
         else wf_cmds (c + N.to_nat cnt) h' h' false r
    | CRestart c' :: r => (N.to_nat c' <= hs)%nat /\ wf_cmds (N.to_nat c') hs hs false r
    end.

  Ltac simp_obs :=
    cbn [tr_c tr_h tr_hs st_kind st_n st_mode st_results st_err st_degraded st_pub st_final st_saved st_store
         bo_results bo_err bo_final bo_saved m_state m_store m_degraded mach refM N.eqb Pos.eqb fst snd].

  Notation CHECK_STEP := (check_step revision applied eqS empty ref_states ref_results (lenN log)).

  Lemma check_step_batch h c cnt mode h' :
    (c <= h)%nat -> (h <= length log)%nat -> (c + N.to_nat cnt <= length log)%nat -> h' = Nat.max h (c + N.to_nat cnt) ->
    CHECK_STEP (TRK (N.of_nat c) (N.of_nat h) (N.of_nat h)) (snd (BSTEP (refM h) (N.of_nat c) cnt mode)) =
      Some (if negb (mode =? 0) && negb (revision (Sref h') =? 0)
            then TRK (N.of_nat c) (N.of_nat h) (N.of_nat (if mode =? 1 then h else h'))
            else TRK (N.of_nat (c + N.to_nat cnt)) (N.of_nat h') (N.of_nat h')).
  Proof.
    intros Hc Hh Hlen E. rewrite (BSTEP_refM h c cnt mode h' Hc Hh Hlen E). cbv zeta.
    assert (Hh' : (h' <= length log)%nat) by (rewrite E; apply Nat.max_lub; assumption).
    assert (EN : N.max (N.of_nat h) (N.of_nat c + cnt) = N.of_nat h')
      by (rewrite E, <- of_nat_add; symmetry; apply Nat2N.inj_max).
    assert (Hexp := expected_results_eq h Hh (N.to_nat cnt) c Hlen).
    assert (Hlenb : (N.of_nat c + cnt <=? lenN log) = true) by (clear - Hlen; unfold lenN; lia).
    destruct (negb (mode =? 0) && negb (revision (Sref h') =? 0)) eqn:F;
      [destruct (mode =? 1) eqn:M1|];
      unfold check_step; simp_obs;
      rewrite EN, Hlenb, !Sk_ref by assumption; rewrite Hexp, results_eqb_refl, F, ?M1;
      cbn [negb andb oo_none]; unfold oo_eq; rewrite !eqS_refl; cbn [andb].
    - rewrite expected_store_ok by exact Hh. reflexivity.
    - rewrite expected_store_ok by exact Hh'. reflexivity.
    - rewrite expected_store_ok by exact Hh'. unfold store_of.
      destruct (revision (Sref h') =? 0); cbn [oo_none andb]; rewrite ?eqS_refl, <- of_nat_add; reflexivity.
  Qed.

  Lemma scen_ok : forall cmds c h hs dg,
    (c <= h)%nat -> (h <= length log)%nat -> (hs <= length log)%nat -> (dg = false -> hs = h) ->
    wf_cmds c h hs dg cmds ->
    CHECK_STEPS (TRK (N.of_nat c) (N.of_nat h) (N.of_nat hs)) (RUN (mach h hs dg) (N.of_nat c) cmds) = true.
  Proof.
    induction cmds as [|cmd cmds IH]; intros c h hs dg Hc Hh Hhs Hnd Hwf; [reflexivity|].
    destruct cmd as [cnt mode|c'].
    - cbn [wf_cmds] in Hwf. destruct Hwf as (-> & Hlen & Hwf). cbv zeta in Hwf.
      rewrite (Hnd eq_refl) in *. clear Hnd hs Hhs.
      set (h' := Nat.max h (c + N.to_nat cnt)%nat) in *.
      assert (Hh' : (h' <= length log)%nat) by (apply Nat.max_lub; assumption).
      pose proof (check_step_batch h c cnt mode h' Hc Hh Hlen eq_refl) as Hcs.
      cbn [run_cmds]. change (mach h h false) with (refM h).
      rewrite (BSTEP_refM h c cnt mode h' Hc Hh Hlen eq_refl) in Hcs |- *. cbv zeta in Hcs |- *.
      destruct (negb (mode =? 0) && negb (revision (Sref h') =? 0)); cbn [snd] in Hcs; cbn [check_steps st_err]; rewrite Hcs.
      + destruct (mode =? 1); apply IH; try assumption; discriminate.
      + rewrite <- of_nat_add.
        exact (IH (c + N.to_nat cnt)%nat h' h' false (Nat.le_max_r _ _) Hh' Hh' (fun _ => eq_refl) Hwf).
    - cbn [wf_cmds] in Hwf. destruct Hwf as (Hc' & Hwf).
      cbn [run_cmds]. unfold restart_step. rewrite (restart_mach h hs dg Hhs).
      cbn [check_steps]. unfold check_step. simp_obs. cbn [is_empty negb andb].
      rewrite Sk_ref by exact Hhs. rewrite eqS_refl, expected_store_ok by exact Hhs.
      rewrite (proj2 (N.leb_le _ _)) by (clear - Hc'; lia). cbn [andb].
      rewrite <- (N2Nat.id c') at 1 2.
      exact (IH (N.to_nat c') hs hs false Hc' Hhs Hhs (fun _ => eq_refl) Hwf).
  Qed.

  Definition scen_wf (cmds : list cmdstep) : Prop := wf_cmds 0 0 0 false cmds.

  Lemma fresh_refM : fresh empty = refM 0.
  Proof. unfold refM, store_of, fresh. cbn [Sref]. rewrite rev_empty. reflexivity. Qed.

  Lemma ent_seq : map ent (seq 0 (length log)) = log.
  Proof. unfold ent. rewrite <- (firstn_skipn_seq dflt) by apply Nat.le_refl. apply firstn_all. Qed.

  Theorem frame_monitor (scens : list (list cmdstep)) :
    Forall scen_wf scens ->
    monitor_gen revision applied valid ckok eqS body_eq logical_eq empty
                (map (fun e => fst (fst e)) log)
                (RUN (fresh empty) 0 (repeat (CBatch 1 0) (length log)))
                (map (RUN (fresh empty) 0) scens) = true.
  Proof.
    intro Hwf. unfold monitor_gen. rewrite fresh_refM. change 0 with (N.of_nat 0).
    rewrite run_singles by apply Nat.le_refl. fold ref_obs. fold ref_states. fold ref_results.
    apply andb_true_iff. split.
    - rewrite <- ent_seq at 1. rewrite map_map. apply (check_ref_ok (length log) 0), Nat.le_refl.
    - apply forallb_forall. intros ss Hin. apply in_map_iff in Hin. destruct Hin as (cmds & <- & Hin).
      rewrite Forall_forall in Hwf. specialize (Hwf cmds Hin).
      unfold check_scen, lenN. rewrite map_length.
      exact (scen_ok cmds 0 0 0 false (Nat.le_0_l _) (Nat.le_0_l _) (Nat.le_0_l _) (fun _ => eq_refl) Hwf).
  Qed.

  Notation PARTS := (apply_parts revision applied set_app set_ck mutate ck).

  Lemma parts_from : forall parts c, (c <= length log)%nat -> concat parts = skipn c log ->
    PARTS (refM c) parts = (refM (length log), map Rref (seq c (length log - c))).
  Proof.
    induction parts as [|p parts IH]; intros c Hc Hcat.
    - cbn [concat] in Hcat. assert (Hl : length (skipn c log) = 0%nat) by (rewrite <- Hcat; reflexivity).
      rewrite skipn_length in Hl. assert (c = length log) by (clear - Hc Hl; lia). subst c.
      rewrite Nat.sub_diag. reflexivity.
    - cbn [concat] in Hcat.
      assert (Hlen : (c + length p <= length log)%nat).
      { assert (Hl : length (skipn c log) = (length p + length (concat parts))%nat) by (rewrite <- Hcat; apply app_length).
        rewrite skipn_length in Hl. clear - Hc Hl. lia. }
      assert (Hp : p = map ent (seq c (length p))).
      { unfold ent. rewrite <- (firstn_skipn_seq dflt) by exact Hlen. rewrite <- Hcat. symmetry. apply firstn_app_exact. }
      assert (Hrest : concat parts = skipn (c + length p) log).
      { rewrite skipn_add, <- Hcat. symmetry. apply skipn_app_exact. }
      cbn [apply_parts]. rewrite Hp at 1.
      rewrite (AB_ref c c (length p) 0 (c + length p)) by (clear - Hc Hlen; lia). cbn [N.eqb negb andb].
      rewrite (IH (c + length p)%nat Hlen Hrest). cbn [bo_results].
      rewrite (map_ext_in _ _ _ (fun k Hk => exp_result_fresh c k (proj1 (proj1 (in_seq _ _ _) Hk)))).
      rewrite <- map_app, <- seq_app. do 3 f_equal. clear - Hlen. lia.
  Qed.

  (* any partition of the log into batches gives the machine (published state, persisted state)
     and the per-entry results of applying the entries one at a time *)
  Theorem partition_invariant parts :
    concat parts = log ->
    PARTS (fresh empty) parts = PARTS (fresh empty) (map (fun e => [e]) log).
  Proof.
    intro Hcat. rewrite fresh_refM.
    rewrite (parts_from parts 0 (Nat.le_0_l _) Hcat).
    rewrite (parts_from (map (fun e => [e]) log) 0 (Nat.le_0_l _)); [reflexivity|].
    cbn [skipn]. clear. induction log as [|x l IH]; [reflexivity|]. cbn [map concat app]. rewrite IH. reflexivity.
  Qed.

  (* after a restart from the persisted S_h (revision <> 0) re-applying applied entries gives
     already_applied no-ops and changes nothing *)
  Theorem replay_noop h c cnt :
    (h <= length log)%nat -> (c + cnt <= h)%nat -> revision (Sref h) <> 0 ->
    AB (restart empty (refM h)) 0 (map ent (seq c cnt))
    = (refM h, BO (repeat (already_applied revision applied (Sref h)) cnt) false (Some (Sref h)) (Some (Sref h))).
  Proof.
    intros Hh Hc E. rewrite (restart_mach h h false Hh : restart empty (refM h) = refM h).
    rewrite (AB_ref h c cnt 0 h) by (clear - Hh Hc; lia). cbn [N.eqb negb andb]. rewrite (store_of_nz _ E).
    do 2 f_equal. clear - Hc E. revert c Hc. induction cnt as [|cnt IH]; intros c Hc; [reflexivity|].
    destruct (seq_head_bounds _ _ _ Hc) as [Hc1 Hc2].
    cbn [seq map repeat]. rewrite IH by exact Hc2. f_equal. unfold exp_result, already_applied.
    rewrite (proj2 (Nat.ltb_lt _ _) Hc1), (proj2 (N.eqb_neq _ _) E). reflexivity.
  Qed.

  (* before init a restart finds nothing persisted; re-applying gives the same results *)
  Theorem replay_preinit h c cnt :
    (h <= length log)%nat -> (c + cnt <= h)%nat -> revision (Sref h) = 0 ->
    AB (restart empty (refM h)) 0 (map ent (seq c cnt))
    = (refM h, BO (map Rref (seq c cnt)) false (Some empty) None).
  Proof.
    intros Hh Hc E. rewrite (restart_mach h h false Hh : restart empty (refM h) = refM h).
    rewrite (AB_ref h c cnt 0 h) by (clear - Hh Hc; lia). cbn [N.eqb negb andb].
    rewrite (store_of_zero _ E), (Sref_zero h Hh E).
    do 2 f_equal. apply map_ext_in. intros k Hk. unfold exp_result.
    rewrite (Sref_zero h Hh E), rev_empty, andb_false_r. reflexivity.
  Qed.
End FrameProof.
