(* Proof/ChanAppend_shard.v — writer creation and reclaim in one shard (shard.go
   getOrCreate / reclaimIdleWritersLocked, writer.go idleExpired): the sweep only
   removes writers that own no admitted, unfinished send, so at every moment a
   channel has AT MOST ONE writer holding such work — the "single scheduled writer
   per channel" the ordering clause of C29 relies on.  With the idleness test
   replaced by "nothing runnable right now" the statement is false. *)
From WK Require Import Base.Base Base.Lists Gen.Consts_C29 Model.ChanAppend Proof.ChanAppend_writer.
Open Scope N_scope.

Lemma wmap_set_keys ch w m :
  map fst (wmap_set ch w m) = if existsb (N.eqb ch) (map fst m) then map fst m else map fst m ++ [ch].
Proof.
  induction m as [|[k v] m IH]; cbn [wmap_set map fst existsb]; [reflexivity|].
  rewrite (N.eqb_sym ch k). destruct (k =? ch) eqn:E; cbn [orb map fst]; [reflexivity|].
  rewrite IH. destruct (existsb (N.eqb ch) (map fst m)); reflexivity.
Qed.

Lemma nodup_snoc {A} (l : list A) x : NoDup l -> ~ In x l -> NoDup (l ++ [x]).
Proof.
  intros H Hx. apply NoDup_app_intro; [exact H|repeat constructor; intros []|].
  intros y Hy [<-|[]]. exact (Hx Hy).
Qed.

Lemma wmap_set_nodup ch w m : NoDup (map fst m) -> NoDup (map fst (wmap_set ch w m)).
Proof.
  intro H. rewrite wmap_set_keys. destruct (existsb (N.eqb ch) (map fst m)) eqn:E; [exact H|].
  apply nodup_snoc; [exact H|].
  intro Hin. assert (X : existsb (N.eqb ch) (map fst m) = true).
  { apply existsb_exists. exists ch. split; [exact Hin|apply N.eqb_refl]. }
  congruence.
Qed.

(* what the sweep may remove: unscheduled writers without work *)
Definition harmless (w : swriter) : Prop := has_work w = false /\ sw_scheduled w = false.

Lemma expired_harmless w now ret : idleExpired w now ret = true -> harmless w.
Proof.
  unfold idleExpired, idleExpired_with, harmless, has_work.
  destruct ((ret <=? 0)%Z); cbn [orb]; [discriminate|].
  destruct (sw_scheduled w); [discriminate|].
  destruct (writer_idle w); cbn [negb]; [|discriminate]. auto.
Qed.

Lemma harmless_finish w n : harmless w -> sw_finish w n = w.
Proof.
  intros [H _]. unfold has_work, writer_idle in H. apply negb_false_iff in H.
  apply andb_true_iff in H. destruct H as [_ H]. apply negb_true_iff in H.
  unfold hasPendingWork in H. apply orb_false_iff in H. destruct H as [H _].
  apply orb_false_iff in H. destruct H as [H _]. apply orb_false_iff in H. destruct H as [_ H].
  unfold sw_finish. rewrite H. reflexivity.
Qed.

Record SInv (s : shard) : Prop := {
  si_keys : NoDup (map fst (sh_writers s));
  si_orphans : forall p, In p (sh_orphans s) -> harmless (snd p) }.

Lemma set_nth_same {A} k (x : A) l : nth_error l k = Some x -> set_nth k x l = l.
Proof.
  revert k. induction l as [|y l IH]; intros k H; [destruct k; discriminate|].
  destruct k as [|k]; cbn [set_nth nth_error] in *; [inversion H; reflexivity|]. f_equal. apply IH. exact H.
Qed.

Lemma sstep_inv s e : SInv s -> SInv (sstep writer_idle s e).
Proof.
  intros [K O]. destruct e as [ch items|ch|ch n|k n|k|d]; cbn [sstep].
  - destruct (wmap_get ch (sh_writers s)) as [w|].
    + constructor; cbn [sh_writers sh_orphans]; [apply wmap_set_nodup; exact K|exact O].
    + constructor; cbn [sh_writers sh_orphans].
      * apply wmap_set_nodup. apply NoDup_map_filter. exact K.
      * intros p Hp. apply in_app_iff in Hp. destruct Hp as [Hp|Hp]; [apply O; exact Hp|].
        apply filter_In in Hp. destruct Hp as [_ Hp]. eapply expired_harmless. exact Hp.
  - destruct (wmap_get ch (sh_writers s)) as [w|]; [|constructor; assumption].
    destruct (sw_scheduled w); [|constructor; assumption].
    constructor; cbn [sh_writers sh_orphans]; [apply wmap_set_nodup; exact K|exact O].
  - destruct (wmap_get ch (sh_writers s)) as [w|]; [|constructor; assumption].
    constructor; cbn [sh_writers sh_orphans]; [apply wmap_set_nodup; exact K|exact O].
  - destruct (nth_error (sh_orphans s) k) as [[ch w]|] eqn:E; [|constructor; assumption].
    pose proof (O _ (nth_error_In _ _ E)) as Hh. cbn [snd] in Hh.
    rewrite (harmless_finish w n Hh), (set_nth_same _ _ _ E). destruct s; constructor; assumption.
  - destruct (nth_error (sh_orphans s) k) as [[ch w]|] eqn:E; [|constructor; assumption].
    pose proof (O _ (nth_error_In _ _ E)) as [_ Hs]. cbn [snd] in Hs. rewrite Hs. constructor; assumption.
  - constructor; assumption.
Qed.

Lemma srun_inv ret hw limit evs : SInv (srun writer_idle ret hw limit evs).
Proof.
  unfold srun. assert (H : SInv (Shard [] [] 1 ret hw limit)) by (constructor; [constructor|intros p []]).
  revert H. generalize (Shard [] [] 1 ret hw limit). induction evs as [|e evs IH]; intros s H; cbn [fold_left]; [exact H|].
  apply IH. apply sstep_inv. exact H.
Qed.

(* the writers of channel [ch] — mapped or already swept — that still own unfinished work *)
Definition working_writers (s : shard) (ch : N) : list (N * swriter) :=
  filter (fun p => (fst p =? ch) && has_work (snd p)) (sh_writers s ++ sh_orphans s).

Lemma filter_key_le1 (f : swriter -> bool) (ch : N) (m : list (N * swriter)) :
  NoDup (map fst m) -> (length (filter (fun p : N * swriter => (fst p =? ch)%N && f (snd p)) m) <= 1)%nat.
Proof.
  induction m as [|[k w] m IH]; intro H; cbn [filter length]; [lia|].
  cbn [map fst] in H. inversion H as [|x l Hx Hnd]; subst. cbn [fst snd].
  destruct (k =? ch) eqn:E; cbn [andb]; [|apply IH; exact Hnd].
  apply N.eqb_eq in E. subst k.
  assert (Hz : filter (fun p : N * swriter => (fst p =? ch) && f (snd p)) m = []).
  { apply filter_none. intros [k v] Hp. cbn [fst snd]. destruct (k =? ch) eqn:E; [|reflexivity].
    apply N.eqb_eq in E. subst k. destruct Hx. apply (in_map fst) in Hp. exact Hp. }
  destruct (f w); [rewrite Hz; cbn; lia|apply IH; exact Hnd].
Qed.

Theorem single_working_writer : forall ret hw limit evs ch,
  (length (working_writers (srun writer_idle ret hw limit evs) ch) <= 1)%nat.
Proof.
  intros ret hw limit evs ch. destruct (srun_inv ret hw limit evs) as [K O].
  unfold working_writers. rewrite filter_app, app_length.
  assert (Hz : filter (fun p : N * swriter => (fst p =? ch) && has_work (snd p))
                      (sh_orphans (srun writer_idle ret hw limit evs)) = []).
  { apply filter_none. intros p Hp. destruct (O p Hp) as [Hw _]. rewrite Hw. apply andb_false_r. }
  rewrite Hz. cbn [length]. pose proof (filter_key_le1 has_work ch _ K). lia.
Qed.

(* seeded change C29-b: a writer with an append in flight is swept, the channel gets a second one *)
Definition idle_nothing_runnable (w : swriter) : bool := negb (hasRunnableWorkLocked w).

Definition reclaim_witness : list sev :=
  let it := fun i => [PSend 0 0 dflt_cmd i false 0 i] in
  [SSubmit 1 (it 1); SAdvance 1; SSubmit 1 (it 2); SAdvance 1; STick 100;
   SSubmit 2 (it 9); SSubmit 1 (it 3)].

Theorem single_working_writer_refuted :
  length (working_writers (srun idle_nothing_runnable 10 0 1 reclaim_witness) 1) = 2%nat.
Proof. vm_compute. reflexivity. Qed.

(* ... while the code's test keeps the one writer on the same events *)
Example reclaim_witness_code :
  length (working_writers (srun writer_idle 10 0 1 reclaim_witness) 1) = 1%nat
  /\ sh_orphans (srun writer_idle 10 0 1 reclaim_witness) = [].
Proof. vm_compute. split; reflexivity. Qed.
