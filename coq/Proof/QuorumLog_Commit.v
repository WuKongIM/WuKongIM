(* Proof/QuorumLog_Commit.v — structural lemmas about the owner's Commit and runDurableRound
   (Model/QuorumLog.v) shared by the proofs of C01..C04 and by the lifting of Proof/Cluster_Lift.v:
   the replica map of a network, what a durability round does to the network (a lifting lemma: it
   only submits to its followers) and reports (success needs a durable local write), and every path
   Commit can take (admission, then commit_shape). *)
From WK Require Import Base.Base Base.Lists.
From WK Require Import Model.ReplicaLog Model.QuorumLog Proof.ReplicaLog.
From Coq Require Import Permutation.
Open Scope N_scope.

Lemma get_rep_put l v r v' : get_rep (put_rep l v r) v' = if v' =? v then r else get_rep l v'.
Proof. apply (node_get_put _ replica_empty get_rep put_rep); reflexivity. Qed.

Lemma get_rep_init (vs : list N) v : get_rep (map (fun x => (x, replica_empty)) vs) v = replica_empty.
Proof. apply (node_get_init _ replica_empty get_rep); reflexivity. Qed.

Lemma net_rep_set n v r v' : net_rep (net_set n v r) v' = if v' =? v then r else net_rep n v'.
Proof. unfold net_rep, net_set. cbn. apply get_rep_put. Qed.

Lemma net_set_fields n v r :
  nt_kind (net_set n v r) = nt_kind n /\ nt_down (net_set n v r) = nt_down n /\
  nt_flt (net_set n v r) = nt_flt n /\ nt_replaced (net_set n v r) = nt_replaced n.
Proof. repeat split. Qed.

Lemma submitReplica_other n local v p n' o w :
  submitReplica n local v p = (n', o) -> w <> v -> net_rep n' w = net_rep n w.
Proof.
  unfold submitReplica. intros H Hw.
  destruct (unreachable n local v); [inversion H; reflexivity|].
  destruct (negb (net_known n v) || negb (replicate_request_valid (dp_leader p) v p)); [inversion H; reflexivity|].
  destruct (sync (nt_kind n) (net_rep n v) (dp_mutation p)) as [[rp o1] nf].
  assert (Hset : net_rep (net_set n v rp) w = net_rep n w).
  { rewrite net_rep_set. destruct (w =? v) eqn:E; [apply N.eqb_eq in E; contradiction | reflexivity]. }
  destruct (memN v (fl_lose (nt_flt n))); [inversion H; subst; exact Hset|].
  destruct o1; try (inversion H; subst; exact Hset).
  destruct (0 <? nf); inversion H; subst; exact Hset.
Qed.

(* the round only ever submits to the followers it was given: whatever every such submission does to the
   network (a preorder [R]), the loop does *)
Section RoundLift.
  Variables (R : net -> net -> Prop) (P : N -> Prop) (local : N) (p : dproposal).
  Hypothesis R_refl : forall n, R n n.
  Hypothesis R_trans : forall a b c, R a b -> R b c -> R a c.
  Hypothesis R_submit : forall n v n' o, P v -> submitReplica n local v p = (n', o) -> R n n'.

  Lemma submit_all_lift : forall vs n q n' q',
    (forall v, In v vs -> P v) -> submit_all n local p vs q = (n', q') -> R n n'.
  Proof.
    induction vs as [|v vs IH]; intros n q n' q' HP H; cbn in H; [injection H as <- _; apply R_refl|].
    destruct (submitReplica n local v p) as [n1 o] eqn:E.
    eapply R_trans; [eapply R_submit; [apply HP; left; reflexivity | exact E]|].
    eapply IH; [|exact H]. intros x Hx. apply HP. right. exact Hx.
  Qed.

  Lemma round_loop_lift : forall fuel n wq queue next ld votes out cf lf n' res,
    (forall v, In v next -> P v) ->
    round_loop fuel n local wq p queue next ld votes out cf lf = (n', res) -> R n n'.
  Proof.
    induction fuel as [|fuel IH]; intros n wq queue next ld votes out cf lf n' res HP H; cbn in H;
      [injection H as <- _; apply R_refl|].
    destruct queue as [|[isLocal o] queue']; [injection H as <- _; apply R_refl|].
    destruct (_ && _).
    - destruct (submit_all n local p next []) as [n1 q1] eqn:E. injection H as <- _. eapply submit_all_lift; eauto.
    - destruct (isLocal && negb (outcome_durable o)).
      + destruct (submit_all n local p next queue') as [n1 q1] eqn:E.
        eapply R_trans; [eapply submit_all_lift; eauto | eapply IH; [|exact H]]. intros v [].
      + destruct (_ && _ && _); [|eapply IH; eauto].
        destruct next as [|v next']; [eapply IH; eauto|].
        destruct (submitReplica n local v p) as [n1 o1] eqn:E.
        eapply R_trans; [eapply R_submit; [apply HP; left; reflexivity | exact E]|].
        eapply IH; [|exact H]. intros x Hx. apply HP. right. exact Hx.
  Qed.
End RoundLift.

Lemma submit_all_other local p w vs n q n' q' :
  submit_all n local p vs q = (n', q') -> ~ In w vs -> net_rep n' w = net_rep n w.
Proof.
  intros H Hin. apply (submit_all_lift (fun a b => net_rep b w = net_rep a w) (fun v => w <> v) local p) in H; auto.
  - intros a b c H1 H2. congruence.
  - intros a v b o Hv E. eapply submitReplica_other; eauto.
  - intros v Hv ->. contradiction.
Qed.

(* what the result loop reports: success means a durable local vote, at least wq durable votes and outcome
   Durable; a durable local vote was in the queue (or already counted) *)
Definition local_durable (x : bool * outcome) : bool := fst x && outcome_durable (snd x).

Lemma submit_all_local local p : forall vs n q n' q',
  submit_all n local p vs q = (n', q') -> existsb local_durable q' = existsb local_durable q.
Proof.
  induction vs as [|v vs IH]; intros n q n' q' H; cbn in H; [injection H as _ <-; reflexivity|].
  destruct (submitReplica n local v p) as [n1 o1]. rewrite (IH _ _ _ _ H), existsb_app. apply orb_false_r.
Qed.

Lemma round_loop_result : forall fuel n local wq p queue next ld votes out cf lf n' res,
  round_loop fuel n local wq p queue next ld votes out cf lf = (n', res) ->
  (rr_ok res = true -> rr_local res = true /\ wq <=? rr_votes res = true /\ rr_outcome res = ODurable) /\
  (rr_local res = true -> ld || existsb local_durable queue = true).
Proof.
  induction fuel as [|fuel IH]; intros n local wq p queue next ld votes out cf lf n' res H; cbn in H;
    [injection H as _ <-; cbn; split; [discriminate | intros ->; reflexivity]|].
  destruct queue as [|[isLocal o] queue']; [injection H as _ <-; cbn; split; [discriminate | intros ->; reflexivity]|].
  set (ld' := ld || (outcome_durable o && isLocal)) in *.
  assert (Hpop : ld || existsb local_durable ((isLocal, o) :: queue') = ld' || existsb local_durable queue').
  { unfold ld', local_durable at 1. cbn. rewrite (andb_comm isLocal), orb_assoc. reflexivity. }
  rewrite Hpop.
  destruct (ld' && (wq <=? _)) eqn:Hq.
  - destruct (submit_all n local p next []) as [n1 q1]. injection H as _ <-. cbn.
    apply andb_true_iff in Hq. destruct Hq as [-> Hq]. auto.
  - destruct (isLocal && negb (outcome_durable o)).
    + destruct (submit_all n local p next queue') as [n1 q1] eqn:Hs.
      rewrite <- (submit_all_local _ _ _ _ _ _ _ Hs). eapply IH; eauto.
    + destruct (_ && _ && _); [|eapply IH; eauto].
      destruct next as [|v next']; [eapply IH; eauto|].
      destruct (submitReplica n local v p) as [n1 o1].
      destruct (IH _ _ _ _ _ _ _ _ _ _ _ _ _ H) as [I2 I3]. split; [exact I2|].
      intro X. specialize (I3 X). rewrite existsb_app in I3. cbn in I3. rewrite orb_false_r in I3. exact I3.
Qed.

Lemma rotate_Permutation {A} : forall k (l : list A), Permutation (rotate l k) l.
Proof.
  induction k as [|k IH]; intro l; cbn; [reflexivity|].
  destruct l as [|x r]; [reflexivity|]. rewrite IH. symmetry. apply Permutation_cons_append.
Qed.

(* the followers of a round are the voters without the local node, in some order *)
Lemma round_followers_perm voters local rot :
  Permutation (round_followers voters local rot) (filter (fun v => negb (v =? local)) voters).
Proof. unfold round_followers. destruct (1 <? lenN _); [apply rotate_Permutation | reflexivity]. Qed.

Lemma round_followers_In voters local rot v :
  In v (round_followers voters local rot) <-> In v voters /\ v <> local.
Proof.
  rewrite <- N.eqb_neq, <- negb_true_iff. rewrite <- (filter_In (fun v => negb (v =? local))).
  split; apply Permutation_in; [|symmetry]; apply round_followers_perm.
Qed.

Lemma round_followers_not_local voters local rot : ~ In local (round_followers voters local rot).
Proof. rewrite round_followers_In. tauto. Qed.

Lemma round_followers_NoDup voters local rot : NoDup voters -> NoDup (round_followers voters local rot).
Proof.
  intro H. eapply Permutation_NoDup; [symmetry; apply round_followers_perm | apply NoDup_filter; exact H].
Qed.

Lemma round_followers_length voters local rot : (length (round_followers voters local rot) <= length voters)%nat.
Proof.
  rewrite (Permutation_length (round_followers_perm voters local rot)).
  induction voters as [|v vs IH]; cbn; [lia|]. destruct (negb (v =? local)); cbn; lia.
Qed.

(* runDurableRound: the local replica is written by the local submission only; a successful
   round had a durable local completion, at least wq durable votes, and outcome Durable *)
Lemma runDurableRound_local n local voters wq rot p n' res :
  runDurableRound n local voters wq rot p = (n', res) ->
  exists n1 o1, submitLocal n local p = (n1, o1) /\
    net_rep n' local = net_rep n1 local /\
    (rr_ok res = true -> rr_local res = true /\ wq <=? rr_votes res = true /\ rr_outcome res = ODurable) /\
    (rr_local res = true -> outcome_durable o1 = true).
Proof.
  unfold runDurableRound. cbv zeta. intro H.
  destruct (submitLocal n local p) as [n1 o1] eqn:E1. exists n1, o1. split; [reflexivity|].
  destruct (submit_all n1 local p (firstn (N.to_nat (wq - 1)) (round_followers voters local rot)) [(true, o1)])
    as [n2 queue] eqn:E2.
  pose proof (round_followers_not_local voters local rot) as Hnl.
  destruct (round_loop_result _ _ _ _ _ _ _ _ _ _ _ _ _ _ H) as [I2 I3].
  split; [|split; [exact I2|]].
  - (* the loop submits to followers only *)
    apply (round_loop_lift (fun a b => net_rep b local = net_rep a local) (fun v => local <> v) local p) in H.
    + rewrite H. eapply submit_all_other; eauto. intro X. apply Hnl. eapply In_firstn; eauto.
    + reflexivity.
    + intros a b c H1 H2. congruence.
    + intros a v b o Hv E. eapply submitReplica_other; eauto.
    + intros v Hv ->. apply Hnl. eapply In_skipn; eauto.
  - (* the only local completion in the queue is the local submission *)
    intro X. specialize (I3 X). rewrite (submit_all_local _ _ _ _ _ _ _ E2) in I3. cbn in I3.
    rewrite orb_false_r in I3. exact I3.
Qed.

Lemma submitLocal_effect n local p n1 o1 :
  submitLocal n local p = (n1, o1) ->
  (net_rep n1 local = net_rep n local /\ outcome_durable o1 = false) \/
  (exists rp o nf, sync (nt_kind n) (net_rep n local) (dp_mutation p) = (rp, o, nf) /\
                   net_rep n1 local = rp /\ (outcome_durable o1 = true -> o1 = o)).
Proof.
  unfold submitLocal. destruct (memN local (fl_drop (nt_flt n))).
  - intro H. inversion H; subst. left. auto.
  - destruct (sync (nt_kind n) (net_rep n local) (dp_mutation p)) as [[rp o] nf] eqn:E.
    intro H. right. exists rp, o, nf. split; [reflexivity|].
    destruct (memN local (fl_lose (nt_flt n))); inversion H; subst;
      (split; [rewrite net_rep_set, N.eqb_refl; reflexivity|]); [discriminate | auto].
Qed.

Lemma authid_eqb_eq (a b : authid) : authid_eqb a b = true <-> a = b.
Proof.
  destruct a as [[e t] f], b as [[e' t'] f']. unfold authid_eqb, aid_e, aid_t, aid_f. cbn [fst snd].
  rewrite !andb_true_iff, !N.eqb_eq. split.
  - intros [[-> ->] ->]. reflexivity.
  - intros H. inversion H. auto.
Qed.

Lemma authid_eqb_refl (a : authid) : authid_eqb a a = true.
Proof. apply authid_eqb_eq. reflexivity. Qed.

Lemma authid_eqb_neq (a b : authid) : authid_eqb a b = false <-> a <> b.
Proof.
  split.
  - intros H E. apply authid_eqb_eq in E. congruence.
  - intros H. destruct (authid_eqb a b) eqn:E; [apply authid_eqb_eq in E; contradiction | reflexivity].
Qed.

Definition commit_admitted (cfg : qconfig) (st : qchannel) (a : authority) (p : proposal) : Prop :=
  (authid_eqb (pr_expected p) authid_zero || tag_is_zero (pr_cmd p) || (lenN (pr_records p) =? 0) ||
   (cf_maxrecs cfg <? lenN (pr_records p)) || negb (validProposalRecords (pr_records p))) = false /\
  qc_ready st = true /\ qc_auth st = Some a /\ authid_eqb (pr_expected p) (a_id a) = true /\ a_wf a = false.

Inductive commit_shape (cfg : qconfig) (n : net) (st : qchannel) (local : N) (p : proposal) (a : authority)
  : net -> qchannel -> commit_result -> Prop :=
| CS_retained_conflict rt :
    get_retained (qc_retained st) (pr_cmd p) = Some rt -> sameProposalContent (rt_prop rt) (pr_records p) = false ->
    commit_shape cfg n st local p a n st (CErr EConflict)
| CS_retained_hit rt :
    get_retained (qc_retained st) (pr_cmd p) = Some rt -> sameProposalContent (rt_prop rt) (pr_records p) = true ->
    rt_durable rt = true -> commit_shape cfg n st local p a n st (COk (rt_receipt rt))
| CS_retained_retry rt n' st' r :
    get_retained (qc_retained st) (pr_cmd p) = Some rt -> sameProposalContent (rt_prop rt) (pr_records p) = true ->
    rt_durable rt = false -> retryPending cfg n st a local rt = (n', st', r) ->
    commit_shape cfg n st local p a n' st' r
| CS_pending_conflict pend :
    get_retained (qc_retained st) (pr_cmd p) = None -> qc_pending st = Some pend ->
    tag_eqb (m_cmd (dp_manifest (rt_prop pend))) (pr_cmd p) = true ->
    sameProposalContent (rt_prop pend) (pr_records p) = false ->
    commit_shape cfg n st local p a n st (CErr EConflict)
| CS_pending_retry pend n' st' r :
    get_retained (qc_retained st) (pr_cmd p) = None -> qc_pending st = Some pend ->
    tag_eqb (m_cmd (dp_manifest (rt_prop pend))) (pr_cmd p) = true ->
    sameProposalContent (rt_prop pend) (pr_records p) = true ->
    retryPending cfg n st a local pend = (n', st', r) ->
    commit_shape cfg n st local p a n' st' r
| CS_backpressured pend :
    get_retained (qc_retained st) (pr_cmd p) = None -> qc_pending st = Some pend ->
    tag_eqb (m_cmd (dp_manifest (rt_prop pend))) (pr_cmd p) = false ->
    commit_shape cfg n st local p a n st (CErr EBackpressured)
| CS_seal_failed :
    get_retained (qc_retained st) (pr_cmd p) = None -> qc_pending st = None ->
    sealBusinessProposal a (qc_frontier st) (qc_hw st) (pr_cmd p) (pr_records p) (pr_sa p) = None ->
    commit_shape cfg n st local p a n st (CErr EInvalid)
| CS_round_failed d n' res :
    get_retained (qc_retained st) (pr_cmd p) = None -> qc_pending st = None ->
    sealBusinessProposal a (qc_frontier st) (qc_hw st) (pr_cmd p) (pr_records p) (pr_sa p) = Some d ->
    runDurableRound n local (a_voters a) (a_q a) (cf_rot cfg) d = (n', res) ->
    rr_ok res = false -> rr_outcome res <> OConflict ->
    commit_shape cfg n st local p a n' (set_pending st (Some (Retained d receipt_zero false))) (CErr EQuorumUnavailable)
| CS_reconcile d n' res st3 out :
    get_retained (qc_retained st) (pr_cmd p) = None -> qc_pending st = None ->
    sealBusinessProposal a (qc_frontier st) (qc_hw st) (pr_cmd p) (pr_records p) (pr_sa p) = Some d ->
    runDurableRound n local (a_voters a) (a_q a) (cf_rot cfg) d = (n', res) ->
    rr_ok res = false -> rr_outcome res = OConflict ->
    reconcileCommandConflict cfg n' (set_pending (set_pending st (Some (Retained d receipt_zero false))) None) a local p = (st3, out) ->
    commit_shape cfg n st local p a n' st3 out
| CS_finish d n' res st2 out :
    get_retained (qc_retained st) (pr_cmd p) = None -> qc_pending st = None ->
    sealBusinessProposal a (qc_frontier st) (qc_hw st) (pr_cmd p) (pr_records p) (pr_sa p) = Some d ->
    runDurableRound n local (a_voters a) (a_q a) (cf_rot cfg) d = (n', res) ->
    rr_ok res = true ->
    finishCommit cfg (set_pending st (Some (Retained d receipt_zero false))) a (Retained d receipt_zero false) res = (st2, out) ->
    commit_shape cfg n st local p a n' st2 out.

Lemma Commit_shape cfg n st local p a n' st' r :
  commit_admitted cfg st a p -> Commit cfg n st local p = (n', st', r) ->
  commit_shape cfg n st local p a n' st' r.
Proof.
  intros (Hv & Hrd & Hau & Hex & Hwf). unfold Commit. rewrite Hv, Hrd, Hau, Hex, Hwf. cbn [negb].
  destruct (get_retained (qc_retained st) (pr_cmd p)) as [rt|] eqn:Hget.
  - destruct (sameProposalContent (rt_prop rt) (pr_records p)) eqn:Hs; cbn [negb].
    + destruct (rt_durable rt) eqn:Hd.
      * intro H. inversion H; subst. eapply CS_retained_hit; eauto.
      * intro H. eapply CS_retained_retry; eauto.
    + intro H. inversion H; subst. eapply CS_retained_conflict; eauto.
  - destruct (qc_pending st) as [pend|] eqn:Hp.
    + destruct (tag_eqb (m_cmd (dp_manifest (rt_prop pend))) (pr_cmd p)) eqn:Ht.
      * destruct (sameProposalContent (rt_prop pend) (pr_records p)) eqn:Hs; cbn [negb].
        -- intro H. eapply CS_pending_retry; eauto.
        -- intro H. inversion H; subst. eapply CS_pending_conflict; eauto.
      * intro H. inversion H; subst. eapply CS_backpressured; eauto.
    + destruct (sealBusinessProposal a (qc_frontier st) (qc_hw st) (pr_cmd p) (pr_records p) (pr_sa p)) as [d|] eqn:Hseal.
      2:{ intro H. inversion H; subst. eapply CS_seal_failed; eauto. }
      destruct (runDurableRound n local (a_voters a) (a_q a) (cf_rot cfg) d) as [n1 res] eqn:Hr.
      destruct (rr_ok res) eqn:Hok; cbn [negb].
      * destruct (finishCommit cfg (set_pending st (Some (Retained d receipt_zero false))) a
                               (Retained d receipt_zero false) res) as [st2 out] eqn:Hf.
        intro H. inversion H; subst. eapply CS_finish; eauto.
      * destruct (rr_outcome res) eqn:Ho;
          try (intro H; inversion H; subst; eapply CS_round_failed; eauto; rewrite Ho; discriminate).
        destruct (reconcileCommandConflict cfg n1 _ a local p) as [st3 out] eqn:Hrec.
        intro H. inversion H; subst. eapply CS_reconcile; eauto.
Qed.

(* Commit either refuses the proposal at admission, touching nothing, or takes one of the paths above *)
Lemma Commit_cases cfg n st local p n' st' r :
  Commit cfg n st local p = (n', st', r) ->
  (n' = n /\ st' = st /\
     (r = CErr EInvalid \/
      ((qc_ready st = false \/ qc_auth st = None) /\ r = CErr ENotReady) \/
      (exists a, qc_auth st = Some a /\ pr_expected p <> a_id a /\ r = CErr EStale) \/
      (exists a, qc_auth st = Some a /\ a_wf a = true /\ r = CErr EFenced))) \/
  exists a, commit_admitted cfg st a p /\ commit_shape cfg n st local p a n' st' r.
Proof.
  intro H0. generalize H0. unfold Commit.
  destruct (_ || _ || _ || _ || _) eqn:Hv; [intros [= <- <- <-]; auto 7|].
  destruct (qc_ready st) eqn:Hrd; cbn [negb]; [|intros [= <- <- <-]; auto 8].
  destruct (qc_auth st) as [a|] eqn:Hau; [|intros [= <- <- <-]; auto 8].
  destruct (authid_eqb (pr_expected p) (a_id a)) eqn:Hex; cbn [negb];
    [|apply authid_eqb_neq in Hex; intros [= <- <- <-]; eauto 10].
  destruct (a_wf a) eqn:Hwf; [intros [= <- <- <-]; eauto 10|]. intros _.
  right. exists a. assert (Hadm : commit_admitted cfg st a p) by (repeat split; assumption).
  split; [exact Hadm | exact (Commit_shape _ _ _ _ _ _ _ _ _ Hadm H0)].
Qed.

Lemma retryPending_net cfg n st a local rt n' st' r :
  retryPending cfg n st a local rt = (n', st', r) ->
  exists res, runDurableRound n local (a_voters a) (a_q a) (cf_rot cfg) (rt_prop rt) = (n', res).
Proof.
  unfold retryPending. destruct (runDurableRound _ _ _ _ _ _) as [n1 res]. intro H. exists res.
  destruct (negb (rr_ok res)); [|destruct (finishCommit _ _ _ _ _)]; injection H as <- _ _; reflexivity.
Qed.

