(* Proof/SlotFSM_props.v — point properties of the slot state machine model (Model/SlotFSM.v):
   refusal of commands for hash slots the slot does not own, refusal of ordinary writes
   behind a migration fence, idempotence of apply_delta. *)
From WK Require Import Base.Base.
From WK Require Import Gen.Consts_C15 Gen.Consts_C17 Gen.Consts_C13.
From WK Require Import Model.RuntimeMeta Model.ChanMigration Model.SlotFSM.
From WK Require Import Proof.SlotFSM_machine Proof.SlotFSM_inst.
Open Scope N_scope.

(* the model names ApplyBatch on a log and on a partition but not on one command; [batch_single]
   relates this to [fsm_apply_batch cfg s [c]] *)
Notation fsm_apply_one cfg := (apply_one (fsm_stage cfg) bstate0 fsm_finish fsm_v0 fsm_run_op fsm_flush (R_STALE, [])).

Lemma batch_single cfg s c :
  fsm_apply_batch cfg s [c] =
  match fsm_apply_one cfg s c with
  | (s', inl e) => (s', BErr e)
  | (s', inr x) => (s', BRes [x])
  end.
Proof. apply ApplyBatch_single. Qed.

Lemma apply_one_good cfg d c b' ops x :
  fsm_stage cfg d bstate0 c = SDone b' ops x -> Forall good_wop ops ->
  exists d', fsm_apply_one cfg d c = (d', inr x) /\ store_eqv d' (fold_left eff ops d).
Proof.
  intros St G. rewrite (apply_one_staged _ _ _ _ _ _ _ d c b' ops x St), (run_ops_good ops d (fsm_v0 d) G).
  cbn [fsm_v0 ca_pend ca_cm].
  destruct (fsm_H_finish d (CAll (fold_left eff ops d) []) [c] I) as (v' & -> & E & _). eauto.
Qed.

(* resolveHashSlot refuses an ordinary or channel command for a hash slot that is not owned *)
Lemma resolve_unowned cfg c :
  isMigrationMaintenanceCommand (fc_cmd c) = false ->
  memN (if (fc_hs c =? 0) && cfg_allow_legacy cfg then cfg_legacy cfg else fc_hs c) (cfg_owned cfg) = false ->
  resolveHashSlot cfg c = None.
Proof.
  unfold resolveHashSlot. intros Hm Ho.
  destruct (fc_cmd c); cbn in Hm; try discriminate; rewrite Ho; reflexivity.
Qed.

Lemma stage_refuses cfg d t c :
  fc_slot_ok c = false \/ resolveHashSlot cfg c = None -> fsm_stage cfg d t c = SFatal E_INVALID.
Proof.
  unfold fsm_stage. intros [Hs|Hr]; [rewrite Hs; reflexivity|].
  destruct (negb (fc_slot_ok c)); [reflexivity|]. rewrite Hr. reflexivity.
Qed.

(* a batch containing a command with a foreign slot id, or for a hash slot the slot does not own,
   is refused as a whole and leaves the store as it was *)
Theorem fsm_unowned_refused cfg d cs c :
  In c cs ->
  fc_slot_ok c = false \/ resolveHashSlot cfg c = None ->
  exists e, fsm_apply_batch cfg d cs = (d, BErr e).
Proof.
  intros Hin Hbad. apply (machine_refused _ _ _ _ _ _ _ d cs c Hin).
  intro t. rewrite (stage_refuses cfg d t c Hbad). eauto.
Qed.

Lemma accepted_resolves cfg d c d' x :
  fsm_apply_one cfg d c = (d', inr x) -> fc_slot_ok c = true /\ exists hs, resolveHashSlot cfg c = Some hs.
Proof.
  intro H.
  assert (N : ~ (fc_slot_ok c = false \/ resolveHashSlot cfg c = None)).
  { intro B. rewrite (apply_one_fatal _ _ _ _ _ _ _ d c E_INVALID (stage_refuses cfg d bstate0 c B)) in H. discriminate. }
  destruct (fc_slot_ok c); [|exfalso; auto]. destruct (resolveHashSlot cfg c) as [hs|]; [eauto|exfalso; auto].
Qed.

(* an ordinary command for a hash slot whose durable (or staged) migration state carries a fence of
   this slot is answered hash_slot_fenced and stages nothing *)
Theorem fsm_fenced_refused cfg d b c hs x :
  fc_slot_ok c = true ->
  resolveHashSlot cfg c = Some hs ->
  isMigrationMaintenanceCommand (fc_cmd c) = false ->
  load_state d b hs = Some x ->
  hs_source x = cfg_slot cfg -> hs_fence_index x <> 0 ->
  (forall t ph, mig_get (cfg_migs cfg) hs = Some (t, ph) -> t = 0 \/ t = hs_target x) ->
  fsm_stage cfg d b c = SDone b [] (R_FENCED, []).
Proof.
  intros Hs Hr Hm Hl Hsrc Hf Hmig. unfold fsm_stage. rewrite Hs, Hr, Hm. cbn [negb andb].
  assert (F : isHashSlotFenced cfg d b hs = true).
  { unfold isHashSlotFenced. rewrite Hl, Hsrc, N.eqb_refl. cbn [negb orb].
    destruct (hs_fence_index x =? 0) eqn:E; [apply N.eqb_eq in E; contradiction|].
    destruct (mig_get (cfg_migs cfg) hs) as [[t ph]|] eqn:Mg; [|reflexivity].
    destruct (Hmig t ph eq_refl) as [Ht|Ht]; subst t.
    - reflexivity.
    - rewrite N.eqb_refl. cbn. destruct (hs_target x =? 0); reflexivity. }
  rewrite F. reflexivity.
Qed.

(* replay: the delta's record is durable or was staged earlier in the batch -> ok, nothing staged *)
Theorem fsm_delta_replay_noop cfg d b c s i h orig :
  fc_slot_ok c = true -> fc_cmd c = HDelta s i h orig -> fc_hs c = h -> s <> 0 -> i <> 0 ->
  delta_seen d b (DKey h s i) = true ->
  fsm_stage cfg d b c = SDone b [] (R_OK, []).
Proof.
  intros Hs Hc Hh Hs0 Hi0 Hseen. unfold fsm_stage. rewrite Hs. cbn [negb].
  unfold resolveHashSlot. rewrite Hc, Hh, N.eqb_refl. cbn [isMigrationMaintenanceCommand negb andb].
  unfold delta_seen in Hseen.
  destruct (dkey_mem (DKey h s i) (bs_delta b)) eqn:P; [reflexivity|].
  cbn [orb] in Hseen. cbn [dk_src dk_idx].
  apply N.eqb_neq in Hs0, Hi0. rewrite Hs0, Hi0, Hseen. reflexivity.
Qed.

(* first application of a good delta: the original command's operations and the applied record *)
Theorem fsm_delta_first cfg d b c s i h o :
  fc_slot_ok c = true -> fc_cmd c = HDelta s i h (Some o) -> fc_hs c = h -> s <> 0 -> i <> 0 ->
  inner_ok h o = true ->
  delta_seen d b (DKey h s i) = false ->
  fsm_stage cfg d b c =
  SDone (set_bs_delta b (DKey h s i :: bs_delta b)) (plain_ops h o ++ [WMarkApplied (DKey h s i)]) (R_OK, []).
Proof.
  intros Hs Hc Hh Hs0 Hi0 Hin Hseen.
  assert (G : good_cmd c).
  { unfold good_cmd. rewrite Hc. cbn [good_hcmd].
    apply N.eqb_neq in Hs0, Hi0. rewrite Hs0, Hi0, Hin. reflexivity. }
  rewrite (stage_good_view cfg d b c G). unfold stage_view, lift_view, hs_of. rewrite Hs. cbn [negb].
  unfold resolveHashSlot. rewrite Hc, Hh, N.eqb_refl. rewrite Hseen. cbn [upd_b]. reflexivity.
Qed.

(* a single-command batch with a replayed delta changes nothing but the applied index *)
Theorem fsm_delta_batch_idempotent cfg d c s i h orig :
  fc_slot_ok c = true -> fc_cmd c = HDelta s i h orig -> fc_hs c = h -> s <> 0 -> i <> 0 ->
  dkey_mem (DKey h s i) (st_applied d) = true ->
  exists d', fsm_apply_batch cfg d [c] = (d', BRes [(R_OK, [])]) /\ store_eqv d' d.
Proof.
  intros Hs Hc Hh Hs0 Hi0 Hap.
  assert (St : fsm_stage cfg d bstate0 c = SDone bstate0 [] (R_OK, [])).
  { apply (fsm_delta_replay_noop cfg d bstate0 c s i h orig); auto;
      unfold delta_seen; rewrite Hap; apply orb_true_r. }
  destruct (apply_one_good cfg d c _ _ _ St (Forall_nil _)) as (d' & H1 & E).
  exists d'. rewrite batch_single, H1. auto.
Qed.
