(* Proof/WkEnc_monitor.v — the monitor C25_monitor accepts every trace the model
   produces (or an MD5 collision is exhibited): links the property evaluated on
   implementation traces to the theorems of Proof/WkEnc.v.  Also: observations the model
   produces are never a mismatch (model_no_mismatch), and the three assumptions on the
   primitives are jointly satisfiable (toy_primitives_ok: block reversal, constant digest,
   constant shared secret). *)
From WK Require Import Base.Base Base.Bytes Base.Lists Gen.Consts_C25 Model.WkEnc.
From WK Require Import Proof.WkEnc_b64 Proof.WkEnc_blocks Proof.WkEnc.
From Coq Require Import ZifyBool ZifyN ZifyNat.
Open Scope N_scope.

Lemma dec_digits_bytes fuel : forall n acc, all_bytes acc = true -> all_bytes (dec_digits fuel n acc) = true.
Proof.
  induction fuel as [|f IH]; intros n acc H; [exact H|].
  cbn [dec_digits].
  assert (H' : all_bytes ((48 + n mod 10) :: acc) = true).
  { apply all_bytes_cons. split; [|exact H]. pose proof (N.mod_lt n 10). lia. }
  destruct (n / 10 =? 0); [exact H'|apply IH; exact H'].
Qed.

Lemma append_uint_bytes n : all_bytes (append_uint n) = true.
Proof. apply dec_digits_bytes. reflexivity. Qed.

Definition wf_packet (p : send_packet) : Prop :=
  all_bytes (sp_msgno p) = true /\ all_bytes (sp_chid p) = true /\ all_bytes (sp_payload p) = true.

Lemma sign_bytes_bytes p : wf_packet p -> all_bytes (send_sign_bytes p) = true.
Proof.
  intros (H1 & H2 & H3). unfold send_sign_bytes.
  rewrite !all_bytes_app, !append_uint_bytes, H1, H2, H3. reflexivity.
Qed.

(* inputs are byte strings *)
Definition wf_op (o : c25_op) : Prop :=
  match o with
  | OpNeg _ _ _ _ _ _ _ _ => True
  | OpEnc keys payload _ _ _ => all_bytes (AESIV keys) = true /\ all_bytes payload = true
  | OpDec _ _ _ => True
  | OpSend keys _ plain _ msgno chid _ _ _ _ _ tampered _ _ _ =>
    all_bytes (AESIV keys) = true /\ all_bytes plain = true /\ all_bytes msgno = true /\ all_bytes chid = true
    /\ wf_packet tampered
  | OpRecv keys _ _ pkt _ _ _ => all_bytes (AESIV keys) = true /\ all_bytes (rp_payload pkt) = true
  end.

Lemma res_eqb_refl {A} (eqb : A -> A -> bool) (r : res A) :
  (forall a, eqb a a = true) -> res_eqb eqb r r = true.
Proof. intro H. destruct r; cbn [res_eqb]; [apply H|apply N.eqb_refl]. Qed.

Lemma keys_eqb_refl k : keys_eqb k k = true.
Proof. apply keys_eqb_eq. reflexivity. Qed.

Section Monitor.

Variable aesE aesD : bytes -> bytes -> bytes.
Variable md5 : bytes -> bytes.
Variable x25519 : bytes -> bytes -> option bytes.
Hypothesis AES : aes_ok aesE aesD.
Hypothesis MD5 : md5_ok md5.
Hypothesis DH : dh_ok x25519.

(* with a consistent session the adapter helpers are the keys entry points *)
Lemma consistent_cases keys s : sess_consistent keys s = true ->
  (exists sc, NewSessionCrypto keys = Ok sc /\ SessionCryptoFromSession s = Some sc) \/
  (SessionCryptoFromSession s = None /\
   (SessionKeysFromSession s = Some keys \/ (SessionKeysFromSession s = None /\ ~ usable keys))).
Proof.
  intro C. unfold sess_consistent in C. unfold SessionCryptoFromSession.
  destruct (s_crypto s) as [k|].
  - apply andb_true_iff in C. destruct C as [C1 C2]. apply keys_eqb_eq in C1. subst k.
    destruct (NewSessionCrypto keys) as [sc|] eqn:K; [|discriminate]. left. exists sc. split; reflexivity.
  - right. split; [reflexivity|]. unfold SessionKeysFromSession.
    destruct (s_key s) as [k|]; [|discriminate]. destruct (s_iv s) as [iv|]; [|discriminate].
    apply andb_true_iff in C. destruct C as [C1 C2]. apply bytes_eqb_eq in C1, C2. subst.
    destruct keys as [k iv]. cbn [AESKey AESIV bytesValue].
    destruct k as [|x k]; [right; split; [reflexivity|intros [U _]; cbn in U; lia]|].
    destruct iv as [|y iv]; [right; split; [reflexivity|intros [_ U]; cbn in U; lia]|].
    left. reflexivity.
Qed.

Lemma adapter_send_eq keys s p : sess_consistent keys s = true ->
  decryptSendPacketForSession aesE aesD md5 s p =
  match ValidateSendPacket aesE md5 p keys with
  | 0 => DecryptPayload aesD (sp_payload p) keys
  | e => Err e
  end.
Proof.
  intros C. unfold decryptSendPacketForSession.
  destruct (consistent_cases keys s C) as [(sc & K & E)|[E1 [E2|[E2 NU]]]].
  - rewrite E, (Validate_crypto_eq aesE md5 keys sc p K), (Decrypt_crypto_eq aesD keys sc _ K). reflexivity.
  - rewrite E1, E2. reflexivity.
  - (* no usable keys anywhere: both sides are the missing-key error *)
    rewrite E1, E2. unfold ValidateSendPacket, SendMsgKey, with_keys.
    rewrite (NewSessionCrypto_unusable keys NU). reflexivity.
Qed.

Lemma adapter_recv_eq keys s p : sess_consistent keys s = true ->
  sealRecvPacketForSession aesE md5 s p = SealRecvPacket aesE md5 p keys.
Proof.
  intros C. unfold sealRecvPacketForSession, SealRecvPacket, with_keys.
  destruct (consistent_cases keys s C) as [(sc & K & E)|[E1 [E2|[E2 NU]]]].
  - rewrite E, K. reflexivity.
  - rewrite E1, E2. reflexivity.
  - rewrite E1, E2, (NewSessionCrypto_unusable keys NU). reflexivity.
Qed.

Lemma seal_payload keys p e k : SealRecvPacket aesE md5 p keys = Ok (e, k) ->
  EncryptPayload aesE (rp_payload p) keys = Ok e.
Proof.
  unfold SealRecvPacket, EncryptPayload, with_keys. destruct (NewSessionCrypto keys) as [sc|]; [|discriminate].
  cbn [SealRecvPacketWithCrypto EncryptPayloadWithCrypto msgKeyWithCrypto]. intro E. inversion E. reflexivity.
Qed.

Lemma mon_neg cpriv ckey rnd cs ci a b c :
  mon_op (model_op aesE aesD md5 x25519 (OpNeg cpriv ckey rnd cs ci a b c)) = true.
Proof.
  cbn [model_op mon_op].
  destruct (NegotiateServerSession md5 x25519 ckey rnd) as [[skeys spub]|e] eqn:N; [|reflexivity].
  destruct (negotiated_key_sizes md5 x25519 MD5 ckey rnd skeys spub N) as [L1 L2].
  rewrite L1, L2, !Nat.eqb_refl. cbn [andb].
  destruct (bytes_eqb ckey (b64_encode (opt_get (x25519 cpriv X25519Basepoint) []))) eqn:Q1; [|reflexivity].
  destruct (Nat.eqb (length (opt_get (x25519 cpriv X25519Basepoint) [])) 32) eqn:Q2; [|reflexivity].
  destruct cs as [x|]; [reflexivity|]. destruct ci as [x|]; [reflexivity|]. cbn [andb is_none opt_get].
  destruct (x25519 cpriv X25519Basepoint) as [cpub|] eqn:Hc; [|discriminate]. cbn [opt_get] in Q1.
  apply bytes_eqb_eq in Q1. subst ckey.
  rewrite (same_keys md5 x25519 DH cpriv cpub rnd skeys spub Hc N).
  cbn [res_eqb]. apply keys_eqb_refl.
Qed.

Lemma mon_enc keys payload a b c : wf_op (OpEnc keys payload a b c) ->
  mon_op (model_op aesE aesD md5 x25519 (OpEnc keys payload a b c)) = true.
Proof.
  intros [Hiv Hp]. cbn [model_op mon_op andb].
  destruct (EncryptPayload aesE payload keys) as [e|] eqn:E; [|reflexivity].
  rewrite (decrypt_encrypt aesE aesD AES keys payload e Hiv Hp E). cbn [res_eqb]. apply bytes_eqb_refl.
Qed.

Lemma mon_recv keys s direct pkt a b c : wf_op (OpRecv keys s direct pkt a b c) ->
  mon_op (model_op aesE aesD md5 x25519 (OpRecv keys s direct pkt a b c)) = true.
Proof.
  intros [Hiv Hp]. cbn [model_op mon_op andb].
  set (sealed := if direct then SealRecvPacket aesE md5 pkt keys else sealRecvPacketForSession aesE md5 s pkt).
  destruct sealed as [[e k]|err] eqn:S; [|reflexivity].
  destruct (direct || sess_consistent keys s) eqn:DC; [|reflexivity]. cbn [negb orb].
  assert (S' : SealRecvPacket aesE md5 pkt keys = Ok (e, k)).
  { subst sealed. destruct direct; [exact S|]. cbn [orb] in DC. rewrite <- (adapter_recv_eq keys s pkt DC). exact S. }
  apply seal_payload in S'.
  rewrite (decrypt_encrypt aesE aesD AES keys (rp_payload pkt) e Hiv Hp S'). cbn [res_eqb]. apply bytes_eqb_refl.
Qed.

(* what the monitor asks of the adapter, with a session that holds the client's keys:
   it accepts what ValidateSendPacket accepts and decrypts it, and rejects what it rejects *)
Lemma adapter_accepts keys s p plain :
  ValidateSendPacket aesE md5 p keys = 0 -> DecryptPayload aesD (sp_payload p) keys = Ok plain ->
  negb (sess_consistent keys s)
  || res_eqb bytes_eqb (decryptSendPacketForSession aesE aesD md5 s p) (Ok plain) = true.
Proof.
  intros V D. destruct (sess_consistent keys s) eqn:C; [|reflexivity].
  rewrite (adapter_send_eq keys s p C), V, D. apply bytes_eqb_refl.
Qed.

Lemma adapter_rejects keys s p :
  ValidateSendPacket aesE md5 p keys = E_MsgKeyMismatch ->
  negb (ValidateSendPacket aesE md5 p keys =? 0)
  && (negb (sess_consistent keys s) || negb (is_ok (decryptSendPacketForSession aesE aesD md5 s p))) = true.
Proof.
  intros V. destruct (sess_consistent keys s) eqn:C; [|rewrite V; reflexivity].
  rewrite (adapter_send_eq keys s p C), V. reflexivity.
Qed.

Lemma untouched_eq t k seq msgno chid chtype e : sp_msgkey t = k ->
  (sp_seq t =? seq) && bytes_eqb (sp_msgno t) msgno && bytes_eqb (sp_chid t) chid
  && (sp_chtype t =? chtype) && bytes_eqb (sp_payload t) e = true ->
  t = SendPkt k seq msgno chid chtype e.
Proof.
  rewrite !andb_true_iff, !bytes_eqb_eq, !N.eqb_eq. destruct t as [tk ts tn tc tt tp].
  cbn [sp_msgkey sp_seq sp_msgno sp_chid sp_chtype sp_payload]. intros -> [[[[-> ->] ->] ->] ->]. reflexivity.
Qed.

Lemma mon_send keys s plain seq msgno chid chtype a b c d tampered e f g :
  wf_op (OpSend keys s plain seq msgno chid chtype a b c d tampered e f g) ->
  mon_op (model_op aesE aesD md5 x25519 (OpSend keys s plain seq msgno chid chtype a b c d tampered e f g)) = true
  \/ md5_collision md5.
Proof.
  intros (Hiv & Hp & Hno & Hch & Ht). cbn [model_op mon_op andb].
  destruct (EncryptPayload aesE plain keys) as [enc|] eqn:E; [|left; reflexivity].
  destruct (EncryptPayload_ok aesE keys plain enc E) as (sc & K & Benc).
  unfold honest_packet. cbn [res_get].
  rewrite (SendMsgKey_crypto_eq aesE md5 keys sc _ K). cbn [res_get].
  set (k := hexMD5String _). set (h := SendPkt k seq msgno chid chtype enc).
  (* the honest packet carries its own key, is accepted and decrypts to the plaintext *)
  assert (MK : SendMsgKey aesE md5 h keys = Ok k) by exact (SendMsgKey_crypto_eq aesE md5 keys sc h K).
  pose proof (validate_honest aesE md5 keys h k MK eq_refl) as V0.
  pose proof (adapter_accepts keys s h plain V0 (decrypt_encrypt aesE aesD AES keys plain enc Hiv Hp E)) as G0.
  rewrite V0, G0. cbn [N.eqb andb].
  assert (Bh : all_bytes (send_sign_bytes h) = true) by (apply sign_bytes_bytes; repeat split; assumption).
  pose proof (sign_bytes_bytes tampered Ht) as Bt.
  (* the attacker's packet, by what it kept of (message key, covered bytes) *)
  destruct (bytes_eqb (sp_msgkey tampered) k) eqn:KS;
    destruct (bytes_eqb (send_sign_bytes tampered) (send_sign_bytes h)) eqn:SS; cbn [andb orb negb];
    [|apply bytes_eqb_eq in KS; apply bytes_eqb_neq in SS|apply bytes_eqb_neq in KS; apply bytes_eqb_eq in SS
     |left; reflexivity].
  - (* both kept: if every field is the honest one, it is the honest packet *)
    destruct (_ && _) eqn:U; [|left; reflexivity]. apply bytes_eqb_eq in KS.
    rewrite (untouched_eq tampered k seq msgno chid chtype enc KS U). fold h. rewrite V0. left. exact G0.
  - destruct (tamper_covered aesE aesD md5 AES MD5 keys h tampered k Hiv Bh Bt MK KS SS) as [V|COL];
      [left; exact (adapter_rejects keys s tampered V)|right; exact COL].
  - left. exact (adapter_rejects keys s tampered (tamper_key aesE md5 keys h tampered k MK SS KS)).
Qed.

Theorem mon_model_op o : wf_op o ->
  mon_op (model_op aesE aesD md5 x25519 o) = true \/ md5_collision md5.
Proof.
  destruct o; intro W.
  - left. apply mon_neg.
  - left. apply mon_enc. exact W.
  - left. reflexivity.
  - apply mon_send. exact W.
  - left. apply mon_recv. exact W.
Qed.

Theorem model_satisfies_monitor ops tE tD tM tDH : Forall wf_op ops ->
  C25_monitor (C25Case (map (model_op aesE aesD md5 x25519) ops) tE tD tM tDH) = 0 \/ md5_collision md5.
Proof.
  intro W. unfold C25_monitor. cbn [c25_ops].
  induction W as [|o ops Wo _ IH]; [left; reflexivity|].
  cbn [map forallb].
  destruct (mon_model_op o Wo) as [M|COL]; [|right; exact COL]. rewrite M. cbn [andb]. exact IH.
Qed.

End Monitor.

Lemma obs_eqb_refl o : obs_eqb o o = true.
Proof.
  assert (B : forall r : res bytes, res_eqb bytes_eqb r r = true) by (intro r; apply res_eqb_refl; apply bytes_eqb_refl).
  destruct o; cbn [obs_eqb]; rewrite ?B, ?N.eqb_refl, ?bytes_eqb_refl; cbn [andb]; try reflexivity.
  - rewrite !res_eqb_refl; [reflexivity|apply keys_eqb_refl|].
    intros [k b]. unfold pair_eqb. cbn [fst snd]. rewrite keys_eqb_refl, bytes_eqb_refl. reflexivity.
  - rewrite res_eqb_refl; [reflexivity|].
    intros [a b]. unfold pair_eqb. cbn [fst snd]. rewrite !bytes_eqb_refl. reflexivity.
Qed.

Lemma model_op_idem aesE aesD md5 dh o :
  model_op aesE aesD md5 dh (model_op aesE aesD md5 dh o) = model_op aesE aesD md5 dh o.
Proof. destruct o; reflexivity. Qed.

(* sanity of the correspondence predicate: a case whose observations are the model's own,
   evaluated with the case's oracle tables as primitives, is never a mismatch *)
Theorem model_no_mismatch ops tE tD tM tDH :
  let aesE := lookup_block tE in
  let aesD := lookup_block tD in
  let md5 := fun m => lookup1 tM m [] in
  let dh := fun a p => lookup2 tDH a p None in
  C25_mismatch (C25Case (map (model_op aesE aesD md5 dh) ops) tE tD tM tDH) = false.
Proof.
  cbv zeta. unfold C25_mismatch. cbn [c25_ops c25_tabE c25_tabD c25_tabMD5 c25_tabDH].
  apply negb_false_iff. apply forallb_forall. intros o Ho. apply in_map_iff in Ho.
  destruct Ho as (o' & <- & _). rewrite model_op_idem. apply obs_eqb_refl.
Qed.


Lemma toy_primitives_ok :
  aes_ok (fun _ b => rev b) (fun _ b => rev b)
  /\ md5_ok (fun _ => repeat 7 16)
  /\ dh_ok (fun _ _ => Some (repeat 9 32)).
Proof.
  split; [|split].
  - split.
    + intros k b _. apply rev_involutive.
    + intros k b [L B]. split; [rewrite rev_length; exact L|rewrite all_bytes_rev; exact B].
  - intro m. split; reflexivity.
  - split.
    + intros x y pa pb _ _. reflexivity.
    + intros x p r H. inversion H. split; reflexivity.
Qed.
