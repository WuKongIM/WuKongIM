(* Proof/Membership_C16.v — (1) what every write does to [get_row] and [get_cmd]
   ([get_<table>_<write>] equations), that each write touches one table, and that an
   error leaves the state alone;
   (2) [reach]: a sequence of mutations of which some valid ones were applied (a direct
   call, a batch, the calls interleaved in a pass); (3) along any [reach] a membership /
   CMD row only advances unless the sequence contains a delete / recreate boundary for
   its key, as classified by the monitor's folds. *)
From WK Require Import Base.Base.
From WK Require Import Gen.Consts_C16 Model.Membership Model.Membership_C16 Proof.Membership.
Open Scope N_scope.

Lemma get_row_stage st k0 ex next k :
  get_row (stageUserChannelMembership st k0 ex next) k
  = if mkey_eqb k0 k then Some next else get_row st k.
Proof. unfold get_row, stageUserChannelMembership. cbn [st_rows]. apply assoc_get_put. Qed.

Lemma get_cmd_stage st k0 ex next k :
  get_cmd (stageUserChannelMembership st k0 ex next) k = get_cmd st k.
Proof. reflexivity. Qed.

Lemma get_row_delete st k0 k :
  get_row (deleteUserChannelMembership st k0) k = if mkey_eqb k0 k then None else get_row st k.
Proof.
  unfold deleteUserChannelMembership. destruct (get_row st k0) eqn:H.
  - unfold get_row. cbn [st_rows]. apply assoc_get_del.
  - destruct (mkey_eqb_spec k0 k) as [<-|]; [exact H|reflexivity].
Qed.

Lemma get_cmd_put st k0 c k :
  get_cmd (put_cmd st k0 c) k = if mkey_eqb k0 k then Some c else get_cmd st k.
Proof. unfold get_cmd, put_cmd. cbn [st_cmd]. apply assoc_get_put. Qed.

Lemma get_row_put_cmd st k0 c k : get_row (put_cmd st k0 c) k = get_row st k.
Proof. reflexivity. Qed.

Lemma get_row_upsertWith resolve st slot m k :
  get_row (snd (upsertWith resolve st slot m)) k
  = if mkey_eqb (membership_key slot m) k
    then match get_row st k with
         | Some ex => Some (resolve ex true m)
         | None => Some (resolve m false m)
         end
    else get_row st k.
Proof.
  unfold upsertWith. destruct (mkey_eqb (membership_key slot m) k) eqn:E.
  - apply mkey_eqb_eq in E. subst k.
    destruct (get_row st (membership_key slot m)) as [ex|] eqn:Hg;
      [destruct (membership_eqb ex (resolve ex true m)) eqn:Heq|]; cbn [snd];
      rewrite ?get_row_stage, ?mkey_eqb_refl; try reflexivity.
    apply membership_eqb_eq in Heq. congruence.
  - destruct (get_row st _) as [ex|]; [destruct (membership_eqb _ _)|]; cbn [snd];
      rewrite ?get_row_stage, ?E; reflexivity.
Qed.

Lemma get_row_mutate st k0 f k :
  get_row (snd (mutateUserChannelMembership st k0 f)) k
  = if mkey_eqb k0 k
    then match get_row st k with
         | Some ex => Some (if m_tombstone ex then ex else f ex)
         | None => None
         end
    else get_row st k.
Proof.
  unfold mutateUserChannelMembership. destruct (mkey_eqb k0 k) eqn:E.
  - apply mkey_eqb_eq in E. subst k.
    destruct (get_row st k0) as [ex|] eqn:Hg; [|exact Hg]. destruct (m_tombstone ex); [exact Hg|].
    destruct (membership_eqb (f ex) ex) eqn:Heq; cbn [snd].
    + apply membership_eqb_eq in Heq. congruence.
    + rewrite get_row_stage, mkey_eqb_refl. reflexivity.
  - destruct (get_row st k0) as [ex|]; [destruct (m_tombstone ex); [|destruct (membership_eqb _ _)]|];
      cbn [snd]; rewrite ?get_row_stage, ?E; reflexivity.
Qed.

Lemma get_cmd_mutateCMD st k0 f k :
  get_cmd (snd (mutateUserCMDChannelMembership st k0 f)) k
  = if mkey_eqb k0 k
    then match get_cmd st k with
         | Some ex => Some (if c_tombstone ex then ex else f ex)
         | None => None
         end
    else get_cmd st k.
Proof.
  unfold mutateUserCMDChannelMembership. destruct (mkey_eqb k0 k) eqn:E.
  - apply mkey_eqb_eq in E. subst k.
    destruct (get_cmd st k0) as [ex|] eqn:Hg; [|exact Hg]. destruct (c_tombstone ex); [exact Hg|].
    destruct (cmd_membership_eqb (f ex) ex) eqn:Heq; cbn [snd].
    + apply cmd_membership_eqb_eq in Heq. congruence.
    + rewrite get_cmd_put, mkey_eqb_refl. reflexivity.
  - destruct (get_cmd st k0) as [ex|]; [destruct (c_tombstone ex); [|destruct (cmd_membership_eqb _ _)]|];
      cbn [snd]; rewrite ?get_cmd_put, ?E; reflexivity.
Qed.

Lemma get_cmd_cmdUpsert st slot c k :
  get_cmd (snd (mut_apply st (MCmdUpsert slot c))) k
  = if mkey_eqb (cmd_membership_key slot c) k
    then match get_cmd st k with
         | Some ex => Some (resolveUserCMDChannelMembership ex true c)
         | None => Some (resolveUserCMDChannelMembership c false c)
         end
    else get_cmd st k.
Proof.
  cbn [mut_apply]. destruct (mkey_eqb (cmd_membership_key slot c) k) eqn:E.
  - apply mkey_eqb_eq in E. subst k.
    destruct (get_cmd st (cmd_membership_key slot c)) as [ex|] eqn:Hg;
      [destruct (cmd_membership_eqb ex (resolveUserCMDChannelMembership ex true c)) eqn:Heq|]; cbn [snd];
      rewrite ?get_cmd_put, ?mkey_eqb_refl; try reflexivity.
    apply cmd_membership_eqb_eq in Heq. congruence.
  - destruct (get_cmd st _) as [ex|]; [destruct (cmd_membership_eqb _ _)|]; cbn [snd];
      rewrite ?get_cmd_put, ?E; reflexivity.
Qed.

(* each write touches one table; [cmd_mut u] tells which *)
Definition cmd_mut (u : mut) : bool :=
  match u with
  | MCmdUpsert _ _ | MCmdAdvanceShard _ _ _ | MCmdAdvanceBatch _ _
  | MCmdTombstoneShard _ _ | MCmdTombstoneBatch _ _ => true
  | _ => false
  end.

Lemma cmd_mut_frame st u : cmd_mut u = true ->
  st_rows (snd (mut_apply st u)) = st_rows st /\ st_index (snd (mut_apply st u)) = st_index st.
Proof.
  assert (M : forall k f, st_rows (snd (mutateUserCMDChannelMembership st k f)) = st_rows st
                          /\ st_index (snd (mutateUserCMDChannelMembership st k f)) = st_index st).
  { intros k f. unfold mutateUserCMDChannelMembership. destruct (get_cmd st k) as [ex|]; [|auto].
    destruct (c_tombstone ex); [|destruct (cmd_membership_eqb _ _)]; auto. }
  destruct u; try discriminate; intros _; cbn [mut_apply]; try apply M.
  destruct (get_cmd st _) as [ex|]; [destruct (cmd_membership_eqb _ _)|]; auto.
Qed.

Lemma row_mut_frame st u : cmd_mut u = false -> st_cmd (snd (mut_apply st u)) = st_cmd st.
Proof.
  assert (U : forall resolve slot m, st_cmd (snd (upsertWith resolve st slot m)) = st_cmd st).
  { intros. unfold upsertWith. destruct (get_row st _) as [ex|]; [destruct (membership_eqb _ _)|]; reflexivity. }
  assert (M : forall k f, st_cmd (snd (mutateUserChannelMembership st k f)) = st_cmd st).
  { intros k f. unfold mutateUserChannelMembership. destruct (get_row st k) as [ex|]; [|reflexivity].
    destruct (m_tombstone ex); [|destruct (membership_eqb _ _)]; reflexivity. }
  destruct u; try discriminate; intros _; cbn [mut_apply]; try apply U; try apply M.
  unfold deleteUserChannelMembership. destruct (get_row st k); reflexivity.
Qed.

(* the only error of a write is ENotFound from the two mutate wrappers, and they return it
   with the state they were given *)
Lemma upsertWith_no_error resolve st slot m : fst (upsertWith resolve st slot m) = ENone.
Proof. unfold upsertWith. destruct (get_row st _) as [ex|]; [destruct (membership_eqb _ _)|]; reflexivity. Qed.

Lemma mutate_error st k f :
  fst (mutateUserChannelMembership st k f) = ENone \/ mutateUserChannelMembership st k f = (ENotFound, st).
Proof.
  unfold mutateUserChannelMembership. destruct (get_row st k) as [ex|]; [left|right; reflexivity].
  destruct (m_tombstone ex); [|destruct (membership_eqb _ _)]; reflexivity.
Qed.

Lemma mutateCMD_error st k f :
  fst (mutateUserCMDChannelMembership st k f) = ENone \/ mutateUserCMDChannelMembership st k f = (ENotFound, st).
Proof.
  unfold mutateUserCMDChannelMembership. destruct (get_cmd st k) as [ex|]; [left|right; reflexivity].
  destruct (c_tombstone ex); [|destruct (cmd_membership_eqb _ _)]; reflexivity.
Qed.

Lemma mut_apply_error st u e st' : mut_apply st u = (e, st') -> e <> ENone -> st' = st.
Proof.
  intros H Hne.
  assert (fst (mut_apply st u) = ENone \/ mut_apply st u = (ENotFound, st)) as [E|E].
  { destruct u; cbn [mut_apply]; auto using upsertWith_no_error, mutate_error, mutateCMD_error.
    left. destruct (get_cmd st _) as [ex|]; [destruct (cmd_membership_eqb _ _)|]; reflexivity. }
  - rewrite H in E. contradiction.
  - rewrite H in E. congruence.
Qed.

(* each mutation of the list is applied, if valid, or not (skipped because invalid,
   because it follows the end of a pass, or because the whole batch was refused) *)
Inductive reach : mstate -> list mut -> mstate -> Prop :=
| reach_nil st : reach st [] st
| reach_skip st u r st' : reach st r st' -> reach st (u :: r) st'
| reach_apply st u r st' :
    mut_valid u = true -> reach (snd (mut_apply st u)) r st' -> reach st (u :: r) st'.

Lemma reach_all_skipped us : forall st, reach st us st.
Proof. induction us as [|u r IH]; intro st; [constructor|apply reach_skip, IH]. Qed.

Lemma reach_app us1 : forall st st1 us2 st2, reach st us1 st1 -> reach st1 us2 st2 -> reach st (us1 ++ us2) st2.
Proof.
  induction us1 as [|u r IH]; intros st st1 us2 st2 H1 H2; inversion H1; subst; cbn [app];
    [exact H2|apply reach_skip|apply reach_apply; [assumption|]]; eapply IH; eassumption.
Qed.

Lemma direct_apply_reach st u r st' :
  reach (snd (direct_apply st u)) r st' -> reach st (u :: r) st'.
Proof.
  unfold direct_apply. destruct (mut_valid u) eqn:V; cbn [snd]; [apply reach_apply; exact V|apply reach_skip].
Qed.

(* also when the batch fails: the state returned with the error is the working view *)
Lemma batch_build_reach : forall ops w e w', batch_build w ops = (e, w') -> reach w ops w'.
Proof.
  induction ops as [|u r IH]; intros w e w'; cbn [batch_build].
  - intros [= _ <-]. constructor.
  - destruct (mut_valid u) eqn:V; cbn [negb]; [|intro H; apply reach_skip, (IH _ _ _ H)].
    destruct (mut_apply w u) as [e1 w1] eqn:Hu. destruct (db_err_eqb e1 ENone).
    + intro H. apply reach_apply; [exact V|]. rewrite Hu. exact (IH _ _ _ H).
    + intros [= _ <-]. apply reach_all_skipped.
Qed.

(* [boundary_fold] taken apart ([boundary_fold_cons]): does the head classify as a boundary,
   and the two flags the fold carries into the tail *)
Definition head_boundary (k : mkey) (asv : N) (mt ms : bool) (u : mut) : bool :=
  match u with
  | MDelete k' => mkey_eqb k' k
  | MUpsert slot m =>
    mkey_eqb (membership_key slot m) k && (negb (m_tombstone m) && (asv <? m_source_version m) && mt)
  | MEnsure slot m =>
    mkey_eqb (membership_key slot m) k && ((asv <? m_source_version m) && ms)
  | _ => false
  end.

Definition flags_after (k : mkey) (mt ms : bool) (u : mut) : bool * bool :=
  match u with
  | MUpsert slot m =>
    if mkey_eqb (membership_key slot m) k
    then (mt || m_tombstone m, ms || negb (m_source_version m =? 0)) else (mt, ms)
  | MEnsure slot m =>
    if mkey_eqb (membership_key slot m) k
    then (mt, ms || negb (m_source_version m =? 0)) else (mt, ms)
  | _ => (mt, ms)
  end.

Lemma boundary_fold_cons k asv mt ms u r :
  boundary_fold k asv mt ms (u :: r)
  = head_boundary k asv mt ms u
    || boundary_fold k asv (fst (flags_after k mt ms u)) (snd (flags_after k mt ms u)) r.
Proof.
  destruct u; cbn [boundary_fold head_boundary flags_after orb fst snd]; try reflexivity;
    destruct (mkey_eqb (membership_key slot m) k); reflexivity.
Qed.

(* the fold's flags over-approximate the stored row *)
Definition covers (mt ms : bool) (r : membership) : Prop :=
  (m_tombstone r = true -> mt = true) /\ (negb (m_source_version r =? 0) = true -> ms = true).

Lemma follows_covers dt ds mt ms r r' :
  follows dt ds r r' -> covers mt ms r -> covers (mt || dt) (ms || ds) r'.
Proof.
  intros [_ _ T S] [Ht Hs]. split; intro C; apply orb_true_iff; [destruct (T C)|destruct (S C)]; auto.
Qed.

Lemma upsert_follows r m asv mt ms :
  asv <= m_source_version r -> covers mt ms r ->
  negb (m_tombstone m) && (asv <? m_source_version m) && mt = false ->
  follows (m_tombstone m) (negb (m_source_version m =? 0)) r (resolveUserChannelMembership r true m).
Proof.
  intros Hasv Hc Hb. destruct (resolve_upsert_spec r m) as [(T1 & T2 & Hlt & _) | F]; [exfalso|exact F].
  rewrite (proj1 Hc T1), T2 in Hb. apply andb_false_iff in Hb.
  destruct Hb as [Hb|Hb]; [|discriminate]. apply N.ltb_ge in Hb. lia.
Qed.

Lemma ensure_follows r m asv mt ms :
  asv <= m_source_version r -> covers mt ms r ->
  (asv <? m_source_version m) && ms = false ->
  follows false (negb (m_source_version m =? 0)) r (resolveEnsuredUserChannelMembership r true m).
Proof.
  intros Hasv Hc Hb. destruct (resolve_ensure_spec r m) as [(Hlt & Hnz) | F]; [exfalso|exact F].
  apply N.eqb_neq in Hnz. rewrite (proj2 Hc) in Hb by (rewrite Hnz; reflexivity).
  apply andb_false_iff in Hb. destruct Hb as [Hb|Hb]; [|discriminate]. apply N.ltb_ge in Hb. lia.
Qed.

Lemma covers_flags_after k mt ms u r :
  covers mt ms r -> covers (fst (flags_after k mt ms u)) (snd (flags_after k mt ms u)) r.
Proof.
  intros [Ht Hs]. destruct u; cbn [flags_after]; try (split; assumption);
    destruct (mkey_eqb (membership_key slot m) k); split; cbn [fst snd]; intro C;
    rewrite ?(Ht C), ?(Hs C); auto.
Qed.

(* the invariant of [boundary_fold_sound]'s induction: in [st'] key k still holds a row that
   advances [r] and that the flags cover *)
Definition row_kept (k : mkey) (r : membership) (mt ms : bool) (st' : mstate) : Prop :=
  exists r', get_row st' k = Some r' /\ m_advances r r' /\ covers mt ms r'.

Lemma row_kept_same k r mt ms st st' :
  get_row st k = Some r -> covers mt ms r -> get_row st' k = get_row st k -> row_kept k r mt ms st'.
Proof. intros Hg Hc E. exists r. rewrite E. split; [exact Hg|]. split; [apply m_advances_refl|exact Hc]. Qed.

Lemma row_kept_follows k r r' dt ds mt ms mt' ms' st' :
  get_row st' k = Some r' -> follows dt ds r r' -> covers mt ms r ->
  mt' = mt || dt -> ms' = ms || ds -> row_kept k r mt' ms' st'.
Proof.
  intros Hg F Hc -> ->. exists r'. split; [exact Hg|]. split; [apply F|exact (follows_covers _ _ _ _ _ _ F Hc)].
Qed.

Lemma mutate_row_kept k st k0 f r mt ms :
  closure_follows f -> get_row st k = Some r -> covers mt ms r ->
  row_kept k r mt ms (snd (mutateUserChannelMembership st k0 f)).
Proof.
  intros Hf Hg Hc. destruct (mkey_eqb k0 k) eqn:E.
  - apply (row_kept_follows k r (if m_tombstone r then r else f r) false false mt ms);
      auto using orb_false_r; [rewrite get_row_mutate, E, Hg; reflexivity|].
    destruct (m_tombstone r); [apply follows_refl|apply Hf].
  - apply (row_kept_same k r mt ms st); auto. rewrite get_row_mutate, E. reflexivity.
Qed.

Lemma mut_apply_row_step k asv st u r mt ms :
  get_row st k = Some r -> asv <= m_source_version r -> covers mt ms r ->
  head_boundary k asv mt ms u = false ->
  row_kept k r (fst (flags_after k mt ms u)) (snd (flags_after k mt ms u)) (snd (mut_apply st u)).
Proof.
  intros Hg Hasv Hc Hhb.
  assert (Same : get_row (snd (mut_apply st u)) k = get_row st k ->
                 row_kept k r (fst (flags_after k mt ms u)) (snd (flags_after k mt ms u)) (snd (mut_apply st u))).
  { apply row_kept_same; [exact Hg|apply covers_flags_after; exact Hc]. }
  destruct (cmd_mut u) eqn:C.
  { apply Same. unfold get_row. rewrite (proj1 (cmd_mut_frame st u C)). reflexivity. }
  destruct u; try discriminate C; cbn [mut_apply head_boundary flags_after fst snd] in *;
    try solve [apply mutate_row_kept; auto using advanceReadSeq_ok, activate_ok, hide_ok].
  - (* MUpsert: on its own key the row becomes the resolver's result, which follows [r]
       because the head is no boundary *)
    destruct (mkey_eqb (membership_key slot m) k) eqn:E; cbn [fst snd andb] in *;
      [|apply Same; rewrite get_row_upsertWith, E; reflexivity].
    refine (row_kept_follows k r _ _ _ mt ms _ _ _ _ (upsert_follows r m asv mt ms Hasv Hc Hhb) Hc eq_refl eq_refl).
    rewrite get_row_upsertWith, E, Hg. reflexivity.
  - (* MEnsure: likewise, and it sets no tombstone flag *)
    destruct (mkey_eqb (membership_key slot m) k) eqn:E; cbn [fst snd andb] in *;
      [|apply Same; rewrite get_row_upsertWith, E; reflexivity].
    refine (row_kept_follows k r _ _ _ mt ms _ _ _ _ (ensure_follows r m asv mt ms Hasv Hc Hhb) Hc
              (eq_sym (orb_false_r mt)) eq_refl).
    rewrite get_row_upsertWith, E, Hg. reflexivity.
  - (* MDelete: of another key, or the head would be a boundary *)
    apply Same. rewrite get_row_delete, Hhb. reflexivity.
Qed.

Lemma boundary_fold_sound k asv : forall us st st' r mt ms,
  reach st us st' ->
  get_row st k = Some r -> asv <= m_source_version r -> covers mt ms r ->
  boundary_fold k asv mt ms us = false ->
  exists b, get_row st' k = Some b /\ m_advances r b.
Proof.
  induction us as [|u rest IH]; intros st st' r mt ms Hreach Hg Hasv Hc Hfold.
  - inversion Hreach; subst. exists r. split; [exact Hg|apply m_advances_refl].
  - rewrite boundary_fold_cons in Hfold. apply orb_false_iff in Hfold. destruct Hfold as [Hhb Hrest].
    inversion Hreach as [|? ? ? ? Hr|? ? ? ? _ Hr]; subst.
    + exact (IH _ _ _ _ _ Hr Hg Hasv (covers_flags_after k mt ms u r Hc) Hrest).
    + destruct (mut_apply_row_step k asv st u r mt ms Hg Hasv Hc Hhb) as (r' & Hg' & Hadv & Hc').
      destruct (IH _ _ r' _ _ Hr Hg' (N.le_trans _ _ _ Hasv (ma_source _ _ Hadv)) Hc' Hrest) as (b & Hb & Hadv').
      exists b. split; [exact Hb|exact (m_advances_trans _ _ _ Hadv Hadv')].
Qed.

Lemma membership_boundary_sound k a us st st' :
  reach st us st' -> get_row st k = Some a -> membership_boundary k a us = false ->
  exists b, get_row st' k = Some b /\ m_advances a b.
Proof.
  intros Hreach Hg Hb.
  refine (boundary_fold_sound k _ us st st' a _ _ Hreach Hg (N.le_refl _) _ Hb). split; auto.
Qed.

(* [cmd_boundary_fold] taken apart in the same way ([cmd_boundary_fold_cons]) *)
Definition cmd_head_boundary (k : mkey) (mt : bool) (u : mut) : bool :=
  match u with
  | MCmdUpsert slot c => mkey_eqb (cmd_membership_key slot c) k && negb (c_tombstone c) && mt
  | _ => false
  end.

Definition cmd_flag_after (k : mkey) (mt : bool) (u : mut) : bool :=
  match u with
  | MCmdTombstoneShard k' _ => mt || mkey_eqb k' k
  | MCmdTombstoneBatch slot c => mt || mkey_eqb (cmd_membership_key slot c) k
  | _ => mt
  end.

Lemma cmd_boundary_fold_cons k mt u r :
  cmd_boundary_fold k mt (u :: r)
  = cmd_head_boundary k mt u || cmd_boundary_fold k (cmd_flag_after k mt u) r.
Proof.
  destruct u; cbn [cmd_boundary_fold cmd_head_boundary cmd_flag_after orb]; reflexivity.
Qed.

Lemma cmd_flag_after_mono k mt u : mt = true -> cmd_flag_after k mt u = true.
Proof. intros ->. destruct u; reflexivity. Qed.

(* as [covers]: the fold's flag over-approximates the tombstone flag of the stored CMD row *)
Definition cmd_covers (mt : bool) (r : cmd_membership) : Prop := c_tombstone r = true -> mt = true.

(* the invariant of [cmd_boundary_fold_sound]'s induction, as [row_kept] *)
Definition cmd_kept (k : mkey) (r : cmd_membership) (mt : bool) (st' : mstate) : Prop :=
  exists r', get_cmd st' k = Some r' /\ c_ack_seq r <= c_ack_seq r' /\ cmd_covers mt r'.

Lemma cmd_kept_same k r mt mt' st st' :
  get_cmd st k = Some r -> cmd_covers mt r -> (mt = true -> mt' = true) ->
  get_cmd st' k = get_cmd st k -> cmd_kept k r mt' st'.
Proof. intros Hg Hc M E. exists r. rewrite E. split; [exact Hg|]. split; [lia|intro C; auto]. Qed.

Lemma cmd_kept_follows k r r' dt mt mt' st' :
  get_cmd st' k = Some r' -> cmd_follows dt r r' -> cmd_covers mt r ->
  mt' = mt || dt -> cmd_kept k r mt' st'.
Proof.
  intros Hg [A T] Hc ->. exists r'. split; [exact Hg|]. split; [exact A|].
  intro C. apply orb_true_iff. destruct (T C); auto.
Qed.

Lemma cmd_mutate_kept k st k0 f dt r mt mt' :
  cmd_closure_follows dt f -> get_cmd st k = Some r -> cmd_covers mt r ->
  mt' = mt || dt && mkey_eqb k0 k ->
  cmd_kept k r mt' (snd (mutateUserCMDChannelMembership st k0 f)).
Proof.
  intros Hf Hg Hc ->. destruct (mkey_eqb k0 k) eqn:E.
  - rewrite andb_true_r. apply (cmd_kept_follows k r (if c_tombstone r then r else f r) dt mt); auto;
      [rewrite get_cmd_mutateCMD, E, Hg; reflexivity|].
    destruct (c_tombstone r) eqn:T; [split; [lia|auto]|apply Hf].
  - rewrite andb_false_r, orb_false_r. apply (cmd_kept_same k r mt mt st); auto.
    rewrite get_cmd_mutateCMD, E. reflexivity.
Qed.

Lemma cmd_apply_row_step k st u r mt :
  get_cmd st k = Some r -> cmd_covers mt r ->
  cmd_head_boundary k mt u = false ->
  cmd_kept k r (cmd_flag_after k mt u) (snd (mut_apply st u)).
Proof.
  intros Hg Hc Hhb.
  assert (Same : get_cmd (snd (mut_apply st u)) k = get_cmd st k ->
                 cmd_kept k r (cmd_flag_after k mt u) (snd (mut_apply st u))).
  { apply (cmd_kept_same k r mt); [exact Hg|exact Hc|apply cmd_flag_after_mono]. }
  destruct (cmd_mut u) eqn:C;
    [|apply Same; unfold get_cmd; rewrite (row_mut_frame st u C); reflexivity].
  destruct u; try discriminate C; cbn [mut_apply cmd_head_boundary cmd_flag_after] in *.
  - (* MCmdUpsert: on its own key the binding becomes the resolver's result; no rebind
       since the head is no boundary *)
    pose proof (get_cmd_cmdUpsert st slot c k) as Hrow. cbn [mut_apply] in Hrow.
    destruct (mkey_eqb (cmd_membership_key slot c) k) eqn:E; cbn [andb] in *; [|apply Same; exact Hrow].
    rewrite Hg in Hrow. destruct (resolve_cmd_spec r c) as [(T1 & T2) | F].
    + rewrite (Hc T1), T2 in Hhb. discriminate.
    + exact (cmd_kept_follows _ _ _ _ _ _ _ Hrow F Hc (eq_sym (orb_false_r mt))).
  - exact (cmd_mutate_kept k st k0 _ false r mt _ (cmdAdvanceAckShard_ok _ _) Hg Hc (eq_sym (orb_false_r mt))).
  - exact (cmd_mutate_kept k st _ _ false r mt _ (cmdAdvanceAckBatch_ok _ _) Hg Hc (eq_sym (orb_false_r mt))).
  - exact (cmd_mutate_kept k st k0 _ true r mt _ (cmdTombstone_ok _ _) Hg Hc eq_refl).
  - exact (cmd_mutate_kept k st _ _ true r mt _ (cmdTombstone_ok _ _) Hg Hc eq_refl).
Qed.

Lemma cmd_boundary_fold_sound k : forall us st st' r mt,
  reach st us st' ->
  get_cmd st k = Some r -> cmd_covers mt r ->
  cmd_boundary_fold k mt us = false ->
  exists b, get_cmd st' k = Some b /\ c_ack_seq r <= c_ack_seq b.
Proof.
  induction us as [|u rest IH]; intros st st' r mt Hreach Hg Hc Hfold.
  - inversion Hreach; subst. exists r. split; [exact Hg|lia].
  - rewrite cmd_boundary_fold_cons in Hfold. apply orb_false_iff in Hfold. destruct Hfold as [Hhb Hrest].
    inversion Hreach as [|? ? ? ? Hr|? ? ? ? _ Hr]; subst.
    + exact (IH _ _ _ _ Hr Hg (fun C => cmd_flag_after_mono k mt u (Hc C)) Hrest).
    + destruct (cmd_apply_row_step k st u r mt Hg Hc Hhb) as (r' & Hg' & Hack & Hc').
      destruct (IH _ _ r' _ Hr Hg' Hc' Hrest) as (b & Hb & Hack'). exists b. split; [exact Hb|lia].
Qed.

Lemma cmd_boundary_sound k a us st st' :
  reach st us st' -> get_cmd st k = Some a -> cmd_boundary k a us = false ->
  exists b, get_cmd st' k = Some b /\ c_ack_seq a <= c_ack_seq b.
Proof. intros Hreach Hg Hb. exact (cmd_boundary_fold_sound k us st st' a _ Hreach Hg (fun C => C) Hb). Qed.
