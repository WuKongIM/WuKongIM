(* Proof/Pending.v — the pending-request table (Model/Pending.v): [Inv], kept by every atomic
   step over all interleavings, and facts about the sequential methods.
   The idea: every channel holds at most one token, in the entry that registers it or on a
   message addressed to it.  Complete, trySend and receive move the token, Delete destroys it,
   Store creates one for a fresh channel: each step permutes [chans], drops or adds an element. *)
From Coq Require Import Permutation.
From WK Require Import Base.Base Base.Bytes Base.Lists Gen.Consts_C26 Model.Pending.
Open Scope N_scope.

Lemma existsb_eqb_map {A} (f : A -> N) v l : existsb (fun x => f x =? v) l = false -> ~ In v (map f l).
Proof.
  intros E I. apply in_map_iff in I. destruct I as (x & <- & Ix).
  pose proof (proj1 (existsb_false _ _) E x Ix) as H. cbn beta in H. rewrite N.eqb_refl in H. discriminate.
Qed.

Lemma perm_to_flight {A} (x : A) i b v : Permutation ((i ++ [x]) ++ b ++ v) (x :: i ++ b ++ v).
Proof. rewrite <- app_assoc. symmetry. apply Permutation_middle. Qed.

Lemma in_to_flight {A} (x y : A) i b : In y ((i ++ [x]) ++ b) -> In y (i ++ b) \/ y = x.
Proof.
  intro H. rewrite <- app_assoc in H. apply in_app_or in H.
  destruct H as [H|[H|H]]; [left; apply in_or_app; left; exact H|right; symmetry; exact H|left; apply in_or_app; right; exact H].
Qed.

Lemma perm_to_buf {A} (x : A) i' i b v : Permutation (x :: i') i -> Permutation (i' ++ (b ++ [x]) ++ v) (i ++ b ++ v).
Proof.
  intro P. rewrite <- P, <- app_assoc. cbn [app]. symmetry. rewrite !app_assoc. apply Permutation_middle.
Qed.

Lemma perm_from_buf {A} (x : A) i b' b v : Permutation (x :: b') b -> Permutation (i ++ b' ++ x :: v) (i ++ b ++ v).
Proof. intro P. rewrite <- P. apply Permutation_app_head. symmetry. apply Permutation_middle. Qed.

Lemma remove_nth_perm {A} : forall k (l : list A) x, nth_error l k = Some x -> Permutation (x :: remove_nth k l) l.
Proof.
  induction k as [|k IH]; intros [|y l] x E; try discriminate; cbn in E; cbn [remove_nth].
  - inversion E. apply Permutation_refl.
  - eapply perm_trans; [apply perm_swap|apply perm_skip, IH, E].
Qed.

Lemma take_first_perm c : forall l m r, take_first c l = (Some m, r) -> Permutation ((c, m) :: r) l.
Proof.
  induction l as [|x l IH]; intros m r E; [discriminate|].
  cbn [take_first] in E. destruct (fst x =? c) eqn:F.
  - apply N.eqb_eq in F. inversion E; subst. destruct x. apply Permutation_refl.
  - destruct (take_first c l) as [m' r']. inversion E; subst.
    eapply perm_trans; [apply perm_swap|apply perm_skip, IH; reflexivity].
Qed.

Lemma take_first_in c : forall b m r, take_first c b = (Some m, r) -> In (c, m) b /\ forall y, In y r -> In y b.
Proof.
  intros b m r T. pose proof (take_first_perm c b m r T) as P.
  split; [|intros y H]; apply (Permutation_in _ P); [left; reflexivity|right; exact H].
Qed.

Lemma take_first_none c' : forall l r, take_first c' l = (None, r) -> r = l.
Proof.
  induction l as [|x l IH]; intros r E; [inversion E; reflexivity|].
  cbn [take_first] in E. destruct (fst x =? c'); [discriminate|].
  destruct (take_first c' l) as [m' r'] eqn:T. inversion E; subst. f_equal. apply IH. reflexivity.
Qed.

Lemma in_remove_id id es x : In x (remove_id id es) -> In x es /\ fst x <> id.
Proof.
  unfold remove_id. intro H. apply filter_In in H. destruct H as [H1 H2].
  split; [exact H1|]. apply negb_true_iff, N.eqb_neq in H2. exact H2.
Qed.

Lemma lookup_none id es : lookup id es = None -> ~ In id (map fst es).
Proof.
  unfold lookup. destruct (find (fun e => fst e =? id) es) eqn:F; [discriminate|]. intros _ I.
  apply in_map_iff in I. destruct I as (x & E & Ix). pose proof (find_none _ _ F x Ix) as H.
  cbn beta in H. rewrite E, N.eqb_refl in H. discriminate.
Qed.

Lemma find_fst_in {A} k (l : list (N * A)) e : find (fun e => fst e =? k) l = Some e -> In e l /\ fst e = k.
Proof. intro F. apply find_some in F. split; [exact (proj1 F)|exact (proj1 (N.eqb_eq _ _) (proj2 F))]. Qed.

Lemma lookup_some_in id es c : lookup id es = Some c -> In (id, c) es.
Proof.
  unfold lookup. destruct (find (fun e => fst e =? id) es) as [[i c']|] eqn:F; [|discriminate].
  intro E. inversion E; subst. destruct (find_fst_in _ _ _ F) as [I K]. cbn in K. subst i. exact I.
Qed.

Lemma lookup_fin_in k fin al : lookup_fin k fin = Some al -> In (k, al) fin.
Proof.
  unfold lookup_fin. destruct (find (fun e => fst e =? k) fin) as [[k' al']|] eqn:F; [|discriminate].
  intro E. inversion E; subst. destruct (find_fst_in _ _ _ F) as [I K]. cbn in K. subst k'. exact I.
Qed.

Lemma not_in_remove_id id es : ~ In id (map fst es) -> remove_id id es = es.
Proof.
  intro H. apply filter_all. intros x Hx. apply negb_true_iff, N.eqb_neq. intro E.
  apply H. rewrite <- E. exact (in_map fst _ _ Hx).
Qed.

Lemma remove_id_perm id es c : NoDup (map fst es) -> lookup id es = Some c ->
  Permutation ((id, c) :: remove_id id es) es.
Proof.
  induction es as [|x es IH]; intros ND L; [discriminate|].
  cbn [map] in ND. inversion ND as [|? ? NI ND']; subst.
  unfold lookup in L. cbn [find] in L. unfold remove_id. cbn [filter].
  destruct (fst x =? id) eqn:E; cbn [negb]; fold (remove_id id es).
  - inversion L; subst. apply N.eqb_eq in E. subst id.
    rewrite (not_in_remove_id _ _ NI). destruct x. apply Permutation_refl.
  - eapply perm_trans; [apply perm_swap|apply perm_skip, IH; assumption].
Qed.

Lemma nodup_remove_id id es : NoDup (map fst es) -> NoDup (map fst (remove_id id es)).
Proof. apply NoDup_map_filter. Qed.

Lemma nodup_insert id c es : NoDup (map fst es) -> NoDup (map fst ((id, c) :: remove_id id es)).
Proof.
  intro ND. cbn [map fst]. constructor; [|apply nodup_remove_id; exact ND].
  intro I. apply in_map_iff in I. destruct I as (x & Ex & Ix). apply in_remove_id in Ix.
  destruct Ix as [_ Ne]. contradiction.
Qed.

Lemma count_chan_absent {A} c (l : list (N * A)) : ~ In c (map fst l) -> count_chan c l = 0.
Proof.
  intro H. unfold count_chan. rewrite filter_none; [reflexivity|].
  intros x Hx. apply N.eqb_neq. intro E. apply H. rewrite <- E. exact (in_map fst _ _ Hx).
Qed.

Lemma count_chan_nodup {A} c (l : list (N * A)) : NoDup (map fst l) -> count_chan c l <= 1.
Proof.
  induction l as [|x l IH]; cbn [map]; intro ND; [discriminate|].
  inversion ND as [|? ? NI ND']; subst. unfold count_chan. cbn [filter].
  destruct (fst x =? c) eqn:E; [|exact (IH ND')].
  apply N.eqb_eq in E. subst c. pose proof (count_chan_absent _ _ NI) as Z.
  unfold count_chan in Z. cbn [length]. lia.
Qed.

Lemma outcome_eqb_true a b : outcome_eqb a b = true -> a = b.
Proof.
  unfold outcome_eqb. intro H. apply andb_true_iff in H. destruct H as [H1 H2].
  apply bytes_eqb_eq in H1. apply N.eqb_eq in H2. destruct a, b. cbn in *. congruence.
Qed.

Lemma outcome_eqb_refl a : outcome_eqb a a = true.
Proof. unfold outcome_eqb. rewrite N.eqb_refl, bytes_eqb_refl. reflexivity. Qed.

Definition msgs (g : gstate) : list (N * msg) :=
  ps_inflight (g_st g) ++ ps_bufs (g_st g) ++ g_recvd g.

Definition chans (g : gstate) : list N := map snd (ps_entries (g_st g)) ++ map fst (msgs g).

Lemma in_msgs_inflight g x : In x (ps_inflight (g_st g)) -> In x (msgs g).
Proof. intro H. apply in_or_app. left. exact H. Qed.

Lemma in_msgs_recvd g x : In x (g_recvd g) -> In x (msgs g).
Proof. intro H. apply in_or_app. right. apply in_or_app. right. exact H. Qed.

Lemma msg_chan_holder g c m : In (c, m) (msgs g) -> In c (chans g).
Proof. intro H. apply in_or_app. right. exact (in_map fst _ _ H). Qed.

Record Inv (cap : N -> N) (g : gstate) : Prop := MkInv {
  inv_entries : forall id c, In (id, c) (ps_entries (g_st g)) -> In (c, id) (g_owner g);
  inv_ids : NoDup (map fst (ps_entries (g_st g)));
  inv_msgs : forall c m id, In (c, m) (msgs g) -> m_tag m = Some id -> In (c, id) (g_owner g);
  inv_owner_chan : NoDup (map fst (g_owner g));
  inv_owner_id : NoDup (map snd (g_owner g));
  (* the token part *)
  inv_tok : NoDup (chans g);
  inv_used : forall c, In c (chans g) -> chan_used c g = true;
  inv_cap : forall c, chan_used c g = true -> 1 <= cap c;
  inv_drops : g_drops g = 0 }.

Lemma inv_init cap : Inv cap ginit.
Proof. constructor; cbn; try (intros; contradiction); try constructor. intros c H. discriminate. Qed.

Lemma nodup_msgs cap g : Inv cap g ->
  NoDup (map fst (ps_inflight (g_st g)) ++ map fst (ps_bufs (g_st g)) ++ map fst (g_recvd g)).
Proof. intro I. pose proof (NoDup_app_r _ _ (inv_tok _ _ I)) as H. unfold msgs in H. rewrite !map_app in H. exact H. Qed.

Lemma chan_used_mono_owner c g c0 id0 s' cc r d :
  chan_used c g = true -> chan_used c (GState s' ((c0, id0) :: g_owner g) cc r d) = true
  \/ existsb (N.eqb c) (g_cchans g) = true.
Proof.
  unfold chan_used. cbn [g_owner g_cchans existsb fst]. intro H.
  apply orb_true_iff in H. destruct H as [H|H]; [left|right; exact H].
  rewrite H. rewrite orb_true_r. reflexivity.
Qed.

(* a step that leaves the ghost registrations alone; [gone]: the tokens it destroys *)
Lemma inv_internal cap g s' r' gone :
  Inv cap g ->
  incl (ps_entries s') (ps_entries (g_st g)) -> NoDup (map fst (ps_entries s')) ->
  (forall c m id, In (c, m) (ps_inflight s' ++ ps_bufs s' ++ r') -> m_tag m = Some id -> In (c, id) (g_owner g)) ->
  Permutation (gone ++ map snd (ps_entries s') ++ map fst (ps_inflight s' ++ ps_bufs s' ++ r')) (chans g) ->
  Inv cap (GState s' (g_owner g) (g_cchans g) r' (g_drops g)).
Proof.
  intros [IA IB IC ID ID2 IE IF IG IH] HE HN HM HT.
  constructor; cbn [g_st g_owner g_cchans g_recvd g_drops]; try assumption.
  - intros id c H. exact (IA id c (HE _ H)).
  - exact (NoDup_app_r _ _ (Permutation_NoDup (Permutation_sym HT) IE)).
  - intros c H. apply (IF c), (Permutation_in _ HT), in_or_app. right. exact H.
Qed.

(* a step that hands a token to a fresh channel [c]: the token part *)
Lemma inv_fresh cap g g' c :
  Inv cap g -> chan_used c g = false -> cap c =? 0 = false ->
  Permutation (c :: chans g) (chans g') ->
  (forall c', chan_used c' g' = (c' =? c) || chan_used c' g) ->
  NoDup (chans g') /\ (forall c', In c' (chans g') -> chan_used c' g' = true)
  /\ forall c', chan_used c' g' = true -> 1 <= cap c'.
Proof.
  intros I U C P CU. apply N.eqb_neq in C. split; [|split].
  - apply (Permutation_NoDup P). constructor; [|apply I]. intro H. apply (inv_used _ _ I) in H. congruence.
  - intros c' H. rewrite CU. apply (Permutation_in _ (Permutation_sym P)) in H.
    destruct H as [<-|H]; [rewrite N.eqb_refl; reflexivity|]. rewrite (inv_used _ _ I c' H). apply orb_true_r.
  - intros c' H. rewrite CU in H. apply orb_true_iff in H.
    destruct H as [H|H]; [apply N.eqb_eq in H; subst; lia|exact (inv_cap _ _ I c' H)].
Qed.

Lemma inv_remove cap g id m :
  Inv cap g -> (forall i, m_tag m = Some i -> i = id) ->
  Inv cap (GState (fst (remove id m (g_st g))) (g_owner g) (g_cchans g) (g_recvd g) (g_drops g)).
Proof.
  intros I TG. unfold remove.
  destruct (lookup id (ps_entries (g_st g))) as [c0|] eqn:L; cbn [fst]; [|destruct g; exact I].
  pose proof (perm_to_flight (c0, m) (ps_inflight (g_st g)) (ps_bufs (g_st g)) (g_recvd g)) as PM.
  apply (inv_internal cap g _ _ []); cbn [ps_entries ps_inflight ps_bufs app];
    [exact I|apply incl_filter|apply nodup_remove_id, I| |].
  - intros c mm i H T. apply (Permutation_in _ PM) in H. destruct H as [H|H]; [|exact (inv_msgs _ _ I c mm i H T)].
    inversion H; subst. rewrite (TG i T). exact (inv_entries _ _ I _ _ (lookup_some_in _ _ _ L)).
  - rewrite PM. unfold chans. rewrite <- (Permutation_map snd (remove_id_perm _ _ _ (inv_ids _ _ I) L)).
    symmetry. apply Permutation_middle.
Qed.

Lemma inv_insert cap g id c :
  Inv cap g -> id_used id g = false -> chan_used c g = false -> cap c =? 0 = false ->
  Inv cap (GState (insert id c (g_st g)) ((c, id) :: g_owner g) (g_cchans g) (g_recvd g) (g_drops g)).
Proof.
  intros I G2 G3 G4.
  assert (NID : ~ In id (map fst (ps_entries (g_st g)))).
  { intro IN. apply in_map_iff in IN. destruct IN as ([i c'] & Ei & Ii). cbn in Ei. subst i.
    exact (existsb_eqb_map snd _ _ G2 (in_map snd _ _ (inv_entries _ _ I _ _ Ii))). }
  match goal with |- Inv _ ?g1 => destruct (inv_fresh cap g g1 c I G3 G4) as (T1 & T2 & T3) end.
  { unfold chans, msgs. cbn [g_st g_recvd insert ps_entries ps_inflight ps_bufs].
    rewrite (not_in_remove_id id _ NID). apply Permutation_refl. }
  { intro c'. unfold chan_used. cbn [g_owner g_cchans existsb fst]. rewrite (N.eqb_sym c c'), orb_assoc. reflexivity. }
  apply orb_false_iff in G3. destruct G3 as [G3 _].
  constructor; try assumption; cbn [g_st g_owner g_cchans g_recvd g_drops insert ps_entries]; try apply I.
  - intros i c' [H|H]; [inversion H; left; reflexivity|].
    right. apply in_remove_id in H. exact (inv_entries _ _ I i c' (proj1 H)).
  - apply nodup_insert, I.
  - intros c' m i H T. right. exact (inv_msgs _ _ I c' m i H T).
  - cbn [map fst]. constructor; [exact (existsb_eqb_map fst _ _ G3)|apply I].
  - cbn [map snd]. constructor; [exact (existsb_eqb_map snd _ _ G2)|apply I].
Qed.

Lemma inv_store_closed cap g c :
  Inv cap g -> chan_used c g = false -> cap c =? 0 = false ->
  Inv cap (GState (store_closed c (g_st g)) (g_owner g) (c :: g_cchans g) (g_recvd g) (g_drops g)).
Proof.
  intros I G3 G4.
  pose proof (perm_to_flight (c, Msg None [] (ps_close_err (g_st g)))
                (ps_inflight (g_st g)) (ps_bufs (g_st g)) (g_recvd g)) as PM.
  match goal with |- Inv _ ?g1 => destruct (inv_fresh cap g g1 c I G3 G4) as (T1 & T2 & T3) end.
  { unfold chans, msgs. cbn [g_st g_recvd store_closed ps_entries ps_inflight ps_bufs].
    rewrite PM. apply Permutation_middle. }
  { intro c'. unfold chan_used. cbn [g_owner g_cchans existsb]. destruct (c' =? c); [apply orb_true_r|reflexivity]. }
  constructor; try assumption; try apply I.
  intros c' m i H T. apply (Permutation_in _ PM) in H.
  destruct H as [H|H]; [inversion H; subst; discriminate T|exact (inv_msgs _ _ I c' m i H T)].
Qed.

Lemma inv_delete cap g id :
  Inv cap g -> Inv cap (GState (delete id (g_st g)) (g_owner g) (g_cchans g) (g_recvd g) (g_drops g)).
Proof.
  intro I. destruct (lookup id (ps_entries (g_st g))) as [c0|] eqn:L.
  - apply (inv_internal cap g _ _ [c0]); cbn [delete ps_entries ps_inflight ps_bufs];
      [exact I|apply incl_filter|apply nodup_remove_id, I|exact (inv_msgs _ _ I)|].
    unfold chans. rewrite <- (Permutation_map snd (remove_id_perm _ _ _ (inv_ids _ _ I) L)).
    apply Permutation_refl.
  - unfold delete. rewrite (not_in_remove_id _ _ (lookup_none _ _ L)). destruct g as [[] ]. exact I.
Qed.

(* trySend finds room: the message in flight holds the channel's only token *)
Lemma inv_send cap g k : Inv cap g ->
  snd (send cap k (g_st g)) = false
  /\ Inv cap (GState (fst (send cap k (g_st g))) (g_owner g) (g_cchans g) (g_recvd g) (g_drops g)).
Proof.
  intro I. unfold send. destruct (nth_error (ps_inflight (g_st g)) k) as [[c m]|] eqn:NE;
    [|split; [reflexivity|destruct g; exact I]].
  pose proof (remove_nth_perm _ _ _ NE) as PI.
  assert (INc : In c (map fst (ps_inflight (g_st g)))) by exact (in_map fst _ _ (nth_error_In _ _ NE)).
  assert (CAP : 1 <= cap c).
  { exact (inv_cap _ _ I c (inv_used _ _ I c (msg_chan_holder g c m (in_msgs_inflight g _ (nth_error_In _ _ NE))))). }
  assert (ROOM : count_chan c (ps_bufs (g_st g)) <? cap c = true).
  { apply N.ltb_lt. rewrite count_chan_absent; [lia|].
    intro B. apply (NoDup_app_disjoint _ _ c (nodup_msgs _ _ I) INc), in_or_app. left. exact B. }
  rewrite ROOM. split; [reflexivity|]. cbn [fst].
  pose proof (perm_to_buf _ _ _ (ps_bufs (g_st g)) (g_recvd g) PI) as PM.
  apply (inv_internal cap g _ _ []); cbn [ps_entries ps_inflight ps_bufs app];
    [exact I|apply incl_refl|apply I| |rewrite PM; apply Permutation_refl].
  intros c' mm i H. exact (inv_msgs _ _ I c' mm i (Permutation_in _ PM H)).
Qed.

Lemma inv_recv cap g c : Inv cap g ->
  Inv cap (GState (fst (recv c (g_st g))) (g_owner g) (g_cchans g)
                  (match snd (recv c (g_st g)) with Some x => (c, x) :: g_recvd g | None => g_recvd g end)
                  (g_drops g)).
Proof.
  intro I. unfold recv. destruct (take_first c (ps_bufs (g_st g))) as [[x|] b] eqn:T; cbn [fst snd];
    [|apply take_first_none in T; subst b; destruct g as [[] ]; exact I].
  pose proof (perm_from_buf _ (ps_inflight (g_st g)) _ _ (g_recvd g) (take_first_perm _ _ _ _ T)) as PM.
  apply (inv_internal cap g _ _ []); cbn [ps_entries ps_inflight ps_bufs app];
    [exact I|apply incl_refl|apply I| |rewrite PM; apply Permutation_refl].
  intros c' mm i H. exact (inv_msgs _ _ I c' mm i (Permutation_in _ PM H)).
Qed.

Lemma inv_close cap g e :
  Inv cap g -> Inv cap (GState (close e (g_st g)) (g_owner g) (g_cchans g) (g_recvd g) (g_drops g)).
Proof.
  intro I. unfold close. destruct (ps_closed (g_st g)); [destruct g; exact I|].
  destruct I. constructor; assumption.
Qed.

Lemma texec_inv cap g t g' : Inv cap g -> texec cap g t = Some g' -> Inv cap g'.
Proof.
  intros I E. destruct t as [id c|c|id|id p e|e|id e|k|c]; cbn [texec] in E.
  - destruct (ps_closed (g_st g) || id_used id g || chan_used c g || (cap c =? 0)) eqn:G; [discriminate|].
    rewrite !orb_false_iff in G. destruct G as [[[_ G2] G3] G4].
    inversion E; subst g'. exact (inv_insert cap g id c I G2 G3 G4).
  - destruct (negb (ps_closed (g_st g)) || chan_used c g || (cap c =? 0)) eqn:G; [discriminate|].
    rewrite !orb_false_iff in G. destruct G as [[_ G3] G4].
    inversion E; subst g'. exact (inv_store_closed cap g c I G3 G4).
  - inversion E; subst g'. exact (inv_delete cap g id I).
  - inversion E; subst g'. apply inv_remove; [exact I|]. cbn. intros i Hi. inversion Hi. reflexivity.
  - inversion E; subst g'. exact (inv_close cap g e I).
  - destruct (negb (ps_closed (g_st g))); [discriminate|]. inversion E; subst g'.
    unfold fail_one. apply inv_remove; [exact I|]. cbn. intros i Hi. discriminate.
  - destruct (inv_send cap g k I) as [D IS]. destruct (send cap k (g_st g)) as [s' dropped].
    cbn [fst snd] in D, IS. subst dropped. inversion E; subst g'. exact IS.
  - pose proof (inv_recv cap g c I) as IR. destruct (recv c (g_st g)) as [s' m]. cbn [fst snd] in IR.
    inversion E; subst g'. exact IR.
Qed.

Lemma reach_inv cap : forall tr g g', Inv cap g -> trun cap g tr = Some g' -> Inv cap g'.
Proof.
  induction tr as [|t tr IH]; intros g g' I E; cbn [trun] in E.
  - inversion E; subst. exact I.
  - destruct (texec cap g t) as [g1|] eqn:X; [|discriminate].
    exact (IH g1 g' (texec_inv cap g t g1 I X) E).
Qed.

Lemma nodup_recvd cap g : Inv cap g -> NoDup (map fst (g_recvd g)).
Proof. intro I. exact (NoDup_app_r _ _ (NoDup_app_r _ _ (nodup_msgs cap g I))). Qed.

Lemma reach_init cap tr g : trun cap ginit tr = Some g -> Inv cap g.
Proof. exact (reach_inv cap tr ginit g (inv_init cap)). Qed.

(* flush = trySend of every in-flight message, in order *)

Definition post_m (cap : N -> N) (b : list (N * msg)) (cm : N * msg) : list (N * msg) :=
  if count_chan (fst cm) b <? cap (fst cm) then b ++ [cm] else b.

Lemma send_all_spec cap : forall l e cl ce b,
  send_all cap (length l) (PState e cl ce l b) = PState e cl ce [] (fold_left (post_m cap) l b).
Proof.
  induction l as [|[c m] l IH]; intros e cl ce b; [reflexivity|].
  cbn [length send_all ps_inflight]. unfold send at 1. cbn [ps_inflight nth_error remove_nth ps_bufs ps_entries ps_closed ps_close_err].
  cbn [fold_left]. unfold post_m at 2. cbn [fst].
  destruct (count_chan c b <? cap c); cbn [fst]; apply IH.
Qed.

Lemma flush_spec cap e cl ce l b :
  flush cap (PState e cl ce l b) = PState e cl ce [] (fold_left (post_m cap) l b).
Proof. unfold flush. cbn [ps_inflight]. apply send_all_spec. Qed.

Lemma in_fold_post cap x : forall l b, In x (fold_left (post_m cap) l b) -> In x (l ++ b).
Proof.
  induction l as [|y l IH]; intros b H; cbn [fold_left app] in *; [exact H|].
  apply IH, in_app_or in H. destruct H as [H|H]; [right; apply in_or_app; left; exact H|].
  unfold post_m in H. destruct (count_chan (fst y) b <? cap (fst y)); [|right; apply in_or_app; right; exact H].
  apply in_app_or in H. destruct H as [H|[<-|[]]]; [right; apply in_or_app; right; exact H|left; reflexivity].
Qed.

Lemma flush_entries cap s : ps_entries (flush cap s) = ps_entries s /\ ps_closed (flush cap s) = ps_closed s.
Proof. destruct s. rewrite flush_spec. split; reflexivity. Qed.

Lemma fail_one_entries id e s : ps_entries (fail_one id e s) = remove_id id (ps_entries s)
  /\ ps_closed (fail_one id e s) = ps_closed s.
Proof.
  unfold fail_one, remove. destruct (lookup id (ps_entries s)) eqn:L; cbn [fst ps_entries ps_closed].
  - split; reflexivity.
  - split; [symmetry; exact (not_in_remove_id _ _ (lookup_none _ _ L))|reflexivity].
Qed.

Lemma fold_fail_empties e : forall l s, (forall x, In x (ps_entries s) -> In (fst x) l) ->
  ps_entries (fold_left (fun st id => fail_one id e st) l s) = [].
Proof.
  induction l as [|id l IH]; intros s H; cbn [fold_left].
  - destruct (ps_entries s) as [|x r]; [reflexivity|destruct (H x (or_introl eq_refl))].
  - apply IH. intros x Hx. rewrite (proj1 (fail_one_entries id e s)) in Hx. apply in_remove_id in Hx.
    destruct Hx as [H1 H2]. destruct (H x H1) as [E|I]; [congruence|exact I].
Qed.

Lemma fold_fail_closed e : forall l s, ps_closed (fold_left (fun st id => fail_one id e st) l s) = ps_closed s.
Proof.
  induction l as [|id l IH]; intro s; cbn [fold_left]; [reflexivity|].
  rewrite IH. apply fail_one_entries.
Qed.

Lemma fail_all_empties_closes cap e s :
  ps_entries (fail_all cap e s) = [] /\ ps_closed (fail_all cap e s) = true.
Proof.
  unfold fail_all. cbv zeta.
  destruct (flush_entries cap (fold_left (fun st id => fail_one id e st) (map fst (ps_entries (close e s))) (close e s))) as [FE FC].
  rewrite FE, FC. split.
  - apply fold_fail_empties. intros x Hx. exact (in_map fst _ _ Hx).
  - rewrite fold_fail_closed. unfold close. destruct (ps_closed s) eqn:C; [exact C|reflexivity].
Qed.

Lemma closed_stays_empty caps s o :
  ps_closed s = true -> ps_entries s = [] ->
  ps_closed (fst (pstep caps s o)) = true /\ ps_entries (fst (pstep caps s o)) = [].
Proof.
  intros C E. destruct o as [id c|id|id p e|e| |c]; cbn [pstep].
  - destruct (cap_of caps c =? 0); cbn [fst]; [split; assumption|].
    unfold store. rewrite C. destruct (flush_entries (cap_of caps) (store_closed c s)) as [FE FC].
    rewrite FE, FC. cbn [store_closed ps_entries ps_closed]. split; assumption.
  - cbn [fst delete ps_closed ps_entries]. rewrite E. split; [exact C|reflexivity].
  - unfold complete, remove. rewrite E. cbn [lookup find fst]. split; assumption.
  - cbn [fst]. destruct (fail_all_empties_closes (cap_of caps) e s) as [A B]. split; assumption.
  - cbn [fst]. split; assumption.
  - unfold recv. destruct (take_first c (ps_bufs s)). cbn [fst ps_closed ps_entries]. split; assumption.
Qed.

(* Complete and Store are the step sequences one uninterrupted call performs (FailAll is not
   linked to its steps) *)

Lemma complete_as_steps cap id p e g :
  ps_inflight (g_st g) = [] ->
  exists g', trun cap g [TRemove id p e; TSend 0] = Some g'
             /\ g_st g' = fst (complete cap id p e (g_st g)).
Proof.
  destruct g as [[es cl ce infl b] ow cc r d]. cbn [g_st ps_inflight]. intros ->.
  cbn [trun texec g_st]. unfold complete, remove. cbn [ps_entries ps_inflight app].
  destruct (lookup id es) as [c|]; cbn [fst]; [rewrite flush_spec|]; unfold send;
    cbn [ps_inflight nth_error remove_nth fold_left ps_bufs ps_entries ps_closed ps_close_err]; unfold post_m; cbn [fst];
    [destruct (count_chan c b <? cap c)|]; eexists; split; reflexivity.
Qed.

Lemma store_as_steps cap id c g :
  ps_inflight (g_st g) = [] -> id_used id g = false -> chan_used c g = false -> 1 <= cap c ->
  exists g', trun cap g (if ps_closed (g_st g) then [TStoreClosed c; TSend 0] else [TInsert id c]) = Some g'
             /\ g_st g' = store cap id c (g_st g).
Proof.
  intros EI U1 U2 CP. assert (C0 : cap c =? 0 = false) by (apply N.eqb_neq; lia).
  unfold store. destruct (ps_closed (g_st g)) eqn:CL; cbn [trun texec]; rewrite CL, ?U1, U2, C0; cbn [negb orb];
    [|eexists; split; reflexivity].
  destruct g as [[es cl ce infl b] ow cc r d]. cbn [g_st ps_inflight] in EI. subst infl.
  unfold store_closed. cbn [g_st ps_entries ps_closed ps_close_err ps_inflight ps_bufs app]. rewrite flush_spec.
  unfold send. cbn [ps_inflight nth_error remove_nth fold_left ps_bufs ps_entries ps_closed ps_close_err].
  unfold post_m. cbn [fst]. destruct (count_chan c b <? cap c); eexists; split; reflexivity.
Qed.
