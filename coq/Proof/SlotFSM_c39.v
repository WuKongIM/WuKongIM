(* Proof/SlotFSM_c39.v — hash-slot migration: deltas are applied exactly once and in source
   order whatever the forwarder duplicates; replaying writes the snapshot already contains
   is harmless for the user registers.  (Model/SlotFSM.v; C39.) *)
From WK Require Import Base.Base Base.Lists.
From WK Require Import Gen.Consts_C15 Gen.Consts_C17 Gen.Consts_C13.
From WK Require Import Model.RuntimeMeta Model.ChanMigration Model.SlotFSM.
From WK Require Import Proof.SlotFSM_machine Proof.SlotFSM_inst Proof.SlotFSM_props.
Open Scope N_scope.

(* a source write forwarded to the target: its source log index and the original command *)
Record dlv := Dlv { dl_idx : N; dl_cmd : hcmd }.

Section Deliver.
  Variable cfg : fsm_cfg.      (* the target's configuration: any *)
  Variable src : N.            (* the source slot *)
  Variable h : N.              (* the migrating hash slot *)
  Hypothesis src_nz : src <> 0.

  (* the apply_delta command the target receives; [tidx] is its index in the target's own log *)
  Definition delta_fcmd (tidx : N) (w : dlv) : fcmd :=
    FCmd true h tidx (HDelta src (dl_idx w) h (Some (dl_cmd w))) [].

  Definition dkey_of (w : dlv) : dkey := DKey h src (dl_idx w).

  Definition wf_dlv (w : dlv) : Prop := dl_idx w <> 0 /\ inner_ok h (dl_cmd w) = true.

  (* the effect of one delivery on the tables: nothing if the delta's record exists, else the
     original command's operations and the record *)
  Definition dstep (d : store) (w : dlv) : store :=
    if dkey_mem (dkey_of w) (st_applied d) then d
    else fold_left eff (plain_ops h (dl_cmd w) ++ [WMarkApplied (dkey_of w)]) d.

  Lemma dstep_eqv d d0 w : store_eqv d d0 -> store_eqv (dstep d w) (dstep d0 w).
  Proof.
    intro E. unfold dstep. replace (st_applied d) with (st_applied d0) by (symmetry; apply E).
    destruct (dkey_mem (dkey_of w) (st_applied d0)); [exact E|]. apply fold_eff_eqv. exact E.
  Qed.

  Lemma good_delta tidx w : wf_dlv w -> good_cmd (delta_fcmd tidx w).
  Proof.
    intros (Hi & Hin). unfold good_cmd, delta_fcmd. cbn [fc_cmd good_hcmd].
    apply N.eqb_neq in Hi. rewrite (proj2 (N.eqb_neq src 0) src_nz), Hi, Hin. reflexivity.
  Qed.

  Lemma deliver_one d tidx w :
    wf_dlv w ->
    exists d', fsm_apply_one cfg d (delta_fcmd tidx w) = (d', inr (R_OK, [])) /\ store_eqv d' (dstep d w).
  Proof.
    intros (Hi & Hin). unfold dstep, dkey_of.
    (* over the fresh staging state delta_seen is the durable record, so [Ap] decides it *)
    destruct (dkey_mem (DKey h src (dl_idx w)) (st_applied d)) eqn:Ap.
    - apply (apply_one_good cfg d _ bstate0 []); [|constructor].
      apply (fsm_delta_replay_noop cfg d bstate0 _ src (dl_idx w) h (Some (dl_cmd w))); auto.
    - eapply apply_one_good.
      + apply (fsm_delta_first cfg d bstate0 _ src (dl_idx w) h (dl_cmd w)); auto.
      + apply Forall_app. split; [apply plain_ops_good|repeat constructor].
  Qed.

  (* a delivery schedule, one apply_delta per batch: every batch is answered ok and the tables are
     those of folding [dstep] over the schedule *)
  Theorem deliver_effect ps : forall d d0,
      Forall (fun p => wf_dlv (snd p)) ps ->
      store_eqv d d0 ->
      exists d', fsm_apply_individually cfg d (map (fun p => delta_fcmd (fst p) (snd p)) ps)
                 = (d', BRes (map (fun _ => (R_OK, [])) ps))
                 /\ store_eqv d' (fold_left dstep (map snd ps) d0).
  Proof.
    induction ps as [|[tidx w] ps IH]; intros d d0 Hw E.
    - exists d. split; [reflexivity|exact E].
    - inversion Hw as [|? ? Hw1 Hws]; subst. cbn [snd fst] in Hw1.
      destruct (deliver_one d tidx w Hw1) as (d1 & H1 & E1).
      assert (E1' : store_eqv d1 (dstep d0 w)).
      { eapply store_eqv_trans; [exact E1|apply dstep_eqv; exact E]. }
      destruct (IH d1 (dstep d0 w) Hws E1') as (d' & Hind & E').
      exists d'. split; [|exact E'].
      unfold fsm_apply_individually in *. cbn [map apply_individually fst snd]. rewrite H1, Hind. reflexivity.
  Qed.

  Fixpoint first_occ (seen : list N) (l : list dlv) : list dlv :=
    match l with
    | [] => []
    | w :: r => if memN (dl_idx w) seen then first_occ seen r else w :: first_occ (dl_idx w :: seen) r
    end.

  Lemma dstep_applied d w k :
    dkey_mem k (st_applied (dstep d w)) = dkey_mem k (st_applied d) || dkey_eqb k (dkey_of w).
  Proof.
    unfold dstep. destruct (dkey_mem (dkey_of w) (st_applied d)) eqn:Ap.
    - destruct (dkey_eqb k (dkey_of w)) eqn:E; [|rewrite orb_false_r; reflexivity].
      apply dkey_eqb_eq in E. subst k. rewrite Ap. reflexivity.
    - rewrite fold_left_app. cbn [fold_left eff]. cbn [st_applied set_applied].
      rewrite dkey_mem_insert, st_applied_fold_eff, plain_ops_applied. apply orb_comm.
  Qed.

  Theorem first_occurrences_only l : forall seen d,
      (forall i, dkey_mem (DKey h src i) (st_applied d) = memN i seen) ->
      fold_left dstep l d = fold_left dstep (first_occ seen l) d.
  Proof.
    induction l as [|w l IH]; intros seen d Hs; cbn [fold_left first_occ]; [reflexivity|].
    destruct (memN (dl_idx w) seen) eqn:M.
    - assert (Hd : dstep d w = d).
      { unfold dstep, dkey_of. rewrite (Hs (dl_idx w)), M. reflexivity. }
      rewrite Hd. apply IH. exact Hs.
    - cbn [fold_left]. apply IH. intro i. rewrite dstep_applied, Hs. unfold dkey_of, dkey_eqb. cbn [dk_hs dk_src dk_idx].
      rewrite !N.eqb_refl. cbn [andb memN existsb]. fold (memN i seen). apply orb_comm.
  Qed.

  (* no loss, no duplication: a schedule in which every write W_1..W_n of the source occurs, first
     occurrences in source order, arbitrary duplicates anywhere, gives the target exactly the
     tables of applying W_1..W_n once each in order; [seen]: the deltas the target applied before *)
  Theorem exactly_once seen ps ws d :
    Forall (fun p => wf_dlv (snd p)) ps ->
    (forall i, dkey_mem (DKey h src i) (st_applied d) = memN i seen) ->
    first_occ seen (map snd ps) = ws ->
    exists d', fsm_apply_individually cfg d (map (fun p => delta_fcmd (fst p) (snd p)) ps)
               = (d', BRes (map (fun _ => (R_OK, [])) ps))
               /\ store_eqv d' (fold_left dstep ws d).
  Proof.
    intros Hw Hseen <-.
    destruct (deliver_effect ps d d Hw (store_eqv_refl d)) as (d' & Hrun & E).
    exists d'. split; [exact Hrun|]. rewrite <- (first_occurrences_only (map snd ps) seen d Hseen). exact E.
  Qed.

  (* ... and the same under any cut of the deliveries into batches (the deltas are good commands) *)
  Theorem exactly_once_any_batching seen bs ps ws d :
    concat bs = map (fun p => delta_fcmd (fst p) (snd p)) ps ->
    Forall (fun p => wf_dlv (snd p)) ps ->
    (forall i, dkey_mem (DKey h src i) (st_applied d) = memN i seen) ->
    first_occ seen (map snd ps) = ws ->
    exists d' outs, fsm_apply_partition cfg d bs = (d', outs)
                    /\ all_results outs = Some (map (fun _ => (R_OK, [])) ps)
                    /\ store_eqv d' (fold_left dstep ws d).
  Proof.
    intros Hc Hw Hseen Hocc. destruct (exactly_once seen ps ws d Hw Hseen Hocc) as (d1 & Hrun & E1).
    assert (Hg : Forall good_cmd (concat bs)).
    { rewrite Hc. apply Forall_map. revert Hw. apply Forall_impl. intros [tidx w]. apply good_delta. }
    rewrite <- Hc in Hrun.
    destruct (overlay_partition (R:=fres) _ _ _ _ _ _ (R_STALE, []) _ _ _ _ _ (fsm_overlay_machine cfg) bs d d1 _ Hg Hrun)
      as (d' & outs & Hp & Hall & E').
    exists d', outs. split; [exact Hp|]. split; [exact Hall|]. exact (store_eqv_trans _ _ _ E' E1).
  Qed.
End Deliver.

(* what a user command does to the row of one key *)
Inductive rop := RId | RPut (u : urow) | RCreate (u : urow).

Definition rop_apply (f : rop) (s : option urow) : option urow :=
  match f with
  | RId => s
  | RPut u => Some u
  | RCreate u => match s with Some _ => s | None => Some u end
  end.

(* composition: [rop_comp g f] is "f then g" *)
Definition rop_comp (g f : rop) : rop :=
  match g with
  | RId => f
  | RPut u => RPut u
  | RCreate u => match f with RId => RCreate u | RPut v => RPut v | RCreate v => RCreate v end
  end.

Lemma rop_comp_ok g f s : rop_apply (rop_comp g f) s = rop_apply g (rop_apply f s).
Proof. destruct g, f, s; reflexivity. Qed.

Lemma rop_idem f s : rop_apply f (rop_apply f s) = rop_apply f s.
Proof. destruct f, s; reflexivity. Qed.

Definition rops_apply (fs : list rop) (s : option urow) : option urow := fold_left (fun x f => rop_apply f x) fs s.

Definition rops_comp (fs : list rop) : rop := fold_left (fun acc f => rop_comp f acc) fs RId.

Lemma rops_apply_app a b s : rops_apply (a ++ b) s = rops_apply b (rops_apply a s).
Proof. apply fold_left_app. Qed.

Lemma rops_comp_ok fs s : rop_apply (rops_comp fs) s = rops_apply fs s.
Proof.
  unfold rops_comp. change s with (rop_apply RId s) at 2. generalize RId. revert s.
  induction fs as [|f fs IH]; intros s acc; cbn [fold_left rops_apply]; [reflexivity|].
  rewrite IH, rop_comp_ok. reflexivity.
Qed.

(* a sequence of register operations composes to one register operation, and every register
   operation is idempotent *)
Lemma rops_idem fs s : rops_apply fs (rops_apply fs s) = rops_apply fs s.
Proof. rewrite <- !rops_comp_ok. apply rop_idem. Qed.

(* [a]: the writes before forwarding starts; [b]: those both in the snapshot and replayed as
   deltas; [c]: those after the snapshot *)
Theorem replay_overlap_harmless a b c s :
  rops_apply (b ++ c) (rops_apply (a ++ b) s) = rops_apply (a ++ b ++ c) s.
Proof. rewrite !rops_apply_app, rops_idem. reflexivity. Qed.

Theorem replay_prefix_harmless fs k s :
  rops_apply fs (rops_apply (firstn k fs) s) = rops_apply fs s.
Proof.
  rewrite <- (firstn_skipn k fs) at 1 3. exact (replay_overlap_harmless [] (firstn k fs) (skipn k fs) s).
Qed.

Lemma ukey_spec h1 u1 h2 u2 : reflect (h1 = h2 /\ u1 = u2) ((h1 =? h2) && bytes_eqb u1 u2).
Proof.
  apply iff_reflect. rewrite andb_true_iff, N.eqb_eq, bytes_eqb_eq. reflexivity.
Qed.

Lemma user_get_del l k hs uid :
  user_get (user_del l k) hs uid = if (ur_hs k =? hs) && bytes_eqb (ur_uid k) uid then None else user_get l hs uid.
Proof.
  induction l as [|y l IH]; cbn [user_del user_get].
  - destruct ((ur_hs k =? hs) && bytes_eqb (ur_uid k) uid); reflexivity.
  - unfold urow_same. destruct (ukey_spec (ur_hs y) (ur_uid y) (ur_hs k) (ur_uid k)) as [(-> & ->)|Nyk].
    + rewrite IH. destruct ((ur_hs k =? hs) && bytes_eqb (ur_uid k) uid); reflexivity.
    + cbn [user_get]. rewrite IH.
      destruct (ukey_spec (ur_hs y) (ur_uid y) hs uid) as [(<- & <-)|]; [|reflexivity].
      destruct (ukey_spec (ur_hs k) (ur_uid k) (ur_hs y) (ur_uid y)) as [(A & B)|]; [|reflexivity].
      exfalso. apply Nyk. auto.
Qed.

Lemma user_get_insert l k hs uid :
  user_get l (ur_hs k) (ur_uid k) = None ->
  user_get (user_insert l k) hs uid = if (ur_hs k =? hs) && bytes_eqb (ur_uid k) uid then Some k else user_get l hs uid.
Proof.
  induction l as [|y l IH]; intro Hn; cbn [user_insert user_get]; [reflexivity|].
  cbn [user_get] in Hn.
  destruct (ukey_spec (ur_hs y) (ur_uid y) (ur_hs k) (ur_uid k)) as [|Nyk]; [discriminate|].
  destruct (urow_ltb k y); cbn [user_get]; [reflexivity|]. rewrite (IH Hn).
  destruct (ukey_spec (ur_hs y) (ur_uid y) hs uid) as [(<- & <-)|]; [|reflexivity].
  destruct (ukey_spec (ur_hs k) (ur_uid k) (ur_hs y) (ur_uid y)) as [(A & B)|]; [|reflexivity].
  exfalso. apply Nyk. auto.
Qed.

Lemma user_get_put l k hs uid :
  user_get (user_put l k) hs uid = if (ur_hs k =? hs) && bytes_eqb (ur_uid k) uid then Some k else user_get l hs uid.
Proof.
  unfold user_put. rewrite user_get_insert; rewrite user_get_del.
  - destruct ((ur_hs k =? hs) && bytes_eqb (ur_uid k) uid); reflexivity.
  - rewrite N.eqb_refl, bytes_eqb_refl. reflexivity.
Qed.

(* the row operation of a user command for one key *)
Definition rop_of (hs : N) (c : hcmd) (k_hs : N) (k_uid : bytes) : rop :=
  match c with
  | HUser create u token flag level =>
      if (hs =? k_hs) && bytes_eqb u k_uid
      then (if create then RCreate (URow hs u token flag level) else RPut (URow hs u token flag level))
      else RId
  | _ => RId
  end.

Lemma user_cmd_is_rop hs c d k_hs k_uid :
  user_get (st_users (fold_left eff (plain_ops hs c) d)) k_hs k_uid =
  rop_apply (rop_of hs c k_hs k_uid) (user_get (st_users d) k_hs k_uid).
Proof.
  destruct c; try reflexivity. cbn [plain_ops fold_left eff rop_of ur_hs ur_uid].
  assert (P : user_get (st_users (set_users d (user_put (st_users d) (URow hs uid token flag level)))) k_hs k_uid =
              if (hs =? k_hs) && bytes_eqb uid k_uid then Some (URow hs uid token flag level)
              else user_get (st_users d) k_hs k_uid) by apply user_get_put.
  destruct create; [|rewrite P; destruct ((hs =? k_hs) && bytes_eqb uid k_uid); reflexivity].
  destruct (user_get (st_users d) hs uid) as [r|] eqn:G; [|rewrite P];
    (destruct (ukey_spec hs uid k_hs k_uid) as [(E1 & E2)|]; [subst k_hs k_uid; rewrite G|]; reflexivity).
Qed.

(* the user rows after a sequence of user commands for hash slot [hs] *)
Definition apply_writes (hs : N) (cs : list hcmd) (d : store) : store :=
  fold_left (fun acc c => fold_left eff (plain_ops hs c) acc) cs d.

Lemma apply_writes_rops hs cs : forall d k_hs k_uid,
    user_get (st_users (apply_writes hs cs d)) k_hs k_uid =
    rops_apply (map (fun c => rop_of hs c k_hs k_uid) cs) (user_get (st_users d) k_hs k_uid).
Proof.
  induction cs as [|c cs IH]; intros d k_hs k_uid; cbn [apply_writes fold_left map rops_apply]; [reflexivity|].
  fold (apply_writes hs cs (fold_left eff (plain_ops hs c) d)). rewrite IH, user_cmd_is_rop. reflexivity.
Qed.

(* the snapshot the target starts from contains a prefix of the writes that are then replayed
   in full as deltas: every user row ends as on the source *)
Theorem snapshot_overlap_harmless hs cs k d k_hs k_uid :
  user_get (st_users (apply_writes hs cs (apply_writes hs (firstn k cs) d))) k_hs k_uid =
  user_get (st_users (apply_writes hs cs d)) k_hs k_uid.
Proof.
  rewrite !apply_writes_rops. rewrite <- firstn_map. apply replay_prefix_harmless.
Qed.

(* ... and [apply_writes] is what the deliveries of [exactly_once] do to the user table when none of
   the writes was applied before *)
Lemma plain_ops_users hs c d d' :
  st_users d = st_users d' ->
  st_users (fold_left eff (plain_ops hs c) d) = st_users (fold_left eff (plain_ops hs c) d').
Proof.
  intro H. destruct c; try exact H. cbn [plain_ops fold_left eff]. rewrite H.
  destruct create; [destruct (user_get (st_users d') _ _); [exact H|]|]; reflexivity.
Qed.

Lemma dstep_users src h ws : forall d d',
    st_users d = st_users d' ->
    NoDup (map dl_idx ws) ->
    (forall w, In w ws -> dkey_mem (dkey_of src h w) (st_applied d) = false) ->
    st_users (fold_left (dstep src h) ws d) = st_users (apply_writes h (map dl_cmd ws) d').
Proof.
  induction ws as [|w ws IH]; intros d d' Hu Hnd Hfresh; [exact Hu|].
  cbn [map] in Hnd. inversion Hnd as [|? ? Hnin Hnd']; subst. cbn [fold_left map]. apply IH; [|exact Hnd'|].
  - unfold dstep. rewrite (Hfresh w (or_introl eq_refl)), fold_left_app. apply plain_ops_users, Hu.
  - intros w' Hin. rewrite dstep_applied, (Hfresh w' (or_intror Hin)).
    destruct (dkey_eqb (dkey_of src h w') (dkey_of src h w)) eqn:E; [|reflexivity].
    apply dkey_eqb_eq in E. inversion E as [Ei]. exfalso. apply Hnin. rewrite <- Ei. apply in_map, Hin.
Qed.
