(* Proof/Delivery_queue.v — the array / free-list orderedPlanQueue refines a
   vector of per-shard FIFO lists. *)
From WK Require Import Base.Base Base.Lists Gen.Consts_C31 Model.Delivery.
From Coq Require Import Permutation.
Open Scope nat_scope.

Lemma upd_length {A} (i : nat) (x : A) (l : list A) : length (upd i x l) = length l.
Proof.
  revert i. induction l as [|y l IH]; intros i; simpl.
  - reflexivity.
  - destruct i; simpl; [reflexivity| rewrite IH; reflexivity].
Qed.

Lemma nth_upd {A} (i j : nat) (x d : A) (l : list A) :
  nth j (upd i x l) d = if (i =? j) && (i <? length l) then x else nth j l d.
Proof.
  revert i j. induction l as [|y l IH]; intros i j; simpl.
  - rewrite andb_false_r. destruct j; reflexivity.
  - destruct i, j; simpl; try reflexivity. apply IH.
Qed.

Lemma nth_upd_eq {A} (i : nat) (x d : A) (l : list A) :
  i < length l -> nth i (upd i x l) d = x.
Proof. intros H. rewrite nth_upd, Nat.eqb_refl, (proj2 (Nat.ltb_lt _ _) H). reflexivity. Qed.

Lemma nth_upd_neq {A} (i j : nat) (x d : A) (l : list A) :
  i <> j -> nth j (upd i x l) d = nth j l d.
Proof. intros H. rewrite nth_upd, (proj2 (Nat.eqb_neq _ _) H). reflexivity. Qed.

Lemma map_upd {A B} (g : A -> B) (i : nat) (x : A) (l : list A) :
  map g (upd i x l) = upd i (g x) (map g l).
Proof.
  revert i. induction l as [|y l IH]; intros i; simpl.
  - reflexivity.
  - destruct i; simpl; [reflexivity| rewrite IH; reflexivity].
Qed.

Lemma in_nth_concat {A} (sl : list (list A)) (s : nat) (x : A) :
  In x (nth s sl []) -> In x (concat sl).
Proof.
  revert s. induction sl as [|l sl IH]; intros s H; simpl in *.
  - destruct s; contradiction.
  - apply in_or_app. destruct s; [left; exact H| right; eapply IH; exact H].
Qed.

Lemma concat_disjoint {A} (sl : list (list A)) :
  NoDup (concat sl) ->
  forall s s' x, s <> s' -> In x (nth s sl []) -> In x (nth s' sl []) -> False.
Proof.
  induction sl as [|l sl IH]; intros ND s s' x Hne H1 H2; simpl in *.
  - destruct s; contradiction.
  - destruct s as [|s]; destruct s' as [|s']; try congruence.
    + apply in_nth_concat in H2. exact (NoDup_app_disjoint _ _ _ ND H1 H2).
    + apply in_nth_concat in H1. exact (NoDup_app_disjoint _ _ _ ND H2 H1).
    + apply (IH (NoDup_app_r _ _ ND) s s' x); [congruence| assumption| assumption].
Qed.

Lemma concat_upd_snoc {A} (sl : list (list A)) (s : nat) (i : A) :
  s < length sl ->
  Permutation (concat (upd s (nth s sl [] ++ [i]) sl)) (i :: concat sl).
Proof.
  revert s. induction sl as [|l sl IH]; intros s H; simpl in *; [lia|].
  destruct s as [|s]; simpl.
  - rewrite <- app_assoc. simpl. apply Permutation_sym. apply Permutation_middle.
  - eapply Permutation_trans.
    + apply Permutation_app_head. apply IH. lia.
    + apply Permutation_sym. apply Permutation_middle.
Qed.

Lemma concat_upd_tail {A} (sl : list (list A)) (s : nat) (i : A) (r : list A) :
  nth s sl [] = i :: r ->
  Permutation (concat sl) (i :: concat (upd s r sl)).
Proof.
  revert s. induction sl as [|l sl IH]; intros s H; simpl in *.
  - destruct s; discriminate.
  - destruct s as [|s]; simpl.
    + subst l. reflexivity.
    + eapply Permutation_trans.
      * apply Permutation_app_head. apply IH. exact H.
      * apply Permutation_sym. apply Permutation_middle.
Qed.

Lemma aq_enqueue_spec cap a closed p a' r :
  aq_enqueue cap a closed p = (a', r) ->
  match r with
  | EnqOk => closed = false /\ aq_total a < cap
             /\ a' = upd (plan_shard (length a) p) (nth (plan_shard (length a) p) a [] ++ [p]) a
  | EnqClosed => closed = true /\ a' = a
  | EnqFull => closed = false /\ cap <= aq_total a /\ a' = a
  end.
Proof.
  unfold aq_enqueue. destruct closed; [intros [= <- <-]; auto|].
  destruct (Nat.leb_spec cap (aq_total a)); intros [= <- <-]; auto.
Qed.

Lemma aq_pop_spec a s a' g :
  aq_pop a s = (a', g) ->
  match g with
  | None => nth s a [] = [] /\ a' = a
  | Some p => exists r, nth s a [] = p :: r /\ a' = upd s r a
  end.
Proof. unfold aq_pop. destruct (nth s a []) as [|p r]; intros [= <- <-]; eauto. Qed.

(* following the next links from h visits exactly the nodes of l, then ends *)
Fixpoint chain (nxt : list (option nat)) (h : option nat) (l : list nat) : Prop :=
  match l with
  | [] => h = None
  | i :: r => h = Some i /\ chain nxt (nth i nxt None) r
  end.

Definition last_opt (l : list nat) : option nat :=
  match l with [] => None | _ => Some (last l 0) end.

Lemma chain_ext nxt nxt' h l :
  (forall j, In j l -> nth j nxt' None = nth j nxt None) -> chain nxt h l -> chain nxt' h l.
Proof.
  revert h. induction l as [|i r IH]; intros h H; simpl; [auto|]. intros [-> C].
  split; [reflexivity|]. rewrite (H i (or_introl eq_refl)).
  apply IH; [intros j Hj; apply H; right; exact Hj| exact C].
Qed.

Lemma last_in (l : list nat) d : l <> [] -> In (last l d) l.
Proof.
  induction l as [|a l IH]; intros H; [congruence|].
  destruct l as [|b l]; [left; reflexivity|].
  right. apply IH. congruence.
Qed.

(* linking node i behind the last node of l, the way enqueue does it: an empty
   chain gets i as its head, otherwise the tail's link is set *)
Lemma chain_snoc nxt h l i :
  chain nxt h l -> NoDup l -> ~ In i l ->
  (forall j, In j l -> j < length nxt) -> i < length nxt ->
  chain (match last_opt l with None => upd i None nxt | Some t => upd t (Some i) (upd i None nxt) end)
        (match last_opt l with None => Some i | Some _ => h end) (l ++ [i]).
Proof.
  revert h. induction l as [|a l IH]; intros h Hc ND Hi Hb Hib; simpl in Hc.
  { split; [reflexivity|]. apply nth_upd_eq. exact Hib. }
  destruct Hc as [-> Hc]. inversion ND as [|? ? Ha ND']; subst.
  cbn [last_opt app chain]. split; [reflexivity|].
  destruct l as [|b l].
  - simpl. rewrite nth_upd_eq by (rewrite upd_length; apply Hb; left; reflexivity).
    split; [reflexivity|].
    rewrite nth_upd_neq by (intro E; apply Hi; left; exact E). apply nth_upd_eq. exact Hib.
  - change (last (a :: b :: l) 0) with (last (b :: l) 0).
    rewrite nth_upd_neq by (intros <-; apply Ha, last_in; discriminate).
    rewrite nth_upd_neq by (intros <-; apply Hi; left; reflexivity).
    apply (IH (nth a nxt None) Hc ND'); [|intros j Hj; apply Hb; right; exact Hj| exact Hib].
    intro Hj. apply Hi. right. exact Hj.
Qed.

(* fl: the node indices on the free chain, in chain order; sl: per shard the node
   indices of its chain, in FIFO order *)
Record QInv (q : pq) (fl : list nat) (sl : list (list nat)) : Prop := {
  qi_len_plans : length (pq_plans q) = pq_cap q;
  qi_len_next : length (pq_next q) = pq_cap q;
  qi_len_heads : length (pq_heads q) = length sl;
  qi_len_tails : length (pq_tails q) = length sl;
  qi_free : chain (pq_next q) (pq_free q) fl;
  qi_shards : forall s, s < length sl ->
      chain (pq_next q) (nth s (pq_heads q) None) (nth s sl [])
      /\ nth s (pq_tails q) None = last_opt (nth s sl []);
  qi_nodup : NoDup (fl ++ concat sl);
  qi_bound : forall i, In i (fl ++ concat sl) -> i < pq_cap q;
  qi_count : length (fl ++ concat sl) = pq_cap q;
  qi_depth : pq_depth q = length (concat sl);
  qi_pos : 0 < length sl }.

(* abs reads the per-shard FIFO lists of plans off the chains sl *)
Definition plan_at (plans : list plan) (i : nat) : plan := nth i plans zero_plan.
Definition abs (q : pq) (sl : list (list nat)) : aq := map (map (plan_at (pq_plans q))) sl.

Lemma QInv_heads_pos q fl sl : QInv q fl sl -> 0 < length (pq_heads q).
Proof. intros I. rewrite (qi_len_heads _ _ _ I). exact (qi_pos _ _ _ I). Qed.

Lemma abs_length q sl : length (abs q sl) = length sl.
Proof. apply map_length. Qed.

Lemma abs_total q sl : aq_total (abs q sl) = length (concat sl).
Proof.
  unfold aq_total, abs. rewrite <- concat_map. apply map_length.
Qed.

Lemma chain_init cap k :
  k <= cap ->
  chain (init_next cap) (if k =? cap then None else Some k) (seq k (cap - k)).
Proof.
  intros Hk. remember (cap - k) as n eqn:En. revert k Hk En.
  induction n as [|n IH]; intros k Hk En; simpl.
  - assert (k = cap) by lia. subst. rewrite Nat.eqb_refl. reflexivity.
  - assert (Hlt : k < cap) by lia.
    destruct (Nat.eqb_spec k cap) as [E|_]; [lia|]. split; [reflexivity|].
    assert (E : nth k (init_next cap) None = (if S k =? cap then None else Some (S k))).
    { unfold init_next.
      set (g := fun i : nat => if S i =? cap then None else Some (S i)).
      rewrite (nth_indep (map g (seq 0 cap)) None (g 0))
        by (rewrite map_length, seq_length; exact Hlt).
      rewrite (map_nth g (seq 0 cap) 0 k). rewrite seq_nth by exact Hlt. reflexivity. }
    rewrite E. apply (IH (S k)); lia.
Qed.

Lemma concat_repeat_nil {A} n : concat (repeat (@nil A) n) = [].
Proof. induction n; simpl; auto. Qed.

Lemma newq_inv cap shards :
  0 < cap -> 0 < shards -> QInv (newq_nat cap shards) (seq 0 cap) (repeat [] shards).
Proof.
  intros Hc Hs0. constructor; simpl.
  - apply repeat_length.
  - unfold init_next. rewrite map_length, seq_length. reflexivity.
  - rewrite !repeat_length. reflexivity.
  - rewrite !repeat_length. reflexivity.
  - pose proof (chain_init cap 0 (Nat.le_0_l cap)) as H.
    destruct (Nat.eqb_spec 0 cap); [lia|]. rewrite Nat.sub_0_r in H. exact H.
  - intros s Hs. rewrite repeat_length in Hs. rewrite !nth_repeat.
    simpl. split; reflexivity.
  - rewrite concat_repeat_nil, app_nil_r. apply seq_NoDup.
  - intros i Hi. rewrite concat_repeat_nil, app_nil_r in Hi. apply in_seq in Hi. lia.
  - rewrite concat_repeat_nil, app_nil_r. apply seq_length.
  - rewrite concat_repeat_nil. reflexivity.
  - rewrite repeat_length. exact Hs0.
Qed.

Lemma map_map_repeat_nil {A B} (g : A -> B) n : map (map g) (repeat [] n) = repeat [] n.
Proof. induction n; simpl; [reflexivity| f_equal; assumption]. Qed.

Lemma newq_abs cap shards : abs (newq_nat cap shards) (repeat [] shards) = repeat [] shards.
Proof. apply map_map_repeat_nil. Qed.

Lemma last_opt_snoc l i : last_opt (l ++ [i]) = Some i.
Proof.
  unfold last_opt. destruct (l ++ [i]) eqn:E.
  - destruct l; discriminate.
  - rewrite <- E. rewrite last_last. reflexivity.
Qed.

Lemma last_opt_none l : last_opt l = None -> l = [].
Proof. destruct l; [reflexivity| discriminate]. Qed.

Lemma last_opt_some l t : last_opt l = Some t -> l <> [] /\ t = last l 0.
Proof. destruct l; [discriminate|]. intros E. inversion E. split; [congruence| reflexivity]. Qed.

Lemma nodup_nth_concat {A} (sl : list (list A)) (s : nat) :
  NoDup (concat sl) -> NoDup (nth s sl []).
Proof.
  revert s. induction sl as [|l0 sl IH]; intros s ND; simpl in *.
  - destruct s; constructor.
  - destruct s; [exact (NoDup_app_l _ _ ND)| apply IH; exact (NoDup_app_r _ _ ND)].
Qed.

Lemma abs_upd plans i x (sl : list (list nat)) :
  ~ In i (concat sl) -> map (map (plan_at (upd i x plans))) sl = map (map (plan_at plans)) sl.
Proof.
  intros H. apply map_ext_in. intros l Hl. apply map_ext_in. intros j Hj. apply nth_upd_neq.
  intros <-. apply H, in_concat. exists l. auto.
Qed.

(* free list and shard lists partition the node indices: kept by moving a node *)
Lemma part_perm cap (a b : list nat) :
  Permutation b a -> NoDup a -> (forall i, In i a -> i < cap) -> length a = cap ->
  NoDup b /\ (forall i, In i b -> i < cap) /\ length b = cap.
Proof.
  intros P N B L. split; [exact (Permutation_NoDup (Permutation_sym P) N)|].
  split; [intros i Hi; exact (B i (Permutation_in i P Hi))| rewrite (Permutation_length P); exact L].
Qed.

Lemma nth_map_nil {A B} (g : A -> B) (l : list (list A)) (k : nat) :
  nth k (map (map g) l) [] = map g (nth k l []).
Proof. change (@nil B) with (map g []). apply map_nth. Qed.

Lemma plan_shard_lt n p : 0 < n -> plan_shard n p < n.
Proof.
  intros H. unfold plan_shard, shardIndex.
  assert (N.of_nat n <> 0%N) by lia.
  pose proof (N.mod_lt (chan_hash (e_chtype (p_event p)) (e_chid (p_event p))) (N.of_nat n) H0). lia.
Qed.

Lemma shard_function n p p' :
  e_chtype (p_event p) = e_chtype (p_event p') -> e_chid (p_event p) = e_chid (p_event p') ->
  plan_shard n p = plan_shard n p'.
Proof. intros A B. unfold plan_shard. rewrite A, B. reflexivity. Qed.

Lemma enqueue_refines q fl sl closed p q' r :
  QInv q fl sl -> pq_enqueue q closed p = (q', r) ->
  exists fl' sl', QInv q' fl' sl'
    /\ aq_enqueue (pq_cap q) (abs q sl) closed p = (abs q' sl', r)
    /\ pq_cap q' = pq_cap q /\ length sl' = length sl.
Proof.
  intros I E. unfold pq_enqueue in E. unfold aq_enqueue.
  pose proof I as [QLp QLn QLh QLt QF QS QN QB QC QD QP].
  destruct closed.
  { inversion E; subst. exists fl, sl. auto. }
  rewrite abs_total. rewrite <- QD.
  destruct (pq_cap q <=? pq_depth q) eqn:Hfull.
  { inversion E; subst. exists fl, sl. auto. }
  apply Nat.leb_gt in Hfull.
  destruct (pq_free q) as [i|] eqn:Hf.
  2:{ destruct fl as [|x fl]; [|simpl in QF; destruct QF; discriminate].
      simpl in QC. lia. }
  destruct fl as [|i0 fl']; [simpl in QF; discriminate|].
  simpl in QF. destruct QF as [[= <-] QF].
  set (s := plan_shard (length (pq_heads q)) p) in *.
  assert (Hs : s < length sl) by (rewrite <- QLh; apply plan_shard_lt, (QInv_heads_pos _ _ _ I)).
  replace (plan_shard (length (abs q sl)) p) with s by (unfold s; rewrite abs_length, QLh; reflexivity).
  simpl in QN. inversion QN as [|? ? Hi_notin ND']; subst.
  pose proof (NoDup_app_r _ _ ND') as NDc.
  assert (Hi_fl : ~ In i fl') by (intro H; apply Hi_notin, in_or_app; left; exact H).
  assert (Hi_c : ~ In i (concat sl)) by (intro H; apply Hi_notin, in_or_app; right; exact H).
  assert (Hib : i < pq_cap q) by (apply QB; left; reflexivity).
  destruct (QS s Hs) as [Hch Htail]. rewrite Htail in E.
  set (l := nth s sl []) in *.
  pose proof (in_nth_concat sl s : forall j, In j l -> In j (concat sl)) as Hl_c.
  set (sl' := upd s (l ++ [i]) sl).
  set (nxt' := match last_opt l with
               | None => upd i None (pq_next q)
               | Some t => upd t (Some i) (upd i None (pq_next q))
               end).
  set (hds' := match last_opt l with None => upd s (Some i) (pq_heads q) | Some _ => pq_heads q end).
  assert (Eq : q' = PQ (pq_cap q) (upd i p (pq_plans q)) nxt' hds' (upd s (Some i) (pq_tails q))
                       (nth i (pq_next q) None) (S (pq_depth q)) /\ r = EnqOk).
  { unfold nxt', hds'. destruct (last_opt l); inversion E; auto. }
  destruct Eq as [-> ->]. clear E.
  (* the new links leave every node outside l and i as it was *)
  assert (Hagree : forall j, j <> i -> ~ In j l -> nth j nxt' None = nth j (pq_next q) None).
  { intros j Hji Hjl. unfold nxt'. destruct (last_opt l) as [t|] eqn:El.
    - apply last_opt_some in El. destruct El as [Hne ->].
      rewrite !nth_upd_neq; [reflexivity| congruence| intros <-; apply Hjl, last_in, Hne].
    - apply nth_upd_neq. congruence. }
  assert (Hperm : Permutation (fl' ++ concat sl') ((i :: fl') ++ concat sl)).
  { simpl. eapply Permutation_trans.
    - apply Permutation_app_head. apply concat_upd_snoc. exact Hs.
    - apply Permutation_sym. apply Permutation_middle. }
  destruct (part_perm _ _ _ Hperm (NoDup_cons _ Hi_notin ND') QB QC) as (P1 & P2 & P3).
  exists fl', sl'. split; [|split; [|split; [reflexivity| apply upd_length]]].
  - constructor; cbn [pq_cap pq_plans pq_next pq_heads pq_tails pq_free pq_depth]; try assumption.
    + rewrite upd_length. exact QLp.
    + unfold nxt'. destruct (last_opt l); rewrite !upd_length; exact QLn.
    + unfold hds', sl'. destruct (last_opt l); rewrite !upd_length; exact QLh.
    + unfold sl'. rewrite !upd_length. exact QLt.
    + apply (chain_ext (pq_next q)); [|exact QF]. intros j Hj.
      apply Hagree; [intros ->; exact (Hi_fl Hj)|].
      intro H. exact (NoDup_app_disjoint _ _ _ ND' Hj (Hl_c j H)).
    + intros s' Hs'. unfold sl' in Hs' |- *. rewrite upd_length in Hs'.
      destruct (Nat.eq_dec s' s) as [->|Hne].
      * rewrite !nth_upd_eq by (rewrite ?QLt; exact Hs). split; [|symmetry; apply last_opt_snoc].
        replace (nth s hds' None)
          with (match last_opt l with None => Some i | Some _ => nth s (pq_heads q) None end)
          by (unfold hds'; destruct (last_opt l); [|rewrite nth_upd_eq by (rewrite QLh; exact Hs)]; reflexivity).
        apply chain_snoc; [exact Hch| exact (nodup_nth_concat sl s NDc)| | |rewrite QLn; exact Hib].
        -- intro H. exact (Hi_c (Hl_c i H)).
        -- intros j Hj. rewrite QLn. apply QB. right. apply in_or_app. right. exact (Hl_c j Hj).
      * rewrite !nth_upd_neq by congruence.
        replace (nth s' hds' None) with (nth s' (pq_heads q) None)
          by (unfold hds'; destruct (last_opt l); [|rewrite nth_upd_neq by congruence]; reflexivity).
        destruct (QS s' Hs') as [C T]. split; [|exact T].
        apply (chain_ext (pq_next q)); [|exact C]. intros j Hj. apply Hagree.
        -- intros ->. exact (Hi_c (in_nth_concat sl s' i Hj)).
        -- intro H. exact (concat_disjoint sl NDc s s' j (fun e => Hne (eq_sym e)) H Hj).
    + rewrite QD. exact (eq_sym (Permutation_length (concat_upd_snoc sl s i Hs))).
    + unfold sl'. rewrite upd_length. exact QP.
  - unfold abs, sl'. cbn [pq_plans]. rewrite map_upd, nth_map_nil, map_app, (abs_upd _ _ _ _ Hi_c).
    fold l. do 3 f_equal.
    + apply map_ext_in. intros j Hj. symmetry. apply nth_upd_neq. intros <-. exact (Hi_c (Hl_c i Hj)).
    + simpl. f_equal. symmetry. apply nth_upd_eq. rewrite QLp. exact Hib.
Qed.

Lemma pop_refines q fl sl s q' g :
  QInv q fl sl -> pq_pop q s = (q', g) ->
  exists fl' sl', QInv q' fl' sl'
    /\ aq_pop (abs q sl) s = (abs q' sl', g)
    /\ pq_cap q' = pq_cap q /\ length sl' = length sl.
Proof.
  intros I E. unfold pq_pop in E. unfold aq_pop.
  pose proof I as [QLp QLn QLh QLt QF QS QN QB QC QD QP].
  destruct (Nat.lt_ge_cases s (length sl)) as [Hs|Hs].
  2:{ rewrite nth_overflow in E by (rewrite QLh; exact Hs).
      inversion E; subst. exists fl, sl.
      rewrite nth_overflow by (rewrite abs_length; exact Hs). auto. }
  destruct (QS s Hs) as [Hch Htail].
  unfold abs at 1. rewrite nth_map_nil.
  destruct (nth s (pq_heads q) None) as [i|] eqn:Hh.
  2:{ destruct (nth s sl []) as [|x l]; [|simpl in Hch; destruct Hch; discriminate].
      inversion E; subst. exists fl, sl. auto. }
  destruct (nth s sl []) as [|i0 r] eqn:Hl; [simpl in Hch; discriminate|].
  simpl in Hch. destruct Hch as [[= <-] Hch].
  inversion E; subst q' g. clear E.
  set (sl' := upd s r sl).
  pose proof (concat_upd_tail sl s i r Hl) as Hp. fold sl' in Hp.
  pose proof (NoDup_app_r _ _ QN) as NDc.
  assert (Hi_c : In i (concat sl)) by (apply (in_nth_concat sl s); rewrite Hl; left; reflexivity).
  assert (Hi_fl : ~ In i fl) by (intro H; exact (NoDup_app_disjoint _ _ _ QN H Hi_c)).
  pose proof (Permutation_NoDup Hp NDc) as NDc'. inversion NDc' as [|? ? Hi_c' _]; subst.
  assert (Hib : i < pq_cap q) by (apply QB, in_or_app; right; exact Hi_c).
  assert (Hperm : Permutation ((i :: fl) ++ concat sl') (fl ++ concat sl)).
  { simpl. eapply Permutation_trans; [apply Permutation_middle|].
    apply Permutation_app_head, Permutation_sym, Hp. }
  destruct (part_perm _ _ _ Hperm QN QB QC) as (P1 & P2 & P3).
  assert (Hi_r : ~ In i r).
  { intro H. apply Hi_c', (in_nth_concat sl' s). unfold sl'. rewrite nth_upd_eq by exact Hs. exact H. }
  (* only the link of node i changes *)
  assert (Hagree : forall l, ~ In i l -> forall j, In j l ->
            nth j (upd i (pq_free q) (pq_next q)) None = nth j (pq_next q) None).
  { intros l Hil j Hj. apply nth_upd_neq. intros <-. exact (Hil Hj). }
  exists (i :: fl), sl'. split; [|split; [|split; [reflexivity| apply upd_length]]].
  - constructor; cbn [pq_cap pq_plans pq_next pq_heads pq_tails pq_free pq_depth]; try assumption.
    + rewrite upd_length. exact QLp.
    + rewrite upd_length. exact QLn.
    + unfold sl'. rewrite !upd_length. exact QLh.
    + unfold sl'. destruct (nth i (pq_next q) None); rewrite !upd_length; exact QLt.
    + simpl. split; [reflexivity|]. rewrite nth_upd_eq by (rewrite QLn; exact Hib).
      exact (chain_ext _ _ _ _ (Hagree fl Hi_fl) QF).
    + intros s' Hs'. unfold sl' in Hs' |- *. rewrite upd_length in Hs'.
      destruct (Nat.eq_dec s' s) as [->|Hne].
      * rewrite !nth_upd_eq by (rewrite ?QLh; exact Hs). split; [exact (chain_ext _ _ _ _ (Hagree r Hi_r) Hch)|].
        destruct r as [|j r']; simpl in Hch.
        -- rewrite Hch. apply nth_upd_eq. rewrite QLt. exact Hs.
        -- destruct Hch as [-> _]. exact Htail.
      * rewrite !nth_upd_neq by congruence. destruct (QS s' Hs') as [C T]. split.
        -- refine (chain_ext _ _ _ _ (Hagree _ _) C). intro H.
           apply (concat_disjoint sl NDc s s' i); [congruence| rewrite Hl; left; reflexivity| exact H].
        -- destruct (nth i (pq_next q) None); [|rewrite nth_upd_neq by congruence]; exact T.
    + rewrite QD, (Permutation_length Hp). reflexivity.
    + unfold sl'. rewrite upd_length. exact QP.
  - simpl. f_equal. unfold abs, sl'. cbn [pq_plans]. fold sl'. rewrite (abs_upd _ _ _ _ Hi_c').
    unfold sl'. rewrite map_upd. reflexivity.
Qed.
