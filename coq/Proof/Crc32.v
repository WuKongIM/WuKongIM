(* Proof/Crc32.v — the table-driven loop equals the bitwise CRC for every byte
   list; the regenerated IEEETable is the table of the IEEE polynomial. *)
From WK Require Import Base.Base Base.Lists Gen.Consts_C21 Model.Crc32.
Open Scope N_scope.

Lemma table_is_ieee : gen_table = IEEETable.
Proof. vm_compute. reflexivity. Qed.

Lemma table_length : length IEEETable = 256%nat.
Proof. rewrite <- table_is_ieee. reflexivity. Qed.

(* bit_step is GF(2)-linear *)
Lemma odd_lxor a b : N.odd (N.lxor a b) = xorb (N.odd a) (N.odd b).
Proof. rewrite <- !N.bit0_odd. apply N.lxor_spec. Qed.

Lemma bit_step_lxor a b : bit_step (N.lxor a b) = N.lxor (bit_step a) (bit_step b).
Proof.
  unfold bit_step. rewrite odd_lxor, N.shiftr_lxor.
  destruct (N.odd a), (N.odd b); cbn [xorb]; apply N.bits_inj; intro n; rewrite ?N.lxor_spec;
    destruct (N.testbit (N.shiftr a 1) n), (N.testbit (N.shiftr b 1) n), (N.testbit poly n); reflexivity.
Qed.

Lemma step8_lxor a b : step8 (N.lxor a b) = N.lxor (step8 a) (step8 b).
Proof. unfold step8. rewrite !bit_step_lxor. reflexivity. Qed.

(* on a multiple of 2^k, k steps just shift *)
Lemma bit_step_shiftl h k : bit_step (N.shiftl h (N.succ k)) = N.shiftl h k.
Proof.
  unfold bit_step. rewrite <- N.bit0_odd, N.shiftl_spec_low by lia.
  rewrite N.shiftr_shiftl_l by lia. f_equal. lia.
Qed.

Lemma iter_bit_step_shiftl h k : N.iter k bit_step (N.shiftl h k) = h.
Proof.
  induction k using N.peano_ind; [apply N.shiftl_0_r|].
  rewrite N.iter_succ_r, bit_step_shiftl. exact IHk.
Qed.

Lemma step8_shiftl8 h : step8 (N.shiftl h 8) = h.
Proof. exact (iter_bit_step_shiftl h 8). Qed.

Lemma split_low8 x : x = N.lxor (x mod 256) (N.shiftl (N.shiftr x 8) 8).
Proof.
  apply N.bits_inj. intro n. rewrite N.lxor_spec.
  change 256 with (2 ^ 8).
  destruct (N.lt_ge_cases n 8) as [Hlt|Hge].
  - rewrite N.mod_pow2_bits_low by exact Hlt.
    rewrite N.shiftl_spec_low by exact Hlt. rewrite xorb_false_r. reflexivity.
  - rewrite N.mod_pow2_bits_high by exact Hge.
    rewrite N.shiftl_spec_high by (try apply N.le_0_l; exact Hge).
    rewrite N.shiftr_spec by apply N.le_0_l.
    replace (n - 8 + 8) with n by lia. rewrite xorb_false_l. reflexivity.
Qed.

Lemma nth_gen_table i : i < 256 -> nth (N.to_nat i) gen_table 0 = step8 i.
Proof.
  intros Hi. unfold gen_table. rewrite nth_map_seq by lia. rewrite N2Nat.id. reflexivity.
Qed.

Lemma step8_split x : step8 x = N.lxor (nth (N.to_nat (x mod 256)) IEEETable 0) (N.shiftr x 8).
Proof.
  rewrite (split_low8 x) at 1. rewrite step8_lxor, step8_shiftl8.
  rewrite <- table_is_ieee, nth_gen_table; [reflexivity|].
  apply N.mod_lt. discriminate.
Qed.

Lemma lxor_mod256 c b : b < 256 -> (N.lxor c b) mod 256 = N.lxor (c mod 256) b.
Proof.
  intros Hb. apply N.bits_inj. intro n. change 256 with (2 ^ 8).
  destruct (N.lt_ge_cases n 8) as [Hlt|Hge].
  - rewrite N.mod_pow2_bits_low by exact Hlt. rewrite !N.lxor_spec.
    rewrite N.mod_pow2_bits_low by exact Hlt. reflexivity.
  - rewrite N.mod_pow2_bits_high by exact Hge. rewrite N.lxor_spec.
    rewrite N.mod_pow2_bits_high by exact Hge.
    rewrite <- (N.mod_small b (2 ^ 8) Hb), N.mod_pow2_bits_high by exact Hge. reflexivity.
Qed.

Lemma shiftr8_lxor_byte c b : b < 256 -> N.shiftr (N.lxor c b) 8 = N.shiftr c 8.
Proof.
  intros Hb. rewrite N.shiftr_lxor.
  assert (N.shiftr b 8 = 0) as ->.
  { rewrite N.shiftr_div_pow2. apply N.div_small. exact Hb. }
  apply N.lxor_0_r.
Qed.

Lemma upd_table_eq c b : b < 256 -> upd_table c b = upd_bitwise c b.
Proof.
  intros Hb. unfold upd_table, upd_bitwise. rewrite step8_split.
  rewrite lxor_mod256 by exact Hb. rewrite shiftr8_lxor_byte by exact Hb.
  reflexivity.
Qed.

Lemma fold_upd_eq bs : forall c, all_bytes bs = true ->
  fold_left upd_table bs c = fold_left upd_bitwise bs c.
Proof.
  induction bs as [|b bs IH]; intros c Hall; [reflexivity|].
  simpl in Hall. apply andb_true_iff in Hall. destruct Hall as [Hb Hall].
  unfold is_byte in Hb. apply N.ltb_lt in Hb.
  cbn [fold_left]. rewrite upd_table_eq by exact Hb. apply IH. exact Hall.
Qed.

Lemma crc32_table_eq_bitwise bs : all_bytes bs = true -> crc32_table bs = crc32_bitwise bs.
Proof. intros H. unfold crc32_table, crc32_bitwise. rewrite fold_upd_eq by exact H. reflexivity. Qed.

(* routing_slot and hashslot_slot are this expression of their CRC *)
Lemma mod_slot_lt h count : 0 < count -> (if count =? 0 then 0 else h mod count) < count.
Proof.
  intros Hc. destruct (N.eqb_spec count 0) as [->|Hnz]; [lia|]. apply N.mod_lt. exact Hnz.
Qed.

Lemma slot_zero_count key : routing_slot key 0 = 0 /\ hashslot_slot key 0 = 0.
Proof. split; reflexivity. Qed.

(* one bit step keeps a 32-bit value 32-bit (no bound is proved here for the whole fold) *)
Lemma bit_step_bound c : c < 2 ^ 32 -> bit_step c < 2 ^ 32.
Proof.
  intros Hc. unfold bit_step.
  assert (Hs : N.shiftr c 1 < 2 ^ 31).
  { rewrite N.shiftr_div_pow2. change (2 ^ 1) with 2.
    apply N.div_lt_upper_bound; [discriminate|]. change (2 * 2 ^ 31) with (2 ^ 32). exact Hc. }
  destruct (N.odd c).
  - destruct (N.eq_dec (N.lxor (N.shiftr c 1) poly) 0) as [->|Hnz]; [reflexivity|].
    apply N.log2_lt_pow2; [lia|].
    eapply N.le_lt_trans; [apply N.log2_lxor|].
    apply N.max_lub_lt.
    + destruct (N.eq_dec (N.shiftr c 1) 0) as [->|Hz]; [reflexivity|].
      apply N.log2_lt_pow2; [lia|]. eapply N.lt_trans; [exact Hs|]. reflexivity.
    + reflexivity.
  - eapply N.lt_trans; [exact Hs|]. reflexivity.
Qed.

(* the model's monitor and mismatch are consistent with the theorems:
   if the implementation outputs equal the model's, the monitor accepts *)
Lemma model_satisfies_monitor key count : all_bytes key = true ->
  C21_monitor (C21Case key count (routing_slot key count) (hashslot_slot key count)
                       (hashslot_slot key count) (crc32_table key) (crc32_bitwise key)) = 0.
Proof.
  intros H. unfold C21_monitor. cbn [c21_routing c21_hashslot c21_bench c21_count c21_crc c21_std].
  unfold routing_slot. rewrite crc32_table_eq_bitwise by exact H. fold (hashslot_slot key count).
  rewrite !N.eqb_refl. simpl.
  destruct (N.eqb_spec count 0) as [->|Hnz]; [reflexivity|].
  simpl. assert (Hlt : hashslot_slot key count < count) by (apply mod_slot_lt; lia).
  apply N.ltb_lt in Hlt. rewrite Hlt. reflexivity.
Qed.
