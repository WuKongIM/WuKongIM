(* Proof/MsgEvent_monitor.v — the model satisfies the C40 monitor: the durable
   tables of the model refine the abstract table specification the monitor
   runs on the implementation's results ([spec_append]); reducer calls satisfy
   [reduce_monitor]. *)
From WK Require Import Base.Base Base.Lists.
From WK Require Import Gen.Consts_C40 Model.MsgEvent Model.MsgEvent_C40 Proof.MsgEvent.
Open Scope N_scope.

Lemma state_eqb_refl s : state_eqb s s = true.
Proof. unfold state_eqb. rewrite !bytes_eqb_refl, !Z.eqb_refl, !N.eqb_refl. reflexivity. Qed.
Lemma cursor_eqb_refl c : cursor_eqb c c = true.
Proof. unfold cursor_eqb. rewrite !bytes_eqb_refl, !Z.eqb_refl, !N.eqb_refl. reflexivity. Qed.
Lemma applied_eqb_refl a : applied_eqb a a = true.
Proof. unfold applied_eqb. rewrite !bytes_eqb_refl, !Z.eqb_refl, !N.eqb_refl. reflexivity. Qed.
Lemma result_eqb_refl r : result_eqb r r = true.
Proof. unfold result_eqb. rewrite !bytes_eqb_refl, !Z.eqb_refl, !N.eqb_refl, state_eqb_refl. reflexivity. Qed.

Lemma subset_b_refl {A} (eqb : A -> A -> bool) (R : forall x, eqb x x = true) l : subset_b eqb l l = true.
Proof.
  unfold subset_b. apply forallb_forall. intros x Hx. apply existsb_exists. exists x. split; [exact Hx|apply R].
Qed.

Lemma same_set_refl {A} (eqb : A -> A -> bool) (R : forall x, eqb x x = true) l : same_set eqb l l = true.
Proof. unfold same_set. rewrite Nat.eqb_refl, subset_b_refl by exact R. reflexivity. Qed.

Lemma dump_eqb_refl d : dump_eqb d d = true.
Proof.
  unfold dump_eqb. rewrite !same_set_refl by (apply state_eqb_refl || apply applied_eqb_refl).
  destruct (d_cursor d); cbn; [rewrite cursor_eqb_refl|]; reflexivity.
Qed.

Definition abs_srow (x : N * State) := (fst x, abs_state (snd x)).
Definition abs_crow (x : N * Cursor) := (fst x, abs_cursor (snd x)).
Definition abs_arow (x : N * Applied) := (fst x, abs_applied (snd x)).

Definition abs_db (db : DB) : DB :=
  mkDB (map abs_srow (db_states db)) (map abs_crow (db_cursors db)) (map abs_arow (db_applied db)).

Lemma get_state_abs db hs c t m key : get_state (abs_db db) hs c t m key = option_map abs_state (get_state db hs c t m key).
Proof. apply find_mapped. reflexivity. Qed.

Lemma get_cursor_abs db hs c t m : get_cursor (abs_db db) hs c t m = option_map abs_cursor (get_cursor db hs c t m).
Proof. apply find_mapped. reflexivity. Qed.

Lemma get_applied_abs db hs c t m id : get_applied (abs_db db) hs c t m id = option_map abs_applied (get_applied db hs c t m id).
Proof. apply find_mapped. reflexivity. Qed.

Lemma cursor_seq_abs db hs c t m : cursor_seq (abs_db db) hs c t m = cursor_seq db hs c t m.
Proof. unfold cursor_seq. rewrite get_cursor_abs. destruct (get_cursor db hs c t m); reflexivity. Qed.

Lemma abs_put_rows db hs s cu a :
  abs_db (put_rows db hs s cu a) = put_rows (abs_db db) hs (abs_state s) (abs_cursor cu) (abs_applied a).
Proof.
  unfold abs_db, put_rows. cbn [db_states db_cursors db_applied]. f_equal.
  - apply (upsert_map abs_srow). intros [h y]. reflexivity.
  - apply (upsert_map abs_crow). intros [h y]. reflexivity.
  - apply (upsert_map abs_arow). intros [h y]. reflexivity.
Qed.

Lemma abs_dump_of db hs c t m : abs_dump (dump_of db hs c t m) = dump_of (abs_db db) hs c t m.
Proof.
  unfold abs_dump, dump_of. cbn [d_hs d_channel d_ctype d_msgno d_states d_cursor d_applied].
  f_equal.
  - unfold states_of, abs_db. cbn [db_states]. rewrite filter_map_comm, !map_map.
    erewrite filter_ext; [reflexivity|]. intros [h s]. reflexivity.
  - symmetry. apply get_cursor_abs.
  - unfold applied_of, abs_db. cbn [db_applied]. rewrite filter_map_comm, !map_map.
    erewrite filter_ext; [reflexivity|]. intros [h s]. reflexivity.
Qed.

Lemma normalize_etype e ne :
  normalizeMessageEventAppend e = Some ne -> e_etype ne = ToLower (TrimSpace (e_etype e)).
Proof.
  unfold normalizeMessageEventAppend.
  destruct (is_empty (TrimSpace (e_channel e)) || (e_ctype e <=? 0)%Z || is_empty (TrimSpace (e_msgno e))
            || is_empty (TrimSpace (e_id e)) || is_empty (ToLower (TrimSpace (e_etype e)))); [discriminate|].
  destruct (event_kind (ToLower (TrimSpace (e_etype e)))); [|discriminate].
  intro H. inversion H. reflexivity.
Qed.

Lemma abs_put_applied db hs ne st' cu' :
  lane_of st' = (msg_of ne, e_key ne) -> cursor_msg cu' = msg_of ne -> st_last_id st' = e_id ne ->
  st_seq st' = cu_seq cu' ->
  abs_db (put_rows db hs st' cu' (messageEventAppliedFromResult ne (messageEventAppendResult ne st')))
  = put_rows (abs_db db) hs
      (mkState (e_channel ne) (e_ctype ne) (e_msgno ne) (e_key ne) (st_status st') (st_seq st') (e_id ne) [] [] 0%Z snap_empty 0 [] 0%Z)
      (mkCursor (e_channel ne) (e_ctype ne) (e_msgno ne) (st_seq st') 0%Z)
      (mkApplied (e_channel ne) (e_ctype ne) (e_msgno ne) (e_id ne) (e_key ne) (st_seq st') (st_status st') 0%Z).
Proof.
  intros [= Sc St Sm Sk] [= Cc Ct Cm] Si Ss. rewrite abs_put_rows. f_equal.
  - unfold abs_state. rewrite Sc, St, Sm, Sk, Si. reflexivity.
  - unfold abs_cursor. rewrite Cc, Ct, Cm, Ss. reflexivity.
  - unfold abs_applied. cbn. rewrite Sk. reflexivity.
Qed.

(* the three cases of [spec_append], on any abstract table state *)
Lemma spec_append_replay g hs te r a :
  get_applied g hs (r_channel r) (r_ctype r) (r_msgno r) (r_id r) = Some a ->
  r_key r = ap_key a -> r_seq r = ap_seq a -> r_status r = ap_status a ->
  spec_append g hs te r = Some g.
Proof. intros Ga K Q S. unfold spec_append. rewrite Ga, K, Q, S, !bytes_eqb_refl, N.eqb_refl. reflexivity. Qed.

Lemma spec_append_finalized g hs te r s :
  get_applied g hs (r_channel r) (r_ctype r) (r_msgno r) (r_id r) = None ->
  get_state g hs (r_channel r) (r_ctype r) (r_msgno r) (r_key r) = Some s ->
  (bytes_eqb (st_last_id s) (r_id r) || isMessageEventTerminal (st_status s)) = true ->
  r_seq r = st_seq s -> r_status r = st_status s ->
  spec_append g hs te r = Some g.
Proof. intros Ga Gs C Q S. unfold spec_append. rewrite Ga, Gs, C, Q, S, N.eqb_refl, bytes_eqb_refl. reflexivity. Qed.

Lemma spec_append_applied g hs te r :
  get_applied g hs (r_channel r) (r_ctype r) (r_msgno r) (r_id r) = None ->
  match get_state g hs (r_channel r) (r_ctype r) (r_msgno r) (r_key r) with
  | Some s => (bytes_eqb (st_last_id s) (r_id r) || isMessageEventTerminal (st_status s)) = false
  | None => True end ->
  r_seq r = wrap_succ (cursor_seq g hs (r_channel r) (r_ctype r) (r_msgno r)) ->
  isMessageEventTerminal (r_status r) = te ->
  spec_append g hs te r
  = Some (put_rows g hs
            (mkState (r_channel r) (r_ctype r) (r_msgno r) (r_key r) (r_status r) (r_seq r) (r_id r) [] [] 0%Z snap_empty 0 [] 0%Z)
            (mkCursor (r_channel r) (r_ctype r) (r_msgno r) (r_seq r) 0%Z)
            (mkApplied (r_channel r) (r_ctype r) (r_msgno r) (r_id r) (r_key r) (r_seq r) (r_status r) 0%Z)).
Proof.
  intros Ga Gs Q T. unfold spec_append. rewrite Ga.
  fold (cursor_seq g hs (r_channel r) (r_ctype r) (r_msgno r)). rewrite <- Q, N.eqb_refl, T, eqb_reflx.
  destruct (get_state g hs _ _ _ _) as [s|]; [rewrite Gs|]; reflexivity.
Qed.

Lemma spec_append_refines db hs e r db' :
  AppendMessageEvent db hs e = ((ENone, Some r), db') ->
  spec_append (abs_db db) hs (event_is_terminal e) r = Some (abs_db db').
Proof.
  intros E. pose proof (append_cases db hs e) as C. rewrite E in C.
  inversion C as [ | ne a Nm Ga | ne s Nm Ga Gs Cd | ne st' cu' Nm [Ga Gc Sl Cm Si Cs Ss Tm]]; subst.
  - apply (spec_append_replay _ _ _ _ (abs_applied a)); try reflexivity.
    cbn [r_channel r_ctype r_msgno r_id messageEventAppendResultFromApplied]. rewrite get_applied_abs, Ga. reflexivity.
  - injection (get_state_key _ _ _ _ _ _ _ Gs) as _ _ _ K.
    apply (spec_append_finalized _ _ _ _ (abs_state s)); try reflexivity;
      cbn [r_channel r_ctype r_msgno r_id r_key messageEventAppendResult].
    + rewrite get_applied_abs, Ga. reflexivity.
    + rewrite K, get_state_abs, Gs. reflexivity.
    + exact Cd.
  - rewrite (abs_put_applied db hs ne st' cu' Sl Cm Si Ss). injection Sl as _ _ _ Sk. rewrite <- Sk.
    apply spec_append_applied; cbn [r_channel r_ctype r_msgno r_id r_key r_seq r_status messageEventAppendResult].
    + rewrite get_applied_abs, Ga. reflexivity.
    + rewrite Sk, get_state_abs.
      destruct (get_state db hs (e_channel ne) (e_ctype ne) (e_msgno ne) (e_key ne)); [exact Gc | exact I].
    + rewrite cursor_seq_abs. congruence.
    + unfold event_is_terminal. rewrite <- (normalize_etype _ _ Nm). exact Tm.
Qed.

Lemma append_outcome db hs e :
  (exists r db', AppendMessageEvent db hs e = ((ENone, Some r), db'))
  \/ AppendMessageEvent db hs e = ((EInvalidArgument, None), db).
Proof.
  pose proof (append_cases db hs e) as C. destruct (AppendMessageEvent db hs e) as [out db'] eqn:E.
  inversion C; subst; try (right; reflexivity); left; eauto.
Qed.

Lemma spec_appends_refines evs : forall db,
  exists calls,
    zip_exact evs (fst (batch_appends db evs)) = Some calls
    /\ spec_appends (abs_db db) calls = Some (abs_db (snd (batch_appends db evs))).
Proof.
  induction evs as [|[hs e] r IH]; intros db.
  - exists []. cbn [zip_exact batch_appends fst snd spec_appends]. split; reflexivity.
  - cbn [batch_appends].
    destruct (append_outcome db hs e) as [(res & db1 & E) | E]; rewrite E.
    + destruct (IH db1) as (calls & Z & Sp).
      destruct (batch_appends db1 r) as [os db2] eqn:Eb. cbn [fst snd] in *.
      exists ((hs, e, (ENone, Some res)) :: calls). cbn [zip_exact]. rewrite Z.
      split; [reflexivity|]. cbn [spec_appends]. rewrite (spec_append_refines db hs e res db1 E). exact Sp.
    + destruct (IH db) as (calls & Z & Sp).
      destruct (batch_appends db r) as [os db2] eqn:Eb. cbn [fst snd] in *.
      exists ((hs, e, (EInvalidArgument, None)) :: calls). cbn [zip_exact]. rewrite Z.
      split; [reflexivity|]. cbn [spec_appends]. exact Sp.
Qed.

Definition dump_key := (N * bytes * Z * bytes)%type.

Definition dumps_for (db : DB) (ks : list dump_key) : list Dump :=
  map (fun k => match k with (hs, c, t, m) => dump_of db hs c t m end) ks.

(* the trace the model produces for a history: what the harness would observe *)
Fixpoint meta_trace (ks : list dump_key) (db : DB) (ops : list MetaOp) : list (MetaOp * MetaObs) :=
  match ops with
  | [] => []
  | op :: r =>
    let '(outs, db') := meta_step db op in
    (op, mkMetaObs outs ENone (dumps_for db' ks)) :: meta_trace ks db' r
  end.

Lemma dumps_are_model db ks : dumps_are (abs_db db) (dumps_for db ks) = true.
Proof.
  unfold dumps_are, dumps_for. apply forallb_forall. intros d Hd. apply in_map_iff in Hd.
  destruct Hd as ([[[hs c] t] m] & <- & _). cbn [d_hs d_channel d_ctype d_msgno dump_of].
  rewrite abs_dump_of. apply dump_eqb_refl.
Qed.

Definition op_events (op : MetaOp) : list (N * Event) :=
  match op with MAppend hs e => [(hs, e)] | MBatch evs => evs end.

Lemma meta_step_batch db op : meta_step db op = batch_appends db (op_events op).
Proof.
  destruct op as [hs e|evs]; cbn [meta_step op_events batch_appends]; [|reflexivity].
  destruct (AppendMessageEvent db hs e) as [o db']. reflexivity.
Qed.

Lemma meta_model_satisfies_monitor ops : forall ks db,
  meta_monitor (abs_db db) (meta_trace ks db ops) = 0.
Proof.
  induction ops as [|op r IH]; intros ks db; cbn [meta_trace meta_monitor]; [reflexivity|].
  destruct (spec_appends_refines (op_events op) db) as (calls & Z & Sp).
  rewrite meta_step_batch. destruct (batch_appends db (op_events op)) as [outs db'] eqn:Eb. cbn [fst snd] in *.
  cbn [meta_monitor]. unfold meta_calls. cbn [mo_results mo_commit mo_dumps].
  assert (Zc : match op with MAppend hs e => zip_exact [(hs, e)] outs | MBatch evs => zip_exact evs outs end = Some calls)
    by (destruct op; exact Z).
  rewrite Zc, Sp, dumps_are_model. apply IH.
Qed.

Lemma reduce_model_satisfies_monitor st ex cu (cex : bool) e :
  let '(st', cu', did, res) := reduceMessageEventAppend st ex cu cex e in
  reduce_monitor st ex cu cex e st' cu' did res = 0.
Proof.
  destruct (reduce_noop_cond st ex e) eqn:C.
  - rewrite (reduce_noop _ _ cu cex _ C). unfold reduce_monitor. unfold reduce_noop_cond in C. rewrite C.
    cbn [negb andb r_seq r_status r_state messageEventAppendResult].
    rewrite !state_eqb_refl, cursor_eqb_refl, N.eqb_refl, bytes_eqb_refl. reflexivity.
  - destruct (reduce_apply st ex cu cex e C) as (st' & cu' & res & E & Sh). rewrite E.
    unfold reduce_monitor. unfold reduce_noop_cond in C. rewrite C.
    destruct Sh as [-> Hcur Hseq Hlast _ _ Hterm].
    cbn [r_seq r_status messageEventAppendResult].
    rewrite Hseq, Hcur, Hlast, Hterm, !N.eqb_refl, !bytes_eqb_refl, eqb_reflx. reflexivity.
Qed.
