(* Proof/Delivery_top.v — the shard monitor accepts the rows of any index function that stays
   below the shard count; shard_row_of builds the rows of the model's own index. *)
From WK Require Import Base.Base Gen.Consts_C31 Model.Delivery Model.Delivery_C31.
Open Scope N_scope.

Definition shard_row_of (k : N * N * bytes) : shard_row :=
  let '(sh, ty, id) := k in (sh, ty, id, shardIndex sh ty id).

(* the shard monitor asks only that the index is a function of (shards, type, id)
   and stays below the shard count: it holds of the rows of any such index *)
Lemma shard_rows_fun_ok (f : N -> N -> bytes -> N) keys :
  (forall sh ty id, In (sh, ty, id) keys -> f sh ty id < sh) ->
  shard_rows_ok (map (fun k : N * N * bytes => let '(sh, ty, id) := k in (sh, ty, id, f sh ty id)) keys) = true.
Proof.
  induction keys as [|[[sh ty] id] keys IH]; intros H; [reflexivity|].
  cbn [map shard_rows_ok]. apply andb_true_iff. split; [apply andb_true_iff; split|].
  - apply N.ltb_lt. apply H. left. reflexivity.
  - apply forallb_forall. intros [[[sh' ty'] id'] idx'] Hin. apply in_map_iff in Hin.
    destruct Hin as ([[sh2 ty2] id2] & [= <- <- <- <-] & _).
    unfold shard_pair_ok.
    destruct ((sh =? sh2) && (ty =? ty2) && bytes_eqb id id2) eqn:Ek; [|reflexivity].
    apply andb_true_iff in Ek. destruct Ek as [Ek E3]. apply andb_true_iff in Ek. destruct Ek as [E1 E2].
    apply N.eqb_eq in E1, E2. apply bytes_eqb_eq in E3. subst. apply N.eqb_refl.
  - apply IH. intros sh0 ty0 id0 Hin. apply H. right. exact Hin.
Qed.
