(* Proof/ChanAppend_monitor_pure.v — the monitors of the two pure case kinds accept
   whatever the model computes: [model_coal_monitor] (any batch indexed by position,
   as the harness builds it) and [model_writer_monitor] (any op history; replay
   invariant [WMInv], one lemma per op [wstep_ok]). *)
From WK Require Import Base.Base Base.Lists Gen.Consts_C29 Model.ChanAppend Model.ChanAppend_C29
     Proof.ChanAppend_coalesce Proof.ChanAppend_expand Proof.ChanAppend_writer.
From Coq Require Import Sorted.
Open Scope N_scope.

Lemma nlist_eqb_refl l : nlist_eqb l l = true.
Proof. apply list_eqb_refl, N.eqb_refl. Qed.

Lemma ocomp_eqb_refl c : ocomp_eqb c c = true.
Proof. unfold ocomp_eqb. rewrite !N.eqb_refl, eqb_reflx. reflexivity. Qed.

Lemma of_nat_eqb a b : (N.of_nat a =? N.of_nat b) = Nat.eqb a b.
Proof.
  destruct (Nat.eqb a b) eqn:E.
  - apply Nat.eqb_eq in E. subst. apply N.eqb_refl.
  - apply Nat.eqb_neq in E. apply N.eqb_neq. lia.
Qed.

Lemma nth_map_of_nat (l : list nat) i : nth i (map N.of_nat l) 0 = N.of_nat (nth i l 0%nat).
Proof. change 0 with (N.of_nat 0). apply map_nth. Qed.

Lemma strictly_increasing_of_nat pos : StronglySorted lt pos -> strictly_increasing (map N.of_nat pos) = true.
Proof.
  induction 1 as [|x l Hs IH Hall]; [reflexivity|].
  destruct l as [|y l]; [reflexivity|]. cbn [map strictly_increasing] in *.
  rewrite IH. rewrite Forall_forall in Hall. specialize (Hall y (or_introl eq_refl)).
  replace (N.of_nat x <? N.of_nat y) with true; [reflexivity|]. symmetry. apply N.ltb_lt. lia.
Qed.

Lemma script_comps_items us : forall items k, map cp_item (script_comps us k items) = items.
Proof. induction items as [|it r IH]; intro k; cbn [script_comps map]; [reflexivity|]. rewrite IH. reflexivity. Qed.

Lemma script_comps_nth us : forall items k i,
  (i < length items)%nat ->
  nth i (script_comps us k items) dflt_comp = script_comp us (k + i) (nth i items dflt_psend).
Proof.
  induction items as [|it r IH]; intros k i H; [cbn in H; lia|].
  destruct i as [|i]; cbn [script_comps nth].
  - rewrite Nat.add_0_r. reflexivity.
  - rewrite IH by (cbn in H; lia). f_equal. lia.
Qed.

Fixpoint expected_list (us : list uscript) (uniq : list N) (j : nat) (ows : list N) : list ocomp :=
  match ows with
  | [] => []
  | o :: r => expected_expanded us uniq j o :: expected_list us uniq (S j) r
  end.

Lemma expanded_ok_expected us uniq : forall ows j, expanded_ok us uniq j ows (expected_list us uniq j ows) = true.
Proof.
  induction ows as [|o r IH]; intro j; cbn [expected_list expanded_ok]; [reflexivity|].
  rewrite ocomp_eqb_refl, IH. reflexivity.
Qed.

Lemma expected_list_length us uniq : forall ows j, length (expected_list us uniq j ows) = length ows.
Proof. induction ows as [|o r IH]; intro j; cbn [expected_list length]; [reflexivity|]. rewrite IH. reflexivity. Qed.

Lemma expected_list_nth us uniq d : forall ows j i,
  (i < length ows)%nat ->
  nth i (expected_list us uniq j ows) d = expected_expanded us uniq (j + i) (nth i ows 0).
Proof.
  induction ows as [|o r IH]; intros j i H; [cbn in H; lia|].
  destruct i as [|i]; cbn [expected_list nth].
  - rewrite Nat.add_0_r. reflexivity.
  - rewrite IH by (cbn in H; lia). f_equal. lia.
Qed.

Lemma owners_ok_all items uniq : forall ows j,
  (forall i, (i < length ows)%nat -> owner_ok items uniq (j + i) (nth i ows 0) = true) ->
  owners_ok items uniq j ows = true.
Proof.
  induction ows as [|o r IH]; intros j H; cbn [owners_ok]; [reflexivity|].
  pose proof (H 0%nat ltac:(cbn; lia)) as H0. cbn [nth] in H0. rewrite Nat.add_0_r in H0. rewrite H0.
  apply IH. intros i Hi. specialize (H (S i) ltac:(cbn; lia)). cbn [nth] in H.
  replace (S j + i)%nat with (j + S i)%nat by lia. exact H.
Qed.

Section Coal.
  Variable items : list psend.
  Variable us : list uscript.
  Variable rs : list ares.
  (* the harness builds the batch with Index = position *)
  Hypothesis Hidx : map ps_index items = ChanAppend_C29.nseq (length items).

  Let n := length items.
  Let b := newIdempotentAppendBatch idempotencyPayloadHash logicalSendFingerprint items.

  Lemma index_at p : (p < n)%nat -> ps_index (nth p items dflt_psend) = N.of_nat p.
  Proof.
    intro H.
    assert (E : nth p (map ps_index items) 0 = N.of_nat p).
    { rewrite Hidx. unfold ChanAppend_C29.nseq. apply nth_map_seq. exact H. }
    rewrite <- E. change 0 with (ps_index dflt_psend). rewrite map_nth. reflexivity.
  Qed.

  Lemma item_at_nat p : item_at items (N.of_nat p) = nth p items dflt_psend.
  Proof. unfold item_at. rewrite Nnat.Nat2N.id. reflexivity. Qed.

  Theorem model_coal_monitor : C29_monitor (C29Coalesce items us rs (coal_model items us rs)) = 0.
  Proof.
    destruct (nb_coalesced idempotencyPayloadHash logicalSendFingerprint items) as [pos C]. fold b in C.
    pose proof (cz_bound _ _ _ C) as Hb. rewrite Forall_forall in Hb. fold n in Hb.
    (* the observation the model produces *)
    assert (Euniq : map ps_index (ib_items b) = map N.of_nat pos).
    { rewrite (cz_items _ _ _ C), map_map. apply map_ext_in. intros p Hp. apply index_at. apply Hb. exact Hp. }
    set (OW := fun j => N.of_nat (owner_of b j)).
    assert (Eows : match option_map (map N.of_nat) (ib_owners b) with Some o => o | None => ChanAppend_C29.nseq n end
                   = map OW (seq 0 n)).
    { unfold OW, owner_of. destruct (ib_owners b) as [ow|] eqn:O; cbn [option_map].
      - destruct (cz_owners _ _ _ C ow O) as [L _]. fold n in L.
        apply nth_ext with (d := 0) (d' := 0); [rewrite !map_length, seq_length; exact L|].
        intros i Hi. rewrite map_length in Hi.
        rewrite nth_map_of_nat, nth_map_seq by lia. reflexivity.
      - unfold ChanAppend_C29.nseq. reflexivity. }
    assert (Hown : forall j, (j < n)%nat -> owner_ok items (map N.of_nat pos) j (OW j) = true).
    { intros j Hj. unfold owner_ok, OW. rewrite Nnat.Nat2N.id.
      destruct (cz_owner _ _ _ C j Hj) as [p [P1 [P2 P3]]].
      rewrite nth_error_map, P1. cbn [option_map]. rewrite !item_at_nat.
      replace (N.of_nat p <=? N.of_nat j) with true by (symmetry; apply N.leb_le; lia).
      rewrite of_nat_eqb. cbn [andb]. destruct P3 as [P3|[P3 P4]].
      - subst p. rewrite sameLogicalSend_refl, Nat.eqb_refl. reflexivity.
      - unfold cmdat in *. rewrite P4, P3, orb_true_r. reflexivity. }
    assert (Hlen : length pos = length (ib_items b)) by (rewrite (cz_items _ _ _ C), map_length; reflexivity).
    set (U := script_comps us 0 (ib_items b)).
    destruct (expand_aligned _ _ _ _ C (script_comps_items us (ib_items b) 0)) as [EL EN]. fold U in EL, EN. fold n in EL, EN.
    assert (Eexp : map ocomp_of (expandCompletions b U) = expected_list us (map N.of_nat pos) 0 (map OW (seq 0 n))).
    { apply nth_ext with (d := ocomp_of dflt_comp) (d' := ocomp_of dflt_comp);
        [rewrite map_length, expected_list_length, map_length, seq_length; exact EL|].
      intros j Hj. rewrite map_length, EL in Hj.
      rewrite map_nth, EN by exact Hj.
      rewrite expected_list_nth by (rewrite map_length, seq_length; exact Hj). cbn [plus].
      rewrite nth_map_seq by exact Hj.
      unfold expected_expanded, expanded_at, ocomp_of, OW. cbn [cp_item cp_res cp_app cp_committed cp_trace].
      rewrite Nnat.Nat2N.id.
      destruct (cz_owner _ _ _ C j Hj) as [p [P1 _]].
      assert (Ho : (owner_of b j < length (ib_items b))%nat) by (rewrite <- Hlen; apply nth_error_Some; congruence).
      unfold U. rewrite script_comps_nth by exact Ho. cbn [plus]. unfold script_comp.
      cbn [cp_res cp_app cp_committed cp_trace r_id r_seq r_reason r_err fst snd].
      rewrite index_at by exact Hj.
      rewrite nth_map_of_nat, of_nat_eqb. reflexivity. }
    cbn [C29_monitor]. unfold coal_monitor, active_monitor, coal_model, obs_owners.
    cbn [co_uniq co_owners co_expanded co_arc co_active co_inactive].
    fold b. fold n. rewrite Euniq, Eows. fold U. rewrite Eexp.
    rewrite strictly_increasing_of_nat by apply (cz_sorted _ _ _ C).
    replace (forallb (fun p => p <? N.of_nat n) (map N.of_nat pos)) with true.
    2:{ symmetry. apply forallb_forall. intros x Hx. apply in_map_iff in Hx. destruct Hx as [p [E Hp]]. subst x.
        apply N.ltb_lt. specialize (Hb p Hp). lia. }
    replace (match option_map (map N.of_nat) (ib_owners b) with
             | Some _ => true | None => nlist_eqb (map N.of_nat pos) (ChanAppend_C29.nseq n) end) with true.
    2:{ symmetry. destruct (ib_owners b) eqn:O; cbn [option_map]; [reflexivity|].
        rewrite (cz_none _ _ _ C O). apply nlist_eqb_refl. }
    rewrite map_length, seq_length, Nat.eqb_refl.
    rewrite owners_ok_all.
    2:{ intros i Hi. rewrite map_length, seq_length in Hi. cbn [plus].
        rewrite nth_map_seq by exact Hi. apply Hown. exact Hi. }
    replace (forallb _ (seq 0 (length (map N.of_nat pos)))) with true.
    2:{ symmetry. apply forallb_forall. intros k Hk. apply in_seq in Hk. rewrite map_length in Hk.
        rewrite nth_map_of_nat, Nnat.Nat2N.id.
        assert (Hp : nth_error pos k = Some (nth k pos 0%nat)) by (apply nth_error_nth'; lia).
        pose proof (cz_slot _ _ _ C _ _ Hp) as S.
        assert (Hpn : (nth k pos 0%nat < n)%nat) by (apply Hb; apply nth_In; lia).
        rewrite nth_map_seq by exact Hpn. unfold OW. rewrite S. apply N.eqb_refl. }
    rewrite expanded_ok_expected.
    rewrite (list_eqb_refl ocomp_eqb ocomp_eqb_refl).
    rewrite activeAppendItems_correct.
    rewrite (list_eqb_refl ocomp_eqb ocomp_eqb_refl), nlist_eqb_refl. reflexivity.
  Qed.
End Coal.


Lemma consecutive_from_app k l1 l2 :
  consecutive_from k (l1 ++ l2) = consecutive_from k l1 && consecutive_from (k + N.of_nat (length l1)) l2.
Proof.
  revert k. induction l1 as [|x l1 IH]; intro k; cbn [app consecutive_from length].
  - replace (k + N.of_nat 0) with k by lia. reflexivity.
  - rewrite IH. replace (k + 1 + N.of_nat (length l1)) with (k + N.of_nat (S (length l1))) by lia.
    rewrite andb_assoc. reflexivity.
Qed.

Lemma consec_bool k l : consec k l -> consecutive_from k l = true.
Proof.
  revert k. induction l as [|x l IH]; intros k H; cbn [consecutive_from]; [reflexivity|].
  destruct H as [E H]. subst x. rewrite N.eqb_refl. apply IH. exact H.
Qed.

Lemma wpop_eqb_refl p : wpop_eqb p p = true.
Proof. unfold wpop_eqb. rewrite !N.eqb_refl. reflexivity. Qed.

Lemma idx_items_index base n : map ps_index (idx_items base n) = map (fun i => base + N.of_nat i) (seq 0 n).
Proof. unfold idx_items. rewrite map_map. reflexivity. Qed.

Lemma idx_items_length base n : length (idx_items base n) = n.
Proof. unfold idx_items. rewrite map_length, seq_length. reflexivity. Qed.

Lemma consecutive_seq base : forall n k,
  consecutive_from (base + N.of_nat k) (map (fun i => base + N.of_nat i) (seq k n)) = true.
Proof.
  induction n as [|n IH]; intro k; cbn [seq map consecutive_from]; [reflexivity|].
  rewrite N.eqb_refl. replace (base + N.of_nat k + 1) with (base + N.of_nat (S k)) by lia. apply IH.
Qed.

(* the lowest item index not yet handed out *)
Definition low (s : wstate) (base : N) : N := base - N.of_nat (length (ws_pending s)).

(* the state of a writer-case replay: buffered events were recorded, the pending
   items carry consecutive indexes ending at the next fresh index *)
Record WMInv (s : wstate) (base : N) (recorded : list wpop) : Prop := {
  wm_entries : entries_ok s;
  wm_recorded : forall e, In e (buffered s) -> In (wpop_of e) recorded;
  wm_pending : consecutive_from (low s base) (map ps_index (ws_pending s)) = true;
  wm_base : N.of_nat (length (ws_pending s)) <= base }.

(* what one op contributes to the three lists the monitor reads *)
Definition step_issued (o : wop) (ob : wobs) : list (N * list N) :=
  match o with WNext => if wo_ok ob then [(wo_seq ob, wo_idx ob)] else [] | _ => [] end.
Definition step_recorded (i : N) (o : wop) (recorded : list wpop) : list wpop :=
  match o with WRec sq n | WApply sq n => WP sq n i :: recorded | _ => recorded end.
Definition step_pops (o : wop) (ob : wobs) : list wpop :=
  match o with
  | WApply _ _ => wo_pops ob
  | WPop => if wo_ok ob then [WP (wo_seq ob) (wo_n ob) (wo_tag ob)] else []
  | _ => [] end.

Lemma wpop_of_ev sq n i : wpop_of (Ev sq (repeat dflt_comp (N.to_nat n)) i) = WP sq n i.
Proof. unfold wpop_of. cbn [ev_seq ev_items ev_tag]. rewrite repeat_length, Nnat.N2Nat.id. reflexivity. Qed.

Lemma issued_cons o r ob br : issued (o :: r) (ob :: br) = step_issued o ob ++ issued r br.
Proof. reflexivity. Qed.

Lemma w_events_cons i o r ob br recorded :
  w_events i (o :: r) (ob :: br) recorded
  = map (fun p => (p, step_recorded i o recorded)) (step_pops o ob) ++ w_events (i + 1) r br (step_recorded i o recorded).
Proof. destruct o; reflexivity. Qed.

(* the pending items are untouched: only the buffer facts have to be shown again *)
Lemma WMInv_buffer s base recorded s' rec' :
  WMInv s base recorded -> ws_pending s' = ws_pending s -> entries_ok s' ->
  (forall e, In e (buffered s') -> In (wpop_of e) rec') -> WMInv s' base rec'.
Proof. intros [I1 I2 I3 I4] Ep Hok Hbuf. constructor; unfold low; rewrite ?Ep; assumption. Qed.

(* what a step issues and pops continues the three sequences the monitor checks *)
Definition continues (s : wstate) (base : N) (s' : wstate) (base' : N)
           (iss : list (N * list N)) (pops rec' : list wpop) : Prop :=
  consecutive_from (ws_next s) (map fst iss) = true
  /\ ws_next s' = ws_next s + N.of_nat (length iss)
  /\ consecutive_from (low s base) (flat_map snd iss) = true
  /\ low s' base' = low s base + N.of_nat (length (flat_map snd iss))
  /\ consecutive_from (ws_drain s) (map wp_seq pops) = true
  /\ ws_drain s' = ws_drain s + N.of_nat (length pops)
  /\ (forall p, In p pops -> In p rec').

Lemma continues_quiet s base s' rec' :
  ws_pending s' = ws_pending s -> ws_next s' = ws_next s -> ws_drain s' = ws_drain s ->
  continues s base s' base [] [] rec'.
Proof. intros Ep En Ed. unfold continues, low. rewrite Ep, En, Ed. cbn. repeat split; try lia. Qed.

Lemma wstep_ok s base i recorded o s' base' ob :
  WMInv s base recorded -> wstep (s, base) i o = ((s', base'), ob) ->
  WMInv s' base' (step_recorded i o recorded)
  /\ continues s base s' base' (step_issued o ob) (step_pops o ob) (step_recorded i o recorded).
Proof.
  intros I W. pose proof I as [I1 I2 I3 I4].
  destruct o as [n|n| |sq n| |sq n|n]; cbn [wstep] in W.
  - (* WEnq: n fresh items are enqueued, base grows by n *)
    inversion W; subst s' base' ob. clear W. cbn [step_issued step_pops step_recorded].
    assert (El : low (enqueuePrepared s (idx_items base (N.to_nat n))) (base + n) = low s base).
    { unfold low. cbn [enqueuePrepared ws_pending]. rewrite app_length, idx_items_length. lia. }
    split.
    + constructor; auto; [rewrite El|]; cbn [enqueuePrepared ws_pending].
      * rewrite map_app, consecutive_from_app, I3, map_length. cbn [andb]. unfold low.
        replace (base - N.of_nat (length (ws_pending s)) + N.of_nat (length (ws_pending s))) with base by lia.
        rewrite idx_items_index. replace base with (base + N.of_nat 0) at 1 by lia. apply consecutive_seq.
      * rewrite app_length, idx_items_length. lia.
    + unfold continues. rewrite El. cbn. repeat split; try lia.
  - (* WAdmit: a query *) inversion W; subst s' base' ob. split; [exact I|apply continues_quiet; reflexivity].
  - (* WNext: the pending items are issued under ws_next, or nothing happens *)
    destruct (nextAppendBatch s) as [[[sq items]|] s1] eqn:NB; inversion W; subst s' base' ob; clear W.
    + destruct (nextAppendBatch_some _ _ _ _ NB) as [E1 [E2 [E3 [E4 [_ [E5 _]]]]]]. subst sq items.
      destruct (nextAppendBatch_buffer _ _ _ _ NB) as [E6 E7].
      cbn [step_issued step_pops step_recorded wo_ok wo_seq wo_idx]. split.
      * constructor; [apply E7; exact I1|rewrite E6; exact I2|rewrite E3; reflexivity|rewrite E3; cbn; lia].
      * unfold continues, low in *. cbn [map flat_map fst snd length consecutive_from].
        rewrite N.eqb_refl, E3, E4, E5, app_nil_r, I3, map_length. cbn [length]. repeat split; try lia. intros p [].
    + pose proof (nextAppendBatch_none _ _ NB). subst s1. split; [exact I|apply continues_quiet; reflexivity].
  - (* WRec: an event enters the buffer *) inversion W; subst s' base' ob. clear W.
    set (ev := Ev sq (repeat dflt_comp (N.to_nat n)) i). pose proof (wpop_of_ev sq n i) as Ew. fold ev in Ew.
    destruct (record_fields s ev) as [F1 [F2 _]]. cbn [step_issued step_pops step_recorded]. split.
    + apply (WMInv_buffer _ _ _ _ _ I F1 (record_entries_ok _ _ I1)). intros e He. apply record_buffered in He.
      destruct He as [He|He]; [subst e; rewrite Ew; left; reflexivity|right; apply I2; exact He].
    + apply continues_quiet; [exact F1|exact F2|apply record_drain].
  - (* WPop: one buffered event is delivered, or nothing happens *)
    destruct (popNextAppendCompletion s) as [[e|] s1] eqn:P; inversion W; subst s' base' ob; clear W.
    + destruct (pop_some _ _ _ I1 P) as [Hs [Hd [Hok [Hin Hsub]]]]. destruct (pop_fields _ _ _ P) as [F1 [F2 _]].
      cbn [step_issued step_pops step_recorded wo_ok wo_seq wo_n wo_tag]. split.
      * apply (WMInv_buffer _ _ _ _ _ I); [exact F1|apply finish_entries_ok; exact Hok|intros x Hx; apply I2, Hsub, Hx].
      * unfold continues, low. cbn [map flat_map length consecutive_from wp_seq finishAppend ws_pending ws_next ws_drain].
        rewrite F1, F2, Hd, <- Hs, N.eqb_refl. repeat split; try lia. intros p [<-|[]]. apply (I2 e Hin).
    + pose proof (pop_none_state _ _ P). subst s1. split; [exact I|apply continues_quiet; reflexivity].
  - (* WApply: an event enters the buffer and the pop loop runs *)
    set (ev := Ev sq (repeat dflt_comp (N.to_nat n)) i) in *. pose proof (wpop_of_ev sq n i) as Ew. fold ev in Ew.
    destruct (applyAppendCompletion s ev) as [evs s1] eqn:A0. inversion W; subst s' base' ob. clear W.
    destruct (apply_spec _ _ _ _ I1 A0) as [Hc [Hd [Hok [Hin [Hsub _]]]]].
    destruct (apply_fields _ _ _ _ A0) as [F1 [F2 _]].
    assert (Hrec : forall e, e = ev \/ In e (buffered s) -> In (wpop_of e) (WP sq n i :: recorded)).
    { intros e [E|E]; [subst e; rewrite Ew; left; reflexivity|right; apply I2; exact E]. }
    cbn [step_issued step_pops step_recorded wo_pops]. split.
    + apply (WMInv_buffer _ _ _ _ _ I F1 Hok). intros e He. apply Hrec, Hsub, He.
    + unfold continues, low. cbn [map flat_map length consecutive_from]. rewrite F1, F2, Hd, !map_length, map_map.
      repeat split; try lia; [apply consec_bool; exact Hc|].
      intros p Hp. apply in_map_iff in Hp. destruct Hp as [e [<- He]]. apply Hrec, Hin, He.
  - (* WFin: the in-flight counters only *) inversion W; subst s' base' ob. split; [apply (WMInv_buffer _ _ _ _ _ I); auto|apply continues_quiet; reflexivity].
Qed.

Lemma writer_replay_ok : forall ops s base i recorded,
  WMInv s base recorded ->
  let obs := wrun (s, base) i ops in
  length obs = length ops
  /\ consecutive_from (ws_next s) (map fst (issued ops obs)) = true
  /\ consecutive_from (low s base) (flat_map snd (issued ops obs)) = true
  /\ consecutive_from (ws_drain s) (map (fun p => wp_seq (fst p)) (w_events i ops obs recorded)) = true
  /\ forallb (fun p => existsb (wpop_eqb (fst p)) (snd p)) (w_events i ops obs recorded) = true.
Proof.
  induction ops as [|o r IH]; intros s base i recorded I; cbn [wrun]; [cbn; auto|].
  destruct (wstep (s, base) i o) as [[s' base'] ob] eqn:W.
  destruct (wstep_ok _ _ _ _ _ _ _ _ I W) as [I' [A1 [A2 [B1 [B2 [C1 [C2 D1]]]]]]].
  destruct (IH s' base' (i + 1) _ I') as [L [A [B [C D]]]].
  rewrite issued_cons, w_events_cons. cbn [length]. split; [f_equal; exact L|].
  rewrite !map_app, flat_map_app, forallb_app, !consecutive_from_app, !map_map, !map_length. cbn [fst snd].
  change (fun x : wpop => wp_seq x) with wp_seq. rewrite A1, B1, C1, <- A2, <- B2, <- C2, A, B, C, D. repeat split.
  rewrite andb_true_r. apply forallb_forall. intros q Hq. apply in_map_iff in Hq. destruct Hq as [p [<- Hp]].
  apply existsb_exists. exists p. split; [exact (D1 p Hp)|apply wpop_eqb_refl].
Qed.

Theorem model_writer_monitor : forall hw limit ops,
  C29_monitor (C29Writer hw limit ops (wrun (newChannelState hw limit, 0) 0 ops)) = 0.
Proof.
  intros hw limit ops. cbn [C29_monitor]. unfold writer_monitor.
  assert (I : WMInv (newChannelState hw limit) 0 []).
  { constructor; cbn; [apply entries_ok_init|intros e []|reflexivity|lia]. }
  destruct (writer_replay_ok ops _ 0 0 [] I) as [L [A [B [C D]]]].
  change (ws_next (newChannelState hw limit)) with 0 in A. change (low (newChannelState hw limit) 0) with 0 in B.
  change (ws_drain (newChannelState hw limit)) with 0 in C. rewrite L, Nat.eqb_refl, A, B, C, D. reflexivity.
Qed.
