(* Proof/Machine_props.v — the invariant and the step facts at every state reachable from
   [init_state], rejected metadata in Prop form, and the machine without the reactor's ack guard,
   which reaches HW > LEO (C06). *)
From WK Require Import Base.Base Gen.Consts_C06 Model.Machine Proof.Machine Proof.Machine_steps
     Proof.Machine_trans.
Open Scope N_scope.

Section FromInit.
  Variables key local gen id leo hw cp : N.
  Hypothesis Hcp : cp <= hw.
  Hypothesis Hhw : hw <= leo.
  Let s0 := init_state key local gen id leo hw cp.

  Lemma reach_inv evs : Inv (run_state s0 evs).
  Proof. apply Inv_run_state. apply Inv_init; assumption. Qed.

  Lemma watermarks evs :
    let s := run_state s0 evs in
    s_cp s <= s_hw s /\ s_hw s <= s_leo s /\ forall n, pr_get n (s_progress s) <= s_leo s.
  Proof. destruct (reach_inv evs) as [[H1 [H2 H3]] _]. cbv zeta. split; [|split]; assumption. Qed.

  Lemma reach_facts evs e :
    let s := run_state s0 evs in step_facts s e (fst (step s e)) (snd (step s e)).
  Proof. apply step_establishes_facts; [apply reach_inv|apply surjective_pairing]. Qed.

  Lemma monotone evs e :
    let s := run_state s0 evs in
    let s' := fst (step s e) in
    s_hw s <= s_hw s' /\ s_leo s <= s_leo s' /\ s_cp s' = s_cp s.
  Proof. destruct (reach_facts evs e) as [_ H1 H2 H3 _ _ _ _ _]. repeat split; assumption. Qed.

End FromInit.

Lemma meta_rejects s m :
  m_epoch m < s_epoch s
  \/ (m_epoch m = s_epoch s /\ m_lepoch m < s_lepoch s)
  \/ (m_epoch m = s_epoch s /\ m_lepoch m = s_lepoch s /\ m_leader m <> s_leader s) ->
  exists e, e <> 0 /\ step s (EvMeta m) = (s, dec_err e).
Proof.
  intro H. cbn [step]. apply meta_rejected. unfold meta_older, meta_leader_switch.
  destruct H as [H|[[H1 H2]|[H1 [H2 H3]]]].
  - apply N.ltb_lt in H. rewrite H. reflexivity.
  - apply N.eqb_eq in H1. apply N.ltb_lt in H2. rewrite H1, H2. rewrite orb_true_r. reflexivity.
  - apply N.eqb_eq in H1, H2. apply N.eqb_neq in H3. rewrite H1, H2, H3. cbn [negb andb].
    rewrite orb_true_r. reflexivity.
Qed.

(* what the guard is for: when an ack reaches ApplyFollowerAck without the reactor's preconditions,
   HW <= LEO breaks.  In [unguarded_witness] the pull ack passes every other check of its route
   (leader, current fence, pull shape, replica, offset <> 0); only [ack_guard] rejects it. *)
Definition step_unguarded (s : state) (e : event) : state * decision :=
  match e with
  | EvAck _ _ _ _ follower off _ => apply_follower_ack s follower off
  | _ => step s e
  end.

Fixpoint run_state_unguarded (s : state) (evs : list event) : state :=
  match evs with
  | [] => s
  | e :: r => run_state_unguarded (fst (step_unguarded s e)) r
  end.

Definition unguarded_witness : list event :=
  [ EvMeta (Meta 1 1 1 1 1 [1; 2] [1; 2] 1%Z StatusActive);
    EvAck RPull 1 1 1 2 5 true ].

(* the same history through the guarded machine keeps the invariant (the ack is rejected) *)
Lemma guarded_witness_ok :
  let s := run_state (init_state 1 1 1 0 0 0 0) unguarded_witness in s_hw s = 0 /\ s_leo s = 0.
Proof. vm_compute. split; reflexivity. Qed.
