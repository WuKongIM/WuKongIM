(* Proof/AckTracker_sim4.v — Bind (compatibility), the two batch calls, Reset;
   every step and every history of the model is accepted by the specification. *)
From WK Require Import Base.Base Gen.Consts_C32 Model.AckTracker.
From WK Require Import Proof.AckTracker_map Proof.AckTracker_entry Proof.AckTracker_index Proof.AckTracker_inv
     Proof.AckTracker_sim3.
From Coq Require Import Permutation.
Open Scope N_scope.

Lemma live_fresh_app tok z l :
  live_mem tok l = false ->
  live_mem tok (l ++ [(tok, z)]) = true /\ live_at tok (l ++ [(tok, z)]) = z /\ live_del tok (l ++ [(tok, z)]) = l.
Proof.
  induction l as [|a l IH]; simpl.
  - intros _. unfold live_mem, live_del. simpl. rewrite N.eqb_refl. simpl. auto.
  - unfold live_mem, live_del in *. simpl. destruct (fst a =? tok) eqn:E; simpl; [discriminate|].
    intro H. destruct (IH H) as [H1 [H2 H3]]. rewrite H1, H2, H3. auto.
Qed.

(* Bind = BindResult ; FinishBind *)
Lemma spec_bind_finish s now p tok s1 :
  tok <> 0 -> spec_bind s now p tok = Some s1 ->
  spec_finish s1 p tok =
  (al_set key_eqb (key_of p)
          match kget (key_of p) s with
          | Some e => SEnt (Some (eff_at now p)) (s_live e)
          | None => SEnt (Some (eff_at now p)) []
          end s, true).
Proof.
  intros TZ. unfold spec_bind, spec_finish, spec_live.
  assert (TB : negb (tok =? 0) = true) by (apply negb_true_iff; apply N.eqb_neq; exact TZ).
  rewrite TB. cbn [andb].
  destruct (kget (key_of p) s) as [e|] eqn:G.
  - destruct (live_mem tok (s_live e)) eqn:M; [discriminate|]. intro H. inversion H. subst s1. clear H.
    rewrite k_get_set_same. cbn [s_live s_committed].
    destruct (live_fresh_app tok (eff_at now p) (s_live e) M) as [H1 [H2 H3]].
    rewrite H1, H2, H3. rewrite (al_set_set key_eqb key_eqb_spec). reflexivity.
  - intro H. inversion H. subst s1. clear H.
    rewrite k_get_set_same. cbn [s_live s_committed].
    destruct (live_fresh_app tok (eff_at now p) [] eq_refl) as [H1 [H2 H3]]. simpl app in *.
    rewrite H1, H2, H3. rewrite (al_set_set key_eqb key_eqb_spec). reflexivity.
Qed.

Lemma Bind_sim t s now p :
  Sim t s ->
  let '(t', b) := Bind t now p in
  exists s', spec_step s now (OBindCompat p) (RBool b) = Some (s', now) /\ Sim t' s'.
Proof.
  intros S. unfold Bind, BindResult.
  destruct (validPendingRecvAck p) eqn:V; cbn [negb]; [|exists s; auto].
  pose proof (bind_locked_sim t s now p S V) as BL.
  destruct (bind_locked t now p) as [[t1 tok] added].
  destruct BL as [[B1 [B2 B3]]|[B1 [B2 [_ [_ [B7 [s1 [B8 B9]]]]]]]].
  { subst tok. exists s. auto. }
  assert (TZ : tok <> 0) by (rewrite B1; lia).
  assert (TB : (tok =? 0) = false) by (apply N.eqb_neq; exact TZ).
  rewrite TB. cbn [negb]. unfold FinishBind. rewrite V, TB. cbn [negb orb].
  pose proof (finishBindLocked_sim t1 s1 p tok B9 TZ) as FL.
  rewrite (spec_bind_finish s now p tok s1 TZ B8) in FL.
  destruct (finishBindLocked t1 p tok) as [t2 ok].
  destruct FL as [F1 [[I2 R2] [[F3 [_ F7]] F8]]].
  eexists. split; [reflexivity|]. destruct S as [I R]. split; [|exact R2].
  (* the token goes back: no reservation of t2 carries it *)
  destruct I2 as [J1 J2 J3 J4 J5]. constructor; proj; try assumption.
  intros k e G. destruct (J4 k e G) as [[W A K B] KV]. split; [|exact KV]. constructor; try assumption.
  destruct (key_eq_dec k (key_of p)) as [E|E].
  - subst k. intros x Hx. pose proof (B x Hx) as LE. rewrite F3, B2, B1 in LE.
    assert (NE : x <> tok) by (intro X; subst x; apply (F8 F1 _ G); exact Hx).
    rewrite B1 in NE. lia.
  - rewrite (F7 k E), (B7 k E) in G. apply (inv_entries t I _ _ G).
Qed.

Lemma count_nonzero_cons x l :
  count_nonzero (x :: l) = if x =? 0 then count_nonzero l else (count_nonzero l + 1)%Z.
Proof. unfold count_nonzero. simpl. destruct (x =? 0); simpl; lia. Qed.

Lemma bind_batch_loop_sim now ps : forall t s,
  Sim t s ->
  let '(t', toks, b, a) := bind_batch_loop t now ps in
  exists s', spec_bind_batch s now ps toks = Some s' /\ Sim t' s'
  /\ b = count_nonzero toks /\ a = (scount s' - scount s)%Z.
Proof.
  induction ps as [|p r IH]; intros t s S.
  - simpl. exists s. split; [reflexivity|]. split; [exact S|]. split; [reflexivity|lia].
  - cbn [bind_batch_loop].

    assert (SKIP : let '(t', toks, b, a) := bind_batch_loop t now r in
                   exists s', spec_bind_batch s now (p :: r) (0 :: toks) = Some s' /\ Sim t' s'
                   /\ b = count_nonzero (0 :: toks) /\ a = (scount s' - scount s)%Z).
    { specialize (IH t s S). destruct (bind_batch_loop t now r) as [[[t' toks] b] a]. exact IH. }
    destruct (validPendingRecvAck p) eqn:V; cbn [negb].
    2:{ destruct (bind_batch_loop t now r) as [[[t' toks] b] a]. exact SKIP. }
    pose proof (bind_locked_sim t s now p S V) as BL.
    destruct (bind_locked t now p) as [[t1 tok] added].
    destruct BL as [[B1 [B2 B3]]|[B1 [_ [_ [B6 [_ [s1 [B8 B9]]]]]]]].
    + subst tok t1 added. destruct (bind_batch_loop t now r) as [[[t' toks] b] a]. exact SKIP.
    + assert (TZ : (tok =? 0) = false) by (apply N.eqb_neq; rewrite B1; lia).
      specialize (IH t1 s1 B9).
      destruct (bind_batch_loop t1 now r) as [[[t' toks] b] a].
      destruct IH as [s' [H1 [H2 [H3 H4]]]].
      exists s'. cbn [spec_bind_batch]. rewrite TZ, B8, count_nonzero_cons, TZ.
      split; [exact H1|]. split; [exact H2|]. split; [rewrite H3; reflexivity|].
      rewrite H4. rewrite (sim_count _ _ B9), (sim_count _ _ S), B6. destruct added; lia.
Qed.

Lemma finish_batch_loop_sim ps toks idx : forall t s,
  Sim t s ->
  let '(t', n) := finish_batch_loop t ps toks idx in
  let '(s', m) := spec_finish_batch s ps toks idx in
  n = m /\ Sim t' s'.
Proof.
  induction idx as [|i r IH]; intros t s S; [split; [reflexivity|exact S]|].
  cbn [finish_batch_loop spec_finish_batch]. unfold batch_item_ok.
  destruct ((0 <=? i)%Z && (i <? Z.of_nat (length ps))%Z && (i <? Z.of_nat (length toks))%Z); cbn [andb];
    [|apply IH, S].
  set (p := nth (Z.to_nat i) ps zero_pending). set (tok := nth (Z.to_nat i) toks 0).
  destruct (validPendingRecvAck p && negb (tok =? 0)) eqn:OK.
  - apply andb_true_iff in OK. destruct OK as [_ TZ]. apply negb_true_iff in TZ. apply N.eqb_neq in TZ.
    pose proof (finishBindLocked_sim t s p tok S TZ) as FL.
    destruct (finishBindLocked t p tok) as [t1 ok]. destruct (spec_finish s p tok) as [s1 ok'].
    destruct FL as [F1 [F2 _]]. specialize (IH t1 s1 F2).
    destruct (finish_batch_loop t1 ps toks r) as [t' n]. destruct (spec_finish_batch s1 ps toks r) as [s' m].
    destruct IH as [H1 H2]. subst ok' m. auto.
  - unfold spec_finish. rewrite (spec_live_invalid t s p tok S). specialize (IH t s S).
    2:{ apply andb_false_iff in OK. rewrite negb_false_iff, N.eqb_eq in OK. exact OK. }
    destruct (finish_batch_loop t ps toks r) as [t' n]. destruct (spec_finish_batch s ps toks r) as [s' m].
    exact IH.
Qed.

Lemma Sim_empty shards limit next : Sim (Trk shards limit [] [] 0%Z next) [].
Proof.
  split; [constructor|constructor; [constructor|discriminate|reflexivity]].
  - constructor.
  - reflexivity.
  - constructor; [constructor|discriminate|].
    intros u s m. split; [intros [ms [H _]]; discriminate|intro H; exfalso; apply H; reflexivity].
  - discriminate.
  - discriminate.
Qed.

(* the injected clock is a Unix second in [0, MaxInt64]; Expire's ttl is an int64 *)
Definition op_in_range (o : op) : Prop :=
  match o with
  | OClock n => (0 <= n <= i64_max)%Z
  | OExpire ttl => (ttl <= i64_max)%Z
  | _ => True
  end.

Lemma step_sim t s now o :
  Sim t s -> (0 <= now <= i64_max)%Z -> op_in_range o ->
  let '((t', now'), r) := step (t, now) o in
  exists s', spec_step s now o r = Some (s', now') /\ Sim t' s' /\ (0 <= now' <= i64_max)%Z.
Proof.
  intros S Hn Ho.

  assert (CALL : forall (tr : tracker * out),
            (let '(t', r) := tr in exists s', spec_step s now o r = Some (s', now) /\ Sim t' s') ->
            let '((t', now'), r) := (let '(t', r) := tr in ((t', now), r)) in
            exists s', spec_step s now o r = Some (s', now') /\ Sim t' s' /\ (0 <= now' <= i64_max)%Z).
  { intros [t' r] [s' [H1 H2]]. exists s'. auto. }
  destruct o; cbn [step].
  - exists s. split; [reflexivity|]. split; [exact S|exact Ho].
  - apply (CALL (BindResult t now p)). unfold BindResult. destruct (validPendingRecvAck p) eqn:V; cbn [negb].
    2:{ exists s. cbn [spec_step negb N.eqb andb]. rewrite (sim_count _ _ S), Z.eqb_refl. auto. }
    pose proof (bind_locked_sim t s now p S V) as BL.
    destruct (bind_locked t now p) as [[t1 tok] added].
    destruct BL as [[B1 [B2 B3]]|[B1 [_ [B5 [_ [_ [s1 [B8 B9]]]]]]]].
    + subst tok t1 added. exists s. cbn [spec_step N.eqb negb andb]. rewrite (sim_count _ _ S), Z.eqb_refl. auto.
    + assert (TZ : (tok =? 0) = false) by (apply N.eqb_neq; rewrite B1; lia).
      exists s1. cbn [spec_step]. rewrite TZ. cbn [negb]. rewrite B8.
      rewrite (sim_count _ _ B9), Z.eqb_refl, B5, Bool.eqb_reflx. auto.
  - pose proof (Bind_sim t s now p S) as B. destruct (Bind t now p) as [t' b]. exact (CALL (t', RBool b) B).
  - apply (CALL (BindBatch t now ps)). unfold BindBatch. pose proof (bind_batch_loop_sim now ps t s S) as B.
    destruct (bind_batch_loop t now ps) as [[[t' toks] b] a].
    destruct B as [s' [H1 [H2 [H3 H4]]]]. exists s'. cbn [spec_step]. rewrite H1.
    rewrite H3, H4, (sim_count _ _ H2), !Z.eqb_refl. auto.
  - pose proof (FinishBind_sim t s now p tok S) as F. destruct (FinishBind t p tok) as [t' b]. exact (CALL (t', RBool b) F).
  - unfold FinishBindBatch. pose proof (finish_batch_loop_sim ps toks idx t s S) as F.
    destruct (finish_batch_loop t ps toks idx) as [t' n]. apply (CALL (t', RCount n)). cbn [spec_step].
    destruct (spec_finish_batch s ps toks idx) as [s' m]. destruct F as [-> F2].
    exists s'. rewrite Z.eqb_refl. auto.
  - exact (CALL _ (CancelBind_sim t s now p tok S)).
  - exact (CALL _ (Ack_sim t s now uid sid mid S)).
  - exact (CALL _ (SessionClosed_sim t s uid sid now S)).
  - exact (CALL _ (Expire_sim t s now ttl S Hn Ho)).
  - exists []. split; [reflexivity|]. split; [apply Sim_empty|exact Hn].
Qed.

Lemma run_sim ops : forall t s now,
  Sim t s -> (0 <= now <= i64_max)%Z -> Forall op_in_range ops ->
  let '((t', _), tr) := run (t, now) ops in
  exists s', spec_run s now tr = Some s' /\ Sim t' s'.
Proof.
  induction ops as [|o r IH]; intros t s now S Hn HR.
  - exists s. split; [reflexivity|exact S].
  - inversion HR as [|? ? Ho HR']. subst. cbn [run].
    pose proof (step_sim t s now o S Hn Ho) as ST.
    destruct (step (t, now) o) as [[t1 now1] res].
    destruct ST as [s1 [S1 [S2 S3]]].
    specialize (IH t1 s1 now1 S2 S3 HR').
    destruct (run (t1, now1) r) as [[t' now'] tr].
    destruct IH as [s' [I1 I2]].
    exists s'. cbn [spec_run fst]. rewrite S1. rewrite (sim_count _ _ S2), Z.eqb_refl. auto.
Qed.

Lemma reachable_sim shards limit now ops :
  (0 <= now <= i64_max)%Z -> Forall op_in_range ops ->
  let '((t, _), tr) := run (NewAckTracker shards limit, now) ops in
  exists s, spec_run [] now tr = Some s /\ Sim t s.
Proof. intros Hn HR. exact (run_sim ops (NewAckTracker shards limit) [] now (Sim_empty _ _ _) Hn HR). Qed.

(* the monitor accepts every history of the model *)
Lemma model_satisfies_monitor shards limit now ops :
  (0 <= now <= i64_max)%Z -> Forall op_in_range ops ->
  let '((t, _), tr) := run (NewAckTracker shards limit, now) ops in
  C32_monitor (C32Case shards limit now tr (t_byMessage t) (t_bySession t)) = 0.
Proof.
  intros Hn HR. pose proof (reachable_sim shards limit now ops Hn HR) as RS.
  destruct (run (NewAckTracker shards limit, now) ops) as [[t now'] tr].
  destruct RS as [s [H1 [I R]]]. unfold C32_monitor. cbn [c_now c_steps c_entries]. rewrite H1.
  assert (X1 : Nat.eqb (length (t_byMessage t)) (length s) = true).
  { apply Nat.eqb_eq. symmetry. apply rel_length; [apply (inv_nodup t I)|exact R]. }
  assert (X2 : keys_nodup (map fst (t_byMessage t)) = true).
  { apply keys_nodup_spec. apply (inv_nodup t I). }
  assert (X3 : forallb (fun ke : key * entry => spec_has s (fst ke)) (t_byMessage t) = true).
  { apply forallb_forall. intros [k e] Hin. simpl. rewrite (rel_has _ _ _ R).
    rewrite (k_in_get _ _ _ (inv_nodup t I) Hin). reflexivity. }
  assert (X4 : index_is_projection (t_byMessage t) (t_bySession t) = true).
  { pose proof (inv_index t I) as [S1 S2 S3]. unfold index_is_projection. apply andb_true_iff. split.
    - apply forallb_forall. intros [[u sid] ms] Hin. cbn [fst snd].
      pose proof (s_in_get _ _ _ S1 Hin) as G. destruct (S2 _ _ G) as [NE _].
      destruct ms as [|m0 r0]; [contradiction|]. apply forallb_forall. intros m Hm.
      assert (HK : has_key (t_byMessage t) (u, sid, m)) by (apply S3; eexists; split; [exact G|exact Hm]).
      unfold has_key in HK. destruct (kget (u, sid, m) (t_byMessage t)); [reflexivity|contradiction].
    - apply forallb_forall. intros [[[u sid] m] e] Hin. cbn [fst key_skey key_mid].
      pose proof (k_in_get _ _ _ (inv_nodup t I) Hin) as G.
      assert (HK : has_key (t_byMessage t) (u, sid, m)) by (unfold has_key; rewrite G; discriminate).
      apply S3 in HK. destruct HK as [ms [G1 G2]]. rewrite G1. apply mem_mid_in. exact G2. }
  cbn [c_sessions]. rewrite X1, X2, X3, X4. reflexivity.
Qed.
