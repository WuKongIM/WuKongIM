(* Proof/ReadBounds.v — C10, part 1: the read path.
   Every message returned by readLocalCommitted / SyncMessages is a stored row
   inside (retention boundary, committed]; SyncOnce rows never reach a sync page. *)
From WK Require Import Base.Base Base.Lists Gen.Consts_C10 Model.ReadBounds.
Open Scope N_scope.

Lemma take_budget_incl limit maxBytes : forall l taken total r,
  In r (take_budget limit maxBytes taken total l) -> In r l.
Proof.
  induction l as [|x l IH]; intros taken total r H; cbn [take_budget] in H; [contradiction|].
  destruct (_ && _ && _); [contradiction|]. destruct H as [H|H]; [left; exact H|].
  destruct (_ && _); [contradiction|]. right. eapply IH, H.
Qed.

(* a bound that is switched off by 0 *)
Lemma guard_off a b : negb (a =? 0) && b = false -> a <> 0 -> b = false.
Proof. intros H Ha. apply N.eqb_neq in Ha. rewrite Ha in H. exact H. Qed.

Lemma scan_range_spec fromSeq maxSeq : forall l r,
  In r (scan_range fromSeq maxSeq l) ->
  In r l /\ fromSeq <= row_seq r /\ (maxSeq <> 0 -> row_seq r <= maxSeq).
Proof.
  induction l as [|x l IH]; intros r H; cbn [scan_range] in H; [contradiction|].
  destruct (row_seq x <? fromSeq) eqn:E1.
  { destruct (IH r H) as (A & B). split; [right; exact A | exact B]. }
  destruct (negb (maxSeq =? 0) && (maxSeq <? row_seq x)) eqn:E2; [contradiction|].
  destruct H as [<-|H].
  - split; [left; reflexivity|]. split; [apply N.ltb_ge, E1|]. intro Hm. apply N.ltb_ge, (guard_off _ _ E2 Hm).
  - destruct (IH r H) as (A & B). split; [right; exact A | exact B].
Qed.

Lemma readRows_spec s fromSeq maxSeq limit maxBytes r :
  In r (readRows s fromSeq maxSeq limit maxBytes) ->
  In r (s_rows s) /\ fromSeq <= row_seq r /\ (maxSeq <> 0 -> row_seq r <= maxSeq).
Proof.
  unfold readRows. intro H. apply take_budget_incl in H. apply scan_range_spec in H.
  destruct H as (A & B & C). repeat split; auto.
  destruct (fromSeq =? 0) eqn:E; [apply N.eqb_eq in E; subst; apply N.le_0_l | exact B].
Qed.

Lemma ListMessagesBySeq_incl s fromSeq limit maxBytes reverse r :
  In r (ListMessagesBySeq s fromSeq limit maxBytes reverse) -> In r (s_rows s).
Proof.
  unfold ListMessagesBySeq, readRowsReverse. destruct reverse; intro H.
  - apply take_budget_incl in H. apply in_rev in H. apply readRows_spec in H. tauto.
  - apply readRows_spec in H. tauto.
Qed.

Definition passes (q : req) (m : row) : Prop :=
  (q_min q <> 0 -> q_min q <= row_seq m) /\ (q_max q <> 0 -> row_seq m <= q_max q).

Lemma rc_step_inv q (P : row -> Prop) : forall msgs out next stopped,
  (forall m, In m msgs -> P m) ->
  (forall m, In m out -> P m /\ passes q m) ->
  forall m, In m (fst (fst (fold_left (rc_step q) msgs (out, next, stopped)))) -> P m /\ passes q m.
Proof.
  induction msgs as [|x msgs IH]; intros out next stopped HP Hout; cbn [fold_left]; [exact Hout|].
  assert (HP' : forall m, In m msgs -> P m) by (intros; apply HP; right; assumption).
  unfold rc_step at 2.
  destruct stopped; [apply IH; assumption|].
  destruct (negb (q_min q =? 0) && (row_seq x <? q_min q)) eqn:E1; [destruct (q_reverse q); apply IH; assumption|].
  destruct (negb (q_max q =? 0) && (q_max q <? row_seq x)) eqn:E2; [destruct (q_reverse q); apply IH; assumption|].
  (* x passes both filters and is emitted *)
  apply IH; [assumption|]. intros m' [<-|Hm']; [|apply Hout; exact Hm'].
  split; [apply HP; left; reflexivity|].
  split; intro Hne; [apply N.ltb_ge, (guard_off _ _ E1 Hne) | apply N.ltb_ge, (guard_off _ _ E2 Hne)].
Qed.

Lemma ReadCommitted_spec s q m :
  In m (fst (ReadCommitted s q)) -> In m (s_rows s) /\ passes q m.
Proof.
  unfold ReadCommitted.
  set (readFrom := if negb (q_reverse q) && negb (q_min q =? 0) && (q_from q <? q_min q) then q_min q else q_from q).
  destruct (q_reverse q && negb (q_min q =? 0) && (readFrom <? q_min q)); [cbn; contradiction|].
  destruct (negb (q_reverse q) && negb (q_max q =? 0) && negb (q_min q =? 0) && (q_max q <? q_min q)); [cbn; contradiction|].
  set (msgs := ListMessagesBySeq s readFrom (q_limit q) (q_bytes q) (q_reverse q)).
  pose proof (rc_step_inv q (fun r => In r (s_rows s)) msgs [] readFrom false) as H.
  destruct (fold_left (rc_step q) msgs ([], readFrom, false)) as [[out next] st] eqn:E.
  cbn [fst] in *. intro Hm. apply in_rev in Hm. apply H; auto.
  - intros r Hr. eapply ListMessagesBySeq_incl. exact Hr.
  - intros r [].
Qed.

Definition rows_below_max (s : store) : Prop := forall r, In r (s_rows s) -> row_seq r < MaxUint64.

Lemma nextSeq_gt b x : x < MaxUint64 -> nextSeq b <= x -> b < x.
Proof.
  unfold nextSeq. destruct (b =? MaxUint64) eqn:E.
  - apply N.eqb_eq in E. subst. intros H1 H2. lia.
  - intros _ H. lia.
Qed.

Lemma nextSeq_pos b : nextSeq b <> 0.
Proof.
  unfold nextSeq. destruct (b =? MaxUint64) eqn:E.
  - apply N.eqb_eq in E. subst. unfold MaxUint64. discriminate.
  - lia.
Qed.

Theorem readLocalCommitted_window s q retention minISR m :
  rows_below_max s ->
  In m (fst (readLocalCommitted s q retention minISR)) ->
  In m (s_rows s)
  /\ N.max retention (s_local s) < row_seq m
  /\ row_seq m <= committed_of s minISR.
Proof.
  intros Hwf. unfold readLocalCommitted.
  destruct (negb (q_reverse q) && (committed_of s minISR <? q_from q)); [cbn; contradiction|].
  destruct (committed_of s minISR =? 0) eqn:Ec; [cbn; contradiction|].
  apply N.eqb_neq in Ec.
  intro Hm. apply ReadCommitted_spec in Hm. destruct Hm as (Hin & Hmin & Hmax).
  split; [exact Hin|].
  unfold clamp_req in Hmin, Hmax. cbn [q_min q_max] in Hmin, Hmax.
  split.
  - apply nextSeq_gt; [apply Hwf; exact Hin|].
    pose proof (nextSeq_pos (N.max retention (s_local s))).
    assert (Hne : N.max (q_min q) (nextSeq (N.max retention (s_local s))) <> 0) by lia.
    specialize (Hmin Hne). lia.
  - destruct ((q_max q =? 0) || (committed_of s minISR <? q_max q)) eqn:E.
    + apply Hmax. exact Ec.
    + apply orb_false_iff in E. destruct E as [E1 E2].
      apply N.eqb_neq in E1. apply N.ltb_ge in E2. specialize (Hmax E1). lia.
Qed.

Lemma filterSynced_incl y seqs x : In x (filterSyncedMessages y seqs) -> In x seqs.
Proof.
  unfold filterSyncedMessages.
  destruct ((y_mode y =? PullModeDown) && negb (y_end y =? 0)).
  - intro H. apply filter_In in H. tauto.
  - destruct ((y_mode y =? PullModeUp) && negb (y_end y =? 0)).
    + intro H. apply filter_In in H. tauto.
    + auto.
Qed.

Lemma page_incl y limit msgs x :
  In x (fst (channelMessagePageFromRead y limit msgs)) ->
  exists m, In m msgs /\ row_seq m = x /\ row_sync m = false.
Proof.
  unfold channelMessagePageFromRead. cbn [fst].
  set (seqs := filterSyncedMessages y (syncedMessagesFromChannel msgs)).
  intro H.
  assert (Hs : In x seqs).
  { destruct (query_reverse y); [apply in_rev in H|];
      destruct ((limit <? Z.of_nat (length seqs))%Z); try (apply In_firstn in H); exact H. }
  apply filterSynced_incl in Hs. unfold syncedMessagesFromChannel in Hs.
  apply in_map_iff in Hs. destruct Hs as (m & E & Hm). apply filter_In in Hm.
  destruct Hm as [Hm Hf]. exists m. repeat split; auto. apply negb_true_iff in Hf. exact Hf.
Qed.

Theorem SyncMessages_window s y retention minISR x :
  rows_below_max s ->
  In x (fst (SyncMessages s y retention minISR)) ->
  exists m, In m (s_rows s) /\ row_seq m = x /\ row_sync m = false
            /\ N.max retention (s_local s) < x /\ x <= committed_of s minISR.
Proof.
  intros Hwf. unfold SyncMessages.
  destruct (readLocalCommitted s (readCommittedRequest y (sync_limit y)) retention minISR) as [msgs nx] eqn:E.
  intro H. apply page_incl in H. destruct H as (m & Hm & Hx & Hs).
  assert (Hm' : In m (fst (readLocalCommitted s (readCommittedRequest y (sync_limit y)) retention minISR)))
    by (rewrite E; exact Hm).
  apply readLocalCommitted_window in Hm'; [|exact Hwf]. destruct Hm' as (A & B & C).
  exists m. subst x. repeat split; auto.
Qed.
