(* Proof/GatewaySend_order.v — ordering invariant of the sendExecutor transition
   system.  Per session s (one shard per session, one drain per shard):
     accepted(s) = handled(s) ++ [ClientSeqs of s still in the shard pipeline]
   where the pipeline of a shard is the drain worker's batch followed by the
   mailbox queue; SENDACKs of s are a subsequence of handled(s) ([o_sub]); ClientSeqs are
   handed out fresh and accepted(s) is strictly increasing ([o_inflight], [o_fresh], [o_sorted]). *)
From Coq Require Import Sorting.Sorted.
From WK Require Import Base.Base Base.Lists Model.GatewaySend Proof.GatewaySend_lib Proof.GatewaySend_split
  Proof.GatewaySend_acct.
Open Scope N_scope.

(* the pipeline of shard k: its drain worker's batch, then its queue *)
Definition pipe (st : state) (k : nat) : list task := wk_items (wpcs st k) ++ mbox st k.

Definition spc_q (p : spc) : option N :=
  match p with
  | SIdle => None
  | SGate q _ _ | SReserve q _ _ | SReserveShard q _ _ | SEnqueue q _ _
  | SUndoShard q _ _ | SUndoQueue q _ _ | SUndoAdm q _ _ | SReject q _ _ => Some q
  end.

Definition fresh_bound (st : state) (s : nat) : N :=
  match spc_q (spcs st s) with Some q => q | None => nextq st s end.

Definition cursub (st : state) : Prop :=
  forall k n cur curall rest, wpcs st k = WDisp n cur curall rest -> incl cur curall.

Record Order (c : cfg) (st : state) : Prop := {
  o_shard : forall k x, In x (pipe st k) -> shard_of c (t_s x) = k;
  o_acc : forall s, accq (sends st) s = finq (disps st) s ++ qs_of s (pipe st (shard_of c s));
  o_cursub : cursub st;
  o_sub : forall s, subseqb (ackq (wire st) s) (finq (disps st) s) = true;
  (* the SEND a submitter has in hand carries ClientSeq nextq - 1 *)
  o_inflight : forall s q, spc_q (spcs st s) = Some q -> nextq st s = q + 1;
  (* every accepted seq is below the one in hand, or below nextq *)
  o_fresh : forall s q, In q (accq (sends st) s) -> q < fresh_bound st s;
  o_sorted : forall s, StronglySorted N.lt (accq (sends st) s) }.

(* no SEND is handled twice: handled is a prefix of accepted, accepted is increasing *)
Lemma handled_nodup c st s : Order c st -> NoDup (finq (disps st) s).
Proof.
  intro O. apply (NoDup_app_l _ (qs_of s (pipe st (shard_of c s)))). rewrite <- (o_acc c _ O s).
  apply sorted_nodup, (o_sorted c _ O).
Qed.

Lemma acks_subseq c st s : Order c st -> subseqb (ackq (wire st) s) (accq (sends st) s) = true.
Proof. intro O. rewrite (o_acc c st O s). apply subseqb_app_r, (o_sub c st O). Qed.

Lemma order_init c : Order c init.
Proof.
  constructor; cbn; intros; try contradiction; try discriminate; try reflexivity.
  constructor.
Qed.

Definition pipe_upd (st : state) (k : nat) (l : list task) (st' : state) : Prop :=
  forall k0, pipe st' k0 = if Nat.eqb k0 k then l else pipe st k0.

Lemma pipe_upd_at st k l st' : pipe_upd st k l st' -> pipe st' k = l.
Proof. intro H. rewrite (H k), Nat.eqb_refl. reflexivity. Qed.

Lemma pipe_upd_other st k l st' k0 : pipe_upd st k l st' -> k0 <> k -> pipe st' k0 = pipe st k0.
Proof. intros H Hne. rewrite (H k0). apply Nat.eqb_neq in Hne. rewrite Hne. reflexivity. Qed.

Lemma oshard_upd c st k l st' :
  (forall k x, In x (pipe st k) -> shard_of c (t_s x) = k) ->
  pipe_upd st k l st' -> (forall x, In x l -> shard_of c (t_s x) = k) ->
  forall k0 x, In x (pipe st' k0) -> shard_of c (t_s x) = k0.
Proof.
  intros Ho Hp Hl k0 x Hin. destruct (Nat.eq_dec k0 k) as [->|Hne].
  - rewrite (pipe_upd_at _ _ _ _ Hp) in Hin. apply Hl. exact Hin.
  - rewrite (pipe_upd_other _ _ _ _ _ Hp Hne) in Hin. apply Ho. exact Hin.
Qed.

(* session s0's SEND (seq q) is accepted into the queue of its shard k *)
Lemma oacc_enq c st k st' x :
  (forall s, accq (sends st) s = finq (disps st) s ++ qs_of s (pipe st (shard_of c s))) ->
  shard_of c (t_s x) = k ->
  pipe_upd st k (pipe st k ++ [x]) st' ->
  (forall s, accq (sends st') s = accq (sends st) s ++ (if Nat.eqb (t_s x) s then [t_q x] else [])) ->
  (forall s, finq (disps st') s = finq (disps st) s) ->
  forall s, accq (sends st') s = finq (disps st') s ++ qs_of s (pipe st' (shard_of c s)).
Proof.
  intros Ho Hk Hp Hs Hd s. rewrite Hs, Hd, Ho.
  destruct (Nat.eq_dec (shard_of c s) k) as [E|Hne].
  - rewrite E. rewrite (pipe_upd_at _ _ _ _ Hp). rewrite qs_of_app, <- app_assoc. f_equal. f_equal.
    unfold qs_of. cbn [filter]. destruct (Nat.eqb (t_s x) s); reflexivity.
  - rewrite (pipe_upd_other _ _ _ _ _ Hp Hne).
    destruct (Nat.eqb (t_s x) s) eqn:E; [|rewrite app_nil_r; reflexivity].
    apply Nat.eqb_eq in E. subst s. congruence.
Qed.

(* the handler is finished with the first [items] of shard k's pipeline *)
Lemma oacc_drop c st k st' items rest :
  (forall k x, In x (pipe st k) -> shard_of c (t_s x) = k) ->
  (forall s, accq (sends st) s = finq (disps st) s ++ qs_of s (pipe st (shard_of c s))) ->
  pipe st k = items ++ rest ->
  pipe_upd st k rest st' ->
  (forall s, accq (sends st') s = accq (sends st) s) ->
  (forall s, finq (disps st') s = finq (disps st) s ++ qs_of s items) ->
  forall s, accq (sends st') s = finq (disps st') s ++ qs_of s (pipe st' (shard_of c s)).
Proof.
  intros Hsh Ho Hpk Hp Hs Hd s. rewrite Hs, Hd, Ho.
  destruct (Nat.eq_dec (shard_of c s) k) as [E|Hne].
  - rewrite E. rewrite (pipe_upd_at _ _ _ _ Hp). rewrite Hpk, qs_of_app, app_assoc. reflexivity.
  - rewrite (pipe_upd_other _ _ _ _ _ Hp Hne).
    assert (Hnil : qs_of s items = []).
    { destruct (qs_of s items) eqn:Eq; [reflexivity|]. exfalso.
      destruct (qs_of_nonempty s items) as [x [Hin Hx]]; [rewrite Eq; discriminate|].
      apply Hne. rewrite <- Hx. apply Hsh. rewrite Hpk. apply in_or_app. left. exact Hin. }
    rewrite Hnil, app_nil_r. reflexivity.
Qed.

Lemma osub_disps w d d2 :
  (forall s, subseqb (ackq w s) (finq d s) = true) ->
  forall s, subseqb (ackq w s) (finq (d ++ d2) s) = true.
Proof. intros H s. rewrite finq_app. apply subseqb_app_r. apply H. Qed.

Lemma osub_ack w d s0 q t t' :
  (forall s, subseqb (ackq w s) (finq d s) = true) ->
  forall s, subseqb (ackq (w ++ [HWire s0 0 q t]) s) (finq (d ++ [HDisp s0 q t']) s) = true.
Proof.
  intros H s. rewrite ackq_app, finq_app, ackq_one. unfold finq at 2. cbn [filter hd_s].
  destruct (Nat.eqb s0 s); cbn [andb map hd_q N.eqb].
  - apply subseqb_snoc. apply H.
  - rewrite !app_nil_r. apply H.
Qed.

Lemma order_frame c st st' :
  Order c st -> sends st' = sends st -> disps st' = disps st -> wpcs st' = wpcs st -> mbox st' = mbox st ->
  (forall i, spc_q (spcs st' i) = spc_q (spcs st i)) -> nextq st' = nextq st ->
  (forall s, ackq (wire st') s = ackq (wire st) s) ->
  Order c st'.
Proof.
  intros [? ? ? ? ? ? ?] Hs Hd Hw Hm Hsp Hn Ha.
  assert (Hp : forall k, pipe st' k = pipe st k) by (intro k; unfold pipe; rewrite Hw, Hm; reflexivity).
  constructor.
  - intros k x. rewrite Hp. apply o_shard0.
  - intro s. rewrite Hs, Hd, Hp. apply o_acc0.
  - intros k n cur curall rest. rewrite Hw. apply o_cursub0.
  - intro s. rewrite Ha, Hd. apply o_sub0.
  - intros i q. rewrite Hsp, Hn. apply o_inflight0.
  - intros i q. unfold fresh_bound. rewrite Hsp, Hn, Hs. apply o_fresh0.
  - rewrite Hs. exact o_sorted0.
Qed.

Lemma order_tick c st : Order c st -> Order c (tick st).
Proof. intro O. apply (order_frame c st _ O); reflexivity. Qed.

Lemma order_send c st s b : Order c st -> Order c (stepT c st (ESend s b)).
Proof.
  intros O. cbn [stepT]. destruct (spcs st s) eqn:Hpc; try exact O.
  destruct ((s <? c_nsess c)%nat && negb (sclosed st s)); [|exact O].
  destruct O. constructor; sp; try assumption.
  - intros s0 q0 Hq. by_idx s0 s; [cbn [spc_q] in Hq; congruence | auto].
  - intros s0 q0 Hq. specialize (o_fresh0 s0 q0 Hq). unfold fresh_bound in *. sp. by_idx s0 s; [|exact o_fresh0].
    rewrite Hpc in o_fresh0. exact o_fresh0.
Qed.

(* the submitter of session s is done with SEND q (accepted or not): the numbering clauses *)
Lemma order_finish_seq c st st' s q b t0 t1 acc :
  Order c st -> spc_q (spcs st s) = Some q ->
  spcs st' = upd (spcs st) s SIdle -> nextq st' = nextq st -> sends st' = sends st ++ [HSend s q b t0 t1 acc] ->
  (forall s0 q0, spc_q (spcs st' s0) = Some q0 -> nextq st' s0 = q0 + 1)
  /\ (forall s0 q0, In q0 (accq (sends st') s0) -> q0 < fresh_bound st' s0)
  /\ (forall s0, StronglySorted N.lt (accq (sends st') s0)).
Proof.
  intros O Hq Hsp Hn Hs.
  pose proof (o_inflight c st O s q Hq) as Hnext.
  assert (Hold : forall q0, In q0 (accq (sends st) s) -> q0 < q).
  { intros q0 H. pose proof (o_fresh c st O s q0 H) as Hf. unfold fresh_bound in Hf. rewrite Hq in Hf. exact Hf. }
  unfold fresh_bound. rewrite Hsp, Hn, Hs. repeat split.
  - intros s0 q0. by_idx s0 s; [discriminate | apply (o_inflight c st O)].
  - intros s0 q0. rewrite accq_app, accq_one. intro H. apply in_app_or in H. by_idx s0 s.
    + cbn [spc_q]. rewrite Hnext. destruct H as [H|H]; [specialize (Hold q0 H); lia|].
      destruct (Nat.eqb s s && acc); [destruct H as [<-|[]]; lia | destruct H].
    + destruct H as [H|H]; [apply (o_fresh c st O s0 q0 H)|].
      match goal with Hne : s0 <> s |- _ => apply Nat.eqb_neq in Hne; rewrite Nat.eqb_sym, Hne in H end. destruct H.
  - intro s0. rewrite accq_app, accq_one. destruct (Nat.eqb s s0 && acc) eqn:E.
    + apply andb_true_iff in E. destruct E as [E _]. apply Nat.eqb_eq in E. subst s0.
      apply sorted_snoc; [apply (o_sorted c st O) | exact Hold].
    + rewrite app_nil_r. apply (o_sorted c st O).
Qed.

Lemma pipe_move st st' k w m :
  wpcs st' = upd (wpcs st) k w -> (forall i, mbox st' i = upd (mbox st) k m i) ->
  pipe_upd st k (wk_items w ++ m) st'.
Proof. intros Hw Hm k0. unfold pipe. rewrite Hw, Hm. unfold upd. destruct (Nat.eqb k0 k); reflexivity. Qed.

Lemma cursub_move st st' k w :
  cursub st -> wpcs st' = upd (wpcs st) k w ->
  (forall n cur curall rest, w = WDisp n cur curall rest -> incl cur curall) -> cursub st'.
Proof. intros H Hw Hi k0 n cur curall rest. rewrite Hw. by_idx k0 k; [apply Hi | apply H]. Qed.

Lemma spc_q_send p p' : spc_send p = spc_send p' -> spc_q p = spc_q p'.
Proof. destruct p, p'; cbn; intro H; inversion H; reflexivity. Qed.

Lemma order_sub c st s : Order c st -> Order c (sub_step c s st).
Proof.
  intros O. set (k := shard_of c s).
  destruct (sub_step_cases c s st) as [-> | p a q0 f -> Hp _ _ | q b t0 -> Hpc | q b t0 -> Hpc].
  - exact O.
  - apply (order_frame c st _ O); try reflexivity.
    intro i. sp. by_idx i s; [apply spc_q_send, Hp | reflexivity].
  - fold k. set (x := T s q b). match goal with |- Order c ?S => set (st' := S) end.
    assert (Hp : pipe_upd st k (pipe st k ++ [x]) st').
    { unfold pipe at 1. rewrite <- (wake_items (wpcs st k)), <- app_assoc. apply pipe_move; [reflexivity | intro; reflexivity]. }
    destruct (order_finish_seq c st st' s q b t0 (now st) true O) as (H1 & H2 & H3);
      [rewrite Hpc; reflexivity | reflexivity..|].
    constructor; [| | | apply (o_sub c st O) | exact H1 | exact H2 | exact H3].
    + apply (oshard_upd c st k _ st' (o_shard c st O) Hp). intros x' Hin. apply in_app_or in Hin.
      destruct Hin as [Hin|[<-|[]]]; [apply (o_shard c st O); exact Hin | reflexivity].
    + apply (oacc_enq c st k st' x (o_acc c st O) eq_refl Hp); [|reflexivity].
      intro s0. apply accq_acc.
    + apply (cursub_move st st' k (wake (wpcs st k)) (o_cursub c st O) eq_refl).
      intros n cur curall rest Hw. apply (o_cursub c st O k n cur curall rest).
      destruct (wpcs st k); try discriminate Hw; exact Hw.
  - match goal with |- Order c ?S => set (st' := S) end.
    destruct (order_finish_seq c st st' s q b t0 (now st) false O) as (H1 & H2 & H3);
      [rewrite Hpc; reflexivity | reflexivity..|].
    constructor; [apply (o_shard c st O) | | apply (o_cursub c st O) | apply (o_sub c st O) | exact H1 | exact H2 | exact H3].
    intro s0. subst st'. sp. rewrite accq_rej. apply (o_acc c st O).
Qed.

(* shard k moves: its worker goes to w, its queue becomes m; [items], the front of its
   pipeline, have been handled, the rest of the pipeline stays as it is *)
Lemma order_wk c st st' k w m items :
  Order c st -> wpcs st' = upd (wpcs st) k w -> (forall i, mbox st' i = upd (mbox st) k m i) ->
  pipe st k = items ++ wk_items w ++ m ->
  (forall n cur curall rest, w = WDisp n cur curall rest -> incl cur curall) ->
  sends st' = sends st -> spcs st' = spcs st -> nextq st' = nextq st ->
  (forall s, finq (disps st') s = finq (disps st) s ++ qs_of s items) ->
  (forall s, subseqb (ackq (wire st') s) (finq (disps st') s) = true) ->
  Order c st'.
Proof.
  intros [? ? ? ? ? ? ?] Hw Hm Hpk Hc Hs Hsp Hn Hd Hsub.
  pose proof (pipe_move st st' k w m Hw Hm) as Hp. constructor.
  - apply (oshard_upd c st k _ st' o_shard0 Hp). intros x Hx. apply o_shard0. rewrite Hpk.
    apply in_or_app. right. exact Hx.
  - apply (oacc_drop c st k st' items _ o_shard0 o_acc0 Hpk Hp); [|exact Hd].
    intro s. rewrite Hs. reflexivity.
  - exact (cursub_move st st' k w o_cursub0 Hw Hc).
  - exact Hsub.
  - rewrite Hsp, Hn. exact o_inflight0.
  - unfold fresh_bound. rewrite Hsp, Hn, Hs. exact o_fresh0.
  - rewrite Hs. exact o_sorted0.
Qed.

Lemma order_wk_pc c st st' k w :
  Order c st -> wpcs st' = upd (wpcs st) k w -> mbox st' = mbox st ->
  wk_items w = wk_items (wpcs st k) ->
  (forall n cur curall rest, w = WDisp n cur curall rest -> incl cur curall) ->
  sends st' = sends st -> spcs st' = spcs st -> nextq st' = nextq st ->
  disps st' = disps st -> wire st' = wire st -> Order c st'.
Proof.
  intros O Hw Hm Hi Hc Hs Hsp Hn Hd Hwi.
  apply (order_wk c st st' k w (mbox st k) [] O Hw); try assumption.
  - intro i. rewrite Hm, upd_id. reflexivity.
  - unfold pipe. rewrite Hi. reflexivity.
  - intro s. rewrite Hd, app_nil_r. reflexivity.
  - rewrite Hd, Hwi. apply (o_sub c st O).
Qed.

(* [cur], the rest of the current sub-batch, is given up without SENDACK *)
Lemma order_give_up c st k n cur rest :
  Order c st -> wk_items (wpcs st k) = cur ++ concat rest ->
  Order c (set_wpc k (next_unit n rest) (drop_items cur st)).
Proof.
  intros O Hi.
  apply (order_wk c st _ k (next_unit n rest) (mbox st k) cur O); try reflexivity.
  - intro i. sp. rewrite upd_id. reflexivity.
  - unfold pipe. rewrite Hi, next_unit_items, app_assoc. reflexivity.
  - intros n0 cur0 curall rest0 H. destruct rest; inversion H. apply incl_refl.
  - intro s. sp. rewrite finq_app, finq_drop. reflexivity.
  - sp. apply osub_disps. apply (o_sub c st O).
Qed.

(* the handler is finished with x, the head of the current sub-batch, with or without SENDACK *)
Lemma order_head c st st' k n x cur curall rest :
  Order c st -> wpcs st k = WDisp n (x :: cur) curall rest ->
  wpcs st' = upd (wpcs st) k (WDisp n cur curall rest) -> mbox st' = mbox st ->
  sends st' = sends st -> spcs st' = spcs st -> nextq st' = nextq st ->
  disps st' = disps st ++ [HDisp (t_s x) (t_q x) (now st)] ->
  wire st' = wire st \/ wire st' = wire st ++ [HWire (t_s x) 0 (t_q x) (now st)] ->
  Order c st'.
Proof.
  intros O Hw Hwp Hm Hs Hsp Hn Hd Hwi.
  apply (order_wk c st st' k (WDisp n cur curall rest) (mbox st k) [x] O); try assumption.
  - intro i. rewrite Hm, upd_id. reflexivity.
  - unfold pipe. rewrite Hw. reflexivity.
  - intros ? ? ? ? H. inversion H; subst. intros a Ha. apply (o_cursub c st O k _ _ _ _ Hw). right. exact Ha.
  - intro s. rewrite Hd, finq_app. apply f_equal, (finq_drop [x]).
  - rewrite Hd. destruct Hwi as [-> | ->]; [apply osub_disps | apply osub_ack]; apply (o_sub c st O).
Qed.

Lemma order_work c st k ch : Order c st -> Order c (work_step c k ch st).
Proof.
  intros O. pose proof (fun st' w => order_wk_pc c st st' k w O) as Pc.
  destruct (work_step_cases c k ch st)
    as [-> | w q f -> Hi _ _ Hd _ | x r its -> Hm Hi _ | n cur ca rest -> Hw | n x cur ca rest -> Hw
        | n cur ca rest -> _ Hw | n cur rest -> Hw | n s tc cur rest -> Hw | r -> Hw _ | -> Hw _].
  - exact O.
  - eapply Pc; try reflexivity; [exact Hi|]. intros ? ? ? ? E. rewrite (Hd _ _ _ _ E). apply incl_refl.
  - (* the pipeline does not change *)
    apply (order_wk c st _ k (WCollect (its ++ [x])) r [] O); try reflexivity; try discriminate.
    + unfold pipe. rewrite Hi, Hm. cbn [wk_items]. rewrite <- app_assoc. reflexivity.
    + intro s. sp. rewrite app_nil_r. reflexivity.
    + apply (o_sub c st O).
  - eapply Pc; try reflexivity; [rewrite Hw; reflexivity | discriminate].
  - destruct (sclosed st (t_s x));
      apply (order_head c st _ k n x cur ca rest O Hw); try reflexivity; [left|right]; reflexivity.
  - apply order_give_up; [exact O | rewrite Hw; reflexivity].
  - apply order_give_up; [exact O | rewrite Hw; reflexivity].
  - eapply Pc; try reflexivity; [rewrite Hw; reflexivity | discriminate].
  - eapply Pc; try reflexivity; [rewrite Hw; reflexivity | discriminate].
  - eapply Pc; try reflexivity; [rewrite Hw; reflexivity | discriminate].
Qed.

Lemma order_ctl c st e : ctl_ev e -> Order c st -> Order c (stepT c st e).
Proof.
  intros He O. destruct (ctl_step_frame c st e He) as ((H1 & H2 & H3 & H4) & (H5 & H6 & _) & H7 & _).
  apply (order_frame c st _ O); try assumption. rewrite H3. reflexivity.
Qed.

Lemma order_stepT c st e : Order c st -> Order c (stepT c st e).
Proof.
  intros O. destruct e as [s b|s|k ch| | | | | | ]; try (apply order_ctl; [exact I | exact O]).
  - apply order_send. exact O.
  - cbn [stepT]. destruct (s <? c_nsess c)%nat; [apply order_sub|]; exact O.
  - cbn [stepT]. destruct (k <? c_shards c)%nat; [apply order_work|]; exact O.
Qed.

Lemma order_step c st e : Order c st -> Order c (step c st e).
Proof. intros O. rewrite step_eq. apply order_stepT, order_tick, O. Qed.

Lemma order_run c evs : Order c (run c evs).
Proof. apply run_inv; [apply order_init | intros st e; apply order_step]. Qed.
