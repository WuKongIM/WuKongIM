(* Proof/AckTracker_sim3.v — the bulk removals: SessionClosed and Expire *)
From WK Require Import Base.Base Base.Lists Gen.Consts_C32 Model.AckTracker.
From WK Require Import Proof.AckTracker_map Proof.AckTracker_entry Proof.AckTracker_index Proof.AckTracker_inv.
From Coq Require Import Permutation.
Open Scope N_scope.

Definition existsb_key_in : forall k ks, existsb (key_eqb k) ks = true <-> In k ks := set_mem_in key_eqb key_eqb_spec.

Lemma keys_nodup_spec ks : keys_nodup ks = true <-> NoDup ks.
Proof.
  induction ks as [|k r IH]; simpl; [split; [constructor|reflexivity]|].
  rewrite andb_true_iff, negb_true_iff, IH, <- not_true_iff_false, existsb_key_in. split.
  - intros [H1 H2]. constructor; assumption.
  - intro H. inversion H. auto.
Qed.

Lemma rel_filter bm bm' s (f : key -> bool) :
  Rel bm s -> (forall k, kget k bm' = if f k then kget k bm else None) ->
  Rel bm' (filter (fun ke => f (fst ke)) s).
Proof.
  intros R H. constructor.
  - apply al_filter_nodup. apply (rel_nodup _ _ R).
  - intros k e G. rewrite H in G. destruct (f k) eqn:F; [|discriminate].
    destruct (rel_some _ _ R _ _ G) as [se [G1 G2]]. exists se. split; [|exact G2].
    rewrite (k_get_filter _ _ _ (rel_nodup _ _ R)). rewrite G1. simpl. rewrite F. reflexivity.
  - intros k G. rewrite (k_get_filter _ _ _ (rel_nodup _ _ R)).
    destruct (kget k s) eqn:G1; [|reflexivity]. simpl.
    destruct (f k) eqn:F; [|reflexivity]. rewrite H, F in G.
    rewrite (rel_none _ _ R _ G) in G1. discriminate.
Qed.

Lemma key_skey_eq (k : key) u sid : key_skey k = (u, sid) -> k = (u, sid, key_mid k).
Proof. destruct k as [[ku ks] km]. simpl. intro H. inversion H. reflexivity. Qed.

Definition del_rows (bm rows : list (key * entry)) : list (key * entry) := al_del_keys key_eqb (al_keys rows) bm.

Lemma filter_del_rows (f : key * entry -> bool) bm :
  NoDup (al_keys bm) -> filter f bm = del_rows bm (filter (fun ke => negb (f ke)) bm).
Proof.
  intro ND. unfold del_rows. rewrite (al_del_keys_filter key_eqb key_eqb_spec).
  apply (al_filter_ext key_eqb key_eqb_spec); [exact ND|]. intros k v G. cbn [fst].
  apply eq_true_iff_eq. rewrite negb_true_iff, <- not_true_iff_false, existsb_key_in.
  rewrite <- (al_get_key_iff key_eqb key_eqb_spec), (k_get_filter _ _ _ ND), G.
  destruct (f (k, v)); simpl; intuition congruence.
Qed.

Lemma Inv_del_rows rows : forall t,
  Inv t -> NoDup (al_keys rows) -> (forall k e, In (k, e) rows -> kget k (t_byMessage t) = Some e) ->
  Inv (with_maps t (del_rows (t_byMessage t) rows) (expire_sessions (t_bySession t) rows)
                 (t_count t - Z.of_nat (length rows))%Z (t_next t)).
Proof.
  induction rows as [|[[[u s] m] e] r IH]; intros t I ND H.
  - simpl. rewrite Z.sub_0_r. destruct t. exact I.
  - inversion ND as [|? ? Hn ND']. subst.
    pose proof (Inv_del t u s m e I (H _ _ (or_introl eq_refl))) as I1.
    specialize (IH _ I1 ND'). unfold del_rows in *. cbn [al_keys map fst al_del_keys expire_sessions key_skey key_mid length]. proj.
    replace (t_count t - Z.of_nat (S (length r)))%Z with (t_count t - 1 - Z.of_nat (length r))%Z by lia.
    apply IH. intros k' e' Hin. proj. rewrite k_get_del_other; [apply H; right; exact Hin|].
    intro X. subst k'. apply Hn. apply (in_map fst) in Hin. exact Hin.
Qed.

Lemma spec_del_keys_al ks : forall s, spec_del_keys s ks = al_del_keys key_eqb ks s.
Proof. induction ks as [|k r IH]; intro s; [reflexivity|apply IH]. Qed.

Lemma rel_del_keys ks : forall bm s, Rel bm s -> Rel (al_del_keys key_eqb ks bm) (al_del_keys key_eqb ks s).
Proof. induction ks as [|k r IH]; intros bm s R; [exact R|]. apply IH, rel_del, R. Qed.

Definition session_rows (bm : list (key * entry)) (u sid : N) (mids : list N) : list (key * entry) :=
  map (fun m => ((u, sid, m), match kget (u, sid, m) bm with Some e => e | None => zero_entry end)) mids.

Lemma close_loop_rows u sid mids : NoDup mids -> forall bm,
  (forall m, In m mids -> kget (u, sid, m) bm <> None) ->
  close_loop bm u sid mids
  = (del_rows bm (session_rows bm u sid mids), map (fun ke => e_pending (snd ke)) (session_rows bm u sid mids)).
Proof.
  induction 1 as [|m r Hn ND IH]; intros bm ALL; [reflexivity|]. cbn [close_loop session_rows map].
  destruct (kget (u, sid, m) bm) as [e|] eqn:G; [|exfalso; exact (ALL m (or_introl eq_refl) G)].
  assert (OTHER : forall x, In x r -> kget (u, sid, x) (al_del key_eqb (u, sid, m) bm) = kget (u, sid, x) bm).
  { intros x Hx. apply k_get_del_other. intro X. inversion X. subst x. contradiction. }
  rewrite IH by (intros x Hx; rewrite (OTHER x Hx); apply ALL; right; exact Hx).
  assert (R : session_rows (al_del key_eqb (u, sid, m) bm) u sid r = session_rows bm u sid r).
  { apply map_ext_in. intros x Hx. rewrite (OTHER x Hx). reflexivity. }
  rewrite R. reflexivity.
Qed.

Lemma session_rows_keys bm u sid mids : al_keys (session_rows bm u sid mids) = map (fun m => (u, sid, m)) mids.
Proof. unfold session_rows, al_keys. rewrite map_map. reflexivity. Qed.

Lemma del_session_rows_get bm u sid mids k :
  (forall m, In m mids <-> kget (u, sid, m) bm <> None) ->
  kget k (del_rows bm (session_rows bm u sid mids)) = if skey_eqb (key_skey k) (u, sid) then None else kget k bm.
Proof.
  intro STORED. destruct k as [[ku ks] km]. unfold del_rows.
  rewrite (al_get_del_keys key_eqb key_eqb_spec), session_rows_keys. cbn [key_skey].
  destruct (existsb (key_eqb (ku, ks, km)) (map (fun m => (u, sid, m)) mids)) eqn:X.
  - apply existsb_key_in, in_map_iff in X. destruct X as [m [X _]]. inversion X. rewrite skey_eqb_refl. reflexivity.
  - destruct (skey_eqb (ku, ks) (u, sid)) eqn:E; [|reflexivity]. apply skey_eqb_spec in E. inversion E. subst ku ks.
    destruct (kget (u, sid, km) bm) eqn:G; [|reflexivity]. exfalso.
    rewrite <- not_true_iff_false in X. apply X, existsb_key_in, in_map, STORED. congruence.
Qed.

Definition closed_post (t : tracker) (u sid : N) (t' : tracker) (r : out) : Prop :=
  Inv t'
  /\ exists ps, r = RList ps
  /\ (forall k, kget k (t_byMessage t') =
                if skey_eqb (key_skey k) (u, sid) then None else kget k (t_byMessage t))
  /\ (forall p, In p ps <-> exists k e, key_skey k = (u, sid) /\ kget k (t_byMessage t) = Some e /\ p = e_pending e)
  /\ t_count t' = (t_count t - Z.of_nat (length ps))%Z
  /\ NoDup (map key_of ps).

Lemma session_row_indexed t k e u sid :
  Inv t -> kget k (t_byMessage t) = Some e -> key_skey k = (u, sid) ->
  (u =? 0) || (sid =? 0) = false /\ exists mids, sget (u, sid) (t_bySession t) = Some mids /\ In (key_mid k) mids.
Proof.
  intros I G X. apply key_skey_eq in X. rewrite X in G. split.
  - destruct ((u =? 0) || (sid =? 0)) eqn:C; [|reflexivity].
    rewrite (zero_key_absent t u sid (key_mid k) I) in G; [discriminate|rewrite C; reflexivity].
  - apply (si_proj _ _ (inv_index t I)). unfold has_key. rewrite G. discriminate.
Qed.

Lemma closed_nothing t u sid :
  Inv t -> (forall k e, kget k (t_byMessage t) = Some e -> key_skey k <> (u, sid)) -> closed_post t u sid t (RList []).
Proof.
  intros I NO. split; [exact I|]. exists [].
  split; [reflexivity|]. split; [|split; [|split; [simpl; lia|constructor]]].
  - intro k. destruct (skey_eqb (key_skey k) (u, sid)) eqn:E; [|reflexivity]. apply skey_eqb_spec in E.
    destruct (kget k (t_byMessage t)) eqn:G; [|reflexivity]. exfalso. apply (NO _ _ G E).
  - intro p. split; [intros []|]. intros [k [e [E [G _]]]]. apply (NO _ _ G E).
Qed.

Lemma SessionClosed_post t u sid : Inv t -> let '(t', r) := SessionClosed t u sid in closed_post t u sid t' r.
Proof.
  intro I. unfold SessionClosed.
  (* zero ids or no session row: no stored row belongs to the session *)
  assert (NOTHING : (u =? 0) || (sid =? 0) = true \/ sget (u, sid) (t_bySession t) = None ->
                    closed_post t u sid t (RList [])).
  { intro H. apply (closed_nothing t u sid I). intros k e G X.
    destruct (session_row_indexed t k e u sid I G X) as [Z [mids [GS _]]]. destruct H; congruence. }
  destruct ((u =? 0) || (sid =? 0)) eqn:C; [apply NOTHING; left; reflexivity|].
  destruct (sget (u, sid) (t_bySession t)) as [mids|] eqn:GS; [|apply NOTHING; right; reflexivity].
  destruct (si_rows _ _ (inv_index t I) _ _ GS) as [NE NDm].
  destruct mids as [|m0 r0]; [contradiction|]. remember (m0 :: r0) as mids eqn:EM. clear EM m0 r0 NE.

  assert (STORED : forall m, In m mids <-> kget (u, sid, m) (t_byMessage t) <> None).
  { intro m. fold (has_key (t_byMessage t) (u, sid, m)). rewrite <- (si_proj _ _ (inv_index t I)). split.
    - intro H. exists mids. auto.
    - intros [ms [G H]]. rewrite GS in G. inversion G. subst ms. exact H. }
  rewrite (close_loop_rows u sid mids NDm _ (fun m H => proj1 (STORED m) H)).
  set (rows := session_rows (t_byMessage t) u sid mids).
  pose proof (session_rows_keys (t_byMessage t) u sid mids) as KEYS. fold rows in KEYS.
  assert (ROW : forall k e, In (k, e) rows -> kget k (t_byMessage t) = Some e).
  { intros k e H. apply in_map_iff in H. destruct H as [m [E Hm]]. inversion E. clear E.
    destruct (kget (u, sid, m) (t_byMessage t)) eqn:G; [reflexivity|]. exfalso. exact (proj1 (STORED m) Hm G). }
  assert (RND : NoDup (al_keys rows)).
  { rewrite KEYS. apply FinFun.Injective_map_NoDup; [|exact NDm]. intros a b X. inversion X. reflexivity. }
  pose proof (fun k => del_session_rows_get (t_byMessage t) u sid mids k STORED) as GET'. fold rows in GET'.
  (* I2: the invariant Expire would give for these rows; only its index differs, since SessionClosed
     drops the whole bySession row at once *)
  pose proof (Inv_del_rows rows t I RND ROW) as I2. rewrite map_length. unfold closed_post.
  split; [|exists (map (fun ke : key * entry => e_pending (snd ke)) rows); split; [reflexivity|]; split; [exact GET'|]; split; [|split]].
  - constructor; proj.
    + exact (inv_nodup _ I2).
    + exact (inv_count _ I2).
    + exact (si_drop_session _ _ _ u sid (inv_index t I) GET').
    + exact (inv_entries _ I2).
    + intros LP sk ms G. destruct (skey_eq_dec (u, sid) sk) as [E|E].
      * subst sk. rewrite s_get_del_same in G. discriminate.
      * rewrite s_get_del_other in G by exact E. apply (inv_limit t I LP _ _ G).
  - intro p. rewrite in_map_iff. split.
    + intros [[k e] [E H]]. cbn [snd] in E. exists k, e. split; [|split; [apply (ROW k e H)|symmetry; exact E]].
      apply (in_map fst) in H. fold (al_keys rows) in H. rewrite KEYS in H. apply in_map_iff in H.
      destruct H as [m [X _]]. cbn [fst] in X. subst k. reflexivity.
    + intros [[[ku ks] km] [e [E [G Hp]]]]. cbn [key_skey] in E. inversion E. subst ku ks.
      exists ((u, sid, km), e). split; [symmetry; exact Hp|].
      apply in_map_iff. exists km. rewrite G. split; [reflexivity|]. apply STORED. congruence.
  - rewrite map_length. reflexivity.
  - rewrite map_map, (map_ext_in _ fst); [exact RND|]. intros [k e] H. cbn [snd fst].
    destruct (inv_entries t I _ _ (ROW k e H)) as [[_ _ K _] _]. apply K. left. reflexivity.
Qed.

Lemma SessionClosed_sim t s u sid now :
  Sim t s ->
  let '(t', r) := SessionClosed t u sid in
  exists s', spec_step s now (OClose u sid) r = Some (s', now) /\ Sim t' s'.
Proof.
  intros [I R]. pose proof (SessionClosed_post t u sid I) as H. destruct (SessionClosed t u sid) as [t' r].
  destruct H as [I' [ps [-> [GET [INP [_ ND]]]]]].
  set (mine := filter (fun ke : key * sentry => skey_eqb (key_skey (fst ke)) (u, sid)) s).

  assert (KS : forall k, In k (map key_of ps) <-> key_skey k = (u, sid) /\ kget k (t_byMessage t) <> None).
  { assert (KO : forall k e, kget k (t_byMessage t) = Some e -> key_of (e_pending e) = k).
    { intros k e G. apply (eo_keyed _ _ _ (proj1 (inv_entries t I _ _ G))). left. reflexivity. }
    intro k. rewrite in_map_iff. split.
    - intros [p [E Hp]]. apply INP in Hp. destruct Hp as [k' [e [E1 [G E2]]]]. subst p.
      rewrite (KO _ _ G) in E. subst k'. rewrite G. split; [exact E1|discriminate].
    - intros [E G]. destruct (kget k (t_byMessage t)) as [e|] eqn:G'; [|contradiction].
      exists (e_pending e). split; [apply (KO _ _ G')|]. apply INP. exists k, e. auto. }
  assert (MK : forall k, kget k mine <> None <-> key_skey k = (u, sid) /\ kget k (t_byMessage t) <> None).
  { intro k. unfold mine. rewrite (k_get_filter _ _ _ (rel_nodup _ _ R)), <- (rel_stored _ _ k R), <- skey_eqb_spec.
    cbn [fst]. destruct (kget k s); [|tauto]. destruct (skey_eqb (key_skey k) (u, sid)); split; intuition congruence. }
  exists (filter (fun ke : key * sentry => negb (skey_eqb (key_skey (fst ke)) (u, sid))) s).
  split; [|split; [exact I'|]].
  - unfold spec_step. cbv zeta. fold mine.
    assert (X1 : keys_nodup (map key_of ps) = true) by (apply keys_nodup_spec, ND).
    assert (X2 : Nat.eqb (length (map key_of ps)) (length mine) = true).
    { apply Nat.eqb_eq. rewrite <- (map_length fst mine).
      apply nodup_same_length; [exact ND|apply al_filter_nodup, (rel_nodup _ _ R)|].
      intro k. rewrite KS, <- MK. apply (al_get_key_iff key_eqb key_eqb_spec). }
    assert (X3 : forallb (fun k => spec_has mine k) (map key_of ps) = true).
    { apply forallb_forall. intros k Hk. apply KS, MK in Hk. unfold spec_has. destruct (kget k mine); [reflexivity|contradiction]. }
    rewrite X1, X2, X3. reflexivity.
  - apply (rel_filter (t_byMessage t) _ s (fun k => negb (skey_eqb (key_skey k) (u, sid)))); [exact R|].
    intro k. rewrite GET. destruct (skey_eqb (key_skey k) (u, sid)); reflexivity.
Qed.

Lemma time_second_pos : (0 < time_second)%Z.
Proof. reflexivity. Qed.

(* ttl_seconds is the ceiling of ttl / time.Second *)
Lemma ttl_seconds_spec ttl d : (0 < ttl)%Z -> (ttl_seconds ttl <= d <-> ttl <= d * time_second)%Z.
Proof.
  intro H. pose proof time_second_pos as SP. unfold ttl_seconds.
  remember time_second as S eqn:ES. clear ES.
  rewrite Z.quot_div_nonneg by lia. rewrite Z.rem_mod_nonneg by lia.
  pose proof (Z.div_mod ttl S ltac:(lia)) as DM.
  pose proof (Z.mod_pos_bound ttl S SP) as MB.
  set (q := (ttl / S)%Z) in *. set (r := (ttl mod S)%Z) in *.
  destruct (r =? 0)%Z eqn:E.
  - apply Z.eqb_eq in E. split; intro; nia.
  - apply Z.eqb_neq in E. split; intro; nia.
Qed.

(* math.MaxInt64; with clock and ttl in this range the cutoff of Expire does not wrap *)
Definition i64_max : Z := 9223372036854775807%Z.

Lemma cutoff_no_wrap now ttl :
  (0 <= now <= i64_max)%Z -> (0 < ttl <= i64_max)%Z ->
  wrap_i64 (now - ttl_seconds ttl) = (now - ttl_seconds ttl)%Z.
Proof.
  intros Hn Ht. pose proof time_second_pos as SP. unfold i64_max in *.
  assert (Q1 : (ttl_seconds ttl <= ttl)%Z) by (apply ttl_seconds_spec; nia).
  assert (Q2 : (0 < ttl_seconds ttl)%Z).
  { destruct (Z_lt_le_dec 0 (ttl_seconds ttl)) as [L|L]; [exact L|].
    apply ttl_seconds_spec in L; lia. }
  unfold wrap_i64. rewrite Z.mod_small by lia. lia.
Qed.

Lemma ttl_seconds_le_iff now ttl a :
  (0 < ttl)%Z -> (a <= now - ttl_seconds ttl <-> ttl <= (now - a) * time_second)%Z.
Proof. intro H. rewrite <- (ttl_seconds_spec ttl (now - a) H). lia. Qed.

Lemma idle_past_cutoff now ttl at_ :
  (0 < ttl)%Z -> idle_past now ttl at_ = (at_ <=? now - ttl_seconds ttl)%Z.
Proof.
  intro H. unfold idle_past. apply eq_true_iff_eq. rewrite !Z.leb_le. symmetry. apply ttl_seconds_le_iff, H.
Qed.

Lemma forallb_ext' {A} (f g : A -> bool) l : (forall a, f a = g a) -> forallb f l = forallb g l.
Proof. intro H. induction l as [|a l IH]; simpl; [reflexivity|]. rewrite H, IH. reflexivity. Qed.

Lemma entry_idle_iff now ttl e se :
  (0 <= now <= i64_max)%Z -> (0 < ttl <= i64_max)%Z ->
  entry_wf e -> entry_alive e -> rel_entry e se ->
  hasDeliveryAfter e (wrap_i64 (now - ttl_seconds ttl)) = negb (sentry_idle now ttl se).
Proof.
  intros Hn Ht W A [RC RP]. rewrite (cutoff_no_wrap now ttl Hn Ht).
  rewrite (hasDeliveryAfter_abs e _ W A). f_equal. unfold sentry_idle.
  assert (TP : (0 <? ttl)%Z = true) by (apply Z.ltb_lt; lia). rewrite TP. cbn [andb].
  rewrite RC. f_equal.
  - destruct (abs_committed e); [|reflexivity]. symmetry. apply idle_past_cutoff. lia.
  - rewrite <- (forallb_perm _ _ _ RP). apply forallb_ext'. intros a. symmetry. apply idle_past_cutoff. lia.
Qed.

Lemma Expire_sim t s now ttl :
  Sim t s -> (0 <= now <= i64_max)%Z -> (ttl <= i64_max)%Z ->
  let '(t', r) := Expire t now ttl in
  exists s', spec_step s now (OExpire ttl) r = Some (s', now) /\ Sim t' s'.
Proof.
  intros S Hn Ht. pose proof S as [I R]. unfold Expire.
  destruct (ttl <=? 0)%Z eqn:TZ.
  { exists s. split; [reflexivity|exact S]. }
  apply Z.leb_gt in TZ.
  set (cutoff := wrap_i64 (now - ttl_seconds ttl)).
  set (gone := filter (fun ke : key * entry => negb (hasDeliveryAfter (snd ke) cutoff)) (t_byMessage t)).
  set (keep := filter (fun ke : key * entry => hasDeliveryAfter (snd ke) cutoff) (t_byMessage t)).
  set (ps := map (fun ke : key * entry => e_pending (snd ke)) gone).
  assert (ROW : forall k e, In (k, e) gone -> kget k (t_byMessage t) = Some e /\ hasDeliveryAfter e cutoff = false).
  { intros k e H. apply filter_In in H. destruct H as [H1 H2]. simpl in H2. apply negb_true_iff in H2.
    split; [apply (k_in_get _ _ _ (inv_nodup t I) H1)|exact H2]. }
  assert (KS : map key_of ps = al_keys gone).
  { unfold ps, al_keys. rewrite map_map. apply map_ext_in. intros [k e] H. simpl.
    destruct (ROW _ _ H) as [G _]. destruct (inv_entries t I _ _ G) as [[_ _ K _] _]. apply K. left. reflexivity. }
  assert (GND : NoDup (al_keys gone)) by (apply al_filter_nodup; apply (inv_nodup t I)).
  assert (KEEP : keep = del_rows (t_byMessage t) gone).
  { apply (filter_del_rows (fun ke => hasDeliveryAfter (snd ke) cutoff)), (inv_nodup t I). }
  exists (spec_del_keys s (al_keys gone)).
  split.
  - unfold spec_step. cbv zeta. fold cutoff. fold gone. fold ps. rewrite KS.
    match goal with |- (if ?c then _ else _) = _ => assert (HC : c = true) end.
    { apply andb_true_iff. split; [apply keys_nodup_spec; exact GND|].
      apply forallb_forall. intros k Hk. apply in_map_iff in Hk. destruct Hk as [[k0 e] [E1 E2]]. simpl in E1. subst k0.
      destruct (ROW _ _ E2) as [G HD].
      destruct (rel_some _ _ R _ _ G) as [se [G1 RE]]. rewrite G1.
      destruct (inv_entries t I _ _ G) as [[W A _ _] _].
      pose proof (entry_idle_iff now ttl e se Hn (conj TZ Ht) W A RE) as EI. fold cutoff in EI.
      rewrite HD in EI. destruct (sentry_idle now ttl se); [reflexivity|discriminate]. }
    rewrite HC. reflexivity.
  - rewrite KEEP, spec_del_keys_al. split; [|apply rel_del_keys, R].
    apply Inv_del_rows; [exact I|exact GND|]. intros k e H. apply (ROW k e H).
Qed.
