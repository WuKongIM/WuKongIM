(* Proof/WkEnc_b64.v — the concrete encoders of Model/WkEnc.v are injective:
   base64 (decode ∘ encode = id on byte strings), hexLower / hexMD5String. *)
From WK Require Import Base.Base Base.Bytes Base.Lists Gen.Consts_C25 Model.WkEnc.
From Coq Require Import ZifyBool ZifyN ZifyNat.
#[local] Ltac Zify.zify_post_hook ::= Z.div_mod_to_equations.
Open Scope N_scope.

Definition below (n : nat) : list N := map N.of_nat (seq 0 n).

Lemma forall_below (f : N -> bool) n :
  forallb f (below n) = true -> forall i, i < N.of_nat n -> f i = true.
Proof.
  intros H i Hi. rewrite forallb_forall in H. apply H, in_map_iff.
  exists (N.to_nat i). split; [lia|apply in_seq; lia].
Qed.

Lemma b64_val_char v : v < 64 -> b64_val (b64_char v) = Some v.
Proof.
  intro H.
  assert (E : forallb (fun v => option_eqb N.eqb (b64_val (b64_char v)) (Some v)) (below 64) = true)
    by (vm_compute; reflexivity).
  apply (forall_below _ _ E), (option_eqb_spec N.eqb N.eqb_eq) in H. exact H.
Qed.

Lemma b64_pad_val : b64_val B64Pad = None.
Proof. vm_compute. reflexivity. Qed.

(* what holds of 0 (the default of [nth]), of the padding and of every character of the
   alphabet holds of every character [b64_encode] writes *)
Lemma b64_encode_forall (P : N -> bool) : forallb P (0 :: B64Pad :: B64Alphabet) = true ->
  forall d, forallb P (b64_encode d) = true.
Proof.
  intro H. rewrite forallb_forall in H.
  assert (C : forall v, P (b64_char v) = true).
  { intro v. apply H. unfold b64_char.
    destruct (nth_in_or_default (N.to_nat v) B64Alphabet 0) as [I| ->]; [right; right; exact I|left; reflexivity]. }
  assert (Hp : P B64Pad = true) by (apply H; right; left; reflexivity).
  (* [fix] with the nested pattern follows b64_encode's own recursion, three bytes at a time *)
  fix IH 1. intros [|a [|b [|c r]]]; cbn [b64_encode forallb]; rewrite ?C, ?Hp, ?IH; reflexivity.
Qed.

Lemma b64_encode_all_bytes d : all_bytes (b64_encode d) = true.
Proof. apply b64_encode_forall. vm_compute. reflexivity. Qed.

Lemma strip_crlf_encode d : strip_crlf (b64_encode d) = b64_encode d.
Proof. apply filter_all, forallb_forall, b64_encode_forall. vm_compute. reflexivity. Qed.

(* three bytes as four sextets, and back *)
Lemma sextets a b c : a < 256 -> b < 256 -> c < 256 ->
  let s0 := a / 4 in let s1 := a mod 4 * 16 + b / 16 in
  let s2 := b mod 16 * 4 + c / 64 in let s3 := c mod 64 in
  (s0 < 64 /\ s1 < 64 /\ s2 < 64 /\ s3 < 64)
  /\ s0 * 4 + s1 / 16 = a /\ s1 mod 16 * 16 + s2 / 4 = b /\ s2 mod 4 * 64 + s3 = c.
Proof. cbv zeta. repeat split; lia. Qed.

Lemma all_bytes_cons x r : all_bytes (x :: r) = true <-> x < 256 /\ all_bytes r = true.
Proof. cbn [all_bytes forallb]. unfold is_byte. rewrite andb_true_iff, N.ltb_lt. reflexivity. Qed.

Lemma b64_decode_quanta_encode : forall d, all_bytes d = true -> b64_decode_quanta (b64_encode d) = Some d.
Proof.
  fix IH 1. intros [|a [|b [|c r]]] Hd; [reflexivity|..]; repeat (apply all_bytes_cons in Hd; destruct Hd as [? Hd]);
    cbn [b64_encode b64_decode_quanta].
  - destruct (sextets a 0 0) as [(S0 & S1 & _) (E0 & _)]; try lia. rewrite N.add_0_r in S1, E0.
    rewrite !b64_val_char, b64_pad_val, N.eqb_refl, E0 by assumption. reflexivity.
  - destruct (sextets a b 0) as [(S0 & S1 & S2 & _) (E0 & E1 & _)]; try lia. rewrite N.add_0_r in S2, E1.
    rewrite !b64_val_char, b64_pad_val, N.eqb_refl, E0, E1 by assumption. reflexivity.
  - destruct (sextets a b c) as [(S0 & S1 & S2 & S3) (E0 & E1 & E2)]; try assumption.
    rewrite !b64_val_char, (IH r Hd), E0, E1, E2 by assumption. reflexivity.
Qed.

Theorem b64_decode_encode d : all_bytes d = true -> b64_decode (b64_encode d) = Some d.
Proof. unfold b64_decode. rewrite strip_crlf_encode. apply b64_decode_quanta_encode. Qed.

Theorem b64_encode_inj a b : all_bytes a = true -> all_bytes b = true -> b64_encode a = b64_encode b -> a = b.
Proof.
  intros Ha Hb E. apply b64_decode_encode in Ha, Hb. rewrite E, Hb in Ha. injection Ha as <-. reflexivity.
Qed.

Definition digits_distinct (digits : list N) : bool :=
  forallb (fun i => forallb (fun j => negb (nth (N.to_nat i) digits 0 =? nth (N.to_nat j) digits 0) || (i =? j)) (below 16)) (below 16).

Lemma digits_inj digits i j : digits_distinct digits = true -> i < 16 -> j < 16 ->
  nth (N.to_nat i) digits 0 = nth (N.to_nat j) digits 0 -> i = j.
Proof.
  intros D Hi Hj E. apply (forall_below _ _ D) in Hi. apply (forall_below _ _ Hi) in Hj.
  rewrite E, N.eqb_refl in Hj. apply N.eqb_eq. exact Hj.
Qed.

Lemma hex_with_inj digits : digits_distinct digits = true ->
  forall a b, all_bytes a = true -> all_bytes b = true -> hex_with digits a = hex_with digits b -> a = b.
Proof.
  intro D. induction a as [|x a IH]; intros [|y b] Ha Hb E; try reflexivity; try discriminate.
  apply all_bytes_cons in Ha, Hb. destruct Ha as [Hx Ha], Hb as [Hy Hb].
  injection E as E1 E2 E3.
  apply (digits_inj digits _ _ D) in E1; [|lia..]. apply (digits_inj digits _ _ D) in E2; [|lia..].
  f_equal; [lia|exact (IH b Ha Hb E3)].
Qed.

Lemma hexMD5String_inj a b : all_bytes a = true -> all_bytes b = true -> hexMD5String a = hexMD5String b -> a = b.
Proof. apply hex_with_inj. vm_compute. reflexivity. Qed.

Lemma hexLower_inj a b : all_bytes a = true -> all_bytes b = true -> hexLower a = hexLower b -> a = b.
Proof. apply hex_with_inj. vm_compute. reflexivity. Qed.

Lemma hex_with_length digits a : length (hex_with digits a) = (2 * length a)%nat.
Proof. induction a as [|x a IH]; [reflexivity|]. unfold hex_with in *. cbn [flat_map app length]. rewrite IH. lia. Qed.
