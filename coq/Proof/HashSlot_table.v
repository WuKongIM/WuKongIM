(* Proof/HashSlot_table.v — the hash-slot table operations: well-formedness
   (length of the assignment = hash-slot count) is preserved, Lookup is a total
   function, every effective mutation bumps the version by one and changes the
   content, physical (non-zero) assignments are preserved.  First come list facts
   about set_nth and the sorted migration list; last, NewHashSlotTable's layout and
   apply_plan as a fold of reassign. *)
From WK Require Import Base.Base Base.Bytes Gen.Consts_C20 Model.HashSlot.
From Coq Require Import ZifyBool ZifyN ZifyNat.
Open Scope N_scope.

Lemma set_nth_length {A} (v : A) : forall l n, length (set_nth n v l) = length l.
Proof. induction l as [|x l IH]; intros [|n]; cbn [set_nth length]; try reflexivity. rewrite IH. reflexivity. Qed.

Lemma nth_set_nth_same {A} (v d : A) : forall l n, (n < length l)%nat -> nth n (set_nth n v l) d = v.
Proof.
  induction l as [|x l IH]; intros [|n] H; cbn [length] in H; try lia; cbn [set_nth nth]; [reflexivity|].
  apply IH. lia.
Qed.

Lemma nth_set_nth_other {A} (v d : A) : forall l n k, n <> k -> nth k (set_nth n v l) d = nth k l d.
Proof.
  induction l as [|x l IH]; intros [|n] [|k] H; cbn [set_nth nth]; try reflexivity; try congruence.
  apply IH. congruence.
Qed.

Lemma set_nth_same {A} (d : A) : forall l n, (n < length l)%nat -> set_nth n (nth n l d) l = l.
Proof.
  induction l as [|x l IH]; intros [|n] H; cbn [length] in H; try lia; cbn [set_nth nth]; [reflexivity|].
  rewrite IH by lia. reflexivity.
Qed.

Lemma set_nth_beyond {A} (v : A) : forall l n, (length l <= n)%nat -> set_nth n v l = l.
Proof.
  induction l as [|x l IH]; intros [|n] H; cbn [length] in H; try lia; cbn [set_nth]; try reflexivity.
  rewrite IH by lia. reflexivity.
Qed.

Lemma Forall_set_nth {A} (P : A -> Prop) (v : A) : forall l n, Forall P l -> P v -> Forall P (set_nth n v l).
Proof.
  induction l as [|x l IH]; intros [|n] Hl Hv; cbn [set_nth]; try assumption.
  - inversion Hl; subst. constructor; assumption.
  - inversion Hl; subst. constructor; [assumption|]. apply IH; assumption.
Qed.

Lemma mig_find_put_same m ms : mig_find (m_hs m) (mig_put m ms) = Some m.
Proof.
  induction ms as [|x r IH]; cbn [mig_put mig_find].
  - rewrite N.eqb_refl. reflexivity.
  - destruct (m_hs m <? m_hs x) eqn:E1.
    + cbn [mig_find]. rewrite N.eqb_refl. reflexivity.
    + destruct (m_hs m =? m_hs x) eqn:E2.
      * cbn [mig_find]. rewrite N.eqb_refl. reflexivity.
      * cbn [mig_find]. rewrite N.eqb_sym, E2. exact IH.
Qed.

Lemma mig_find_del_same hs ms : mig_find hs (mig_del hs ms) = None.
Proof.
  induction ms as [|x r IH]; cbn [mig_del mig_find]; [reflexivity|].
  destruct (m_hs x =? hs) eqn:E; [exact IH|]. cbn [mig_find]. rewrite E. exact IH.
Qed.

Lemma mig_find_hs hs ms m : mig_find hs ms = Some m -> m_hs m = hs.
Proof.
  induction ms as [|x r IH]; cbn [mig_find]; [discriminate|].
  destruct (m_hs x =? hs) eqn:E; [|exact IH].
  intro H. inversion H; subst. apply N.eqb_eq. exact E.
Qed.

Lemma mig_find_in hs ms m : mig_find hs ms = Some m -> In m ms.
Proof.
  induction ms as [|x r IH]; cbn [mig_find]; [discriminate|].
  destruct (m_hs x =? hs); intro H; [inversion H; left; reflexivity|right; apply IH; exact H].
Qed.

Lemma in_mig_put m ms x : In x (mig_put m ms) -> x = m \/ In x ms.
Proof.
  induction ms as [|y r IH]; cbn [mig_put].
  - intros [H|[]]. left. symmetry. exact H.
  - destruct (m_hs m <? m_hs y).
    + intros [H|H]; [left; symmetry; exact H|right; exact H].
    + destruct (m_hs m =? m_hs y).
      * intros [H|H]; [left; symmetry; exact H|right; right; exact H].
      * intros [H|H]; [right; left; exact H|]. destruct (IH H) as [E|E]; [left; exact E|right; right; exact E].
Qed.

Lemma in_mig_del hs ms x : In x (mig_del hs ms) -> In x ms.
Proof.
  induction ms as [|y r IH]; cbn [mig_del]; [intros []|].
  destruct (m_hs y =? hs); [intro H; right; apply IH; exact H|].
  intros [H|H]; [left; exact H|right; apply IH; exact H].
Qed.

Definition wf (t : table) : Prop := N.of_nat (length (t_assign t)) = t_count t.

Lemma snap_wf_iff t : snap_wf t = true <-> wf t.
Proof. unfold snap_wf, wf. apply N.eqb_eq. Qed.

Lemma repeat_length' {A} (x : A) n : length (repeat x n) = n.
Proof. apply repeat_length. Qed.

Lemma new_wf count phys : wf (new_hash_slot_table count phys).
Proof.
  unfold new_hash_slot_table, wf.
  destruct ((count =? 0) || (phys <=? 0)%Z); cbn [t_assign t_count].
  - rewrite repeat_length. lia.
  - rewrite firstn_length, app_length, repeat_length. lia.
Qed.

(* a mutator that takes effect bumps the version, keeps the count and replaces the
   assignment and the migrations *)
Definition upd (t : table) (a : list N) (ms : list migration) : table :=
  Tbl (bump (t_version t)) (t_count t) a ms.

Lemma new_count count phys : t_count (new_hash_slot_table count phys) = count.
Proof. unfold new_hash_slot_table. destruct (_ || _); reflexivity. Qed.

Lemma new_version count phys : t_version (new_hash_slot_table count phys) = 1.
Proof. unfold new_hash_slot_table. destruct (_ || _); reflexivity. Qed.

Lemma new_migs count phys : t_migs (new_hash_slot_table count phys) = [].
Proof. unfold new_hash_slot_table. destruct (_ || _); reflexivity. Qed.

Lemma reassign_cases t hs s : reassign t hs s = t \/
  (hs < alen t /\ at_hs t hs <> s
   /\ reassign t hs s = upd t (set_nth (N.to_nat hs) s (t_assign t)) (t_migs t)).
Proof.
  unfold reassign. destruct (alen t <=? hs) eqn:E1; [left; reflexivity|].
  destruct (at_hs t hs =? s) eqn:E2; [left; reflexivity|right].
  split; [lia|]. split; [apply N.eqb_neq; exact E2|reflexivity].
Qed.

Lemma start_cases t hs a b : start_migration t hs a b = t \/
  (hs < alen t /\ a <> 0 /\ b <> 0 /\ a <> b /\ at_hs t hs = a /\ mig_find hs (t_migs t) = None
   /\ start_migration t hs a b = upd t (t_assign t) (mig_put (Mig hs a b PhaseSnapshot) (t_migs t))).
Proof.
  unfold start_migration. destruct (alen t <=? hs) eqn:E1; [left; reflexivity|].
  destruct (_ || _) eqn:G; [left; reflexivity|]. destruct (mig_find hs (t_migs t)); [left; reflexivity|right].
  repeat (split; [lia|]). split; reflexivity.
Qed.

Lemma advance_cases t hs ph : advance_migration t hs ph = t \/
  (exists m, mig_find hs (t_migs t) = Some m /\ m_phase m <> ph
     /\ advance_migration t hs ph = upd t (t_assign t) (mig_put (Mig (m_hs m) (m_src m) (m_tgt m) ph) (t_migs t))).
Proof.
  unfold advance_migration. destruct (mig_find hs (t_migs t)) as [m|]; [|left; reflexivity].
  destruct (m_phase m =? ph) eqn:E; [left; reflexivity|right]. exists m.
  split; [reflexivity|]. split; [apply N.eqb_neq; exact E|reflexivity].
Qed.

Lemma finalize_cases t hs : finalize_migration t hs = t \/
  (exists m, mig_find hs (t_migs t) = Some m
     /\ finalize_migration t hs =
        upd t (if hs <? alen t then set_nth (N.to_nat hs) (m_tgt m) (t_assign t) else t_assign t) (mig_del hs (t_migs t))).
Proof.
  unfold finalize_migration. destruct (mig_find hs (t_migs t)) as [m|]; [right; exists m; split; reflexivity|left; reflexivity].
Qed.

Lemma abort_cases t hs : abort_migration t hs = t \/
  (exists m, mig_find hs (t_migs t) = Some m
     /\ abort_migration t hs = upd t (t_assign t) (mig_del hs (t_migs t))).
Proof.
  unfold abort_migration. destruct (mig_find hs (t_migs t)) as [m|]; [right; exists m; split; reflexivity|left; reflexivity].
Qed.

(* what the five have in common: nothing happens, or the version is bumped and the
   assignment, still as long, or the migrations have really changed *)
Definition mutated (t t' : table) : Prop :=
  t' = t \/ exists a ms, t' = upd t a ms /\ length a = length (t_assign t) /\ (a <> t_assign t \/ ms <> t_migs t).

Lemma reassign_mutated t hs s : mutated t (reassign t hs s).
Proof.
  destruct (reassign_cases t hs s) as [->|(L & D & ->)]; [left; reflexivity|right].
  eexists _, _. split; [reflexivity|]. split; [apply set_nth_length|]. left. intro H. apply D.
  unfold at_hs. rewrite <- H at 1. apply nth_set_nth_same. unfold alen in L. lia.
Qed.

Lemma start_mutated t hs a b : mutated t (start_migration t hs a b).
Proof.
  destruct (start_cases t hs a b) as [->|(_ & _ & _ & _ & _ & F & ->)]; [left; reflexivity|right].
  eexists _, _. split; [reflexivity|]. split; [reflexivity|]. right. intro H.
  pose proof (mig_find_put_same (Mig hs a b PhaseSnapshot) (t_migs t)) as P. cbn [m_hs] in P.
  rewrite H, F in P. discriminate.
Qed.

Lemma advance_mutated t hs ph : mutated t (advance_migration t hs ph).
Proof.
  destruct (advance_cases t hs ph) as [->|(m & F & D & ->)]; [left; reflexivity|right].
  eexists _, _. split; [reflexivity|]. split; [reflexivity|]. right. intro H.
  pose proof (mig_find_put_same (Mig (m_hs m) (m_src m) (m_tgt m) ph) (t_migs t)) as P. cbn [m_hs] in P.
  rewrite H, (mig_find_hs _ _ _ F), F in P. inversion P as [Q]. apply D. rewrite Q. reflexivity.
Qed.

Lemma finalize_mutated t hs : mutated t (finalize_migration t hs).
Proof.
  destruct (finalize_cases t hs) as [->|(m & F & ->)]; [left; reflexivity|right].
  eexists _, _. split; [reflexivity|]. split; [destruct (hs <? alen t); [apply set_nth_length|reflexivity]|]. right. intro H.
  pose proof (mig_find_del_same hs (t_migs t)) as P. rewrite H, F in P. discriminate.
Qed.

Lemma abort_mutated t hs : mutated t (abort_migration t hs).
Proof.
  destruct (abort_cases t hs) as [->|(m & F & ->)]; [left; reflexivity|right].
  eexists _, _. split; [reflexivity|]. split; [reflexivity|]. right. intro H.
  pose proof (mig_find_del_same hs (t_migs t)) as P. rewrite H, F in P. discriminate.
Qed.

Lemma mutated_wf t t' : mutated t t' -> wf t -> wf t'.
Proof. intros [->|(a & ms & -> & L & _)] W; [exact W|]. unfold wf in *. cbn [upd t_assign t_count]. rewrite L. exact W. Qed.

Lemma mutated_count t t' : mutated t t' -> t_count t' = t_count t.
Proof. intros [->|(a & ms & -> & _)]; reflexivity. Qed.

Lemma apply_plan_wf p : forall t, wf t -> wf (apply_plan t p).
Proof.
  unfold apply_plan. induction p as [|m p IH]; intros t H; cbn [fold_left]; [exact H|].
  apply IH. apply (mutated_wf t _ (reassign_mutated t _ _) H).
Qed.

Lemma apply_plan_count p : forall t, t_count (apply_plan t p) = t_count t.
Proof.
  unfold apply_plan. induction p as [|m p IH]; intros t; cbn [fold_left]; [reflexivity|].
  rewrite IH. apply mutated_count, reassign_mutated.
Qed.

Lemma lookup_total t hs : wf t ->
  (hs < t_count t -> lookup t hs = nth (N.to_nat hs) (t_assign t) 0) /\
  (t_count t <= hs -> lookup t hs = 0).
Proof.
  unfold wf, lookup, alen, at_hs. intro H. split; intro L.
  - destruct (N.of_nat (length (t_assign t)) <=? hs) eqn:E; [lia|reflexivity].
  - destruct (N.of_nat (length (t_assign t)) <=? hs) eqn:E; [reflexivity|lia].
Qed.

Lemma in_indices_of l s : forall i hs,
  In hs (indices_of i l s) <-> (i <= hs /\ hs < i + N.of_nat (length l) /\ nth (N.to_nat (hs - i)) l 0 = s).
Proof.
  induction l as [|x l IH]; intros i hs; cbn [indices_of length]; [split; [intros []|lia]|].
  specialize (IH (i + 1) hs).
  assert (H : In hs (if x =? s then i :: indices_of (i + 1) l s else indices_of (i + 1) l s)
              <-> (hs = i /\ x = s) \/ In hs (indices_of (i + 1) l s)).
  { destruct (x =? s) eqn:E; [apply N.eqb_eq in E|apply N.eqb_neq in E]; cbn [In]; intuition congruence. }
  rewrite H, IH. destruct (N.lt_trichotomy hs i) as [L|[->|L]].
  - intuition lia.
  - rewrite N.sub_diag. cbn [N.to_nat nth]. intuition lia.
  - replace (N.to_nat (hs - i)) with (S (N.to_nat (hs - (i + 1)))) by lia. cbn [nth]. intuition lia.
Qed.

Lemma hash_slots_of_spec t s hs : wf t ->
  (In hs (hash_slots_of t s) <-> hs < t_count t /\ lookup t hs = s).
Proof.
  intro H. unfold hash_slots_of. rewrite in_indices_of. unfold wf in H.
  rewrite N.sub_0_r. split.
  - intros [_ [H2 H3]]. split; [lia|]. destruct (lookup_total t hs H) as [L _]. rewrite L by lia. exact H3.
  - intros [H2 H3]. destruct (lookup_total t hs H) as [L _]. rewrite L in H3 by lia. split; [lia|]. split; [lia|exact H3].
Qed.

(* the part of [mutated] that clause 3 of the property speaks of (mutated_effect) *)
Definition effect (t t' : table) : Prop :=
  t' = t \/ (t_version t' = bump (t_version t)
             /\ (t_assign t' <> t_assign t \/ t_migs t' <> t_migs t)).

Lemma mutated_effect t t' : mutated t t' -> effect t t'.
Proof. intros [->|(a & ms & -> & _ & D)]; [left; reflexivity|right]. split; [reflexivity|exact D]. Qed.

Lemma bump_lt v : v < u64max -> bump v = v + 1.
Proof. unfold bump, wrap64, u64max. intro H. apply N.mod_small. lia. Qed.

Lemma effect_version_strict t t' : effect t t' -> t_version t < u64max -> t' <> t ->
  t_version t < t_version t'.
Proof.
  intros [E|[E _]] L D; [contradiction|]. rewrite E, bump_lt by exact L. lia.
Qed.

Lemma apply_plan_version p : forall t, t_version t + N.of_nat (length p) < u64max ->
  t_version t <= t_version (apply_plan t p) <= t_version t + N.of_nat (length p)
  /\ (apply_plan t p <> t -> t_version t < t_version (apply_plan t p))
  /\ t_migs (apply_plan t p) = t_migs t.
Proof.
  unfold apply_plan. induction p as [|m p IH]; intros t L; cbn [fold_left length].
  - split; [lia|]. split; [intro H; contradiction|reflexivity].
  - cbn [length] in L. destruct (reassign_cases t (mv_hs m) (mv_to m)) as [->|(_ & _ & ->)].
    + destruct (IH t) as [A [B C]]; [lia|]. split; [lia|]. split; [exact B|exact C].
    + assert (V : t_version (upd t (set_nth (N.to_nat (mv_hs m)) (mv_to m) (t_assign t)) (t_migs t)) = t_version t + 1)
        by (apply bump_lt; lia).
      destruct (IH (upd t (set_nth (N.to_nat (mv_hs m)) (mv_to m) (t_assign t)) (t_migs t))) as [A [B C]]; [lia|].
      split; [lia|]. split; [intros _; lia|exact C].
Qed.

Definition fully_assigned (t : table) : Prop :=
  Forall (fun s => s <> 0) (t_assign t) /\ Forall (fun m => m_tgt m <> 0) (t_migs t).

Lemma forallb_nz {A} (f : A -> N) l : forallb (fun x => negb (f x =? 0)) l = true <-> Forall (fun x => f x <> 0) l.
Proof.
  rewrite forallb_forall, Forall_forall.
  split; intros H x I; specialize (H x I); [apply negb_true_iff, N.eqb_neq in H|apply negb_true_iff, N.eqb_neq]; exact H.
Qed.

Lemma all_nz_iff l : all_nz l = true <-> Forall (fun s => s <> 0) l.
Proof. apply (forallb_nz (fun s => s)). Qed.

Lemma good_iff t : good t = true <-> fully_assigned t.
Proof. unfold good, fully_assigned. rewrite andb_true_iff, all_nz_iff, (forallb_nz m_tgt). reflexivity. Qed.

Lemma repeat_Forall {A} (P : A -> Prop) x n : P x -> Forall P (repeat x n).
Proof. intro H. induction n; cbn [repeat]; constructor; assumption. Qed.

Lemma new_fill_nz fuel : forall i base rem, Forall (fun s => s <> 0) (new_fill fuel i base rem).
Proof.
  induction fuel as [|f IH]; intros i base rem; cbn [new_fill]; [constructor|].
  apply Forall_app. split; [apply repeat_Forall; lia|apply IH].
Qed.

(* N.min (i + n) rem - N.min i rem: how many of the slots i, ..., i + n - 1 get the extra hash slot *)
Lemma new_fill_length fuel : forall i base rem,
  N.of_nat (length (new_fill fuel i base rem)) =
  N.of_nat fuel * base + (N.min (i + N.of_nat fuel) rem - N.min i rem).
Proof.
  induction fuel as [|f IH]; intros i base rem; cbn [new_fill]; [cbn [length]; lia|].
  rewrite app_length, repeat_length, Nnat.Nat2N.inj_add, IH.
  destruct (i <? rem) eqn:E; lia.
Qed.

(* with at least one physical slot the slot loop fills the whole assignment *)
Lemma new_table_eq count phys : (1 <= phys)%Z -> let p := Z.to_N phys in
  new_hash_slot_table count phys = Tbl 1 count (new_fill (N.to_nat (N.min p count)) 0 (count / p) (count mod p)) [].
Proof.
  intros Hp p. unfold new_hash_slot_table. fold p. assert (Pp : 1 <= p) by lia.
  destruct (count =? 0) eqn:E0; [apply N.eqb_eq in E0; subst count; rewrite N.min_0_r; reflexivity|].
  rewrite (proj2 (Z.leb_gt phys 0)) by lia. cbn [orb]. f_equal.
  set (filled := new_fill _ _ _ _).
  assert (L : N.of_nat (length filled) = count).
  { unfold filled. rewrite new_fill_length, N2Nat.id.
    pose proof (N.div_mod count p ltac:(lia)). pose proof (N.mod_lt count p ltac:(lia)).
    destruct (N.le_gt_cases p count) as [C|C]; [rewrite (N.min_l p count) by lia; lia|].
    rewrite (N.min_r p count), (N.div_small count p), (N.mod_small count p) by lia. lia. }
  rewrite firstn_app. replace (N.to_nat count - length filled)%nat with O by lia.
  rewrite firstn_O, app_nil_r. apply firstn_all2. lia.
Qed.

Lemma new_fully_assigned count phys : (1 <= phys)%Z -> fully_assigned (new_hash_slot_table count phys).
Proof. intro Hp. rewrite new_table_eq by exact Hp. split; [apply new_fill_nz|constructor]. Qed.

Lemma reassign_fully t hs s : s <> 0 -> fully_assigned t -> fully_assigned (reassign t hs s).
Proof.
  intros Hs [A B]. destruct (reassign_cases t hs s) as [->|(_ & _ & ->)]; [split; assumption|].
  split; [apply Forall_set_nth; assumption|exact B].
Qed.

Lemma Forall_mig_put (P : migration -> Prop) m ms : P m -> Forall P ms -> Forall P (mig_put m ms).
Proof.
  intros Hm H. apply Forall_forall. intros x Ix. destruct (in_mig_put _ _ _ Ix) as [Q|Q]; [subst; exact Hm|].
  rewrite Forall_forall in H. apply H. exact Q.
Qed.

Lemma Forall_mig_del (P : migration -> Prop) hs ms : Forall P ms -> Forall P (mig_del hs ms).
Proof.
  intro H. apply Forall_forall. intros x Ix. rewrite Forall_forall in H. apply H. apply (in_mig_del _ _ _ Ix).
Qed.

Lemma Forall_mig_find (P : migration -> Prop) hs ms m : Forall P ms -> mig_find hs ms = Some m -> P m.
Proof. intros H F. rewrite Forall_forall in H. apply H. apply (mig_find_in _ _ _ F). Qed.

Lemma start_fully t hs a b : fully_assigned t -> fully_assigned (start_migration t hs a b).
Proof.
  intros [A B]. destruct (start_cases t hs a b) as [->|(_ & _ & Hb & _ & _ & _ & ->)]; [split; assumption|].
  split; [exact A|apply Forall_mig_put; assumption].
Qed.

Lemma advance_fully t hs ph : fully_assigned t -> fully_assigned (advance_migration t hs ph).
Proof.
  intros [A B]. destruct (advance_cases t hs ph) as [->|(m & F & _ & ->)]; [split; assumption|].
  split; [exact A|apply Forall_mig_put; [apply (Forall_mig_find _ _ _ _ B F)|exact B]].
Qed.

Lemma finalize_fully t hs : fully_assigned t -> fully_assigned (finalize_migration t hs).
Proof.
  intros [A B]. destruct (finalize_cases t hs) as [->|(m & F & ->)]; [split; assumption|].
  split; [|apply Forall_mig_del; exact B].
  destruct (hs <? alen t); [|exact A]. apply Forall_set_nth; [exact A|apply (Forall_mig_find _ _ _ _ B F)].
Qed.

Lemma abort_fully t hs : fully_assigned t -> fully_assigned (abort_migration t hs).
Proof.
  intros [A B]. destruct (abort_cases t hs) as [->|(m & _ & ->)]; [split; assumption|].
  split; [exact A|apply Forall_mig_del; exact B].
Qed.

Lemma apply_plan_fully p : forall t, Forall (fun m => mv_to m <> 0) p -> fully_assigned t -> fully_assigned (apply_plan t p).
Proof.
  unfold apply_plan. induction p as [|m p IH]; intros t Hp H; cbn [fold_left]; [exact H|].
  inversion Hp; subst. apply IH; [assumption|]. apply reassign_fully; assumption.
Qed.

Lemma reassign_assign t hs s : t_assign (reassign t hs s) = set_nth (N.to_nat hs) s (t_assign t).
Proof.
  unfold reassign, alen, at_hs. destruct (N.of_nat (length (t_assign t)) <=? hs) eqn:E1.
  - rewrite set_nth_beyond by lia. reflexivity.
  - destruct (nth (N.to_nat hs) (t_assign t) 0 =? s) eqn:E2; [|reflexivity].
    apply N.eqb_eq in E2. rewrite <- E2, set_nth_same by lia. reflexivity.
Qed.

Lemma apply_plan_assign p : forall t,
  t_assign (apply_plan t p) = apply_moves p (t_assign t).
Proof.
  unfold apply_plan, apply_moves. induction p as [|m p IH]; intros t; cbn [fold_left]; [reflexivity|].
  rewrite IH, reassign_assign. reflexivity.
Qed.
