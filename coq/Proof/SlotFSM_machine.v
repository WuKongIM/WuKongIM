(* Proof/SlotFSM_machine.v — the overlay theorem of the batch machine of Model/SlotFSM.v.

   [overlay_machine] collects what the theorem needs of a machine (discharged for the slot
   state machine in Proof/SlotFSM_inst.v):
     eqv          an equivalence on stores ("equal up to the applied-index watermark")
     good, good_op the commands / deferred operations the theorem is about
     Vinv s v     well-formedness of a commit overlay v over the committed store s, for machines
                  whose overlay needs an invariant (the slot state machine needs none)
     Agree s t v  the staging state t and the commit overlay v, built from the same
                  commands over s, describe the same virtual store
   "singles" in lemma names: apply_individually, the commands applied one per batch.
   Theorems:
     overlay_seq              a batch that returns results = one command per batch
     machine_abort_no_effect  a batch stopped by a staging / commit error changes nothing
     machine_refused          a command that cannot be staged makes every batch holding it fail so
     overlay_fatal            a failing batch: the one-per-batch run fails too, and the
                              store is the initial one or the one-per-batch store
     overlay_partition        every partition of a log whose one-per-batch run succeeds
                              gives the same results and an equivalent store *)
From WK Require Import Base.Base Model.SlotFSM.
Open Scope N_scope.

Section Sim.
  Context {S V : Type}.
  Variable flush : S -> V -> S.
  Variable eqv : S -> S -> Prop.
  Variable Vinv : S -> V -> Prop.

  Definition sim_ores (s s' : S) (a b : @ores V) : Prop :=
    match a, b with
    | OOk x, OOk y => eqv (flush s x) (flush s' y) /\ Vinv s x /\ Vinv s' y
    | OStale, OStale => True
    | OFatal e, OFatal e' => e = e'
    | _, _ => False
    end.
End Sim.

Definition overlay_machine {S T V O C R : Type}
           (stage : S -> T -> C -> @sres T O R) (t0 : T) (finish : list C -> list O) (v0 : S -> V)
           (run_op : S -> V -> O -> @ores V) (flush : S -> V -> S)
           (eqv : S -> S -> Prop) (good : C -> Prop) (good_op : O -> Prop)
           (Vinv : S -> V -> Prop) (Agree : S -> T -> V -> Prop) : Prop :=
  (forall s, eqv s s) /\ (forall a b, eqv a b -> eqv b a) /\ (forall a b c, eqv a b -> eqv b c -> eqv a c)
  (* the empty overlay *)
  /\ (forall s, Vinv s (v0 s) /\ Agree s t0 (v0 s) /\ flush s (v0 s) = s)
  (* deferred operations read only through the overlay *)
  /\ (forall s v s' v' o, good_op o -> Vinv s v -> Vinv s' v' -> eqv (flush s v) (flush s' v') ->
        sim_ores flush eqv Vinv s s' (run_op s v o) (run_op s' v' o))
  (* the command loop reads only through the staging state, which tracks the overlay *)
  /\ (forall s t v s1 c, good c -> Vinv s v -> Agree s t v -> eqv s1 (flush s v) ->
        match stage s t c, stage s1 t0 c with
        | SFatal e, SFatal e' => e = e'
        | SDone t' ops r, SDone _ ops' r' =>
            ops = ops' /\ r = r' /\ Forall good_op ops /\
            (forall v', run_ops run_op s v ops = OOk v' -> Agree s t' v')
        | _, _ => False
        end)
  (* staging errors (decode, ownership, validation) do not depend on the state *)
  /\ (forall s t c e, good c -> stage s t c = SFatal e -> forall s' t', stage s' t' c = SFatal e)
  (* the applied-index watermark stays inside eqv *)
  /\ (forall s v cs, Vinv s v ->
        exists v', run_ops run_op s v (finish cs) = OOk v' /\ eqv (flush s v') (flush s v) /\ Vinv s v').

Section Results.
  Context {R : Type}.

  Fixpoint all_results (outs : list (@bres R)) : option (list R) :=
    match outs with
    | [] => Some []
    | BRes rs :: r => match all_results r with Some x => Some (rs ++ x) | None => None end
    | BErr _ :: _ => None
    end.
End Results.

Section MachineTheory.
  Context {S T V O C R : Type}.
  Variable stage : S -> T -> C -> @sres T O R.
  Variable t0 : T.
  Variable finish : list C -> list O.
  Variable v0 : S -> V.
  Variable run_op : S -> V -> O -> @ores V.
  Variable flush : S -> V -> S.
  Variable r_stale : R.
  Variable eqv : S -> S -> Prop.
  Variable good : C -> Prop.
  Variable good_op : O -> Prop.
  Variable Vinv : S -> V -> Prop.
  Variable Agree : S -> T -> V -> Prop.
  Hypothesis M : overlay_machine stage t0 finish v0 run_op flush eqv good good_op Vinv Agree.

  (* names the clauses of M *)
  Ltac open_M :=
    destruct M as (eqv_refl & eqv_sym & eqv_trans & H_init & H_op & H_stage & H_fatal & H_finish).

  Notation stage_all := (stage_all stage).
  Notation run_ops := (run_ops run_op).
  Notation apply_core := (apply_core stage t0 finish v0 run_op flush).
  Notation apply_one := (apply_one stage t0 finish v0 run_op flush r_stale).
  Notation apply_individually := (apply_individually stage t0 finish v0 run_op flush r_stale).
  Notation ApplyBatch := (ApplyBatch stage t0 finish v0 run_op flush r_stale).
  Notation apply_partition := (apply_partition stage t0 finish v0 run_op flush r_stale).

  Lemma run_ops_app s v a b :
    run_ops s v (a ++ b) =
    match run_ops s v a with
    | OOk v' => run_ops s v' b
    | OStale => OStale
    | OFatal e => OFatal e
    end.
  Proof.
    revert v. induction a as [|o a IH]; intro v; cbn [app SlotFSM.run_ops]; [reflexivity|].
    destruct (run_op s v o); auto.
  Qed.

  Lemma apply_one_fatal s c e : stage s t0 c = SFatal e -> apply_one s c = (s, inl e).
  Proof. intro H. unfold SlotFSM.apply_one, SlotFSM.apply_core. cbn [SlotFSM.stage_all]. rewrite H. reflexivity. Qed.

  Lemma apply_one_staged s c t1 ops x :
    stage s t0 c = SDone t1 ops x ->
    apply_one s c =
    match run_ops s (v0 s) ops with
    | OOk v => match run_ops s v (finish [c]) with
               | OOk v' => (flush s v', inr x)
               | OStale => (s, inr r_stale)
               | OFatal e => (s, inl e)
               end
    | OStale => (s, inr r_stale)
    | OFatal e => (s, inl e)
    end.
  Proof.
    intro H. unfold SlotFSM.apply_one, SlotFSM.apply_core. cbn [SlotFSM.stage_all].
    rewrite H, app_nil_r, run_ops_app.
    destruct (run_ops s (v0 s) ops) as [v| |e]; [|reflexivity..].
    destruct (run_ops s v (finish [c])); reflexivity.
  Qed.

  Lemma singles_app a : forall s b,
      apply_individually s (a ++ b) =
      match apply_individually s a with
      | (s', BErr e) => (s', BErr e)
      | (s', BRes rs) => match apply_individually s' b with
                         | (s'', BErr e) => (s'', BErr e)
                         | (s'', BRes rs') => (s'', BRes (rs ++ rs'))
                         end
      end.
  Proof.
    induction a as [|c a IH]; intros s b; cbn [app SlotFSM.apply_individually].
    - destruct (apply_individually s b) as [s'' [e|rs']]; reflexivity.
    - destruct (apply_one s c) as [s' [e|x]]; [reflexivity|].
      rewrite IH. destruct (apply_individually s' a) as [s2 [e|rs]]; [reflexivity|].
      destruct (apply_individually s2 b) as [s3 [e|rs']]; reflexivity.
  Qed.

  Lemma ApplyBatch_single s c :
    ApplyBatch s [c] = match apply_one s c with (s', inl e) => (s', BErr e) | (s', inr x) => (s', BRes [x]) end.
  Proof.
    unfold SlotFSM.ApplyBatch, SlotFSM.apply_one, SlotFSM.apply_core. cbn [SlotFSM.stage_all].
    destruct (stage s t0 c) as [e|t' ops x]; [reflexivity|].
    destruct (run_ops s (v0 s) ((ops ++ []) ++ finish [c])); reflexivity.
  Qed.

  Theorem machine_abort_no_effect s cs e :
    apply_core s cs = CoreErr e -> ApplyBatch s cs = (s, BErr e).
  Proof. intro H. unfold SlotFSM.ApplyBatch. rewrite H. reflexivity. Qed.

  (* a command that fails at staging whatever the staging state: every batch containing it is
     refused as a whole, with the store it started from *)
  Theorem machine_refused s cs c :
    In c cs -> (forall t, exists e, stage s t c = SFatal e) -> exists e, ApplyBatch s cs = (s, BErr e).
  Proof.
    intros Hin Hf.
    assert (H : forall t, exists e, stage_all s t cs = inl e).
    { induction cs as [|x cs IH]; intro t; [contradiction|]. cbn [SlotFSM.stage_all].
      destruct (stage s t x) as [e|t' ops r] eqn:Sx; [eauto|]. destruct Hin as [->|Hin].
      - destruct (Hf t) as (e & He). rewrite He in Sx. discriminate.
      - destruct (IH Hin t') as (e & ->). eauto. }
    destruct (H t0) as (e & He). exists e. apply machine_abort_no_effect. unfold SlotFSM.apply_core. rewrite He. reflexivity.
  Qed.

  Lemma run_ops_sim ops : forall s v s' v',
      Forall good_op ops -> Vinv s v -> Vinv s' v' -> eqv (flush s v) (flush s' v') ->
      sim_ores flush eqv Vinv s s' (run_ops s v ops) (run_ops s' v' ops).
  Proof.
    open_M. induction ops as [|o ops IH]; intros s v s' v' Hg Hv Hv' He; cbn [SlotFSM.run_ops].
    - cbn. auto.
    - inversion Hg as [|? ? Ho Hops]; subst.
      pose proof (H_op s v s' v' o Ho Hv Hv' He) as Hs. unfold sim_ores in Hs.
      destruct (run_op s v o) as [a| |e], (run_op s' v' o) as [b| |e']; try contradiction.
      + destruct Hs as (E & A & B). apply IH; assumption.
      + exact I.
      + exact Hs.
  Qed.

  (* [c] is staged in the middle of a batch over s (staging state t, overlay v); s1 is equivalent
     to the store the batch has reached.  Running the operations of [c] in the batch and applying
     [c] alone to s1 end the same way. *)
  Lemma step_sim s t v s1 c t' ops x :
    good c -> Vinv s v -> Agree s t v -> eqv s1 (flush s v) ->
    stage s t c = SDone t' ops x ->
    match run_ops s v ops with
    | OOk v' => exists s1', apply_one s1 c = (s1', inr x) /\ eqv s1' (flush s v') /\ Vinv s v' /\ Agree s t' v'
    | OStale => apply_one s1 c = (s1, inr r_stale)
    | OFatal e => apply_one s1 c = (s1, inl e)
    end.
  Proof.
    intros Hc Hv Ha He Hst. pose proof (run_ops_sim ops) as Hsim. open_M.
    pose proof (H_stage s t v s1 c Hc Hv Ha He) as H. rewrite Hst in H.
    destruct (stage s1 t0 c) as [e|t1 ops' x'] eqn:Hs1; [contradiction|]. destruct H as (<- & <- & Fg & Hag).
    destruct (H_init s1) as (Hv1 & _ & Hf1).
    specialize (Hsim s1 (v0 s1) s v Fg Hv1 Hv). rewrite Hf1 in Hsim. specialize (Hsim He).
    rewrite (apply_one_staged s1 c t1 ops x Hs1). unfold sim_ores in Hsim.
    destruct (run_ops s v ops) as [v'| |e], (run_ops s1 (v0 s1) ops) as [w| |e']; try contradiction.
    - destruct Hsim as (E & Vw & Vv'). destruct (H_finish s1 w [c] Vw) as (w' & -> & Ew & _).
      exists (flush s1 w'). repeat split; eauto.
    - reflexivity.
    - subst e'. reflexivity.
  Qed.

  Lemma batch_sim cs : forall s t v s1 ops rs,
      Forall good cs -> Vinv s v -> Agree s t v -> eqv s1 (flush s v) ->
      stage_all s t cs = inr (ops, rs) ->
      match run_ops s v ops with
      | OOk vf => exists s1', apply_individually s1 cs = (s1', BRes rs) /\ eqv s1' (flush s vf) /\ Vinv s vf
      | OStale => True
      | OFatal e => exists s1', apply_individually s1 cs = (s1', BErr e)
      end.
  Proof.
    induction cs as [|c cs IH]; intros s t v s1 ops rs Hg Hv Ha He Hst; cbn [SlotFSM.stage_all] in Hst.
    - inversion Hst; subst. cbn. eauto.
    - inversion Hg as [|? ? Hc Hcs]; subst.
      destruct (stage s t c) as [e|t' ops_c x] eqn:Hsc; [discriminate|].
      destruct (stage_all s t' cs) as [e|[ops_r rs']] eqn:Hsr; [discriminate|].
      inversion Hst; subst ops rs. clear Hst.
      pose proof (step_sim s t v s1 c t' ops_c x Hc Hv Ha He Hsc) as H1.
      rewrite run_ops_app. cbn [SlotFSM.apply_individually].
      destruct (run_ops s v ops_c) as [v'| |e]; [|exact I|rewrite H1; eauto].
      destruct H1 as (s1' & -> & E & Vv' & Ha').
      specialize (IH s t' v' s1' ops_r rs' Hcs Vv' Ha' E Hsr).
      destruct (run_ops s v' ops_r) as [vf| |e]; [|exact I|].
      + destruct IH as (s2 & -> & IH). eauto.
      + destruct IH as (s2 & ->). eauto.
  Qed.

  Lemma stage_fatal_singles cs : forall s t e s1,
      Forall good cs ->
      stage_all s t cs = inl e -> exists s1' e', apply_individually s1 cs = (s1', BErr e').
  Proof.
    open_M. induction cs as [|c cs IH]; intros s t e s1 Hg Hst; cbn [SlotFSM.stage_all] in Hst; [discriminate|].
    inversion Hg as [|? ? Hc Hcs]; subst.
    cbn [SlotFSM.apply_individually].
    destruct (stage s t c) as [e0|t' ops_c x] eqn:Hsc.
    - rewrite (apply_one_fatal s1 c e0 (H_fatal s t c e0 Hc Hsc s1 t0)). eauto.
    - destruct (stage_all s t' cs) as [e0|[ops_r rs']] eqn:Hsr; [|discriminate].
      destruct (apply_one s1 c) as [sx [ex|x']]; [eauto|].
      destruct (IH s t' e0 sx Hcs Hsr) as (s1' & e' & ->). eauto.
  Qed.

  Lemma batch_sim0 s cs ops rs :
    Forall good cs -> stage_all s t0 cs = inr (ops, rs) ->
    match run_ops s (v0 s) ops with
    | OOk vf => exists s1', apply_individually s cs = (s1', BRes rs) /\ eqv s1' (flush s vf) /\ Vinv s vf
    | OStale => True
    | OFatal e => exists s1', apply_individually s cs = (s1', BErr e)
    end.
  Proof.
    intros Hg Hst. pose proof (batch_sim cs s t0 (v0 s) s ops rs Hg) as B. open_M.
    destruct (H_init s) as (Hv & Ha & Hf). rewrite Hf in B. exact (B Hv Ha (eqv_refl s) Hst).
  Qed.

  Theorem overlay_seq s cs s' rs :
    Forall good cs ->
    ApplyBatch s cs = (s', BRes rs) ->
    exists s'', apply_individually s cs = (s'', BRes rs) /\ eqv s'' s'.
  Proof.
    intros Hg H. pose proof (batch_sim0 s cs) as B. open_M. unfold SlotFSM.ApplyBatch in H.
    destruct (apply_core s cs) as [e| |s1 rs1] eqn:Hc; [discriminate| |].
    - (* a stale commit: a single command is answered stale, several are applied one by one *)
      exists s'. split; [|apply eqv_refl]. destruct cs as [|c [|c2 cs]]; try exact H.
      inversion H; subst. cbn [SlotFSM.apply_individually]. unfold SlotFSM.apply_one. rewrite Hc. reflexivity.
    - inversion H; subst s1 rs1. clear H. unfold SlotFSM.apply_core in Hc.
      destruct (stage_all s t0 cs) as [e|[ops rs0]]; [discriminate|]. specialize (B ops rs0 Hg eq_refl).
      rewrite run_ops_app in Hc.
      destruct (run_ops s (v0 s) ops) as [vf| |e]; try discriminate.
      destruct B as (s1' & Hind & E & Vvf). destruct (H_finish s vf cs Vvf) as (w & Hw & Ew & _).
      rewrite Hw in Hc. inversion Hc; subst.
      exists s1'. split; [assumption|]. eapply eqv_trans; [exact E|apply eqv_sym; exact Ew].
  Qed.

  Theorem overlay_fatal s cs s' e :
    Forall good cs ->
    ApplyBatch s cs = (s', BErr e) ->
    exists s'' e', apply_individually s cs = (s'', BErr e') /\ (s' = s \/ s' = s'').
  Proof.
    intros Hg H. pose proof (batch_sim0 s cs) as B. pose proof (stage_fatal_singles cs s t0) as F. open_M.
    unfold SlotFSM.ApplyBatch in H.
    destruct (apply_core s cs) as [e0| |s1 rs1] eqn:Hc; [| |discriminate].
    - inversion H; subst s' e0. clear H. unfold SlotFSM.apply_core in Hc.
      destruct (stage_all s t0 cs) as [e0|[ops rs0]].
      + destruct (F e0 s Hg eq_refl) as (s1' & e' & Hind). eauto.
      + specialize (B ops rs0 Hg eq_refl). rewrite run_ops_app in Hc.
        destruct (run_ops s (v0 s) ops) as [vf| |e0]; [|discriminate|].
        * destruct B as (_ & _ & _ & Vvf). destruct (H_finish s vf cs Vvf) as (w & Hw & _).
          rewrite Hw in Hc. discriminate.
        * inversion Hc; subst e0. destruct B as (s1' & Hind). eauto.
    - (* the fallback after a stale commit is the one-per-batch run *)
      destruct cs as [|c [|c2 cs]]; try discriminate. eauto.
  Qed.

  Lemma apply_one_eqv s s1 c :
    good c -> eqv s1 s ->
    match apply_one s c with
    | (a, inl e) => apply_one s1 c = (s1, inl e)
    | (a, inr x) => exists b, apply_one s1 c = (b, inr x) /\ eqv b a
    end.
  Proof.
    intros Hc He. pose proof (step_sim s t0 (v0 s) s1 c) as H1. open_M.
    destruct (H_init s) as (Hv & Ha & Hf). rewrite Hf in H1.
    destruct (stage s t0 c) as [e|t' ops x] eqn:Hst.
    - rewrite (apply_one_fatal s c e Hst). apply apply_one_fatal. exact (H_fatal s t0 c e Hc Hst s1 t0).
    - specialize (H1 t' ops x Hc Hv Ha He eq_refl). rewrite (apply_one_staged s c t' ops x Hst).
      destruct (run_ops s (v0 s) ops) as [v| |e]; [|eauto|exact H1].
      destruct H1 as (b & H1 & E & Vv & _). destruct (H_finish s v [c] Vv) as (v' & -> & Ev & _).
      exists b. split; [exact H1|]. eapply eqv_trans; [exact E|apply eqv_sym; exact Ev].
  Qed.

  Lemma singles_eqv cs : forall s s1,
      Forall good cs -> eqv s1 s ->
      match apply_individually s cs with
      | (a, BRes rs) => exists b, apply_individually s1 cs = (b, BRes rs) /\ eqv b a
      | (_, BErr e) => exists b, apply_individually s1 cs = (b, BErr e)
      end.
  Proof.
    induction cs as [|c cs IH]; intros s s1 Hg He; cbn [SlotFSM.apply_individually]; [eauto|].
    inversion Hg as [|? ? Hc Hcs]; subst.
    pose proof (apply_one_eqv s s1 c Hc He) as H1.
    destruct (apply_one s c) as [a [e|x]]; [rewrite H1; eauto|].
    destruct H1 as (b & -> & Eb). specialize (IH a b Hcs Eb).
    destruct (apply_individually a cs) as [a' [e|rs]].
    - destruct IH as (b' & ->). eauto.
    - destruct IH as (b' & -> & E). eauto.
  Qed.

  Lemma overlay_batch s s1 b sb rb :
    Forall good b -> eqv s1 s ->
    apply_individually s b = (sb, BRes rb) ->
    exists s2, ApplyBatch s1 b = (s2, BRes rb) /\ eqv s2 sb.
  Proof.
    intros Hg He Hs. pose proof (singles_eqv b s s1 Hg He) as H1. rewrite Hs in H1. destruct H1 as (s1b & H1 & E1).
    destruct (ApplyBatch s1 b) as [s2 [e|rs2]] eqn:HB.
    - destruct (overlay_fatal s1 b s2 e Hg HB) as (s3 & e' & H3 & _). rewrite H1 in H3. discriminate.
    - destruct (overlay_seq s1 b s2 rs2 Hg HB) as (s3 & H3 & E3). rewrite H1 in H3. inversion H3; subst s3 rs2.
      open_M. exists s2. split; [reflexivity|]. eapply eqv_trans; [apply eqv_sym; exact E3|exact E1].
  Qed.

  Lemma partition_sim bs : forall s s1 s' rs,
      Forall good (concat bs) -> eqv s1 s ->
      apply_individually s (concat bs) = (s', BRes rs) ->
      exists s'' outs, apply_partition s1 bs = (s'', outs) /\ all_results outs = Some rs /\ eqv s'' s'.
  Proof.
    induction bs as [|b bs IH]; intros s s1 s' rs Hg He Hind; cbn [concat] in *.
    - inversion Hind; subst. exists s1, []. cbn. auto.
    - apply Forall_app in Hg. destruct Hg as (Hgb & Hgr). rewrite singles_app in Hind.
      destruct (apply_individually s b) as [sb [e|rsb]] eqn:Hb; [discriminate|].
      destruct (apply_individually sb (concat bs)) as [sr [e|rsr]] eqn:Hr; [discriminate|].
      inversion Hind; subst s' rs. clear Hind.
      destruct (overlay_batch s s1 b sb rsb Hgb He Hb) as (s2 & HB & E2).
      destruct (IH sb s2 sr rsr Hgr E2 Hr) as (s5 & outs & Hp & Hall & E5).
      cbn [SlotFSM.apply_partition]. rewrite HB, Hp. exists s5, (BRes rsb :: outs).
      cbn [all_results]. rewrite Hall. auto.
  Qed.

  Theorem overlay_partition bs s s' rs :
    Forall good (concat bs) ->
    apply_individually s (concat bs) = (s', BRes rs) ->
    exists s'' outs, apply_partition s bs = (s'', outs) /\ all_results outs = Some rs /\ eqv s'' s'.
  Proof. intro Hg. exact (partition_sim bs s s s' rs Hg (proj1 M s)). Qed.
End MachineTheory.
