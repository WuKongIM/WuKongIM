(* Proof/Machine.v — helper lemmas for Model/Machine.v and the watermark invariant (C06). *)
From WK Require Import Base.Base Gen.Consts_C06 Model.Machine.
Open Scope N_scope.

Lemma mem_In x l : mem x l = true <-> In x l.
Proof.
  unfold mem. rewrite existsb_exists. split.
  - intros [y [Hy E]]. apply N.eqb_eq in E. subst y. exact Hy.
  - intro H. exists x. split; [exact H | apply N.eqb_refl].
Qed.

Lemma mem_false x l : mem x l = false <-> ~ In x l.
Proof.
  rewrite <- mem_In. destruct (mem x l); split; intro H.
  - discriminate.
  - exfalso. apply H. reflexivity.
  - discriminate.
  - reflexivity.
Qed.

Lemma nodup_b_NoDup l : nodup_b l = true <-> NoDup l.
Proof.
  induction l as [|x l IH]; cbn [nodup_b].
  - split; [intros; constructor | reflexivity].
  - rewrite andb_true_iff, negb_true_iff, mem_false, IH. split.
    + intros [H1 H2]. constructor; assumption.
    + intro H. inversion H; subst. split; assumption.
Qed.

Lemma find_w_op op l w : find_w op l = Some w -> w_op w = op.
Proof.
  induction l as [|x l IH]; cbn [find_w]; intro H; [discriminate|].
  destruct (w_op x =? op) eqn:E.
  - inversion H; subst. apply N.eqb_eq. exact E.
  - apply IH. exact H.
Qed.

Lemma find_w_In op l w : find_w op l = Some w -> In w l.
Proof.
  induction l as [|x l IH]; cbn [find_w]; intro H; [discriminate|].
  destruct (w_op x =? op) eqn:E.
  - inversion H; subst. left. reflexivity.
  - right. apply IH. exact H.
Qed.

Lemma find_w_none op l : find_w op l = None <-> ~ In op (pend_ids l).
Proof.
  induction l as [|x l IH]; cbn [find_w pend_ids map].
  - split; [intros _ []| reflexivity].
  - destruct (w_op x =? op) eqn:E.
    + apply N.eqb_eq in E. split; [discriminate|]. intro H. exfalso. apply H. left. exact E.
    + apply N.eqb_neq in E. rewrite IH. unfold pend_ids. split.
      * intros H [H1|H1]; [apply E; exact H1 | apply H; exact H1].
      * intros H H1. apply H. right. exact H1.
Qed.

Lemma find_w_some_ids op l w : find_w op l = Some w -> In op (pend_ids l).
Proof.
  intro H. destruct (in_dec N.eq_dec op (pend_ids l)) as [I|I]; [exact I|].
  apply find_w_none in I. rewrite I in H. discriminate.
Qed.

Lemma ids_find_some op l : In op (pend_ids l) -> exists w, find_w op l = Some w.
Proof.
  intro H. destruct (find_w op l) as [w|] eqn:E; [exists w; reflexivity|].
  apply find_w_none in E. contradiction.
Qed.

Lemma find_del a b l : find_w a (del_w b l) = if a =? b then None else find_w a l.
Proof.
  unfold del_w. induction l as [|x l IH]; cbn [filter find_w].
  - destruct (a =? b); reflexivity.
  - destruct (w_op x =? b) eqn:E1; cbn [negb].
    + rewrite IH. destruct (a =? b) eqn:E2; [reflexivity|].
      destruct (w_op x =? a) eqn:E3; [|reflexivity].
      apply N.eqb_eq in E1, E3. apply N.eqb_neq in E2. congruence.
    + cbn [find_w]. destruct (w_op x =? a) eqn:E3.
      * destruct (a =? b) eqn:E2; [|reflexivity].
        apply N.eqb_eq in E2, E3. apply N.eqb_neq in E1. congruence.
      * exact IH.
Qed.

Lemma del_ids_In w ids l : In w (del_ids ids l) <-> In w l /\ ~ In (w_op w) ids.
Proof.
  unfold del_ids. rewrite filter_In, negb_true_iff, mem_false. reflexivity.
Qed.

Lemma del_ids_cons op cs l : del_ids (op :: cs) l = del_ids cs (del_w op l).
Proof.
  unfold del_ids, del_w. induction l as [|x l IH]; cbn [filter]; [reflexivity|].
  unfold mem at 1. cbn [existsb]. fold (mem (w_op x) cs).
  destruct (w_op x =? op) eqn:E; cbn [negb orb].
  - exact IH.
  - cbn [filter]. destruct (mem (w_op x) cs); cbn [negb]; rewrite IH; reflexivity.
Qed.

Lemma del_ids_nil l : del_ids [] l = l.
Proof.
  unfold del_ids. induction l as [|x l IH]; cbn [filter]; [reflexivity|].
  rewrite IH. reflexivity.
Qed.

Lemma ids_del_ids x cs l : In x (pend_ids (del_ids cs l)) <-> In x (pend_ids l) /\ ~ In x cs.
Proof.
  unfold pend_ids. rewrite !in_map_iff. split.
  - intros [w [E H]]. apply del_ids_In in H. destruct H as [H1 H2]. subst x. split; [|exact H2].
    exists w. split; [reflexivity|exact H1].
  - intros [[w [E H]] H2]. exists w. split; [exact E|]. apply del_ids_In. subst x. split; assumption.
Qed.

Lemma del_w_ids op l : del_w op l = del_ids [op] l.
Proof. rewrite del_ids_cons. symmetry. apply del_ids_nil. Qed.

Lemma del_w_In w op l : In w (del_w op l) <-> In w l /\ w_op w <> op.
Proof. rewrite del_w_ids, del_ids_In. cbn [In]. intuition congruence. Qed.

Lemma ids_del_w x op l : In x (pend_ids (del_w op l)) <-> In x (pend_ids l) /\ x <> op.
Proof. rewrite del_w_ids, ids_del_ids. cbn [In]. intuition congruence. Qed.

Lemma In_ins_w v w l : In v (ins_w w l) -> v = w \/ In v l.
Proof.
  induction l as [|y l IH]; cbn [ins_w].
  - intros [H|[]]. left. symmetry. exact H.
  - destruct (w_op w <? w_op y).
    + intros [H|H]; [left; symmetry; exact H | right; exact H].
    + destruct (w_op w =? w_op y).
      * intros [H|H]; [left; symmetry; exact H | right; right; exact H].
      * intros [H|H]; [right; left; exact H|].
        destruct (IH H) as [H1|H1]; [left; exact H1 | right; right; exact H1].
Qed.

Lemma ids_ins_w x w l : In x (pend_ids (ins_w w l)) -> x = w_op w \/ In x (pend_ids l).
Proof.
  unfold pend_ids. rewrite !in_map_iff. intros [v [E H]]. apply In_ins_w in H.
  destruct H as [->|H]; [left; symmetry; exact E|right; exists v; split; assumption].
Qed.

Lemma ids_upd_w w l : pend_ids (upd_w w l) = pend_ids l.
Proof.
  unfold upd_w, pend_ids. rewrite map_map. apply map_ext_in. intros x _.
  destruct (w_op x =? w_op w) eqn:E; [|reflexivity]. apply N.eqb_eq in E. symmetry. exact E.
Qed.

Lemma In_upd_w v w l : In v (upd_w w l) -> v = w \/ In v l.
Proof.
  unfold upd_w. rewrite in_map_iff. intros [x [E H]].
  destruct (w_op x =? w_op w); [left; symmetry; exact E | right; subst v; exact H].
Qed.

Lemma find_upd_w a w l :
  find_w a (upd_w w l) =
  match find_w a l with
  | None => None
  | Some x => if a =? w_op w then Some w else Some x
  end.
Proof.
  unfold upd_w. induction l as [|x l IH]; cbn [map find_w]; [reflexivity|].
  destruct (w_op x =? w_op w) eqn:E1.
  - apply N.eqb_eq in E1. destruct (w_op w =? a) eqn:E2.
    + apply N.eqb_eq in E2.
      assert (H : w_op x =? a = true) by (apply N.eqb_eq; congruence). rewrite H.
      assert (H0 : a =? w_op w = true) by (apply N.eqb_eq; congruence). rewrite H0. reflexivity.
    + assert (H : w_op x =? a = false) by (rewrite E1; exact E2). rewrite H. exact IH.
  - destruct (w_op x =? a) eqn:E2.
    + apply N.eqb_eq in E2.
      assert (H : a =? w_op w = false) by (rewrite <- E2; exact E1). rewrite H. reflexivity.
    + exact IH.
Qed.

Lemma pr_get_set n k v p : pr_get n (pr_set k v p) = if n =? k then v else pr_get n p.
Proof.
  induction p as [|[k' x] p IH]; cbn [pr_set pr_get].
  - rewrite (N.eqb_sym k n). reflexivity.
  - destruct (k <? k') eqn:E1.
    + cbn [pr_get]. rewrite (N.eqb_sym k n). reflexivity.
    + destruct (k =? k') eqn:E2.
      * apply N.eqb_eq in E2. subst k'. cbn [pr_get]. rewrite (N.eqb_sym k n).
        destruct (n =? k); reflexivity.
      * cbn [pr_get]. destruct (k' =? n) eqn:E3.
        -- apply N.eqb_eq in E3. subst k'. rewrite (N.eqb_sym n k), E2. reflexivity.
        -- exact IH.
Qed.

Lemma ins_desc_Forall (P : N -> Prop) x l : P x -> Forall P l -> Forall P (ins_desc x l).
Proof.
  intros Hx H. induction H as [|y l Hy H IH]; cbn [ins_desc].
  - constructor; [exact Hx|constructor].
  - destruct (y <=? x).
    + constructor; [exact Hx|]. constructor; assumption.
    + constructor; assumption.
Qed.

Lemma sort_desc_Forall (P : N -> Prop) l : Forall P l -> Forall P (sort_desc l).
Proof.
  unfold sort_desc. intro H. induction H as [|y l Hy H IH]; cbn [fold_right].
  - constructor.
  - apply ins_desc_Forall; assumption.
Qed.

Lemma nth_Forall (P : N -> Prop) l i d : P d -> Forall P l -> P (nth i l d).
Proof.
  intros Hd H. revert i. induction H as [|y l Hy H IH]; intro i; destruct i; cbn [nth]; auto.
Qed.

(* everything except PendingAppends / PendingAppendOrder / InflightAppend is unchanged *)
Definition same_but_app (s s' : state) : Prop :=
  s_key s' = s_key s /\ s_local s' = s_local s /\ s_gen s' = s_gen s /\ s_id s' = s_id s
  /\ s_epoch s' = s_epoch s /\ s_lepoch s' = s_lepoch s /\ s_role s' = s_role s
  /\ s_status s' = s_status s /\ s_leader s' = s_leader s /\ s_replicas s' = s_replicas s
  /\ s_isr s' = s_isr s /\ s_minisr s' = s_minisr s /\ s_leo s' = s_leo s /\ s_hw s' = s_hw s
  /\ s_cp s' = s_cp s /\ s_ready s' = s_ready s /\ s_progress s' = s_progress s.

Lemma same_but_app_refl s : same_but_app s s.
Proof. unfold same_but_app. repeat split. Qed.

Lemma same_but_app_set_app s p o i : same_but_app s (set_app s p o i).
Proof. unfold same_but_app. repeat split. Qed.

Lemma same_but_app_trans a b c : same_but_app a b -> same_but_app b c -> same_but_app a c.
Proof.
  unfold same_but_app. intros H1 H2.
  repeat match goal with H : _ /\ _ |- _ => destruct H end.
  repeat split; congruence.
Qed.

Definition prog_le (s : state) : Prop := forall n, pr_get n (s_progress s) <= s_leo s.

Definition WM (s : state) : Prop := s_cp s <= s_hw s /\ s_hw s <= s_leo s /\ prog_le s.

Lemma WM_same s s' : same_but_app s s' -> WM s -> WM s'.
Proof.
  unfold same_but_app, WM, prog_le. intros H [H1 [H2 H3]].
  repeat match goal with H : _ /\ _ |- _ => destruct H end.
  split; [congruence|]. split; [congruence|].
  intro n. replace (s_progress s') with (s_progress s) by congruence.
  replace (s_leo s') with (s_leo s) by congruence. apply H3.
Qed.

(* AdvanceHW moves HW and nothing else *)
Lemma advance_hw_eq s : advance_hw s = set_hw s (s_hw (advance_hw s)).
Proof.
  unfold advance_hw.
  destruct ((s_minisr s <=? 0)%Z || (Z.of_nat (length (s_isr s)) <? s_minisr s)%Z); [destruct s; reflexivity|].
  destruct (nth _ _ _ <=? s_hw s); [destruct s; reflexivity|reflexivity].
Qed.

Lemma advance_hw_mono s : s_hw s <= s_hw (advance_hw s).
Proof.
  unfold advance_hw.
  destruct ((s_minisr s <=? 0)%Z || (Z.of_nat (length (s_isr s)) <? s_minisr s)%Z);
    [apply N.le_refl|].
  destruct (nth _ _ _ <=? s_hw s) eqn:E; [apply N.le_refl|].
  apply N.leb_gt in E. cbn [set_hw s_hw]. apply N.lt_le_incl. exact E.
Qed.

Lemma advance_hw_le s : prog_le s -> s_hw s <= s_leo s -> s_hw (advance_hw s) <= s_leo s.
Proof.
  intros Hp Hh. unfold advance_hw.
  destruct ((s_minisr s <=? 0)%Z || (Z.of_nat (length (s_isr s)) <? s_minisr s)%Z); [exact Hh|].
  destruct (nth _ _ _ <=? s_hw s) eqn:E; [exact Hh|].
  cbn [set_hw s_hw].
  apply (nth_Forall (fun x => x <= s_leo s)); [apply N.le_0_l|].
  apply sort_desc_Forall. apply Forall_forall. intros x Hx.
  apply in_map_iff in Hx. destruct Hx as [n [E1 _]]. subst x. apply Hp.
Qed.

Lemma WM_advance_hw s : WM s -> WM (advance_hw s).
Proof.
  intros [H1 [H2 H3]]. pose proof (advance_hw_mono s) as Mo. pose proof (advance_hw_le s H3 H2) as Le.
  rewrite advance_hw_eq. unfold WM, prog_le. cbn [set_hw s_cp s_hw s_leo s_progress].
  split; [exact (N.le_trans _ _ _ H1 Mo)|]. split; [exact Le|exact H3].
Qed.

(* what every step preserves holds along [run_state] *)
Lemma run_state_preserves (P : state -> Prop) :
  (forall s e, P s -> P (fst (step s e))) -> forall evs s, P s -> P (run_state s evs).
Proof.
  intros HP. induction evs as [|e evs IH]; intros s H; cbn [run_state]; [exact H|]. exact (IH _ (HP s e H)).
Qed.
