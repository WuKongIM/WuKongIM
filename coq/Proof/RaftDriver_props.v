(* Proof/RaftDriver_props.v — C12: the hypothesis for the theorems without futures
   (NoTrack), the refutation witness of the unconditional future clause (clogW,
   schedW), and concrete schedules showing that the hypotheses are satisfiable
   (clogV, schedV, schedPlain). *)
From WK Require Import Base.Base Model.RaftDriver Proof.RaftDriver_lists Proof.RaftDriver_exec
  Proof.RaftDriver_inv Proof.RaftDriver_steps Proof.RaftDriver_trace Proof.RaftDriver_futures
  Proof.RaftDriver_monitor.
From Coq Require Import Sorted ZifyBool ZifyN ZifyNat.
Open Scope N_scope.

Definition NoTrack : node -> list entry -> Prop := fun _ _ => True.

Lemma NoTrack_submitted : forall s s' ents, v_submitted s' = v_submitted s -> NoTrack s ents -> NoTrack s' ents.
Proof. intros. exact Logic.I. Qed.

(* the witness: node 1 of the standalone reproduction (notes/C12.md and the k1 corpus inputs).  Index 1-3: the
   bootstrap configuration; 4: node 1's no-op as leader of term 2; 5: node 3's no-op as leader of
   term 3; 6: command 900 proposed on node 3; 7: command 800, proposed on node 1 while its cached
   status still said "leader", forwarded by etcd/raft to node 3. *)
Definition clogW (i : N) : entry :=
  match i with
  | 1 | 2 | 3 => Entry i 1 KConf 0
  | 4 => Entry 4 2 KEmpty 0
  | 5 => Entry 5 3 KEmpty 0
  | 6 => Entry 6 3 KNormal 900
  | 7 => Entry 7 3 KNormal 800
  | _ => Entry i 3 KEmpty 0
  end.

Lemma clogW_idx i : e_idx (clogW i) = i.
Proof.
  unfold clogW. destruct i as [|p]; [reflexivity|].
  destruct p as [[[p|p|]|[p|p|]|]|[[p|p|]|[p|p|]|]|]; reflexivity.
Qed.

Definition rdW1 : ready := mkReady (Some (mkHS 1 0 3)) [clogW 1; clogW 2; clogW 3] None [clogW 1; clogW 2; clogW 3] [] false.
Definition rdW2 : ready := mkReady (Some (mkHS 2 1 4)) [clogW 4] None [clogW 4] [] true.
Definition rdW3 : ready := mkReady (Some (mkHS 3 3 4)) [] None [] [] false.          (* steps down: a vote for node 3 *)
Definition rdW4 : ready := mkReady None [clogW 5; clogW 6] None [] [] false.         (* MsgApp from node 3 *)
Definition rdW5 : ready := mkReady (Some (mkHS 3 3 7)) [clogW 7] None [clogW 5; clogW 6; clogW 7] [] false.

Definition schedW : list step :=
  [SReady rdW1 false None; SReady rdW2 false None; SApplyTask None;
   SReady rdW3 false None;
   SPropose 800 true;            (* the control queued while "leader": rawNode.Propose forwards it, returns nil *)
   SReady rdW4 false None;       (* trackReadyEntries gives the waiting future to index 6 *)
   SReady rdW5 false None; SApplyTask None].

Definition LMonly (clog : N -> entry) : node -> list entry -> Prop := fun _ ents => LM clog ents.

(* computations are made on the goal only, so that Qed replays them with the virtual machine *)
Ltac conc := vm_compute; repeat (first [reflexivity | discriminate | intro]).
Ltac all_conc :=
  match goal with |- forall e, In e ?l -> @?P e => apply (proj1 (Forall_forall P l)) end;
  vm_compute; repeat (apply Forall_cons; [conc|]); apply Forall_nil.
(* the conjuncts of ready_ok in order: committed = centries cursor n; no snapshot; save_stable; applied_ok after
   the Save; msg_ok; the caller closes the last one, TrackHyp *)
Ltac ready_ok_concrete n :=
  intros _; unfold ready_ok; split; [exists n; vm_compute; reflexivity|];
  split; [intros ? ? ?; vm_compute; let H := fresh in (intro H; discriminate)|];
  split; [split; [let h := fresh in let H := fresh in let E := fresh in
                  (intros h; vm_compute; intro H; first [discriminate | injection H as E; subst h; conc]) | all_conc]|];
  split; [all_conc|];
  split; [vm_compute; reflexivity|].

Lemma LM_of_clog clog ents : (forall e, In e ents -> e = clog (e_idx e)) -> LM clog ents.
Proof. intros H e He _. apply H, He. Qed.

Lemma schedW_ok : sched_ok clogW (fun _ => False) (LMonly clogW) schedW start_node.
Proof.
  unfold schedW. cbn [sched_ok step_ok].
  split; [ready_ok_concrete 3%nat; apply LM_of_clog; all_conc|].
  split; [ready_ok_concrete 1%nat; apply LM_of_clog; all_conc|].
  split; [exact Logic.I|].
  split; [ready_ok_concrete 0%nat; apply LM_of_clog; all_conc|].
  split; [exact Logic.I|].
  split; [ready_ok_concrete 0%nat; apply LM_of_clog; all_conc|].
  split; [ready_ok_concrete 3%nat; apply LM_of_clog; all_conc|].
  split; exact Logic.I.
Qed.

Definition clogV (i : N) : entry :=
  match i with
  | 1 | 2 | 3 => Entry i 1 KConf 0
  | 4 => Entry 4 2 KEmpty 0
  | 5 => Entry 5 2 KNormal 700
  | 6 => Entry 6 2 KNormal 701
  | 7 => Entry 7 2 KConf 0
  | 8 => Entry 8 2 KNormal 702
  | _ => Entry i 2 KEmpty 0
  end.

Lemma clogV_idx i : e_idx (clogV i) = i.
Proof.
  unfold clogV. destruct i as [|p]; [reflexivity|].
  destruct p as [[[[p|p|]|[p|p|]|]|[[p|p|]|[p|p|]|]|]|[[[p|p|]|[p|p|]|]|[[p|p|]|[p|p|]|]|]|]; reflexivity.
Qed.

Definition rdV1 : ready := mkReady (Some (mkHS 1 0 3)) [clogV 1; clogV 2; clogV 3] None [clogV 1; clogV 2; clogV 3] [] false.
Definition rdV2 : ready := mkReady (Some (mkHS 2 1 4)) [clogV 4] None [clogV 4] [] true.
Definition rdV3 : ready := mkReady None [clogV 5; clogV 6] None [] [] true.
Definition rdV4 : ready := mkReady (Some (mkHS 2 1 6)) [] None [clogV 5; clogV 6] [] true.
Definition rdV5 : ready := mkReady (Some (mkHS 2 1 8)) [clogV 7; clogV 8] None [clogV 7; clogV 8] [] true.
(* after the restart: what was committed and not applied comes again *)
Definition rdV6 : ready := mkReady None [] None [clogV 7; clogV 8] [] false.

Definition schedV : list step :=
  [SReady rdV1 false None; SReady rdV2 false None; SApplyTask None;
   SPropose 700 true; SPropose 701 true;
   SReady rdV3 false None;       (* the two proposals are appended locally *)
   SReady rdV4 false None; SApplyTask None;   (* committed, applied as ONE batch, both futures resolved *)
   SCompact true None;
   SReady rdV5 false (Some 3%nat);   (* a conf change and a command: synchronous path, killed after Save, Track and the (empty) Send, before the calls *)
   SRestart;
   SReady rdV6 false None].

Ltac la_conc :=
  let H := fresh in
  (intros ? ?; vm_compute; intro H;
   repeat (destruct H as [H|H]; [injection H as <- <-; reflexivity|]); destruct H).

Lemma schedV_ok : sched_ok clogV (fun _ => False) (TrackFut clogV) schedV start_node.
Proof.
  unfold schedV. cbn [sched_ok step_ok].
  split; [ready_ok_concrete 3%nat; split; [apply LM_of_clog; all_conc | la_conc]|].
  split; [ready_ok_concrete 1%nat; split; [apply LM_of_clog; all_conc | la_conc]|].
  split; [exact Logic.I|]. split; [exact Logic.I|]. split; [exact Logic.I|].
  split; [ready_ok_concrete 0%nat; split; [apply LM_of_clog; all_conc | la_conc]|].
  split; [ready_ok_concrete 2%nat; split; [apply LM_of_clog; all_conc | la_conc]|].
  split; [exact Logic.I|]. split; [exact Logic.I|].
  split; [ready_ok_concrete 2%nat; split; [apply LM_of_clog; all_conc | la_conc]|].
  split; [exact Logic.I|].
  split; [ready_ok_concrete 2%nat; split; [apply LM_of_clog; all_conc | la_conc]|].
  exact Logic.I.
Qed.

(* the plain variant (no DurableAppliedIndex): a crash between ApplyBatch and MarkApplied makes the
   restart apply the batch again -- the reason why pkg/slot/fsm carries the applied index inside its
   own write batch *)
Definition schedPlain : list step :=
  [SReady rdV1 false None; SReady rdV2 false None; SApplyTask None;
   SReady rdV3 false None; SReady rdV4 false None;
   SApplyTask (Some 1%nat);          (* ApplyBatch done, killed before Storage.MarkApplied *)
   SRestart; SReady (mkReady None [] None [clogV 5; clogV 6] [] false) false None; SApplyTask None].
