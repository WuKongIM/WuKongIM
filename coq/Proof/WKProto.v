(* Proof/WKProto.v — lemmas about the WKProto codec model: primitives of the
   Encoder/Decoder, the remaining-length varint, the fixed header.  Composed per
   frame type in Proof/WKProto_types.v and on whole frames in Proof/WKProto_frame.v. *)
From WK Require Import Base.Base Base.Bytes Base.Lists Gen.Consts_C22 Model.WKProto.
From Coq Require Import ZifyBool ZifyN ZifyNat.
#[local] Ltac Zify.zify_post_hook ::= Z.div_mod_to_equations.
Open Scope N_scope.

Lemma blen_nil : blen [] = 0.
Proof. reflexivity. Qed.

Lemma blen_cons x a : blen (x :: a) = 1 + blen a.
Proof. unfold blen. cbn [length]. lia. Qed.

Lemma blen_app a b : blen (a ++ b) = blen a + blen b.
Proof. unfold blen. rewrite app_length. lia. Qed.

Lemma blen_be_put w x : blen (be_put w x) = N.of_nat w.
Proof. unfold blen. rewrite be_put_length. reflexivity. Qed.

Lemma blen_zero_nil s : blen s = 0 -> s = [].
Proof. destruct s; [reflexivity|]. rewrite blen_cons. lia. Qed.

Lemma to_nat_blen s : N.to_nat (blen s) = length s.
Proof. unfold blen. apply Nnat.Nat2N.id. Qed.

Lemma firstn_blen (a b : bytes) : firstn (N.to_nat (blen a)) (a ++ b) = a.
Proof. rewrite to_nat_blen. apply firstn_app_exact. Qed.

Lemma skipn_blen (a b : bytes) : skipn (N.to_nat (blen a)) (a ++ b) = b.
Proof. rewrite to_nat_blen. apply skipn_app_exact. Qed.

(* u16 length ‖ bytes *)
Definition enc_str (s : bytes) : bytes := put_u16 (blen s) ++ s.

Lemma blen_enc_str s : blen (enc_str s) = blen s + 2.
Proof. unfold enc_str. rewrite blen_app, N.add_comm. apply f_equal, blen_be_put. Qed.

Definition seq_bytes (v x : N) : bytes :=
  if v <=? LegacyMessageSeqVersion then put_u32 x else put_u64 x.

Lemma blen_seq_bytes v x : blen (seq_bytes v x) = messageSeqSize v.
Proof. unfold seq_bytes, messageSeqSize. destruct (v <=? LegacyMessageSeqVersion); apply blen_be_put. Qed.

(* [autorewrite with blen]: the length of a concatenation of encoded fields
   (Proof/WKProto_types.v adds [opt_bytes]; a [put_u16] occurs only inside [enc_str]) *)
#[export] Hint Rewrite blen_nil blen_cons blen_app blen_enc_str blen_seq_bytes
  (blen_be_put 1 : forall x, blen (put_u8 x) = 1) (blen_be_put 4 : forall x, blen (put_u32 x) = 4)
  (blen_be_put 8 : forall x, blen (put_u64 x) = 8) : blen.

Lemma wseq_W a b : W a +> W b = W (a ++ b).
Proof. reflexivity. Qed.

Lemma if_W (c : bool) a : (if c then W a else W []) = W (if c then a else []).
Proof. destruct c; reflexivity. Qed.

Lemma WriteString_ok s : str_ok s = true -> WriteString s = W (enc_str s).
Proof.
  unfold str_ok, WriteString, enc_str. intro H.
  destruct (blen s =? 0) eqn:Z.
  - apply N.eqb_eq in Z. rewrite (blen_zero_nil s Z). reflexivity.
  - replace (MaxInt16 <? blen s) with false by lia. reflexivity.
Qed.

Lemma WriteString_panics s : str_ok s = false -> WriteString s = WPanic.
Proof.
  unfold str_ok, WriteString. intro H.
  replace (blen s =? 0) with false by (unfold MaxInt16 in *; lia).
  replace (MaxInt16 <? blen s) with true by lia. reflexivity.
Qed.

Lemma encodeMessageSeq_ok v x : seq_ok v x = true -> encodeMessageSeq v x = W (seq_bytes v x).
Proof.
  unfold seq_ok, encodeMessageSeq, seq_bytes, u32.
  destruct (v <=? LegacyMessageSeqVersion); intro H; [|reflexivity].
  replace (u32max <? x) with false by lia. reflexivity.
Qed.

Lemma wrap32_small x : u32 x = true -> wrap32 x = x.
Proof. unfold u32, u32max, wrap32. intro H. apply N.mod_small. lia. Qed.

(* each primitive reads back what its writer wrote, whatever follows *)
Lemma dUint8_put x r : u8 x = true -> dUint8 (put_u8 x ++ r) = Some (x, r).
Proof. unfold u8. intro H. cbn. rewrite N.mod_small by lia. reflexivity. Qed.

Lemma dUint32_put x r : u32 x = true -> dUint32 (put_u32 x ++ r) = Some (x, r).
Proof. unfold u32, u32max. intro H. apply get_be_put. cbn. lia. Qed.

Lemma dUint64_put x r : u64 x = true -> dUint64 (put_u64 x ++ r) = Some (x, r).
Proof. unfold u64, u64max. intro H. apply get_be_put. cbn. lia. Qed.

Lemma dString_enc s r : str_ok s = true -> dString (enc_str s ++ r) = Some (s, r).
Proof.
  unfold str_ok, MaxInt16. intro H. unfold dString, dBinary, dInt16, enc_str. rewrite <- app_assoc.
  rewrite (get_be_put 2) by (cbn; lia).
  replace (int16_max <? blen s) with false by (unfold int16_max; lia).
  rewrite to_nat_blen. apply take_app. reflexivity.
Qed.

Lemma decodeMessageSeq_bytes v x r :
  seq_ok v x = true -> decodeMessageSeq (seq_bytes v x ++ r) v = Some (x, r).
Proof.
  unfold seq_ok, decodeMessageSeq, seq_bytes.
  destruct (v <=? LegacyMessageSeqVersion); [apply dUint32_put|apply dUint64_put].
Qed.

(* the digits of a positive length: the last one is below 128, the others carry
   the continuation bit *)
Lemma encodeVariable_aux_S fuel n : 0 < n ->
  encodeVariable_aux (S fuel) n
  = if n <? 128 then [n] else (n mod 128 + 128) :: encodeVariable_aux fuel (n / 128).
Proof.
  intro H. cbn [encodeVariable_aux]. replace (n =? 0) with false by lia.
  destruct (n <? 128) eqn:L.
  - replace (n / 128) with 0 by lia. rewrite N.mod_small by lia. destruct fuel; reflexivity.
  - replace (0 <? n / 128) with true by lia. reflexivity.
Qed.

Lemma cont_bit_last d : d < 128 -> cont_bit d = false /\ d mod 128 = d.
Proof. unfold cont_bit. lia. Qed.

Lemma cont_bit_more n : cont_bit (n mod 128 + 128) = true /\ (n mod 128 + 128) mod 128 = n mod 128.
Proof. unfold cont_bit. lia. Qed.

(* a length below 128^k has at most k digits, so the k-digit loop of the decoder reads the
   whole varint before its cut-off; the encoder's fuel only has to be at least k *)
Lemma decodeLength_aux_enc : forall k fuel n mult off acc r,
  (k <= fuel)%nat -> 0 < n -> n < 128 ^ N.of_nat k ->
  decodeLength_aux k (encodeVariable_aux fuel n ++ r) mult off acc
  = Some (acc + n * 2 ^ mult, off + blen (encodeVariable_aux fuel n)).
Proof.
  induction k as [|k IH]; intros fuel n mult off acc r Hk Hn Hlt; [cbn in Hlt; lia|].
  destruct fuel as [|fuel]; [lia|]. rewrite encodeVariable_aux_S by exact Hn.
  rewrite Nnat.Nat2N.inj_succ, N.pow_succ_r' in Hlt.
  destruct (n <? 128) eqn:L; cbn [app decodeLength_aux].
  - destruct (cont_bit_last n) as [-> ->]; [lia|]. reflexivity.
  - destruct (cont_bit_more n) as [-> ->]. cbn [negb].
    rewrite IH by lia. rewrite blen_cons, N.pow_add_r. f_equal. f_equal; [|lia].
    change (2 ^ 7) with 128. pose proof (N.div_mod n 128). nia.
Qed.

(* a strict prefix of the varint ends in a continuation digit: incomplete *)
Lemma decodeLength_aux_cut : forall k fuel n p q mult off acc,
  (k <= fuel)%nat -> 0 < n -> n < 128 ^ N.of_nat k ->
  p ++ q = encodeVariable_aux fuel n -> q <> [] ->
  decodeLength_aux k p mult off acc = None.
Proof.
  induction k as [|k IH]; intros fuel n p q mult off acc Hk Hn Hlt E Q; [cbn in Hlt; lia|].
  destruct fuel as [|fuel]; [lia|]. rewrite encodeVariable_aux_S in E by exact Hn.
  rewrite Nnat.Nat2N.inj_succ, N.pow_succ_r' in Hlt.
  destruct p as [|d p']; [reflexivity|]. cbn [decodeLength_aux].
  destruct (n <? 128) eqn:L; injection E as -> E.
  - destruct p'; [contradiction|discriminate].
  - destruct (cont_bit_more n) as [-> _]. apply (IH fuel (n / 128) p' q); (assumption || lia).
Qed.

(* 268435456 = 128^4: the four digits [decodeLength] reads; MaxRemaingLength is below it *)
Lemma decodeLength_enc n r : 0 < n -> n < 268435456 ->
  decodeLength (encodeVariable2 n ++ r) = Some (n, blen (encodeVariable2 n)).
Proof.
  intros Hn Hlt. unfold decodeLength, encodeVariable2.
  rewrite (decodeLength_aux_enc 4 5) by (exact Hn || lia). f_equal. f_equal. lia.
Qed.

Lemma decodeLength_cut n p q : 0 < n -> n < 268435456 ->
  p ++ q = encodeVariable2 n -> q <> [] -> decodeLength p = None.
Proof. intros Hn Hlt. apply (decodeLength_aux_cut 4 5); (exact Hn || lia). Qed.

Lemma encodeVariable2_nonempty n : 0 < n -> encodeVariable2 n <> [].
Proof.
  intro H. unfold encodeVariable2. rewrite encodeVariable_aux_S by exact H.
  destruct (n <? 128); discriminate.
Qed.

Lemma header_roundtrip f : is_pingpong f = false ->
  FramerFromUint8 (ToFixHeaderUint8 f) = (frame_type f, normalize_flags (frame_type f) (frame_flags f)).
Proof. intro NP. destruct f; try discriminate NP; destruct fl as [[] [] [] [] []]; reflexivity. Qed.

(* every header byte: re-encoding the decoded framer gives the byte back, except
   that CONNACK only keeps bit 0 of the flag nibble *)
Lemma header_bytes b : b < 256 ->
  fix_header (fst (FramerFromUint8 b)) (snd (FramerFromUint8 b))
  = if fst (FramerFromUint8 b) =? CONNACK then b - b mod 16 + b mod 2 else b.
Proof.
  intro H.
  assert (F : forallb (fun i => let b := N.of_nat i in
                fix_header (fst (FramerFromUint8 b)) (snd (FramerFromUint8 b))
                =? (if fst (FramerFromUint8 b) =? CONNACK then b - b mod 16 + b mod 2 else b))
              (seq 0 256) = true) by (vm_compute; reflexivity).
  rewrite forallb_forall in F. specialize (F (N.to_nat b)). rewrite Nnat.N2Nat.id in F.
  apply N.eqb_eq, F, in_seq. lia.
Qed.
