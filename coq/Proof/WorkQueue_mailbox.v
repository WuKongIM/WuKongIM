(* Proof/WorkQueue_mailbox.v — ShardedMailbox: the monitor of every model history is 0 or 3 (K2:
   finishShardDrain does not reschedule once closed).  [shard_inv] of shard k mentions only the
   records of its own number, so a step of k carries it over to the other shards. *)
From Coq Require Import Sorted.
From WK Require Import Base.Base Base.Lists Model.WorkQueue Model.WorkQueue_mailbox Proof.WorkQueue.
Open Scope N_scope.

Definition sh_items (sh : shard) : list (N * N) := tok_items (sh_tok sh) ++ sh_queue sh.
Definition sh_tasks (sh : shard) : list N := map fst (sh_items sh).

Lemma in_flat_map_nth x l : In x (flat_map sh_tasks l) -> exists k, (k < length l)%nat /\ In x (sh_tasks (nth k l sh0)).
Proof.
  induction l as [|y r IH]; [intros []|]. cbn [flat_map]. intro H. apply in_app_or in H. destruct H as [H|H].
  - exists 0%nat. cbn [length nth]. split; [lia|exact H].
  - destruct (IH H) as (k & Hk & Hin). exists (S k). cbn [length nth]. split; [lia|exact Hin].
Qed.

Lemma nth_in_flat_map x l k : (k < length l)%nat -> In x (sh_tasks (nth k l sh0)) -> In x (flat_map sh_tasks l).
Proof.
  revert k. induction l as [|y r IH]; intros k Hk Hin; cbn [length] in Hk; [lia|].
  cbn [flat_map]. apply in_or_app. destruct k; cbn [nth] in Hin; [left; exact Hin|right].
  apply (IH k); [lia|exact Hin].
Qed.

Lemma map_task_mk_runs_sh l k rb re pos : map r_task (mk_runs_sh l k rb re pos) = map fst l.
Proof.
  revert pos. induction l as [|[x e] r IH]; intro pos; cbn [mk_runs_sh map r_task fst]; [reflexivity|].
  rewrite IH. reflexivity.
Qed.

Lemma mk_runs_sh_spec l k rb re : forall pos r, In r (mk_runs_sh l k rb re pos) ->
  r_b r = rb /\ r_e r = re /\ r_shard r = k /\ pos <= r_pos r < pos + N.of_nat (length l)
  /\ exists e, In (r_task r, e) l.
Proof.
  induction l as [|[x e] l IH]; intros pos r Hin; [destruct Hin|].
  cbn [mk_runs_sh] in Hin. destruct Hin as [<-|Hin].
  - cbn. repeat split; try lia. exists e. left; reflexivity.
  - destruct (IH _ _ Hin) as (A & B & C & D & e' & E). repeat split; auto; try (cbn [length]; lia).
    exists e'. right; exact E.
Qed.

Definition sorted_snd : list (N * N) -> Prop := StronglySorted (fun a c => snd a < snd c).

Lemma mk_runs_sh_order l k rb re : sorted_snd l -> forall pos ra rb' ea eb,
  In ra (mk_runs_sh l k rb re pos) -> In rb' (mk_runs_sh l k rb re pos) ->
  In (r_task ra, ea) l -> In (r_task rb', eb) l ->
  (forall x e e', In (x, e) l -> In (x, e') l -> e = e') ->
  ea < eb -> r_pos ra < r_pos rb'.
Proof.
  induction l as [|[x e] l IH]; intros Hs pos ra rb' ea eb Ha Hb Hea Heb Huniq Hlt; [destruct Ha|].
  inversion Hs as [|? ? Hs' Hh]; subst. rewrite Forall_forall in Hh. cbn [mk_runs_sh] in Ha, Hb.
  assert (Htail : forall r, In r (mk_runs_sh l k rb re (pos + 1)) -> exists e0, In (r_task r, e0) l /\ pos + 1 <= r_pos r).
  { intros r Hr. destruct (mk_runs_sh_spec _ _ _ _ _ _ Hr) as (_ & _ & _ & D & e0 & E). exists e0. split; [exact E|lia]. }
  destruct Ha as [<-|Ha], Hb as [<-|Hb]; cbn [r_task r_pos] in *.
  - assert (ea = eb) by (eapply Huniq; eauto). lia.
  - destruct (Htail _ Hb) as (e0 & _ & Hp). lia.
  - exfalso. destruct (Htail _ Ha) as (e0 & Hin0 & _).
    assert (E1 : ea = e0) by (eapply Huniq; [exact Hea|right; exact Hin0]).
    assert (E2 : eb = e) by (eapply Huniq; [exact Heb|left; reflexivity]).
    pose proof (Hh _ Hin0) as Hh0. cbn [snd] in Hh0. lia.
  - destruct (Htail _ Ha) as (e0 & Hin0 & _). destruct (Htail _ Hb) as (e1 & Hin1 & _).
    assert (E1 : ea = e0) by (eapply Huniq; [exact Hea|right; exact Hin0]).
    assert (E2 : eb = e1) by (eapply Huniq; [exact Heb|right; exact Hin1]).
    subst. apply (IH Hs' (pos + 1) ra rb' e0 e1); auto.
    intros x0 e2 e3 H2 H3. eapply Huniq; right; eauto.
Qed.

Section MailboxProof.
Variable cf : cfg.

Notation m_step := (m_step cf).
Notation m_run := (m_run cf).
Notation m_hist := (m_hist cf).
Notation mbmax := (mbmax cf).
Notation nshards := (nshards cf).

Definition pc_task (p : mpc) : option (N * N) :=
  match p with
  | MIdle => None
  | MCheck x st _ | MLock x st _ => Some (x, st)
  end.

Definition pc_shard_ok (p : mpc) : Prop :=
  match p with
  | MIdle => True
  | MCheck _ _ k | MLock _ _ k => (k < nshards)%nat
  end.

Definition tok_db (p : tpc) : option N :=
  match p with
  | TNext db | TCollect db _ | THandler db _ _ | TFinish db _ => Some db
  | _ => None
  end.

Definition all_tasks (s : mstate) : list N := flat_map sh_tasks (m_shards s) ++ map r_task (m_runs s).

(* a drain began after every earlier drain of the shard, a handler call after every earlier one
   returned; after the last empty check (TFinish) nothing of the shard runs and what is queued
   arrived later; an unscheduled shard with a non-empty queue (K2) has had a drain *)
Definition tok_inv (b : N) (runs : list runr) (drains : list drn) (k : nat) (q : list (N * N)) (p : tpc) : Prop :=
  (forall db, tok_db p = Some db -> db <= b /\ forall d, In d drains -> d_shard d = N.of_nat k -> d_e d < db)
  /\ match p with
     | TNone => (q <> [] -> exists d, In d drains /\ d_shard d = N.of_nat k)
                /\ forall x e, In (x, e) q -> forall r, In r runs -> r_shard r = N.of_nat k -> r_b r < e
     | THandler _ rb _ => rb <= b /\ forall r, In r runs -> r_shard r = N.of_nat k -> r_e r < rb
     | TFinish _ te => te <= b /\ (forall r, In r runs -> r_shard r = N.of_nat k -> r_b r < te)
                       /\ forall x e, In (x, e) q -> te < e
     | _ => True
     end.

Record shard_inv (b : N) (subs : list sub) (runs : list runr) (drains : list drn) (k : nat) (sh : shard) : Prop := {
  h_items : forall x e, In (x, e) (sh_items sh) -> e <= b /\
              exists sb, In sb subs /\ s_task sb = x /\ s_res sb = ROk /\ s_shard sb = N.of_nat k /\ s_e sb = e;
  h_len : (length (tok_items (sh_tok sh)) <= mbmax)%nat;
  h_sorted : sorted_snd (sh_items sh);
  (* what is still there was admitted after everything of the shard that has run *)
  h_after : forall r sb, In r runs -> In sb subs -> s_task sb = r_task r -> r_shard r = N.of_nat k ->
              forall y e, In (y, e) (sh_items sh) -> s_e sb < e;
  h_tok : tok_inv b runs drains k (sh_queue sh) (sh_tok sh) }.

Definition close_flags (s : mstate) : Prop :=
  match m_close s with
  | CIdle => m_closed s = false /\ m_shclosed s = false /\ m_clos s = []
  | CStart cb => m_closed s = false /\ m_shclosed s = false /\ m_clos s = [] /\ cb = m_cb s
  | CMid cb => m_closed s = true /\ m_shclosed s = false /\ m_clos s = [] /\ cb = m_cb s
  | CWait cb => m_closed s = true /\ m_shclosed s = true /\ m_clos s = [] /\ cb = m_cb s
  | CDone => m_closed s = true /\ m_shclosed s = true
  end.

Definition returned (s : mstate) (c : clo) : Prop :=
  m_closed s = true /\ all_unscheduled (m_shards s) = true /\ l_b c < l_e c
  /\ forall r, In r (m_runs s) -> r_e r < l_e c.

(* newest first: an older delivery of the shard is of the same handler call or returned earlier *)
Definition run_sorted : list runr -> Prop :=
  StronglySorted (fun a r => r_shard r = r_shard a -> r_b r = r_b a \/ r_e r < r_b a).

Lemma run_sorted_prepend blk runs rb K : run_sorted runs ->
  (forall n, In n blk -> r_b n = rb /\ r_shard n = K) ->
  (forall r, In r runs -> r_shard r = K -> r_e r < rb) ->
  run_sorted (blk ++ runs).
Proof.
  intros Hs Hb Ho. induction blk as [|n blk IH]; [exact Hs|]. cbn [app].
  constructor; [apply IH; intros n0 Hn0; apply Hb; right; exact Hn0|].
  destruct (Hb n (or_introl eq_refl)) as (Ea & Eb). apply Forall_forall. intros r Hr Hsh.
  apply in_app_or in Hr. destruct Hr as [Hr|Hr].
  - left. destruct (Hb r (or_intror Hr)) as (Er & _). congruence.
  - right. rewrite Ea. apply Ho; [exact Hr|congruence].
Qed.

Record MInvB (b : N) (s : mstate) : Prop := {
  q_prod : producers MIdle pc_task (fun k => k < N.of_nat nshards) b (m_subs s) (m_pcs s);
  q_pc_shard : forall t, pc_shard_ok (m_pc s t);
  q_len : length (m_shards s) = nshards;
  q_runs : forall r, In r (m_runs s) -> r_b r < r_e r /\ r_e r <= b /\ r_pos r < N.max 1 (c_batch cf);
  q_drains : forall d, In d (m_drains s) -> d_b d < d_e d /\ d_e d <= b;
  q_cons : conserved (m_subs s) (all_tasks s);
  q_run_link : forall r, In r (m_runs s) ->
             exists sb, In sb (m_subs s) /\ s_task sb = r_task r /\ s_res sb = ROk /\ s_shard sb = r_shard r;
  q_sh : forall k, shard_inv b (m_subs s) (m_runs s) (m_drains s) k (m_sh s k);
  q_dr_sorted : StronglySorted (fun a d => d_shard d = d_shard a -> d_e d < d_b a) (m_drains s);
  q_run_sorted : run_sorted (m_runs s);
  q_fifo : forall ra rb sa sb, In ra (m_runs s) -> In rb (m_runs s) -> r_shard ra = r_shard rb ->
             In sa (m_subs s) -> In sb (m_subs s) -> s_task sa = r_task ra -> s_task sb = r_task rb ->
             s_e sa < s_e sb -> run_before ra rb = true;
  q_close : close_flags s;
  q_cb : m_cb s <= b;
  q_ret : forall c, In c (m_clos s) -> returned s c }.

Definition MInv (s : mstate) : Prop := MInvB (m_now s) s.

Lemma mbmax_pos : (1 <= mbmax)%nat.
Proof. unfold Model.WorkQueue_mailbox.mbmax. lia. Qed.

Lemma all_unscheduled_nth l k : all_unscheduled l = true -> sh_tok (nth k l sh0) = TNone.
Proof.
  intro H. pose proof (forallb_nth _ l k sh0 H eq_refl) as X. cbv beta in X.
  destruct (sh_tok (nth k l sh0)); try discriminate X. reflexivity.
Qed.

Ltac prj := unfold all_tasks, m_pc, m_sh;
            cbn [m_now m_closed m_shclosed m_shards m_pcs m_close m_cb m_subs m_runs m_drains m_clos
                 m_set_pc m_ret m_set_sh m_upd m_set_close m_tick].

Lemma tok_inv_mono b b' runs drains k q p : b <= b' -> tok_inv b runs drains k q p -> tok_inv b' runs drains k q p.
Proof.
  intros Hb [A B]. split.
  - intros db E. destruct (A db E) as [X Y]. split; [lia|exact Y].
  - destruct p; auto.
    + destruct B as [X Y]. split; [lia|exact Y].
    + destruct B as [X Y]. split; [lia|exact Y].
Qed.

Lemma tok_inv_ext b runs runs' drains drains' k q p : incl drains drains' ->
  (forall r, In r runs' -> r_shard r = N.of_nat k -> In r runs) ->
  (forall d, In d drains' -> d_shard d = N.of_nat k -> In d drains) ->
  tok_inv b runs drains k q p -> tok_inv b runs' drains' k q p.
Proof.
  intros Hi Hr Hd [A B]. split.
  - intros db E. destruct (A db E) as [X Y]. split; [exact X|]. intros d Hin Hs. apply Y; auto.
  - destruct p; auto.
    + destruct B as [X Y]. split.
      * intro Hq. destruct (X Hq) as (d & D1 & D2). exists d. auto.
      * intros x e Hin r Hr0 Hs. apply (Y x e Hin r); auto.
    + destruct B as [X Y]. split; [exact X|]. intros r Hr0 Hs. apply Y; auto.
    + destruct B as (X & Y & Z). repeat split; auto.
Qed.

Lemma shard_inv_mono b b' subs runs drains k sh : b <= b' ->
  shard_inv b subs runs drains k sh -> shard_inv b' subs runs drains k sh.
Proof.
  intros Hb [A B C D E]. constructor; auto.
  - intros x e Hin. destruct (A x e Hin) as [X Y]. split; [lia|exact Y].
  - eapply tok_inv_mono; eassumption.
Qed.

Lemma shard_inv_ext b subs subs' runs runs' drains drains' k sh : incl subs subs' -> incl drains drains' ->
  (forall r sb, In r runs' -> In sb subs' -> s_task sb = r_task r -> In sb subs) ->
  (forall r, In r runs' -> r_shard r = N.of_nat k -> In r runs) ->
  (forall d, In d drains' -> d_shard d = N.of_nat k -> In d drains) ->
  shard_inv b subs runs drains k sh -> shard_inv b subs' runs' drains' k sh.
Proof.
  intros Hs Hi Hsb Hr Hd [A B C D E]. constructor; auto.
  - intros x e Hin. destruct (A x e Hin) as (X & sb & Y & Z). split; [exact X|]. exists sb. split; [apply Hs; exact Y|exact Z].
  - intros r sb Hr0 Hsb0 Et Ek. apply (D r sb); auto. eapply Hsb; eassumption.
  - eapply tok_inv_ext; eassumption.
Qed.

Lemma tok_sched_items sh : tok_items (match sh_tok sh with TNone => TSched | q => q end) = tok_items (sh_tok sh).
Proof. destruct (sh_tok sh); reflexivity. Qed.

Lemma tok_inv_enqueue b now runs drains k sh x : b < now -> tok_inv b runs drains k (sh_queue sh) (sh_tok sh) ->
  tok_inv now runs drains k (sh_queue sh ++ [(x, now)]) (match sh_tok sh with TNone => TSched | p => p end).
Proof.
  intros Hb. unfold tok_inv. destruct (sh_tok sh); intros [A B];
    (split; [intros db0 E; first [discriminate E|destruct (A db0 E) as [X Y]; split; [lia|exact Y]]|]); try exact I.
  - destruct B as [X Y]. split; [lia|exact Y].
  - destruct B as (X & Y & Z). repeat split; [lia|exact Y|]. intros y e Hin. apply in_app_or in Hin.
    destruct Hin as [Hin|[E0|[]]]; [exact (Z y e Hin)|]. inversion E0; subst. lia.
Qed.

Lemma shard_running b s k : MInvB b s -> sh_tok (m_sh s k) <> TNone -> m_clos s = [].
Proof.
  intros HI Hne. destruct (m_clos s) as [|c l] eqn:E; [reflexivity|]. exfalso. apply Hne.
  apply all_unscheduled_nth. apply (q_ret _ _ HI c). rewrite E. left; reflexivity.
Qed.

Lemma inv_mono b b' s : b <= b' -> MInvB b s -> MInvB b' s.
Proof.
  intros Hb [ ]. constructor; try assumption.
  - eapply producers_mono; eassumption.
  - intros r Hr. destruct (q_runs0 r Hr) as (A & B & C). repeat split; auto; lia.
  - intros d Hd. destruct (q_drains0 d Hd) as (A & B). split; auto; lia.
  - intro k. eapply shard_inv_mono; [exact Hb|apply q_sh0].
  - lia.
Qed.

Lemma inv_tick s : MInv s -> MInvB (m_now s) (m_tick s).
Proof. intros [ ]. constructor; assumption. Qed.

Lemma inv_pc_move b s t p : MInvB b s ->
  producers MIdle pc_task (fun k => k < N.of_nat nshards) b (m_subs s) (set_nth t p MIdle (m_pcs s)) ->
  pc_shard_ok p -> MInvB b (m_set_pc s t p).
Proof.
  intros [ ] HP Hk. constructor; prj; try assumption.
  apply (set_nth_forall (fun _ p => pc_shard_ok p)); [exact Hk|exact q_pc_shard0].
Qed.

Lemma sub_of_run b s sbn r sb : MInvB b s -> ~ In (s_task sbn) (map s_task (m_subs s)) ->
  In r (m_runs s) -> In sb (sbn :: m_subs s) -> s_task sb = r_task r -> In sb (m_subs s).
Proof.
  intros HI Hf Hr [<-|Hsb] Et; [|exact Hsb]. exfalso. apply Hf. rewrite Et.
  destruct (q_run_link _ _ HI r Hr) as (s0 & A & B & _). rewrite <- B. apply in_map. exact A.
Qed.

Lemma shard_inv_sub b s sbn k0 : MInvB b s -> ~ In (s_task sbn) (map s_task (m_subs s)) ->
  shard_inv b (sbn :: m_subs s) (m_runs s) (m_drains s) k0 (m_sh s k0).
Proof.
  intros HI Hf. apply (shard_inv_ext b (m_subs s) _ (m_runs s) _ (m_drains s)); auto using incl_tl, incl_refl.
  - intros r sb. apply (sub_of_run b s); assumption.
  - apply HI.
Qed.

Lemma inv_ret b s t x st k r shards' : MInvB b s -> b < m_now s -> pc_task (m_pc s t) = Some (x, st) ->
  (k < nshards)%nat -> length shards' = length (m_shards s) ->
  let subs' := Sub x (N.of_nat k) st (m_now s) r :: m_subs s in
  conserved subs' (flat_map sh_tasks shards' ++ map r_task (m_runs s)) ->
  (forall k0, shard_inv (m_now s) subs' (m_runs s) (m_drains s) k0 (nth k0 shards' sh0)) ->
  (forall c, In c (m_clos s) -> all_unscheduled shards' = true) ->
  MInv (m_ret s t x st k r shards').
Proof.
  intros HI Hb Hpc Hk Hlen subs' HC HS HR.
  pose proof (producers_ret MIdle pc_task _ b (m_now s) _ _ t MIdle x st (N.of_nat k) r (q_prod _ _ HI) Hb Hpc eq_refl
                ltac:(cbv beta; lia)) as HP.
  destruct (p_pcs _ _ _ _ _ _ (q_prod _ _ HI) _ _ _ Hpc) as (_ & _ & Hfresh).
  pose proof (fun r0 sb => sub_of_run b s (Sub x (N.of_nat k) st (m_now s) r) r0 sb HI Hfresh) as Hold.
  destruct (inv_mono b (m_now s) s ltac:(lia) HI) as [ ]. unfold MInv. constructor; prj; try assumption.
  - apply (set_nth_forall (fun _ p => pc_shard_ok p)); [exact I|exact q_pc_shard0].
  - rewrite Hlen. exact q_len0.
  - intros r0 Hr0. destruct (q_run_link0 r0 Hr0) as (sb & A & B). exists sb. split; [right; exact A|exact B].
  - intros ra rb sa sb Hra Hrb Hs Hsa Hsb Ea Eb.
    apply (q_fifo0 ra rb sa sb); try assumption; [apply (Hold ra)|apply (Hold rb)]; assumption.
  - intros c Hc. destruct (q_ret0 c Hc) as (A & _ & B). split; [exact A|split; [exact (HR c Hc)|exact B]].
Qed.

Lemma inv_ret_rej b s t x st k r : MInvB b s -> b < m_now s -> pc_task (m_pc s t) = Some (x, st) ->
  (k < nshards)%nat -> r <> ROk -> MInv (m_ret s t x st k r (m_shards s)).
Proof.
  intros HI Hb Hpc Hk Hr. destruct (p_pcs _ _ _ _ _ _ (q_prod _ _ HI) _ _ _ Hpc) as (_ & _ & Hfresh).
  apply (inv_ret b); try assumption; try reflexivity.
  - apply conserved_rej; [exact Hr|apply HI].
  - intro k0. apply (shard_inv_mono b); [lia|]. apply shard_inv_sub; assumption.
  - intros c Hc. apply (q_ret _ _ HI c Hc).
Qed.

Lemma inv_ret_ok b s t x st k : MInvB b s -> b < m_now s -> pc_task (m_pc s t) = Some (x, st) ->
  (k < nshards)%nat -> m_closed s = false ->
  MInv (m_ret s t x st k ROk
          (set_nth k (Sh (sh_queue (m_sh s k) ++ [(x, m_now s)])
                         (match sh_tok (m_sh s k) with TNone => TSched | p => p end)) sh0 (m_shards s))).
Proof.
  intros HI Hb Hpc Hk Hcl. destruct (p_pcs _ _ _ _ _ _ (q_prod _ _ HI) _ _ _ Hpc) as (_ & _ & Hfresh).
  pose proof Hk as Hk'. rewrite <- (q_len _ _ HI) in Hk'.
  set (old := m_sh s k). set (new := Sh (sh_queue old ++ [(x, m_now s)]) (match sh_tok old with TNone => TSched | p => p end)).
  assert (Hit : sh_items new = sh_items old ++ [(x, m_now s)]).
  { unfold sh_items, new. cbn [sh_tok sh_queue]. rewrite tok_sched_items, app_assoc. reflexivity. }
  assert (Htk : sh_tasks new = sh_tasks old ++ [x]) by (unfold sh_tasks; rewrite Hit, map_app; reflexivity).
  destruct (q_sh _ _ HI k) as [A B C D E]. fold old in A, B, C, D, E.
  apply (inv_ret b); try assumption.
  - apply set_nth_length. exact Hk'.
  - apply conserved_ok with (pl := all_tasks s); [exact Hfresh| |apply HI].
    intro y. pose proof (cnt_flat_map_set_nth sh_tasks y k new sh0 _ Hk') as X. fold (m_sh s k) in X. fold old in X.
    unfold all_tasks. rewrite Htk, !cnt_app, ?cnt_cons, ?cnt_nil in *. lia.
  - apply set_nth_forall_other; [|intros k0 _; apply (shard_inv_mono b); [lia|]; apply shard_inv_sub; assumption].
    constructor.
    + intros y e Hin. rewrite Hit in Hin. apply in_app_or in Hin. destruct Hin as [Hin|[E0|[]]].
      * destruct (A y e Hin) as (X & sb & Y & Z). split; [lia|]. exists sb. split; [right; exact Y|exact Z].
      * inversion E0; subst y e. split; [apply N.le_refl|]. eexists. split; [left; reflexivity|]. cbn. auto.
    + unfold new. cbn [sh_tok]. rewrite tok_sched_items. exact B.
    + rewrite Hit. apply sorted_snoc; [exact C|]. intros [y e] Hc. cbn [snd]. destruct (A y e Hc) as (X & _). lia.
    + intros r0 sb Hr0 Hsb Et Ek y e Hin. apply (sub_of_run b s (Sub x (N.of_nat k) st (m_now s) ROk) r0 sb HI Hfresh Hr0) in Hsb; [|exact Et].
      rewrite Hit in Hin. apply in_app_or in Hin. destruct Hin as [Hin|[E0|[]]].
      * exact (D r0 sb Hr0 Hsb Et Ek y e Hin).
      * inversion E0; subst. destruct (p_subs _ _ _ _ _ _ (q_prod _ _ HI) sb Hsb) as (_ & _ & X & _). lia.
    + apply (tok_inv_enqueue b); [exact Hb|exact E].
  - intros c Hc. exfalso. destruct (q_ret _ _ HI c Hc) as (X & _). congruence.
Qed.

(* a drain step that keeps [sh_items] (hand ++ queue) *)
Lemma inv_sh_same b s k sh' : MInvB b s -> (k < length (m_shards s))%nat ->
  sh_items sh' = sh_items (m_sh s k) -> sh_tok (m_sh s k) <> TNone ->
  (length (tok_items (sh_tok sh')) <= mbmax)%nat ->
  tok_inv b (m_runs s) (m_drains s) k (sh_queue sh') (sh_tok sh') ->
  MInvB b (m_set_sh s k sh').
Proof.
  intros HI Hk Hit Ho Hl Ht. pose proof (shard_running _ _ _ HI Ho) as Hclos.
  assert (Htk : sh_tasks sh' = sh_tasks (m_sh s k)) by (unfold sh_tasks; rewrite Hit; reflexivity).
  destruct (q_sh _ _ HI k) as [A B C D E]. destruct HI as [ ]. constructor; prj; try assumption; try (rewrite Hclos; intros c []).
  - rewrite set_nth_length; assumption.
  - apply (conserved_same _ (all_tasks s)); [|exact q_cons0]. intro y.
    pose proof (cnt_flat_map_set_nth sh_tasks y k sh' sh0 _ Hk) as X. unfold m_sh in Htk. rewrite Htk in X. prj. rewrite !cnt_app. lia.
  - apply set_nth_forall_other; [|intros k0 _; apply q_sh0]. constructor; rewrite ?Hit; assumption.
Qed.

Lemma inv_handler_end b s k db rb items : MInvB b s -> b < m_now s -> (k < length (m_shards s))%nat ->
  sh_tok (m_sh s k) = THandler db rb items ->
  let s' := m_set_sh s k (Sh (sh_queue (m_sh s k)) (TNext db)) in
  MInv (MSt (m_now s') (m_closed s') (m_shclosed s') (m_shards s') (m_pcs s') (m_close s') (m_cb s') (m_subs s')
          (mk_runs_sh items (N.of_nat k) rb (m_now s) 0 ++ m_runs s') (m_drains s') (m_clos s')).
Proof.
  intros HI Hb Hk Htok s'. pose proof (shard_running _ _ _ HI ltac:(rewrite Htok; discriminate)) as Hclos.
  destruct (q_sh _ _ HI k) as [A B C D [E F]]. rewrite Htok in B, E, F. cbn [tok_items] in B. destruct F as [Hrb Hact].
  set (q := sh_queue (m_sh s k)) in *. set (NEW := mk_runs_sh items (N.of_nat k) rb (m_now s) 0).
  assert (Hold : sh_items (m_sh s k) = items ++ q) by (unfold sh_items; rewrite Htok; reflexivity).
  rewrite Hold in A, C, D. destruct (sorted_app_inv _ _ _ C) as (Cit & Cq & Cx).
  assert (Hit : forall x e, In (x, e) items -> In (x, e) (items ++ q)) by (intros; apply in_or_app; left; assumption).
  assert (HNEW : forall r, In r NEW -> r_b r = rb /\ r_e r = m_now s /\ r_shard r = N.of_nat k
                              /\ r_pos r < N.of_nat (length items) /\ exists e, In (r_task r, e) items).
  { intros r Hr. destruct (mk_runs_sh_spec _ _ _ _ _ _ Hr) as (X1 & X2 & X3 & X4 & X5). repeat split; auto. lia. }
  assert (Hse : forall x e sb, In (x, e) (items ++ q) -> In sb (m_subs s) -> s_task sb = x -> s_e sb = e).
  { intros x e sb Hin Hsb Et. destruct (A x e Hin) as (_ & sb0 & P & Q & _ & _ & R).
    rewrite (producers_sub_unique _ _ _ _ _ _ sb sb0 (q_prod _ _ HI) Hsb P); [exact R|congruence]. }
  assert (Hother : forall k0, k0 <> k -> forall r, In r (NEW ++ m_runs s) -> r_shard r = N.of_nat k0 -> In r (m_runs s)).
  { intros k0 Hne r Hr Hs. apply in_app_or in Hr. destruct Hr as [Hr|Hr]; [|exact Hr].
    destruct (HNEW r Hr) as (_ & _ & X & _). rewrite X in Hs. apply Nat2N.inj in Hs. congruence. }
  apply (inv_mono b (m_now s)) in HI; [|lia]. destruct HI as [ ].
  unfold MInv, s'. constructor; prj; try assumption; try (rewrite Hclos; intros c []).
  - rewrite set_nth_length; assumption.
  - intros r Hr. apply in_app_or in Hr. destruct Hr as [Hr|Hr]; [|apply q_runs0; exact Hr].
    destruct (HNEW r Hr) as (X & Y & _ & Z & _). rewrite X, Y. repeat split; try lia.
    unfold Model.WorkQueue_mailbox.mbmax in B. lia.
  - apply (conserved_same _ (all_tasks s)); [|exact q_cons0]. intro y.
    pose proof (cnt_flat_map_set_nth sh_tasks y k (Sh q (TNext db)) sh0 _ Hk) as X.
    assert (Ht1 : sh_tasks (nth k (m_shards s) sh0) = map fst items ++ map fst q).
    { unfold sh_tasks. fold (m_sh s k). rewrite Hold, map_app. reflexivity. }
    rewrite Ht1 in X. change (sh_tasks (Sh q (TNext db))) with (map fst q) in X.
    prj. fold NEW. unfold NEW. rewrite map_app, map_task_mk_runs_sh, !cnt_app in *. lia.
  - intros r Hr. apply in_app_or in Hr. destruct Hr as [Hr|Hr]; [|apply q_run_link0; exact Hr].
    destruct (HNEW r Hr) as (_ & _ & X & _ & e & Hin). destruct (A _ e (Hit _ _ Hin)) as (_ & sb & P & Q & R & S & _).
    exists sb. repeat split; auto. congruence.
  - apply set_nth_forall_other.
    + constructor.
      * intros x e Hin. destruct (A x e) as (X & Y); [apply in_or_app; right; exact Hin|]. split; [lia|exact Y].
      * cbn. lia.
      * exact Cq.
      * intros r sb Hr Hsb Et Ek y e Hy. change (In (y, e) q) in Hy. apply in_app_or in Hr. destruct Hr as [Hr|Hr].
        -- destruct (HNEW r Hr) as (_ & _ & _ & _ & er & Hin). rewrite (Hse _ er sb (Hit _ _ Hin) Hsb Et).
           exact (Cx (r_task r, er) (y, e) Hin Hy).
        -- apply (D r sb Hr Hsb Et Ek y e). apply in_or_app. right; exact Hy.
      * split; [|exact I]. intros db0 E0. inversion E0; subst db0. destruct (E db eq_refl) as [X Y]. split; [lia|exact Y].
    + intros k0 Hne. apply (shard_inv_ext _ (m_subs s) _ (m_runs s) _ (m_drains s)); auto using incl_refl.
      * exact (Hother k0 Hne).
      * apply q_sh0.
  - apply (run_sorted_prepend NEW _ rb (N.of_nat k)); [exact q_run_sorted0| |exact Hact].
    intros n Hn. destruct (HNEW n Hn) as (X & _ & Y & _). split; assumption.
  - intros ra rb' sa sb Hra Hrb' Hs Hsa Hsb Ea Eb Hlt.
    apply in_app_or in Hra. apply in_app_or in Hrb'. destruct Hra as [Hra|Hra], Hrb' as [Hrb'|Hrb'].
    + destruct (HNEW ra Hra) as (A1 & _ & _ & _ & ea & Hia). destruct (HNEW rb' Hrb') as (A2 & _ & _ & _ & eb & Hib).
      unfold run_before. rewrite A1, A2, N.eqb_refl. cbn [andb]. apply orb_true_iff. right. apply N.ltb_lt.
      apply (mk_runs_sh_order items (N.of_nat k) rb (m_now s) Cit 0 ra rb' (s_e sa) (s_e sb)); auto.
      * rewrite (Hse _ ea sa (Hit _ _ Hia) Hsa Ea). exact Hia.
      * rewrite (Hse _ eb sb (Hit _ _ Hib) Hsb Eb). exact Hib.
      * intros x e e' H1 H2. destruct (A x e (Hit _ _ H1)) as (_ & s1 & P1 & P2 & _ & _ & P3).
        rewrite <- P3. apply (Hse x e' s1 (Hit _ _ H2) P1 P2).
    + exfalso. destruct (HNEW ra Hra) as (_ & _ & X1 & _ & ea & Hia).
      pose proof (D rb' sb Hrb' Hsb Eb ltac:(congruence) _ ea (Hit _ _ Hia)) as X.
      rewrite (Hse _ ea sa (Hit _ _ Hia) Hsa Ea) in Hlt. lia.
    + destruct (HNEW rb' Hrb') as (A2 & _ & X1 & _). unfold run_before. apply orb_true_iff. left. apply N.ltb_lt.
      rewrite A2. pose proof (Hact ra Hra ltac:(congruence)) as X. destruct (q_runs0 ra Hra) as (Y & _). lia.
    + apply (q_fifo0 ra rb' sa sb); assumption.
Qed.

(* finishShardDrain *)
Lemma inv_finish b s k db te tok' : MInvB b s -> b < m_now s -> (k < length (m_shards s))%nat ->
  sh_tok (m_sh s k) = TFinish db te -> (tok' = TSched \/ tok' = TNone) ->
  let s' := m_set_sh s k (Sh (sh_queue (m_sh s k)) tok') in
  MInv (MSt (m_now s') (m_closed s') (m_shclosed s') (m_shards s') (m_pcs s') (m_close s') (m_cb s') (m_subs s')
          (m_runs s') (Drn (N.of_nat k) db (m_now s) :: m_drains s') (m_clos s')).
Proof.
  intros HI Hb Hk Htok Ht'. set (new := Sh (sh_queue (m_sh s k)) tok'). intro s'.
  pose proof (shard_running _ _ _ HI ltac:(rewrite Htok; discriminate)) as Hclos.
  destruct (q_sh _ _ HI k) as [A B C D [E F]]. rewrite Htok in E, F. destruct (E db eq_refl) as [Hdb Hact].
  destruct F as (Hte & Hruns & Hq).
  assert (Hit : sh_items new = sh_items (m_sh s k)).
  { unfold sh_items, new. cbn [sh_tok sh_queue]. rewrite Htok. destruct Ht' as [-> | ->]; reflexivity. }
  assert (Htk : sh_tasks new = sh_tasks (nth k (m_shards s) sh0)) by (unfold sh_tasks; rewrite Hit; reflexivity).
  apply (inv_mono b (m_now s)) in HI; [|lia]. destruct HI as [ ].
  unfold MInv, s'. constructor; prj; try assumption; try (rewrite Hclos; intros c []).
  - rewrite set_nth_length; assumption.
  - intros d [<-|Hd]; [cbn; split; lia|apply q_drains0; exact Hd].
  - apply (conserved_same _ (all_tasks s)); [|exact q_cons0]. intro y.
    pose proof (cnt_flat_map_set_nth sh_tasks y k new sh0 _ Hk) as X. rewrite Htk in X. prj. rewrite !cnt_app. lia.
  - apply set_nth_forall_other.
    + constructor; rewrite ?Hit; try assumption.
      * intros x e Hin. destruct (A x e Hin) as [X Y]. split; [lia|exact Y].
      * unfold new. cbn [sh_tok]. destruct Ht' as [-> | ->]; cbn; lia.
      * unfold new. cbn [sh_tok sh_queue]. destruct Ht' as [-> | ->]; (split; [discriminate|]); [exact I|]. split.
        -- intros _. eexists. split; [left; reflexivity|reflexivity].
        -- intros x e Hin r Hr Hs. specialize (Hruns r Hr Hs). specialize (Hq x e Hin). lia.
    + intros k0 Hne. apply (shard_inv_ext _ (m_subs s) _ (m_runs s) _ (m_drains s)); auto using incl_refl, incl_tl.
      * intros d [<-|Hd] Hs; [|exact Hd]. cbn [d_shard] in Hs. apply Nat2N.inj in Hs. congruence.
      * apply q_sh0.
  - constructor; [exact q_dr_sorted0|]. apply Forall_forall. intros d Hd Hs. cbn [d_shard d_b] in *.
    apply Hact; assumption.
Qed.

Lemma inv_close_call b s : MInvB b s -> b < m_now s -> m_close s = CIdle ->
  MInv (m_set_close s (m_closed s) (m_shclosed s) (CStart (m_now s)) (m_now s) (m_clos s)).
Proof.
  intros HI Hb Hc. apply (inv_mono b (m_now s)) in HI; [|lia]. destruct HI as [ ].
  unfold close_flags in q_close0. rewrite Hc in q_close0. destruct q_close0 as (A & B & C).
  unfold MInv. constructor; unfold close_flags; prj; try assumption.
  - repeat split; assumption.
  - apply N.le_refl.
Qed.

Lemma inv_close_store b s cb : MInvB b s -> m_close s = CStart cb ->
  MInvB b (m_set_close s true (m_shclosed s) (CMid cb) (m_cb s) (m_clos s)).
Proof.
  intros [ ] Hc. unfold close_flags in q_close0. rewrite Hc in q_close0. destruct q_close0 as (A & B & C & D).
  constructor; unfold close_flags; prj; try assumption.
  - repeat split; assumption.
  - rewrite C. intros c [].
Qed.

Lemma inv_close_mid b s cb : MInvB b s -> m_close s = CMid cb ->
  MInvB b (m_set_close s (m_closed s) true (CWait cb) (m_cb s) (m_clos s)).
Proof.
  intros [ ] Hc. unfold close_flags in q_close0. rewrite Hc in q_close0. destruct q_close0 as (A & B & C & D).
  constructor; unfold close_flags; prj; try assumption. repeat split; assumption.
Qed.

Lemma inv_close_done b s cb : MInvB b s -> b < m_now s -> m_close s = CWait cb ->
  all_unscheduled (m_shards s) = true ->
  MInv (m_set_close s (m_closed s) (m_shclosed s) CDone (m_cb s) (Clo cb (m_now s) true :: m_clos s)).
Proof.
  intros HI Hb Hc Hall. pose proof (q_close _ _ HI) as F. unfold close_flags in F. rewrite Hc in F.
  destruct F as (A & B & C & D). pose proof (q_cb _ _ HI) as Hcb.
  destruct (inv_mono b (m_now s) s ltac:(lia) HI) as [ ].
  unfold MInv. constructor; unfold close_flags; prj; try assumption.
  - split; assumption.
  - rewrite C. intros c [<-|[]]. unfold returned. prj. cbn [l_b l_e]. repeat split; try assumption; try lia.
    intros r Hr. destruct (q_runs _ _ HI r Hr) as (_ & X & _). lia.
Qed.

(* [HB] bounds the ticked state by the old clock (for fresh stamps), [HM] by its own *)
Lemma inv_tok_step s k c : MInv s -> let s1 := m_tick s in MInv (m_tok_step cf s1 k c).
Proof.
  intros HI0 s1. pose proof (inv_tick s HI0) as HB.
  assert (Hb : m_now s < m_now s1) by (unfold s1; cbn; lia).
  assert (HM : MInv s1) by (apply (inv_mono (m_now s)); [lia|exact HB]).
  fold s1 in HB. unfold m_tok_step.
  destruct (Nat.ltb_spec k (length (m_shards s1))) as [Hk|Hk]; cbn [negb]; [|exact HM].
  destruct (h_tok _ _ _ _ _ _ (q_sh _ _ HB k)) as [Hdb Hst]. pose proof (h_len _ _ _ _ _ _ (q_sh _ _ HB k)) as Hil.
  (* first conjunct of [tok_inv] for a token that keeps its begin stamp *)
  assert (Hdb' : forall db, tok_db (sh_tok (m_sh s1 k)) = Some db -> forall db0, Some db = Some db0 ->
            db0 <= m_now s1 /\ forall d, In d (m_drains s1) -> d_shard d = N.of_nat k -> d_e d < db0).
  { intros db E db0 E0. inversion E0; subst db0. destruct (Hdb db E) as [X Y]. split; [lia|exact Y]. }
  assert (Hsame : forall sh', sh_items sh' = sh_items (m_sh s1 k) -> sh_tok (m_sh s1 k) <> TNone ->
            (length (tok_items (sh_tok sh')) <= mbmax)%nat ->
            tok_inv (m_now s1) (m_runs s1) (m_drains s1) k (sh_queue sh') (sh_tok sh') -> MInv (m_set_sh s1 k sh'))
    by (intros; apply inv_sh_same; assumption).
  destruct (sh_tok (m_sh s1 k)) as [| |db|db items|db rb items|db te] eqn:Htok; [exact HM| | | | |];
    try specialize (Hdb' db eq_refl); cbn [tok_items] in Hil.
  - (* drainScheduledShard starts *)
    apply Hsame; try discriminate; [unfold sh_items; rewrite Htok; reflexivity|cbn; lia|].
    split; [|exact I]. intros db E. inversion E; subst db. split; [apply N.le_refl|].
    intros d Hd _. destruct (q_drains _ _ HB d Hd) as (_ & X). lia.
  - (* nextItem *)
    destruct (sh_queue (m_sh s1 k)) as [|it r] eqn:Hq.
    + apply Hsame; try discriminate; [unfold sh_items; rewrite Htok, Hq; reflexivity|cbn; lia|].
      split; [exact Hdb'|]. repeat split; [apply N.le_refl| |intros x e []].
      intros r0 Hr0 _. destruct (q_runs _ _ HB r0 Hr0) as (X & Y & _). lia.
    + apply Hsame; try discriminate; [unfold sh_items; rewrite Htok, Hq; reflexivity| |split; [exact Hdb'|exact I]].
      pose proof mbmax_pos. cbn. lia.
  - (* collectBatch *)
    destruct c; try exact HM.
    + destruct (sh_queue (m_sh s1 k)) as [|it r] eqn:Hq; [exact HM|].
      destruct (Nat.ltb_spec (length items) mbmax) as [Hlt|Hge]; [|exact HM].
      apply Hsame; try discriminate; [|cbn [sh_tok tok_items]; rewrite app_length; cbn; lia|split; [exact Hdb'|exact I]].
      unfold sh_items. cbn [sh_tok sh_queue tok_items]. rewrite Htok, Hq. cbn [tok_items]. rewrite <- app_assoc. reflexivity.
    + apply Hsame; try discriminate; [unfold sh_items; rewrite Htok; reflexivity|exact Hil|].
      split; [exact Hdb'|]. split; [apply N.le_refl|].
      intros r Hr _. destruct (q_runs _ _ HB r Hr) as (_ & X & _). lia.
  - apply (inv_handler_end (m_now s)); auto.
  - apply (inv_finish (m_now s) _ _ db te); auto.
    destruct (negb match sh_queue (m_sh s1 k) with [] => true | _ :: _ => false end && negb (m_shclosed s1) && negb (m_closed s1)); auto.
Qed.

Lemma inv_step s e : MInv s -> MInv (m_step s e).
Proof.
  intro HI0. pose proof (inv_tick s HI0) as HB. unfold Model.WorkQueue_mailbox.m_step.
  destruct e as [t k|t|k c| |]; [| |apply inv_tok_step; exact HI0| |].
  all: set (s1 := m_tick s) in *; assert (Hb : m_now s < m_now s1) by (unfold s1; cbn; lia);
       assert (HM : MInv s1) by (apply (inv_mono (m_now s)); [lia|exact HB]).
  - destruct (m_pc s1 t) eqn:Hpc; try exact HM.
    destruct (Nat.ltb_spec k (length (m_shards s1))) as [Hk|Hk]; [|exact HM]. rewrite (q_len _ _ HM) in Hk.
    apply inv_pc_move; [exact HM| |exact Hk]. apply (producers_call _ _ _ (m_now s)); [apply HB|exact Hb|reflexivity].
  - unfold m_thread_step. pose proof (q_pc_shard _ _ HM t) as K.
    destruct (m_pc s1 t) as [|x st k|x st k] eqn:Hpc; [exact HM| |]; cbn [pc_shard_ok] in K.
    + destruct (m_closed s1) eqn:Hcl.
      * apply (inv_ret_rej (m_now s)); auto; [rewrite Hpc; reflexivity|discriminate].
      * apply inv_pc_move; [exact HM| |exact K]. apply producers_move; [apply HM|exact (eq_sym (f_equal pc_task Hpc))].
    + destruct (m_shclosed s1 || m_closed s1) eqn:Hcl.
      * apply (inv_ret_rej (m_now s)); auto; [rewrite Hpc; reflexivity|discriminate].
      * destruct (mcap cf <=? N.of_nat (length (sh_queue (m_sh s1 k)))).
        -- apply (inv_ret_rej (m_now s)); auto; [rewrite Hpc; reflexivity|discriminate].
        -- apply orb_false_iff in Hcl. destruct Hcl as (_ & Hcl).
           apply (inv_ret_ok (m_now s)); auto. rewrite Hpc; reflexivity.
  - destruct (m_close s1) eqn:Hc; try exact HM. apply (inv_close_call (m_now s)); auto.
  - destruct (m_close s1) as [|cb|cb|cb|] eqn:Hc; try exact HM.
    + apply inv_close_store; auto.
    + apply inv_close_mid; auto.
    + destruct (all_unscheduled (m_shards s1)) eqn:Hall; [|exact HM]. apply (inv_close_done (m_now s)); auto.
Qed.

Lemma inv_init : MInv (m_init cf).
Proof.
  constructor; unfold close_flags; prj; cbn [m_init m_shards m_pcs m_subs m_runs m_drains m_clos m_closed m_shclosed
                                              m_close m_cb m_now map app];
    rewrite ?(flat_map_repeat_nil sh_tasks sh0) by reflexivity; rewrite ?repeat_length; try reflexivity; try solve [intros ? []]; try (intros; discriminate).
  - apply producers_init. reflexivity.
  - intros [|t]; exact I.
  - split; [intro; cbn; lia|]. intro x. split; [intros []|intros (sb & [] & _)].
  - intro k. rewrite nth_repeat. constructor; cbn; try solve [intros ? ? []]; try lia.
    + constructor.
    + repeat split; try discriminate; try congruence. intros x e [].
  - constructor.
  - constructor.
  - intros ra rb sa sb [].
  - repeat split; reflexivity.
Qed.

Theorem inv_run evs : MInv (m_run evs).
Proof. apply (fold_left_inv MInv); [exact inv_step|exact inv_init]. Qed.

Hypothesis kind_mb : c_kind cf = KMailbox.

Section Consequences.
Variable s : mstate.
Hypothesis HI : MInv s.

Lemma m_at_most_once : NoDup (map r_task (m_runs s)).
Proof.
  apply NoDup_cnt. intro x. pose proof (proj1 (q_cons _ _ HI) x) as H.
  unfold all_tasks in H. rewrite cnt_app in H. lia.
Qed.

Lemma m_sub_unique sa sb : In sa (m_subs s) -> In sb (m_subs s) -> s_task sa = s_task sb -> sa = sb.
Proof. apply (producers_sub_unique _ _ _ _ _ _ _ _ (q_prod _ _ HI)). Qed.

Lemma m_rejected_never_runs sb :
  In sb (m_subs s) -> s_res sb <> ROk -> ~ In (s_task sb) (map r_task (m_runs s)).
Proof.
  intros Hin Hr Hran. apply in_map_iff in Hran. destruct Hran as (r & Et & Hr0).
  destruct (q_run_link _ _ HI r Hr0) as (sb' & Hin' & Et' & Er & _).
  assert (sb' = sb) by (apply m_sub_unique; auto; congruence). subst sb'. contradiction.
Qed.

Lemma m_drains_runs_disjoint :
  all_pairs drains_disjoint (m_drains s) = true /\ all_pairs runs_disjoint (m_runs s) = true.
Proof.
  split; apply all_pairs_intro; intros l1 a l2 b l3 E.
  - pose proof (sorted_split _ _ (q_dr_sorted _ _ HI) l1 a (l2 ++ b :: l3) E b) as H.
    assert (Hin : In b (l2 ++ b :: l3)) by (apply in_or_app; right; left; reflexivity). specialize (H Hin).
    unfold drains_disjoint. destruct (N.eqb_spec (d_shard a) (d_shard b)) as [Es|Ns].
    + specialize (H (eq_sym Es)). apply N.ltb_lt in H. rewrite H. rewrite (proj2 (N.eqb_eq _ _) (eq_sym Es)).
      cbn [negb orb]. rewrite !orb_true_r. split; reflexivity.
    + cbn [negb orb]. destruct (N.eqb_spec (d_shard b) (d_shard a)); [congruence|]. split; reflexivity.
  - pose proof (sorted_split _ _ (q_run_sorted _ _ HI) l1 a (l2 ++ b :: l3) E b) as H.
    assert (Hin : In b (l2 ++ b :: l3)) by (apply in_or_app; right; left; reflexivity). specialize (H Hin).
    unfold runs_disjoint. destruct (N.eqb_spec (r_shard a) (r_shard b)) as [Es|Ns].
    + specialize (H (eq_sym Es)). rewrite (proj2 (N.eqb_eq _ _) (eq_sym Es)). cbn [negb orb].
      destruct H as [H|H].
      * rewrite H, N.eqb_refl. cbn [orb]. split; reflexivity.
      * apply N.ltb_lt in H. rewrite H, !orb_true_r. split; reflexivity.
    + cbn [negb orb]. destruct (N.eqb_spec (r_shard b) (r_shard a)); [congruence|]. split; reflexivity.
Qed.

Lemma m_fifo_spec a b ra rb : In a (m_subs s) -> In b (m_subs s) -> s_shard a = s_shard b -> s_e a < s_b b ->
  In ra (m_runs s) -> In rb (m_runs s) -> r_task ra = s_task a -> r_task rb = s_task b -> run_before ra rb = true.
Proof.
  intros Ha Hb Hs Hlt Hra Hrb Ea Eb.
  destruct (q_run_link _ _ HI ra Hra) as (sa' & A1 & A2 & _ & A3).
  destruct (q_run_link _ _ HI rb Hrb) as (sb' & B1 & B2 & _ & B3).
  assert (sa' = a) by (apply m_sub_unique; auto; congruence).
  assert (sb' = b) by (apply m_sub_unique; auto; congruence). subst sa' sb'.
  apply (q_fifo _ _ HI ra rb a b); auto; try congruence.
  destruct (p_subs _ _ _ _ _ _ (q_prod _ _ HI) b Hb) as (_ & X & _). lia.
Qed.

Lemma m_fifo_pair a b : In a (m_subs s) -> In b (m_subs s) -> fifo_pair (m_hist s) a b = true.
Proof.
  intros Ha Hb. unfold fifo_pair.
  destruct (is_ok (s_res a) && is_ok (s_res b) && (s_shard a =? s_shard b) && (s_e a <? s_b b)) eqn:Hc; [|reflexivity].
  apply andb_true_iff in Hc. destruct Hc as [Hc Hlt]. apply andb_true_iff in Hc. destruct Hc as [_ Hs].
  unfold run_of. destruct (find (fun r => r_task r =? s_task a) (h_runs (m_hist s))) as [ra|] eqn:Fa; [|reflexivity].
  destruct (find (fun r => r_task r =? s_task b) (h_runs (m_hist s))) as [rb|] eqn:Fb; [|reflexivity].
  apply find_some in Fa. apply find_some in Fb. destruct Fa as (Hra & Ea). destruct Fb as (Hrb & Eb).
  apply (m_fifo_spec a b ra rb Ha Hb); [apply N.eqb_eq, Hs|apply N.ltb_lt, Hlt|exact Hra|exact Hrb| |]; apply N.eqb_eq; assumption.
Qed.

Lemma m_fifo : all_pairs (fifo_pair (m_hist s)) (m_subs s) = true.
Proof.
  apply all_pairs_intro. intros l1 a l2 b l3 E.
  assert (Ha : In a (m_subs s)) by (rewrite E; apply in_or_app; right; left; reflexivity).
  assert (Hb : In b (m_subs s)) by (rewrite E; apply in_or_app; right; right; apply in_or_app; right; left; reflexivity).
  split; apply m_fifo_pair; assumption.
Qed.

Lemma m_close_waits_or_stranded c sb :
  In c (m_clos s) -> In sb (m_subs s) -> s_res sb = ROk ->
  (exists r, In r (m_runs s) /\ r_task r = s_task sb /\ r_e r < l_e c)
  \/ (~ In (s_task sb) (map r_task (m_runs s))
      /\ (exists d, In d (m_drains s) /\ d_shard d = s_shard sb)
      /\ (forall r, In r (m_runs s) -> r_shard r = s_shard sb -> r_b r < s_e sb)).
Proof.
  intros Hc Hin Hr.
  destruct (q_ret _ _ HI c Hc) as (_ & Hall & _ & Hruns).
  assert (Hpl : In (s_task sb) (all_tasks s)) by (apply (q_cons _ _ HI); exists sb; auto).
  pose proof (proj1 (q_cons _ _ HI) (s_task sb)) as Honce. unfold all_tasks in Hpl, Honce. rewrite cnt_app in Honce.
  apply in_app_or in Hpl. destruct Hpl as [Hsh|Hran].
  - right. split; [intro Ht; apply cnt_In in Ht; apply cnt_In in Hsh; lia|].
    apply in_flat_map_nth in Hsh. destruct Hsh as (k & Hk & Hin').
    unfold sh_tasks in Hin'. apply in_map_iff in Hin'. destruct Hin' as ([x e] & Ex & Hit). cbn [fst] in Ex. subst x.
    destruct (q_sh _ _ HI k) as [A _ _ _ [_ T]]. unfold m_sh in *.
    destruct (A _ e Hit) as (_ & sb' & P & Q & _ & D & F).
    assert (sb' = sb) by (apply m_sub_unique; auto). subst sb'.
    pose proof (all_unscheduled_nth _ k Hall) as Htok. unfold sh_items in Hit. rewrite Htok in Hit, T.
    cbn [tok_items app] in Hit. destruct T as [T1 T2]. split.
    + destruct T1 as (d & Hd & Ed); [intro E0; rewrite E0 in Hit; destruct Hit|]. exists d. split; [exact Hd|congruence].
    + intros r Hr0 Hs. rewrite F. apply (T2 _ e Hit r Hr0). congruence.
  - left. apply in_map_iff in Hran. destruct Hran as (r & Er & Hr'). exists r. repeat split; auto.
Qed.

Theorem m_monitor : allowed 3 (C37_monitor (m_hist s)).
Proof.
  apply monitor_allowed; [discriminate| | | | |].
  - apply ok_once_intro. unfold terminal_ids, m_hist. cbn [h_runs h_cans map]. rewrite app_nil_r. apply m_at_most_once.
  - apply ok_rejected_intro. intros sb Hin Hr. unfold terminal_ids, m_hist. cbn [h_runs h_cans map]. rewrite app_nil_r.
    apply m_rejected_never_runs; [exact Hin|]. intro E. rewrite E in Hr. discriminate.
  - reflexivity.
  - unfold ok_mailbox.
    replace (c_kind (h_cfg (m_hist s))) with KMailbox by (symmetry; exact kind_mb). cbn [kind_eqb].
    destruct m_drains_runs_disjoint as (A & B).
    apply andb_true_iff; split; [apply andb_true_iff; split|]; [exact A|exact B|exact m_fifo].
  - intros c Hc _ sb Hin Hr.
    assert (Er : s_res sb = ROk) by (destruct (s_res sb); try discriminate; reflexivity).
    destruct (m_close_waits_or_stranded c sb Hc Hin Er) as [(r & A & B & C)|(Hnt & (d & Hd & Ed) & Hlate)].
    + left. apply task_code_zero. eapply terminal_before_run; eauto.
    + right. unfold task_code.
      assert (Hnt' : ~ In (s_task sb) (terminal_ids (m_hist s))).
      { unfold terminal_ids, m_hist. cbn [h_runs h_cans map]. rewrite app_nil_r. exact Hnt. }
      rewrite (terminal_before_false _ _ _ Hnt'), (has_terminal_false _ _ Hnt').
      replace (c_kind (h_cfg (m_hist s))) with KMailbox by (symmetry; exact kind_mb).
      replace (existsb (fun d0 => d_shard d0 =? s_shard sb) (h_drains (m_hist s))) with true.
      * replace (no_later_run_on_shard (m_hist s) sb) with true; [reflexivity|].
        symmetry. unfold no_later_run_on_shard. apply forallb_forall. intros r Hr0.
        destruct (N.eqb_spec (r_shard r) (s_shard sb)) as [Es|Ns]; [|reflexivity]. cbn [negb orb].
        apply N.ltb_lt. apply Hlate; assumption.
      * symmetry. apply existsb_exists. exists d. split; [exact Hd|apply N.eqb_eq; exact Ed].
Qed.

Theorem m_accepts : C37_mismatch (m_hist s) = false.
Proof.
  apply accepts_intro; cbn [m_hist h_subs h_runs h_clos h_drains h_cfg].
  - apply (p_nd _ _ _ _ _ _ (q_prod _ _ HI)).
  - intros sb Hin. destruct (p_subs _ _ _ _ _ _ (q_prod _ _ HI) sb Hin) as (_ & A & _ & E).
    split; [exact A|]. unfold Model.WorkQueue_mailbox.nshards in E. lia.
  - intros r Hin. destruct (q_runs _ _ HI r Hin) as (A & _ & B). split; assumption.
  - intros c Hc. apply (q_ret _ _ HI c Hc).
  - intros d Hd. apply (q_drains _ _ HI d Hd).
Qed.

End Consequences.

End MailboxProof.
