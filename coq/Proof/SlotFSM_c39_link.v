(* Proof/SlotFSM_c39_link.v — the monitor of C39 on the traces of the two-slot model.

   [gen] turns a script without observations into the case the harness would print if the
   implementation behaved like the model (digests: an encoding of the user rows; equal tables get equal
   digests and every comparison the monitor makes is passed by equality, so nothing rests on the
   encoding being injective).
   The monitor is then evaluated on every in-order delivery schedule of bounded length of a
   script with two writes of one register, a fence in the same batch, a write behind the fence,
   a refused write on the target before the switch and on the source after it
   (bounded check by vm_compute; the unbounded statements are the theorems of Properties/C39.v). *)
From WK Require Import Base.Base Base.Lists.
From WK Require Import Gen.Consts_C15 Gen.Consts_C17 Gen.Consts_C13.
From WK Require Import Model.RuntimeMeta Model.ChanMigration Model.SlotFSM Model.SlotFSM_tlv Model.SlotFSM_C13 Model.SlotFSM_C39.
Open Scope N_scope.

(* a digest of the user table: Cantor pairing over a positional encoding of the byte strings *)
Definition cpair (a b : N) : N := (a + b) * (a + b + 1) / 2 + b.
Definition enc_bytes (b : bytes) : N := fold_left (fun acc x => acc * 257 + x + 1) b 0.
Definition enc_z (z : Z) : N := match z with Z0 => 0 | Zpos p => 2 * Npos p | Zneg p => 2 * Npos p + 1 end.
Definition enc_row (u : urow) : N :=
  cpair (ur_hs u) (cpair (enc_bytes (ur_uid u)) (cpair (enc_bytes (ur_token u)) (cpair (enc_z (ur_flag u)) (enc_z (ur_level u))))).
Definition enc_rows (l : list urow) : N := fold_left (fun acc u => cpair acc (enc_row u) + 1) l 0.
Definition dg_all (s : store) : N := enc_rows (st_users s).
Definition dg_mig (s : store) : N := enc_rows (filter (fun u => ur_hs u =? HS_MIG) (st_users s)).

Inductive istep :=
| ISrc (cmds : list entry) | ITgt (cmds : list entry) | IStartDelta | ISnapshot
| IDeliver (idxs : list N) | ISwitch.

Definition obs_of (s : store) (r : @bres fres) : bobs :=
  BObs (match r with BErr e => BFatal e | BRes rs => BOk (map (fun x => (fst x, 0)) rs) end) (dg_all s) (st_applied_index s).

(* the observed step and the next system *)
Definition gen_step (y : sys) (delivered : list N) (st : istep) : step * sys * list N :=
  match st with
  | ISrc cmds =>
      let log := to_fcmds (y_src_idx y + 1) cmds in
      let '(s', r) := fsm_apply_batch (y_src_cfg y) (y_src y) log in
      let f := forwards_of r in
      (SSrc cmds (obs_of s' r) (map fw_index f),
       Sys s' (y_src_cfg y) (y_src_idx y + N.of_nat (length cmds)) (y_tgt y) (y_tgt_cfg y) (y_tgt_idx y)
           (y_fwd y ++ f) (y_log y ++ map (fun c => (fc_index c, fc_cmd c)) log), delivered)
  | ITgt cmds =>
      let log := to_fcmds (y_tgt_idx y + 1) cmds in
      let '(t', r) := fsm_apply_batch (y_tgt_cfg y) (y_tgt y) log in
      (STgt cmds (obs_of t' r),
       Sys (y_src y) (y_src_cfg y) (y_src_idx y) t' (y_tgt_cfg y) (y_tgt_idx y + N.of_nat (length cmds)) (y_fwd y) (y_log y),
       delivered)
  | IStartDelta => (SStartDelta, match sys_step y SStartDelta with Some y' => y' | None => y end, delivered)
  | ISnapshot => (SSnapshot true, match sys_step y (SSnapshot true) with Some y' => y' | None => y end, delivered)
  | IDeliver idxs =>
      let log := delta_cmds y (y_tgt_idx y + 1) idxs in
      let '(t', r) := fsm_apply_batch (y_tgt_cfg y) (y_tgt y) log in
      (SDeliver idxs [] (obs_of t' r) (dg_mig (y_tgt y)) (dg_mig t') (applied_indexes t'),
       Sys (y_src y) (y_src_cfg y) (y_src_idx y) t' (y_tgt_cfg y) (y_tgt_idx y + N.of_nat (length idxs)) (y_fwd y) (y_log y),
       match r with BRes _ => delivered ++ idxs | BErr _ => delivered end)
  | ISwitch =>
      let complete := forallb (fun f => memN (fw_index f) delivered) (y_fwd y) in
      (SSwitch complete (dg_mig (y_src y)) (dg_mig (y_tgt y)),
       match sys_step y (SSwitch complete 0 0) with Some y' => y' | None => y end, delivered)
  end.

Fixpoint gen (y : sys) (delivered : list N) (l : list istep) : list step :=
  match l with
  | [] => []
  | st :: r => let '(o, y', d') := gen_step y delivered st in o :: gen y' d' r
  end.

Definition w (tok : bytes) : entry := Entry true 12 (HUser false (hx "7531") tok 0%Z 0%Z) (hx "0101") None None.
Definition script (schedule : list (list N)) : list istep :=
  [ISrc [w (hx "30")]; IStartDelta; ISrc [w (hx "61")]; ISnapshot; ITgt [w (hx "7a")];
   ISrc [w (hx "62"); Entry true 12 (HFence 12 0) (hx "0115") None None; w (hx "63")]]
  ++ map IDeliver schedule
  ++ [ISwitch; ISrc [w (hx "64")]; ITgt [w (hx "65")]].

Definition in_order (flat : list N) : bool :=
  (* first occurrences in increasing order *)
  let fix go (seen : list N) (mx : N) (l : list N) : bool :=
      match l with
      | [] => true
      | x :: r => if memN x seen then go seen mx r else (mx <? x) && go (x :: seen) x r
      end in go [] 0 flat.

Fixpoint all_lists (n : nat) (alphabet : list N) : list (list N) :=
  match n with
  | O => [[]]
  | S k => [] :: concat (map (fun l => map (fun a => a :: l) alphabet) (all_lists k alphabet))
  end.

(* the forwarded source indexes of the script are 2 (write a), 3 (write b), 4 (the fence).
   schedules: every list of at most 5 deliveries over the three forwarded indexes whose first
   occurrences are in source order, delivered as batches of one, or as one batch *)
Definition schedules : list (list (list N)) :=
  let flats := filter in_order (all_lists 5 [2; 3; 4]) in
  map (fun f => map (fun x => [x]) f) flats ++ map (fun f => match f with [] => [] | _ => [f] end) flats.

Definition monitor_ok (schedule : list (list N)) : bool :=
  C39_monitor (C39Case true (gen sys0 [] (script schedule)) None None) =? 0.

(* The monitor forces the digest of the same handful of user tables at almost every step of every
   schedule, and a checker without the VM redoes their several-hundred-bit arithmetic each time.
   So the sweep is run on [gen_re]: [gen] with the digest fields of each step recomputed from the
   stores by digest functions that look the table up first. *)
Definition redigest (dga dgm : store -> N) (y y' : sys) (st : step) : step :=
  let re (s : store) (o : bobs) := BObs (bo_out o) (dga s) (bo_applied o) in
  match st with
  | SSrc cmds o fw => SSrc cmds (re (y_src y') o) fw
  | STgt cmds o => STgt cmds (re (y_tgt y') o)
  | SDeliver idxs extra o _ _ ap => SDeliver idxs extra (re (y_tgt y') o) (dgm (y_tgt y)) (dgm (y_tgt y')) ap
  | SSwitch c _ _ => SSwitch c (dgm (y_src y)) (dgm (y_tgt y))
  | _ => st
  end.

Fixpoint gen_re (dga dgm : store -> N) (y : sys) (delivered : list N) (l : list istep) : list step :=
  match l with
  | [] => []
  | st :: r => let '(o, y', d') := gen_step y delivered st in redigest dga dgm y y' o :: gen_re dga dgm y' d' r
  end.

Lemma gen_re_gen dga dgm :
  (forall s, dga s = dg_all s) -> (forall s, dgm s = dg_mig s) ->
  forall l y d, gen_re dga dgm y d l = gen y d l.
Proof.
  intros Ha Hm. induction l as [|st l IH]; intros y d; cbn [gen gen_re]; [reflexivity|].
  assert (R : let '(o, y', _) := gen_step y d st in redigest dga dgm y y' o = o).
  { destruct st; cbn [gen_step]; try reflexivity.
    1-3: destruct (fsm_apply_batch _ _ _) as [s' r]; cbn; rewrite ?Ha, ?Hm; reflexivity.
    cbn. rewrite !Hm. reflexivity. }
  destruct (gen_step y d st) as [[o y'] d']. rewrite R, IH. reflexivity.
Qed.

(* the user tables the script reaches, with their digests; a table not listed here is digested
   the slow way, so nothing rests on the list being complete *)
Definition w_row (tok : bytes) : urow := URow 12 (hx "7531") tok 0%Z 0%Z.
Definition dg_table : list (list urow * N) :=
  Eval vm_compute in map (fun l => (l, enc_rows l)) [[]; [w_row (hx "30")]; [w_row (hx "61")]; [w_row (hx "62")]; [w_row (hx "63")]].

Definition enc_rows_memo (l : list urow) : N :=
  match find (fun e => list_eqb urow_eqb (fst e) l) dg_table with Some e => snd e | None => enc_rows l end.

Lemma urow_eqb_eq a b : urow_eqb a b = true <-> a = b.
Proof.
  destruct a, b. unfold urow_eqb, urow_same. cbn.
  rewrite !andb_true_iff, N.eqb_eq, !bytes_eqb_eq, !Z.eqb_eq. split.
  - intros ((((-> & ->) & ->) & ->) & ->). reflexivity.
  - intro H. inversion H. auto.
Qed.

Lemma enc_rows_memo_ok l : enc_rows_memo l = enc_rows l.
Proof.
  assert (T : forallb (fun e => snd e =? enc_rows (fst e)) dg_table = true) by (vm_compute; reflexivity).
  unfold enc_rows_memo. destruct (find _ dg_table) as [e|] eqn:F; [|reflexivity].
  apply find_some in F. destruct F as (Hin & Heq). apply (list_eqb_spec _ urow_eqb_eq) in Heq. subst l.
  rewrite forallb_forall in T. apply N.eqb_eq. exact (T e Hin).
Qed.

Definition monitor_ok_re (schedule : list (list N)) : bool :=
  C39_monitor (C39Case true (gen_re (fun s => enc_rows_memo (st_users s))
                                    (fun s => enc_rows_memo (filter (fun u => ur_hs u =? HS_MIG) (st_users s)))
                                    sys0 [] (script schedule)) None None) =? 0.

Lemma monitor_accepts_model_bounded : forallb monitor_ok schedules = true.
Proof.
  assert (H : forallb monitor_ok_re schedules = true) by (vm_compute; reflexivity).
  rewrite forallb_forall in *. intros sch Hin. rewrite <- (H sch Hin).
  unfold monitor_ok, monitor_ok_re. rewrite gen_re_gen; [reflexivity|intro s; apply enc_rows_memo_ok..].
Qed.

(* the family has more than 200 schedules *)
Lemma bounded_family_size : (200 <? N.of_nat (length schedules)) = true.
Proof. vm_compute. reflexivity. Qed.

(* ... and the monitor does reject an out-of-order complete schedule of the same script *)
Lemma monitor_rejects_reordered : monitor_ok [[3]; [2]; [4]] = false.
Proof. vm_compute. reflexivity. Qed.
