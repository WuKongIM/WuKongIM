(* Proof/WkEnc_blocks.v — PKCS7, block splitting and xor: the concrete,
   key-independent half of the CBC round trip of Model/WkEnc.v. *)
From WK Require Import Base.Base Base.Bytes Base.Lists Gen.Consts_C25 Model.WkEnc Proof.WkEnc_b64.
From Coq Require Import ZifyBool ZifyN ZifyNat.
#[local] Ltac Zify.zify_post_hook ::= Z.div_mod_to_equations.
Open Scope N_scope.

Definition is_block (b : bytes) : Prop := length b = 16%nat /\ all_bytes b = true.

(* AesBlockSize is regenerated from aes.BlockSize; these proofs are for the value 16 and stop
   compiling here if it changes *)
Lemma block_len_16 : block_len = 16%nat.
Proof. reflexivity. Qed.

Lemma lxor_byte a b : a < 256 -> b < 256 -> N.lxor a b < 256.
Proof.
  intros Ha Hb. destruct (N.eq_dec (N.lxor a b) 0) as [->|E]; [reflexivity|].
  assert (L : forall x, x < 256 -> N.log2 x < 8)
    by (intros x Hx; destruct (N.eq_dec x 0) as [->|Nx]; [reflexivity|apply N.log2_lt_pow2; [lia|exact Hx]]).
  apply (N.log2_lt_pow2 _ 8); [lia|]. pose proof (N.log2_lxor a b). pose proof (L a Ha). pose proof (L b Hb). lia.
Qed.

Lemma all_bytes_firstn n d : all_bytes d = true -> all_bytes (firstn n d) = true.
Proof. intro H. rewrite <- (firstn_skipn n d), all_bytes_app in H. apply andb_prop in H. apply H. Qed.

Lemma all_bytes_skipn n d : all_bytes d = true -> all_bytes (skipn n d) = true.
Proof. intro H. rewrite <- (firstn_skipn n d), all_bytes_app in H. apply andb_prop in H. apply H. Qed.

Lemma all_bytes_repeat x n : x < 256 -> all_bytes (repeat x n) = true.
Proof. intro H. induction n as [|n IH]; [reflexivity|]. cbn [repeat]. apply all_bytes_cons. split; assumption. Qed.

Lemma xorBlock_length a : forall b, length a = length b -> length (xorBlock a b) = length a.
Proof.
  induction a as [|x a IH]; intros [|y b] H; try reflexivity; try discriminate.
  cbn [xorBlock length]. f_equal. apply IH. injection H as H. exact H.
Qed.

Lemma xorBlock_involutive a : forall b, length a = length b -> xorBlock (xorBlock a b) b = a.
Proof.
  induction a as [|x a IH]; intros [|y b] H; try reflexivity; try discriminate.
  cbn [xorBlock]. f_equal.
  - rewrite N.lxor_assoc, N.lxor_nilpotent, N.lxor_0_r. reflexivity.
  - apply IH. injection H as H. exact H.
Qed.

Lemma xorBlock_bytes a : forall b, all_bytes a = true -> all_bytes b = true -> all_bytes (xorBlock a b) = true.
Proof.
  induction a as [|x a IH]; intros [|y b] Ha Hb; try reflexivity.
  apply all_bytes_cons in Ha. apply all_bytes_cons in Hb. destruct Ha as [Hx Ha], Hb as [Hy Hb].
  cbn [xorBlock]. apply all_bytes_cons. split; [apply lxor_byte; assumption|apply IH; assumption].
Qed.

Lemma xorBlock_block a b : is_block a -> is_block b -> is_block (xorBlock a b).
Proof.
  intros [La Ba] [Lb Bb]. split.
  - rewrite xorBlock_length; [exact La|congruence].
  - apply xorBlock_bytes; assumption.
Qed.

Lemma chunks_fuel_concat bs : Forall is_block bs -> forall fuel, (length bs <= fuel)%nat ->
  chunks_fuel fuel (concat bs) = bs.
Proof.
  induction 1 as [|b bs [Hb _] _ IH]; intros [|fuel] Hf; try reflexivity; [cbn [length] in Hf; lia|].
  cbn [concat]. destruct b as [|x b]; [discriminate|]. cbn [app chunks_fuel].
  change (x :: b ++ concat bs) with ((x :: b) ++ concat bs).
  rewrite block_len_16, <- Hb, firstn_app, skipn_app, Nat.sub_diag, firstn_all, skipn_all, app_nil_r.
  f_equal. apply IH. cbn [length] in Hf. lia.
Qed.

Lemma concat_blocks_length bs : Forall is_block bs -> length (concat bs) = (16 * length bs)%nat.
Proof.
  induction 1 as [|b bs [Hb _] _ IH]; [reflexivity|]. cbn [concat length]. rewrite app_length, IH, Hb. lia.
Qed.

Lemma chunks_concat bs : Forall is_block bs -> chunks (concat bs) = bs.
Proof.
  intro H. apply chunks_fuel_concat; [exact H|]. rewrite concat_blocks_length by exact H. lia.
Qed.

(* a byte buffer whose length is a multiple of 16 is a concatenation of blocks *)
Lemma split_blocks m : forall d, length d = (16 * m)%nat -> all_bytes d = true ->
  exists bs, d = concat bs /\ Forall is_block bs /\ length bs = m.
Proof.
  induction m as [|m IH]; intros d H B.
  - exists []. destruct d; [|discriminate]. repeat split. constructor.
  - destruct (IH (skipn 16 d)) as (bs & E & F & L); [rewrite skipn_length; lia|apply all_bytes_skipn, B|].
    exists (firstn 16 d :: bs). cbn [concat length]. rewrite <- E, firstn_skipn, L. repeat split.
    constructor; [|exact F]. split; [rewrite firstn_length; lia|apply all_bytes_firstn, B].
Qed.

Lemma blocks_bytes bs : Forall is_block bs -> all_bytes (concat bs) = true.
Proof.
  induction 1 as [|b bs [_ Hb] _ IH]; [reflexivity|]. cbn [concat]. rewrite all_bytes_app, Hb. exact IH.
Qed.

Lemma pkcs7PaddingSize_spec n :
  let k := pkcs7PaddingSize n AesBlockSize in 1 <= k <= 16 /\ (n + k) mod 16 = 0.
Proof.
  unfold pkcs7PaddingSize. change AesBlockSize with 16.
  destruct (16 - n mod 16 =? 0) eqn:E; lia.
Qed.

Lemma pkcs7_pad_length p : exists m, (length (pkcs7_pad p) = 16 * m)%nat /\ (1 <= m)%nat.
Proof.
  unfold pkcs7_pad. pose proof (pkcs7PaddingSize_spec (N.of_nat (length p))) as S. cbv zeta in S.
  set (k := pkcs7PaddingSize (N.of_nat (length p)) AesBlockSize) in *.
  rewrite app_length, repeat_length.
  exists (N.to_nat ((N.of_nat (length p) + k) / 16)). lia.
Qed.

Lemma pkcs7_pad_bytes p : all_bytes p = true -> all_bytes (pkcs7_pad p) = true.
Proof.
  intro H. unfold pkcs7_pad. pose proof (pkcs7PaddingSize_spec (N.of_nat (length p))) as S. cbv zeta in S.
  rewrite all_bytes_app, H. apply all_bytes_repeat. lia.
Qed.

Lemma last_app_repeat {A} (p : list A) x n d : (1 <= n)%nat -> last (p ++ repeat x n) d = x.
Proof.
  intro Hn. destruct n as [|n]; [lia|]. cbn [repeat]. rewrite repeat_cons, app_assoc. apply last_last.
Qed.

Lemma forallb_repeat {A} (f : A -> bool) x n : f x = true -> forallb f (repeat x n) = true.
Proof. intro H. induction n as [|n IH]; [reflexivity|]. cbn [repeat forallb]. rewrite H, IH. reflexivity. Qed.

Theorem pkcs7_unpad_pad p : pkcs7UnpadView (pkcs7_pad p) AesBlockSize = Some p.
Proof.
  unfold pkcs7UnpadView, pkcs7_pad.
  pose proof (pkcs7PaddingSize_spec (N.of_nat (length p))) as S. cbv zeta in S.
  set (k := pkcs7PaddingSize (N.of_nat (length p)) AesBlockSize) in *.
  destruct S as [Sk Sm].
  rewrite last_app_repeat by lia.
  rewrite app_length, repeat_length. change AesBlockSize with 16.
  replace (N.of_nat (length p + N.to_nat k)) with (N.of_nat (length p) + k) by lia.
  replace (length p + N.to_nat k - N.to_nat k)%nat with (length p) by lia.
  rewrite Sm.
  destruct (N.of_nat (length p) + k =? 0) eqn:E1; [lia|].
  cbn [orb negb N.eqb].
  destruct (k =? 0) eqn:E2; [lia|]. destruct (16 <? k) eqn:E3; [lia|].
  destruct (N.of_nat (length p) + k <? k) eqn:E4; [lia|]. cbn [orb].
  rewrite skipn_app_exact, firstn_app_exact, forallb_repeat by apply N.eqb_refl. reflexivity.
Qed.
