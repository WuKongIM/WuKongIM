(* Proof/Delivery_hist.v — histories of queue calls: the array / free-list queue
   answers every history exactly like the vector of per-shard FIFO lists, per
   shard the plans come out in the order they went in, and the queue monitor
   accepts every history answered by the queue model. *)
From WK Require Import Base.Base Gen.Consts_C31 Model.Delivery Model.Delivery_C31 Model.Delivery_sys
     Proof.Delivery_queue.
Open Scope nat_scope.

Lemma pq_step_refines q fl sl cl q' x :
  QInv q fl sl -> pq_step q cl = (q', x) ->
  exists fl' sl', QInv q' fl' sl' /\ aq_step (pq_cap q) (abs q sl) cl = (abs q' sl', x)
    /\ pq_cap q' = pq_cap q /\ length sl' = length sl.
Proof.
  intros I. destruct cl as [closed p|s]; cbn [pq_step aq_step].
  - destruct (pq_enqueue q closed p) as [q1 r] eqn:E. intros [= <- <-].
    destruct (enqueue_refines _ _ _ _ _ _ _ I E) as (fl' & sl' & I' & -> & C).
    exists fl', sl'. auto.
  - destruct (pq_pop q s) as [q1 g] eqn:E. intros [= <- <-].
    destruct (pop_refines _ _ _ _ _ _ I E) as (fl' & sl' & I' & -> & C).
    exists fl', sl'. auto.
Qed.

Lemma pq_run_refines : forall cs q fl sl,
  QInv q fl sl ->
  let '(q', rets) := pq_run q cs in
  let '(a', arets) := aq_run (pq_cap q) (abs q sl) cs in
  rets = arets
  /\ exists fl' sl', QInv q' fl' sl' /\ abs q' sl' = a' /\ pq_cap q' = pq_cap q /\ length sl' = length sl.
Proof.
  induction cs as [|cl cs IH]; intros q fl sl I; cbn [pq_run aq_run].
  - split; [reflexivity|]. exists fl, sl. auto.
  - destruct (pq_step q cl) as [q1 x] eqn:E.
    destruct (pq_step_refines _ _ _ _ _ _ I E) as (fl1 & sl1 & I1 & -> & C1 & L1).
    specialize (IH q1 fl1 sl1 I1). rewrite C1 in IH.
    destruct (pq_run q1 cs) as [q2 rets]. destruct (aq_run (pq_cap q) (abs q1 sl1) cs) as [a2 arets].
    destruct IH as (-> & fl2 & sl2 & I2 & A2 & C2 & L2).
    split; [reflexivity|]. exists fl2, sl2.
    split; [exact I2|]. split; [exact A2|]. split; congruence.
Qed.

Theorem queue_refines_fifo cap shards cs :
  0 < cap -> 0 < shards ->
  let '(q, rets) := pq_run (newq_nat cap shards) cs in
  let '(a, arets) := aq_run cap (repeat [] shards) cs in
  rets = arets
  /\ exists fl sl, QInv q fl sl /\ abs q sl = a /\ aq_total a <= cap /\ pq_cap q = cap.
Proof.
  intros Hc Hs.
  pose proof (pq_run_refines cs _ _ _ (newq_inv cap shards Hc Hs)) as H.
  rewrite newq_abs in H. cbn [newq_nat pq_cap] in H.
  destruct (pq_run (newq_nat cap shards) cs) as [q rets].
  destruct (aq_run cap (repeat [] shards) cs) as [a arets].
  destruct H as (R & fl & sl & I & A & C & L).
  split; [exact R|]. exists fl, sl. split; [exact I|]. split; [exact A|].
  split; [|exact C]. rewrite <- A, <- C, abs_total, <- (qi_count _ _ _ I), app_length. lia.
Qed.

Lemma aq_step_length cap a cl a' x : aq_step cap a cl = (a', x) -> length a' = length a.
Proof.
  destruct cl as [closed p|s]; cbn [aq_step].
  - destruct (aq_enqueue cap a closed p) as [a0 r] eqn:E. intros [= <- _]. apply aq_enqueue_spec in E.
    destruct r; [destruct E as (_ & _ & ->); apply upd_length| destruct E as (_ & ->)| destruct E as (_ & _ & ->)];
      reflexivity.
  - destruct (aq_pop a s) as [a0 g] eqn:E. intros [= <- _]. apply aq_pop_spec in E.
    destruct g; [destruct E as (r & _ & ->); apply upd_length| destruct E as (_ & ->); reflexivity].
Qed.

Lemma aq_run_length cap : forall cs a a' rets,
  aq_run cap a cs = (a', rets) -> length a' = length a.
Proof.
  induction cs as [|cl cs IH]; intros a a' rets E; cbn [aq_run] in E.
  - inversion E; reflexivity.
  - destruct (aq_step cap a cl) as [a1 x] eqn:E1.
    destruct (aq_run cap a1 cs) as [a2 xs] eqn:E2. inversion E; subst.
    rewrite (IH _ _ _ E2). exact (aq_step_length _ _ _ _ _ E1).
Qed.

Lemma aq_fifo cap : forall cs a a' rets s,
  aq_run cap a cs = (a', rets) -> s < length a ->
  nth s a [] ++ enq_of (length a) s cs rets = pop_of s cs rets ++ nth s a' [].
Proof.
  induction cs as [|cl cs IH]; intros a a' rets s E Hs; cbn [aq_run] in E.
  - inversion E; subst. simpl. rewrite app_nil_r. reflexivity.
  - destruct (aq_step cap a cl) as [a1 x] eqn:E1.
    destruct (aq_run cap a1 cs) as [a2 xs] eqn:E2. inversion E; subst a' rets. clear E.
    specialize (IH _ _ _ s E2). rewrite (aq_step_length _ _ _ _ _ E1) in IH. specialize (IH Hs).
    destruct cl as [closed p|s']; cbn [aq_step] in E1.
    + destruct (aq_enqueue cap a closed p) as [a0 r] eqn:Eq. injection E1 as <- <-.
      apply aq_enqueue_spec in Eq.
      destruct r; cbn [enq_of pop_of];
        [destruct Eq as (_ & _ & ->)| destruct Eq as (_ & ->); exact IH| destruct Eq as (_ & _ & ->); exact IH].
      destruct (Nat.eqb_spec (plan_shard (length a) p) s) as [E0|Hne].
      * rewrite E0, nth_upd_eq in IH by exact Hs. rewrite <- app_assoc in IH. exact IH.
      * rewrite nth_upd_neq in IH by exact Hne. exact IH.
    + destruct (aq_pop a s') as [a0 g] eqn:Eq. injection E1 as <- <-.
      apply aq_pop_spec in Eq.
      destruct g as [p|]; cbn [enq_of pop_of]; [destruct Eq as (r & En & ->)| destruct Eq as (_ & ->); exact IH].
      destruct (Nat.eqb_spec s' s) as [->|Hne].
      * rewrite nth_upd_eq in IH by exact Hs. rewrite En. simpl. f_equal. exact IH.
      * rewrite nth_upd_neq in IH by exact Hne. exact IH.
Qed.

(* c31_channel_fifo, queue part: for every history of calls on the real
   structure, the plans dequeued from shard s are, in order, a prefix of the
   plans accepted into shard s; what is missing is still queued *)
Theorem queue_fifo cap shards cs s :
  0 < cap -> 0 < shards -> s < shards ->
  let '(q, rets) := pq_run (newq_nat cap shards) cs in
  exists queued, enq_of shards s cs rets = pop_of s cs rets ++ queued.
Proof.
  intros Hc Hsh Hs.
  pose proof (queue_refines_fifo cap shards cs Hc Hsh) as H.
  destruct (pq_run (newq_nat cap shards) cs) as [q rets].
  destruct (aq_run cap (repeat [] shards) cs) as [a arets] eqn:Ea.
  destruct H as (R & _). subst arets.
  pose proof (aq_fifo cap cs _ _ _ s Ea) as F. rewrite repeat_length in F. specialize (F Hs).
  rewrite nth_repeat in F. simpl in F.
  exists (nth s a []). exact F.
Qed.

Definition msgid_of (p : plan) : N := e_msgid (p_event p).

Lemma q_monitor_some : forall ops q fl sl,
  QInv q fl sl ->
  q_monitor false (pq_cap q) (map (map msgid_of) (abs q sl)) (q_model_steps (Some q) ops) = true.
Proof.
  induction ops as [|o ops IH]; intros q fl sl I; [reflexivity|].
  cbn [q_model_steps q_model_step].
  assert (Hla : length (map (map msgid_of) (abs q sl)) = length (pq_heads q)).
  { rewrite map_length, abs_length. symmetry. exact (qi_len_heads _ _ _ I). }
  assert (Htot : ql_total (map (map msgid_of) (abs q sl)) = aq_total (abs q sl)).
  { unfold ql_total, aq_total. rewrite <- concat_map. apply map_length. }
  destruct o as [closed p|s].
  - destruct (pq_enqueue q closed p) as [q' r] eqn:E.
    destruct (enqueue_refines _ _ _ _ _ _ _ I E) as (fl' & sl' & I' & A' & C' & _).
    apply aq_enqueue_spec in A'. specialize (IH q' fl' sl' I'). rewrite C' in IH.
    cbn [q_monitor q_op q_obs]. rewrite Htot.
    destruct r; cbn [enq_code N.eqb].
    + destruct A' as (-> & Hlt & Habs). rewrite abs_length, <- (qi_len_heads _ _ _ I) in Habs.
      rewrite Nat2N.id, Hla, nth_map_nil, (proj2 (Nat.ltb_lt _ _) Hlt).
      rewrite (proj2 (Nat.ltb_lt _ _) (plan_shard_lt _ p (QInv_heads_pos _ _ _ I))).
      rewrite Habs, map_upd, map_app in IH. exact IH.
    + destruct A' as (-> & Habs). rewrite Habs in IH. exact IH.
    + destruct A' as (-> & Hge & Habs). rewrite (proj2 (Nat.leb_le _ _) Hge). rewrite Habs in IH. exact IH.
  - unfold pq_dequeue.
    destruct ((s <? 0)%Z || (Z.of_nat (length (pq_heads q)) <=? s)%Z) eqn:Hr.
    { cbn [q_monitor q_op q_obs]. rewrite Hla, Hr. apply (IH q fl sl I). }
    destruct (pq_pop q (Z.to_nat s)) as [q' g] eqn:E. cbn [q_monitor q_op q_obs]. rewrite Hla, Hr.
    destruct (pop_refines _ _ _ _ _ _ I E) as (fl' & sl' & I' & A' & C' & _).
    apply aq_pop_spec in A'. specialize (IH q' fl' sl' I'). rewrite C' in IH. rewrite nth_map_nil.
    destruct g as [p|].
    + destruct A' as (r & -> & Habs). cbn [map option_map option_eqb]. unfold msgid_of at 1.
      rewrite N.eqb_refl. rewrite Habs, map_upd in IH. exact IH.
    + destruct A' as (-> & Habs). rewrite Habs in IH. exact IH.
Qed.

Lemma q_monitor_none : forall ops cap n,
  q_monitor true cap (repeat [] n) (q_model_steps None ops) = true.
Proof.
  induction ops as [|o ops IH]; intros cap n; [reflexivity|].
  cbn [q_model_steps q_model_step]. destruct o as [closed p|s]; cbn [q_monitor q_op q_obs].
  - cbn [N.eqb]. rewrite orb_true_r. apply IH.
  - destruct ((s <? 0)%Z || (Z.of_nat (length (repeat (@nil N) n)) <=? s)%Z); [apply IH|].
    rewrite nth_repeat. apply IH.
Qed.

Theorem queue_model_accepted cap shards ops :
  queue_monitor cap shards (q_model_steps (newOrderedPlanQueue cap shards) ops) = true.
Proof.
  unfold queue_monitor, newOrderedPlanQueue.
  destruct ((cap <=? 0)%Z || (shards <=? 0)%Z) eqn:Hnil.
  - apply q_monitor_none.
  - apply orb_false_iff in Hnil. destruct Hnil as [Hc Hs].
    apply Z.leb_gt in Hc. apply Z.leb_gt in Hs.
    assert (I : QInv (newq_nat (Z.to_nat cap) (Z.to_nat shards)) (seq 0 (Z.to_nat cap)) (repeat [] (Z.to_nat shards))).
    { apply newq_inv; lia. }
    pose proof (q_monitor_some ops _ _ _ I) as H.
    rewrite newq_abs, map_map_repeat_nil in H. exact H.
Qed.
