(* Proof/RaftLog_mem.v — memory.go against the reference, for requests shaped
   like a raft Ready (entries of a snapshot-carrying save lie above the snapshot). *)
From WK Require Import Base.Base Base.Lists Gen.Consts_C14 Model.RaftLog
     Proof.RaftLog_lists Proof.RaftLog_ref Proof.RaftLog_pebble Proof.RaftLog_ops.
From Coq Require Import ZifyBool ZifyN ZifyNat.
Open Scope N_scope.

Definition mem_of_ref (r : rstate) : mstate :=
  MS (r_hs r) (r_applied r) (r_cfg r) (r_ents r) (r_snap r).

Lemma mem_append a base ents :
  contiguous_from (a + 1) base = true ->
  match ents with [] => true | e0 :: _ => contiguous_from (e_idx e0) ents end = true ->
  match ents with [] => true | e0 :: _ => a <? e_idx e0 end = true ->
  match ents with [] => base | e0 :: _ => replaceEntriesFromIndex base (e_idx e0) ents end
  = append_spec a base ents.
Proof.
  intros Hb Hc Ha. unfold append_spec. rewrite (filter_all_gt a ents Hc Ha).
  destruct ents as [|e0 l]; [reflexivity|]. unfold replaceEntriesFromIndex.
  rewrite (take_below_firstn (a + 1) base (e_idx e0) Hb). do 2 f_equal. lia.
Qed.

Lemma mem_save_sim r hs ents snap r' :
  wf r ->
  req_valid r (WSave hs ents snap) = true -> k1_signature r (WSave hs ents snap) = false ->
  req_ready_shaped (WSave hs ents snap) = true ->
  ref_save false r hs ents snap = ROk r' ->
  mem_save (mem_of_ref r) hs ents snap = mem_of_ref r'.
Proof.
  intros Hwf Hv Hk Hsh Href.
  destruct (ref_save_ok r hs ents snap r' Hwf Hv Hk Href) as (-> & Hle & _).
  destruct (req_valid_save _ _ _ _ Hv) as (_ & Hcg & Hsn & _).
  pose proof (wf_contig _ Hwf) as Hcont. pose proof (spec_base_contig r snap Hcont Hle) as Hbase.
  unfold mem_save, mem_of_ref, save_spec.
  destruct snap as [s|]; cbn [ms_hs ms_ents ms_snap ms_applied ms_cfg raise_commit spec_snapshot spec_base fst snd] in *.
  - assert (Ha : match ents with [] => true | e0 :: _ => s_idx s <? e_idx e0 end = true)
      by (destruct ents; [reflexivity|exact Hsh]).
    unfold trimEntriesAfterSnapshot.
    rewrite (filter_gt_skipn_succ _ _ _ Hcont), (mem_append _ _ ents Hbase Hcg Ha). reflexivity.
  - rewrite (mem_append _ _ ents Hbase Hcg Hsn). reflexivity.
Qed.

Lemma mem_req_sim r q r' :
  wf r -> req_valid r q = true -> k1_signature r q = false -> req_ready_shaped q = true ->
  ref_req false r q = ROk r' -> mem_req (mem_of_ref r) q = mem_of_ref r'.
Proof.
  intros Hwf Hv Hk Hsh H. destruct q as [hs ents snap|i|i]; cbn [ref_req mem_req] in *.
  - apply mem_save_sim; assumption.
  - inversion H; subst. reflexivity.
  - inversion H; subst. reflexivity.
Qed.

Lemma mem_observe_sim r : wf r -> mem_observe (mem_of_ref r) = ref_observe r.
Proof.
  intros (Hc & Hb & _ & Hz & _). unfold mem_observe, ref_observe, ref_conf, mem_of_ref.
  cbn [ms_hs ms_ents ms_snap ms_applied ms_cfg].
  destruct (deriveConfState (smeta_of (r_snap r)) (r_ents r) (hs_commit (r_hs r))); [|reflexivity].
  f_equal. f_equal.
  - unfold mem_first, r_first. cbn [ms_ents ms_snap]. destruct (r_ents r) as [|e l] eqn:E.
    + unfold r_sidx. destruct (s_idx (r_snap r) =? 0) eqn:Ez; cbn [negb]; lia.
    + apply contig_first_idx in Hc. exact Hc.
  - unfold mem_last, r_last. cbn [ms_ents ms_snap]. rewrite (last_idx_of_contig _ _ Hc).
    destruct (r_ents r) as [|e l] eqn:E; [unfold r_sidx; cbn; lia|]. unfold r_sidx.
    change (N.of_nat (length (e :: l))) with (len (e :: l)). rewrite len_cons. lia.
  - apply filter_all. intros x Hx. exact (proj1 (forallb_forall _ _) Hb x Hx).
Qed.

Lemma mem_entries_eq r lo hi mx :
  0 < hi ->
  mem_entries (mem_of_ref r) lo hi mx = limit_size mx (filter (fun e => in_window lo hi (e_idx e)) (r_ents r)).
Proof.
  intro H. unfold mem_entries, mem_of_ref. cbn [ms_ents]. f_equal. apply filter_ext.
  intro e. unfold in_window. replace (hi =? 0) with false by lia. cbn [orb]. lia.
Qed.

Lemma mem_term_eq r i :
  wf r -> mem_term (mem_of_ref r) i = match r_term r i with Some t => t | None => 0 end.
Proof. intros (Hc & _). symmetry. apply (r_term_find r i Hc). Qed.
