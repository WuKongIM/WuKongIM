(* Proof/HashSlot_lists.v — list lemmas for the planner proofs: association
   lists, sortSlotIDs, the distinct non-zero slots of an assignment, counting
   (cnt), rank, finite sums, and the ideal-share arithmetic. *)
From WK Require Import Base.Base Model.HashSlot Proof.HashSlot_table.
From Coq Require Import ZifyBool ZifyN ZifyNat Sorting.Sorted Sorting.Permutation.
Open Scope N_scope.

Lemma aget_aset_same {V} (d : V) m k v : aget d (aset m k v) k = v.
Proof.
  induction m as [|[k' v'] m IH]; cbn [aset aget].
  - rewrite N.eqb_refl. reflexivity.
  - destruct (k' =? k) eqn:E; cbn [aget]; [rewrite N.eqb_refl; reflexivity|rewrite E; exact IH].
Qed.

Lemma aget_aset_other {V} (d : V) m k k' v : k <> k' -> aget d (aset m k v) k' = aget d m k'.
Proof.
  intro H. induction m as [|[k0 v0] m IH]; cbn [aset aget].
  - destruct (k =? k') eqn:E; [apply N.eqb_eq in E; contradiction|reflexivity].
  - destruct (k0 =? k) eqn:E; cbn [aget].
    + apply N.eqb_eq in E. subst k0. destruct (k =? k') eqn:E2; [apply N.eqb_eq in E2; contradiction|reflexivity].
    + destruct (k0 =? k'); [reflexivity|exact IH].
Qed.

Lemma mem_iff x l : mem x l = true <-> In x l.
Proof.
  unfold mem. rewrite existsb_exists. split.
  - intros [y [I E]]. apply N.eqb_eq in E. subst. exact I.
  - intro I. exists x. split; [exact I|apply N.eqb_refl].
Qed.

Lemma mem_false x l : mem x l = false <-> ~ In x l.
Proof. rewrite <- mem_iff. destruct (mem x l); split; intro H; try congruence; try (exfalso; apply H; reflexivity). Qed.

Lemma ins_perm x l : Permutation (ins x l) (x :: l).
Proof.
  induction l as [|y l IH]; cbn [ins]; [apply Permutation_refl|].
  destruct (x <=? y); [apply Permutation_refl|].
  eapply Permutation_trans; [apply perm_skip; exact IH|apply perm_swap].
Qed.

Lemma sort_ids_perm l : Permutation (sort_ids l) l.
Proof.
  induction l as [|x l IH]; cbn [sort_ids fold_right]; [apply Permutation_refl|].
  eapply Permutation_trans; [apply ins_perm|apply perm_skip; exact IH].
Qed.

Lemma in_sort_ids x l : In x (sort_ids l) <-> In x l.
Proof.
  split; intro H; [eapply Permutation_in; [apply sort_ids_perm|exact H]|].
  eapply Permutation_in; [apply Permutation_sym, sort_ids_perm|exact H].
Qed.

Lemma sort_ids_length l : length (sort_ids l) = length l.
Proof. apply Permutation_length, sort_ids_perm. Qed.

Lemma sort_ids_nodup l : NoDup l -> NoDup (sort_ids l).
Proof. intro H. eapply Permutation_NoDup; [apply Permutation_sym, sort_ids_perm|exact H]. Qed.

Lemma ins_sorted x : forall l, StronglySorted N.lt l -> ~ In x l -> StronglySorted N.lt (ins x l).
Proof.
  induction l as [|y l IH]; intros S NI; cbn [ins].
  - constructor; constructor.
  - inversion S as [|? ? S' F]; subst.
    destruct (x <=? y) eqn:E.
    + assert (x < y) by (assert (x <> y) by (intro; subst; apply NI; left; reflexivity); lia).
      constructor; [exact S|]. constructor; [assumption|].
      rewrite Forall_forall in *. intros z Iz. specialize (F z Iz). lia.
    + constructor.
      * apply IH; [exact S'|]. intro I. apply NI. right. exact I.
      * apply Forall_forall. intros z Iz.
        assert (Iz' : In z (x :: l)) by (eapply Permutation_in; [apply ins_perm|exact Iz]).
        destruct Iz' as [Q|Q]; [subst z; lia|]. rewrite Forall_forall in F. apply F. exact Q.
Qed.

Lemma sort_ids_sorted l : NoDup l -> StronglySorted N.lt (sort_ids l).
Proof.
  induction l as [|x l IH]; intro H; cbn [sort_ids fold_right]; [constructor|].
  inversion H; subst. apply ins_sorted; [apply IH; assumption|].
  rewrite in_sort_ids. assumption.
Qed.

Lemma in_dedupe_nz l : forall seen x,
  In x (dedupe_nz seen l) <-> (x <> 0 /\ In x l /\ ~ In x seen).
Proof.
  induction l as [|y l IH]; intros seen x; cbn [dedupe_nz In]; [tauto|].
  destruct (y =? 0) eqn:E0; cbn [orb]; [apply N.eqb_eq in E0|apply N.eqb_neq in E0; destruct (mem y seen) eqn:M].
  - rewrite IH. intuition congruence.
  - apply mem_iff in M. rewrite IH. intuition congruence.
  - apply mem_false in M. cbn [In]. rewrite IH. cbn [In]. destruct (N.eq_dec y x); intuition congruence.
Qed.

Lemma dedupe_nz_nodup l : forall seen, NoDup (dedupe_nz seen l).
Proof.
  induction l as [|y l IH]; intro seen; cbn [dedupe_nz]; [constructor|].
  destruct ((y =? 0) || mem y seen); [apply IH|].
  constructor; [|apply IH]. rewrite in_dedupe_nz. intros [_ [_ C]]. apply C. left. reflexivity.
Qed.

Lemma in_distinct_nz l x : In x (distinct_nz l) <-> (x <> 0 /\ In x l).
Proof.
  unfold distinct_nz. rewrite in_dedupe_nz. split; [intros [A [B _]]; split; assumption|].
  intros [A B]. split; [exact A|]. split; [exact B|intros []].
Qed.

Lemma distinct_nz_nodup l : NoDup (distinct_nz l).
Proof. apply dedupe_nz_nodup. Qed.

Lemma in_active t x : In x (active_slot_ids t) <-> (x <> 0 /\ In x (t_assign t)).
Proof. unfold active_slot_ids. rewrite in_sort_ids. apply in_distinct_nz. Qed.

Lemma active_nodup t : NoDup (active_slot_ids t).
Proof. apply sort_ids_nodup, distinct_nz_nodup. Qed.

Lemma active_perm t : Permutation (active_slot_ids t) (distinct_nz (t_assign t)).
Proof. apply sort_ids_perm. Qed.

Lemma cnt_cons x l s : cnt (x :: l) s = (if s =? x then 1 else 0) + cnt l s.
Proof. unfold cnt. cbn [filter]. destruct (s =? x); cbn [length]; lia. Qed.

Lemma cnt_nil s : cnt [] s = 0.
Proof. reflexivity. Qed.

Lemma cnt_zero_iff l s : cnt l s = 0 <-> ~ In s l.
Proof.
  induction l as [|x l IH]; [split; [intros _ []|reflexivity]|].
  rewrite cnt_cons. destruct (s =? x) eqn:E.
  - apply N.eqb_eq in E. subst. split; [lia|]. intro H. exfalso. apply H. left. reflexivity.
  - apply N.eqb_neq in E. rewrite N.add_0_l, IH. split; intro H.
    + intros [Q|Q]; [congruence|contradiction].
    + intro Q. apply H. right. exact Q.
Qed.

Lemma cnt_le_length l s : cnt l s <= N.of_nat (length l).
Proof.
  induction l as [|x l IH]; [cbn; lia|]. rewrite cnt_cons. cbn [length]. destruct (s =? x); lia.
Qed.

Lemma indices_of_length l s : forall i, N.of_nat (length (indices_of i l s)) = cnt l s.
Proof.
  induction l as [|x l IH]; intro i; cbn [indices_of]; [reflexivity|].
  rewrite cnt_cons, N.eqb_sym. destruct (s =? x); cbn [length]; rewrite <- (IH (i + 1)); lia.
Qed.

Lemma indices_of_nodup l s : forall i, NoDup (indices_of i l s).
Proof.
  induction l as [|x l IH]; intro i; cbn [indices_of]; [constructor|].
  destruct (x =? s); [|apply IH]. constructor; [|apply IH].
  rewrite in_indices_of. lia.
Qed.

Lemma cnt_set_nth l : forall n v s, (n < length l)%nat ->
  cnt (set_nth n v l) s + (if s =? nth n l 0 then 1 else 0) = cnt l s + (if s =? v then 1 else 0).
Proof.
  induction l as [|x l IH]; intros [|n] v s L; cbn [length] in L; try lia; cbn [set_nth nth]; rewrite !cnt_cons; [lia|].
  specialize (IH n v s ltac:(lia)). lia.
Qed.

Lemma rank_cons x l s : rank s (x :: l) = (if x <? s then 1 else 0) + rank s l.
Proof. unfold rank. cbn [filter]. destruct (x <? s); cbn [length]; lia. Qed.

Lemma rank_perm s l l' : Permutation l l' -> rank s l = rank s l'.
Proof.
  induction 1 as [|x l l' P IH|x y l|l l' l'' P1 IH1 P2 IH2].
  - reflexivity.
  - rewrite !rank_cons, IH. reflexivity.
  - rewrite !rank_cons. lia.
  - rewrite IH1. exact IH2.
Qed.

Lemma rank_filter_le s f l : rank s (filter f l) <= rank s l.
Proof.
  induction l as [|x l IH]; cbn [filter]; [lia|].
  destruct (f x); rewrite ?rank_cons; destruct (x <? s); lia.
Qed.

Lemma rank_sorted_head x l : StronglySorted N.lt (x :: l) -> rank x (x :: l) = 0.
Proof.
  intro S. inversion S as [|? ? S' F]; subst. rewrite rank_cons, N.ltb_irrefl, N.add_0_l.
  clear S S'. induction l as [|y l IH]; [reflexivity|].
  inversion F; subst. rewrite rank_cons. destruct (y <? x) eqn:E; [lia|]. rewrite N.add_0_l. apply IH. assumption.
Qed.

Definition sumf (f : N -> N) (l : list N) : N := fold_right (fun s acc => f s + acc) 0 l.

Lemma sumf_cons f x l : sumf f (x :: l) = f x + sumf f l.
Proof. reflexivity. Qed.

Lemma sumf_perm f l l' : Permutation l l' -> sumf f l = sumf f l'.
Proof.
  induction 1 as [|x l l' P IH|x y l|l l' l'' P1 IH1 P2 IH2]; try reflexivity.
  - rewrite !sumf_cons, IH. reflexivity.
  - rewrite !sumf_cons. lia.
  - rewrite IH1. exact IH2.
Qed.

Lemma sumf_ext f g l : (forall x, In x l -> f x = g x) -> sumf f l = sumf g l.
Proof.
  induction l as [|x l IH]; intro H; [reflexivity|]. rewrite !sumf_cons, (H x (or_introl eq_refl)), IH; [reflexivity|].
  intros y I. apply H. right. exact I.
Qed.

Lemma sumf_le f g l : (forall x, In x l -> f x <= g x) -> sumf f l <= sumf g l.
Proof.
  induction l as [|x l IH]; intro H; [cbn; lia|]. rewrite !sumf_cons.
  pose proof (H x (or_introl eq_refl)). assert (sumf f l <= sumf g l) by (apply IH; intros y I; apply H; right; exact I). lia.
Qed.

Lemma sumf_lt f g l a : In a l -> f a < g a -> (forall x, In x l -> f x <= g x) -> sumf f l < sumf g l.
Proof.
  induction l as [|x l IH]; intros I L H; [destruct I|]. rewrite !sumf_cons.
  pose proof (H x (or_introl eq_refl)) as Hx.
  assert (Hr : forall y, In y l -> f y <= g y) by (intros y Iy; apply H; right; exact Iy).
  destruct I as [I|I].
  - subst x. pose proof (sumf_le f g l Hr). lia.
  - pose proof (IH I L Hr). lia.
Qed.

Lemma sumf_plus f g l : sumf (fun s => f s + g s) l = sumf f l + sumf g l.
Proof. induction l as [|x l IH]; [reflexivity|]. rewrite !sumf_cons, IH. lia. Qed.

Lemma sumf_const c l : sumf (fun _ => c) l = N.of_nat (length l) * c.
Proof. induction l as [|x l IH]; [reflexivity|]. rewrite sumf_cons, IH. cbn [length]. lia. Qed.

Lemma sumf_eq_le f g l : sumf f l = sumf g l -> (forall x, In x l -> f x <= g x) -> forall x, In x l -> f x = g x.
Proof.
  intros E H x I. destruct (N.eq_dec (f x) (g x)) as [Q|Q]; [exact Q|].
  assert (f x < g x) by (specialize (H x I); lia).
  pose proof (sumf_lt f g l x I H0 H). lia.
Qed.

Lemma sumf_app f l l' : sumf f (l ++ l') = sumf f l + sumf f l'.
Proof. induction l as [|x l IH]; [reflexivity|]. cbn [app]. rewrite !sumf_cons, IH. lia. Qed.

Lemma sumf_indicator x l : NoDup l -> sumf (fun s => if s =? x then 1 else 0) l = if mem x l then 1 else 0.
Proof.
  induction l as [|y l IH]; intro ND; [reflexivity|]. inversion ND; subst.
  rewrite sumf_cons, IH by assumption. cbn [mem existsb]. fold (mem x l).
  rewrite (N.eqb_sym x y). destruct (y =? x) eqn:E; cbn [orb]; [|lia].
  apply N.eqb_eq in E. subst y. assert (M : mem x l = false) by (apply mem_false; assumption). rewrite M. lia.
Qed.

Lemma sumf_cnt l parts : NoDup parts -> (forall x, In x l -> In x parts) ->
  sumf (cnt l) parts = N.of_nat (length l).
Proof.
  intro ND. induction l as [|x l IH]; intro H.
  - rewrite (sumf_ext _ (fun _ => 0)) by (intros; apply cnt_nil). rewrite sumf_const. cbn [length]. lia.
  - rewrite (sumf_ext _ (fun s => (if s =? x then 1 else 0) + cnt l s)) by (intros; apply cnt_cons).
    rewrite sumf_plus, sumf_indicator by exact ND.
    assert (M : mem x parts = true) by (apply mem_iff, H; left; reflexivity). rewrite M.
    rewrite IH by (intros y I; apply H; right; exact I). cbn [length]. lia.
Qed.

(* N.min (i + n) r - N.min i r: how many of the positions i, ..., i + n - 1 are below r; in a strictly
   sorted list the rank of an element is its position *)
Lemma sum_rank_below r : forall l i, StronglySorted N.lt l ->
  sumf (fun s => if i + rank s l <? r then 1 else 0) l = N.min (i + N.of_nat (length l)) r - N.min i r.
Proof.
  induction l as [|x l IH]; intros i S; [cbn [sumf fold_right length]; lia|].
  rewrite sumf_cons, (rank_sorted_head x l S), N.add_0_r.
  inversion S as [|? ? S' F]; subst.
  rewrite (sumf_ext _ (fun s => if (i + 1) + rank s l <? r then 1 else 0)).
  - rewrite IH by exact S'. cbn [length]. destruct (i <? r) eqn:E; lia.
  - intros y I. rewrite rank_cons. rewrite Forall_forall in F. specialize (F y I).
    destruct (x <? y) eqn:E; [|lia]. replace (i + (1 + rank y l)) with (i + 1 + rank y l) by lia. reflexivity.
Qed.

Lemma spec_ideal_perm total l l' s : Permutation l l' -> spec_ideal total l s = spec_ideal total l' s.
Proof.
  intro P. unfold spec_ideal. rewrite (Permutation_length P), (rank_perm s l l' P). reflexivity.
Qed.

Lemma sumf_spec_ideal total parts : NoDup parts -> parts <> [] ->
  sumf (spec_ideal total parts) parts = total.
Proof.
  intros ND NE.
  pose proof (sort_ids_perm parts) as P.
  rewrite <- (sumf_perm _ _ _ P).
  rewrite (sumf_ext _ (spec_ideal total (sort_ids parts))) by (intros; apply spec_ideal_perm, Permutation_sym, P).
  set (l := sort_ids parts). assert (S : StronglySorted N.lt l) by (apply sort_ids_sorted; exact ND).
  assert (K : N.of_nat (length l) <> 0).
  { unfold l. rewrite sort_ids_length. destruct parts; [congruence|cbn [length]; lia]. }
  unfold spec_ideal. apply N.eqb_neq in K. rewrite K. apply N.eqb_neq in K.
  set (k := N.of_nat (length l)) in *.
  rewrite sumf_plus.
  rewrite (sumf_ext (fun s => if rank s l <? total mod k then 1 else 0)
                    (fun s => if 0 + rank s l <? total mod k then 1 else 0)) by (intros; reflexivity).
  rewrite sum_rank_below by exact S. fold k.
  rewrite sumf_const. fold k. pose proof (N.div_mod total k K). pose proof (N.mod_lt total k K). lia.
Qed.

(* growing the number of participants never raises a share, whatever the rank shift upwards *)
Lemma ideal_mono total k p p' : 1 <= k -> p <= p' ->
  total / (k + 1) + (if p' <? total mod (k + 1) then 1 else 0)
  <= total / k + (if p <? total mod k then 1 else 0).
Proof.
  intros Hk Hp.
  assert (Q : total / (k + 1) <= total / k) by (apply N.div_le_compat_l; lia).
  assert (D : k * (total / k) + total mod k = (k + 1) * (total / (k + 1)) + total mod (k + 1))
    by (rewrite <- !N.div_mod by lia; reflexivity).
  (* quotients and remainders as variables: lia has nothing to say about / and mod *)
  revert Q D. generalize (total / k) (total mod k) (total / (k + 1)) (total mod (k + 1)).
  intros q r q' r' Q D. destruct (N.eq_dec q' q) as [->|E].
  - (* equal quotients: r = q + r' *)
    rewrite N.mul_add_distr_r in D. destruct (p' <? r') eqn:A; destruct (p <? r) eqn:B; lia.
  - destruct (p' <? r'); destruct (p <? r); lia.
Qed.

Lemma ideal_fill_spec base rem : forall sorted i m s, StronglySorted N.lt sorted ->
  aget 0 (ideal_fill i base rem sorted m) s =
  if mem s sorted then base + (if i + rank s sorted <? rem then 1 else 0) else aget 0 m s.
Proof.
  induction sorted as [|x l IH]; intros i m s S; cbn [ideal_fill]; [reflexivity|].
  inversion S as [|? ? S' F]; subst. rewrite IH by exact S'.
  cbn [mem existsb]. fold (mem s l). destruct (s =? x) eqn:E.
  - apply N.eqb_eq in E. subst s. cbn [orb].
    assert (M : mem x l = false).
    { apply mem_false. intro I. rewrite Forall_forall in F. specialize (F x I). lia. }
    rewrite M, aget_aset_same, (rank_sorted_head x l S), N.add_0_r. reflexivity.
  - cbn [orb]. apply N.eqb_neq in E. destruct (mem s l) eqn:M.
    + apply mem_iff in M. rewrite Forall_forall in F. specialize (F s M). rewrite rank_cons.
      destruct (x <? s) eqn:L; [|lia]. replace (i + 1 + rank s l) with (i + (1 + rank s l)) by lia. reflexivity.
    + apply aget_aset_other. congruence.
Qed.

Lemma ideal_slot_counts_spec total slots s : NoDup slots -> In s slots ->
  aget 0 (ideal_slot_counts total slots) s = spec_ideal total slots s.
Proof.
  intros ND I. unfold ideal_slot_counts. destruct slots as [|x slots]; [destruct I|].
  set (l := x :: slots) in *.
  rewrite ideal_fill_spec by (apply sort_ids_sorted; exact ND).
  assert (M : mem s (sort_ids l) = true) by (apply mem_iff, in_sort_ids; exact I). rewrite M.
  unfold spec_ideal. rewrite sort_ids_length.
  assert (K : (N.of_nat (length l) =? 0) = false) by (apply N.eqb_neq; unfold l; cbn [length]; lia).
  rewrite K, N.add_0_l, (rank_perm s _ _ (sort_ids_perm l)). reflexivity.
Qed.

Lemma aget_fold_aset {V} (d : V) (f : N -> V) : forall slots m s,
  aget d (fold_left (fun m s => aset m s (f s)) slots m) s = if mem s slots then f s else aget d m s.
Proof.
  induction slots as [|x l IH]; intros m s; cbn [fold_left]; [reflexivity|].
  rewrite IH. cbn [mem existsb]. fold (mem s l). destruct (mem s l) eqn:M; [rewrite orb_true_r; reflexivity|].
  rewrite orb_false_r. destruct (s =? x) eqn:E.
  - apply N.eqb_eq in E. subst. apply aget_aset_same.
  - apply N.eqb_neq in E. apply aget_aset_other. congruence.
Qed.

Lemma slot_counts_spec t slots s :
  aget 0 (slot_counts t slots) s = if mem s slots then cnt (t_assign t) s else 0.
Proof.
  unfold slot_counts. rewrite (aget_fold_aset 0 (fun s => N.of_nat (length (hash_slots_of t s)))).
  destruct (mem s slots); [apply indices_of_length|reflexivity].
Qed.

Lemma slot_counts_get t slots s : In s slots -> aget 0 (slot_counts t slots) s = cnt (t_assign t) s.
Proof. intro I. rewrite slot_counts_spec, (proj2 (mem_iff s slots) I). reflexivity. Qed.

Lemma slot_hash_slots_get t slots s :
  aget [] (slot_hash_slots t slots) s = if mem s slots then rev (hash_slots_of t s) else [].
Proof. apply (aget_fold_aset [] (fun s => rev (hash_slots_of t s))). Qed.

Lemma ideal_counts_perm total slots parts s : Permutation slots parts -> NoDup parts -> In s parts ->
  aget 0 (ideal_slot_counts total slots) s = spec_ideal total parts s.
Proof.
  intros P ND I. rewrite <- (spec_ideal_perm total slots parts s P). apply Permutation_sym in P.
  apply ideal_slot_counts_spec; [apply (Permutation_NoDup P ND)|apply (Permutation_in s P I)].
Qed.

Lemma sum_ideal_counts total slots parts : Permutation slots parts -> NoDup parts -> parts <> [] ->
  sumf (aget 0 (ideal_slot_counts total slots)) parts = total.
Proof.
  intros P ND NE. rewrite (sumf_ext _ (spec_ideal total parts)) by (intros; apply ideal_counts_perm; assumption).
  apply sumf_spec_ideal; assumption.
Qed.

Lemma spec_ideal_mono total l l' s : l <> [] -> length l' = S (length l) -> rank s l <= rank s l' ->
  spec_ideal total l' s <= spec_ideal total l s.
Proof.
  intros NE L R. unfold spec_ideal. rewrite L.
  assert (K : 1 <= N.of_nat (length l)) by (destruct l; [congruence|cbn [length]; lia]).
  replace (N.of_nat (S (length l))) with (N.of_nat (length l) + 1) by lia.
  destruct (N.of_nat (length l) + 1 =? 0) eqn:K1; [lia|]. destruct (N.of_nat (length l) =? 0) eqn:K2; [lia|].
  apply ideal_mono; assumption.
Qed.

Lemma balanced_iff total assign parts : balanced total assign parts = true <->
  forall s, In s parts -> cnt assign s <= spec_ideal total parts s + 1 /\ spec_ideal total parts s <= cnt assign s + 1.
Proof.
  unfold balanced, within_one. rewrite forallb_forall.
  split; intros H s I; specialize (H s I); [apply andb_true_iff in H|apply andb_true_iff]; rewrite !N.leb_le in *; exact H.
Qed.

Lemma not_over_iff total assign parts : not_over total assign parts = true <->
  forall s, In s parts -> cnt assign s <= spec_ideal total parts s + 1.
Proof.
  unfold not_over. rewrite forallb_forall. split; intros H s I; specialize (H s I); rewrite N.leb_le in *; exact H.
Qed.

Lemma balanced_perm total assign l l' : Permutation l l' -> balanced total assign l = balanced total assign l'.
Proof.
  assert (H : forall a b, Permutation a b -> balanced total assign a = true -> balanced total assign b = true).
  { intros a b P. rewrite !balanced_iff. intros Q s Is. rewrite <- (spec_ideal_perm total a b s P).
    apply Q, (Permutation_in s (Permutation_sym P) Is). }
  intro P. apply eq_true_iff_eq. split; apply H; [exact P|apply Permutation_sym, P].
Qed.

Lemma not_over_perm total assign l l' : Permutation l l' -> not_over total assign l = not_over total assign l'.
Proof.
  assert (H : forall a b, Permutation a b -> not_over total assign a = true -> not_over total assign b = true).
  { intros a b P. rewrite !not_over_iff. intros Q s Is. rewrite <- (spec_ideal_perm total a b s P).
    apply Q, (Permutation_in s (Permutation_sym P) Is). }
  intro P. apply eq_true_iff_eq. split; apply H; [exact P|apply Permutation_sym, P].
Qed.
