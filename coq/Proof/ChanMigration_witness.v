(* Proof/ChanMigration_witness.v — concrete histories of C17: the refutation witnesses of the known
   findings K1, K2, K3 and the non-violations r01–r04, with the predicates read on them
   ([abort_after_cutover], [double_active], [run_batches]).  The case terms are the harness's
   rendering of corpus/C17/{k*,r0*}.json run on the real slot state machine (commands AND the
   implementation's observations); C17_mismatch = false shows that the model reproduces every
   observed row and result of these runs. *)
From WK Require Import Base.Base.
From WK Require Import Gen.Consts_C15 Gen.Consts_C17 Model.RuntimeMeta Model.ChanMigration Model.ChanMigration_C17.
Open Scope N_scope.

Definition k1_advance_rewind_abort_case : c17_case :=
 (C17Case [([(CUpsertMeta (RuntimeMeta (hx "6731") (2)%Z 1 2 0 [1; 2; 3] [1; 2; 3] 1 (2)%Z 1 1 (1500)%Z 0 (0)%Z [] 0 0 (0)%Z 0))], (Full (Obs (BResults [0]) [] [((ChanKey (hx "6731") (2)%Z), None)] [((ChanKey (hx "6731") (2)%Z), (Some (RuntimeMeta (hx "6731") (2)%Z 1 2 2 [1; 2; 3] [1; 2; 3] 1 (2)%Z 1 1 (1500)%Z 0 (0)%Z [] 0 0 (0)%Z 0)))])));
  ([(CCreate (Task (hx "7431") 1 1 1 (hx "6731") (2)%Z 1 2 2 1 2 [] 0 (0)%Z false 0 0 (0)%Z proof_zero 0 (0)%Z [] [] [] (1010)%Z (1010)%Z (0)%Z progress_zero))], (Full (Obs (BResults [0]) [(Task (hx "7431") 1 1 1 (hx "6731") (2)%Z 1 2 2 1 2 [] 0 (0)%Z false 0 0 (0)%Z proof_zero 0 (0)%Z [] [] [] (1010)%Z (1010)%Z (0)%Z progress_zero)] [((ChanKey (hx "6731") (2)%Z), (Some (hx "7431")))] [((ChanKey (hx "6731") (2)%Z), (Some (RuntimeMeta (hx "6731") (2)%Z 1 2 2 [1; 2; 3] [1; 2; 3] 1 (2)%Z 1 1 (1500)%Z 0 (0)%Z [] 0 0 (0)%Z 0)))])));
  ([(CClaim (TGuard (hx "6731") (2)%Z (hx "7431") 1 1 0 (0)%Z (1010)%Z) 2 1 7 (1420)%Z (1020)%Z (1020)%Z)], (Full (Obs (BResults [0]) [(Task (hx "7431") 1 2 1 (hx "6731") (2)%Z 1 2 2 1 2 [] 0 (0)%Z false 0 7 (1420)%Z proof_zero 0 (0)%Z [] [] [] (1010)%Z (1020)%Z (0)%Z progress_zero)] [((ChanKey (hx "6731") (2)%Z), (Some (hx "7431")))] [((ChanKey (hx "6731") (2)%Z), (Some (RuntimeMeta (hx "6731") (2)%Z 1 2 2 [1; 2; 3] [1; 2; 3] 1 (2)%Z 1 1 (1500)%Z 0 (0)%Z [] 0 0 (0)%Z 0)))])));
  ([(CAdvance (TGuard (hx "6731") (2)%Z (hx "7431") 2 1 7 (1420)%Z (1020)%Z) 2 2 1 (0)%Z [] [] [] (1030)%Z (0)%Z progress_zero proof_zero 0)], (Full (Obs (BResults [0]) [(Task (hx "7431") 1 2 2 (hx "6731") (2)%Z 1 2 2 1 2 [] 0 (0)%Z false 0 7 (1420)%Z proof_zero 1 (0)%Z [] [] [] (1010)%Z (1030)%Z (0)%Z progress_zero)] [((ChanKey (hx "6731") (2)%Z), (Some (hx "7431")))] [((ChanKey (hx "6731") (2)%Z), (Some (RuntimeMeta (hx "6731") (2)%Z 1 2 2 [1; 2; 3] [1; 2; 3] 1 (2)%Z 1 1 (1500)%Z 0 (0)%Z [] 0 0 (0)%Z 0)))])));
  ([(CAdvance (TGuard (hx "6731") (2)%Z (hx "7431") 2 2 7 (1420)%Z (1030)%Z) 2 3 1 (0)%Z [] [] [] (1040)%Z (0)%Z progress_zero proof_zero 0)], (Full (Obs (BResults [0]) [(Task (hx "7431") 1 2 3 (hx "6731") (2)%Z 1 2 2 1 2 [] 0 (0)%Z false 0 7 (1420)%Z proof_zero 1 (0)%Z [] [] [] (1010)%Z (1040)%Z (0)%Z progress_zero)] [((ChanKey (hx "6731") (2)%Z), (Some (hx "7431")))] [((ChanKey (hx "6731") (2)%Z), (Some (RuntimeMeta (hx "6731") (2)%Z 1 2 2 [1; 2; 3] [1; 2; 3] 1 (2)%Z 1 1 (1500)%Z 0 (0)%Z [] 0 0 (0)%Z 0)))])));
  ([(CSetFence (Trans (TGuard (hx "6731") (2)%Z (hx "7431") 2 3 7 (1420)%Z (1040)%Z) (RGuard (hx "6731") (2)%Z 1 2 1 [] 0 0) 2 4 (1050)%Z) 1 (1350)%Z)], (Full (Obs (BResults [0]) [(Task (hx "7431") 1 2 4 (hx "6731") (2)%Z 1 2 2 1 2 (hx "7431") 1 (1350)%Z false 0 7 (1420)%Z proof_zero 1 (0)%Z [] [] [] (1010)%Z (1050)%Z (0)%Z progress_zero)] [((ChanKey (hx "6731") (2)%Z), (Some (hx "7431")))] [((ChanKey (hx "6731") (2)%Z), (Some (RuntimeMeta (hx "6731") (2)%Z 1 2 3 [1; 2; 3] [1; 2; 3] 1 (2)%Z 1 1 (1500)%Z 0 (0)%Z (hx "7431") 1 1 (1350)%Z 0)))])));
  ([(CAdvance (TGuard (hx "6731") (2)%Z (hx "7431") 2 4 7 (1420)%Z (1050)%Z) 2 5 1 (0)%Z [] [] [] (1060)%Z (0)%Z progress_zero (Proof 100 99 1 9 1 2 1) 0)], (Full (Obs (BResults [0]) [(Task (hx "7431") 1 2 5 (hx "6731") (2)%Z 1 2 2 1 2 (hx "7431") 1 (1350)%Z false 0 7 (1420)%Z (Proof 100 99 1 9 1 2 1) 1 (0)%Z [] [] [] (1010)%Z (1060)%Z (0)%Z progress_zero)] [((ChanKey (hx "6731") (2)%Z), (Some (hx "7431")))] [((ChanKey (hx "6731") (2)%Z), (Some (RuntimeMeta (hx "6731") (2)%Z 1 2 3 [1; 2; 3] [1; 2; 3] 1 (2)%Z 1 1 (1500)%Z 0 (0)%Z (hx "7431") 1 1 (1350)%Z 0)))])));
  ([(CAdvance (TGuard (hx "6731") (2)%Z (hx "7431") 2 5 7 (1420)%Z (1060)%Z) 2 6 1 (0)%Z [] [] [] (1070)%Z (0)%Z progress_zero (Proof 100 99 1 9 1 2 1) 0)], (Full (Obs (BResults [0]) [(Task (hx "7431") 1 2 6 (hx "6731") (2)%Z 1 2 2 1 2 (hx "7431") 1 (1350)%Z false 0 7 (1420)%Z (Proof 100 99 1 9 1 2 1) 1 (0)%Z [] [] [] (1010)%Z (1070)%Z (0)%Z progress_zero)] [((ChanKey (hx "6731") (2)%Z), (Some (hx "7431")))] [((ChanKey (hx "6731") (2)%Z), (Some (RuntimeMeta (hx "6731") (2)%Z 1 2 3 [1; 2; 3] [1; 2; 3] 1 (2)%Z 1 1 (1500)%Z 0 (0)%Z (hx "7431") 1 1 (1350)%Z 0)))])));
  ([(CCommit (Trans (TGuard (hx "6731") (2)%Z (hx "7431") 2 6 7 (1420)%Z (1070)%Z) (RGuard (hx "6731") (2)%Z 1 2 1 (hx "7431") 1 0) 2 7 (1080)%Z) 2 3 (1380)%Z (1080)%Z)], (Full (Obs (BResults [0]) [(Task (hx "7431") 1 2 7 (hx "6731") (2)%Z 1 2 2 1 2 (hx "7431") 1 (1350)%Z false 0 7 (1420)%Z (Proof 100 99 1 9 1 2 1) 1 (0)%Z [] [] [] (1010)%Z (1080)%Z (0)%Z progress_zero)] [((ChanKey (hx "6731") (2)%Z), (Some (hx "7431")))] [((ChanKey (hx "6731") (2)%Z), (Some (RuntimeMeta (hx "6731") (2)%Z 1 3 4 [1; 2; 3] [1; 2; 3] 2 (2)%Z 1 1 (1380)%Z 0 (0)%Z (hx "7431") 1 1 (1350)%Z 0)))])));
  ([(CAbort (Trans (TGuard (hx "6731") (2)%Z (hx "7431") 2 7 7 (1420)%Z (1080)%Z) (RGuard (hx "6731") (2)%Z 1 3 2 (hx "7431") 1 0) 6 7 (1090)%Z) (1090)%Z (hx "61626f72746564"))], (Same (BResults [1])));
  ([(CAdvance (TGuard (hx "6731") (2)%Z (hx "7431") 2 7 7 (1420)%Z (1080)%Z) 2 6 1 (0)%Z [] [] [] (1100)%Z (0)%Z progress_zero proof_zero 0)], (Full (Obs (BResults [0]) [(Task (hx "7431") 1 2 6 (hx "6731") (2)%Z 1 2 2 1 2 (hx "7431") 1 (1350)%Z false 0 7 (1420)%Z (Proof 100 99 1 9 1 2 1) 1 (0)%Z [] [] [] (1010)%Z (1100)%Z (0)%Z progress_zero)] [((ChanKey (hx "6731") (2)%Z), (Some (hx "7431")))] [((ChanKey (hx "6731") (2)%Z), (Some (RuntimeMeta (hx "6731") (2)%Z 1 3 4 [1; 2; 3] [1; 2; 3] 2 (2)%Z 1 1 (1380)%Z 0 (0)%Z (hx "7431") 1 1 (1350)%Z 0)))])));
  ([(CAbort (Trans (TGuard (hx "6731") (2)%Z (hx "7431") 2 6 7 (1420)%Z (1100)%Z) (RGuard (hx "6731") (2)%Z 1 3 2 (hx "7431") 1 0) 6 6 (1110)%Z) (1110)%Z (hx "61626f72746564"))], (Full (Obs (BResults [0]) [(Task (hx "7431") 1 6 6 (hx "6731") (2)%Z 1 2 2 1 2 [] 0 (0)%Z false 0 7 (1420)%Z proof_zero 1 (0)%Z [] [] (hx "61626f72746564") (1010)%Z (1110)%Z (1110)%Z progress_zero)] [((ChanKey (hx "6731") (2)%Z), None)] [((ChanKey (hx "6731") (2)%Z), (Some (RuntimeMeta (hx "6731") (2)%Z 1 3 5 [1; 2; 3] [1; 2; 3] 2 (2)%Z 1 1 (1380)%Z 0 (0)%Z [] 2 0 (0)%Z 0)))])))]).

Definition k1_claim_rewind_abort_case : c17_case :=
 (C17Case [([(CUpsertMeta (RuntimeMeta (hx "6731") (2)%Z 1 2 0 [1; 2; 3] [1; 2; 3] 1 (2)%Z 1 1 (1500)%Z 0 (0)%Z [] 0 0 (0)%Z 0))], (Full (Obs (BResults [0]) [] [((ChanKey (hx "6731") (2)%Z), None)] [((ChanKey (hx "6731") (2)%Z), (Some (RuntimeMeta (hx "6731") (2)%Z 1 2 2 [1; 2; 3] [1; 2; 3] 1 (2)%Z 1 1 (1500)%Z 0 (0)%Z [] 0 0 (0)%Z 0)))])));
  ([(CCreate (Task (hx "7431") 1 1 1 (hx "6731") (2)%Z 1 2 2 1 2 [] 0 (0)%Z false 0 0 (0)%Z proof_zero 0 (0)%Z [] [] [] (1010)%Z (1010)%Z (0)%Z progress_zero))], (Full (Obs (BResults [0]) [(Task (hx "7431") 1 1 1 (hx "6731") (2)%Z 1 2 2 1 2 [] 0 (0)%Z false 0 0 (0)%Z proof_zero 0 (0)%Z [] [] [] (1010)%Z (1010)%Z (0)%Z progress_zero)] [((ChanKey (hx "6731") (2)%Z), (Some (hx "7431")))] [((ChanKey (hx "6731") (2)%Z), (Some (RuntimeMeta (hx "6731") (2)%Z 1 2 2 [1; 2; 3] [1; 2; 3] 1 (2)%Z 1 1 (1500)%Z 0 (0)%Z [] 0 0 (0)%Z 0)))])));
  ([(CClaim (TGuard (hx "6731") (2)%Z (hx "7431") 1 1 0 (0)%Z (1010)%Z) 2 1 7 (1420)%Z (1020)%Z (1020)%Z)], (Full (Obs (BResults [0]) [(Task (hx "7431") 1 2 1 (hx "6731") (2)%Z 1 2 2 1 2 [] 0 (0)%Z false 0 7 (1420)%Z proof_zero 0 (0)%Z [] [] [] (1010)%Z (1020)%Z (0)%Z progress_zero)] [((ChanKey (hx "6731") (2)%Z), (Some (hx "7431")))] [((ChanKey (hx "6731") (2)%Z), (Some (RuntimeMeta (hx "6731") (2)%Z 1 2 2 [1; 2; 3] [1; 2; 3] 1 (2)%Z 1 1 (1500)%Z 0 (0)%Z [] 0 0 (0)%Z 0)))])));
  ([(CAdvance (TGuard (hx "6731") (2)%Z (hx "7431") 2 1 7 (1420)%Z (1020)%Z) 2 2 1 (0)%Z [] [] [] (1030)%Z (0)%Z progress_zero proof_zero 0)], (Full (Obs (BResults [0]) [(Task (hx "7431") 1 2 2 (hx "6731") (2)%Z 1 2 2 1 2 [] 0 (0)%Z false 0 7 (1420)%Z proof_zero 1 (0)%Z [] [] [] (1010)%Z (1030)%Z (0)%Z progress_zero)] [((ChanKey (hx "6731") (2)%Z), (Some (hx "7431")))] [((ChanKey (hx "6731") (2)%Z), (Some (RuntimeMeta (hx "6731") (2)%Z 1 2 2 [1; 2; 3] [1; 2; 3] 1 (2)%Z 1 1 (1500)%Z 0 (0)%Z [] 0 0 (0)%Z 0)))])));
  ([(CAdvance (TGuard (hx "6731") (2)%Z (hx "7431") 2 2 7 (1420)%Z (1030)%Z) 2 3 1 (0)%Z [] [] [] (1040)%Z (0)%Z progress_zero proof_zero 0)], (Full (Obs (BResults [0]) [(Task (hx "7431") 1 2 3 (hx "6731") (2)%Z 1 2 2 1 2 [] 0 (0)%Z false 0 7 (1420)%Z proof_zero 1 (0)%Z [] [] [] (1010)%Z (1040)%Z (0)%Z progress_zero)] [((ChanKey (hx "6731") (2)%Z), (Some (hx "7431")))] [((ChanKey (hx "6731") (2)%Z), (Some (RuntimeMeta (hx "6731") (2)%Z 1 2 2 [1; 2; 3] [1; 2; 3] 1 (2)%Z 1 1 (1500)%Z 0 (0)%Z [] 0 0 (0)%Z 0)))])));
  ([(CSetFence (Trans (TGuard (hx "6731") (2)%Z (hx "7431") 2 3 7 (1420)%Z (1040)%Z) (RGuard (hx "6731") (2)%Z 1 2 1 [] 0 0) 2 4 (1050)%Z) 1 (1350)%Z)], (Full (Obs (BResults [0]) [(Task (hx "7431") 1 2 4 (hx "6731") (2)%Z 1 2 2 1 2 (hx "7431") 1 (1350)%Z false 0 7 (1420)%Z proof_zero 1 (0)%Z [] [] [] (1010)%Z (1050)%Z (0)%Z progress_zero)] [((ChanKey (hx "6731") (2)%Z), (Some (hx "7431")))] [((ChanKey (hx "6731") (2)%Z), (Some (RuntimeMeta (hx "6731") (2)%Z 1 2 3 [1; 2; 3] [1; 2; 3] 1 (2)%Z 1 1 (1500)%Z 0 (0)%Z (hx "7431") 1 1 (1350)%Z 0)))])));
  ([(CAdvance (TGuard (hx "6731") (2)%Z (hx "7431") 2 4 7 (1420)%Z (1050)%Z) 2 5 1 (0)%Z [] [] [] (1060)%Z (0)%Z progress_zero (Proof 100 99 1 9 1 2 1) 0)], (Full (Obs (BResults [0]) [(Task (hx "7431") 1 2 5 (hx "6731") (2)%Z 1 2 2 1 2 (hx "7431") 1 (1350)%Z false 0 7 (1420)%Z (Proof 100 99 1 9 1 2 1) 1 (0)%Z [] [] [] (1010)%Z (1060)%Z (0)%Z progress_zero)] [((ChanKey (hx "6731") (2)%Z), (Some (hx "7431")))] [((ChanKey (hx "6731") (2)%Z), (Some (RuntimeMeta (hx "6731") (2)%Z 1 2 3 [1; 2; 3] [1; 2; 3] 1 (2)%Z 1 1 (1500)%Z 0 (0)%Z (hx "7431") 1 1 (1350)%Z 0)))])));
  ([(CAdvance (TGuard (hx "6731") (2)%Z (hx "7431") 2 5 7 (1420)%Z (1060)%Z) 2 6 1 (0)%Z [] [] [] (1070)%Z (0)%Z progress_zero (Proof 100 99 1 9 1 2 1) 0)], (Full (Obs (BResults [0]) [(Task (hx "7431") 1 2 6 (hx "6731") (2)%Z 1 2 2 1 2 (hx "7431") 1 (1350)%Z false 0 7 (1420)%Z (Proof 100 99 1 9 1 2 1) 1 (0)%Z [] [] [] (1010)%Z (1070)%Z (0)%Z progress_zero)] [((ChanKey (hx "6731") (2)%Z), (Some (hx "7431")))] [((ChanKey (hx "6731") (2)%Z), (Some (RuntimeMeta (hx "6731") (2)%Z 1 2 3 [1; 2; 3] [1; 2; 3] 1 (2)%Z 1 1 (1500)%Z 0 (0)%Z (hx "7431") 1 1 (1350)%Z 0)))])));
  ([(CCommit (Trans (TGuard (hx "6731") (2)%Z (hx "7431") 2 6 7 (1420)%Z (1070)%Z) (RGuard (hx "6731") (2)%Z 1 2 1 (hx "7431") 1 0) 2 7 (1080)%Z) 2 3 (1380)%Z (1080)%Z)], (Full (Obs (BResults [0]) [(Task (hx "7431") 1 2 7 (hx "6731") (2)%Z 1 2 2 1 2 (hx "7431") 1 (1350)%Z false 0 7 (1420)%Z (Proof 100 99 1 9 1 2 1) 1 (0)%Z [] [] [] (1010)%Z (1080)%Z (0)%Z progress_zero)] [((ChanKey (hx "6731") (2)%Z), (Some (hx "7431")))] [((ChanKey (hx "6731") (2)%Z), (Some (RuntimeMeta (hx "6731") (2)%Z 1 3 4 [1; 2; 3] [1; 2; 3] 2 (2)%Z 1 1 (1380)%Z 0 (0)%Z (hx "7431") 1 1 (1350)%Z 0)))])));
  ([(CClaim (TGuard (hx "6731") (2)%Z (hx "7431") 2 7 7 (1420)%Z (1080)%Z) 2 6 7 (1490)%Z (1090)%Z (1090)%Z)], (Full (Obs (BResults [0]) [(Task (hx "7431") 1 2 6 (hx "6731") (2)%Z 1 2 2 1 2 (hx "7431") 1 (1350)%Z false 0 7 (1490)%Z (Proof 100 99 1 9 1 2 1) 1 (0)%Z [] [] [] (1010)%Z (1090)%Z (0)%Z progress_zero)] [((ChanKey (hx "6731") (2)%Z), (Some (hx "7431")))] [((ChanKey (hx "6731") (2)%Z), (Some (RuntimeMeta (hx "6731") (2)%Z 1 3 4 [1; 2; 3] [1; 2; 3] 2 (2)%Z 1 1 (1380)%Z 0 (0)%Z (hx "7431") 1 1 (1350)%Z 0)))])));
  ([(CAbort (Trans (TGuard (hx "6731") (2)%Z (hx "7431") 2 6 7 (1490)%Z (1090)%Z) (RGuard (hx "6731") (2)%Z 1 3 2 (hx "7431") 1 0) 6 6 (1100)%Z) (1100)%Z (hx "61626f72746564"))], (Full (Obs (BResults [0]) [(Task (hx "7431") 1 6 6 (hx "6731") (2)%Z 1 2 2 1 2 [] 0 (0)%Z false 0 7 (1490)%Z proof_zero 1 (0)%Z [] [] (hx "61626f72746564") (1010)%Z (1100)%Z (1100)%Z progress_zero)] [((ChanKey (hx "6731") (2)%Z), None)] [((ChanKey (hx "6731") (2)%Z), (Some (RuntimeMeta (hx "6731") (2)%Z 1 3 5 [1; 2; 3] [1; 2; 3] 2 (2)%Z 1 1 (1380)%Z 0 (0)%Z [] 2 0 (0)%Z 0)))])))]).

Definition k2_reset_rewind_abort_case : c17_case :=
 (C17Case [([(CUpsertMeta (RuntimeMeta (hx "6731") (2)%Z 1 2 0 [1; 2; 3] [1; 2; 3] 1 (2)%Z 1 1 (1500)%Z 0 (0)%Z [] 0 0 (0)%Z 0))], (Full (Obs (BResults [0]) [] [((ChanKey (hx "6731") (2)%Z), None)] [((ChanKey (hx "6731") (2)%Z), (Some (RuntimeMeta (hx "6731") (2)%Z 1 2 2 [1; 2; 3] [1; 2; 3] 1 (2)%Z 1 1 (1500)%Z 0 (0)%Z [] 0 0 (0)%Z 0)))])));
  ([(CCreate (Task (hx "7431") 1 1 1 (hx "6731") (2)%Z 1 2 2 1 2 [] 0 (0)%Z false 0 0 (0)%Z proof_zero 0 (0)%Z [] [] [] (1010)%Z (1010)%Z (0)%Z progress_zero))], (Full (Obs (BResults [0]) [(Task (hx "7431") 1 1 1 (hx "6731") (2)%Z 1 2 2 1 2 [] 0 (0)%Z false 0 0 (0)%Z proof_zero 0 (0)%Z [] [] [] (1010)%Z (1010)%Z (0)%Z progress_zero)] [((ChanKey (hx "6731") (2)%Z), (Some (hx "7431")))] [((ChanKey (hx "6731") (2)%Z), (Some (RuntimeMeta (hx "6731") (2)%Z 1 2 2 [1; 2; 3] [1; 2; 3] 1 (2)%Z 1 1 (1500)%Z 0 (0)%Z [] 0 0 (0)%Z 0)))])));
  ([(CClaim (TGuard (hx "6731") (2)%Z (hx "7431") 1 1 0 (0)%Z (1010)%Z) 2 1 7 (1420)%Z (1020)%Z (1020)%Z)], (Full (Obs (BResults [0]) [(Task (hx "7431") 1 2 1 (hx "6731") (2)%Z 1 2 2 1 2 [] 0 (0)%Z false 0 7 (1420)%Z proof_zero 0 (0)%Z [] [] [] (1010)%Z (1020)%Z (0)%Z progress_zero)] [((ChanKey (hx "6731") (2)%Z), (Some (hx "7431")))] [((ChanKey (hx "6731") (2)%Z), (Some (RuntimeMeta (hx "6731") (2)%Z 1 2 2 [1; 2; 3] [1; 2; 3] 1 (2)%Z 1 1 (1500)%Z 0 (0)%Z [] 0 0 (0)%Z 0)))])));
  ([(CAdvance (TGuard (hx "6731") (2)%Z (hx "7431") 2 1 7 (1420)%Z (1020)%Z) 2 2 1 (0)%Z [] [] [] (1030)%Z (0)%Z progress_zero proof_zero 0)], (Full (Obs (BResults [0]) [(Task (hx "7431") 1 2 2 (hx "6731") (2)%Z 1 2 2 1 2 [] 0 (0)%Z false 0 7 (1420)%Z proof_zero 1 (0)%Z [] [] [] (1010)%Z (1030)%Z (0)%Z progress_zero)] [((ChanKey (hx "6731") (2)%Z), (Some (hx "7431")))] [((ChanKey (hx "6731") (2)%Z), (Some (RuntimeMeta (hx "6731") (2)%Z 1 2 2 [1; 2; 3] [1; 2; 3] 1 (2)%Z 1 1 (1500)%Z 0 (0)%Z [] 0 0 (0)%Z 0)))])));
  ([(CAdvance (TGuard (hx "6731") (2)%Z (hx "7431") 2 2 7 (1420)%Z (1030)%Z) 2 3 1 (0)%Z [] [] [] (1040)%Z (0)%Z progress_zero proof_zero 0)], (Full (Obs (BResults [0]) [(Task (hx "7431") 1 2 3 (hx "6731") (2)%Z 1 2 2 1 2 [] 0 (0)%Z false 0 7 (1420)%Z proof_zero 1 (0)%Z [] [] [] (1010)%Z (1040)%Z (0)%Z progress_zero)] [((ChanKey (hx "6731") (2)%Z), (Some (hx "7431")))] [((ChanKey (hx "6731") (2)%Z), (Some (RuntimeMeta (hx "6731") (2)%Z 1 2 2 [1; 2; 3] [1; 2; 3] 1 (2)%Z 1 1 (1500)%Z 0 (0)%Z [] 0 0 (0)%Z 0)))])));
  ([(CSetFence (Trans (TGuard (hx "6731") (2)%Z (hx "7431") 2 3 7 (1420)%Z (1040)%Z) (RGuard (hx "6731") (2)%Z 1 2 1 [] 0 0) 2 4 (1050)%Z) 1 (1350)%Z)], (Full (Obs (BResults [0]) [(Task (hx "7431") 1 2 4 (hx "6731") (2)%Z 1 2 2 1 2 (hx "7431") 1 (1350)%Z false 0 7 (1420)%Z proof_zero 1 (0)%Z [] [] [] (1010)%Z (1050)%Z (0)%Z progress_zero)] [((ChanKey (hx "6731") (2)%Z), (Some (hx "7431")))] [((ChanKey (hx "6731") (2)%Z), (Some (RuntimeMeta (hx "6731") (2)%Z 1 2 3 [1; 2; 3] [1; 2; 3] 1 (2)%Z 1 1 (1500)%Z 0 (0)%Z (hx "7431") 1 1 (1350)%Z 0)))])));
  ([(CAdvance (TGuard (hx "6731") (2)%Z (hx "7431") 2 4 7 (1420)%Z (1050)%Z) 2 5 1 (0)%Z [] [] [] (1060)%Z (0)%Z progress_zero (Proof 100 99 1 9 1 2 1) 0)], (Full (Obs (BResults [0]) [(Task (hx "7431") 1 2 5 (hx "6731") (2)%Z 1 2 2 1 2 (hx "7431") 1 (1350)%Z false 0 7 (1420)%Z (Proof 100 99 1 9 1 2 1) 1 (0)%Z [] [] [] (1010)%Z (1060)%Z (0)%Z progress_zero)] [((ChanKey (hx "6731") (2)%Z), (Some (hx "7431")))] [((ChanKey (hx "6731") (2)%Z), (Some (RuntimeMeta (hx "6731") (2)%Z 1 2 3 [1; 2; 3] [1; 2; 3] 1 (2)%Z 1 1 (1500)%Z 0 (0)%Z (hx "7431") 1 1 (1350)%Z 0)))])));
  ([(CAdvance (TGuard (hx "6731") (2)%Z (hx "7431") 2 5 7 (1420)%Z (1060)%Z) 2 6 1 (0)%Z [] [] [] (1070)%Z (0)%Z progress_zero (Proof 100 99 1 9 1 2 1) 0)], (Full (Obs (BResults [0]) [(Task (hx "7431") 1 2 6 (hx "6731") (2)%Z 1 2 2 1 2 (hx "7431") 1 (1350)%Z false 0 7 (1420)%Z (Proof 100 99 1 9 1 2 1) 1 (0)%Z [] [] [] (1010)%Z (1070)%Z (0)%Z progress_zero)] [((ChanKey (hx "6731") (2)%Z), (Some (hx "7431")))] [((ChanKey (hx "6731") (2)%Z), (Some (RuntimeMeta (hx "6731") (2)%Z 1 2 3 [1; 2; 3] [1; 2; 3] 1 (2)%Z 1 1 (1500)%Z 0 (0)%Z (hx "7431") 1 1 (1350)%Z 0)))])));
  ([(CCommit (Trans (TGuard (hx "6731") (2)%Z (hx "7431") 2 6 7 (1420)%Z (1070)%Z) (RGuard (hx "6731") (2)%Z 1 2 1 (hx "7431") 1 0) 2 7 (1080)%Z) 2 3 (1380)%Z (1080)%Z)], (Full (Obs (BResults [0]) [(Task (hx "7431") 1 2 7 (hx "6731") (2)%Z 1 2 2 1 2 (hx "7431") 1 (1350)%Z false 0 7 (1420)%Z (Proof 100 99 1 9 1 2 1) 1 (0)%Z [] [] [] (1010)%Z (1080)%Z (0)%Z progress_zero)] [((ChanKey (hx "6731") (2)%Z), (Some (hx "7431")))] [((ChanKey (hx "6731") (2)%Z), (Some (RuntimeMeta (hx "6731") (2)%Z 1 3 4 [1; 2; 3] [1; 2; 3] 2 (2)%Z 1 1 (1380)%Z 0 (0)%Z (hx "7431") 1 1 (1350)%Z 0)))])));
  ([(CAbort (Trans (TGuard (hx "6731") (2)%Z (hx "7431") 2 7 7 (1420)%Z (1080)%Z) (RGuard (hx "6731") (2)%Z 1 3 2 (hx "7431") 1 0) 6 7 (1090)%Z) (1090)%Z (hx "61626f72746564"))], (Same (BResults [1])));
  ([(CReset (Trans (TGuard (hx "6731") (2)%Z (hx "7431") 2 7 7 (1420)%Z (1080)%Z) (RGuard (hx "6731") (2)%Z 1 3 2 (hx "7431") 1 0) 2 2 (1100)%Z) (1351)%Z)], (Full (Obs (BResults [0]) [(Task (hx "7431") 1 2 2 (hx "6731") (2)%Z 1 2 2 1 2 [] 0 (0)%Z false 0 7 (1420)%Z proof_zero 1 (0)%Z [] [] [] (1010)%Z (1100)%Z (0)%Z progress_zero)] [((ChanKey (hx "6731") (2)%Z), (Some (hx "7431")))] [((ChanKey (hx "6731") (2)%Z), (Some (RuntimeMeta (hx "6731") (2)%Z 1 3 5 [1; 2; 3] [1; 2; 3] 2 (2)%Z 1 1 (1380)%Z 0 (0)%Z [] 2 0 (0)%Z 0)))])));
  ([(CAbort (Trans (TGuard (hx "6731") (2)%Z (hx "7431") 2 2 7 (1420)%Z (1100)%Z) (RGuard (hx "6731") (2)%Z 1 3 2 [] 2 0) 6 2 (1110)%Z) (1110)%Z (hx "61626f72746564"))], (Full (Obs (BResults [0]) [(Task (hx "7431") 1 6 2 (hx "6731") (2)%Z 1 2 2 1 2 [] 0 (0)%Z false 0 7 (1420)%Z proof_zero 1 (0)%Z [] [] (hx "61626f72746564") (1010)%Z (1110)%Z (1110)%Z progress_zero)] [((ChanKey (hx "6731") (2)%Z), None)] [((ChanKey (hx "6731") (2)%Z), (Some (RuntimeMeta (hx "6731") (2)%Z 1 3 5 [1; 2; 3] [1; 2; 3] 2 (2)%Z 1 1 (1380)%Z 0 (0)%Z [] 2 0 (0)%Z 0)))])))]).

Definition k3_batch_double_active_case : c17_case :=
 (C17Case [([(CUpsertMeta (RuntimeMeta (hx "6731") (2)%Z 1 2 0 [1; 2; 3] [1; 2; 3] 1 (2)%Z 1 1 (1500)%Z 0 (0)%Z [] 0 0 (0)%Z 0))], (Full (Obs (BResults [0]) [] [((ChanKey (hx "6731") (2)%Z), None)] [((ChanKey (hx "6731") (2)%Z), (Some (RuntimeMeta (hx "6731") (2)%Z 1 2 2 [1; 2; 3] [1; 2; 3] 1 (2)%Z 1 1 (1500)%Z 0 (0)%Z [] 0 0 (0)%Z 0)))])));
  ([(CCreate (Task (hx "7431") 1 1 1 (hx "6731") (2)%Z 1 2 2 1 2 [] 0 (0)%Z false 0 0 (0)%Z proof_zero 0 (0)%Z [] [] [] (1010)%Z (1010)%Z (0)%Z progress_zero))], (Full (Obs (BResults [0]) [(Task (hx "7431") 1 1 1 (hx "6731") (2)%Z 1 2 2 1 2 [] 0 (0)%Z false 0 0 (0)%Z proof_zero 0 (0)%Z [] [] [] (1010)%Z (1010)%Z (0)%Z progress_zero)] [((ChanKey (hx "6731") (2)%Z), (Some (hx "7431")))] [((ChanKey (hx "6731") (2)%Z), (Some (RuntimeMeta (hx "6731") (2)%Z 1 2 2 [1; 2; 3] [1; 2; 3] 1 (2)%Z 1 1 (1500)%Z 0 (0)%Z [] 0 0 (0)%Z 0)))])));
  ([(CClaim (TGuard (hx "6731") (2)%Z (hx "7431") 1 1 0 (0)%Z (1010)%Z) 2 1 7 (1420)%Z (1020)%Z (1020)%Z)], (Full (Obs (BResults [0]) [(Task (hx "7431") 1 2 1 (hx "6731") (2)%Z 1 2 2 1 2 [] 0 (0)%Z false 0 7 (1420)%Z proof_zero 0 (0)%Z [] [] [] (1010)%Z (1020)%Z (0)%Z progress_zero)] [((ChanKey (hx "6731") (2)%Z), (Some (hx "7431")))] [((ChanKey (hx "6731") (2)%Z), (Some (RuntimeMeta (hx "6731") (2)%Z 1 2 2 [1; 2; 3] [1; 2; 3] 1 (2)%Z 1 1 (1500)%Z 0 (0)%Z [] 0 0 (0)%Z 0)))])));
  ([(CAdvance (TGuard (hx "6731") (2)%Z (hx "7431") 2 1 7 (1420)%Z (1020)%Z) 2 2 1 (0)%Z [] [] [] (1030)%Z (0)%Z progress_zero proof_zero 0)], (Full (Obs (BResults [0]) [(Task (hx "7431") 1 2 2 (hx "6731") (2)%Z 1 2 2 1 2 [] 0 (0)%Z false 0 7 (1420)%Z proof_zero 1 (0)%Z [] [] [] (1010)%Z (1030)%Z (0)%Z progress_zero)] [((ChanKey (hx "6731") (2)%Z), (Some (hx "7431")))] [((ChanKey (hx "6731") (2)%Z), (Some (RuntimeMeta (hx "6731") (2)%Z 1 2 2 [1; 2; 3] [1; 2; 3] 1 (2)%Z 1 1 (1500)%Z 0 (0)%Z [] 0 0 (0)%Z 0)))])));
  ([(CAdvance (TGuard (hx "6731") (2)%Z (hx "7431") 2 2 7 (1420)%Z (1030)%Z) 2 3 1 (0)%Z [] [] [] (1040)%Z (0)%Z progress_zero proof_zero 0)], (Full (Obs (BResults [0]) [(Task (hx "7431") 1 2 3 (hx "6731") (2)%Z 1 2 2 1 2 [] 0 (0)%Z false 0 7 (1420)%Z proof_zero 1 (0)%Z [] [] [] (1010)%Z (1040)%Z (0)%Z progress_zero)] [((ChanKey (hx "6731") (2)%Z), (Some (hx "7431")))] [((ChanKey (hx "6731") (2)%Z), (Some (RuntimeMeta (hx "6731") (2)%Z 1 2 2 [1; 2; 3] [1; 2; 3] 1 (2)%Z 1 1 (1500)%Z 0 (0)%Z [] 0 0 (0)%Z 0)))])));
  ([(CSetFence (Trans (TGuard (hx "6731") (2)%Z (hx "7431") 2 3 7 (1420)%Z (1040)%Z) (RGuard (hx "6731") (2)%Z 1 2 1 [] 0 0) 2 4 (1050)%Z) 1 (1350)%Z)], (Full (Obs (BResults [0]) [(Task (hx "7431") 1 2 4 (hx "6731") (2)%Z 1 2 2 1 2 (hx "7431") 1 (1350)%Z false 0 7 (1420)%Z proof_zero 1 (0)%Z [] [] [] (1010)%Z (1050)%Z (0)%Z progress_zero)] [((ChanKey (hx "6731") (2)%Z), (Some (hx "7431")))] [((ChanKey (hx "6731") (2)%Z), (Some (RuntimeMeta (hx "6731") (2)%Z 1 2 3 [1; 2; 3] [1; 2; 3] 1 (2)%Z 1 1 (1500)%Z 0 (0)%Z (hx "7431") 1 1 (1350)%Z 0)))])));
  ([(CAdvance (TGuard (hx "6731") (2)%Z (hx "7431") 2 4 7 (1420)%Z (1050)%Z) 2 5 1 (0)%Z [] [] [] (1060)%Z (0)%Z progress_zero (Proof 100 99 1 9 1 2 1) 0)], (Full (Obs (BResults [0]) [(Task (hx "7431") 1 2 5 (hx "6731") (2)%Z 1 2 2 1 2 (hx "7431") 1 (1350)%Z false 0 7 (1420)%Z (Proof 100 99 1 9 1 2 1) 1 (0)%Z [] [] [] (1010)%Z (1060)%Z (0)%Z progress_zero)] [((ChanKey (hx "6731") (2)%Z), (Some (hx "7431")))] [((ChanKey (hx "6731") (2)%Z), (Some (RuntimeMeta (hx "6731") (2)%Z 1 2 3 [1; 2; 3] [1; 2; 3] 1 (2)%Z 1 1 (1500)%Z 0 (0)%Z (hx "7431") 1 1 (1350)%Z 0)))])));
  ([(CAdvance (TGuard (hx "6731") (2)%Z (hx "7431") 2 5 7 (1420)%Z (1060)%Z) 2 6 1 (0)%Z [] [] [] (1070)%Z (0)%Z progress_zero (Proof 100 99 1 9 1 2 1) 0)], (Full (Obs (BResults [0]) [(Task (hx "7431") 1 2 6 (hx "6731") (2)%Z 1 2 2 1 2 (hx "7431") 1 (1350)%Z false 0 7 (1420)%Z (Proof 100 99 1 9 1 2 1) 1 (0)%Z [] [] [] (1010)%Z (1070)%Z (0)%Z progress_zero)] [((ChanKey (hx "6731") (2)%Z), (Some (hx "7431")))] [((ChanKey (hx "6731") (2)%Z), (Some (RuntimeMeta (hx "6731") (2)%Z 1 2 3 [1; 2; 3] [1; 2; 3] 1 (2)%Z 1 1 (1500)%Z 0 (0)%Z (hx "7431") 1 1 (1350)%Z 0)))])));
  ([(CCommit (Trans (TGuard (hx "6731") (2)%Z (hx "7431") 2 6 7 (1420)%Z (1070)%Z) (RGuard (hx "6731") (2)%Z 1 2 1 (hx "7431") 1 0) 2 7 (1080)%Z) 2 3 (1380)%Z (1080)%Z)], (Full (Obs (BResults [0]) [(Task (hx "7431") 1 2 7 (hx "6731") (2)%Z 1 2 2 1 2 (hx "7431") 1 (1350)%Z false 0 7 (1420)%Z (Proof 100 99 1 9 1 2 1) 1 (0)%Z [] [] [] (1010)%Z (1080)%Z (0)%Z progress_zero)] [((ChanKey (hx "6731") (2)%Z), (Some (hx "7431")))] [((ChanKey (hx "6731") (2)%Z), (Some (RuntimeMeta (hx "6731") (2)%Z 1 3 4 [1; 2; 3] [1; 2; 3] 2 (2)%Z 1 1 (1380)%Z 0 (0)%Z (hx "7431") 1 1 (1350)%Z 0)))])));
  ([(CClear (Trans (TGuard (hx "6731") (2)%Z (hx "7431") 2 7 7 (1420)%Z (1080)%Z) (RGuard (hx "6731") (2)%Z 1 3 2 (hx "7431") 1 0) 4 27 (1090)%Z) (1090)%Z)], (Full (Obs (BResults [0]) [(Task (hx "7431") 1 4 27 (hx "6731") (2)%Z 1 2 2 1 2 [] 0 (0)%Z false 0 7 (1420)%Z proof_zero 1 (0)%Z [] [] [] (1010)%Z (1090)%Z (1090)%Z progress_zero)] [((ChanKey (hx "6731") (2)%Z), None)] [((ChanKey (hx "6731") (2)%Z), (Some (RuntimeMeta (hx "6731") (2)%Z 1 3 5 [1; 2; 3] [1; 2; 3] 2 (2)%Z 1 1 (1380)%Z 0 (0)%Z [] 2 0 (0)%Z 0)))])));
  ([(CAdvance (TGuard (hx "6731") (2)%Z (hx "7431") 4 27 7 (1420)%Z (1090)%Z) 2 2 1 (0)%Z [] [] [] (1100)%Z (0)%Z progress_zero proof_zero 0);
  (CCreate (Task (hx "7432") 1 1 1 (hx "6731") (2)%Z 2 1 1 1 3 [] 0 (0)%Z false 0 0 (0)%Z proof_zero 0 (0)%Z [] [] [] (1105)%Z (1105)%Z (0)%Z progress_zero))], (Full (Obs (BResults [0; 0]) [(Task (hx "7431") 1 2 2 (hx "6731") (2)%Z 1 2 2 1 2 [] 0 (0)%Z false 0 7 (1420)%Z proof_zero 1 (0)%Z [] [] [] (1010)%Z (1100)%Z (0)%Z progress_zero);
  (Task (hx "7432") 1 1 1 (hx "6731") (2)%Z 2 1 1 1 3 [] 0 (0)%Z false 0 0 (0)%Z proof_zero 0 (0)%Z [] [] [] (1105)%Z (1105)%Z (0)%Z progress_zero)] [((ChanKey (hx "6731") (2)%Z), (Some (hx "7432")))] [((ChanKey (hx "6731") (2)%Z), (Some (RuntimeMeta (hx "6731") (2)%Z 1 3 5 [1; 2; 3] [1; 2; 3] 2 (2)%Z 1 1 (1380)%Z 0 (0)%Z [] 2 0 (0)%Z 0)))])))]).

Definition r03_embedded_leg_then_abort_case : c17_case :=
 (C17Case [([(CUpsertMeta (RuntimeMeta (hx "6731") (2)%Z 1 2 0 [1; 2; 3] [1; 2; 3] 3 (2)%Z 1 1 (1500)%Z 0 (0)%Z [] 0 0 (0)%Z 0))], (Full (Obs (BResults [0]) [] [((ChanKey (hx "6731") (2)%Z), None)] [((ChanKey (hx "6731") (2)%Z), (Some (RuntimeMeta (hx "6731") (2)%Z 1 2 2 [1; 2; 3] [1; 2; 3] 3 (2)%Z 1 1 (1500)%Z 0 (0)%Z [] 0 0 (0)%Z 0)))])));
  ([(CCreate (Task (hx "7431") 2 1 1 (hx "6731") (2)%Z 3 4 0 1 2 [] 0 (0)%Z false 0 0 (0)%Z proof_zero 0 (0)%Z [] [] [] (1010)%Z (1010)%Z (0)%Z progress_zero))], (Full (Obs (BResults [0]) [(Task (hx "7431") 2 1 1 (hx "6731") (2)%Z 3 4 0 1 2 [] 0 (0)%Z false 0 0 (0)%Z proof_zero 0 (0)%Z [] [] [] (1010)%Z (1010)%Z (0)%Z progress_zero)] [((ChanKey (hx "6731") (2)%Z), (Some (hx "7431")))] [((ChanKey (hx "6731") (2)%Z), (Some (RuntimeMeta (hx "6731") (2)%Z 1 2 2 [1; 2; 3] [1; 2; 3] 3 (2)%Z 1 1 (1500)%Z 0 (0)%Z [] 0 0 (0)%Z 0)))])));
  ([(CClaim (TGuard (hx "6731") (2)%Z (hx "7431") 1 1 0 (0)%Z (1010)%Z) 2 1 7 (1420)%Z (1020)%Z (1020)%Z)], (Full (Obs (BResults [0]) [(Task (hx "7431") 2 2 1 (hx "6731") (2)%Z 3 4 0 1 2 [] 0 (0)%Z false 0 7 (1420)%Z proof_zero 0 (0)%Z [] [] [] (1010)%Z (1020)%Z (0)%Z progress_zero)] [((ChanKey (hx "6731") (2)%Z), (Some (hx "7431")))] [((ChanKey (hx "6731") (2)%Z), (Some (RuntimeMeta (hx "6731") (2)%Z 1 2 2 [1; 2; 3] [1; 2; 3] 3 (2)%Z 1 1 (1500)%Z 0 (0)%Z [] 0 0 (0)%Z 0)))])));
  ([(CAdvance (TGuard (hx "6731") (2)%Z (hx "7431") 2 1 7 (1420)%Z (1020)%Z) 2 2 1 (0)%Z [] [] [] (1030)%Z (0)%Z progress_zero proof_zero 1)], (Full (Obs (BResults [0]) [(Task (hx "7431") 2 2 2 (hx "6731") (2)%Z 3 4 0 1 2 [] 0 (0)%Z true 1 7 (1420)%Z proof_zero 1 (0)%Z [] [] [] (1010)%Z (1030)%Z (0)%Z progress_zero)] [((ChanKey (hx "6731") (2)%Z), (Some (hx "7431")))] [((ChanKey (hx "6731") (2)%Z), (Some (RuntimeMeta (hx "6731") (2)%Z 1 2 2 [1; 2; 3] [1; 2; 3] 3 (2)%Z 1 1 (1500)%Z 0 (0)%Z [] 0 0 (0)%Z 0)))])));
  ([(CAdvance (TGuard (hx "6731") (2)%Z (hx "7431") 2 2 7 (1420)%Z (1030)%Z) 2 3 1 (0)%Z [] [] [] (1040)%Z (0)%Z progress_zero proof_zero 0)], (Full (Obs (BResults [0]) [(Task (hx "7431") 2 2 3 (hx "6731") (2)%Z 3 4 0 1 2 [] 0 (0)%Z true 1 7 (1420)%Z proof_zero 1 (0)%Z [] [] [] (1010)%Z (1040)%Z (0)%Z progress_zero)] [((ChanKey (hx "6731") (2)%Z), (Some (hx "7431")))] [((ChanKey (hx "6731") (2)%Z), (Some (RuntimeMeta (hx "6731") (2)%Z 1 2 2 [1; 2; 3] [1; 2; 3] 3 (2)%Z 1 1 (1500)%Z 0 (0)%Z [] 0 0 (0)%Z 0)))])));
  ([(CSetFence (Trans (TGuard (hx "6731") (2)%Z (hx "7431") 2 3 7 (1420)%Z (1040)%Z) (RGuard (hx "6731") (2)%Z 1 2 3 [] 0 0) 2 4 (1050)%Z) 1 (1350)%Z)], (Full (Obs (BResults [0]) [(Task (hx "7431") 2 2 4 (hx "6731") (2)%Z 3 4 0 1 2 (hx "7431") 1 (1350)%Z true 1 7 (1420)%Z proof_zero 1 (0)%Z [] [] [] (1010)%Z (1050)%Z (0)%Z progress_zero)] [((ChanKey (hx "6731") (2)%Z), (Some (hx "7431")))] [((ChanKey (hx "6731") (2)%Z), (Some (RuntimeMeta (hx "6731") (2)%Z 1 2 3 [1; 2; 3] [1; 2; 3] 3 (2)%Z 1 1 (1500)%Z 0 (0)%Z (hx "7431") 1 1 (1350)%Z 0)))])));
  ([(CAdvance (TGuard (hx "6731") (2)%Z (hx "7431") 2 4 7 (1420)%Z (1050)%Z) 2 5 1 (0)%Z [] [] [] (1060)%Z (0)%Z progress_zero (Proof 100 99 3 9 1 2 1) 0)], (Full (Obs (BResults [0]) [(Task (hx "7431") 2 2 5 (hx "6731") (2)%Z 3 4 0 1 2 (hx "7431") 1 (1350)%Z true 1 7 (1420)%Z (Proof 100 99 3 9 1 2 1) 1 (0)%Z [] [] [] (1010)%Z (1060)%Z (0)%Z progress_zero)] [((ChanKey (hx "6731") (2)%Z), (Some (hx "7431")))] [((ChanKey (hx "6731") (2)%Z), (Some (RuntimeMeta (hx "6731") (2)%Z 1 2 3 [1; 2; 3] [1; 2; 3] 3 (2)%Z 1 1 (1500)%Z 0 (0)%Z (hx "7431") 1 1 (1350)%Z 0)))])));
  ([(CAdvance (TGuard (hx "6731") (2)%Z (hx "7431") 2 5 7 (1420)%Z (1060)%Z) 2 6 1 (0)%Z [] [] [] (1070)%Z (0)%Z progress_zero (Proof 100 99 3 9 1 2 1) 0)], (Full (Obs (BResults [0]) [(Task (hx "7431") 2 2 6 (hx "6731") (2)%Z 3 4 0 1 2 (hx "7431") 1 (1350)%Z true 1 7 (1420)%Z (Proof 100 99 3 9 1 2 1) 1 (0)%Z [] [] [] (1010)%Z (1070)%Z (0)%Z progress_zero)] [((ChanKey (hx "6731") (2)%Z), (Some (hx "7431")))] [((ChanKey (hx "6731") (2)%Z), (Some (RuntimeMeta (hx "6731") (2)%Z 1 2 3 [1; 2; 3] [1; 2; 3] 3 (2)%Z 1 1 (1500)%Z 0 (0)%Z (hx "7431") 1 1 (1350)%Z 0)))])));
  ([(CCommit (Trans (TGuard (hx "6731") (2)%Z (hx "7431") 2 6 7 (1420)%Z (1070)%Z) (RGuard (hx "6731") (2)%Z 1 2 3 (hx "7431") 1 0) 2 7 (1080)%Z) 1 3 (1380)%Z (1080)%Z)], (Full (Obs (BResults [0]) [(Task (hx "7431") 2 2 7 (hx "6731") (2)%Z 3 4 0 1 2 (hx "7431") 1 (1350)%Z true 1 7 (1420)%Z (Proof 100 99 3 9 1 2 1) 1 (0)%Z [] [] [] (1010)%Z (1080)%Z (0)%Z progress_zero)] [((ChanKey (hx "6731") (2)%Z), (Some (hx "7431")))] [((ChanKey (hx "6731") (2)%Z), (Some (RuntimeMeta (hx "6731") (2)%Z 1 3 4 [1; 2; 3] [1; 2; 3] 1 (2)%Z 1 1 (1380)%Z 0 (0)%Z (hx "7431") 1 1 (1350)%Z 0)))])));
  ([(CAbort (Trans (TGuard (hx "6731") (2)%Z (hx "7431") 2 7 7 (1420)%Z (1080)%Z) (RGuard (hx "6731") (2)%Z 1 3 1 (hx "7431") 1 0) 6 7 (1090)%Z) (1090)%Z (hx "61626f72746564"))], (Same (BResults [1])));
  ([(CClear (Trans (TGuard (hx "6731") (2)%Z (hx "7431") 2 7 7 (1420)%Z (1080)%Z) (RGuard (hx "6731") (2)%Z 1 3 1 (hx "7431") 1 0) 2 20 (1100)%Z) (0)%Z)], (Full (Obs (BResults [0]) [(Task (hx "7431") 2 2 20 (hx "6731") (2)%Z 3 4 0 1 2 [] 0 (0)%Z false 0 7 (1420)%Z proof_zero 1 (0)%Z [] [] [] (1010)%Z (1100)%Z (0)%Z progress_zero)] [((ChanKey (hx "6731") (2)%Z), (Some (hx "7431")))] [((ChanKey (hx "6731") (2)%Z), (Some (RuntimeMeta (hx "6731") (2)%Z 1 3 5 [1; 2; 3] [1; 2; 3] 1 (2)%Z 1 1 (1380)%Z 0 (0)%Z [] 2 0 (0)%Z 0)))])));
  ([(CAddLearner (Trans (TGuard (hx "6731") (2)%Z (hx "7431") 2 20 7 (1420)%Z (1100)%Z) (RGuard (hx "6731") (2)%Z 1 3 1 [] 2 0) 2 21 (1110)%Z) 4)], (Full (Obs (BResults [0]) [(Task (hx "7431") 2 2 21 (hx "6731") (2)%Z 3 4 0 1 2 [] 0 (0)%Z false 0 7 (1420)%Z proof_zero 1 (0)%Z [] [] [] (1010)%Z (1110)%Z (0)%Z progress_zero)] [((ChanKey (hx "6731") (2)%Z), (Some (hx "7431")))] [((ChanKey (hx "6731") (2)%Z), (Some (RuntimeMeta (hx "6731") (2)%Z 2 3 6 [1; 2; 3; 4] [1; 2; 3] 1 (2)%Z 1 1 (1380)%Z 0 (0)%Z [] 2 0 (0)%Z 0)))])));
  ([(CAbort (Trans (TGuard (hx "6731") (2)%Z (hx "7431") 2 21 7 (1420)%Z (1110)%Z) (RGuard (hx "6731") (2)%Z 2 3 1 [] 2 0) 6 21 (1120)%Z) (1120)%Z (hx "61626f72746564"))], (Full (Obs (BResults [0]) [(Task (hx "7431") 2 6 21 (hx "6731") (2)%Z 3 4 0 1 2 [] 0 (0)%Z false 0 7 (1420)%Z proof_zero 1 (0)%Z [] [] (hx "61626f72746564") (1010)%Z (1120)%Z (1120)%Z progress_zero)] [((ChanKey (hx "6731") (2)%Z), None)] [((ChanKey (hx "6731") (2)%Z), (Some (RuntimeMeta (hx "6731") (2)%Z 3 3 7 [1; 2; 3] [1; 2; 3] 1 (2)%Z 1 1 (1380)%Z 0 (0)%Z [] 2 0 (0)%Z 0)))])))]).

Definition r01_leader_transfer_happy_case : c17_case :=
 (C17Case [([(CUpsertMeta (RuntimeMeta (hx "6731") (2)%Z 1 2 0 [1; 2; 3] [1; 2; 3] 1 (2)%Z 1 1 (1500)%Z 0 (0)%Z [] 0 0 (0)%Z 0))], (Full (Obs (BResults [0]) [] [((ChanKey (hx "6731") (2)%Z), None)] [((ChanKey (hx "6731") (2)%Z), (Some (RuntimeMeta (hx "6731") (2)%Z 1 2 2 [1; 2; 3] [1; 2; 3] 1 (2)%Z 1 1 (1500)%Z 0 (0)%Z [] 0 0 (0)%Z 0)))])));
  ([(CCreate (Task (hx "7431") 1 1 1 (hx "6731") (2)%Z 1 2 2 1 2 [] 0 (0)%Z false 0 0 (0)%Z proof_zero 0 (0)%Z [] [] [] (1010)%Z (1010)%Z (0)%Z progress_zero))], (Full (Obs (BResults [0]) [(Task (hx "7431") 1 1 1 (hx "6731") (2)%Z 1 2 2 1 2 [] 0 (0)%Z false 0 0 (0)%Z proof_zero 0 (0)%Z [] [] [] (1010)%Z (1010)%Z (0)%Z progress_zero)] [((ChanKey (hx "6731") (2)%Z), (Some (hx "7431")))] [((ChanKey (hx "6731") (2)%Z), (Some (RuntimeMeta (hx "6731") (2)%Z 1 2 2 [1; 2; 3] [1; 2; 3] 1 (2)%Z 1 1 (1500)%Z 0 (0)%Z [] 0 0 (0)%Z 0)))])));
  ([(CClaim (TGuard (hx "6731") (2)%Z (hx "7431") 1 1 0 (0)%Z (1010)%Z) 2 1 7 (1420)%Z (1020)%Z (1020)%Z)], (Full (Obs (BResults [0]) [(Task (hx "7431") 1 2 1 (hx "6731") (2)%Z 1 2 2 1 2 [] 0 (0)%Z false 0 7 (1420)%Z proof_zero 0 (0)%Z [] [] [] (1010)%Z (1020)%Z (0)%Z progress_zero)] [((ChanKey (hx "6731") (2)%Z), (Some (hx "7431")))] [((ChanKey (hx "6731") (2)%Z), (Some (RuntimeMeta (hx "6731") (2)%Z 1 2 2 [1; 2; 3] [1; 2; 3] 1 (2)%Z 1 1 (1500)%Z 0 (0)%Z [] 0 0 (0)%Z 0)))])));
  ([(CAdvance (TGuard (hx "6731") (2)%Z (hx "7431") 2 1 7 (1420)%Z (1020)%Z) 2 2 1 (0)%Z [] [] [] (1030)%Z (0)%Z progress_zero proof_zero 0)], (Full (Obs (BResults [0]) [(Task (hx "7431") 1 2 2 (hx "6731") (2)%Z 1 2 2 1 2 [] 0 (0)%Z false 0 7 (1420)%Z proof_zero 1 (0)%Z [] [] [] (1010)%Z (1030)%Z (0)%Z progress_zero)] [((ChanKey (hx "6731") (2)%Z), (Some (hx "7431")))] [((ChanKey (hx "6731") (2)%Z), (Some (RuntimeMeta (hx "6731") (2)%Z 1 2 2 [1; 2; 3] [1; 2; 3] 1 (2)%Z 1 1 (1500)%Z 0 (0)%Z [] 0 0 (0)%Z 0)))])));
  ([(CAdvance (TGuard (hx "6731") (2)%Z (hx "7431") 2 2 7 (1420)%Z (1030)%Z) 2 3 1 (0)%Z [] [] [] (1040)%Z (0)%Z progress_zero proof_zero 0)], (Full (Obs (BResults [0]) [(Task (hx "7431") 1 2 3 (hx "6731") (2)%Z 1 2 2 1 2 [] 0 (0)%Z false 0 7 (1420)%Z proof_zero 1 (0)%Z [] [] [] (1010)%Z (1040)%Z (0)%Z progress_zero)] [((ChanKey (hx "6731") (2)%Z), (Some (hx "7431")))] [((ChanKey (hx "6731") (2)%Z), (Some (RuntimeMeta (hx "6731") (2)%Z 1 2 2 [1; 2; 3] [1; 2; 3] 1 (2)%Z 1 1 (1500)%Z 0 (0)%Z [] 0 0 (0)%Z 0)))])));
  ([(CSetFence (Trans (TGuard (hx "6731") (2)%Z (hx "7431") 2 3 7 (1420)%Z (1040)%Z) (RGuard (hx "6731") (2)%Z 1 2 1 [] 0 0) 2 4 (1050)%Z) 1 (1350)%Z)], (Full (Obs (BResults [0]) [(Task (hx "7431") 1 2 4 (hx "6731") (2)%Z 1 2 2 1 2 (hx "7431") 1 (1350)%Z false 0 7 (1420)%Z proof_zero 1 (0)%Z [] [] [] (1010)%Z (1050)%Z (0)%Z progress_zero)] [((ChanKey (hx "6731") (2)%Z), (Some (hx "7431")))] [((ChanKey (hx "6731") (2)%Z), (Some (RuntimeMeta (hx "6731") (2)%Z 1 2 3 [1; 2; 3] [1; 2; 3] 1 (2)%Z 1 1 (1500)%Z 0 (0)%Z (hx "7431") 1 1 (1350)%Z 0)))])));
  ([(CAdvance (TGuard (hx "6731") (2)%Z (hx "7431") 2 4 7 (1420)%Z (1050)%Z) 2 5 1 (0)%Z [] [] [] (1060)%Z (0)%Z progress_zero (Proof 100 99 1 9 1 2 1) 0)], (Full (Obs (BResults [0]) [(Task (hx "7431") 1 2 5 (hx "6731") (2)%Z 1 2 2 1 2 (hx "7431") 1 (1350)%Z false 0 7 (1420)%Z (Proof 100 99 1 9 1 2 1) 1 (0)%Z [] [] [] (1010)%Z (1060)%Z (0)%Z progress_zero)] [((ChanKey (hx "6731") (2)%Z), (Some (hx "7431")))] [((ChanKey (hx "6731") (2)%Z), (Some (RuntimeMeta (hx "6731") (2)%Z 1 2 3 [1; 2; 3] [1; 2; 3] 1 (2)%Z 1 1 (1500)%Z 0 (0)%Z (hx "7431") 1 1 (1350)%Z 0)))])));
  ([(CAdvance (TGuard (hx "6731") (2)%Z (hx "7431") 2 5 7 (1420)%Z (1060)%Z) 2 6 1 (0)%Z [] [] [] (1070)%Z (0)%Z progress_zero (Proof 100 99 1 9 1 2 1) 0)], (Full (Obs (BResults [0]) [(Task (hx "7431") 1 2 6 (hx "6731") (2)%Z 1 2 2 1 2 (hx "7431") 1 (1350)%Z false 0 7 (1420)%Z (Proof 100 99 1 9 1 2 1) 1 (0)%Z [] [] [] (1010)%Z (1070)%Z (0)%Z progress_zero)] [((ChanKey (hx "6731") (2)%Z), (Some (hx "7431")))] [((ChanKey (hx "6731") (2)%Z), (Some (RuntimeMeta (hx "6731") (2)%Z 1 2 3 [1; 2; 3] [1; 2; 3] 1 (2)%Z 1 1 (1500)%Z 0 (0)%Z (hx "7431") 1 1 (1350)%Z 0)))])));
  ([(CCommit (Trans (TGuard (hx "6731") (2)%Z (hx "7431") 2 6 7 (1420)%Z (1070)%Z) (RGuard (hx "6731") (2)%Z 1 2 1 (hx "7431") 1 0) 2 7 (1080)%Z) 2 3 (1380)%Z (1080)%Z)], (Full (Obs (BResults [0]) [(Task (hx "7431") 1 2 7 (hx "6731") (2)%Z 1 2 2 1 2 (hx "7431") 1 (1350)%Z false 0 7 (1420)%Z (Proof 100 99 1 9 1 2 1) 1 (0)%Z [] [] [] (1010)%Z (1080)%Z (0)%Z progress_zero)] [((ChanKey (hx "6731") (2)%Z), (Some (hx "7431")))] [((ChanKey (hx "6731") (2)%Z), (Some (RuntimeMeta (hx "6731") (2)%Z 1 3 4 [1; 2; 3] [1; 2; 3] 2 (2)%Z 1 1 (1380)%Z 0 (0)%Z (hx "7431") 1 1 (1350)%Z 0)))])));
  ([(CAbort (Trans (TGuard (hx "6731") (2)%Z (hx "7431") 2 7 7 (1420)%Z (1080)%Z) (RGuard (hx "6731") (2)%Z 1 3 2 (hx "7431") 1 0) 6 7 (1090)%Z) (1090)%Z (hx "61626f72746564"))], (Same (BResults [1])));
  ([(CClear (Trans (TGuard (hx "6731") (2)%Z (hx "7431") 2 7 7 (1420)%Z (1080)%Z) (RGuard (hx "6731") (2)%Z 1 3 2 (hx "7431") 1 0) 4 27 (1100)%Z) (1100)%Z)], (Full (Obs (BResults [0]) [(Task (hx "7431") 1 4 27 (hx "6731") (2)%Z 1 2 2 1 2 [] 0 (0)%Z false 0 7 (1420)%Z proof_zero 1 (0)%Z [] [] [] (1010)%Z (1100)%Z (1100)%Z progress_zero)] [((ChanKey (hx "6731") (2)%Z), None)] [((ChanKey (hx "6731") (2)%Z), (Some (RuntimeMeta (hx "6731") (2)%Z 1 3 5 [1; 2; 3] [1; 2; 3] 2 (2)%Z 1 1 (1380)%Z 0 (0)%Z [] 2 0 (0)%Z 0)))])));
  ([(CGC (1111)%Z (10)%Z)], (Full (Obs (BResults [0]) [] [((ChanKey (hx "6731") (2)%Z), None)] [((ChanKey (hx "6731") (2)%Z), (Some (RuntimeMeta (hx "6731") (2)%Z 1 3 5 [1; 2; 3] [1; 2; 3] 2 (2)%Z 1 1 (1380)%Z 0 (0)%Z [] 2 0 (0)%Z 0)))])))]).

Definition r02_replica_replace_happy_case : c17_case :=
 (C17Case [([(CUpsertMeta (RuntimeMeta (hx "6731") (2)%Z 1 2 0 [1; 2; 3] [1; 2; 3] 1 (2)%Z 1 1 (1500)%Z 0 (0)%Z [] 0 0 (0)%Z 0))], (Full (Obs (BResults [0]) [] [((ChanKey (hx "6731") (2)%Z), None)] [((ChanKey (hx "6731") (2)%Z), (Some (RuntimeMeta (hx "6731") (2)%Z 1 2 2 [1; 2; 3] [1; 2; 3] 1 (2)%Z 1 1 (1500)%Z 0 (0)%Z [] 0 0 (0)%Z 0)))])));
  ([(CCreate (Task (hx "7431") 2 1 1 (hx "6731") (2)%Z 3 4 0 1 2 [] 0 (0)%Z false 0 0 (0)%Z proof_zero 0 (0)%Z [] [] [] (1010)%Z (1010)%Z (0)%Z progress_zero))], (Full (Obs (BResults [0]) [(Task (hx "7431") 2 1 1 (hx "6731") (2)%Z 3 4 0 1 2 [] 0 (0)%Z false 0 0 (0)%Z proof_zero 0 (0)%Z [] [] [] (1010)%Z (1010)%Z (0)%Z progress_zero)] [((ChanKey (hx "6731") (2)%Z), (Some (hx "7431")))] [((ChanKey (hx "6731") (2)%Z), (Some (RuntimeMeta (hx "6731") (2)%Z 1 2 2 [1; 2; 3] [1; 2; 3] 1 (2)%Z 1 1 (1500)%Z 0 (0)%Z [] 0 0 (0)%Z 0)))])));
  ([(CClaim (TGuard (hx "6731") (2)%Z (hx "7431") 1 1 0 (0)%Z (1010)%Z) 2 1 7 (1420)%Z (1020)%Z (1020)%Z)], (Full (Obs (BResults [0]) [(Task (hx "7431") 2 2 1 (hx "6731") (2)%Z 3 4 0 1 2 [] 0 (0)%Z false 0 7 (1420)%Z proof_zero 0 (0)%Z [] [] [] (1010)%Z (1020)%Z (0)%Z progress_zero)] [((ChanKey (hx "6731") (2)%Z), (Some (hx "7431")))] [((ChanKey (hx "6731") (2)%Z), (Some (RuntimeMeta (hx "6731") (2)%Z 1 2 2 [1; 2; 3] [1; 2; 3] 1 (2)%Z 1 1 (1500)%Z 0 (0)%Z [] 0 0 (0)%Z 0)))])));
  ([(CAdvance (TGuard (hx "6731") (2)%Z (hx "7431") 2 1 7 (1420)%Z (1020)%Z) 2 20 1 (0)%Z [] [] [] (1030)%Z (0)%Z progress_zero proof_zero 0)], (Full (Obs (BResults [0]) [(Task (hx "7431") 2 2 20 (hx "6731") (2)%Z 3 4 0 1 2 [] 0 (0)%Z false 0 7 (1420)%Z proof_zero 1 (0)%Z [] [] [] (1010)%Z (1030)%Z (0)%Z progress_zero)] [((ChanKey (hx "6731") (2)%Z), (Some (hx "7431")))] [((ChanKey (hx "6731") (2)%Z), (Some (RuntimeMeta (hx "6731") (2)%Z 1 2 2 [1; 2; 3] [1; 2; 3] 1 (2)%Z 1 1 (1500)%Z 0 (0)%Z [] 0 0 (0)%Z 0)))])));
  ([(CAddLearner (Trans (TGuard (hx "6731") (2)%Z (hx "7431") 2 20 7 (1420)%Z (1030)%Z) (RGuard (hx "6731") (2)%Z 1 2 1 [] 0 0) 2 21 (1040)%Z) 4)], (Full (Obs (BResults [0]) [(Task (hx "7431") 2 2 21 (hx "6731") (2)%Z 3 4 0 1 2 [] 0 (0)%Z false 0 7 (1420)%Z proof_zero 1 (0)%Z [] [] [] (1010)%Z (1040)%Z (0)%Z progress_zero)] [((ChanKey (hx "6731") (2)%Z), (Some (hx "7431")))] [((ChanKey (hx "6731") (2)%Z), (Some (RuntimeMeta (hx "6731") (2)%Z 2 2 3 [1; 2; 3; 4] [1; 2; 3] 1 (2)%Z 1 1 (1500)%Z 0 (0)%Z [] 0 0 (0)%Z 0)))])));
  ([(CAdvance (TGuard (hx "6731") (2)%Z (hx "7431") 2 21 7 (1420)%Z (1040)%Z) 2 22 1 (0)%Z [] [] [] (1050)%Z (0)%Z progress_zero proof_zero 0)], (Full (Obs (BResults [0]) [(Task (hx "7431") 2 2 22 (hx "6731") (2)%Z 3 4 0 1 2 [] 0 (0)%Z false 0 7 (1420)%Z proof_zero 1 (0)%Z [] [] [] (1010)%Z (1050)%Z (0)%Z progress_zero)] [((ChanKey (hx "6731") (2)%Z), (Some (hx "7431")))] [((ChanKey (hx "6731") (2)%Z), (Some (RuntimeMeta (hx "6731") (2)%Z 2 2 3 [1; 2; 3; 4] [1; 2; 3] 1 (2)%Z 1 1 (1500)%Z 0 (0)%Z [] 0 0 (0)%Z 0)))])));
  ([(CSetFence (Trans (TGuard (hx "6731") (2)%Z (hx "7431") 2 22 7 (1420)%Z (1050)%Z) (RGuard (hx "6731") (2)%Z 2 2 1 [] 0 0) 2 23 (1060)%Z) 1 (1360)%Z)], (Full (Obs (BResults [0]) [(Task (hx "7431") 2 2 23 (hx "6731") (2)%Z 3 4 0 1 2 (hx "7431") 1 (1360)%Z false 0 7 (1420)%Z proof_zero 1 (0)%Z [] [] [] (1010)%Z (1060)%Z (0)%Z progress_zero)] [((ChanKey (hx "6731") (2)%Z), (Some (hx "7431")))] [((ChanKey (hx "6731") (2)%Z), (Some (RuntimeMeta (hx "6731") (2)%Z 2 2 4 [1; 2; 3; 4] [1; 2; 3] 1 (2)%Z 1 1 (1500)%Z 0 (0)%Z (hx "7431") 1 1 (1360)%Z 0)))])));
  ([(CAdvance (TGuard (hx "6731") (2)%Z (hx "7431") 2 23 7 (1420)%Z (1060)%Z) 2 5 1 (0)%Z [] [] [] (1070)%Z (0)%Z progress_zero (Proof 100 99 1 9 2 2 1) 0)], (Full (Obs (BResults [0]) [(Task (hx "7431") 2 2 5 (hx "6731") (2)%Z 3 4 0 1 2 (hx "7431") 1 (1360)%Z false 0 7 (1420)%Z (Proof 100 99 1 9 2 2 1) 1 (0)%Z [] [] [] (1010)%Z (1070)%Z (0)%Z progress_zero)] [((ChanKey (hx "6731") (2)%Z), (Some (hx "7431")))] [((ChanKey (hx "6731") (2)%Z), (Some (RuntimeMeta (hx "6731") (2)%Z 2 2 4 [1; 2; 3; 4] [1; 2; 3] 1 (2)%Z 1 1 (1500)%Z 0 (0)%Z (hx "7431") 1 1 (1360)%Z 0)))])));
  ([(CAdvance (TGuard (hx "6731") (2)%Z (hx "7431") 2 5 7 (1420)%Z (1070)%Z) 2 25 1 (0)%Z [] [] [] (1080)%Z (0)%Z progress_zero (Proof 100 99 1 9 2 2 1) 0)], (Full (Obs (BResults [0]) [(Task (hx "7431") 2 2 25 (hx "6731") (2)%Z 3 4 0 1 2 (hx "7431") 1 (1360)%Z false 0 7 (1420)%Z (Proof 100 99 1 9 2 2 1) 1 (0)%Z [] [] [] (1010)%Z (1080)%Z (0)%Z progress_zero)] [((ChanKey (hx "6731") (2)%Z), (Some (hx "7431")))] [((ChanKey (hx "6731") (2)%Z), (Some (RuntimeMeta (hx "6731") (2)%Z 2 2 4 [1; 2; 3; 4] [1; 2; 3] 1 (2)%Z 1 1 (1500)%Z 0 (0)%Z (hx "7431") 1 1 (1360)%Z 0)))])));
  ([(CPromote (Trans (TGuard (hx "6731") (2)%Z (hx "7431") 2 25 7 (1420)%Z (1080)%Z) (RGuard (hx "6731") (2)%Z 2 2 1 (hx "7431") 1 0) 2 26 (1090)%Z) 3 4 (1090)%Z)], (Full (Obs (BResults [0]) [(Task (hx "7431") 2 2 26 (hx "6731") (2)%Z 3 4 0 1 2 (hx "7431") 1 (1360)%Z false 0 7 (1420)%Z (Proof 100 99 1 9 2 2 1) 1 (0)%Z [] [] [] (1010)%Z (1090)%Z (0)%Z progress_zero)] [((ChanKey (hx "6731") (2)%Z), (Some (hx "7431")))] [((ChanKey (hx "6731") (2)%Z), (Some (RuntimeMeta (hx "6731") (2)%Z 3 2 5 [1; 2; 4] [1; 2; 4] 1 (2)%Z 1 1 (1500)%Z 0 (0)%Z (hx "7431") 1 1 (1360)%Z 0)))])));
  ([(CAbort (Trans (TGuard (hx "6731") (2)%Z (hx "7431") 2 26 7 (1420)%Z (1090)%Z) (RGuard (hx "6731") (2)%Z 3 2 1 (hx "7431") 1 0) 6 26 (1100)%Z) (1100)%Z (hx "61626f72746564"))], (Same (BResults [1])));
  ([(CClear (Trans (TGuard (hx "6731") (2)%Z (hx "7431") 2 26 7 (1420)%Z (1090)%Z) (RGuard (hx "6731") (2)%Z 3 2 1 (hx "7431") 1 0) 4 27 (1110)%Z) (1110)%Z)], (Full (Obs (BResults [0]) [(Task (hx "7431") 2 4 27 (hx "6731") (2)%Z 3 4 0 1 2 [] 0 (0)%Z false 0 7 (1420)%Z proof_zero 1 (0)%Z [] [] [] (1010)%Z (1110)%Z (1110)%Z progress_zero)] [((ChanKey (hx "6731") (2)%Z), None)] [((ChanKey (hx "6731") (2)%Z), (Some (RuntimeMeta (hx "6731") (2)%Z 3 2 6 [1; 2; 4] [1; 2; 4] 1 (2)%Z 1 1 (1500)%Z 0 (0)%Z [] 2 0 (0)%Z 0)))])))]).

Definition r04_stale_proofs_rejected_case : c17_case :=
 (C17Case [([(CUpsertMeta (RuntimeMeta (hx "6731") (2)%Z 1 2 0 [1; 2; 3] [1; 2; 3] 1 (2)%Z 1 1 (1500)%Z 0 (0)%Z [] 0 0 (0)%Z 0))], (Full (Obs (BResults [0]) [] [((ChanKey (hx "6731") (2)%Z), None)] [((ChanKey (hx "6731") (2)%Z), (Some (RuntimeMeta (hx "6731") (2)%Z 1 2 2 [1; 2; 3] [1; 2; 3] 1 (2)%Z 1 1 (1500)%Z 0 (0)%Z [] 0 0 (0)%Z 0)))])));
  ([(CCreate (Task (hx "7431") 1 1 1 (hx "6731") (2)%Z 1 2 2 1 2 [] 0 (0)%Z false 0 0 (0)%Z proof_zero 0 (0)%Z [] [] [] (1010)%Z (1010)%Z (0)%Z progress_zero))], (Full (Obs (BResults [0]) [(Task (hx "7431") 1 1 1 (hx "6731") (2)%Z 1 2 2 1 2 [] 0 (0)%Z false 0 0 (0)%Z proof_zero 0 (0)%Z [] [] [] (1010)%Z (1010)%Z (0)%Z progress_zero)] [((ChanKey (hx "6731") (2)%Z), (Some (hx "7431")))] [((ChanKey (hx "6731") (2)%Z), (Some (RuntimeMeta (hx "6731") (2)%Z 1 2 2 [1; 2; 3] [1; 2; 3] 1 (2)%Z 1 1 (1500)%Z 0 (0)%Z [] 0 0 (0)%Z 0)))])));
  ([(CClaim (TGuard (hx "6731") (2)%Z (hx "7431") 1 1 0 (0)%Z (1010)%Z) 2 1 7 (1420)%Z (1020)%Z (1020)%Z)], (Full (Obs (BResults [0]) [(Task (hx "7431") 1 2 1 (hx "6731") (2)%Z 1 2 2 1 2 [] 0 (0)%Z false 0 7 (1420)%Z proof_zero 0 (0)%Z [] [] [] (1010)%Z (1020)%Z (0)%Z progress_zero)] [((ChanKey (hx "6731") (2)%Z), (Some (hx "7431")))] [((ChanKey (hx "6731") (2)%Z), (Some (RuntimeMeta (hx "6731") (2)%Z 1 2 2 [1; 2; 3] [1; 2; 3] 1 (2)%Z 1 1 (1500)%Z 0 (0)%Z [] 0 0 (0)%Z 0)))])));
  ([(CAdvance (TGuard (hx "6731") (2)%Z (hx "7431") 2 1 7 (1420)%Z (1020)%Z) 2 3 1 (0)%Z [] [] [] (1030)%Z (0)%Z progress_zero proof_zero 0)], (Full (Obs (BResults [0]) [(Task (hx "7431") 1 2 3 (hx "6731") (2)%Z 1 2 2 1 2 [] 0 (0)%Z false 0 7 (1420)%Z proof_zero 1 (0)%Z [] [] [] (1010)%Z (1030)%Z (0)%Z progress_zero)] [((ChanKey (hx "6731") (2)%Z), (Some (hx "7431")))] [((ChanKey (hx "6731") (2)%Z), (Some (RuntimeMeta (hx "6731") (2)%Z 1 2 2 [1; 2; 3] [1; 2; 3] 1 (2)%Z 1 1 (1500)%Z 0 (0)%Z [] 0 0 (0)%Z 0)))])));
  ([(CSetFence (Trans (TGuard (hx "6731") (2)%Z (hx "7431") 2 3 7 (1420)%Z (1030)%Z) (RGuard (hx "6731") (2)%Z 1 2 1 [] 0 0) 2 4 (1040)%Z) 1 (1340)%Z)], (Full (Obs (BResults [0]) [(Task (hx "7431") 1 2 4 (hx "6731") (2)%Z 1 2 2 1 2 (hx "7431") 1 (1340)%Z false 0 7 (1420)%Z proof_zero 1 (0)%Z [] [] [] (1010)%Z (1040)%Z (0)%Z progress_zero)] [((ChanKey (hx "6731") (2)%Z), (Some (hx "7431")))] [((ChanKey (hx "6731") (2)%Z), (Some (RuntimeMeta (hx "6731") (2)%Z 1 2 3 [1; 2; 3] [1; 2; 3] 1 (2)%Z 1 1 (1500)%Z 0 (0)%Z (hx "7431") 1 1 (1340)%Z 0)))])));
  ([(CAdvance (TGuard (hx "6731") (2)%Z (hx "7431") 2 4 7 (1420)%Z (1040)%Z) 2 6 1 (0)%Z [] [] [] (1050)%Z (0)%Z progress_zero (Proof 100 99 1 9 1 1 1) 0)], (Full (Obs (BResults [0]) [(Task (hx "7431") 1 2 6 (hx "6731") (2)%Z 1 2 2 1 2 (hx "7431") 1 (1340)%Z false 0 7 (1420)%Z (Proof 100 99 1 9 1 1 1) 1 (0)%Z [] [] [] (1010)%Z (1050)%Z (0)%Z progress_zero)] [((ChanKey (hx "6731") (2)%Z), (Some (hx "7431")))] [((ChanKey (hx "6731") (2)%Z), (Some (RuntimeMeta (hx "6731") (2)%Z 1 2 3 [1; 2; 3] [1; 2; 3] 1 (2)%Z 1 1 (1500)%Z 0 (0)%Z (hx "7431") 1 1 (1340)%Z 0)))])));
  ([(CCommit (Trans (TGuard (hx "6731") (2)%Z (hx "7431") 2 6 7 (1420)%Z (1050)%Z) (RGuard (hx "6731") (2)%Z 1 2 1 (hx "7431") 1 0) 2 7 (1060)%Z) 2 3 (1360)%Z (1060)%Z)], (Same (BResults [1])));
  ([(CAdvance (TGuard (hx "6731") (2)%Z (hx "7431") 2 6 7 (1420)%Z (1050)%Z) 2 6 1 (0)%Z [] [] [] (1070)%Z (0)%Z progress_zero (Proof 100 99 1 9 1 2 2) 0)], (Full (Obs (BResults [0]) [(Task (hx "7431") 1 2 6 (hx "6731") (2)%Z 1 2 2 1 2 (hx "7431") 1 (1340)%Z false 0 7 (1420)%Z (Proof 100 99 1 9 1 2 2) 1 (0)%Z [] [] [] (1010)%Z (1070)%Z (0)%Z progress_zero)] [((ChanKey (hx "6731") (2)%Z), (Some (hx "7431")))] [((ChanKey (hx "6731") (2)%Z), (Some (RuntimeMeta (hx "6731") (2)%Z 1 2 3 [1; 2; 3] [1; 2; 3] 1 (2)%Z 1 1 (1500)%Z 0 (0)%Z (hx "7431") 1 1 (1340)%Z 0)))])));
  ([(CCommit (Trans (TGuard (hx "6731") (2)%Z (hx "7431") 2 6 7 (1420)%Z (1070)%Z) (RGuard (hx "6731") (2)%Z 1 2 1 (hx "7431") 1 0) 2 7 (1080)%Z) 2 3 (1380)%Z (1080)%Z)], (Same (BResults [1])));
  ([(CAdvance (TGuard (hx "6731") (2)%Z (hx "7431") 2 6 7 (1420)%Z (1070)%Z) 2 6 1 (0)%Z [] [] [] (1090)%Z (0)%Z progress_zero (Proof 100 99 1 9 1 2 1) 0)], (Full (Obs (BResults [0]) [(Task (hx "7431") 1 2 6 (hx "6731") (2)%Z 1 2 2 1 2 (hx "7431") 1 (1340)%Z false 0 7 (1420)%Z (Proof 100 99 1 9 1 2 1) 1 (0)%Z [] [] [] (1010)%Z (1090)%Z (0)%Z progress_zero)] [((ChanKey (hx "6731") (2)%Z), (Some (hx "7431")))] [((ChanKey (hx "6731") (2)%Z), (Some (RuntimeMeta (hx "6731") (2)%Z 1 2 3 [1; 2; 3] [1; 2; 3] 1 (2)%Z 1 1 (1500)%Z 0 (0)%Z (hx "7431") 1 1 (1340)%Z 0)))])));
  ([(CCommit (Trans (TGuard (hx "6731") (2)%Z (hx "7431") 2 6 7 (1420)%Z (1090)%Z) (RGuard (hx "6731") (2)%Z 1 2 1 (hx "7431") 1 0) 2 7 (1100)%Z) 2 3 (1400)%Z (1341)%Z)], (Same (BResults [1])));
  ([(CCommit (Trans (TGuard (hx "6731") (2)%Z (hx "7431") 2 6 7 (1420)%Z (1090)%Z) (RGuard (hx "6731") (2)%Z 1 2 1 (hx "7431") 1 0) 2 7 (1110)%Z) 2 3 (1410)%Z (1110)%Z)], (Full (Obs (BResults [0]) [(Task (hx "7431") 1 2 7 (hx "6731") (2)%Z 1 2 2 1 2 (hx "7431") 1 (1340)%Z false 0 7 (1420)%Z (Proof 100 99 1 9 1 2 1) 1 (0)%Z [] [] [] (1010)%Z (1110)%Z (0)%Z progress_zero)] [((ChanKey (hx "6731") (2)%Z), (Some (hx "7431")))] [((ChanKey (hx "6731") (2)%Z), (Some (RuntimeMeta (hx "6731") (2)%Z 1 3 4 [1; 2; 3] [1; 2; 3] 2 (2)%Z 1 1 (1410)%Z 0 (0)%Z (hx "7431") 1 1 (1340)%Z 0)))])))]).

Definition batches_of (c : c17_case) : list (list cmd) := map fst (c_raw_steps c).

Fixpoint run_batches (d : db) (bs : list (list cmd)) : db :=
  match bs with
  | [] => d
  | b :: r => run_batches (fst (ApplyBatch d b)) r
  end.

Definition is_cutover_cmd (c : cmd) : bool :=
  match c with CCommit _ _ _ _ _ | CPromote _ _ _ _ => true | _ => false end.

(* one-command batches only: some CommitChannelLeaderTransfer / PromoteLearnerAndRemoveReplica on a
   task was accepted ("ok") and a later AbortChannelMigration on the same task was accepted too *)
Fixpoint abort_after_cutover (d : db) (cut : list tkey) (bs : list (list cmd)) : bool :=
  match bs with
  | [] => false
  | [c] :: r =>
    let '(d', res) := ApplyBatch d [c] in
    let ok := match res with BResults [0] => true | _ => false end in
    match cmd_key c with
    | Some k =>
      if ok && is_abort c && existsb (tkey_eqb k) cut then true
      else abort_after_cutover d' (if ok && is_cutover_cmd c then k :: cut else cut) r
    | None => abort_after_cutover d' cut r
    end
  | _ :: _ => false
  end.

Definition double_active (d : db) : bool :=
  existsb (fun t1 => existsb (fun t2 => isActive t1 && isActive t2
                                        && chan_key_eqb (task_chan t1) (task_chan t2)
                                        && negb (tkey_eqb (task_key t1) (task_key t2)))
                             (db_tasks d)) (db_tasks d).

Definition all_single (bs : list (list cmd)) : bool :=
  forallb (fun b => match b with [_] => true | _ => false end) bs.

Theorem c17_rewind_abort_refuted_witness :
  C17_mismatch k1_advance_rewind_abort_case = false
  /\ all_single (batches_of k1_advance_rewind_abort_case) = true
  /\ abort_after_cutover db_empty [] (batches_of k1_advance_rewind_abort_case) = true
  /\ C17_monitor k1_advance_rewind_abort_case = 2.
Proof. vm_compute. repeat split. Qed.

Theorem c17_claim_rewind_abort_refuted_witness :
  C17_mismatch k1_claim_rewind_abort_case = false
  /\ all_single (batches_of k1_claim_rewind_abort_case) = true
  /\ abort_after_cutover db_empty [] (batches_of k1_claim_rewind_abort_case) = true
  /\ C17_monitor k1_claim_rewind_abort_case = 2.
Proof. vm_compute. repeat split. Qed.

Theorem c17_reset_rewind_abort_refuted_witness :
  C17_mismatch k2_reset_rewind_abort_case = false
  /\ all_single (batches_of k2_reset_rewind_abort_case) = true
  /\ abort_after_cutover db_empty [] (batches_of k2_reset_rewind_abort_case) = true
  /\ C17_monitor k2_reset_rewind_abort_case = 3.
Proof. vm_compute. repeat split. Qed.

Theorem c17_batch_double_active_refuted_witness :
  C17_mismatch k3_batch_double_active_case = false
  /\ double_active (run_batches db_empty (removelast (batches_of k3_batch_double_active_case))) = false
  /\ double_active (run_batches db_empty (batches_of k3_batch_double_active_case)) = true
  /\ C17_monitor k3_batch_double_active_case = 4.
Proof. vm_compute. repeat split. Qed.

(* not a violation: the embedded leader-transfer leg of a replica replacement ends, the task
   continues as a plain replica replacement and may then be aborted *)
Theorem c17_embedded_leg_then_abort_ok :
  C17_mismatch r03_embedded_leg_then_abort_case = false
  /\ C17_monitor r03_embedded_leg_then_abort_case = 0.
Proof. vm_compute. repeat split. Qed.

Lemma happy_paths_ok :
  C17_mismatch r01_leader_transfer_happy_case = false /\ C17_monitor r01_leader_transfer_happy_case = 0
  /\ C17_mismatch r02_replica_replace_happy_case = false /\ C17_monitor r02_replica_replace_happy_case = 0
  /\ C17_mismatch r04_stale_proofs_rejected_case = false /\ C17_monitor r04_stale_proofs_rejected_case = 0.
Proof. vm_compute. repeat split. Qed.

(* in r01 a CommitChannelLeaderTransfer is accepted and the later AbortChannelMigration is rejected *)
Lemma happy_path_commits_and_rejects_abort :
  existsb (fun s => match s with
                    | ([CCommit _ _ _ _ _], Full o) => bres_eqb (o_res o) (BResults [0])
                    | _ => false end) (c_raw_steps r01_leader_transfer_happy_case) = true
  /\ existsb (fun s => match s with
                       | ([CAbort _ _ _], Same r) => bres_eqb r (BResults [1])
                       | _ => false end) (c_raw_steps r01_leader_transfer_happy_case) = true.
Proof. vm_compute. split; reflexivity. Qed.
