(* Proof/Archive_monitor.v — C38 (uses Archive, Archive_publish): the case monitor is the property the theorems are
   about.  Whenever the implementation's answers on a case agree with the model's
   ([C38_mismatch] = false), the monitor holds ([C38_monitor] = 0): for archive histories
   through verify <-> consistent and published => consistent, for codec ops through
   "accepted <-> canonical encoding of a valid manifest". *)
From WK Require Import Base.Base Base.Lists Gen.Consts_C38 Model.Archive Model.Archive_C38.
From WK Require Import Proof.Archive Proof.Archive_publish.
Open Scope N_scope.

Lemma res_eqb_ok_inv {A} (eqb : A -> A -> bool) (x : res A) (r : res A) :
  res_eqb eqb x r = true ->
  match x, r with Ok a, Ok b => eqb a b = true | Err _, Err _ => True | _, _ => False end.
Proof. destruct x, r; cbn [res_eqb]; intro E; try discriminate; auto. Qed.

(* acceptance by the loaders, as the conjunction of their checks *)
Lemma is_ok_load_with {body A} (json : body -> option A) validate canon b :
  is_ok (load_with json validate canon b)
  = match json b with Some m => is_none (validate m) && canon m b | None => false end.
Proof.
  unfold load_with. destruct (json b) as [m|]; [|reflexivity].
  destruct (validate m); [reflexivity|]. destruct (canon m b); reflexivity.
Qed.

Lemma is_ok_load_marker {body} blen H ja jm ca cm (kb mb : body) :
  is_ok (load_complete_marker body blen H ja jm ca cm kb mb)
  = match jm kb with
    | Some k => is_none (validate_complete_marker k) && cm k kb && (cm_bytes k =? blen mb)
                && bytes_eqb (cm_sha k) (H mb) && is_ok (load_archive_manifest body ja ca mb)
    | None => false
    end.
Proof.
  unfold load_complete_marker. destruct (jm kb) as [k|]; [|reflexivity].
  destruct (validate_complete_marker k); [reflexivity|]. destruct (cm k kb); [|reflexivity].
  destruct (cm_bytes k =? blen mb); [|reflexivity]. destruct (bytes_eqb (cm_sha k) (H mb)); [|reflexivity].
  destruct (load_archive_manifest body ja ca mb); reflexivity.
Qed.

Lemma is_ok_decode_chunk {body} blen H unz (b : body) d :
  is_ok (decode_chunk body blen H unz b d)
  = validate_chunk_descriptor d
    && match unz b with
       | Some (ll, lh) => (blen b =? cd_stored_bytes d) && bytes_eqb (H b) (cd_stored_sha d)
                          && (ll =? cd_logical_bytes d) && bytes_eqb lh (cd_logical_sha d)
       | None => false
       end.
Proof.
  unfold decode_chunk. destruct (validate_chunk_descriptor d); [|reflexivity]. destruct (unz b) as [[ll lh]|]; [|reflexivity].
  destruct (blen b =? cd_stored_bytes d); [|reflexivity]. destruct (bytes_eqb (H b) (cd_stored_sha d)); [|reflexivity].
  destruct (ll =? cd_logical_bytes d); [|reflexivity]. destruct (bytes_eqb lh (cd_logical_sha d)); reflexivity.
Qed.

Lemma res_eqb_is_ok {A} (eqb : A -> A -> bool) (x r : res A) : res_eqb eqb x r = true -> is_ok r = is_ok x.
Proof. destruct x, r; cbn [res_eqb is_ok]; congruence. Qed.

Lemma load_agree_is_ok {A} (x : res A) r : load_agree x r = true -> is_ok r = is_ok x.
Proof. destruct x, r; cbn [load_agree is_ok]; congruence. Qed.

(* a strict loader that agrees with the model accepts exactly the canonical valid encodings *)
Lemma load_agree_strict {A} (validate : A -> option err) canon raw b r :
  load_agree (load_with (fun _ => raw) validate canon b) r = true -> strict_ok validate canon raw b (is_ok r) = true.
Proof. intros ->%load_agree_is_ok. unfold strict_ok. rewrite is_ok_load_with. apply eqb_reflx. Qed.

Lemma new_marker_agree blen H ja ca (mb : bytes) r :
  res_eqb complete_marker_eqb (new_complete_marker bytes blen H ja ca mb) r = true ->
  match r with
  | Ok k => complete_marker_eqb k (CM CompleteMarkerFormat CompleteMarkerVersion (H mb) (blen mb))
            && is_ok (load_archive_manifest bytes ja ca mb)
  | Err _ => negb (is_ok (load_archive_manifest bytes ja ca mb))
  end = true.
Proof.
  unfold new_complete_marker. destruct (load_archive_manifest bytes ja ca mb), r; cbn [res_eqb is_ok negb]; try discriminate; auto.
  intros ->%complete_marker_eqb_eq. rewrite complete_marker_eqb_refl. reflexivity.
Qed.

(* an encoder that agrees with the model emits the canonical bytes of what passes validation *)
Lemma marshal_agree {A} (validate : A -> option err) (enc : A -> bytes) m r :
  res_eqb bytes_eqb (match validate m with Some e => Err e | None => Ok (enc m) end) r = true ->
  match r with Ok b => is_none (validate m) && bytes_eqb (enc m) b | Err _ => negb (is_none (validate m)) end = true.
Proof. destruct (validate m), r; cbn [res_eqb is_none negb andb]; try discriminate; auto. Qed.

Lemma marshal_sized_agree {A} (validate : A -> option err) (enc : A -> bytes) m r :
  res_eqb bytes_eqb (match validate m with
                     | Some e => Err e
                     | None => if MaxSlotManifestBytes <? blen_bytes (enc m) then Err EManifest else Ok (enc m)
                     end) r = true ->
  match r with
  | Ok b => is_none (validate m) && bytes_eqb (enc m) b
  | Err _ => negb (is_none (validate m)) || (MaxSlotManifestBytes <? blen_bytes (enc m))
  end = true.
Proof.
  destruct (validate m); cbn [is_none negb andb orb]; [destruct r; [discriminate|reflexivity]|].
  destruct (MaxSlotManifestBytes <? blen_bytes (enc m)), r; cbn [res_eqb]; try discriminate; auto.
Qed.

Theorem codec_agree_monitor o : cstep_mismatch o = false -> cstep_monitor o = 0.
Proof.
  unfold cstep_mismatch, cstep_monitor. intros M%negb_false_iff.
  match goal with |- (if ?x then _ else _) = _ => enough (E : x = true) by (rewrite E; reflexivity) end.
  destruct o as [b raw r|b raw r|b raw r|b raw r|kb mb rawk rawm sha r|mb rawm sha r
                 |m r|m r|m r|m r|m r|hs chunks r|key ok|hs key ok|s ok|s ok|len sha unz d r].
  - exact (load_agree_strict _ _ _ _ _ M).
  - exact (load_agree_strict _ _ _ _ _ M).
  - exact (load_agree_strict _ _ _ _ _ M).
  - exact (load_agree_strict _ _ _ _ _ M).
  - rewrite (load_agree_is_ok _ _ M). unfold c_load_marker.
    rewrite is_ok_load_marker, load_archive_manifest_eq, is_ok_load_with. apply eqb_reflx.
  - pose proof (new_marker_agree _ _ _ _ _ _ M) as E. rewrite load_archive_manifest_eq, is_ok_load_with in E. exact E.
  - exact (marshal_agree validate_archive_manifest enc_archive_manifest_bytes m r M).
  - exact (marshal_sized_agree validate_slot_manifest enc_slot_manifest_bytes m r M).
  - exact (marshal_sized_agree validate_message_chunk_manifest enc_msg_manifest_bytes m r M).
  - exact (marshal_agree validate_complete_marker enc_complete_marker_bytes m r M).
  - exact (marshal_agree validate_repository_marker enc_repo_marker_bytes m r M).
  - (* NewMessageChunkManifest returns what it validated, built from its arguments *)
    unfold new_message_chunk_manifest in M.
    match type of M with context [validate_message_chunk_manifest ?x] => set (m0 := x) in * end.
    destruct (validate_message_chunk_manifest m0) eqn:V; destruct r as [m'|e']; cbn [res_eqb] in M; try discriminate;
      try reflexivity.
    apply msg_manifest_eqb_eq in M. subst m'. rewrite V. cbn [is_none andb mm_hash_slot mm_chunks m0].
    rewrite N.eqb_refl, (list_eqb_refl _ chunk_ref_eqb_refl). reflexivity.
  - reflexivity.
  - reflexivity.
  - reflexivity.
  - reflexivity.
  - rewrite (res_eqb_is_ok _ _ _ M), is_ok_decode_chunk. apply eqb_reflx.
Qed.

Section Table.
  Variable tbl : list body_info.

  Lemma find_body_ge p : forall l i, i <= find_body p i l.
  Proof.
    induction l as [|x l IH]; intro i; cbn [find_body]; [lia|]. destruct (p x); [lia|]. specialize (IH (i + 1)). lia.
  Qed.

  (* a result inside the list is the position of an element that satisfies p *)
  Lemma find_body_found p : forall l i,
    find_body p i l < i + N.of_nat (length l) ->
    exists x, nth_error l (N.to_nat (find_body p i l - i)) = Some x /\ p x = true.
  Proof.
    induction l as [|x l IH]; intro i; cbn [find_body length]; [lia|]. rewrite Nat2N.inj_succ.
    destruct (p x) eqn:Px; intro Lt.
    - exists x. rewrite N.sub_diag. split; [reflexivity|exact Px].
    - destruct (IH (i + 1)) as (y & Hn & Hp); [lia|]. exists y. split; [|exact Hp].
      pose proof (find_body_ge p l (i + 1)).
      replace (find_body p (i + 1) l - i) with (N.succ (find_body p (i + 1) l - (i + 1))) by lia.
      rewrite N2Nat.inj_succ. exact Hn.
  Qed.

  Lemma info_nth_error b x : nth_error tbl (N.to_nat b) = Some x -> info tbl b = x.
  Proof. intro E. unfold info. apply nth_error_nth. exact E. Qed.

  Lemma info_overflow b : N.of_nat (length tbl) <= b -> info tbl b = BRaw 0 [].
  Proof. intro E. unfold info. apply nth_overflow. lia. Qed.

  Lemma id_enc_archive_inv m m' :
    id_json_archive tbl (id_enc_archive tbl m) = Some m' ->
    id_canon_archive tbl m' (id_enc_archive tbl m) = true -> m' = m.
  Proof.
    unfold id_json_archive, id_canon_archive, id_enc_archive.
    match goal with |- context [find_body ?p 0 tbl] =>
      destruct (N.lt_ge_cases (find_body p 0 tbl) (N.of_nat (length tbl))) as [Lt|Ge];
        [destruct (find_body_found p tbl 0 Lt) as (x & Hn & Hp)|] end.
    - rewrite N.sub_0_r in Hn. rewrite (info_nth_error _ _ Hn).
      destruct (bi_arch x) as [[m'' c]|]; [|discriminate]. destruct c; [|discriminate].
      apply archive_manifest_eqb_eq in Hp. subst m''. cbn. intro E. inversion E. reflexivity.
    - rewrite info_overflow by exact Ge. cbn. discriminate.
  Qed.

  Lemma marker_faithful_id k :
    tbl_wf tbl = true -> id_enc_marker tbl k < N.of_nat (length tbl) ->
    marker_faithful N (id_blen tbl) (id_json_marker tbl) (id_canon_marker tbl) (id_enc_marker tbl) k.
  Proof.
    intros Hwf Hlt. unfold marker_faithful, id_json_marker, id_canon_marker, id_blen, id_enc_marker in *.
    match goal with |- context [find_body ?p 0 tbl] => destruct (find_body_found p tbl 0 Hlt) as (x & Hn & Hp) end.
    rewrite N.sub_0_r in Hn. rewrite (info_nth_error _ _ Hn).
      destruct (bi_marker x) as [[k' c]|] eqn:Bm; [|discriminate]. destruct c; [|discriminate].
      apply complete_marker_eqb_eq in Hp. subst k'. cbn [option_map fst].
      unfold tbl_wf in Hwf. rewrite forallb_forall in Hwf.
      specialize (Hwf x (nth_error_In _ _ Hn)). rewrite Bm in Hwf.
      apply andb_true_iff in Hwf. destruct Hwf as [H1 H2]. apply N.ltb_lt in H1. apply N.leb_le in H2.
      repeat split; auto.
  Qed.

  Local Notation st_t := (store N).
  Local Notation getN := (get N).

  Lemma apply_puts_rev : forall puts (st : st_t), apply_puts puts st = rev (map entry_of puts) ++ st.
  Proof.
    induction puts as [|[[k b] sz] puts IH]; intro st; [reflexivity|].
    cbn [apply_puts fold_left map rev]. fold (apply_puts puts (put N k b sz st)). rewrite IH.
    unfold put, entry_of. cbn [fst snd]. rewrite <- app_assoc. reflexivity.
  Qed.

  Lemma entry_eqb_eq a b : entry_eqb a b = true -> a = b.
  Proof.
    destruct a as [ka [[ba sa]|]], b as [kb [[bb sb]|]]; unfold entry_eqb; cbn [fst snd option_eqb]; intro E;
      apply andb_true_iff in E; destruct E as [E1 E2]; apply bytes_eqb_eq in E1; subst; try discriminate; [|reflexivity].
    apply andb_true_iff in E2. destruct E2 as [E2 E3]. apply N.eqb_eq in E2. apply N.eqb_eq in E3. subst. reflexivity.
  Qed.

  Lemma puts_match_store (st : st_t) news puts :
    puts_match st (news ++ st) puts = true -> apply_puts puts st = news ++ st.
  Proof.
    unfold puts_match. rewrite app_length, Nat.add_sub.
    rewrite firstn_app, Nat.sub_diag, firstn_all. cbn [firstn]. rewrite app_nil_r.
    intro E. apply (list_eqb_eq _ entry_eqb_eq) in E. rewrite apply_puts_rev, E. reflexivity.
  Qed.
End Table.

Lemma res_eqb2_ok_inv {A B} (eqb : A -> B -> bool) (x : res A) (b : B) :
  res_eqb2 eqb x (Ok b) = true -> exists a, x = Ok a /\ eqb a b = true.
Proof. destruct x as [a|e]; cbn [res_eqb2]; intro E; [exists a; auto|discriminate]. Qed.

Lemma opt_eqb_some {A} (eqb : A -> A -> bool) (o : option A) (m : A) :
  opt_eqb eqb o m = true -> exists x, o = Some x /\ eqb x m = true.
Proof. destruct o as [x|]; cbn [opt_eqb]; intro E; [exists x; auto|discriminate]. Qed.

(* an answer Ok k that agrees with the model: the model answered Ok m and body k decodes to m *)
Lemma answer_decodes {A} (eqb : A -> A -> bool) (Heq : forall a b, eqb a b = true -> a = b)
      (json : N -> option A) (x : res A) k :
  res_eqb2 (fun m k => opt_eqb (fun x y => eqb y x) (json k) m) x (Ok k) = true ->
  exists m, x = Ok m /\ json k = Some m.
Proof. intros (m & -> & (m' & J & ->%Heq)%opt_eqb_some)%res_eqb2_ok_inv. eauto. Qed.

Lemma get_app_in (news st : store N) k v :
  get N (news ++ st) k = Some v -> get N st k = None -> In (k, Some v) news.
Proof.
  induction news as [|[k' o] news IH]; cbn [app Archive.get]; intros G Gn; [rewrite G in Gn; discriminate|].
  destruct (bytes_eqb k' k) eqn:E.
  - apply bytes_eqb_eq in E. subst. left. reflexivity.
  - right. apply IH; assumption.
Qed.

Section Steps.
  Variable tbl : list body_info.
  Hypothesis Hwf : tbl_wf tbl = true.
  Local Notation st_t := (store N).
  Local Notation getN := (get N).

  Lemma slot_answer_decodes (x : res (slot_ref * slot_manifest)) ref k :
    res_eqb2 (fun a b => slot_ref_eqb (fst a) (fst b)
                         && opt_eqb (fun x y => slot_manifest_eqb y x) (id_json_slot tbl (snd b)) (snd a)) x (Ok (ref, k)) = true ->
    exists sm, x = Ok (ref, sm) /\ id_json_slot tbl k = Some sm.
  Proof.
    intros ([ref0 sm] & -> & E)%res_eqb2_ok_inv. cbn [fst snd] in E.
    apply andb_true_iff in E as [->%slot_ref_eqb_eq E]. apply opt_eqb_some in E as (sm' & J & ->%slot_manifest_eqb_eq). eauto.
  Qed.

  Lemma slot_answer st id hs key v ref sm k :
    load_stored_slot_at_key N (id_blen tbl) (id_H tbl) (id_unz tbl) (id_json_slot tbl) (id_canon_slot tbl)
                            st id hs key v = Ok (ref, sm) ->
    id_json_slot tbl k = Some sm ->
    slot_answer_ok tbl st id hs key v ref k = true.
  Proof.
    intros E Jk. apply at_key_inv in E. destruct E as (b & Hh & Hl & Hhs & Href & Hv).
    unfold slot_answer_ok, a_honest, a_load_slot_manifest, a_chunk_consistentb. rewrite Hh, Hl, Jk.
    rewrite slot_manifest_eqb_refl, Hhs, N.eqb_refl, Href, slot_ref_eqb_refl. cbn [andb].
    destruct v; cbn [negb orb]; [apply Hv; reflexivity|reflexivity].
  Qed.

  Lemma agree_read (st : st_t) key maxb r consumed :
    astep_mismatch tbl st (ARead key maxb r consumed) = false -> astep_monitor tbl st (ARead key maxb r consumed) = 0.
  Proof.
    unfold astep_mismatch. cbn beta iota. intros M%negb_false_iff. cbn [astep_monitor].
    apply andb_true_iff in M. destruct M as [M1 M2]. apply N.eqb_eq in M2. subst consumed.
    assert (Hle : (read_consumed tbl st key maxb <=? maxb + 1) = true) by (apply N.leb_le, read_pulled_le).
    rewrite Hle. cbn [negb].
    destruct r as [b|e]; [|reflexivity].
    unfold a_read in M1. destruct (read_stored_object N (id_blen tbl) st key maxb) as [b'|e] eqn:R; [|discriminate].
    cbn [res_eqb] in M1. apply N.eqb_eq in M1. subst b'.
    apply read_ok_iff in R. apply honest_get in R. destruct R as (G & Hp & Hl). rewrite G.
    rewrite !N.eqb_refl. apply N.ltb_lt in Hp. apply N.leb_le in Hl. rewrite Hp, Hl. reflexivity.
  Qed.

  Lemma agree_verify (st : st_t) id r :
    astep_mismatch tbl st (AVerify id r) = false -> astep_monitor tbl st (AVerify id r) = 0.
  Proof.
    unfold astep_mismatch. cbn beta iota. intros M%negb_false_iff. cbn [astep_monitor].
    destruct r as [k|e].
    + apply (answer_decodes _ archive_manifest_eqb_eq) in M as (m & V & J).
      rewrite J. unfold a_verify in V. apply verify_sound in V. unfold a_consistentb. rewrite V. reflexivity.
    + destruct (a_stored_manifest tbl st id) as [m|] eqn:S; [|reflexivity].
      destruct (a_consistentb tbl st id m) eqn:C; [|reflexivity].
      unfold a_consistentb in C. apply verify_complete in C. unfold a_verify in M. rewrite C in M. discriminate.
  Qed.

  Lemma agree_slot (st : st_t) id hs v r :
    astep_mismatch tbl st (ASlot id hs v r) = false -> astep_monitor tbl st (ASlot id hs v r) = 0.
  Proof.
    unfold astep_mismatch. cbn beta iota. intros M%negb_false_iff. cbn [astep_monitor].
    destruct r as [[ref k]|e]; [|reflexivity].
    apply slot_answer_decodes in M as (sm & S & J).
    unfold a_slot, load_stored_slot in S.
    destruct (DefaultHashSlotCount <=? hs) eqn:Eh; [discriminate|]. apply N.leb_gt in Eh.
    assert (Hlt : (hs <? DefaultHashSlotCount) = true) by (apply N.ltb_lt; exact Eh). rewrite Hlt.
    rewrite (slot_answer _ _ _ _ _ _ _ _ S J). reflexivity.
  Qed.

  Lemma agree_slotref (st : st_t) id e v r :
    astep_mismatch tbl st (ASlotRef id e v r) = false -> astep_monitor tbl st (ASlotRef id e v r) = 0.
  Proof.
    unfold astep_mismatch. cbn beta iota. intros M%negb_false_iff. cbn [astep_monitor].
    destruct r as [[ref k]|e0]; [|reflexivity].
    apply slot_answer_decodes in M as (sm & S & J).
    unfold a_slotref, load_stored_slot_reference in S.
    destruct ((DefaultHashSlotCount <=? sr_hash_slot e) || negb (validate_slot_manifest_key (sr_hash_slot e) (sr_key e))
              || negb (validate_sha256 (sr_sha e))); [discriminate|].
    destruct (load_stored_slot_at_key N (id_blen tbl) (id_H tbl) (id_unz tbl) (id_json_slot tbl) (id_canon_slot tbl)
                st id (sr_hash_slot e) (sr_key e) v) as [[a0 m0]|e1] eqn:A; [|discriminate].
    destruct (slot_ref_eqb a0 e) eqn:Ea; [|discriminate]. inversion S; subst a0 m0.
    rewrite Ea. rewrite (slot_answer _ _ _ _ _ _ _ _ A J). reflexivity.
  Qed.

  Lemma agree_msgidx (st : st_t) id key sha r :
    astep_mismatch tbl st (AMsgIdx id key sha r) = false -> astep_monitor tbl st (AMsgIdx id key sha r) = 0.
  Proof.
    unfold astep_mismatch. cbn beta iota. intros M%negb_false_iff. cbn [astep_monitor].
    destruct r as [k|e]; [|reflexivity].
    apply (answer_decodes _ msg_manifest_eqb_eq) in M as (m & S & J).
    unfold a_msgidx, load_stored_message_chunk_manifest in S.
    destruct (negb (validate_sha256 sha) || negb (validate_repository_key (root_of id ++ key))); [discriminate|].
    destruct (read_stored_object N (id_blen tbl) st (root_of id ++ key) MaxSlotManifestBytes) as [b|e] eqn:R; [|discriminate].
    destruct (negb (bytes_eqb (id_H tbl b) sha)) eqn:Hs; [discriminate|]. apply negb_false_iff in Hs.
    apply read_ok_iff in R. unfold a_honest, a_load_msg. rewrite R, S, J, msg_manifest_eqb_refl, Hs. reflexivity.
  Qed.

  Lemma agree_publish (st : st_t) rq r puts :
    aop_ids_ok (N.of_nat (length tbl)) (APublish rq r puts) = true ->
    astep_mismatch tbl st (APublish rq r puts) = false -> astep_monitor tbl st (APublish rq r puts) = 0.
  Proof.
    intros Hids. unfold astep_mismatch. cbn beta iota. intros M%negb_false_iff. cbn [astep_monitor].
    destruct r as [k|e]; [|reflexivity].
    destruct (a_publish tbl st rq) as [st' r'] eqn:P.
    apply andb_true_iff in M. destruct M as [M1 M2].
    apply (answer_decodes _ archive_manifest_eqb_eq) in M1 as (m & -> & J).
    unfold a_publish in P.
    destruct (publish_spec N (id_blen tbl) (id_H tbl) (id_unz tbl) (id_json_archive tbl) (id_json_slot tbl)
                (id_json_marker tbl) (id_json_repo tbl) (id_canon_archive tbl) (id_canon_slot tbl) (id_canon_marker tbl)
                (id_canon_repo tbl) (id_enc_archive tbl) (id_enc_marker tbl) (id_enc_repo tbl) N.eqb
                (fun a b E => proj1 (N.eqb_eq a b) E) (id_enc_archive_inv tbl) st rq st' (Ok m) P) as [X Cons].
    apply extends_news in X. destruct X as (news & Est & Hnews & _). subst st'.
    pose proof (puts_match_store st news puts M2) as Eap.
    assert (Enews : news = rev (map entry_of puts)).
    { rewrite apply_puts_rev in Eap. apply app_inv_tail in Eap. symmetry. exact Eap. }
    (* every write went to a key that was absent *)
    assert (Habs : forallb (fun p => match getN st (fst (fst p)) with None => true | Some _ => false end) puts = true).
    { apply forallb_forall. intros p Hp. rewrite Forall_forall in Hnews.
      destruct (Hnews (entry_of p)) as (G & _); [rewrite Enews; apply in_rev; rewrite rev_involutive; apply in_map; exact Hp|].
      unfold entry_of in G. cbn [fst] in G. rewrite G. reflexivity. }
    rewrite Habs. cbn [negb].
    destruct (getN st (corrupt_key (pr_id rq))) eqn:Gc; [reflexivity|].
    rewrite J, Eap. unfold a_consistentb.
    rewrite (Cons eq_refl); [reflexivity|].
    intros k0 Gk0 Gk1 Vk Hle. apply marker_faithful_id; [exact Hwf|].
    (* the COMPLETE object is one of the observed writes, whose body ids are in range *)
    apply get_app_in in Gk1; [|exact Gk0].
    rewrite Enews in Gk1. apply in_rev in Gk1. apply in_map_iff in Gk1.
    destruct Gk1 as (p & Ep & Hp). cbn [aop_ids_ok] in Hids. rewrite forallb_forall in Hids.
    specialize (Hids p Hp). apply N.ltb_lt in Hids. unfold entry_of in Ep.
    assert (Hx : snd (fst p) = id_enc_marker tbl k0) by congruence.
    rewrite <- Hx. exact Hids.
  Qed.

  Theorem astep_agree_monitor (st : st_t) o :
    aop_ids_ok (N.of_nat (length tbl)) o = true ->
    astep_mismatch tbl st o = false -> astep_monitor tbl st o = 0.
  Proof.
    intros Hids.
    destruct o as [key b sz|key|key maxb r consumed|id r|id r|id hs v r|id e v r|id key sha r|cluster now r puts|rq r puts];
      [intros _; reflexivity|intros _; reflexivity|apply agree_read|apply agree_verify|intros _; reflexivity
      |apply agree_slot|apply agree_slotref|apply agree_msgidx|intros _; reflexivity|apply agree_publish; exact Hids].
  Qed.

  Theorem arun_agree_monitor : forall ops (st : st_t),
    forallb (aop_ids_ok (N.of_nat (length tbl))) ops = true ->
    arun_mismatch tbl st ops = false -> arun_monitor tbl st ops = 0.
  Proof.
    induction ops as [|o ops IH]; intros st Hids M; [reflexivity|].
    cbn [forallb] in Hids. apply andb_true_iff in Hids. destruct Hids as [H1 H2].
    cbn [arun_mismatch] in M. apply orb_false_iff in M. destruct M as [M1 M2].
    cbn [arun_monitor]. rewrite (astep_agree_monitor st o H1 M1). apply IH; assumption.
  Qed.
End Steps.

Theorem agree_monitor c : C38_mismatch c = false -> C38_monitor c = 0.
Proof.
  destruct c as [ops|tbl ops]; cbn [C38_mismatch C38_monitor]; intro M.
  - induction ops as [|o ops IH]; [reflexivity|]. cbn [existsb] in M. apply orb_false_iff in M. destruct M as [M1 M2].
    cbn [first_code]. rewrite (codec_agree_monitor o M1). apply IH. exact M2.
  - apply orb_false_iff in M. destruct M as [W M]. apply negb_false_iff in W. unfold case_wf in W.
    apply andb_true_iff in W. destruct W as [W1 W2]. apply arun_agree_monitor; assumption.
Qed.
