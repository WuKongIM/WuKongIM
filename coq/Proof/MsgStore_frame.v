(* Proof/MsgStore_frame.v — the lexicographic order of history points and the
   sortedness of [loadHistory] (the model sorts pairs with its own [insert_pair],
   not with [sort_by]: hence a second copy of the sort lemmas of Proof/KV.v); scans
   depend only on the keys they iterate over; the effect of the staged row writes /
   deletes on point reads. *)
From WK Require Import Base.Base Base.Lists Model.KV Gen.Consts_C07 Model.MsgStore Model.MsgStore_C07
     Proof.KV Proof.MsgStore_base Proof.MsgStore_rel Proof.MsgStore_reads.
From Coq Require Import Sorting.Permutation Sorting.Sorted.

Definition pair_lt (a b : N * N) : Prop := fst a < fst b \/ (fst a = fst b /\ snd a < snd b).
Definition pair_le (a b : N * N) : Prop := pair_lt a b \/ a = b.

Lemma pair_leb_le a b : pair_leb a b = true <-> pair_le a b.
Proof.
  unfold pair_leb, pair_le, pair_lt. destruct a as [a1 a2], b as [b1 b2]. cbn [fst snd].
  rewrite orb_true_iff, andb_true_iff, N.ltb_lt, N.eqb_eq, N.leb_le. split.
  - intros [H|[H1 H2]]; [left; left; exact H|].
    destruct (N.eq_dec a2 b2); [right; subst; reflexivity|left; right; split; [exact H1|lia]].
  - intros [[H|[H1 H2]]|H]; [left; exact H|right; split; [exact H1|lia]|injection H as -> ->; right; split; [reflexivity|lia]].
Qed.

Lemma pair_leb_false_lt a b : pair_leb a b = false -> pair_lt b a.
Proof.
  unfold pair_leb, pair_lt. destruct a as [a1 a2], b as [b1 b2]. cbn [fst snd].
  rewrite orb_false_iff, andb_false_iff, N.ltb_ge, N.eqb_neq, N.leb_gt. intros [H1 [H2|H2]]; lia.
Qed.

Lemma pair_lt_trans a b c : pair_lt a b -> pair_lt b c -> pair_lt a c.
Proof. unfold pair_lt. intros [H1|[H1 H1']] [H2|[H2 H2']]; [left; lia|left; lia|left; lia|right; split; lia]. Qed.

Lemma pair_lt_irrefl a : ~ pair_lt a a.
Proof. unfold pair_lt. intros [H|[_ H]]; lia. Qed.

Definition psorted (l : list (N * N)) : Prop := StronglySorted pair_lt l.

Lemma insert_pair_in x y l : In y (insert_pair x l) <-> y = x \/ In y l.
Proof.
  induction l as [|z l IH]; cbn [insert_pair].
  - cbn. intuition.
  - destruct (pair_leb x z); cbn [In]; [intuition|]. rewrite IH. intuition.
Qed.

Lemma insert_pair_sorted x l : psorted l -> ~ In x l -> psorted (insert_pair x l).
Proof.
  unfold psorted. induction 1 as [|z l Hs IH Hall]; intro Hn; cbn [insert_pair].
  - constructor; [constructor|constructor].
  - destruct (pair_leb x z) eqn:E.
    + apply pair_leb_le in E. destruct E as [E|E]; [|subst; exfalso; apply Hn; left; reflexivity].
      constructor; [constructor; assumption|]. constructor; [exact E|].
      eapply Forall_impl; [|exact Hall]. intros w Hw. eapply pair_lt_trans; eassumption.
    + apply pair_leb_false_lt in E. constructor.
      * apply IH. intro Hx. apply Hn. right. exact Hx.
      * apply Forall_forall. intros w Hw. apply insert_pair_in in Hw. destruct Hw as [->|Hw]; [exact E|].
        eapply Forall_forall in Hall; eassumption.
Qed.

Lemma sort_pairs_in x l : In x (sort_pairs l) <-> In x l.
Proof.
  unfold sort_pairs. induction l as [|y l IH]; cbn [fold_right]; [tauto|].
  rewrite insert_pair_in, IH. cbn [In]. intuition.
Qed.

Lemma sort_pairs_sorted l : NoDup l -> psorted (sort_pairs l).
Proof.
  unfold sort_pairs. induction 1 as [|x l Hx Hl IH]; cbn [fold_right]; [constructor|].
  apply insert_pair_sorted; [exact IH|]. intro H. apply (proj1 (sort_pairs_in x l)) in H. contradiction.
Qed.

Lemma psorted_unique l1 : forall l2, psorted l1 -> psorted l2 -> (forall x, In x l1 <-> In x l2) -> l1 = l2.
Proof. exact (strict_sorted_unique pair_lt pair_lt_irrefl pair_lt_trans l1). Qed.

Lemma nodup_hist_points (kv : kvs) c : swf kv -> NoDup (hist_points kv c).
Proof.
  intro W. unfold hist_points. apply (NoDup_flat_map_inj).
  - apply swf_nodup. exact W.
  - intros [k v] _. destruct k; try constructor. destruct (c0 =? c); [|constructor]. constructor; [intros []|constructor].
  - intros [k1 v1] [k2 v2] b H1 H2 Hb1 Hb2.
    destruct k1; try contradiction. destruct (c0 =? c) eqn:E1; [|contradiction]. destruct Hb1 as [<-|[]].
    destruct k2; try contradiction. destruct (c1 =? c) eqn:E2; [|contradiction]. destruct Hb2 as [Hb2|[]].
    injection Hb2 as -> ->. apply N.eqb_eq in E1, E2. subst.
    assert (G1 := proj1 (kin_iff_get _ _ _ W) H1). assert (G2 := proj1 (kin_iff_get _ _ _ W) H2).
    rewrite G1 in G2. injection G2 as ->. reflexivity.
Qed.

Lemma loadHistory_sorted (kv : kvs) c : swf kv -> psorted (loadHistory kv c).
Proof. intro W. apply sort_pairs_sorted. apply nodup_hist_points. exact W. Qed.

Lemma in_loadHistory (kv : kvs) c o e : swf kv -> (In (o, e) (loadHistory kv c) <-> has kv (KyHist c o e)).
Proof.
  intro W. unfold loadHistory. rewrite sort_pairs_in, (in_hist_points _ _ _ _ W). unfold has.
  destruct (kget (KyHist c o e) kv) as [v|]; split; intro H; try (exists v; reflexivity); try discriminate.
  - destruct H as [v' H]. discriminate.
  - contradiction.
Qed.

Lemma loadHistory_ext (kv kv' : kvs) c :
  swf kv -> swf kv' -> (forall o e, kget (KyHist c o e) kv' = kget (KyHist c o e) kv) ->
  loadHistory kv' c = loadHistory kv c.
Proof.
  intros W W' H. apply psorted_unique; try (apply loadHistory_sorted; assumption).
  intros [o e]. rewrite !in_loadHistory by assumption. unfold has. rewrite H. tauto.
Qed.

Lemma recoverLEO_char (kv : kvs) c rows :
  swf kv -> (forall q r, kget (KyRow c q) kv = Some (VRow r) <-> (In r rows /\ r_seq r = q)) ->
  recoverLEO kv c = match loadRetentionState kv c with
                    | Some (_, _, rm) => if max_seq rows <? rm then rm else max_seq rows
                    | None => max_seq rows
                    end.
Proof.
  intros W Hg. unfold recoverLEO.
  assert (E : max_seq (rows_unsorted kv c) = max_seq rows).
  { apply max_seq_ext. intro r. rewrite in_rows_unsorted. split.
    - intros [q Hin]. apply (kin_iff_get _ _ _ W) in Hin. apply Hg in Hin. apply Hin.
    - intro Hin. exists (r_seq r). apply (kin_iff_get _ _ _ W). apply Hg. split; [exact Hin|reflexivity]. }
  rewrite E. reflexivity.
Qed.

Definition cidx_cond (r : row) : bool := negb (is_nil (r_cno r)) && is_nil (r_uid r).
Definition idem_cond (r : row) : bool := negb (is_nil (r_uid r)) && negb (is_nil (r_cno r)).
Definition sseq_cond (r : row) : bool := negb (is_nil (r_uid r)) && (N.land (r_flags r) syncOnceFlag =? 0).

Lemma keff_stage_row k c r cur :
  keff k (stageMessageRow c r) cur =
  match k with
  | KyRow c' q => if (c' =? c) && (q =? r_seq r) then Some (VRow r) else cur
  | KyGid i => if i =? r_id r then Some (VGid c (r_seq r)) else cur
  | KyCidx c' n q => if cidx_cond r && ((c' =? c) && bytes_eqb n (r_cno r) && (q =? r_seq r))
                     then Some (VNum (r_seq r)) else cur
  | KyIdem c' n u => if idem_cond r && ((c' =? c) && bytes_eqb n (r_cno r) && bytes_eqb u (r_uid r))
                     then Some (VIdem (r_seq r) (r_id r) (r_hash r)) else cur
  | KySseq c' u q => if sseq_cond r && ((c' =? c) && bytes_eqb u (r_uid r) && (q =? r_seq r))
                     then Some (VNum (r_id r)) else cur
  | _ => cur
  end.
Proof.
  unfold stageMessageRow. fold (cidx_cond r) (idem_cond r) (sseq_cond r).
  destruct (cidx_cond r), (idem_cond r), (sseq_cond r); destruct k;
    cbn [keff batch_effect fold_left app op_effect key_eqb andb];
    repeat match goal with
           | |- context [if ?b then _ else _] => destruct b
           end; reflexivity.
Qed.

Definition row_del_keys (c : N) (r : row) : list key :=
  [KyRow c (r_seq r)]
  ++ (if negb (r_id r =? 0) then [KyGid (r_id r)] else [])
  ++ (if cidx_cond r then [KyCidx c (r_cno r) (r_seq r)] else [])
  ++ (if idem_cond r then [KyIdem c (r_cno r) (r_uid r)] else [])
  ++ (if negb (is_nil (r_uid r)) then [KySseq c (r_uid r) (r_seq r)] else []).

Lemma stageDelete_all_del c r : all_del (stageDeleteMessage c r).
Proof.
  unfold stageDeleteMessage, all_del.
  repeat (apply Forall_app; split); repeat match goal with |- context [if ?b then _ else _] => destruct b end;
    repeat constructor.
Qed.

Lemma stageDelete_keys c r : del_keys (stageDeleteMessage c r) = row_del_keys c r.
Proof.
  unfold stageDeleteMessage, row_del_keys, cidx_cond, idem_cond. rewrite !del_keys_app.
  repeat match goal with |- context [if ?b then _ else _] => destruct b end; reflexivity.
Qed.

Lemma kget_delete_row (kv : kvs) k c r :
  kget k (kapply kv (stageDeleteMessage c r)) = if existsb (key_eqb k) (row_del_keys c r) then None else kget k kv.
Proof. rewrite kget_apply, keff_dels by apply stageDelete_all_del. rewrite stageDelete_keys. reflexivity. Qed.

Definition deleted_keys (c : N) (D : list row) : list key := flat_map (row_del_keys c) D.

Lemma keff_delete_rows k c D cur :
  keff k (flat_map (stageDeleteMessage c) D) cur = if existsb (key_eqb k) (deleted_keys c D) then None else cur.
Proof.
  rewrite keff_dels by (apply all_del_flat_map; apply stageDelete_all_del).
  rewrite del_keys_flat_map. unfold deleted_keys.
  replace (flat_map (fun x => del_keys (stageDeleteMessage c x)) D) with (flat_map (row_del_keys c) D); [reflexivity|].
  induction D as [|r D IH]; cbn [flat_map]; [reflexivity|]. rewrite stageDelete_keys, IH. reflexivity.
Qed.

Lemma kget_delete_rows (kv : kvs) k c D :
  kget k (kapply kv (flat_map (stageDeleteMessage c) D)) = if existsb (key_eqb k) (deleted_keys c D) then None else kget k kv.
Proof. rewrite kget_apply. apply keff_delete_rows. Qed.

Lemma in_deleted_keys k c D :
  In k (deleted_keys c D) <-> exists r, In r D /\ In k (row_del_keys c r).
Proof. unfold deleted_keys. apply in_flat_map. Qed.

Ltac solve_or := solve [ reflexivity | left; solve_or | right; solve_or ].

Lemma in_row_del_keys k c r :
  In k (row_del_keys c r) <->
  match k with
  | KyRow c' q => c' = c /\ q = r_seq r
  | KyGid i => i = r_id r /\ r_id r <> 0
  | KyCidx c' n q => c' = c /\ n = r_cno r /\ q = r_seq r /\ r_cno r <> [] /\ r_uid r = []
  | KyIdem c' n u => c' = c /\ n = r_cno r /\ u = r_uid r /\ r_uid r <> [] /\ r_cno r <> []
  | KySseq c' u q => c' = c /\ u = r_uid r /\ q = r_seq r /\ r_uid r <> []
  | _ => False
  end.
Proof.
  unfold row_del_keys, cidx_cond, idem_cond. rewrite !in_app_iff.
  destruct (r_id r =? 0) eqn:Ei; [apply N.eqb_eq in Ei|apply N.eqb_neq in Ei];
  (destruct (is_nil (r_cno r)) eqn:Ec; [apply is_nil_true in Ec|apply is_nil_false in Ec]);
  (destruct (is_nil (r_uid r)) eqn:Eu; [apply is_nil_true in Eu|apply is_nil_false in Eu]);
    cbn [negb andb In];
    destruct k; (split; [intro H|intro H]);
    repeat match goal with
           | H : _ \/ _ |- _ => destruct H
           | H : False |- _ => destruct H
           | H : _ /\ _ |- _ => destruct H
           | H : @eq key _ _ |- _ => (injection H; clear H; intros; subst) || discriminate H
           end;
    subst; try contradiction; try congruence;
    try (repeat split; congruence);
    try (left; reflexivity);
    try (right; left; reflexivity);
    try (right; right; left; reflexivity);
    try (right; right; right; left; reflexivity);
    try (right; right; right; right; left; reflexivity);
    solve_or.
Qed.
