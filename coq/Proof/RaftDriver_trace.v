(* Proof/RaftDriver_trace.v — C12: what the event list of the driver model looks
   like in every reachable state: the apply order (the monitor's check_order) and
   persist-before-send / persist-before-apply (check_persist).  Both checks thread
   a state through the events; in the model that state is a function of the node
   (the state machine's index, the durable state), which is the invariant. *)
From WK Require Import Base.Base Model.RaftDriver Proof.RaftDriver_lists Proof.RaftDriver_exec
  Proof.RaftDriver_inv Proof.RaftDriver_steps.
From Coq Require Import Sorted ZifyBool ZifyN ZifyNat.
Open Scope N_scope.

Fixpoint walk {St} (f : St -> event -> option St) (x : St) (evs : list event) : option St :=
  match evs with
  | [] => Some x
  | ev :: r => match f x ev with Some y => walk f y r | None => None end
  end.

Lemma walk_app {St} (f : St -> event -> option St) a : forall x b,
  walk f x (a ++ b) = match walk f x a with Some y => walk f y b | None => None end.
Proof.
  induction a as [|ev a IH]; intros x b; [reflexivity|]. cbn [app walk]. destruct (f x ev); [apply IH | reflexivity].
Qed.

Definition order_ev (G : list entry) (cur : N) (ev : event) : option N :=
  match ev with
  | EvRestore i => Some i
  | EvApply _ ents =>
      if negb (match ents with [] => true | _ => false end) && increasing_from cur ents && no_gap G cur ents
      then Some (lastApplied ents cur) else None
  | _ => Some cur
  end.

Lemma check_order_walk G evs : forall cur,
  check_order G cur evs = match walk (order_ev G) cur evs with Some _ => true | None => false end.
Proof.
  induction evs as [|ev r IH]; intro cur; [reflexivity|].
  destruct ev; cbn [check_order walk order_ev]; try apply IH.
  destruct (negb (match ents with [] => true | _ => false end) && increasing_from cur ents && no_gap G cur ents);
    [apply IH | reflexivity].
Qed.

Definition persist_ev (d : dur) (ev : event) : option dur :=
  match ev with
  | EvSave hs ents snap => Some (dur_save d hs ents snap)
  | EvBoot _ t v c _ sn _ => Some (mkDur (u_log d) (mkHS t v c) sn)
  | EvSend ms => if forallb (msg_ok d) ms then Some d else None
  | EvApply _ ents => if forallb (applied_ok d) ents then Some d else None
  | _ => Some d
  end.

Lemma check_persist_walk evs : forall d,
  check_persist d evs = match walk persist_ev d evs with Some _ => true | None => false end.
Proof.
  induction evs as [|ev r IH]; intro d; [reflexivity|].
  destruct ev; cbn [check_persist walk persist_ev]; try apply IH.
  - destruct (forallb (msg_ok d) ms); [apply IH | reflexivity].
  - destruct (forallb (applied_ok d) ents); [apply IH | reflexivity].
Qed.

Section Trace.

Variable clog : N -> entry.
Hypothesis clog_idx : forall i, e_idx (clog i) = i.
Variable GS : entry -> Prop.
Variable TrackHyp : node -> list entry -> Prop.

Notation INV := (INV clog GS).
Notation mop_valid := (mop_valid clog GS TrackHyp).
Notation preserved := (preserved clog GS TrackHyp).

Section Observer.

Variables (St : Type) (f : St -> event -> option St) (x0 : St) (proj : node -> St).

Definition follows (s : node) : Prop := walk f x0 (n_tr s) = Some (proj s).

Hypothesis f_exec : forall o s,
  INV s -> live s -> mop_valid o s -> walk f (proj s) (ev_of o s) = Some (proj (exec o s)).
Hypothesis f_down : forall hard s, v_up s = true -> walk f (proj s) [EvDown hard] = Some (proj (crash hard s)).
Hypothesis f_boot : forall first s,
  v_up s = false -> walk f (proj s) (boot_events first s) = Some (proj (newSlot first s)).
Hypothesis proj_core : forall s s', same_core s s' -> proj s' = proj s.

Lemma follows_events s s' evs :
  n_tr s' = n_tr s ++ evs -> walk f (proj s) evs = Some (proj s') -> follows s -> follows s'.
Proof. intros Et Hev H. unfold follows in *. rewrite Et, walk_app, H. exact Hev. Qed.

Lemma follows_preserved : preserved follows.
Proof.
  split; [|split; [|split]].
  - intros o s I H L V. apply (follows_events s _ (ev_of o s)); [apply exec_tr, L | apply f_exec; assumption | exact H].
  - intros hard s I H. destruct (v_up s) eqn:U; [|unfold crash; rewrite U; exact H].
    apply (follows_events s _ [EvDown hard]); [unfold crash; rewrite U; reflexivity | apply f_down, U | exact H].
  - intros first s I H U.
    apply (follows_events s _ (boot_events first s)); [apply newSlot_tr, U | apply f_boot, U | exact H].
  - intros cmd acc s I H. pose proof (propose_core cmd acc s) as C. unfold follows. rewrite (proj_core _ _ C).
    destruct C as (sub & pend & l & out & ->). exact H.
Qed.

End Observer.
Arguments follows {St} f x0 proj s.

(* a set of applied entries that only contains commands of the committed log *)
Definition Gsound (G : list entry) : Prop :=
  forall g, In g G -> g = clog (e_idx g) /\ is_normal g = true /\ 0 < e_idx g.

Definition ORD (s : node) : Prop := forall G, Gsound G -> follows (order_ev G) 0 sm_idx s.

Lemma increasing_from_sorted c : forall cur,
  sorted c -> (forall e, In e c -> cur < e_idx e) -> increasing_from cur c = true.
Proof.
  induction c as [|x c IH]; intros cur Hs Hgt; [reflexivity|].
  cbn [increasing_from]. apply andb_true_iff. split.
  - apply N.ltb_lt. apply Hgt. left. reflexivity.
  - unfold sorted in Hs. inversion Hs as [|? ? Hs' Hf]; subst. apply IH; [exact Hs'|].
    intros e He. rewrite Forall_forall in Hf. apply Hf, He.
Qed.

Lemma has_idx_In c e : In e c -> has_idx c (e_idx e) = true.
Proof.
  intro H. unfold has_idx. apply existsb_exists. exists e. split; [exact H | apply N.eqb_refl].
Qed.

Lemma order_step_call G s c :
  INV s -> Gsound G -> call_ok clog (g_pos s) c ->
  order_ev G (sm_idx s) (EvApply (1 <? N.of_nat (length c)) c) = Some (lastApplied c (sm_idx s)).
Proof.
  intros I HG Hc. pose proof (call_ok_last_gt clog _ _ Hc) as Hgt.
  destruct Hc as (Hne & Hs & Hsd & Hcomp). destruct I.
  cbn [order_ev].
  assert (E1 : negb (match c with [] => true | _ => false end) = true) by (destruct c; [congruence | reflexivity]).
  assert (E2 : increasing_from (sm_idx s) c = true).
  { apply increasing_from_sorted; [exact Hs|]. intros e He. destruct (Hsd e He) as (_ & _ & H). lia. }
  assert (E3 : no_gap G (sm_idx s) c = true).
  { unfold no_gap. apply forallb_forall. intros g Hg.
    destruct ((sm_idx s <? e_idx g) && (e_idx g <=? lastApplied c (sm_idx s))) eqn:E; [|reflexivity].
    apply andb_true_iff in E. destruct E as [Ea Eb]. apply N.ltb_lt in Ea. apply N.leb_le in Eb.
    rewrite (lastApplied_default c (sm_idx s) (g_pos s) Hne) in Eb.
    destruct (HG g Hg) as (Hg1 & Hg2 & _). rewrite Hg1 in Hg2.
    destruct (N.le_gt_cases (e_idx g) (g_pos s)) as [Hle|Hgt'].
    - (* it would already be in the state machine, at or below its index *)
      assert (In (clog (e_idx g)) (sm_hist s)) by (apply i_complete; [lia | exact Hg2]).
      destruct (i_sound _ H) as (_ & _ & B). rewrite clog_idx in B. lia.
    - assert (In (clog (e_idx g)) c) by (apply Hcomp; [lia | exact Hg2]).
      rewrite <- (clog_idx (e_idx g)) at 1. apply has_idx_In. exact H. }
  rewrite E1, E2, E3. reflexivity.
Qed.

(* one operation, seen by both walks *)
Lemma exec_walks G o s :
  INV s -> live s -> mop_valid o s -> Gsound G ->
  walk (order_ev G) (sm_idx s) (ev_of o s) = Some (sm_idx (exec o s))
  /\ walk persist_ev (dur_of s) (ev_of o s) = Some (dur_of (exec o s)).
Proof.
  intros I L V HG. destruct (futs_op o) eqn:F.
  { destruct (exec_core o s F) as (sub & pend & l & out & ->). destruct o; try discriminate F; split; reflexivity. }
  exec_on L.
  destruct o as [hs ents snap| |ms|i c|c|idx| |t| |upto| |i|i]; try discriminate F;
    cbn [ev_of RaftDriver_inv.mop_valid] in *.
  - destruct hs, ents, snap as [[[? ?] ?]|]; split; reflexivity.
  - destruct ms; [split; reflexivity|]. cbn [walk persist_ev]. rewrite V. split; reflexivity.
  - split; reflexivity.
  - destruct V as [Vc Vp]. cbn [walk persist_ev]. rewrite (order_step_call G s c I HG Vc), Vp. split; reflexivity.
  - destruct (idx <=? v_applied s); [|destruct (markApplied (durable_sm s) (sm_idx s) idx)]; split; reflexivity.
  - split; reflexivity.
  - split; reflexivity.
  - split; reflexivity.
  - destruct (durable_sm s); split; reflexivity.
  - split; reflexivity.
Qed.

Lemma ORD_preserved : preserved ORD.
Proof.
  apply preserved_forall. intros G HG. apply follows_preserved.
  - intros o s I L V. apply (exec_walks G o s I L V HG).
  - intros hard s U. unfold crash. rewrite U. reflexivity.
  - intros first s U. rewrite (newSlot_down first s U). cbn zeta. unfold boot_events, boot_event.
    destruct (negb (d_snap s =? 0)); reflexivity.
  - intros s s' (sub & pend & l & out & ->). reflexivity.
Qed.

Lemma ORD_check s G : ORD s -> Gsound G -> check_order G 0 (n_tr s) = true.
Proof. intros H HG. rewrite check_order_walk, (H G HG). reflexivity. Qed.

Definition PERS (s : node) : Prop := follows persist_ev dur0 dur_of s.

Lemma PERS_preserved : preserved PERS.
Proof.
  apply follows_preserved.
  - intros o s I L V. apply (exec_walks [] o s I L V). intros g [].
  - intros hard s U. unfold crash. rewrite U. reflexivity.
  - intros first s U. rewrite (newSlot_down first s U). cbn zeta. unfold boot_events, boot_event, dur_of.
    destruct (negb (d_snap s =? 0)); cbn [walk persist_ev]; nsimpl; destruct (d_hs s); reflexivity.
  - intros s s' (sub & pend & l & out & ->). reflexivity.
Qed.

Lemma PERS_check s : PERS s -> check_persist dur0 (n_tr s) = true.
Proof. intro H. rewrite check_persist_walk, H. reflexivity. Qed.

Section Run.

Hypothesis TrackHyp_submitted :
  forall s s' ents, v_submitted s' = v_submitted s -> TrackHyp s ents -> TrackHyp s' ents.

Theorem run_ORD sched :
  sched_ok clog GS TrackHyp sched start_node -> ORD (run true sched).
Proof.
  intro Hok. apply (preserved_run clog clog_idx GS TrackHyp TrackHyp_submitted ORD ORD_preserved sched Hok).
  intros G HG. reflexivity.
Qed.

Theorem run_PERS sched :
  sched_ok clog GS TrackHyp sched start_node -> PERS (run true sched).
Proof.
  intro Hok. apply (preserved_run clog clog_idx GS TrackHyp TrackHyp_submitted PERS PERS_preserved sched Hok). reflexivity.
Qed.

End Run.

End Trace.
