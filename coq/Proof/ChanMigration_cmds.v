(* Proof/ChanMigration_cmds.v — the per-command theorems of C17: what an accepted
   commit / promote / abort / fence command implies about the rows it was applied to.
   Statements are about the mutators and about stageChannelMigrationTaskAndMeta, i.e. they
   hold for the rows the command loads, in one-command and in multi-command batches alike. *)
From WK Require Import Base.Base Base.Lists.
From WK Require Import Gen.Consts_C15 Gen.Consts_C17 Model.RuntimeMeta Model.ChanMigration Model.ChanMigration_C17.
From WK Require Import Proof.RuntimeMeta Proof.ChanMigration.
Open Scope N_scope.

Ltac b2p :=
  repeat match goal with
  | H : negb _ = true |- _ => apply negb_true_iff in H
  | H : negb _ = false |- _ => apply negb_false_iff in H
  | H : (_ || _) = false |- _ => apply orb_false_iff in H; destruct H
  | H : (_ && _) = true |- _ => apply andb_prop in H; destruct H
  end.

(* the seven mutators read backwards: the guards that passed and the rows returned *)

Lemma mutSetFence_inv t m h reason until_ms nt nm :
  mutSetFence t m h reason until_ms = Ok (nt, nm) ->
  requireChannelMigrationSetFenceTransition t h = true
  /\ requireNoForeignChannelMigrationFence t m = true
  /\ nt = set_status_phase_updated
            (set_fence (clearChannelMigrationTaskProof t) (t_task_id t) (wrap64 (rm_write_fence_version m + 1)) until_ms)
            (tr_status h) (tr_phase h) (tr_updated_at_ms h)
  /\ nm = set_write_fence m (t_task_id t) (wrap64 (rm_write_fence_version m + 1)) reason until_ms.
Proof.
  unfold mutSetFence.
  destruct (requireChannelMigrationSetFenceTransition t h); [|discriminate].
  destruct (requireNoForeignChannelMigrationFence t m); [|discriminate].
  cbn [negb]. intro H. inversion H. auto.
Qed.

Lemma mutReset_inv t m h now nt nm :
  mutReset t m h now = Ok (nt, nm) ->
  requireChannelMigrationResetFenceTransition t h = true
  /\ requireActiveChannelMigrationTaskFence t m (rg_expected_fence_version (tr_rguard h)) = true
  /\ nt = set_status_phase_updated (clearChannelMigrationTaskFenceAndProof t)
            (tr_status h) (tr_phase h) (tr_updated_at_ms h)
  /\ nm = clearChannelRuntimeMetaFence m.
Proof.
  unfold mutReset. cbv zeta.
  destruct (requireChannelMigrationResetFenceTransition t h); [|discriminate].
  destruct (requireActiveChannelMigrationTaskFence t m _); [|discriminate].
  destruct (requireMatchingFence m _ _ 0%Z true); [|discriminate].
  destruct (now <=? rm_write_fence_until_ms m)%Z; [discriminate|].
  cbn [negb]. intro H. inversion H. auto.
Qed.

Lemma mutCommit_inv t m h desired next_epoch lease now nt nm :
  mutCommit t m h desired next_epoch lease now = Ok (nt, nm) ->
  nt = set_status_phase_updated t (tr_status h) (tr_phase h) (tr_updated_at_ms h)
  /\ nm = set_leader m desired next_epoch lease
  /\ requireChannelMigrationLeaderTransferTransition t h = true
  /\ requireMatchingFence m (rg_expected_fence_token (tr_rguard h)) (rg_expected_fence_version (tr_rguard h)) now false = true
  /\ requireActiveChannelMigrationTaskFence t m (rg_expected_fence_version (tr_rguard h)) = true
  /\ requireChannelMigrationCutoverProof t m (rg_expected_fence_version (tr_rguard h)) = true
  /\ containsUint64 (rm_isr m) desired = true /\ rm_leader_epoch m < next_epoch.
Proof.
  unfold mutCommit. cbv zeta.
  destruct (requireChannelMigrationLeaderTransferTransition t h); [|discriminate].
  destruct (requireMatchingFence m _ _ now false); [|discriminate].
  destruct (requireActiveChannelMigrationTaskFence t m _); [|discriminate].
  destruct (requireChannelMigrationCutoverProof t m _); [|discriminate].
  cbn [negb].
  destruct (negb (desired =? channelMigrationTaskDesiredLeader t) || negb (containsUint64 (rm_isr m) desired)
            || (next_epoch <=? rm_leader_epoch m)) eqn:Ck; [discriminate|].
  apply orb_false_iff in Ck. destruct Ck as [Ck Ep]. apply orb_false_iff in Ck. destruct Ck as [_ Ci].
  apply negb_false_iff in Ci. apply N.leb_gt in Ep.
  intro H. inversion H. repeat split; assumption || reflexivity.
Qed.

Lemma mutAddLearner_inv t m h target nt nm :
  mutAddLearner t m h target = Ok (nt, nm) ->
  requireChannelMigrationAddLearnerTransition t h = true
  /\ nt = set_status_phase_updated t (tr_status h) (tr_phase h) (tr_updated_at_ms h)
  /\ nm = (if negb (containsUint64 (rm_replicas m) target)
           then set_membership m (rm_replicas m ++ [target]) (rm_isr m) (wrap64 (rm_channel_epoch m + 1))
           else m).
Proof.
  unfold mutAddLearner. cbv zeta.
  destruct (requireChannelMigrationAddLearnerTransition t h); [|discriminate].
  cbn [negb]. destruct (_ || _ || _ || _ || _ || _); [discriminate|].
  intro H. inversion H. auto.
Qed.

Lemma mutPromote_inv t m h source target now nt nm :
  mutPromote t m h source target now = Ok (nt, nm) ->
  containsUint64 (rm_isr m) target = false
  /\ nt = set_status_phase_updated t (tr_status h) (tr_phase h) (tr_updated_at_ms h)
  /\ nm = set_membership m (replaceUint64Member (rm_replicas m) source target)
            (if containsUint64 (rm_isr m) source then replaceUint64Member (rm_isr m) source target
             else normalizeUint64Set (rm_isr m ++ [target]))
            (wrap64 (rm_channel_epoch m + 1))
  /\ requireChannelMigrationPromoteLearnerTransition t h = true
  /\ requireMatchingFence m (rg_expected_fence_token (tr_rguard h)) (rg_expected_fence_version (tr_rguard h)) now false = true
  /\ requireActiveChannelMigrationTaskFence t m (rg_expected_fence_version (tr_rguard h)) = true
  /\ requireChannelMigrationCutoverProof t m (rg_expected_fence_version (tr_rguard h)) = true.
Proof.
  unfold mutPromote. cbv zeta.
  destruct (requireChannelMigrationPromoteLearnerTransition t h); [|discriminate].
  destruct (requireMatchingFence m _ _ now false); [|discriminate].
  destruct (requireActiveChannelMigrationTaskFence t m _); [|discriminate].
  destruct (requireChannelMigrationCutoverProof t m _); [|discriminate].
  cbn [negb].
  destruct (_ || _ || _ || _ || _ || _ || containsUint64 (rm_isr m) target) eqn:Ck; [discriminate|].
  apply orb_false_iff in Ck. intro H. inversion H. split; [exact (proj2 Ck)|]. repeat split; reflexivity.
Qed.

(* mutClear returns the rows as they are (the idempotent repeat of a completed clear) or clears the
   fence; ending the embedded leg also drops the embedded flag *)
Lemma mutClear_inv t m h completed nt nm :
  mutClear t m h completed = Ok (nt, nm) ->
  requireChannelMigrationClearFenceTransition t h completed = true
  /\ ((nt = t /\ nm = m)
      \/ (requireActiveChannelMigrationTaskFence t m (rg_expected_fence_version (tr_rguard h)) = true
          /\ nt = (let nt0 := set_completed (set_status_phase_updated (clearChannelMigrationTaskFenceAndProof t)
                                              (tr_status h) (tr_phase h) (tr_updated_at_ms h)) completed in
                   if (t_kind t =? KindReplicaReplace) && t_embedded_leader_transfer t
                      && (t_phase t =? PhaseVerifyNewLeader) && (tr_status h =? StatusRunning)
                      && (tr_phase h =? PhaseAddLearner)
                   then set_embedded nt0 false 0 else nt0)
          /\ nm = clearChannelRuntimeMetaFence m)).
Proof.
  unfold mutClear. cbv zeta.
  destruct (requireChannelMigrationClearFenceTransition t h completed); [|discriminate].
  cbn [negb]. intro H. split; [reflexivity|].
  destruct (isChannelMigrationClearFenceIdempotent t m h completed); [inversion H; auto|].
  destruct (requireActiveChannelMigrationTaskFence t m _); [|discriminate].
  destruct (requireMatchingFence m _ _ 0%Z true); [|discriminate].
  cbn [negb] in H. inversion H. auto.
Qed.

Lemma mutAbort_inv t m h completed last_error nt nm :
  mutAbort t m h completed last_error = Ok (nt, nm) ->
  let fenced := negb (is_empty (rm_write_fence_token m)) in
  let nm0 := if fenced then clearChannelRuntimeMetaFence m else m in
  (fenced = true -> requireActiveChannelMigrationTaskFence t m (rg_expected_fence_version (tr_rguard h)) = true)
  /\ nt = set_last_error
            (set_completed (set_status_phase_updated (clearChannelMigrationTaskFenceAndProof t)
                              (tr_status h) (tr_phase h) (tr_updated_at_ms h)) completed) last_error
  /\ nm = (if (t_kind t =? KindReplicaReplace) && canAbortRemoveUnpromotedChannelMigrationLearner t
              && containsUint64 (rm_replicas nm0) (t_target_node t)
              && negb (containsUint64 (rm_isr nm0) (t_target_node t))
           then set_membership nm0 (removeUint64Member (rm_replicas nm0) (t_target_node t)) (rm_isr nm0)
                  (wrap64 (rm_channel_epoch nm0 + 1))
           else nm0).
Proof.
  unfold mutAbort. cbv zeta.
  destruct (isTerminal t); [discriminate|].
  destruct (requireChannelMigrationAbortTransition t); [|discriminate]. cbn [negb].
  destruct (negb (is_empty (rm_write_fence_token m))); cbn [andb negb].
  - destruct (requireActiveChannelMigrationTaskFence t m _); [|discriminate].
    destruct (requireMatchingFence m _ _ 0%Z true); [|discriminate].
    cbn [negb]. intro H. inversion H. auto.
  - destruct (taskHasFence t); [discriminate|]. intro H. inversion H. split; [discriminate|auto].
Qed.

Lemma mutate_task_meta_identity c t m t' m' : mutate_task_meta c t m = Ok (t', m') -> same_identity t t'.
Proof.
  destruct c; cbn [mutate_task_meta]; try discriminate; intro H.
  - destruct (mutSetFence_inv _ _ _ _ _ _ _ H) as (_ & _ & -> & _). repeat split.
  - destruct (mutReset_inv _ _ _ _ _ _ H) as (_ & _ & -> & _). repeat split.
  - destruct (mutCommit_inv _ _ _ _ _ _ _ _ _ H) as (-> & _). repeat split.
  - destruct (mutAddLearner_inv _ _ _ _ _ _ H) as (_ & -> & _). repeat split.
  - destruct (mutPromote_inv _ _ _ _ _ _ _ _ H) as (_ & -> & _). repeat split.
  - destruct (mutClear_inv _ _ _ _ _ _ H) as (_ & [[-> _]|(_ & -> & _)]); [repeat split|].
    cbv zeta. match goal with |- context [if ?b then _ else _] => destruct b end; repeat split.
  - destruct (mutAbort_inv _ _ _ _ _ _ _ H) as (_ & -> & _). repeat split.
Qed.

Lemma requireMatchingFence_true m tok v now allow :
  requireMatchingFence m tok v now allow = true ->
  is_empty tok = false /\ (v =? 0) = false /\ bytes_eqb (rm_write_fence_token m) tok = true
  /\ (rm_write_fence_version m =? v) = true
  /\ (allow = false -> (now <=? rm_write_fence_until_ms m)%Z = true).
Proof.
  unfold requireMatchingFence.
  destruct (is_empty tok || (v =? 0) || negb (bytes_eqb (rm_write_fence_token m) tok)
            || negb (rm_write_fence_version m =? v)) eqn:E; [discriminate|].
  intro H. b2p. repeat split; auto.
  intro A. subst allow. simpl in H.
  apply Z.leb_le. apply Z.ltb_ge. exact H.
Qed.

Lemma requireActive_true t m v :
  requireActiveChannelMigrationTaskFence t m v = true ->
  is_empty (t_fence_token t) = false /\ bytes_eqb (t_fence_token t) (t_task_id t) = true
  /\ bytes_eqb (t_fence_token t) (rm_write_fence_token m) = true
  /\ (t_fence_version t =? rm_write_fence_version m) = true /\ (t_fence_version t =? v) = true.
Proof. unfold requireActiveChannelMigrationTaskFence. intro H. b2p. repeat split; auto. Qed.

Lemma requireProof_true t m v :
  requireChannelMigrationCutoverProof t m v = true ->
  (v =? 0) = false /\ proof_hasAny (t_proof t) = true /\ proof_hasPartial (t_proof t) = false
  /\ (pf_drained_fence_version (t_proof t) =? v) = true /\ (rm_write_fence_version m =? v) = true
  /\ (pf_drained_channel_epoch (t_proof t) =? rm_channel_epoch m) = true
  /\ (pf_drained_leader_epoch (t_proof t) =? rm_leader_epoch m) = true
  /\ (pf_drained_leader_node (t_proof t) =? rm_leader m) = true.
Proof.
  unfold requireChannelMigrationCutoverProof.
  destruct ((v =? 0) || negb (proof_hasAny (t_proof t)) || proof_hasPartial (t_proof t)) eqn:E; [discriminate|].
  intro H. b2p. repeat split; auto.
Qed.

Lemma is_empty_eqb a b : bytes_eqb a b = true -> is_empty a = is_empty b.
Proof. intro H. apply bytes_eqb_eq in H. subst. reflexivity. Qed.

Lemma guards_give_core t m g now :
  requireMatchingFence m (rg_expected_fence_token g) (rg_expected_fence_version g) now false = true ->
  requireActiveChannelMigrationTaskFence t m (rg_expected_fence_version g) = true ->
  requireChannelMigrationCutoverProof t m (rg_expected_fence_version g) = true ->
  cutover_proof_core t m g now = true.
Proof.
  intros H1 H2 H3.
  apply requireMatchingFence_true in H1. destruct H1 as (A1 & A2 & A3 & A4 & A5).
  apply requireActive_true in H2. destruct H2 as (B1 & B2 & B3 & B4 & B5).
  apply requireProof_true in H3. destruct H3 as (C1 & C2 & C3 & C4 & C5 & C6 & C7 & C8).
  unfold cutover_proof_core.
  rewrite C2, C3, A2, C5, C6, C7, C8, B2, B4, (A5 eq_refl). cbn [negb andb].
  apply N.eqb_eq in C4. apply N.eqb_eq in C5. rewrite C4, <- C5, N.eqb_refl. cbn [andb].
  rewrite <- (is_empty_eqb _ _ B3), B1. cbn [negb andb].
  apply bytes_eqb_eq in B3. apply bytes_eqb_eq in B2. rewrite <- B3, B2, bytes_eqb_refl. reflexivity.
Qed.

Lemma mutCommit_needs_proof t m h desired next_epoch lease now nt nm :
  mutCommit t m h desired next_epoch lease now = Ok (nt, nm) ->
  cutover_proof_core t m (tr_rguard h) now = true
  /\ t_phase t = PhaseCommitLeaderMeta /\ t_phase nt = PhaseVerifyNewLeader
  /\ containsUint64 (rm_isr m) desired = true /\ rm_leader_epoch m < next_epoch.
Proof.
  intro H. destruct (mutCommit_inv _ _ _ _ _ _ _ _ _ H) as (-> & _ & Tr & Mf & Ac & Pr & Ci & Ep).
  split; [exact (guards_give_core _ _ _ _ Mf Ac Pr)|].
  unfold requireChannelMigrationLeaderTransferTransition in Tr.
  destruct (negb (tr_status h =? StatusRunning) || negb (t_phase t =? PhaseCommitLeaderMeta)
            || negb (tr_phase h =? PhaseVerifyNewLeader)) eqn:G; [discriminate|].
  apply orb_false_iff in G. destruct G as [G P2]. apply orb_false_iff in G. destruct G as [_ P1].
  apply negb_false_iff in P1, P2. apply N.eqb_eq in P1, P2.
  cbn [t_phase set_status_phase_updated]. auto.
Qed.

Lemma mutPromote_needs_proof t m h source target now nt nm :
  mutPromote t m h source target now = Ok (nt, nm) ->
  cutover_proof_core t m (tr_rguard h) now = true
  /\ t_phase t = PhasePromoteAndRemove /\ t_phase nt = PhaseVerifyMembership.
Proof.
  intro H. destruct (mutPromote_inv _ _ _ _ _ _ _ _ H) as (_ & -> & _ & Tr & Mf & Ac & Pr).
  split; [exact (guards_give_core _ _ _ _ Mf Ac Pr)|].
  unfold requireChannelMigrationPromoteLearnerTransition in Tr. apply negb_true_iff in Tr.
  apply orb_false_iff in Tr. destruct Tr as [Tr P2]. apply orb_false_iff in Tr. destruct Tr as [Tr _].
  apply orb_false_iff in Tr. destruct Tr as [_ P1].
  apply negb_false_iff in P1, P2. apply N.eqb_eq in P1, P2.
  cbn [t_phase set_status_phase_updated]. auto.
Qed.

Definition is_cutover (c : cmd) : bool :=
  match c with CCommit _ _ _ _ _ | CPromote _ _ _ _ => true | _ => false end.

Definition cutover_now (c : cmd) : Z :=
  match c with CCommit _ _ _ _ now | CPromote _ _ _ now => now | _ => 0%Z end.

Lemma cutover_mutated c h t m nt nm :
  mutate_task_meta c t m = Ok (nt, nm) -> is_cutover c = true -> cmd_trans c = Some h ->
  cutover_proof_core t m (tr_rguard h) (cutover_now c) = true /\ nt <> t.
Proof.
  intros M Hc Ht.
  destruct c; try discriminate Hc; cbn [cmd_trans] in Ht; inversion Ht; subst h0;
    cbn [mutate_task_meta cutover_now] in *.
  - destruct (mutCommit_needs_proof _ _ _ _ _ _ _ _ _ M) as (P1 & P2 & P3 & _).
    split; [exact P1|]. intro E. subst nt. rewrite P2 in P3. discriminate.
  - destruct (mutPromote_needs_proof _ _ _ _ _ _ _ _ M) as (P1 & P2 & P3).
    split; [exact P1|]. intro E. subst nt. rewrite P2 in P3. discriminate.
Qed.

(* the meta row stageChannelMigrationTaskAndMeta writes for the mutator's row [nm] over [m] *)
Definition stored_meta (m nm : runtime_meta) : runtime_meta :=
  bumpRuntimeRoute m (normalizeChannelRuntimeMeta nm) true.

(* An accepted task+meta operation loaded a task and a meta row and the mutator accepted them.
   Then either a guard did not match and there was nothing to do (the overlay is untouched), or
   both guards matched, a terminal task stayed as it was, both new rows passed their validators
   and were written. *)
Lemma stage_taskmeta_inv d cs c cs' :
  stageChannelMigrationTaskAndMeta d cs c = Ok cs' ->
  exists h t m nt nm,
    cmd_trans c = Some h
    /\ loadChannelMigrationTask d cs (tguard_key (tr_guard h)) = Some t
    /\ loadRuntimeMeta d cs (rguard_chan (tr_rguard h)) = Some m
    /\ mutate_task_meta c t m = Ok (nt, nm)
    /\ ((cs' = cs /\ nt = t)
        \/ (tguard_matches (tr_guard h) t = true /\ rguard_matches (tr_rguard h) m = true
            /\ (isTerminal t = true -> nt = t)
            /\ validateChannelMigrationTask nt = true
            /\ validateChannelRuntimeMeta (stored_meta m nm) = true
            /\ exists pend,
                 stageUpsertChannelMigrationTask d (cs_pend cs) nt = Ok pend
                 /\ cs' = CState (db_put_meta pend (rguard_chan (tr_rguard h)) (stored_meta m nm))
                                 (assoc_put tkey_eqb (cs_otasks cs) (task_key nt) nt)
                                 (assoc_put chan_key_eqb (cs_ometas cs) (rguard_chan (tr_rguard h))
                                            (stored_meta m nm)))).
Proof.
  unfold stageChannelMigrationTaskAndMeta. fold stored_meta.
  destruct (cmd_trans c) as [h|]; [|discriminate].
  destruct (loadChannelMigrationTask d cs (tguard_key (tr_guard h))) as [t|] eqn:Lt; [|discriminate].
  destruct (loadRuntimeMeta d cs (rguard_chan (tr_rguard h))) as [m|] eqn:Lm; [|discriminate].
  destruct (mutate_task_meta c t m) as [[nt nm]|e] eqn:M; [|discriminate].
  fold (stored_meta m nm).
  intro H. exists h, t, m, nt, nm. repeat (split; [assumption || reflexivity|]).
  destruct (negb (tguard_matches (tr_guard h) t) || negb (rguard_matches (tr_rguard h) m)) eqn:G.
  - destruct (task_eqb t nt) eqn:Eq; [|discriminate]. apply task_eqb_eq in Eq.
    destruct (channelRuntimeMetaEqual m (stored_meta m nm)); [|discriminate].
    inversion H. left. auto.
  - right. b2p.
    destruct (isTerminal t && negb (task_eqb t nt)) eqn:T; [discriminate|].
    destruct (negb (validateChannelMigrationTask nt)) eqn:V1; [discriminate|].
    destruct (negb (validateChannelRuntimeMeta (stored_meta m nm))) eqn:V2; [discriminate|].
    destruct (stageUpsertChannelMigrationTask d (cs_pend cs) nt) as [pend|e]; [|discriminate].
    inversion H. b2p. repeat (split; [assumption|]). split; [|repeat (split; [assumption|]); eauto].
    intro Tt. rewrite Tt in T. apply negb_false_iff in T. symmetry. apply task_eqb_eq. exact T.
Qed.

(* THEOREM c17_commit_needs_proof: whenever the commit phase accepts a CommitChannelLeaderTransfer
   or PromoteLearnerAndRemoveReplica, the task and meta rows it loaded satisfy
   [cutover_proof_matches]: complete drain proof whose fence version, channel epoch, leader epoch
   and leader are the current ones of the meta row; fence token = task id, unexpired at NowMS;
   both optimistic guards match.  (The phase changes, so the "nothing to do" exit is not taken.) *)
Theorem stage_cutover_needs_proof d cs c h cs' :
  is_cutover c = true -> cmd_trans c = Some h ->
  stageChannelMigrationTaskAndMeta d cs c = Ok cs' ->
  exists t m,
    loadChannelMigrationTask d cs (tguard_key (tr_guard h)) = Some t
    /\ loadRuntimeMeta d cs (rguard_chan (tr_rguard h)) = Some m
    /\ cutover_proof_matches t m h (cutover_now c) = true.
Proof.
  intros Hc Ht H.
  destruct (stage_taskmeta_inv _ _ _ _ H) as (h' & t & m & nt & nm & Ht' & Lt & Lm & M & Out).
  rewrite Ht in Ht'. inversion Ht'; subst h'. exists t, m. repeat (split; [assumption|]).
  destruct (cutover_mutated _ _ _ _ _ _ M Hc Ht) as [Core Ne].
  destruct Out as [[_ E]|(Mg & Mr & _)]; [contradiction|].
  unfold cutover_proof_matches. rewrite Core, Mg, Mr. reflexivity.
Qed.

Lemma post_commit_phase_cases p :
  post_commit_phase p = true ->
  p = PhaseVerifyNewLeader \/ p = PhaseVerifyMembership \/ p = PhaseClearFence.
Proof. unfold post_commit_phase. rewrite !orb_true_iff, !N.eqb_eq. tauto. Qed.

Lemma post_commit_not_abort_phase p :
  post_commit_phase p = true -> isLeaderTransferAbortPhase p = false /\ isReplicaReplaceAbortPhase p = false.
Proof. intro H. destruct (post_commit_phase_cases _ H) as [-> | [-> | ->]]; split; reflexivity. Qed.

Theorem mutAbort_rejected_post_commit t m h completed last_error :
  isTerminal t || post_commit_phase (t_phase t) = true ->
  mutAbort t m h completed last_error = Err EConflict.
Proof.
  intro H. unfold mutAbort.
  destruct (isTerminal t); [reflexivity|]. cbn [orb] in H.
  apply post_commit_not_abort_phase in H. destruct H as [H1 H2].
  unfold requireChannelMigrationAbortTransition. rewrite H1, H2.
  destruct (isLeaderTransferTaskKind (t_kind t)); [reflexivity|].
  destruct (t_kind t =? KindReplicaReplace); [|reflexivity].
  destruct (t_embedded_leader_transfer t && isLeaderTransferPhase (t_phase t)); reflexivity.
Qed.

Lemma mutAbort_ok t m h completed last_error r :
  mutAbort t m h completed last_error = Ok r ->
  isTerminal t = false /\ post_commit_phase (t_phase t) = false.
Proof.
  intro H.
  destruct (isTerminal t || post_commit_phase (t_phase t)) eqn:E.
  - rewrite (mutAbort_rejected_post_commit _ _ _ _ _ E) in H. discriminate.
  - apply orb_false_iff in E. exact E.
Qed.

Theorem stage_abort_rejected_post_commit d cs h completed last_error t :
  loadChannelMigrationTask d cs (tguard_key (tr_guard h)) = Some t ->
  isTerminal t || post_commit_phase (t_phase t) = true ->
  exists e, stageChannelMigrationTaskAndMeta d cs (CAbort h completed last_error) = Err e
            /\ isStaleMetaCommitError e = true.
Proof.
  intros L H. unfold stageChannelMigrationTaskAndMeta. cbn [cmd_trans]. rewrite L.
  destruct (loadRuntimeMeta d cs (rguard_chan (tr_rguard h))) as [m|]; [|exists ENotFound; auto].
  cbn [mutate_task_meta]. rewrite (mutAbort_rejected_post_commit _ _ _ _ _ H).
  exists EConflict. auto.
Qed.

Definition fence_free_or (m : runtime_meta) (id : bytes) : Prop :=
  rm_write_fence_token m = [] \/ rm_write_fence_token m = id.

(* the four write-fence fields, which [fence_eqb] compares *)
Definition fence_fields (m : runtime_meta) : bytes * N * N * Z :=
  (rm_write_fence_token m, rm_write_fence_version m, rm_write_fence_reason m, rm_write_fence_until_ms m).

Lemma fence_eqb_fields a b : fence_eqb a b = true <-> fence_fields a = fence_fields b.
Proof.
  unfold fence_eqb, fence_fields. rewrite !andb_true_iff, bytes_eqb_eq, !N.eqb_eq, Z.eqb_eq. split.
  - intros [[[A B] C] D]. congruence.
  - intro H. inversion H. auto.
Qed.

Lemma requireActive_owner t m v :
  requireActiveChannelMigrationTaskFence t m v = true -> rm_write_fence_token m = t_task_id t.
Proof.
  intro H. apply requireActive_true in H. destruct H as (_ & B2 & B3 & _).
  apply bytes_eqb_eq in B2. apply bytes_eqb_eq in B3. congruence.
Qed.

Lemma is_empty_true b : is_empty b = true -> b = [].
Proof. destruct b; [reflexivity|discriminate]. Qed.

Lemma requireNoForeign_owner t m :
  requireNoForeignChannelMigrationFence t m = true -> fence_free_or m (t_task_id t).
Proof.
  unfold requireNoForeignChannelMigrationFence, fence_free_or.
  destruct (negb (taskHasFence t) && negb (negb (is_empty (rm_write_fence_token m)))) eqn:E.
  - intros _. b2p. left. apply is_empty_true. assumption.
  - destruct (negb (taskHasFence t) || negb (negb (is_empty (rm_write_fence_token m)))); [discriminate|].
    intro H. right. eapply requireActive_owner. exact H.
Qed.

Lemma token_set_membership m r i e : rm_write_fence_token (set_membership m r i e) = rm_write_fence_token m.
Proof. reflexivity. Qed.

Lemma token_clear m : rm_write_fence_token (clearChannelRuntimeMetaFence m) = [].
Proof. reflexivity. Qed.

(* THEOREM c17_fence_ownership (mutator level): a guarded command on task [t] either leaves the
   four fence fields of the meta row alone, or the fence was free or held by t's id before and is
   free or held by t's id afterwards *)
Theorem mutate_fence_ownership c t m t' m' :
  mutate_task_meta c t m = Ok (t', m') ->
  fence_eqb m m' = true
  \/ (fence_free_or m (t_task_id t) /\ fence_free_or m' (t_task_id t)).
Proof.
  destruct c; cbn [mutate_task_meta]; try discriminate; intro H.
  - destruct (mutSetFence_inv _ _ _ _ _ _ _ H) as (_ & Nf & _ & ->). right.
    split; [exact (requireNoForeign_owner _ _ Nf)|right; reflexivity].
  - destruct (mutReset_inv _ _ _ _ _ _ H) as (_ & Ac & _ & ->). right.
    split; [right; exact (requireActive_owner _ _ _ Ac)|left; reflexivity].
  - destruct (mutCommit_inv _ _ _ _ _ _ _ _ _ H) as (_ & -> & _). left. apply fence_eqb_fields. reflexivity.
  - destruct (mutAddLearner_inv _ _ _ _ _ _ H) as (_ & _ & ->). left. apply fence_eqb_fields.
    destruct (negb (containsUint64 (rm_replicas m) target)); reflexivity.
  - destruct (mutPromote_inv _ _ _ _ _ _ _ _ H) as (_ & _ & -> & _). left. apply fence_eqb_fields. reflexivity.
  - destruct (mutClear_inv _ _ _ _ _ _ H) as (_ & [[_ ->]|(Ac & _ & ->)]).
    + left. apply fence_eqb_fields. reflexivity.
    + right. split; [right; exact (requireActive_owner _ _ _ Ac)|left; reflexivity].
  - destruct (mutAbort_inv _ _ _ _ _ _ _ H) as (Ac & _ & ->). cbv zeta in Ac.
    destruct (negb (is_empty (rm_write_fence_token m))).
    + right. split; [right; exact (requireActive_owner _ _ _ (Ac eq_refl))|].
      left. match goal with |- context [if ?b then _ else _] => destruct b end; reflexivity.
    + left. apply fence_eqb_fields.
      match goal with |- context [if ?b then _ else _] => destruct b end; reflexivity.
Qed.

Lemma fence_fields_normalize m : fence_fields (normalizeChannelRuntimeMeta m) = fence_fields m.
Proof.
  unfold normalizeChannelRuntimeMeta.
  repeat match goal with |- context [if ?c then _ else _] => destruct c end; reflexivity.
Qed.

Lemma fence_fields_bump ex m had : fence_fields (bumpRuntimeRoute ex m had) = fence_fields m.
Proof. destruct (bump_shape ex m had) as (g & -> & _). reflexivity. Qed.

Lemma fence_eqb_trans a b c : fence_eqb a b = true -> fence_eqb b c = true -> fence_eqb a c = true.
Proof. rewrite !fence_eqb_fields. congruence. Qed.

Lemma fence_stored ex m : fence_eqb m (stored_meta ex m) = true.
Proof.
  apply fence_eqb_fields. unfold stored_meta. rewrite fence_fields_bump, fence_fields_normalize. reflexivity.
Qed.

(* what validateChannelRuntimeMeta says about a (normalized) row *)
Definition meta_wellformed (m : runtime_meta) : Prop :=
  rm_replicas m <> []
  /\ (0 < rm_min_isr m <= Z.of_nat (length (rm_replicas m)))%Z
  /\ (forall x, In x (rm_isr m) -> In x (rm_replicas m))
  /\ (rm_leader m = 0 \/ (In (rm_leader m) (rm_replicas m) /\ In (rm_leader m) (rm_isr m))).

Lemma containsUint64_In l x : containsUint64 l x = true <-> In x l.
Proof.
  unfold containsUint64. rewrite existsb_exists. split.
  - intros [y [H1 H2]]. apply N.eqb_eq in H2. subst. exact H1.
  - intro H. exists x. split; [exact H|apply N.eqb_refl].
Qed.

Theorem validateChannelRuntimeMeta_wellformed m :
  validateChannelRuntimeMeta m = true -> meta_wellformed (normalizeChannelRuntimeMeta m).
Proof.
  unfold validateChannelRuntimeMeta, meta_wellformed.
  destruct (negb (validateKeyString (rm_channel_id m))); [discriminate|].
  set (n := normalizeChannelRuntimeMeta m).
  destruct (rm_replicas n) as [|r0 rs] eqn:R; [discriminate|].
  destruct ((rm_min_isr n <=? 0)%Z || (Z.of_nat (length (r0 :: rs)) <? rm_min_isr n)%Z) eqn:E1; [discriminate|].
  destruct (negb (forallb (fun member => containsUint64 (r0 :: rs) member) (rm_isr n))) eqn:E2; [discriminate|].
  destruct (negb (rm_leader n =? 0)
            && negb (containsUint64 (r0 :: rs) (rm_leader n) && containsUint64 (rm_isr n) (rm_leader n))) eqn:E3;
    [discriminate|].
  intros _. apply orb_false_iff in E1. destruct E1 as [Lo Hi]. apply negb_false_iff in E2.
  split; [discriminate|]. split.
  - apply Z.leb_gt in Lo. apply Z.ltb_ge in Hi. lia.
  - split.
    + intros x Hx. rewrite forallb_forall in E2. apply containsUint64_In. apply E2. exact Hx.
    + apply andb_false_iff in E3. destruct E3 as [E3|E3].
      * left. apply negb_false_iff in E3. apply N.eqb_eq. exact E3.
      * right. apply negb_false_iff in E3. apply andb_prop in E3. destruct E3 as [A B].
        split; apply containsUint64_In; assumption.
Qed.

(* THEOREM c17_meta_valid: whatever stageChannelMigrationTaskAndMeta writes passed
   validateChannelRuntimeMeta, and the task row passed validateChannelMigrationTask *)
Theorem stage_writes_valid d cs c cs' :
  stageChannelMigrationTaskAndMeta d cs c = Ok cs' ->
  cs' = cs
  \/ exists h t m, cmd_trans c = Some h
       /\ loadChannelMigrationTask d cs' (tguard_key (tr_guard h)) = Some t
       /\ loadRuntimeMeta d cs' (rguard_chan (tr_rguard h)) = Some m
       /\ validateChannelMigrationTask t = true /\ validateChannelRuntimeMeta m = true
       /\ meta_get (cs_pend cs') (rguard_chan (tr_rguard h)) = Some m.
Proof.
  intro H. destruct (stage_taskmeta_inv _ _ _ _ H) as (h & t & m & nt & nm & Ht & _ & _ & M & Out).
  destruct Out as [[E _]|(Mg & _ & _ & V1 & V2 & pend & _ & E)]; [left; exact E|right].
  exists h, nt, (stored_meta m nm). subst cs'.
  pose proof (mutate_task_meta_identity _ _ _ _ _ M) as (K & _).
  rewrite (tguard_matches_key _ _ Mg) in K.
  unfold loadChannelMigrationTask, loadRuntimeMeta, meta_get, db_put_meta. cbn [cs_otasks cs_ometas cs_pend db_metas].
  rewrite K, tkey_get_put, tkey_eqb_refl, !chan_get_put, chan_key_eqb_refl.
  repeat split; assumption || reflexivity.
Qed.

Theorem stage_terminal_immutable d cs c cs' h t :
  cmd_trans c = Some h ->
  loadChannelMigrationTask d cs (tguard_key (tr_guard h)) = Some t ->
  isTerminal t = true ->
  stageChannelMigrationTaskAndMeta d cs c = Ok cs' ->
  loadChannelMigrationTask d cs' (tguard_key (tr_guard h)) = Some t.
Proof.
  intros Ht Lt T H.
  destruct (stage_taskmeta_inv _ _ _ _ H) as (h' & t' & m & nt & nm & Ht' & Lt' & _ & _ & Out).
  rewrite Ht in Ht'. inversion Ht'; subst h'. rewrite Lt in Lt'. inversion Lt'; subst t'.
  destruct Out as [[E _]|(Mg & _ & Tm & _ & _ & pend & _ & E)]; subst cs'; [exact Lt|].
  rewrite (Tm T). unfold loadChannelMigrationTask. cbn [cs_otasks].
  rewrite (tguard_matches_key _ _ Mg), tkey_get_put, tkey_eqb_refl. reflexivity.
Qed.
