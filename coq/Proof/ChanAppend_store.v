(* Proof/ChanAppend_store.v — the strict-store ports of Model/ChanAppend_C29.v (the
   harness's fake cluster node on the real pkg/db/message store, with all its scripted
   faults) satisfy the appender contract, so the hypotheses of the C29 theorems are
   satisfiable by the instance the harness runs.  Without [atomic_failures] the run
   [k2_events] on these ports refutes the ordering of new messages (C29-K2). *)
From WK Require Import Base.Base Base.Lists Gen.Consts_C29 Model.ChanAppend Model.ChanAppend_C29
     Proof.ChanAppend_coalesce Proof.ChanAppend_run Proof.ChanAppend_pipeline.
Open Scope N_scope.

(* sequences are exactly 1, 2, 3, ... *)
Definition contig (log : list prec) : Prop :=
  forall i r, nth_error log i = Some r -> pr_seq r = N.of_nat i + 1.

Lemma contig_nil : contig [].
Proof. intros i r H. destruct i; discriminate. Qed.

Lemma stamp_length : forall recs sq, length (stamp sq recs) = length recs.
Proof. induction recs as [|it r IH]; intro sq; cbn [stamp length]; [reflexivity|]. rewrite IH. reflexivity. Qed.

Lemma stamp_nth : forall recs sq i,
  nth_error (stamp sq recs) i =
  match nth_error recs i with
  | Some it => Some (PRec (sq + N.of_nat i) (ps_mid it) (ps_tag it) (ps_cmd it))
  | None => None
  end.
Proof.
  induction recs as [|it r IH]; intros sq i; [destruct i; reflexivity|].
  destruct i as [|i]; cbn [stamp nth_error].
  - replace (sq + N.of_nat 0) with sq by lia. reflexivity.
  - rewrite IH. destruct (nth_error r i); [|reflexivity]. do 2 f_equal. lia.
Qed.

Lemma stamp_in recs sq r :
  In r (stamp sq recs) -> exists i it, nth_error recs i = Some it
     /\ r = PRec (sq + N.of_nat i) (ps_mid it) (ps_tag it) (ps_cmd it).
Proof.
  intro H. apply In_nth_error in H. destruct H as [i Hi]. rewrite stamp_nth in Hi.
  destruct (nth_error recs i) as [it|] eqn:E; [|discriminate]. inversion Hi. eauto.
Qed.

Lemma contig_app log recs : contig log -> contig (log ++ stamp (N.of_nat (length log) + 1) recs).
Proof.
  intros C i r H. destruct (Nat.lt_ge_cases i (length log)) as [L|L].
  - rewrite nth_error_app1 in H by exact L. apply C. exact H.
  - rewrite nth_error_app2 in H by exact L. rewrite stamp_nth in H.
    destruct (nth_error recs (i - length log)); [|discriminate]. inversion H. cbn [pr_seq]. lia.
Qed.

Lemma contig_bound log r : contig log -> In r log -> pr_seq r <= N.of_nat (length log).
Proof.
  intros C H. apply In_nth_error in H. destruct H as [i Hi].
  assert (L : (i < length log)%nat) by (apply nth_error_Some; congruence).
  rewrite (C _ _ Hi). lia.
Qed.

(* ChannelLog.validateAppendRow, as far as sender + client-number pairs go *)
Lemma store_validate_cons log alloc ids keys it r :
  store_validate log alloc ids keys (it :: r) = true ->
  (keyed (ps_cmd it) = true ->
     (forall p, In p log -> same_key (ps_cmd it) (pr_cmd p) = false)
     /\ (forall c, In c keys -> same_key (ps_cmd it) c = false))
  /\ store_validate log alloc (ps_mid it :: ids) (if keyed (ps_cmd it) then ps_cmd it :: keys else keys) r = true.
Proof.
  cbn [store_validate]. intro H. apply andb_true_iff in H. destruct H as [H Ht].
  apply andb_true_iff in H. destruct H as [_ Hk]. split; [|exact Ht].
  intro K. rewrite K in Hk. apply andb_true_iff in Hk. destruct Hk as [K1 K2].
  apply negb_true_iff in K1, K2. split; [exact (proj1 (existsb_false _ _) K2)|exact (proj1 (existsb_false _ _) K1)].
Qed.

(* what ChannelLog.validateAppendRow guarantees about sender + client-number pairs *)
Lemma validate_keys log alloc : forall recs ids keys,
  store_validate log alloc ids keys recs = true ->
  (forall it, In it recs -> keyed (ps_cmd it) = true ->
     (forall r, In r log -> same_key (ps_cmd it) (pr_cmd r) = false)
     /\ (forall c, In c keys -> same_key (ps_cmd it) c = false))
  /\ (forall i j a b, (i < j)%nat -> nth_error recs i = Some a -> nth_error recs j = Some b ->
        keyed (ps_cmd a) = true -> same_key (ps_cmd a) (ps_cmd b) = false).
Proof.
  induction recs as [|it r IH]; intros ids keys H.
  - split; [intros it []|intros i j a b _ Hi; destruct i; discriminate].
  - destruct (store_validate_cons _ _ _ _ _ _ H) as [Hkey Ht]. destruct (IH _ _ Ht) as [I1 I2].
    split.
    + intros x [Hx|Hx] Kx.
      * subst x. exact (Hkey Kx).
      * destruct (I1 x Hx Kx) as [J1 J2]. split; [exact J1|].
        intros c Hc. apply J2. destruct (keyed (ps_cmd it)); [right; exact Hc|exact Hc].
    + intros i j a b Hij Ha Hb Ka. destruct j as [|j]; [lia|]. cbn [nth_error] in Hb.
      destruct i as [|i]; cbn [nth_error] in Ha.
      * inversion Ha; subst a. destruct (same_key (ps_cmd it) (ps_cmd b)) eqn:S; [|reflexivity].
        exfalso. assert (Kb : keyed (ps_cmd b) = true) by (rewrite <- (same_key_keyed _ _ S); exact Ka).
        apply nth_error_In in Hb. destruct (I1 b Hb Kb) as [_ J2].
        rewrite Ka in J2. specialize (J2 (ps_cmd it) (or_introl eq_refl)).
        rewrite same_key_sym in J2. congruence.
      * apply (I2 i j a b); [lia|exact Ha|exact Hb|exact Ka].
Qed.

Lemma stamp_seqs recs sq : NoDup (map pr_seq (stamp sq recs)).
Proof.
  revert sq. induction recs as [|it r IH]; intro sq; cbn [stamp map]; constructor; [|apply IH].
  intro Hin. apply in_map_iff in Hin. destruct Hin as [x [E Hx]]. apply stamp_in in Hx.
  destruct Hx as [i [y [_ Ey]]]. subst x. cbn [pr_seq] in E. lia.
Qed.

Lemma stored_ext_ok log alloc recs items :
  contig log -> store_validate log alloc [] [] recs = true ->
  (forall it, In it recs -> In it items) ->
  ext_ok log (stamp (N.of_nat (length log) + 1) recs) items.
Proof.
  intros C V Hsub. destruct (validate_keys _ _ _ _ _ V) as [V1 V2]. constructor.
  - intros r Hr. apply stamp_in in Hr. destruct Hr as [i [it [Hi E]]]. subst r.
    exists it. split; [apply Hsub; eapply nth_error_In; eauto|]. split; reflexivity.
  - apply stamp_seqs.
  - intros r r' Hr Hr'. apply stamp_in in Hr'. destruct Hr' as [i [it [_ E]]]. subst r'.
    pose proof (contig_bound _ _ C Hr). cbn [pr_seq]. lia.
  - intros r r' Hr Hr' K. apply stamp_in in Hr. destruct Hr as [i [it [Hi E]]]. subst r.
    cbn [pr_cmd] in *. apply (proj1 (V1 it (nth_error_In _ _ Hi) K)). exact Hr'.
  - intros r r' Hr Hr' K S. apply stamp_in in Hr. apply stamp_in in Hr'.
    destruct Hr as [i [a [Hi E]]]. destruct Hr' as [j [b [Hj E']]]. subst r r'. cbn [pr_cmd] in *.
    destruct (Nat.lt_trichotomy i j) as [L|[L|L]].
    + rewrite (V2 i j a b L Hi Hj K) in S. discriminate.
    + subst j. rewrite Hi in Hj. inversion Hj. reflexivity.
    + assert (Kb : keyed (ps_cmd b) = true) by (rewrite <- (same_key_keyed _ _ S); exact K).
      rewrite same_key_sym in S. rewrite (V2 j i b a L Hj Hi Kb) in S. discriminate.
Qed.

Lemma nth_error_remove_nth {A} (l : list A) : forall j i,
  nth_error (remove_nth j l) i = if (i <? j)%nat then nth_error l i else nth_error l (S i).
Proof.
  induction l as [|x l IH]; intros j i.
  - destruct j; cbn [remove_nth]; destruct (i <? _)%nat; destruct i; reflexivity.
  - destruct j as [|j]; cbn [remove_nth].
    + reflexivity.
    + destruct i as [|i]; cbn [nth_error]; [reflexivity|]. rewrite IH.
      change (S i <? S j)%nat with (i <? j)%nat. reflexivity.
Qed.

Lemma nth_error_insert_nth {A} (x : A) : forall j l i,
  (j <= length l)%nat ->
  nth_error (insert_nth j x l) i =
  if (i <? j)%nat then nth_error l i else if (i =? j)%nat then Some x else nth_error l (i - 1).
Proof.
  induction j as [|j IH]; intros l i H; cbn [insert_nth].
  - destruct i as [|i]; cbn [nth_error Nat.ltb Nat.leb Nat.eqb Nat.sub]; [reflexivity|].
    rewrite ?Nat.sub_0_r. reflexivity.
  - destruct l as [|y l]; [cbn in H; lia|]. destruct i as [|i]; cbn [nth_error]; [reflexivity|].
    rewrite IH by (cbn in H; lia).
    change (S i <? S j)%nat with (i <? j)%nat. change (S i =? S j)%nat with (i =? j)%nat.
    destruct (i <? j)%nat eqn:E1; [reflexivity|]. destruct (i =? j)%nat eqn:E2; [reflexivity|].
    apply Nat.ltb_ge in E1. apply Nat.eqb_neq in E2.
    destruct i as [|i]; [lia|]. cbn [Nat.sub nth_error]. rewrite Nat.sub_0_r. reflexivity.
Qed.

Lemma nth_error_firstn_some {A} (l : list A) k i a : nth_error (firstn k l) i = Some a -> nth_error l i = Some a.
Proof.
  revert k i. induction l as [|x l IH]; intros k i H; [rewrite firstn_nil in H; destruct i; discriminate|].
  destruct k as [|k]; [destruct i; discriminate|]. destruct i as [|i]; cbn [firstn nth_error] in *; [exact H|].
  eapply IH; eauto.
Qed.

Definition results_of (stored : list prec) : list ares := map (fun p => ARes (pr_id p) (pr_seq p) 0) stored.

Lemma results_nth recs sq i a :
  nth_error (results_of (stamp sq recs)) i = Some a ->
  exists it, nth_error recs i = Some it /\ a = ARes (ps_mid it) (sq + N.of_nat i) 0.
Proof.
  unfold results_of. rewrite nth_error_map, stamp_nth.
  destruct (nth_error recs i) as [it|]; [|discriminate]. cbn. intro H. inversion H. eauto.
Qed.

Lemma norm_cls_nz cls : norm_cls cls <> 0.
Proof. unfold norm_cls. destruct (cls =? 0) eqn:E; [discriminate|apply N.eqb_neq in E; exact E]. Qed.

(* A reply vector whose successes are stamped records, found through a reindexing [f]
   of the request that is monotone on the successes: what the contract asks of an Ok reply. *)
Lemma indexed_results items recs base rs (f : nat -> nat) :
  (forall i a, nth_error rs i = Some a -> a_err a = 0 ->
     exists it, nth_error items i = Some it /\ nth_error recs (f i) = Some it
                /\ a = ARes (ps_mid it) (base + N.of_nat (f i)) 0) ->
  (forall i j a b, (i < j)%nat -> nth_error rs i = Some a -> nth_error rs j = Some b ->
                   a_err a = 0 -> a_err b = 0 -> (f i < f j)%nat) ->
  (forall i it a, nth_error items i = Some it -> nth_error rs i = Some a -> a_err a = 0 ->
                  In (PRec (a_seq a) (a_id a) (ps_tag it) (ps_cmd it)) (stamp base recs))
  /\ (forall i j ai aj, (i < j)%nat -> nth_error rs i = Some ai -> nth_error rs j = Some aj ->
                        a_err ai = 0 -> a_err aj = 0 -> a_seq ai < a_seq aj).
Proof.
  intros Hres Hmono. split.
  - intros i it a Hi Ha Hz. destruct (Hres i a Ha Hz) as [it' [R1 [R2 ->]]]. rewrite Hi in R1. inversion R1; subst it'.
    cbn [a_seq a_id]. eapply nth_error_In. rewrite stamp_nth, R2. reflexivity.
  - intros i j ai aj Hij Hi Hj Zi Zj. pose proof (Hmono i j ai aj Hij Hi Hj Zi Zj).
    destruct (Hres i ai Hi Zi) as [x [_ [_ ->]]]. destruct (Hres j aj Hj Zj) as [y [_ [_ ->]]]. cbn [a_seq]. lia.
Qed.

Lemma plain_results items base rs :
  (forall i a, nth_error rs i = Some a -> nth_error (results_of (stamp base items)) i = Some a) ->
  (forall i it a, nth_error items i = Some it -> nth_error rs i = Some a -> a_err a = 0 ->
                  In (PRec (a_seq a) (a_id a) (ps_tag it) (ps_cmd it)) (stamp base items))
  /\ (forall i j ai aj, (i < j)%nat -> nth_error rs i = Some ai -> nth_error rs j = Some aj ->
                        a_err ai = 0 -> a_err aj = 0 -> a_seq ai < a_seq aj).
Proof.
  intro Hrs. apply (indexed_results items items base rs (fun i => i)); [|auto].
  intros i a Ha _. apply Hrs, results_nth in Ha. destruct Ha as [it [Hi ->]]. eauto.
Qed.

(* position i of a vector with an entry inserted at j, seen from the vector without it *)
Definition unskip (j i : nat) : nat := if (i <? j)%nat then i else (i - 1)%nat.

Lemma insert_remove_nth {A B} (l : list A) (r : list B) j x i b :
  (j <= length r)%nat -> nth_error (insert_nth j x r) i = Some b ->
  (i = j /\ b = x) \/
  (i <> j /\ nth_error r (unskip j i) = Some b /\ nth_error (remove_nth j l) (unskip j i) = nth_error l i).
Proof.
  intros Hj H. rewrite nth_error_insert_nth in H by exact Hj. rewrite nth_error_remove_nth. unfold unskip.
  destruct (Nat.ltb_spec i j) as [L|L].
  - right. replace (i <? j)%nat with true by (symmetry; apply Nat.ltb_lt; exact L). split; [lia|auto].
  - destruct (Nat.eqb_spec i j) as [E|E]; [left; inversion H; auto|right].
    replace (i - 1 <? j)%nat with false by (symmetry; apply Nat.ltb_ge; lia).
    replace (S (i - 1)) with i by lia. split; [exact E|auto].
Qed.

Lemma remove_nth_length {A} (l : list A) : forall n, (n < length l)%nat -> length (remove_nth n l) = (length l - 1)%nat.
Proof.
  induction l as [|x l IH]; intros n Hn; [cbn in Hn; lia|]. destruct n; cbn [remove_nth length]; [lia|].
  rewrite IH by (cbn in Hn; lia). cbn in Hn. lia.
Qed.

Theorem ss_append_contract : append_contract sstore ss_do_append ss_log contig.
Proof.
  intros s q rep s' C H. unfold ss_do_append in H.
  set (s0 := SS (ss_log s) (tl (ss_app s)) (ss_look s)
               (PCApp (q_attempt q) (q_alloc q) (req_recs (q_items q)) :: ss_calls s)) in *.
  assert (Hnone : forall cls, cls <> 0 -> (rep, s') = (AErr cls, s0) ->
          exists ext, ss_log s' = ss_log s ++ ext /\ contig (ss_log s') /\ ext_ok (ss_log s) ext (q_items q) /\
            match rep with AOk _ => False | AErr c => c <> 0 end).
  { intros cls Hc E. inversion E; subst. exists []. rewrite app_nil_r. cbn [ss_log s0].
    split; [reflexivity|]. split; [exact C|]. split; [apply ext_ok_nil|exact Hc]. }
  set (f := hd FOk (ss_app s)) in *.
  set (skip := match f with
               | FItemErr j _ => if j <? N.of_nat (length (q_items q)) then Some (N.to_nat j) else None
               | _ => None end) in *.
  set (recs := match skip with Some j => remove_nth j (q_items q) | None => q_items q end) in *.
  assert (Hsub : forall it, In it recs -> In it (q_items q)).
  { intros it Hit. unfold recs in Hit. destruct skip as [j|]; [|exact Hit].
    apply In_nth_error in Hit. destruct Hit as [i Hi]. rewrite nth_error_remove_nth in Hi.
    destruct (i <? j)%nat; eapply nth_error_In; eauto. }
  destruct f as [|cls|cls|k|j cls] eqn:Ef.
  2:{ (* FFailBefore: nothing stored *) destruct (Hnone _ (norm_cls_nz cls) (eq_sym H)) as [ext [X1 [X2 [X3 X4]]]].
      exists ext. inversion H; subst. auto. }
  all: destruct (store_validate (ss_log s) (q_alloc q) [] [] recs) eqn:V;
    [|destruct (Hnone E_APPEND_FAILED ltac:(discriminate) (eq_sym H)) as [ext [X1 [X2 [X3 X4]]]];
      exists ext; inversion H; subst; auto].
  all: set (base := N.of_nat (length (ss_log s)) + 1) in *.
  all: set (stored := stamp base recs) in *.
  all: pose proof (stored_ext_ok _ _ _ _ C V Hsub) as Hext; fold base in Hext; fold stored in Hext.
  all: pose proof (contig_app _ recs C) as C'; fold base in C'; fold stored in C'.
  (* [recs] was stored; what is left in each case is the clause about the reply *)
  1-3: inversion H; subst rep s'; clear H; exists stored; cbn [ss_log];
       (split; [reflexivity|]; split; [exact C'|]; split; [exact Hext|]).
  - (* FOk: everything is stored and answered *) apply plain_results. auto.
  - (* FFailAfter: stored, then an error reply *) apply norm_cls_nz.
  - (* FShort: stored, the reply is cut short *) apply plain_results. intros i a Hi. eapply nth_error_firstn_some; eauto.
  - (* FItemErr j: item j is left out of the append and answered with an error *) unfold skip in *. destruct (j <? N.of_nat (length (q_items q))) eqn:Ej;
      inversion H; subst rep s'; clear H; exists stored; cbn [ss_log];
      (split; [reflexivity|]; split; [exact C'|]; split; [exact Hext|]).
    2:{ apply plain_results. auto. }
    apply N.ltb_lt in Ej.
    set (jj := N.to_nat j) in *.
    assert (Hjl : (jj <= length (results_of stored))%nat).
    { unfold results_of, stored, recs. rewrite map_length, stamp_length, remove_nth_length by lia. lia. }
    (* a success of the reply is not the inserted error, hence a result of the stored records *)
    assert (Hres : forall i a, nth_error (insert_nth jj (ARes 0 0 (norm_cls cls)) (results_of stored)) i = Some a ->
              a_err a = 0 -> i <> jj /\ exists it, nth_error (q_items q) i = Some it
                /\ nth_error recs (unskip jj i) = Some it /\ a = ARes (ps_mid it) (base + N.of_nat (unskip jj i)) 0).
    { intros i a Hi Ha. destruct (insert_remove_nth (q_items q) _ _ _ _ _ Hjl Hi) as [[_ ->]|[Hn [Hr Hq]]].
      - destruct (norm_cls_nz cls Ha).
      - split; [exact Hn|]. apply results_nth in Hr. destruct Hr as [it [Hr ->]]. exists it.
        fold recs in Hq. rewrite <- Hq. auto. }
    apply (indexed_results _ recs base _ (unskip jj)).
    + intros i a Hi Ha. exact (proj2 (Hres i a Hi Ha)).
    + intros i1 i2 a1 a2 Hlt H1 H2 Z1 Z2. pose proof (proj1 (Hres i1 a1 H1 Z1)). pose proof (proj1 (Hres i2 a2 H2 Z2)).
      unfold unskip. destruct (Nat.ltb_spec i1 jj); destruct (Nat.ltb_spec i2 jj); lia.
Qed.

Theorem ss_lookup_contract : lookup_contract sstore ss_do_nlookup idempotencyPayloadHash ss_log.
Proof.
  intros s u c rep s' H. unfold ss_do_nlookup in H.
  destruct (hd LFOk (ss_look s)).
  - destruct (find (fun p => bytes_eqb (c_uid (pr_cmd p)) u && bytes_eqb (c_cno (pr_cmd p)) c) (ss_log s)) as [p|] eqn:F.
    + inversion H; subst. cbn [ss_log]. split; [reflexivity|].
      apply find_some in F. destruct F as [F1 F2]. apply andb_true_iff in F2. destruct F2 as [F2 F3].
      apply bytes_eqb_eq in F2. apply bytes_eqb_eq in F3. exists p. repeat split; auto.
    + inversion H; subst. cbn [ss_log]. split; [reflexivity|exact I].
  - inversion H; subst. cbn [ss_log]. split; [reflexivity|exact I].
  - inversion H; subst. cbn [ss_log]. split; [reflexivity|discriminate].
Qed.

Definition ss_reach (af : list afault) (lf : list lfault) (hw limit : Z) (evs : list pev) : pstate sstore :=
  reach sstore ss_do_append ss_do_nlookup idempotencyPayloadHash logicalSendFingerprint (SS [] af lf []) hw limit evs.

(* C29-K2: one batch [keyed; KEYLESS; keyed]; the append commits, then reports
   ErrAppendFailed.  The keyless item misses its lookup and is appended again: stored
   twice, with sequence 4 above the 3 of the later-submitted third item. *)
Definition k2_events : list pev :=
  [PSubmit [(Cmd [117; 49] [97] [112], 101, true, 0);
            (Cmd [117; 50] [] [113], 102, true, 0);
            (Cmd [117; 51] [99] [114], 103, true, 0)];
   PAdvance; PRun 0; PApply 0].

(* one evaluation of the run *)
Lemma k2_outcome :
  let p := ss_reach [FFailAfter E_APPEND_FAILED] [] 0 1 k2_events in
  quiescent sstore p = true
  /\ map (fun c => (tagof c, r_seq (cp_res c), is_success (cp_res c))) (p_delivered p)
     = [(0, 1, true); (1, 4, true); (2, 3, true)]
  /\ map (fun r => (pr_seq r, pr_id r, pr_tag r)) (ss_log (p_store p)) = [(1, 101, 0); (2, 102, 1); (3, 103, 2); (4, 102, 1)].
Proof. vm_compute. auto. Qed.

(* a delivered success whose (sequence, tag) is in the log is a new message *)
Lemma fresh_of_summary (p : pstate sstore) t q i :
  In (t, q, true) (map (fun c => (tagof c, r_seq (cp_res c), is_success (cp_res c))) (p_delivered p)) ->
  In (q, i, t) (map (fun r => (pr_seq r, pr_id r, pr_tag r)) (ss_log (p_store p))) ->
  exists c, In c (p_delivered p) /\ is_fresh sstore ss_log p c /\ tagof c = t /\ r_seq (cp_res c) = q.
Proof.
  intros Hd Hl. apply in_map_iff in Hd. destruct Hd as [c [Ec Hc]].
  apply in_map_iff in Hl. destruct Hl as [r [Er Hr]]. inversion Ec. inversion Er. subst.
  exists c. repeat split; auto. exists r. auto.
Qed.

Theorem seq_increasing_refuted :
  let p := ss_reach [FFailAfter E_APPEND_FAILED] [] 0 1 k2_events in
  quiescent sstore p = true /\
  exists c1 c2, In c1 (p_delivered p) /\ In c2 (p_delivered p)
    /\ is_fresh sstore ss_log p c1 /\ is_fresh sstore ss_log p c2
    /\ tagof c1 < tagof c2 /\ r_seq (cp_res c2) < r_seq (cp_res c1).
Proof.
  intro p. destruct k2_outcome as [Q [D L]]. fold p in Q, D, L. clearbody p. split; [exact Q|].
  destruct (fresh_of_summary p 1 4 102) as [c1 [H1 [F1 [T1 S1]]]]; [rewrite D|rewrite L|]; [cbn [In]; tauto..|].
  destruct (fresh_of_summary p 2 3 103) as [c2 [H2 [F2 [T2 S2]]]]; [rewrite D|rewrite L|]; [cbn [In]; tauto..|].
  exists c1, c2. rewrite T1, T2, S1, S2. repeat (split; [assumption|]). split; reflexivity.
Qed.

(* the same run: the keyless send is in the log twice (same message id, two sequences) *)
Theorem keyless_stored_twice :
  let p := ss_reach [FFailAfter E_APPEND_FAILED] [] 0 1 k2_events in
  map (fun r => (pr_seq r, pr_id r, pr_tag r)) (ss_log (p_store p)) = [(1, 101, 0); (2, 102, 1); (3, 103, 2); (4, 102, 1)].
Proof. exact (proj2 (proj2 k2_outcome)). Qed.
