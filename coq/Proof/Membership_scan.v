(* Proof/Membership_scan.v — the activation index stays consistent with the rows
   (exactly one entry per row, keyed by its current ActivatedAt), and a complete
   directory pass with arbitrary positive page sizes lists every row of the
   (slot, uid) exactly once in key order, also when mutations of other users
   are interleaved between the pages. *)
From WK Require Import Base.Base Base.Lists.
From Coq Require Import Sorting.Sorted.
From WK Require Import Gen.Consts_C16 Model.Membership Model.Membership_C16
  Proof.Membership Proof.Membership_C16 Proof.Membership_order.
Open Scope N_scope.

(* index and rows agree: every index entry leads (via [entry_primary]) to a stored row whose
   current activation entry it is, so rowMatchesIndex never filters anything; every stored row has
   its entry, is stored under its own key, and that key passed [validateIdentity] (needed only so
   that the cursor built from a listed row is accepted, [entry_cursor_valid]); [index_put] keeps
   the index duplicate-free *)
Record st_inv (st : mstate) : Prop := StInv {
  inv_entry_row : forall e, In e (st_index st) ->
    exists row, get_row st (entry_primary e) = Some row /\ activation_entry (ie_slot e) row = e;
  inv_row_entry : forall k row, get_row st k = Some row ->
    In (activation_entry (k_slot k) row) (st_index st)
    /\ membership_key (k_slot k) row = k /\ validateIdentity k = true;
  inv_nodup : NoDup (st_index st) }.

Lemma inv_key st k row : st_inv st -> get_row st k = Some row -> membership_key (k_slot k) row = k.
Proof. intros Hinv Hg. apply (inv_row_entry st Hinv k row Hg). Qed.

Lemma inv_index st e : st_inv st ->
  (In e (st_index st) <-> exists k row, get_row st k = Some row /\ e = activation_entry (k_slot k) row).
Proof.
  intro Hinv. split.
  - intro He. destruct (inv_entry_row _ Hinv e He) as (row & Hrow & Hent).
    exists (entry_primary e), row. split; [exact Hrow|]. symmetry. exact Hent.
  - intros (k & row & Hrow & ->). exact (proj1 (inv_row_entry _ Hinv k row Hrow)).
Qed.

Lemma st_inv_empty : st_inv mstate_empty.
Proof. constructor; cbn; [intros e []|intros k row H; discriminate|constructor]. Qed.

Lemma index_del_In idx e x : In x (index_del idx e) <-> In x idx /\ x <> e.
Proof.
  unfold index_del. rewrite filter_In, negb_true_iff, <- not_true_iff_false, idx_entry_eqb_eq. reflexivity.
Qed.

Lemma index_put_In idx e x : In x (index_put idx e) <-> x = e \/ (In x idx /\ x <> e).
Proof. unfold index_put. cbn [In]. rewrite index_del_In. intuition. Qed.

Lemma index_put_NoDup idx e : NoDup idx -> NoDup (index_put idx e).
Proof.
  intro H. constructor; [|apply NoDup_filter; exact H].
  intro C. apply index_del_In in C. destruct C as [_ C]. apply C. reflexivity.
Qed.

Lemma st_inv_same st st' :
  st_rows st' = st_rows st -> st_index st' = st_index st -> st_inv st -> st_inv st'.
Proof.
  intros Er Ei [I1 I2 I3]. constructor; unfold get_row in *; rewrite ?Er, ?Ei; assumption.
Qed.

(* index entries are told apart by the key they lead to *)
Lemma entry_other_key st k x : st_inv st -> In x (st_index st) ->
  (entry_primary x <> k <-> forall old, get_row st k = Some old -> x <> activation_entry (k_slot k) old).
Proof.
  intros Hinv Hx. destruct (inv_entry_row st Hinv x Hx) as (row & Hrow & Hent). split.
  - intros Hne old Hold ->. apply Hne. exact (inv_key st k old Hinv Hold).
  - intros H <-. apply (H row Hrow). symmetry. exact Hent.
Qed.

(* the index without the entry of the row under [k]: the [match existing with] of
   stageUserChannelMembership and the index half of deleteUserChannelMembership *)
Definition index_drop_key (st : mstate) (k : mkey) : list idx_entry :=
  match get_row st k with
  | Some old => index_del (st_index st) (activation_entry (k_slot k) old)
  | None => st_index st
  end.

Lemma index_drop_key_In st k x : st_inv st ->
  (In x (index_drop_key st k) <-> In x (st_index st) /\ entry_primary x <> k).
Proof.
  intro Hinv. unfold index_drop_key. destruct (get_row st k) as [old|] eqn:Hold.
  - rewrite index_del_In. split; intros [Hx H]; (split; [exact Hx|]).
    + apply (entry_other_key st k x Hinv Hx). intros old' E. rewrite Hold in E. injection E as <-. exact H.
    + exact (proj1 (entry_other_key st k x Hinv Hx) H old Hold).
  - split; [intro Hx; split; [exact Hx|]|intros [Hx _]; exact Hx].
    apply (entry_other_key st k x Hinv Hx). intros old E. rewrite Hold in E. discriminate.
Qed.

Lemma st_index_stage st k next :
  st_index (stageUserChannelMembership st k (get_row st k) next)
  = index_put (index_drop_key st k) (activation_entry (k_slot k) next).
Proof. reflexivity. Qed.

Lemma st_index_delete st k : st_index (deleteUserChannelMembership st k) = index_drop_key st k.
Proof. unfold deleteUserChannelMembership, index_drop_key. destruct (get_row st k); reflexivity. Qed.

Lemma index_drop_key_NoDup st k : st_inv st -> NoDup (index_drop_key st k).
Proof. intro Hinv. unfold index_drop_key. destruct (get_row st k); [apply NoDup_filter|]; apply Hinv. Qed.

(* a state whose row under [k] became [new] and whose index is [index_drop_key st k] plus the
   entry of [new]: the one shape of all writes *)
Lemma replace_inv st st' k new :
  st_inv st ->
  (forall k', get_row st' k' = if mkey_eqb k k' then new else get_row st k') ->
  (forall x, In x (st_index st') <->
     (exists row, new = Some row /\ x = activation_entry (k_slot k) row) \/ In x (index_drop_key st k)) ->
  NoDup (st_index st') ->
  (forall row, new = Some row -> membership_key (k_slot k) row = k /\ validateIdentity k = true) ->
  st_inv st'.
Proof.
  intros Hinv Hget Hidx Hnd Hnew. constructor; [| |exact Hnd].
  - intros e He. rewrite Hget. apply Hidx in He. destruct He as [(row & -> & ->)|He].
    + change (entry_primary (activation_entry (k_slot k) row)) with (membership_key (k_slot k) row).
      rewrite (proj1 (Hnew row eq_refl)), mkey_eqb_refl. exists row. split; reflexivity.
    + apply (index_drop_key_In st k e Hinv) in He. destruct He as [He Hne].
      destruct (mkey_eqb_spec k (entry_primary e)) as [E|_]; [congruence|exact (inv_entry_row st Hinv e He)].
  - intros k' row' Hrow'. rewrite Hget in Hrow'. rewrite Hidx.
    destruct (mkey_eqb_spec k k') as [<-|E].
    + destruct (Hnew row' Hrow') as [Hk Hv]. split; [left; exists row'; auto|auto].
    + destruct (inv_row_entry st Hinv k' row' Hrow') as (Hin & Hk' & Hv'). split; [|auto].
      right. apply (index_drop_key_In st k _ Hinv). split; [exact Hin|].
      change (membership_key (k_slot k') row' <> k). congruence.
Qed.

Lemma stage_inv st k next :
  st_inv st -> membership_key (k_slot k) next = k -> validateIdentity k = true ->
  st_inv (stageUserChannelMembership st k (get_row st k) next).
Proof.
  intros Hinv Hkey Hval. apply (replace_inv st _ k (Some next) Hinv).
  - intro k'. apply get_row_stage.
  - intro x. rewrite st_index_stage, index_put_In. split.
    + intros [->|[H _]]; [left; exists next; auto|right; exact H].
    + intros [(row & [= <-] & ->)|H]; [left; reflexivity|right; split; [exact H|]].
      intros ->. apply (index_drop_key_In st k _ Hinv) in H. apply (proj2 H). exact Hkey.
  - rewrite st_index_stage. apply index_put_NoDup, index_drop_key_NoDup, Hinv.
  - intros row [= <-]. auto.
Qed.

Lemma delete_inv st k : st_inv st -> st_inv (deleteUserChannelMembership st k).
Proof.
  intros Hinv. apply (replace_inv st _ k None Hinv); rewrite ?st_index_delete.
  - intro k'. apply get_row_delete.
  - intro x. split; [auto|intros [(row & [=] & _)|H]; exact H].
  - apply index_drop_key_NoDup, Hinv.
  - discriminate.
Qed.

Definition mut_mkey (u : mut) : option mkey :=
  match u with
  | MUpsert slot m | MEnsure slot m => Some (membership_key slot m)
  | MAdvanceRead k _ _ | MSetActivated k _ _ | MActivate k _ _ | MHide k _ _ | MDelete k => Some k
  | _ => None
  end.

Lemma mut_mkey_uid u k : mut_mkey u = Some k -> k_uid k = mut_uid u.
Proof. destruct u; cbn; intros [= <-]; reflexivity. Qed.

Lemma mut_mkey_valid u k : mut_mkey u = Some k -> mut_valid u = true -> validateIdentity k = true.
Proof. destruct u; cbn; intros [= <-] V; try exact V; apply andb_true_iff in V; apply V. Qed.

(* nothing, or a row of the mutation's own key is staged under it, or that key is deleted *)
Inductive mut_effect (st : mstate) (u : mut) (st' : mstate) : Prop :=
| eff_none : st_rows st' = st_rows st -> st_index st' = st_index st -> mut_effect st u st'
| eff_stage k next : mut_mkey u = Some k -> membership_key (k_slot k) next = k ->
    st' = stageUserChannelMembership st k (get_row st k) next -> mut_effect st u st'
| eff_delete k : mut_mkey u = Some k -> st' = deleteUserChannelMembership st k -> mut_effect st u st'.

Lemma resolve_absent_upsert m : resolveUserChannelMembership m false m = m.
Proof. reflexivity. Qed.
Lemma resolve_absent_ensure m : resolveEnsuredUserChannelMembership m false m = m.
Proof. reflexivity. Qed.

Lemma upsertWith_effect resolve st slot m u :
  (forall ex, resolve ex true m = m \/ same_identity ex (resolve ex true m)) ->
  resolve m false m = m ->
  st_inv st -> mut_mkey u = Some (membership_key slot m) ->
  mut_effect st u (snd (upsertWith resolve st slot m)).
Proof.
  intros Hid Habs Hinv Hk. unfold upsertWith.
  destruct (get_row st (membership_key slot m)) as [ex|] eqn:Hg.
  - destruct (membership_eqb ex (resolve ex true m)); cbn [snd]; [apply eff_none; reflexivity|].
    apply (eff_stage _ _ _ _ (resolve ex true m) Hk); [|rewrite Hg; reflexivity].
    destruct (Hid ex) as [->|I]; [reflexivity|]. cbn [k_slot membership_key].
    rewrite <- (key_of_same_identity slot _ _ I). exact (inv_key st _ ex Hinv Hg).
  - cbn [snd]. apply (eff_stage _ _ _ _ (resolve m false m) Hk); [rewrite Habs|rewrite Hg]; reflexivity.
Qed.

Lemma mutate_effect st k f u :
  closure_follows f -> st_inv st -> mut_mkey u = Some k ->
  mut_effect st u (snd (mutateUserChannelMembership st k f)).
Proof.
  intros Hf Hinv Hk. unfold mutateUserChannelMembership.
  destruct (get_row st k) as [ex|] eqn:Hg; [|apply eff_none; reflexivity].
  destruct (m_tombstone ex); [apply eff_none; reflexivity|].
  destruct (membership_eqb (f ex) ex); cbn [snd]; [apply eff_none; reflexivity|].
  apply (eff_stage _ _ _ k (f ex) Hk); [|rewrite Hg; reflexivity].
  rewrite <- (key_of_same_identity _ _ _ (fo_identity _ _ _ _ (Hf ex))). exact (inv_key st k ex Hinv Hg).
Qed.

Lemma mut_apply_effect st u : st_inv st -> mut_effect st u (snd (mut_apply st u)).
Proof.
  intro Hinv. destruct (cmd_mut u) eqn:C; [destruct (cmd_mut_frame st u C); apply eff_none; assumption|].
  destruct u; try discriminate C; cbn [mut_apply];
    try solve [apply mutate_effect; auto using advanceReadSeq_ok, activate_ok, hide_ok].
  - apply upsertWith_effect; auto. intro ex.
    destruct (resolve_upsert_spec ex m) as [(_ & _ & _ & E)|F]; [left; exact E|right; apply F].
  - apply upsertWith_effect; auto. intro ex.
    right. apply resolve_ensure_identity.
  - apply (eff_delete _ _ _ k); reflexivity.
Qed.

Lemma mut_apply_inv st u : st_inv st -> mut_valid u = true -> st_inv (snd (mut_apply st u)).
Proof.
  intros Hinv V. destruct (mut_apply_effect st u Hinv) as [Er Ei|k next Hk Hkey ->|k Hk ->].
  - exact (st_inv_same _ _ Er Ei Hinv).
  - apply stage_inv; [exact Hinv|exact Hkey|exact (mut_mkey_valid u k Hk V)].
  - apply delete_inv. exact Hinv.
Qed.

Lemma reach_inv st us st' : reach st us st' -> st_inv st -> st_inv st'.
Proof. induction 1; auto using mut_apply_inv. Qed.

Definition belongs (slot : N) (uid : bytes) (e : idx_entry) : bool :=
  (ie_slot e =? slot) && bytes_eqb (ie_uid e) uid.

Lemma belongs_prefix slot uid e : belongs slot uid e = true <-> same_prefix slot uid e.
Proof. unfold belongs, same_prefix. rewrite andb_true_iff, N.eqb_eq, bytes_eqb_eq. reflexivity. Qed.

Lemma uid_entries_unfold st slot uid :
  uid_entries st slot uid = entry_sort (filter (belongs slot uid) (st_index st)).
Proof. reflexivity. Qed.

Lemma uid_entries_In st slot uid e :
  In e (uid_entries st slot uid) <-> In e (st_index st) /\ same_prefix slot uid e.
Proof. rewrite uid_entries_unfold, entry_sort_In, filter_In, belongs_prefix. reflexivity. Qed.

Lemma uid_entries_sorted st slot uid : st_inv st -> StronglySorted elt (uid_entries st slot uid).
Proof.
  intro Hinv. rewrite uid_entries_unfold. apply (entry_sort_sorted slot uid).
  - apply Forall_forall. intros x Hx. apply filter_In in Hx. apply belongs_prefix. apply Hx.
  - apply NoDup_filter. apply (inv_nodup st Hinv).
Qed.

Lemma entry_row_Some st e m :
  entry_row st e = Some m <->
  get_row st (entry_primary e) = Some m /\ activation_entry (ie_slot e) m = e.
Proof.
  unfold entry_row. destruct (get_row st (entry_primary e)) as [row|]; [|split; [|intros []]; discriminate].
  destruct (idx_entry_eqb (activation_entry (ie_slot e) row) e) eqn:E.
  - apply idx_entry_eqb_eq in E. split; [intros [= <-]; auto|intros [[= <-] _]; reflexivity].
  - split; [discriminate|]. intros [[= <-] C]. apply idx_entry_eqb_eq in C. congruence.
Qed.

(* what [st_inv] gives for an entry of [uid_entries]: it resolves to a row, is that row's
   entry, and the row's channel id is a valid key string *)
Definition entry_good (st : mstate) (slot : N) (uid : bytes) (e : idx_entry) : Prop :=
  same_prefix slot uid e
  /\ exists row, entry_row st e = Some row /\ activation_entry slot row = e
                 /\ validateKeyString (m_channel_id row) = true.

Lemma uid_entries_good st slot uid :
  st_inv st -> Forall (entry_good st slot uid) (uid_entries st slot uid).
Proof.
  intro Hinv. apply Forall_forall. intros e He. apply uid_entries_In in He. destruct He as [He Hp].
  split; [exact Hp|]. destruct (inv_entry_row st Hinv e He) as (row & Hrow & Hent).
  destruct (inv_row_entry st Hinv _ _ Hrow) as (_ & Hk & Hv).
  exists row. split; [apply entry_row_Some; auto|]. split; [rewrite <- (proj1 Hp); exact Hent|].
  apply andb_true_iff in Hv. rewrite <- Hk in Hv. apply Hv.
Qed.

Lemma entry_rows_app st a b : entry_rows st (a ++ b) = entry_rows st a ++ entry_rows st b.
Proof.
  induction a as [|e a IH]; [reflexivity|]. cbn [app entry_rows].
  destruct (entry_row st e); [cbn [app]; f_equal|]; exact IH.
Qed.

Lemma entry_rows_good st slot uid l :
  Forall (entry_good st slot uid) l -> map (activation_entry slot) (entry_rows st l) = l.
Proof.
  induction 1 as [|e l (_ & row & Hr & Hent & _) _ IH]; [reflexivity|].
  cbn [entry_rows]. rewrite Hr. cbn [map]. rewrite Hent, IH. reflexivity.
Qed.

Lemma entry_rows_good_length st slot uid l :
  Forall (entry_good st slot uid) l -> length (entry_rows st l) = length l.
Proof. intro H. rewrite <- (entry_rows_good st slot uid l H) at 2. symmetry. apply map_length. Qed.

Lemma entry_rows_firstn st slot uid : forall n l,
  Forall (entry_good st slot uid) l -> firstn n (entry_rows st l) = entry_rows st (firstn n l).
Proof.
  induction n as [|n IH]; intros l Hl; [reflexivity|].
  destruct Hl as [|e l (_ & row & Hr & _) Hl]; [reflexivity|].
  cbn [entry_rows firstn]. rewrite Hr. cbn [firstn]. f_equal. apply IH. exact Hl.
Qed.

Lemma entry_rows_ext st st' l :
  (forall e, In e l -> entry_row st' e = entry_row st e) -> entry_rows st' l = entry_rows st l.
Proof.
  induction l as [|e l IH]; intro H; [reflexivity|].
  cbn [entry_rows]. rewrite (H e (or_introl eq_refl)), IH; [reflexivity|].
  intros x Hx. apply H. right. exact Hx.
Qed.

Definition entry_cursor (e : idx_entry) : page_cursor :=
  PageCursor (ie_activated_at e) (ie_channel_id e) (ie_channel_type e).

(* the cursor after the entries [P] have been listed, starting from cursor [c] *)
Definition end_cursor (P : list idx_entry) (c : page_cursor) : page_cursor :=
  match rev P with e :: _ => entry_cursor e | [] => c end.

Lemma end_cursor_app P F c : end_cursor (P ++ F) c = end_cursor F (end_cursor P c).
Proof. unfold end_cursor. rewrite rev_app_distr. destruct (rev F); reflexivity. Qed.

Lemma page_next_cursor st slot uid F c :
  Forall (entry_good st slot uid) F ->
  match rev (entry_rows st F) with last :: _ => row_cursor last | [] => c end = end_cursor F c.
Proof.
  intro H. unfold end_cursor. rewrite <- (entry_rows_good st slot uid F H) at 2. rewrite <- map_rev.
  destruct (rev (entry_rows st F)); reflexivity.
Qed.

Lemma validateKeyString_nonempty s : validateKeyString s = true -> s <> [].
Proof. destruct s; [discriminate|discriminate]. Qed.

Lemma entry_cursor_valid st slot uid e :
  entry_good st slot uid e -> (0 <= ie_activated_at e)%Z ->
  page_cursor_is_zero (entry_cursor e) = false
  /\ validateUserChannelMembershipCursor (entry_cursor e) = true
  /\ cursor_entry slot uid (entry_cursor e) = e.
Proof.
  intros ([Hs Hu] & row & _ & Hent & Hv) Hact.
  unfold validateUserChannelMembershipCursor, page_cursor_is_zero.
  destruct e; cbn in *. injection Hent as _ _ _ <- _. subst.
  apply Z.ltb_ge in Hact. rewrite Hv, Hact. destruct (m_channel_id row); [discriminate|].
  rewrite andb_false_r. auto.
Qed.

Lemma cursor_resumes st slot uid P Q :
  st_inv st -> uid_entries st slot uid = P ++ Q ->
  (forall e, In e (uid_entries st slot uid) -> (0 <= ie_activated_at e)%Z) ->
  let cursor := end_cursor P page_cursor_zero in
  validateUserChannelMembershipCursor cursor = true
  /\ (if page_cursor_is_zero cursor then uid_entries st slot uid
      else filter (fun e => entry_ltb (cursor_entry slot uid cursor) e) (uid_entries st slot uid)) = Q.
Proof.
  intros Hinv HM Hact. cbv zeta.
  destruct P as [|e P' _] using rev_ind; [split; [reflexivity|exact HM]|].
  pose proof (uid_entries_sorted st slot uid Hinv) as Hsorted.
  pose proof (uid_entries_good st slot uid Hinv) as Hgood. rewrite Forall_forall in Hgood.
  unfold end_cursor. rewrite rev_app_distr. cbn [rev app].
  assert (He : In e (uid_entries st slot uid)).
  { rewrite HM. apply in_or_app. left. apply in_or_app. right. left. reflexivity. }
  destruct (entry_cursor_valid st slot uid e (Hgood e He) (Hact e He)) as (Hnz & Hval & Hce).
  rewrite Hnz, Hce. split; [exact Hval|].
  rewrite HM, <- app_assoc in Hsorted |- *. apply filter_after_last. exact Hsorted.
Qed.

Lemma listPage_after_prefix st slot uid limit P Q :
  st_inv st ->
  validateKeyString uid = true -> (0 < limit)%Z ->
  uid_entries st slot uid = P ++ Q ->
  (forall e, In e (uid_entries st slot uid) -> (0 <= ie_activated_at e)%Z) ->
  let n := Z.to_nat limit in
  listUserChannelMembershipPage st slot uid (end_cursor P page_cursor_zero) limit
  = (entry_rows st (firstn n Q), end_cursor (P ++ firstn n Q) page_cursor_zero,
     Nat.leb (length Q) n, PageOk).
Proof.
  intros Hinv Huid Hlim HM Hact n.
  destruct (cursor_resumes st slot uid P Q Hinv HM Hact) as [Hval Hes].
  pose proof (uid_entries_good st slot uid Hinv) as HgQ.
  rewrite HM, <- (firstn_skipn n Q) in HgQ. apply Forall_app in HgQ. destruct HgQ as [_ HgQ].
  unfold listUserChannelMembershipPage. rewrite Huid, Hval, Hes. cbn [negb orb].
  assert ((limit <=? 0)%Z = false) as -> by (apply Z.leb_gt; exact Hlim). fold n.
  rewrite (entry_rows_good_length st slot uid Q), (entry_rows_firstn st slot uid n Q)
    by (rewrite <- (firstn_skipn n Q); exact HgQ).
  apply Forall_app in HgQ.
  rewrite (page_next_cursor st slot uid _ _ (proj1 HgQ)), end_cursor_app. reflexivity.
Qed.

Lemma filter_belongs_del slot uid idx e :
  belongs slot uid e = false -> filter (belongs slot uid) (index_del idx e) = filter (belongs slot uid) idx.
Proof.
  intro Hb. unfold index_del. induction idx as [|x r IH]; [reflexivity|].
  cbn [filter]. destruct (idx_entry_eqb x e) eqn:E; cbn [negb].
  - apply idx_entry_eqb_eq in E. subst x. rewrite Hb. exact IH.
  - cbn [filter]. destruct (belongs slot uid x); [f_equal|]; exact IH.
Qed.

Lemma belongs_other_uid slot uid s m k :
  k_uid k <> uid -> membership_key s m = k -> belongs slot uid (activation_entry s m) = false.
Proof.
  intros Hne <-. unfold belongs. cbn [activation_entry ie_uid ie_slot membership_key k_uid] in *.
  apply bytes_eqb_neq in Hne. rewrite Hne. apply andb_false_r.
Qed.

Lemma filter_belongs_drop_key st k slot uid :
  st_inv st -> k_uid k <> uid ->
  filter (belongs slot uid) (index_drop_key st k) = filter (belongs slot uid) (st_index st).
Proof.
  intros Hinv Hku. unfold index_drop_key. destruct (get_row st k) as [old|] eqn:Hold; [|reflexivity].
  apply filter_belongs_del. exact (belongs_other_uid _ _ _ _ k Hku (inv_key st k old Hinv Hold)).
Qed.

Lemma other_uid_frame st u slot uid :
  st_inv st -> bytes_eqb (mut_uid u) uid = false ->
  let st' := snd (direct_apply st u) in
  uid_entries st' slot uid = uid_entries st slot uid
  /\ (forall e, ie_uid e = uid -> entry_row st' e = entry_row st e).
Proof.
  intros Hinv Hne. unfold direct_apply. destruct (mut_valid u); [|split; reflexivity]. cbn [snd].
  apply bytes_eqb_neq in Hne. rewrite !uid_entries_unfold.
  assert (Hrow : forall k st', k_uid k <> uid ->
            (forall k', mkey_eqb k k' = false -> get_row st' k' = get_row st k') ->
            forall e, ie_uid e = uid -> entry_row st' e = entry_row st e).
  { intros k st' Hku Hget e He. unfold entry_row. rewrite Hget; [reflexivity|].
    destruct (mkey_eqb_spec k (entry_primary e)) as [->|]; [|reflexivity]. contradiction. }
  destruct (mut_apply_effect st u Hinv) as [Er Ei|k next Hk Hkey ->|k Hk ->];
    try (rewrite <- (mut_mkey_uid u k Hk) in Hne).
  - split; [rewrite Ei; reflexivity|]. intros e _. unfold entry_row, get_row. rewrite Er. reflexivity.
  - split; [|apply (Hrow k); [exact Hne|]; intros k' E; rewrite get_row_stage, E; reflexivity].
    rewrite st_index_stage. unfold index_put. cbn [filter]. rewrite (belongs_other_uid _ _ _ _ k Hne Hkey), filter_belongs_del.
    + rewrite filter_belongs_drop_key by assumption. reflexivity.
    + exact (belongs_other_uid _ _ _ _ k Hne Hkey).
  - split; [|apply (Hrow k); [exact Hne|]; intros k' E; rewrite get_row_delete, E; reflexivity].
    rewrite st_index_delete, (filter_belongs_drop_key st k slot uid Hinv Hne). reflexivity.
Qed.

Lemma nth_limit_pos limits i : Forall (fun l => (0 < l)%Z) limits -> (0 < nth_limit limits i)%Z.
Proof.
  intro H. unfold nth_limit. destruct limits as [|l0 r] eqn:E; [lia|]. rewrite <- E in *.
  destruct (nth_in_or_default (Nat.modulo i (length limits)) limits 1%Z) as [Hin|Hd].
  - rewrite Forall_forall in H. apply H. exact Hin.
  - rewrite Hd. lia.
Qed.

(* a page that is not the last, followed by the pages [ps'] of the rest of the pass, which ran in a
   state [st1] that shows the same rows for this uid *)
Lemma pass_page_cons st st1 slot uid P Q n ps' rows next :
  uid_entries st slot uid = P ++ Q ->
  (forall e, ie_uid e = uid -> entry_row st1 e = entry_row st e) ->
  pages_well_formed ps' = true /\ pages_rows ps' = entry_rows st1 (skipn n Q) ->
  pages_well_formed (PageObs rows next false PageOk :: ps') = true
  /\ entry_rows st (firstn n Q) ++ pages_rows ps' = entry_rows st Q.
Proof.
  intros HM Hrows [Hwf Hr]. split; [destruct ps'; [discriminate|exact Hwf]|].
  rewrite Hr, (entry_rows_ext st st1), <- entry_rows_app, firstn_skipn; [reflexivity|].
  intros x Hx. apply Hrows. apply (uid_entries_In st slot uid). rewrite HM.
  apply in_or_app. right. rewrite <- (firstn_skipn n Q). apply in_or_app. right. exact Hx.
Qed.

(* [P] = entries already returned, [Q] = entries still to come; [uid_entries = P ++ Q] in every
   state the pass goes through (interleaved calls concern other uids, [other_uid_frame]) and the
   cursor is the key of the last entry of [P].  Each non-final page takes at least one entry off
   [Q]; [length Q < fuel] is strict because the final (done) page costs a unit of fuel too. *)
Lemma scan_pass_spec slot uid limits :
  validateKeyString uid = true -> Forall (fun l => (0 < l)%Z) limits ->
  forall fuel st between i P Q ps es st',
    st_inv st ->
    Forall (fun u => bytes_eqb (mut_uid u) uid = false) between ->
    uid_entries st slot uid = P ++ Q ->
    (forall e, In e (uid_entries st slot uid) -> (0 <= ie_activated_at e)%Z) ->
    (length Q < fuel)%nat ->
    scan_pass fuel st slot uid limits between i (end_cursor P page_cursor_zero) = (ps, es, st') ->
    pages_well_formed ps = true /\ pages_rows ps = entry_rows st Q.
Proof.
  intros Huid Hlimits. induction fuel as [|fuel IH];
    intros st between i P Q ps es st' Hinv Hbetween HM Hact Hlen Hpass; [lia|].
  pose proof (nth_limit_pos limits i Hlimits) as Hlim.
  cbn [scan_pass] in Hpass. rewrite (listPage_after_prefix st slot uid _ P Q Hinv Huid Hlim HM Hact) in Hpass.
  set (n := Z.to_nat (nth_limit limits i)) in *.
  destruct (Nat.leb (length Q) n) eqn:Hdone.
  { injection Hpass as <- _ _. apply Nat.leb_le in Hdone.
    cbn [pages_rows]. rewrite app_nil_r, firstn_all2 by exact Hdone. split; reflexivity. }
  apply Nat.leb_gt in Hdone.
  (* the rest of the pass, run in any state that shows the same entries for this uid *)
  assert (Rest : forall st1 between' ps' es',
            st_inv st1 -> Forall (fun u => bytes_eqb (mut_uid u) uid = false) between' ->
            uid_entries st1 slot uid = uid_entries st slot uid ->
            scan_pass fuel st1 slot uid limits between' (S i)
              (end_cursor (P ++ firstn n Q) page_cursor_zero) = (ps', es', st') ->
            pages_well_formed ps' = true /\ pages_rows ps' = entry_rows st1 (skipn n Q)).
  { intros st1 between' ps' es' Hinv1 Hb' HE Hrec.
    apply (IH st1 between' (S i) (P ++ firstn n Q) (skipn n Q) ps' es' st' Hinv1 Hb'); [| | |exact Hrec].
    - rewrite HE, HM, <- app_assoc, firstn_skipn. reflexivity.
    - rewrite HE. exact Hact.
    - rewrite skipn_length. unfold n. lia. }
  destruct between as [|u between'].
  - destruct (scan_pass fuel st slot uid limits [] _ _) as [[ps' es'] st1] eqn:Hrec.
    injection Hpass as <- _ <-. cbn [pages_rows].
    exact (pass_page_cons st st slot uid P Q n ps' _ _ HM (fun _ _ => eq_refl)
             (Rest st [] ps' es' Hinv Hbetween eq_refl Hrec)).
  - destruct (direct_apply st u) as [eu st1] eqn:Hdir.
    destruct (scan_pass fuel st1 slot uid limits between' _ _) as [[ps' es'] st2] eqn:Hrec.
    injection Hpass as <- _ <-. cbn [pages_rows].
    apply Forall_cons_iff in Hbetween. destruct Hbetween as [Hu Hb'].
    pose proof (other_uid_frame st u slot uid Hinv Hu) as [HE Hrows]. rewrite Hdir in HE, Hrows.
    refine (pass_page_cons st st1 slot uid P Q n ps' _ _ HM Hrows (Rest st1 between' ps' es' _ Hb' HE Hrec)).
    apply (reach_inv st [u] st1); [|exact Hinv]. apply direct_apply_reach. rewrite Hdir. constructor.
Qed.

Definition directory_listing (st : mstate) (slot : N) (uid : bytes) : list membership :=
  entry_rows st (uid_entries st slot uid).

Definition rows_covered (mkeys : list mkey) (st : mstate) : Prop :=
  forall k row, get_row st k = Some row -> In k mkeys.

Lemma present_rows_cons slot uid k keys (o : option membership) snap :
  present_rows slot uid (k :: keys) (o :: snap)
  = match o with
    | Some m => if (k_slot k =? slot) && bytes_eqb (k_uid k) uid then [m] else []
    | None => []
    end ++ present_rows slot uid keys snap.
Proof. destruct o as [m|]; cbn [present_rows]; [destruct (_ && _)|]; reflexivity. Qed.

Lemma present_rows_In st slot uid : forall keys m,
  In m (present_rows slot uid keys (map (get_row st) keys)) <->
  exists k, In k keys /\ k_slot k = slot /\ k_uid k = uid /\ get_row st k = Some m.
Proof.
  induction keys as [|k keys IH]; intro m; cbn [map].
  { split; [intros []|intros (k & [] & _)]. }
  rewrite present_rows_cons, in_app_iff, IH. split.
  - intros [H|(k' & Hin & H)]; [|exists k'; split; [right; exact Hin|exact H]].
    exists k. destruct (get_row st k) as [row|]; [|destruct H].
    destruct ((k_slot k =? slot) && bytes_eqb (k_uid k) uid) eqn:B; [|destruct H].
    destruct H as [<-|[]]. apply andb_true_iff in B. rewrite N.eqb_eq, bytes_eqb_eq in B. cbn [In]. tauto.
  - intros (k' & [<-|Hin] & Hs & Hu & Hr); [left|right; exists k'; auto].
    rewrite Hr, Hs, Hu, N.eqb_refl, bytes_eqb_refl. left. reflexivity.
Qed.

Lemma present_rows_entries_NoDup st slot uid : st_inv st -> forall keys, NoDup keys ->
  NoDup (map (activation_entry slot) (present_rows slot uid keys (map (get_row st) keys))).
Proof.
  intros Hinv. induction keys as [|k keys IH]; intro Hnd; cbn [map present_rows]; [constructor|].
  inversion Hnd as [|? ? Hnin Hnd']; subst.
  destruct (get_row st k) as [row|] eqn:Hg; [|apply IH; exact Hnd'].
  destruct ((k_slot k =? slot) && bytes_eqb (k_uid k) uid) eqn:B; [|apply IH; exact Hnd'].
  cbn [map]. constructor; [|apply IH; exact Hnd'].
  intro C. apply in_map_iff in C. destruct C as (m' & He & Hm').
  apply present_rows_In in Hm'. destruct Hm' as (k' & Hin & Hs & Hu & Hr).
  apply andb_true_iff in B. destruct B as [B1 _]. apply N.eqb_eq in B1.
  apply Hnin. assert (k' = k) as <-; [|exact Hin].
  rewrite <- (inv_key st k row Hinv Hg), <- (inv_key st k' m' Hinv Hr), B1, Hs.
  exact (f_equal entry_primary He).
Qed.

Lemma row_insert_entries slot m : forall l,
  map (activation_entry slot) (row_insert slot m l)
  = entry_insert (activation_entry slot m) (map (activation_entry slot) l).
Proof.
  induction l as [|x r IH]; [reflexivity|]. cbn [row_insert map entry_insert].
  destruct (entry_ltb (activation_entry slot x) (activation_entry slot m)); cbn [map]; [f_equal; exact IH|reflexivity].
Qed.

Lemma expected_listing_entries slot rows :
  map (activation_entry slot) (fold_right (row_insert slot) [] rows)
  = entry_sort (map (activation_entry slot) rows).
Proof.
  induction rows as [|m r IH]; [reflexivity|].
  cbn [fold_right map entry_sort]. rewrite row_insert_entries, IH. reflexivity.
Qed.

Lemma sorted_rows_In slot rows x : In x (fold_right (row_insert slot) [] rows) <-> In x rows.
Proof.
  exact (insert_sort_In (fun y m => entry_ltb (activation_entry slot y) (activation_entry slot m))
           (row_insert slot) (fun _ => eq_refl) (fun _ _ _ => eq_refl) rows x).
Qed.

Lemma entry_row_of_row st k m :
  st_inv st -> get_row st k = Some m -> entry_row st (activation_entry (k_slot k) m) = Some m.
Proof.
  intros Hinv Hr. apply entry_row_Some.
  change (get_row st (membership_key (k_slot k) m) = Some m /\ activation_entry (k_slot k) m = activation_entry (k_slot k) m).
  rewrite (inv_key st k m Hinv Hr). auto.
Qed.

Lemma entry_rows_of_rows st slot : forall l,
  Forall (fun m => entry_row st (activation_entry slot m) = Some m) l ->
  entry_rows st (map (activation_entry slot) l) = l.
Proof.
  induction 1 as [|m l Hm _ IH]; [reflexivity|]. cbn [map entry_rows]. rewrite Hm, IH. reflexivity.
Qed.

Section Listing.
  Variables (st : mstate) (slot : N) (uid : bytes) (mkeys : list mkey).
  Hypothesis Hinv : st_inv st.
  Hypothesis Hcov : rows_covered mkeys st.
  Hypothesis Hnd : NoDup mkeys.

  Let R := present_rows slot uid mkeys (map (get_row st) mkeys).

  Lemma present_entries_In e :
    In e (map (activation_entry slot) R) <-> In e (filter (belongs slot uid) (st_index st)).
  Proof.
    rewrite in_map_iff, filter_In. split.
    - intros (m & He & Hm). apply present_rows_In in Hm. destruct Hm as (k & Hin & Hs & Hu & Hr).
      destruct (inv_row_entry st Hinv k m Hr) as (Hidx & Hk & _). subst e. split.
      + rewrite <- Hs. exact Hidx.
      + apply belongs_prefix. split; [reflexivity|]. cbn [activation_entry ie_uid].
        rewrite <- Hu, <- Hk. reflexivity.
    - intros [Hidx Hb]. apply belongs_prefix in Hb. destruct Hb as [Hs Hu].
      destruct (inv_entry_row st Hinv e Hidx) as (row & Hrow & Hent).
      exists row. split; [rewrite <- Hs; exact Hent|].
      apply present_rows_In. exists (entry_primary e). split; [eapply Hcov; exact Hrow|].
      repeat split; auto.
  Qed.

  Lemma sorted_present_entries : entry_sort (map (activation_entry slot) R) = uid_entries st slot uid.
  Proof.
    apply sorted_unique.
    - apply (entry_sort_sorted slot uid).
      + apply Forall_forall. intros e He. apply present_entries_In in He. apply filter_In in He.
        apply belongs_prefix. apply He.
      + apply present_rows_entries_NoDup; assumption.
    - apply uid_entries_sorted. exact Hinv.
    - intro e. rewrite entry_sort_In, uid_entries_unfold, entry_sort_In. apply present_entries_In.
  Qed.

  Lemma expected_listing_model : expected_listing slot uid mkeys (map (get_row st) mkeys) = directory_listing st slot uid.
  Proof.
    unfold expected_listing, directory_listing. fold R.
    rewrite <- sorted_present_entries, <- expected_listing_entries.
    symmetry. apply entry_rows_of_rows. apply Forall_forall. intros m Hm.
    apply sorted_rows_In in Hm. apply present_rows_In in Hm. destruct Hm as (k & _ & <- & _ & Hr).
    exact (entry_row_of_row st k m Hinv Hr).
  Qed.

  Lemma present_length : length R = length (uid_entries st slot uid).
  Proof. rewrite <- sorted_present_entries, entry_sort_length, map_length. reflexivity. Qed.

  Lemma present_activation_nonneg :
    forallb (fun m => (0 <=? m_activated_at m)%Z) R = true ->
    forall e, In e (uid_entries st slot uid) -> (0 <= ie_activated_at e)%Z.
  Proof.
    intros H e He. rewrite <- sorted_present_entries in He. apply (proj1 (entry_sort_In _ _)) in He.
    apply in_map_iff in He. destruct He as (m & <- & Hm).
    rewrite forallb_forall in H. apply Z.leb_le. apply (H m Hm).
  Qed.
End Listing.

Lemma entry_rows_In st m : forall l,
  In m (entry_rows st l) <-> exists e, In e l /\ entry_row st e = Some m.
Proof.
  induction l as [|e l IH]; cbn [entry_rows]; [split; [intros []|intros (e & [] & _)]|].
  destruct (entry_row st e) as [row|] eqn:Hr; cbn [In]; rewrite IH; split.
  - intros [->|(e' & He & Hr')]; [exists e|exists e']; auto.
  - intros (e' & [->|He] & Hr'); [left; congruence|right; exists e'; auto].
  - intros (e' & He & Hr'). exists e'. auto.
  - intros (e' & [->|He] & Hr'); [congruence|exists e'; auto].
Qed.

Lemma directory_listing_In st slot uid m : st_inv st ->
  (In m (directory_listing st slot uid) <->
   exists k, k_slot k = slot /\ k_uid k = uid /\ get_row st k = Some m).
Proof.
  intro Hinv. unfold directory_listing. rewrite entry_rows_In. split.
  - intros (e & He & Hr). apply uid_entries_In in He. destruct He as [_ [Hs Hu]].
    apply entry_row_Some in Hr. exists (entry_primary e). repeat split; auto. apply Hr.
  - intros (k & Hs & Hu & Hr). exists (activation_entry (k_slot k) m).
    split; [|exact (entry_row_of_row st k m Hinv Hr)].
    destruct (inv_row_entry st Hinv k m Hr) as (Hidx & Hk & _).
    apply uid_entries_In. split; [exact Hidx|]. split; [exact Hs|].
    rewrite <- Hu, <- Hk. reflexivity.
Qed.

Lemma directory_listing_entries st slot uid : st_inv st ->
  map (activation_entry slot) (directory_listing st slot uid) = uid_entries st slot uid.
Proof. intro Hinv. exact (entry_rows_good st slot uid _ (uid_entries_good st slot uid Hinv)). Qed.
