(* Proof/JsonRpcBridge_num.v — strconv.ParseInt / ParseUint invert FormatInt / FormatUint
   (the message-id strings of the bridge), uint8 conversions, Setting bit packing. *)
From WK Require Import Base.Base Gen.Consts_C24 Model.JsonRpcBridge.
From Coq Require Import ZifyBool ZifyN ZifyNat.
Open Scope N_scope.

Definition is_digit (c : N) : bool := (48 <=? c) && (c <=? 57).

Lemma dec_digits_digits fuel : forall n acc, forallb is_digit acc = true -> forallb is_digit (dec_digits fuel n acc) = true.
Proof.
  induction fuel as [|f IH]; intros n acc H; [exact H|].
  cbn [dec_digits].
  assert (H' : forallb is_digit ((48 + n mod 10) :: acc) = true).
  { cbn [forallb]. rewrite H. unfold is_digit. pose proof (N.mod_lt n 10). lia. }
  destruct (n / 10 =? 0); [exact H'|apply IH; exact H'].
Qed.

Lemma dec_digits_grows fuel : forall n acc, (length acc <= length (dec_digits fuel n acc))%nat.
Proof.
  induction fuel as [|f IH]; intros n acc; [apply le_n|].
  cbn [dec_digits]. destruct (n / 10 =? 0); [|rewrite <- IH]; cbn [length]; lia.
Qed.

Lemma format_uint_cons n : exists c r, format_uint n = c :: r /\ is_digit c = true.
Proof.
  unfold format_uint. set (fuel := N.to_nat (N.log2 n)).
  pose proof (dec_digits_digits (S fuel) n [] eq_refl) as D.
  destruct (dec_digits (S fuel) n []) as [|c r] eqn:E.
  - exfalso. cbn [dec_digits] in E. destruct (n / 10 =? 0); [discriminate|].
    pose proof (dec_digits_grows fuel (n / 10) [48 + n mod 10]) as G. rewrite E in G. cbn in G. lia.
  - exists c, r. split; [reflexivity|]. cbn [forallb] in D. apply andb_true_iff in D. apply D.
Qed.

Lemma parse_digit d rest x : d < 10 -> x * 10 + d <= max_u64 ->
  parse_uint_loop ((48 + d) :: rest) x = parse_uint_loop rest (x * 10 + d).
Proof.
  unfold max_u64. intros Hd Hm. cbn [parse_uint_loop]. unfold cutoff_u64, max_u64.
  replace (48 + d - 48) with d by lia.
  destruct ((48 <=? 48 + d) && (48 + d <=? 57)) eqn:D; [|lia].
  destruct (1844674407370955162 <=? x) eqn:C; [lia|].
  destruct (18446744073709551615 <? x * 10 + d) eqn:M; [lia|reflexivity].
Qed.

(* the digits are produced last first and read first first: reading the digits of n and then
   [acc], starting from 0, is reading [acc] starting from n *)
Lemma parse_dec_digits fuel : forall n acc, n < 2 ^ N.of_nat fuel -> n <= max_u64 ->
  parse_uint_loop (dec_digits fuel n acc) 0 = parse_uint_loop acc n.
Proof.
  induction fuel as [|f IH]; intros n acc Hn Hmax.
  - cbn in Hn. replace n with 0 by lia. reflexivity.
  - rewrite Nnat.Nat2N.inj_succ, N.pow_succ_r' in Hn. cbn [dec_digits].
    pose proof (N.div_mod n 10 ltac:(discriminate)) as E.
    pose proof (N.mod_lt n 10 ltac:(discriminate)) as Hd.
    destruct (n / 10 =? 0) eqn:Q.
    + rewrite parse_digit by lia. f_equal. lia.
    + rewrite IH, parse_digit by lia. f_equal. lia.
Qed.

Lemma log2_fuel n : n < 2 ^ N.of_nat (S (N.to_nat (N.log2 n))).
Proof.
  rewrite Nnat.Nat2N.inj_succ, Nnat.N2Nat.id.
  destruct (N.eq_dec n 0) as [->|Hz]; [reflexivity|].
  apply N.log2_spec. lia.
Qed.

Lemma parse_uint_nonempty s : s <> [] -> parse_uint s = parse_uint_loop s 0.
Proof. destruct s; [contradiction|reflexivity]. Qed.

Theorem parse_uint_format n : n <= max_u64 -> parse_uint (format_uint n) = PuVal n.
Proof.
  intro H. destruct (format_uint_cons n) as (c & r & E & _).
  rewrite parse_uint_nonempty by (rewrite E; discriminate). unfold format_uint.
  rewrite parse_dec_digits; [reflexivity|apply log2_fuel|exact H].
Qed.

Theorem parse_uint64_value_format n : n <= max_u64 -> parse_uint64_value (format_uint n) = n.
Proof. intro H. unfold parse_uint64_value. rewrite parse_uint_format by exact H. reflexivity. Qed.

Theorem parse_int_format z : (-9223372036854775808 <= z <= 9223372036854775807)%Z ->
  parse_int64_value (format_int z) = z.
Proof.
  intro H. unfold format_int, parse_int64_value. destruct z as [|p|p].
  - reflexivity.
  - cbn [Z.to_N]. destruct (format_uint_cons (Npos p)) as (c & r & E & D). rewrite E.
    unfold is_digit in D.
    replace (c =? 45) with false by lia. replace ((c =? 43) || false) with false by lia.
    rewrite <- E, parse_uint_format by (unfold max_u64; lia).
    destruct (9223372036854775808 <=? N.pos p) eqn:Q; [lia|]. reflexivity.
  - cbn [N.eqb Pos.eqb orb]. rewrite parse_uint_format by (unfold max_u64; lia).
    destruct (9223372036854775808 <? N.pos p) eqn:Q; [lia|]. reflexivity.
Qed.

Lemma to_u8_of_N v : v < 256 -> to_u8 (Z.of_N v) = v.
Proof. intro H. unfold to_u8. rewrite Z.mod_small by lia. lia. Qed.

Definition below (n : nat) : list N := map N.of_nat (seq 0 n).

Lemma forall_below (f : N -> bool) n : forallb f (below n) = true -> forall i, i < N.of_nat n -> f i = true.
Proof.
  intros H i Hi. rewrite forallb_forall in H. apply H. unfold below. apply in_map_iff.
  exists (N.to_nat i). split; [lia|]. apply in_seq. lia.
Qed.

(* SettingFlags express exactly the four masked bits, in both directions *)
Lemma setting_flags_roundtrip s : s < 256 ->
  N.land (setting_to_proto (flags_of_setting s)) setting_mask = N.land s setting_mask.
Proof.
  intro H.
  assert (E : forallb (fun s => N.land (setting_to_proto (flags_of_setting s)) setting_mask =? N.land s setting_mask) (below 256) = true)
    by (vm_compute; reflexivity).
  apply N.eqb_eq. exact (forall_below _ _ E s H).
Qed.

Lemma setting_opt_roundtrip s : s < 256 ->
  N.land (setting_of_flags (fromProtoSetting s)) setting_mask = N.land s setting_mask.
Proof.
  intro H. unfold fromProtoSetting. destruct (s =? 0) eqn:Z; [apply N.eqb_eq in Z; subst s; reflexivity|].
  exact (setting_flags_roundtrip s H).
Qed.

(* and nothing else: a Setting written by the bridge has no bit outside the mask *)
Lemma setting_to_proto_masked sf : N.land (setting_to_proto sf) setting_mask = setting_to_proto sf.
Proof. destruct sf as [[] [] [] []]; vm_compute; reflexivity. Qed.
