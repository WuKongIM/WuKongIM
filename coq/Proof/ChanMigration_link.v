(* Proof/ChanMigration_link.v — the temporal clause of the monitor on the model's trace, and the
   link theorem: on every history of one-command batches the monitor, run on the model's own
   observations, returns 0, 2 (K1) or 3 (K2) — never 1 — and returns 0 when the history is
   disciplined: no Reset is issued against a task in a post-commit phase (accepted or not), and
   no Claim/Advance issued against one would change its phase or embedded flag. *)
From WK Require Import Base.Base.
From WK Require Import Gen.Consts_C15 Gen.Consts_C17 Model.RuntimeMeta Model.ChanMigration Model.ChanMigration_C17.
From WK Require Import Proof.RuntimeMeta Proof.ChanMigration Proof.ChanMigration_cmds Proof.ChanMigration_inv
                       Proof.ChanMigration_step Proof.ChanMigration_meta Proof.ChanMigration_trace
                       Proof.ChanMigration_monitor.
Open Scope N_scope.

Lemma post_phase_facts p :
  post_commit_phase p = true ->
  (p =? PhaseWriteFence) = false /\ (p =? PhaseWarmCatchUp) = false /\ (p =? PhaseCommitLeaderMeta) = false
  /\ (p =? PhaseAddLearner) = false /\ (p =? PhasePromoteAndRemove) = false.
Proof. intro H. destruct (post_commit_phase_cases _ H) as [-> | [-> | ->]]; repeat split; reflexivity. Qed.

Lemma setFence_keeps_post_phase t h :
  requireChannelMigrationSetFenceTransition t h = true -> post_commit_phase (t_phase t) = true ->
  tr_phase h = t_phase t.
Proof.
  intros R P. destruct (post_phase_facts _ P) as (F1 & F2 & _).
  unfold requireChannelMigrationSetFenceTransition in R. rewrite F1, F2 in R. cbn [andb orb] in R.
  destruct (negb (tr_status h =? StatusRunning)); [discriminate|].
  destruct (isLeaderTransferTaskKind (t_kind t)
            || (t_kind t =? KindReplicaReplace) && t_embedded_leader_transfer t && isLeaderTransferPhase (t_phase t)).
  - apply andb_prop in R. destruct R as [_ R]. apply N.eqb_eq in R. exact R.
  - destruct (t_kind t =? KindReplicaReplace); [|discriminate].
    apply andb_prop in R. destruct R as [_ R]. apply N.eqb_eq in R. exact R.
Qed.

(* an accepted clear-fence completes the task, or ends the embedded leg of a replica replacement *)
Lemma clearFence_transition t h completed :
  requireChannelMigrationClearFenceTransition t h completed = true ->
  tr_phase h = PhaseClearFence
  \/ ((t_kind t =? KindReplicaReplace) = true /\ t_embedded_leader_transfer t = true
      /\ (t_phase t =? PhaseVerifyNewLeader) = true /\ (tr_status h =? StatusRunning) = true
      /\ (tr_phase h =? PhaseAddLearner) = true).
Proof.
  unfold requireChannelMigrationClearFenceTransition.
  destruct (negb (isChannelMigrationFencePhaseAllowed t)); [discriminate|].
  destruct ((tr_status h =? StatusCompleted) && (tr_phase h =? PhaseClearFence) && (0 <? completed)%Z) eqn:C.
  - intros _. left. apply andb_prop in C. destruct C as [C _]. apply andb_prop in C. destruct C as [_ C].
    apply N.eqb_eq. exact C.
  - intro R. right. rewrite !andb_true_iff in R. destruct R as (((((K & E) & Pv) & St) & Pa) & _). repeat split; assumption.
Qed.

(* a task+meta command accepted on a task in a post-commit phase: it is the reset, or the task stays
   in a post-commit phase (and the command is not an abort), or it is the clear-fence that ends the
   embedded leader-transfer leg of a replica replacement *)
Lemma taskmeta_from_post c t m nt nm :
  mutate_task_meta c t m = Ok (nt, nm) -> post_commit_phase (t_phase t) = true ->
  is_reset c = true
  \/ (post_commit_phase (t_phase nt) = true /\ is_abort c = false
      /\ ((t_phase nt = t_phase t /\ t_embedded_leader_transfer nt = t_embedded_leader_transfer t)
          \/ t_phase nt = PhaseClearFence))
  \/ (is_embedded_leg_clear c = true /\ (t_kind t =? KindReplicaReplace) = true
      /\ t_embedded_leader_transfer t = true /\ (t_phase t =? PhaseVerifyNewLeader) = true
      /\ (t_phase nt =? PhaseAddLearner) = true /\ t_embedded_leader_transfer nt = false).
Proof.
  intros M P. destruct (post_phase_facts _ P) as (F1 & F2 & F3 & F4 & F5).
  destruct c; cbn [mutate_task_meta] in M; try discriminate.
  - right. left. destruct (mutSetFence_inv _ _ _ _ _ _ _ M) as (Tr & _ & -> & _).
    cbn [t_phase set_status_phase_updated]. rewrite (setFence_keeps_post_phase _ _ Tr P).
    split; [exact P|]. split; [reflexivity|]. left. split; reflexivity.
  - left. reflexivity.
  - exfalso. destruct (mutCommit_needs_proof _ _ _ _ _ _ _ _ _ M) as (_ & Ph & _).
    rewrite Ph in F3. discriminate.
  - exfalso. destruct (mutAddLearner_inv _ _ _ _ _ _ M) as (Tr & _).
    unfold requireChannelMigrationAddLearnerTransition in Tr. rewrite F4 in Tr.
    cbn [negb] in Tr. rewrite orb_true_r in Tr. discriminate Tr.
  - exfalso. destruct (mutPromote_needs_proof _ _ _ _ _ _ _ _ M) as (_ & Ph & _).
    rewrite Ph in F5. discriminate.
  - destruct (mutClear_inv _ _ _ _ _ _ M) as (Tr & [[-> _]|(_ & -> & _)]).
    + right. left. split; [exact P|]. split; [reflexivity|]. left. split; reflexivity.
    + cbv zeta. destruct (clearFence_transition _ _ _ Tr) as [Ph|(K & E & Pv & St & Pa)].
      * right. left.
        match goal with |- context [if ?cc then _ else _] => destruct cc end;
          cbn [t_phase set_embedded set_completed set_status_phase_updated]; rewrite Ph;
          (split; [reflexivity|split; [reflexivity|right; reflexivity]]).
      * right. right. rewrite K, E, Pv, St, Pa.
        cbn [andb is_embedded_leg_clear t_phase t_embedded_leader_transfer set_embedded set_completed
             set_status_phase_updated].
        rewrite St, Pa. repeat split; reflexivity.
  - exfalso. apply mutAbort_ok in M. destruct M as [_ M]. rewrite P in M. discriminate.
Qed.

(* [t] is in the embedded leader-transfer leg of a replica replacement, after its commit *)
Definition embedded_leg (t : task) : bool :=
  (t_kind t =? KindReplicaReplace) && t_embedded_leader_transfer t && (t_phase t =? PhaseVerifyNewLeader).

Definition accepted_on (d : db) (c : cmd) (k : tkey) : bool := accepted (snd (apply_one d c)) && cmd_targets c k.

(* Row [t] of key [k] is in a post-commit phase and is still there after the step, as [ct]: nothing
   happened to it; or an accepted Claim/Advance rewrote it; or the accepted command is a Reset; or an
   accepted task+meta command left it in a post-commit phase (same phase and embedded flag, or
   ClearFence); or the accepted clear-fence ended the embedded leg of a replica replacement. *)
Inductive post_step (d : db) (c : cmd) (k : tkey) (t ct : task) : Prop :=
| PS_same : ct = t -> post_step d c k t ct
| PS_adv : accepted_on d c k = true -> is_claim_advance c = true -> mutate_task c t = Ok ct -> post_step d c k t ct
| PS_reset : accepted_on d c k = true -> is_reset c = true -> post_step d c k t ct
| PS_stays : is_claim_advance c = false -> t_kind ct = t_kind t ->
    post_commit_phase (t_phase ct) = true ->
    (t_phase ct = t_phase t /\ t_embedded_leader_transfer ct = t_embedded_leader_transfer t)
    \/ t_phase ct = PhaseClearFence ->
    post_step d c k t ct
| PS_leg : accepted_on d c k = true -> is_embedded_leg_clear c = true ->
    embedded_leg t = true -> post_commit_phase (t_phase ct) = false -> post_step d c k t ct.

Lemma post_row_step d c k t ct :
  db_inv d -> task_get (db_tasks d) k = Some t -> post_commit_phase (t_phase t) = true ->
  task_get (db_tasks (fst (apply_one d c))) k = Some ct -> post_step d c k t ct.
Proof.
  intros I G P Gc. unfold accepted_on.
  destruct (accepted (snd (apply_one d c))) eqn:A;
    [|apply PS_same; rewrite (not_accepted_same d c A) in Gc; congruence].
  destruct (step_row_change d c _ k I (accepted_eq d c A))
    as [S|t0 _ _ Hn _|g t0 next Hg Hca Hk Hp _ Hu Hn|h t0 m nt nm Hh Hk Hp _ _ _ Hu _ Hn|b l t0 _ _ _ Hn];
    try congruence.
  - apply PS_same. congruence.
  - assert (t0 = t) by congruence. assert (next = ct) by congruence. subst t0 next.
    apply PS_adv; auto. unfold accepted_on. rewrite A. exact Hk.
  - assert (t0 = t) by congruence. assert (nt = ct) by congruence. subst t0 nt.
    assert (Tg : accepted_on d c k = true) by (unfold accepted_on; rewrite A; exact Hk).
    destruct (taskmeta_from_post _ _ _ _ _ Hu P) as [Rs|[(Pc & _ & Same)|(Lc & L1 & L2 & L3 & L4 & _)]].
    + apply PS_reset; assumption.
    + apply PS_stays; auto; [exact (trans_not_claim _ _ Hh)|].
      exact (proj1 (proj2 (mutate_task_meta_identity _ _ _ _ _ Hu))).
    + apply PS_leg; auto; [unfold embedded_leg; rewrite L1, L2, L3; reflexivity|].
      apply N.eqb_eq in L4. rewrite L4. reflexivity.
Qed.

Definition mark_ok (d : db) (k : tkey) (m : mark) : Prop :=
  mk_other m = false
  /\ (mk_post m = true -> mk_adv m = false -> mk_reset m = false ->
      exists t, task_get (db_tasks d) k = Some t /\ post_commit_phase (t_phase t) = true).

Definition mark_clean (m : mark) : Prop := mk_adv m = false /\ mk_reset m = false.

Lemma mark_zero_ok d k : mark_ok d k mark_zero.
Proof. split; [reflexivity|discriminate]. Qed.
Lemma mark_zero_clean : mark_clean mark_zero.
Proof. split; reflexivity. Qed.

Definition good (n : N) : Prop := n = 0 \/ n = 2 \/ n = 3.

Lemma abort_code_good d k m : mark_ok d k m -> good (abort_code m) \/
  (mk_post m = true /\ mk_adv m = false /\ mk_reset m = false).
Proof.
  intros [O _]. unfold abort_code, good. rewrite O.
  destruct (mk_post m); cbn [negb]; [|left; auto].
  destruct (mk_adv m); [left; auto|]. destruct (mk_reset m); [left; auto|]. right. auto.
Qed.

(* executor discipline for one command, whether or not the command is then accepted: it is not a
   Reset aimed at a task that is in a post-commit phase, and a Claim/Advance aimed at such a task
   keeps its phase and its embedded-transfer flag (the executor's own Claim / blockTask do).  The
   proofs use it for accepted commands only. *)
Definition disciplined (d : db) (c : cmd) : Prop :=
  forall k t, cmd_key c = Some k -> task_get (db_tasks d) k = Some t -> post_commit_phase (t_phase t) = true ->
    is_reset c = false
    /\ (forall next, is_claim_advance c = true -> mutate_task c t = Ok next ->
        t_phase next = t_phase t /\ t_embedded_leader_transfer next = t_embedded_leader_transfer t).

(* the body of [mark_step] (Model/ChanMigration_C17.v) with its seven booleans as parameters;
   [mark_step_as_fn] is the link *)
Definition mark_fn (pre_post cur_post has_adv has_reset aborted leg_done adv_moved : bool) (m0 : mark) : N * mark :=
  let m1 := if pre_post then Mark true (mk_adv m0) (mk_reset m0) (mk_other m0) else m0 in
  let leaving := pre_post && (negb cur_post || aborted || adv_moved) in
  let m2 := if leaving then
              if leg_done then mark_zero
              else Mark (mk_post m1) (mk_adv m1 || has_adv) (mk_reset m1 || has_reset)
                        (mk_other m1 || (negb has_adv && negb has_reset))
            else m1 in
  let code := if aborted then abort_code m2 else 0 in
  let m3 := if cur_post then Mark true (mk_adv m2) (mk_reset m2) (mk_other m2) else m2 in
  (code, m3).

Record mark_flags_facts (pre_post cur_post has_adv has_reset aborted leg_done adv_moved : bool) : Prop := {
  mf_cause : pre_post = true -> negb cur_post || aborted || adv_moved = true ->
             leg_done = true \/ has_adv = true \/ has_reset = true;
  mf_abort : aborted = true -> pre_post = false;
  mf_leg : leg_done = true -> cur_post = false /\ aborted = false /\ has_adv = false;
  mf_moved : adv_moved = true -> has_adv = true }.

(* The argument, by the phase of the row before the step.  Not post-commit: the mark is carried
   over, and an abort is blamed on Advance (2) or Reset (3): a mark that says "was post-commit"
   with neither flag set would need the row to be post-commit still (third hypothesis).  Post-commit: no abort happens now (mf_abort); if the row leaves
   the post-commit phases the embedded leg ended (the mark restarts) or an Advance / Reset did it
   (mf_cause), which is recorded, so [mk_other] stays unset. *)
Lemma mark_fn_good pre_post cur_post has_adv has_reset aborted leg_done adv_moved m0 :
  mark_flags_facts pre_post cur_post has_adv has_reset aborted leg_done adv_moved ->
  mk_other m0 = false ->
  (mk_post m0 = true -> mk_adv m0 = false -> mk_reset m0 = false -> pre_post = true) ->
  let r := mark_fn pre_post cur_post has_adv has_reset aborted leg_done adv_moved m0 in
  good (fst r) /\ mk_other (snd r) = false
  /\ (mk_post (snd r) = true -> mk_adv (snd r) = false -> mk_reset (snd r) = false -> cur_post = true).
Proof.
  intros [Fa Fb Fc Fm] O Pw. unfold mark_fn. destruct pre_post; cbn [andb fst snd].
  - assert (aborted = false) by (apply not_true_is_false; intro A; discriminate (Fb A)). subst aborted.
    split; [left; reflexivity|].
    destruct (negb cur_post || false || adv_moved) eqn:Lv.
    + destruct (Fa eq_refl eq_refl) as [Ld|Cause].
      * rewrite Ld. destruct (Fc Ld) as (-> & _). split; [reflexivity|discriminate].
      * assert (Rec : negb has_adv && negb has_reset = false
                      /\ forall a b, a || has_adv = false -> b || has_reset = false -> False).
        { destruct Cause as [-> | ->]; split; try reflexivity; try apply andb_false_r;
            intros a b Ha Hb; [rewrite orb_true_r in Ha|rewrite orb_true_r in Hb]; discriminate. }
        destruct Rec as [Ot Touched].
        destruct leg_done; [destruct (Fc eq_refl) as (-> & _); split; [reflexivity|discriminate]|].
        cbn [mk_post mk_adv mk_reset mk_other]. rewrite O, Ot.
        destruct cur_post; cbn [mk_post mk_adv mk_reset mk_other];
          (split; [reflexivity|intros _ Ha Hb; destruct (Touched _ _ Ha Hb)]).
    + apply orb_false_iff in Lv. destruct Lv as [Cp _]. apply orb_false_iff in Cp. destruct Cp as [Cp _].
      apply negb_false_iff in Cp. subst cur_post.
      cbn [mk_post mk_adv mk_reset mk_other]. split; [exact O|reflexivity].
  - assert (Np : mk_post m0 = true -> mk_adv m0 = false -> mk_reset m0 = false -> False)
      by (intros P A R; discriminate (Pw P A R)).
    split.
    + destruct aborted; [|left; reflexivity]. unfold abort_code, good. rewrite O.
      destruct (mk_post m0) eqn:P; cbn [negb]; [|auto].
      destruct (mk_adv m0) eqn:A; [auto|]. destruct (mk_reset m0) eqn:R; [auto|].
      destruct (Np eq_refl eq_refl eq_refl).
    + destruct cur_post; cbn [mk_post mk_adv mk_reset mk_other]; (split; [exact O|]); [reflexivity|].
      intros P A R. destruct (Np P A R).
Qed.

(* Under discipline a row leaves the post-commit phases only when the embedded leg ends, so the
   Advance / Reset flags are never set and no abort is ever charged. *)
Lemma mark_fn_disciplined pre_post cur_post has_adv has_reset aborted leg_done adv_moved m0 :
  mark_flags_facts pre_post cur_post has_adv has_reset aborted leg_done adv_moved ->
  (pre_post = true -> negb cur_post || aborted || adv_moved = true -> leg_done = true) ->
  (mk_post m0 = true -> mk_adv m0 = false -> mk_reset m0 = false -> pre_post = true) ->
  mark_clean m0 ->
  let r := mark_fn pre_post cur_post has_adv has_reset aborted leg_done adv_moved m0 in
  fst r = 0 /\ mark_clean (snd r).
Proof.
  intros [Fa Fb Fc Fm] Fd Pw [C1 C2]. unfold mark_fn, mark_clean. destruct pre_post; cbn [andb fst snd].
  - assert (aborted = false) by (apply not_true_is_false; intro A; discriminate (Fb A)). subst aborted.
    split; [reflexivity|].
    destruct (negb cur_post || false || adv_moved) eqn:Lv.
    + rewrite (Fd eq_refl eq_refl). destruct cur_post; split; reflexivity.
    + destruct cur_post; split; assumption.
  - split.
    + destruct aborted; [|reflexivity]. unfold abort_code.
      destruct (mk_post m0) eqn:P; [discriminate (Pw eq_refl C1 C2)|reflexivity].
    + destruct cur_post; split; assumption.
Qed.

Definition f_pre_post (d : db) (k : tkey) : bool :=
  match task_get (db_tasks d) k with Some t => post_commit_phase (t_phase t) | None => false end.
Definition f_adv (d : db) (c : cmd) (k : tkey) : bool := accepted_on d c k && is_claim_advance c.
Definition f_reset (d : db) (c : cmd) (k : tkey) : bool := accepted_on d c k && is_reset c.
Definition f_aborted (d : db) (c : cmd) (k : tkey) (ct : task) : bool :=
  accepted_on d c k && is_abort c && (t_status ct =? StatusAborted)
  && match task_get (db_tasks d) k with Some t => negb (t_status t =? StatusAborted) | None => true end.
Definition f_leg_done (d : db) (c : cmd) (k : tkey) (ct : task) : bool :=
  accepted_on d c k && is_embedded_leg_clear c
  && match task_get (db_tasks d) k with Some t => embedded_leg t | None => false end
  && negb (post_commit_phase (t_phase ct)).
Definition f_adv_moved (d : db) (c : cmd) (k : tkey) (ct : task) : bool :=
  f_adv d c k
  && match task_get (db_tasks d) k with
     | Some t => negb (t_phase t =? t_phase ct)
                 || negb (Bool.eqb (t_embedded_leader_transfer t) (t_embedded_leader_transfer ct))
     | None => false
     end.

Definition step_fn (d : db) (c : cmd) (k : tkey) (ct : task) : mark -> N * mark :=
  mark_fn (f_pre_post d k) (post_commit_phase (t_phase ct)) (f_adv d c k) (f_reset d c k)
          (f_aborted d c k ct) (f_leg_done d c k ct) (f_adv_moved d c k ct).

Definition mark_flags_at (d : db) (c : cmd) (k : tkey) (ct : task) : Prop :=
  mark_flags_facts (f_pre_post d k) (post_commit_phase (t_phase ct)) (f_adv d c k) (f_reset d c k)
             (f_aborted d c k ct) (f_leg_done d c k ct) (f_adv_moved d c k ct).

Definition step_tame_at (d : db) (c : cmd) (k : tkey) (ct : task) : Prop :=
  f_pre_post d k = true ->
  negb (post_commit_phase (t_phase ct)) || f_aborted d c k ct || f_adv_moved d c k ct = true ->
  f_leg_done d c k ct = true.

(* a post-commit row stops being one, or is moved by Claim/Advance: the embedded leg ended, or the
   accepted command is a Claim/Advance or a Reset; under discipline only the first *)
Lemma post_step_flags d c k t ct :
  task_get (db_tasks d) k = Some t -> post_commit_phase (t_phase t) = true -> post_step d c k t ct ->
  negb (post_commit_phase (t_phase ct)) || f_adv_moved d c k ct = true ->
  (f_leg_done d c k ct = true \/ f_adv d c k = true \/ f_reset d c k = true)
  /\ (disciplined d c -> f_leg_done d c k ct = true).
Proof.
  intros G P Ps. unfold f_leg_done, f_adv_moved, f_adv, f_reset. rewrite G.
  destruct Ps as [E|Hit Ca Mu|Hit Rs|Ca _ Pc _|Hit Lc Emb Pc]; intro Lv.
  - subst ct. rewrite P, N.eqb_refl, Bool.eqb_reflx, andb_false_r in Lv. discriminate.
  - rewrite Hit, Ca. split; [auto|]. intro Dz. exfalso.
    apply andb_prop in Hit. destruct Hit as [_ Tg].
    destruct (Dz k t (proj1 (cmd_targets_key _ _) Tg) G P) as [_ Dn]. destruct (Dn ct Ca Mu) as [D1 D2].
    rewrite D1, D2, P, N.eqb_refl, Bool.eqb_reflx, andb_false_r in Lv. discriminate.
  - rewrite Hit, Rs. split; [auto|]. intro Dz. exfalso.
    apply andb_prop in Hit. destruct Hit as [_ Tg].
    destruct (Dz k t (proj1 (cmd_targets_key _ _) Tg) G P) as [Dr _]. congruence.
  - rewrite Pc, Ca, andb_false_r in Lv. discriminate.
  - rewrite Hit, Lc, Emb, Pc. split; [left|]; reflexivity.
Qed.

Section MarkStep.
  Variable chs : list chan_key.
  Variable p : snap.
  Variable d : db.
  Variable c : cmd.
  Hypothesis Sh : shows chs p d.
  Hypothesis I : db_inv d.

  Local Notation d' := (fst (apply_one d c)).
  Local Notation x := (snd (apply_one d c)).
  Local Notation okc := (if accepted (snd (apply_one d c)) then [c] else []).
  Local Notation cur := (snap_of (obs_of chs (fst (apply_one d c)) (bres_of (snd (apply_one d c))))).

  Lemma mine_single (f : cmd -> bool) k : existsb f (filter (fun y => cmd_targets y k) okc) = accepted_on d c k && f c.
  Proof.
    unfold accepted_on. destruct (accepted x); [|reflexivity]. cbn [filter andb].
    destruct (cmd_targets c k); cbn [existsb andb]; [apply orb_false_r|reflexivity].
  Qed.

  Lemma mark_step_as_fn k m0 ct :
    task_get (db_tasks d') k = Some ct ->
    mark_step okc p cur k m0 = (fst (step_fn d c k ct m0), Some (snd (step_fn d c k ct m0))).
  Proof.
    intro G. unfold mark_step. unfold snap_task at 1. cbn [snap_of obs_of s_tasks o_tasks]. rewrite G.
    rewrite (snap_task_p chs p d Sh), !mine_single. reflexivity.
  Qed.

  Lemma mark_step_gone k m0 : task_get (db_tasks d') k = None -> mark_step okc p cur k m0 = (0, None).
  Proof.
    intro G. unfold mark_step. unfold snap_task at 1. cbn [snap_of obs_of s_tasks o_tasks]. rewrite G. reflexivity.
  Qed.

  Lemma post_not_addlearner ph : post_commit_phase ph = true -> (ph =? PhaseAddLearner) = false.
  Proof. intro H. apply (post_phase_facts _ H). Qed.

  (* The facts, for every row that is present after the step.  mf_moved and the first part of mf_leg
     are read off the flags; the rest of mf_leg holds because a command has one kind; mf_abort is
     [abort_not_accepted]; mf_cause, and what discipline adds, are [post_step_flags]. *)
  Lemma mark_flags_hold k ct :
    task_get (db_tasks d') k = Some ct ->
    mark_flags_at d c k ct /\ (disciplined d c -> step_tame_at d c k ct).
  Proof.
    intro Gc.
    assert (Moved : f_adv_moved d c k ct = true -> f_adv d c k = true)
      by (intro M; apply andb_prop in M; exact (proj1 M)).
    assert (Leg : f_leg_done d c k ct = true ->
                  post_commit_phase (t_phase ct) = false /\ f_aborted d c k ct = false /\ f_adv d c k = false).
    { unfold f_leg_done, f_aborted, f_adv. intro L. b2p.
      assert (K : is_abort c = false /\ is_claim_advance c = false) by (destruct c; try discriminate; auto).
      destruct K as [K1 K2]. rewrite K1, K2, !andb_false_r. auto. }
    unfold mark_flags_at, step_tame_at.
    destruct (task_get (db_tasks d) k) as [t|] eqn:G.
    2:{ unfold f_pre_post. rewrite G. split; [split|]; try discriminate; auto. }
    destruct (post_commit_phase (t_phase t)) eqn:P; unfold f_pre_post; rewrite G, P.
    2:{ split; [split|]; try discriminate; auto. }
    assert (NoAb : f_aborted d c k ct = false).
    { unfold f_aborted, accepted_on. destruct (accepted x) eqn:A; [|reflexivity].
      destruct (cmd_targets c k) eqn:Tg; [|reflexivity]. destruct (is_abort c) eqn:Ab; [|reflexivity].
      rewrite (abort_not_accepted d c k t G P Ab (proj1 (cmd_targets_key _ _) Tg)) in A. discriminate. }
    pose proof (post_step_flags d c k t ct G P (post_row_step d c k t ct I G P Gc)) as Lf.
    split; [split|]; auto.
    - intros _ Lv. rewrite NoAb, orb_false_r in Lv. exact (proj1 (Lf Lv)).
    - rewrite NoAb. discriminate.
    - intros Dz _ Lv. rewrite NoAb, orb_false_r in Lv. exact (proj2 (Lf Lv) Dz).
  Qed.
End MarkStep.

Lemma mark_step_per_key chs p d c k m0 :
  shows chs p d -> db_inv d -> mark_ok d k m0 ->
  let d' := fst (apply_one d c) in
  let okc := if accepted (snd (apply_one d c)) then [c] else [] in
  let cur := snap_of (obs_of chs d' (bres_of (snd (apply_one d c)))) in
  let r := mark_step okc p cur k m0 in
  good (fst r)
  /\ (forall m, snd r = Some m -> mark_ok d' k m)
  /\ (disciplined d c -> mark_clean m0 -> fst r = 0 /\ forall m, snd r = Some m -> mark_clean m).
Proof.
  intros Sh I [O Pw]. cbn zeta.
  destruct (task_get (db_tasks (fst (apply_one d c))) k) as [ct|] eqn:Gc.
  - rewrite (mark_step_as_fn chs p d c Sh k m0 ct Gc). cbn [fst snd].
    unfold step_fn. destruct (mark_flags_hold d c I k ct Gc) as [F Fd].
    assert (Pw' : mk_post m0 = true -> mk_adv m0 = false -> mk_reset m0 = false -> f_pre_post d k = true).
    { intros P1 P2 P3. destruct (Pw P1 P2 P3) as (t & G & Q). unfold f_pre_post. rewrite G. exact Q. }
    destruct (mark_fn_good _ _ _ _ _ _ _ m0 F O Pw') as (G1 & G2 & G3).
    split; [exact G1|]. split.
    + intros m Em. inversion Em; subst m. split; [exact G2|].
      intros P1 P2 P3. exists ct. split; [exact Gc|apply G3; assumption].
    + intros Dz Cl. destruct (mark_fn_disciplined _ _ _ _ _ _ _ m0 F (Fd Dz) Pw' Cl) as [Z Cz].
      split; [exact Z|]. intros m Em. inversion Em; subst m. exact Cz.
  - rewrite (mark_step_gone chs p d c k m0 Gc). cbn [fst snd].
    split; [left; reflexivity|]. split; [discriminate|]. intros _ _. split; [reflexivity|discriminate].
Qed.

Lemma assoc_get_snoc (l : marks) k m k' :
  assoc_get tkey_eqb (l ++ [(k, m)]) k' =
  match assoc_get tkey_eqb l k' with Some v => Some v | None => if tkey_eqb k k' then Some m else None end.
Proof.
  induction l as [|[k0 v0] l IH]; cbn [app assoc_get]; [reflexivity|].
  destruct (tkey_eqb k0 k'); [reflexivity|exact IH].
Qed.

Lemma good_combine a b : good a -> good b -> good (combine a b).
Proof.
  unfold good, combine. intros [A|[A|A]] [B|[B|B]]; subst; cbn [N.eqb orb Pos.eqb]; auto.
Qed.

Lemma zero_combine a b : a = 0 -> b = 0 -> combine a b = 0.
Proof. intros; subst; reflexivity. Qed.

Definition mark_of (ms : marks) (k : tkey) : mark :=
  match assoc_get tkey_eqb ms k with Some m => m | None => mark_zero end.

Lemma fold_left_ind {A B} (f : A -> B -> A) (P : A -> Prop) l :
  forall a, P a -> (forall a b, In b l -> P a -> P (f a b)) -> P (fold_left f l a).
Proof.
  induction l as [|x l IH]; intros a Pa Hf; cbn [fold_left]; [exact Pa|].
  apply IH; [apply Hf; [left; reflexivity|exact Pa]|]. intros a' b Hb. apply Hf. right. exact Hb.
Qed.

Lemma marks_step_fold (G : N -> Prop) (Pk : tkey -> mark -> Prop) okc p c ms :
  (forall a b, G a -> G b -> G (combine a b)) ->
  (forall t, In t (s_tasks c) ->
     G (fst (mark_step okc p c (task_key t) (mark_of ms (task_key t))))
     /\ forall m, snd (mark_step okc p c (task_key t) (mark_of ms (task_key t))) = Some m -> Pk (task_key t) m) ->
  G 0 ->
  G (fst (marks_step okc p c ms))
  /\ forall k m, assoc_get tkey_eqb (snd (marks_step okc p c ms)) k = Some m -> Pk k m.
Proof.
  intros Gc Hs G0. unfold marks_step.
  apply (fold_left_ind _ (fun acc => G (fst acc) /\ forall k m, assoc_get tkey_eqb (snd acc) k = Some m -> Pk k m)).
  - split; [exact G0|discriminate].
  - intros acc t It [Ga Pa]. destruct (Hs t It) as [H1 H2]. unfold mark_of in H1, H2. cbn zeta.
    destruct (mark_step okc p c (task_key t)
                match assoc_get tkey_eqb ms (task_key t) with Some m => m | None => mark_zero end) as [code om].
    cbn [fst snd] in H1, H2.
    destruct om as [m1|]; cbn [fst snd]; (split; [apply Gc; assumption|]); [|exact Pa].
    intros k m Hk. rewrite assoc_get_snoc in Hk.
    destruct (assoc_get tkey_eqb (snd acc) k) as [v|] eqn:Ea.
    + inversion Hk; subst. apply Pa. exact Ea.
    + destruct (tkey_eqb (task_key t) k) eqn:Ek; [|discriminate].
      apply tkey_eqb_eq in Ek. subst k. inversion Hk; subst. apply H2. reflexivity.
Qed.

Definition marks_inv (d : db) (ms : marks) : Prop := forall k, mark_ok d k (mark_of ms k).
Definition marks_clean (ms : marks) : Prop := forall k, mark_clean (mark_of ms k).

Record sim (chs : list chan_key) (d : db) (st : mstate) : Prop := {
  sim_shows : shows chs (ms_prev st) d;
  sim_inv : db_inv d;
  sim_norm : metas_normalized d;
  sim_taint : ms_taint st = [];
  sim_marks : marks_inv d (ms_marks st) }.

Lemma sim_init chs : sim chs db_empty mstate_init.
Proof.
  split; [apply shows_empty|apply db_inv_empty|intros ch m H; discriminate|reflexivity|].
  intro k. apply mark_zero_ok.
Qed.

Lemma mark_of_all (P : tkey -> mark -> Prop) ms :
  (forall k, P k mark_zero) -> (forall k m, assoc_get tkey_eqb ms k = Some m -> P k m) ->
  forall k, P k (mark_of ms k).
Proof. intros Z H k. unfold mark_of. destruct (assoc_get tkey_eqb ms k) eqn:E; [exact (H k _ E)|apply Z]. Qed.

Lemma fold_combine_six t : fold_left combine [0; 0; 0; 0; 0; 0; t] 0 = t.
Proof. cbn [fold_left]. change (combine 0 0) with 0. apply combine_zero_l. Qed.

Local Notation XX d c := (snd (apply_one d c)).
Local Notation DD d c := (fst (apply_one d c)).
Local Notation OKC d c := (if accepted (snd (apply_one d c)) then [c] else []).
Local Notation CUR chs d c := (snap_of (obs_of chs (fst (apply_one d c)) (bres_of (snd (apply_one d c))))).

Theorem mon_step_on_model chs d st c :
  sim chs d st -> covers chs c ->
  let o := obs_of chs (DD d c) (bres_of (XX d c)) in
  good (fst (mon_step st [c] o))
  /\ sim chs (DD d c) (snd (mon_step st [c] o))
  /\ (disciplined d c -> marks_clean (ms_marks st) ->
      fst (mon_step st [c] o) = 0 /\ marks_clean (ms_marks (snd (mon_step st [c] o)))).
Proof.
  intros [Sh I Nm Tn Mk] Cov. cbn zeta.
  unfold mon_step, mon_step_codes. cbn [o_res obs_of].
  rewrite ok_cmds_single.
  rewrite Tn.
  rewrite (single_active_step_zero chs [c] (OKC d c) (ms_prev st) (DD d c) (bres_of (XX d c)) (apply_one_fst_inv d c I)).
  destruct (marks_step (OKC d c) (ms_prev st) (CUR chs d c) (ms_marks st)) as [ct ms'] eqn:Ms.
  cbn [fst snd].
  destruct (state_clauses_hold chs (ms_prev st) d c Sh I Nm Cov) as (C1 & C2 & C3 & C4 & C5).
  cbn [andb negb orb]. rewrite C1, C2, C3, C4, C5. cbn [b2c]. rewrite fold_combine_six.
  pose proof (marks_step_fold good (mark_ok (DD d c)) (OKC d c) (ms_prev st) (CUR chs d c) (ms_marks st) good_combine) as Fg.
  rewrite Ms in Fg. cbn [fst snd] in Fg.
  destruct Fg as [Gt Mt].
  { intros t _. destruct (mark_step_per_key chs (ms_prev st) d c (task_key t) (mark_of (ms_marks st) (task_key t)) Sh I (Mk _))
      as (A1 & A2 & _). split; assumption. }
  { left. reflexivity. }
  split; [exact Gt|]. split.
  - split; cbn [ms_prev ms_marks ms_taint].
    + apply shows_obs.
    + exact (apply_one_fst_inv d c I).
    + exact (apply_one_fst_normalized d c Nm).
    + reflexivity.
    + exact (mark_of_all (mark_ok _) _ (mark_zero_ok _) Mt).
  - intros Dz Cl.
    pose proof (marks_step_fold (fun n => n = 0) (fun _ m => mark_clean m) (OKC d c) (ms_prev st)
                  (CUR chs d c) (ms_marks st) zero_combine) as Fz.
    rewrite Ms in Fz. cbn [fst snd] in Fz.
    destruct Fz as [Zt Ct].
    { intros t _. destruct (mark_step_per_key chs (ms_prev st) d c (task_key t) (mark_of (ms_marks st) (task_key t)) Sh I (Mk _))
        as (_ & _ & A3). destruct (A3 Dz (Cl _)) as [Z1 Z2]. split; assumption. }
    { reflexivity. }
    split; [exact Zt|]. exact (mark_of_all (fun _ => mark_clean) _ (fun _ => mark_zero_clean) Ct).
Qed.

Fixpoint history_disciplined (d : db) (cs : list cmd) : Prop :=
  match cs with
  | [] => True
  | c :: r => disciplined d c /\ history_disciplined (fst (apply_one d c)) r
  end.

Lemma mon_run_on_model chs cs : forall d st acc,
  sim chs d st -> Forall (covers chs) cs -> good acc ->
  good (mon_run st (model_trace chs d cs) acc)
  /\ (history_disciplined d cs -> marks_clean (ms_marks st) -> acc = 0 ->
      mon_run st (model_trace chs d cs) acc = 0).
Proof.
  induction cs as [|c r IH]; intros d st acc S Cv Ga; cbn [model_trace mon_run].
  - split; [exact Ga|]. intros _ _ Z. exact Z.
  - inversion Cv as [|? ? Cc Cr]; subst.
    destruct (mon_step_on_model chs d st c S Cc) as (G1 & S1 & D1).
    destruct (mon_step st [c] (obs_of chs (fst (apply_one d c)) (bres_of (snd (apply_one d c))))) as [code st'].
    cbn [fst snd] in G1, S1, D1.
    destruct (IH (fst (apply_one d c)) st' (combine acc code) S1 Cr (good_combine _ _ Ga G1)) as [H1 H2].
    split; [exact H1|].
    intros [Dc Dr] Cl Z. destruct (D1 Dc Cl) as [Z1 C1]. apply H2; [exact Dr|exact C1|].
    subst. reflexivity.
Qed.

(* THEOREM c17_model_satisfies_monitor: on the model's own observations of any history of one-command
   batches (from the empty database, over any channel alphabet that names the meta rows the commands
   read) the monitor returns 0, 2 (K1) or 3 (K2): never a violation, never K3 *)
Theorem model_satisfies_monitor chs cs :
  Forall (covers chs) cs ->
  good (C17_monitor_on (model_trace chs db_empty cs)).
Proof.
  intro Cv. unfold C17_monitor_on.
  apply (mon_run_on_model chs cs db_empty mstate_init 0 (sim_init chs) Cv). left. reflexivity.
Qed.
