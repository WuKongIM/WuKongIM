(* Proof/Presence_map.v — map instances and small list facts for Model/Presence.v *)
From WK Require Import Base.Base Gen.Consts_C33 Model.Presence Proof.AckTracker_map.
From Coq Require Import Permutation Sorted.
Open Scope N_scope.

Lemma ikey_eqb_spec : forall a b : ikey, ikey_eqb a b = true <-> a = b.
Proof.
  intros [[[a1 a2] a3] a4] [[[b1 b2] b3] b4]. unfold ikey_eqb.
  rewrite !andb_true_iff, !N.eqb_eq. split.
  - intros [[[H1 H2] H3] H4]. subst. reflexivity.
  - intro H. inversion H. auto.
Qed.

Lemma ikey_eq_dec (a b : ikey) : {a = b} + {a <> b}.
Proof. repeat decide equality. Qed.

Definition ikey_eqb_refl := al_eqb_refl ikey_eqb ikey_eqb_spec.

Lemma Neqb_spec : forall a b : N, N.eqb a b = true <-> a = b.
Proof. intros. apply N.eqb_eq. Qed.

Definition i_get_del_other {V} := @al_get_del_other ikey V ikey_eqb ikey_eqb_spec.
Definition i_get_set_same {V} := @al_get_set_same ikey V ikey_eqb ikey_eqb_spec.
Definition i_get_set_other {V} := @al_get_set_other ikey V ikey_eqb ikey_eqb_spec.
Definition i_get_none_iff {V} := @al_get_none_iff ikey V ikey_eqb ikey_eqb_spec.
Definition i_get_some_in {V} := @al_get_some_in ikey V ikey_eqb ikey_eqb_spec.
Definition i_get_some_key {V} := @al_get_some_key ikey V ikey_eqb ikey_eqb_spec.
Definition i_in_get {V} := @al_in_get ikey V ikey_eqb ikey_eqb_spec.
Definition i_keys_del {V} := @al_keys_del ikey V ikey_eqb ikey_eqb_spec.
Definition i_del_nodup {V} := @al_del_nodup ikey V ikey_eqb ikey_eqb_spec.
Definition i_set_nodup {V} := @al_set_nodup ikey V ikey_eqb ikey_eqb_spec.
Definition i_get_filter {V} := @al_get_filter ikey V ikey_eqb ikey_eqb_spec.
Definition i_get_del_same {V} := @al_get_del_same ikey V ikey_eqb.
Definition i_del_notin {V} := @al_del_notin ikey V ikey_eqb.
Definition n_get_del_other {V} := @al_get_del_other N V N.eqb Neqb_spec.
Definition n_get_set_same {V} := @al_get_set_same N V N.eqb Neqb_spec.
Definition n_get_set_other {V} := @al_get_set_other N V N.eqb Neqb_spec.
Definition n_get_none_iff {V} := @al_get_none_iff N V N.eqb Neqb_spec.
Definition n_get_some_in {V} := @al_get_some_in N V N.eqb Neqb_spec.
Definition n_in_get {V} := @al_in_get N V N.eqb Neqb_spec.
Definition n_del_nodup {V} := @al_del_nodup N V N.eqb Neqb_spec.
Definition n_set_nodup {V} := @al_set_nodup N V N.eqb Neqb_spec.
Definition n_get_del_same {V} := @al_get_del_same N V N.eqb.

Definition mem_key_in : forall k ks, mem_key k ks = true <-> In k ks := set_mem_in ikey_eqb ikey_eqb_spec.
Definition add_key_in : forall k ks x, In x (add_key k ks) <-> x = k \/ In x ks := set_add_in ikey_eqb ikey_eqb_spec.
Definition add_key_nodup : forall k ks, NoDup ks -> NoDup (add_key k ks) := set_add_nodup ikey_eqb ikey_eqb_spec.
Definition del_key_in : forall k ks x, In x (del_key k ks) <-> x <> k /\ In x ks := set_del_in ikey_eqb ikey_eqb_spec.

Lemma less_irrefl k : lessIdentityKey k k = false.
Proof. destruct k as [[[u n] b] s]. unfold lessIdentityKey. rewrite !N.eqb_refl. reflexivity. Qed.

(* the lexicographic order on (uid, session, node, boot) *)
Lemma less_spec (lu ln lb ls ru rn rb rs : N) :
  lessIdentityKey (lu, ln, lb, ls) (ru, rn, rb, rs) = true <->
  lu < ru \/ lu = ru /\ (ls < rs \/ ls = rs /\ (ln < rn \/ ln = rn /\ lb < rb)).
Proof.
  unfold lessIdentityKey.
  destruct (N.eqb_spec lu ru); [destruct (N.eqb_spec ls rs); [destruct (N.eqb_spec ln rn); [destruct (N.eqb_spec lb rb)|]|]|];
    cbn [negb]; rewrite ?N.ltb_lt; lia.
Qed.

Lemma less_trans a b c : lessIdentityKey a b = true -> lessIdentityKey b c = true -> lessIdentityKey a c = true.
Proof.
  destruct a as [[[au an] ab] as_], b as [[[bu bn] bb] bs], c as [[[cu cn] cb] cs]. rewrite !less_spec. lia.
Qed.

Lemma less_total a b : a <> b -> lessIdentityKey a b = true \/ lessIdentityKey b a = true.
Proof.
  destruct a as [[[au an] ab] as_], b as [[[bu bn] bb] bs]. intro H. rewrite !less_spec.
  destruct (N.eq_dec au bu), (N.eq_dec as_ bs), (N.eq_dec an bn), (N.eq_dec ab bb); try lia.
  subst. contradiction.
Qed.

Lemma insert_lt_perm {A} (lt : A -> A -> bool) x l : Permutation (insert_by lt x l) (x :: l).
Proof.
  induction l as [|y r IH]; simpl; [apply Permutation_refl|].
  destruct (lt x y); [apply Permutation_refl|].
  eapply Permutation_trans; [apply perm_skip; exact IH|]. apply perm_swap.
Qed.

Lemma sort_lt_perm {A} (lt : A -> A -> bool) l : Permutation (sort_by lt l) l.
Proof.
  induction l as [|x r IH]; simpl; [constructor|].
  eapply Permutation_trans; [apply insert_lt_perm|]. apply perm_skip. exact IH.
Qed.

Lemma sort_by_length {A} (lt : A -> A -> bool) l : length (sort_by lt l) = length l.
Proof. apply Permutation_length. apply sort_lt_perm. Qed.

Section SortKeys.
  Context {A : Type} (key : A -> ikey).
  Let lt (a b : A) := lessIdentityKey (key a) (key b).

  Lemma insert_lt_sorted x l :
    ~ In (key x) (map key l) ->
    StronglySorted (fun a b => lt a b = true) l ->
    StronglySorted (fun a b => lt a b = true) (insert_by lt x l).
  Proof.
    induction l as [|y r IH]; intros Hn HS; simpl.
    - constructor; [constructor|constructor].
    - inversion HS as [|? ? HS' HF]. subst.
      destruct (lt x y) eqn:E.
      + constructor; [exact HS|]. constructor; [exact E|].
        rewrite Forall_forall in *. intros z Hz. unfold lt in *. eapply less_trans; [exact E|apply HF; exact Hz].
      + constructor.
        * apply IH; [intro H; apply Hn; right; exact H|exact HS'].
        * assert (YX : lt y x = true).
          { unfold lt in *. destruct (less_total (key y) (key x)) as [H|H]; [|exact H|congruence].
            intro X. apply Hn. left. exact X. }
          rewrite Forall_forall in *. intros z Hz.
          eapply Permutation_in in Hz; [|apply insert_lt_perm]. destruct Hz as [Hz|Hz]; [subst; exact YX|apply HF; exact Hz].
  Qed.

  Lemma sort_lt_sorted l :
    NoDup (map key l) -> StronglySorted (fun a b => lt a b = true) (sort_by lt l).
  Proof.
    induction l as [|x r IH]; intro ND; simpl; [constructor|].
    inversion ND as [|? ? Hn ND']. subst. apply insert_lt_sorted; [|apply IH; exact ND'].
    intro H. apply Hn. eapply Permutation_in; [apply Permutation_map; apply sort_lt_perm|exact H].
  Qed.
End SortKeys.

Lemma strictly_sorted_of_strong ks :
  StronglySorted (fun a b => lessIdentityKey a b = true) ks -> strictly_sorted ks = true.
Proof.
  induction 1 as [|k r HS IH HF]; [reflexivity|].
  simpl. destruct r as [|k2 r']; [reflexivity|]. rewrite IH. inversion HF. subst. rewrite H1. reflexivity.
Qed.
