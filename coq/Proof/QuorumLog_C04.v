(* Proof/QuorumLog_C04.v — the owner model (Model/QuorumLog.v Install and Commit), for C04 and for the
   files that need to know how Install ends: the order on authority ids; install_run / install_shape
   (every way Install can end) and its consequences; owner_inv and answers_under for Commit; the
   simulation c04_rel between Monitor_C04 and the model; fuel sufficiency of round_loop.  Every statement
   quantifies over an arbitrary network [n] (arbitrary replica contents, down set and fault plan), i.e.
   over every outcome of recovery, repair, barrier and durability rounds. *)
From WK Require Import Base.Base.
From WK Require Import Model.ReplicaLog Model.QuorumLog Model.Cluster Model.Monitor_C04.
From WK Require Import Proof.ReplicaLog Proof.QuorumLog_Commit.
Open Scope N_scope.

(* the order of compareAuthorityID, as a proposition over the three components *)
Definition aid_lt (a b : authid) : Prop :=
  aid_e a < aid_e b \/ (aid_e a = aid_e b /\ (aid_t a < aid_t b \/ (aid_t a = aid_t b /\ aid_f a < aid_f b))).
Definition aid_le (a b : authid) : Prop := aid_lt a b \/ a = b.

Lemma aid_lt_irrefl a : ~ aid_lt a a.
Proof. unfold aid_lt. lia. Qed.

Lemma aid_lt_trans a b c : aid_lt a b -> aid_lt b c -> aid_lt a c.
Proof. unfold aid_lt. lia. Qed.

Lemma compareAuthorityID_spec (a b : authid) :
  CompareSpec (a = b) (aid_lt a b) (aid_lt b a) (compareAuthorityID a b).
Proof.
  unfold compareAuthorityID, aid_lt. destruct a as [[e t] f], b as [[e' t'] f']. unfold aid_e, aid_t, aid_f. cbn [fst snd].
  destruct (N.compare_spec e e'); [|constructor; lia ..].
  destruct (N.compare_spec t t'); [|constructor; lia ..].
  destruct (N.compare_spec f f'); constructor; [congruence | lia ..].
Qed.

Lemma compare_Lt (a b : authid) : compareAuthorityID a b = Lt <-> aid_lt a b.
Proof.
  destruct (compareAuthorityID_spec a b) as [-> | H | H]; split; try discriminate; try reflexivity; auto; intro H2.
  - destruct (aid_lt_irrefl _ H2).
  - destruct (aid_lt_irrefl _ (aid_lt_trans _ _ _ H H2)).
Qed.

Lemma compare_Eq (a b : authid) : compareAuthorityID a b = Eq <-> a = b.
Proof.
  destruct (compareAuthorityID_spec a b) as [-> | H | H]; split; try discriminate; try reflexivity; auto;
    intros ->; destruct (aid_lt_irrefl _ H).
Qed.

Lemma compare_Gt (a b : authid) : compareAuthorityID a b = Gt <-> aid_lt b a.
Proof.
  destruct (compareAuthorityID_spec a b) as [-> | H | H]; split; try discriminate; try reflexivity; auto; intro H2.
  - destruct (aid_lt_irrefl _ H2).
  - destruct (aid_lt_irrefl _ (aid_lt_trans _ _ _ H H2)).
Qed.

Lemma aid_le_refl a : aid_le a a.
Proof. right. reflexivity. Qed.

Lemma aid_le_trans a b c : aid_le a b -> aid_le b c -> aid_le a c.
Proof.
  intros [H1 | ->] [H2 | ->]; unfold aid_le; auto.
  left. eapply aid_lt_trans; eauto.
Qed.

Lemma aid_le_not_lt a b : aid_le a b -> ~ aid_lt b a.
Proof.
  intros [H | ->] H2; [| exact (aid_lt_irrefl _ H2)].
  exact (aid_lt_irrefl _ (aid_lt_trans _ _ _ H H2)).
Qed.

Lemma aid_le_antisym a b : aid_le a b -> aid_le b a -> a = b.
Proof.
  intros [H1 | ->] H2; [| reflexivity].
  exfalso. exact (aid_le_not_lt _ _ H2 H1).
Qed.

Lemma authid_ltb_spec a b : authid_ltb a b = true <-> aid_lt a b.
Proof.
  unfold authid_ltb. destruct (compareAuthorityID a b) eqn:E.
  - split; [discriminate|]. intro H. apply compare_Eq in E. subst. exfalso. exact (aid_lt_irrefl _ H).
  - apply compare_Lt in E. tauto.
  - split; [discriminate|]. intro H. apply compare_Gt in E. exfalso.
    exact (aid_lt_irrefl _ (aid_lt_trans _ _ _ H E)).
Qed.

(* the generated probes of the real compareAuthorityID agree with the lexicographic order *)
Lemma compare_probes_match_code :
  compareAuthorityID (2, 2, 2) (3, 1, 1) = Lt /\ cmp_epoch_lt_term_gt = (-1)%Z /\
  compareAuthorityID (2, 2, 2) (2, 3, 1) = Lt /\ cmp_term_lt_fence_gt = (-1)%Z /\
  compareAuthorityID (2, 2, 2) (2, 2, 1) = Gt /\ cmp_fence_gt = 1%Z /\
  compareAuthorityID (2, 2, 2) (2, 2, 2) = Eq /\ cmp_equal = 0%Z.
Proof. repeat split; reflexivity. Qed.

(* order on the installed authority of an owner; None (zero authority) is the bottom *)
Definition auth_le (x y : option authority) : Prop :=
  match x, y with
  | None, _ => True
  | Some a, Some b => aid_le (a_id a) (a_id b)
  | Some _, None => False
  end.

Lemma auth_le_refl x : auth_le x x.
Proof. destruct x; cbn; [apply aid_le_refl | exact I]. Qed.

(* ready owners hold an unfenced authority; pending / retained work exists only on
   ready owners, and every retained receipt was issued under the current authority *)
Definition owner_inv (st : qchannel) : Prop :=
  (qc_ready st = true -> exists a, qc_auth st = Some a /\ a_wf a = false) /\
  (qc_pending st <> None -> qc_ready st = true) /\
  (qc_retained st <> [] -> qc_ready st = true) /\
  (forall a, qc_auth st = Some a ->
     Forall (fun p => rc_auth (rt_receipt (snd p)) = a_id a) (qc_retained st)).

Lemma owner_inv_empty : owner_inv qchannel_empty.
Proof.
  split; [|split; [|split]]; cbn; intros; try discriminate; try congruence; constructor.
Qed.

Lemma owner_inv_fence a : owner_inv (fenceQuorumChannel a).
Proof.
  split; [|split; [|split]]; cbn; intros; try discriminate; try congruence; constructor.
Qed.

(* the three ways past the admission prefix, with the channel state the rest of Install runs under *)
Inductive install_base (st : qchannel) (a : authority) : qchannel -> Prop :=
| IB_same cur : qc_auth st = Some cur -> a_id a = a_id cur -> sameAuthority a cur = true -> qc_ready st = false ->
    install_base st a st
| IB_higher cur : qc_auth st = Some cur -> aid_lt (a_id cur) (a_id a) -> install_base st a (fenceQuorumChannel a)
| IB_first : qc_auth st = None -> install_base st a (fenceQuorumChannel a).

(* what Install does to the network once admission let it through: recover the quorum prefix, repair the
   local log to it, and write the barrier unless the log is empty or already ends under this authority *)
Definition install_run (cfg : qconfig) (n : net) (local : N) (a : authority) : net * (N + rstate) :=
  match recoverQuorumPrefix n local (a_voters a) (a_q a) with
  | inl e => (n, inl e)
  | inr sel =>
      match repairQuorumPrefix n local (a_voters a) (a_q a) sel (cf_pagebytes cfg) with
      | (n1, inl e) => (n1, inl e)
      | (n1, inr recovered) =>
          if negb (rstate_is_zero recovered) && negb (frontierUsesAuthority recovered (a_id a))
          then writeCurrentTermBarrier n1 a recovered (cf_rot cfg)
          else (n1, inr recovered)
      end
  end.

Inductive install_shape (cfg : qconfig) (local : N) (st : qchannel) (a : authority) (n : net)
  : net -> qchannel -> install_result -> Prop :=
| IS_invalid : install_shape cfg local st a n n st (IErr EInvalid)
| IS_stale cur : qc_auth st = Some cur -> aid_lt (a_id a) (a_id cur) -> install_shape cfg local st a n n st (IErr EStale)
| IS_conflict cur : qc_auth st = Some cur -> a_id a = a_id cur -> sameAuthority a cur = false ->
    install_shape cfg local st a n n st (IErr EConflict)
| IS_fenced_same cur : qc_auth st = Some cur -> a_id a = a_id cur -> sameAuthority a cur = true -> a_wf a = true ->
    install_shape cfg local st a n n st (IErr EFenced)
| IS_idempotent cur : qc_auth st = Some cur -> a_id a = a_id cur -> sameAuthority a cur = true -> a_wf a = false ->
    qc_ready st = true ->
    install_shape cfg local st a n n st (IOk (a_id cur) (rs_leo (qc_frontier st)) (qc_hw st))
(* from here on the channel runs under st1 = st (same authority, not ready) or the fenced channel *)
| IS_fenced_new st1 : install_base st a st1 -> a_wf a = true -> install_shape cfg local st a n n st1 (IErr EFenced)
| IS_failed st1 n' e : install_base st a st1 -> a_wf a = false -> install_run cfg n local a = (n', inl e) ->
    install_shape cfg local st a n n' st1 (IErr e)
| IS_ok st1 n' fr : install_base st a st1 -> a_wf a = false -> install_run cfg n local a = (n', inr fr) ->
    install_shape cfg local st a n n' (QChan (qc_auth st1) fr (rs_leo fr) true None [] [])
                  (IOk (a_id a) (rs_leo fr) (rs_leo fr)).

(* Install is its admission prefix followed, under the channel state st1 admission leaves, by this *)
Definition install_after (cfg : qconfig) (n : net) (local : N) (a : authority) (st1 : qchannel)
  : net * qchannel * install_result :=
  if a_wf a then (n, st1, IErr EFenced)
  else match install_run cfg n local a with
       | (n2, inl e) => (n2, st1, IErr e)
       | (n2, inr fr) => (n2, QChan (qc_auth st1) fr (rs_leo fr) true None [] [], IOk (a_id a) (rs_leo fr) (rs_leo fr))
       end.

Lemma Install_eq cfg n st local a :
  Install cfg n st local a =
  if negb (validAuthority a) || (cf_maxvoters <? lenN (a_voters a)) || negb (a_leader a =? local)
  then (n, st, IErr EInvalid)
  else match qc_auth st with
       | Some cur =>
           match compareAuthorityID (a_id a) (a_id cur) with
           | Lt => (n, st, IErr EStale)
           | Eq => if negb (sameAuthority a cur) then (n, st, IErr EConflict)
                   else if a_wf a then (n, st, IErr EFenced)
                   else if qc_ready st then (n, st, IOk (a_id cur) (rs_leo (qc_frontier st)) (qc_hw st))
                   else install_after cfg n local a st
           | Gt => install_after cfg n local a (fenceQuorumChannel a)
           end
       | None => install_after cfg n local a (fenceQuorumChannel a)
       end.
Proof.
  unfold Install, install_after, install_run. destruct (_ || _ || _); [reflexivity|].
  destruct st as [[cur|] fr hw rd pe re od]; cbn [qc_auth qc_ready qc_frontier qc_hw];
    [destruct (compareAuthorityID (a_id a) (a_id cur));
       [destruct (negb (sameAuthority a cur)); [reflexivity|]; destruct (a_wf a); [reflexivity|];
        destruct rd; [reflexivity|]
       | reflexivity |] |];
    (* the rest commutes with the case analysis on recovery, repair and barrier *)
    destruct (a_wf a); try reflexivity;
    destruct (recoverQuorumPrefix n local (a_voters a) (a_q a)); try reflexivity;
    destruct (repairQuorumPrefix _ _ _ _ _ _) as [n1 [e | recovered]]; try reflexivity;
    destruct (negb (rstate_is_zero recovered) && _); try reflexivity;
    destruct (writeCurrentTermBarrier n1 a recovered (cf_rot cfg)) as [n2 [e | bs]]; reflexivity.
Qed.

Lemma install_after_shape cfg n st local a st1 n' st' r :
  install_base st a st1 -> install_after cfg n local a st1 = (n', st', r) -> install_shape cfg local st a n n' st' r.
Proof.
  unfold install_after. intro Hb. destruct (a_wf a) eqn:Hwf; [intros [= <- <- <-]; eapply IS_fenced_new; eauto|].
  destruct (install_run cfg n local a) as [n2 [e | fr]] eqn:E; intros [= <- <- <-];
    [eapply IS_failed | eapply IS_ok]; eauto.
Qed.

Lemma Install_shape cfg n st local a n' st' r :
  Install cfg n st local a = (n', st', r) -> install_shape cfg local st a n n' st' r.
Proof.
  rewrite Install_eq. destruct (_ || _ || _); [intros [= <- <- <-]; constructor|].
  destruct (qc_auth st) as [cur |] eqn:Hauth; [|apply install_after_shape, IB_first; exact Hauth].
  destruct (compareAuthorityID_spec (a_id a) (a_id cur)) as [Hc | Hc | Hc].
  - destruct (sameAuthority a cur) eqn:Hs; cbn [negb]; [|intros [= <- <- <-]; eapply IS_conflict; eauto].
    destruct (a_wf a) eqn:Hwf; [intros [= <- <- <-]; eapply IS_fenced_same; eauto|].
    destruct (qc_ready st) eqn:Hr; [intros [= <- <- <-]; eapply IS_idempotent; eauto|].
    apply install_after_shape. eapply IB_same; eauto.
  - intros [= <- <- <-]. eapply IS_stale; eauto.
  - apply install_after_shape. eapply IB_higher; eauto.
Qed.

Lemma sameAuthority_wf a b : sameAuthority a b = true -> a_wf a = a_wf b.
Proof.
  unfold sameAuthority. rewrite !andb_true_iff. intros [[[[_ _] _] H] _].
  apply Bool.eqb_prop in H. exact H.
Qed.

Lemma install_base_auth st a st1 :
  install_base st a st1 -> exists b, qc_auth st1 = Some b /\ a_id b = a_id a /\ a_wf b = a_wf a /\
                                     auth_le (qc_auth st) (qc_auth st1) /\ qc_ready st1 = false /\
                                     (owner_inv st -> owner_inv st1).
Proof.
  intros H. destruct H as [cur Ha Hid Hs Hr | cur Ha Hlt | Ha].
  - exists cur. split; [exact Ha|]. split; [auto|].
    split; [symmetry; apply sameAuthority_wf; exact Hs|].
    split; [rewrite Ha; cbn; apply aid_le_refl|]. split; [exact Hr|]. auto.
  - exists a. cbn. split; [reflexivity|]. split; [reflexivity|]. split; [reflexivity|].
    split; [rewrite Ha; cbn; left; exact Hlt|]. split; [reflexivity|]. intros _. apply owner_inv_fence.
  - exists a. cbn. split; [reflexivity|]. split; [reflexivity|]. split; [reflexivity|].
    split; [rewrite Ha; exact I|]. split; [reflexivity|]. intros _. apply owner_inv_fence.
Qed.

Lemma Install_authority_monotone cfg n st local a n' st' r :
  Install cfg n st local a = (n', st', r) -> auth_le (qc_auth st) (qc_auth st').
Proof.
  intro H. apply Install_shape in H.
  destruct H; try apply auth_le_refl;
    match goal with Hb : install_base _ _ _ |- _ => destruct (install_base_auth _ _ _ Hb) as (b & Hb1 & _ & _ & Hle & _) end;
    try exact Hle.
Qed.

Lemma Install_older_rejected cfg n st local a cur n' st' r :
  qc_auth st = Some cur -> aid_lt (a_id a) (a_id cur) ->
  Install cfg n st local a = (n', st', r) ->
  n' = n /\ st' = st /\ (r = IErr EStale \/ r = IErr EInvalid).
Proof.
  intros Ha Hlt H. apply Install_shape in H.
  assert (Hno : a_id a <> a_id cur) by (intros E; rewrite E in Hlt; exact (aid_lt_irrefl _ Hlt)).
  (* admission lets no older authority through *)
  assert (Hb : forall st1, ~ install_base st a st1).
  { intros st1 Hb. destruct (install_base_auth _ _ _ Hb) as (b & Hb1 & Hb2 & _ & Hle & _).
    rewrite Ha, Hb1 in Hle. cbn in Hle. rewrite Hb2 in Hle. exact (aid_le_not_lt _ _ Hle Hlt). }
  destruct H as [ | c Hc _ | c Hc Hid _ | c Hc Hid _ _ | c Hc Hid _ _ _ | st1 B _ | st1 n' e B _ _ | st1 n' fr B _ _];
    auto; try (destruct (Hb _ B)); rewrite Ha in Hc; injection Hc as <-; contradiction.
Qed.

Lemma install_shape_ok cfg local st a n n' st' x leo hw :
  install_shape cfg local st a n n' st' (IOk x leo hw) ->
  (exists cur, qc_auth st = Some cur /\ a_id a = a_id cur /\ sameAuthority a cur = true /\ a_wf a = false /\
               qc_ready st = true /\ st' = st /\ n' = n /\ x = a_id cur) \/
  (exists st1 fr, install_base st a st1 /\ a_wf a = false /\ install_run cfg n local a = (n', inr fr) /\
                  st' = QChan (qc_auth st1) fr (rs_leo fr) true None [] [] /\ x = a_id a).
Proof.
  intro H. remember (IOk x leo hw) as r eqn:Hr.
  destruct H as [ | cur Ha Hlt | cur Ha Hid Hs | cur Ha Hid Hs Hwf | cur Ha Hid Hs Hwf Hrd
                  | st1 Hb Hwf | st1 n' e Hb Hwf Hrun | st1 n' fr Hb Hwf Hrun]; try discriminate; inversion Hr; subst.
  - left. exists cur. repeat (split; [assumption || reflexivity|]). reflexivity.
  - right. exists st1, fr. repeat (split; [assumption || reflexivity|]). reflexivity.
Qed.

Lemma install_shape_err cfg local st a n n' st' e :
  install_shape cfg local st a n n' st' (IErr e) ->
  (st' = st /\ n' = n /\
     (e = EInvalid \/
      (exists cur, qc_auth st = Some cur /\ aid_lt (a_id a) (a_id cur) /\ e = EStale) \/
      (exists cur, qc_auth st = Some cur /\ a_id a = a_id cur /\ sameAuthority a cur = false /\ e = EConflict) \/
      (exists cur, qc_auth st = Some cur /\ a_id a = a_id cur /\ sameAuthority a cur = true /\ a_wf a = true /\ e = EFenced))) \/
  (install_base st a st' /\ ((a_wf a = true /\ e = EFenced /\ n' = n) \/
                             (a_wf a = false /\ install_run cfg n local a = (n', inl e)))).
Proof.
  intro H. remember (IErr e) as r eqn:Hr.
  destruct H as [ | cur Ha Hlt | cur Ha Hid Hs | cur Ha Hid Hs Hwf | cur Ha Hid Hs Hwf Hrd
                  | st1 Hb Hwf | st1 n' e' Hb Hwf Hrun | st1 n' fr Hb Hwf Hrun]; try discriminate; inversion Hr; subst.
  - left. auto.
  - left. split; [reflexivity|]. split; [reflexivity|]. right. left. exists cur. auto.
  - left. split; [reflexivity|]. split; [reflexivity|]. right. right. left. exists cur. auto.
  - left. split; [reflexivity|]. split; [reflexivity|]. right. right. right. exists cur. auto.
  - right. split; [assumption|]. left. auto.
  - right. split; [assumption|]. right. auto.
Qed.

Lemma Install_ok cfg n st local a n' st' x leo hw :
  Install cfg n st local a = (n', st', IOk x leo hw) ->
  x = a_id a /\ a_wf a = false /\ qc_ready st' = true /\
  (exists b, qc_auth st' = Some b /\ a_id b = a_id a /\ a_wf b = false) /\
  (forall cur, qc_auth st = Some cur -> aid_le (a_id cur) (a_id a)).
Proof.
  intro H. apply Install_shape in H. apply install_shape_ok in H.
  destruct H as [(cur & Ha & Hid & Hs & Hwf & Hrd & -> & -> & ->) | (st1 & fr & Hb & Hwf & _ & -> & ->)].
  - split; [symmetry; exact Hid|]. split; [exact Hwf|]. split; [exact Hrd|]. split.
    + exists cur. split; [exact Ha|]. split; [symmetry; exact Hid|].
      rewrite <- (sameAuthority_wf _ _ Hs). exact Hwf.
    + intros c Hc. rewrite Ha in Hc. inversion Hc; subst. rewrite Hid. apply aid_le_refl.
  - destruct (install_base_auth _ _ _ Hb) as (b & Hb1 & Hb2 & Hb3 & Hle & _ & _).
    split; [reflexivity|]. split; [exact Hwf|]. split; [reflexivity|]. split.
    + exists b. cbn. split; [exact Hb1|]. split; [exact Hb2|]. congruence.
    + intros c Hc. rewrite Hc, Hb1 in Hle. cbn in Hle. rewrite Hb2 in Hle. exact Hle.
Qed.

Lemma Install_fenced_fails cfg n st local a n' st' r :
  a_wf a = true -> Install cfg n st local a = (n', st', r) -> exists e, r = IErr e /\ n' = n.
Proof.
  intros Hwf H. apply Install_shape in H. destruct r as [e | x leo hw].
  - exists e. split; [reflexivity|]. apply install_shape_err in H.
    destruct H as [(_ & Hn & _) | (_ & [(_ & _ & Hn) | (Hf & _)])]; auto. congruence.
  - exfalso. apply install_shape_ok in H.
    destruct H as [(cur & _ & _ & _ & Hf & _) | (st1 & fr & _ & Hf & _)]; congruence.
Qed.

Lemma Install_preserves_inv cfg n st local a n' st' r :
  owner_inv st -> Install cfg n st local a = (n', st', r) -> owner_inv st'.
Proof.
  intros Hinv H. apply Install_shape in H. destruct r as [e | x leo hw].
  - apply install_shape_err in H. destruct H as [(-> & _) | (Hb & _)]; [exact Hinv|].
    destruct (install_base_auth _ _ _ Hb) as (b & _ & _ & _ & _ & _ & Hk). auto.
  - apply install_shape_ok in H.
    destruct H as [(cur & _ & _ & _ & _ & _ & -> & _) | (st1 & fr & Hb & Hwf & _ & -> & _)]; [exact Hinv|].
    destruct (install_base_auth _ _ _ Hb) as (b & Hb1 & Hb2 & Hb3 & _ & _ & _).
    split; [|split; [|split]]; cbn; intros; try discriminate; try congruence; try constructor.
    exists b. split; [exact Hb1|]. congruence.
Qed.

(* after a higher (or first) authority reached the admission step, the owner stays fenced
   under it even when recovery, repair or the barrier fails: not ready, authority = the new one *)
Lemma Install_failed_higher_fences cfg n st local a n' st' e :
  (forall cur, qc_auth st = Some cur -> aid_lt (a_id cur) (a_id a)) ->
  Install cfg n st local a = (n', st', IErr e) ->
  (st' = st /\ n' = n /\ e = EInvalid) \/ (qc_auth st' = Some a /\ qc_ready st' = false).
Proof.
  intros Hhi H. apply Install_shape in H. apply install_shape_err in H.
  destruct H as [(-> & -> & [-> | [(cur & Ha & Hlt & _) | [(cur & Ha & Hid & _) | (cur & Ha & Hid & _)]]]) | (Hb & _)].
  - left. auto.
  - exfalso. specialize (Hhi _ Ha). exact (aid_lt_irrefl _ (aid_lt_trans _ _ _ Hhi Hlt)).
  - exfalso. specialize (Hhi _ Ha). rewrite Hid in Hhi. exact (aid_lt_irrefl _ Hhi).
  - exfalso. specialize (Hhi _ Ha). rewrite Hid in Hhi. exact (aid_lt_irrefl _ Hhi).
  - right. destruct Hb as [cur Ha Hid _ _ | cur Ha Hlt | Ha]; cbn; auto.
    exfalso. specialize (Hhi _ Ha). rewrite Hid in Hhi. exact (aid_lt_irrefl _ Hhi).
Qed.

Lemma get_retained_In l c r : get_retained l c = Some r -> exists c', In (c', r) l.
Proof.
  induction l as [|[c' r'] l IH]; cbn; [discriminate|].
  destruct (tag_eqb c c').
  - intro H. inversion H; subst. exists c'. left. reflexivity.
  - intro H. destruct (IH H) as [c'' Hin]. exists c''. right. exact Hin.
Qed.

Lemma Forall_del {P : tag * retained -> Prop} l c : Forall P l -> Forall P (del_retained l c).
Proof.
  unfold del_retained. intro H. induction H; cbn; [constructor|].
  destruct (negb (tag_eqb (fst x) c)); [constructor|]; assumption.
Qed.

Lemma remember_fields cfg st r :
  qc_auth (remember cfg st r) = qc_auth st /\ qc_ready (remember cfg st r) = qc_ready st /\
  qc_pending (remember cfg st r) = qc_pending st /\ qc_frontier (remember cfg st r) = qc_frontier st /\
  qc_hw (remember cfg st r) = qc_hw st.
Proof.
  unfold remember. destruct (get_retained (qc_retained st) _); cbn.
  - repeat split.
  - destruct (lenN (qc_order st) =? cf_retained cfg); [destruct (qc_order st)|]; cbn; repeat split.
Qed.

Lemma remember_retained (P : tag * retained -> Prop) cfg st r :
  Forall P (qc_retained st) -> P (m_cmd (dp_manifest (rt_prop r)), r) ->
  Forall P (qc_retained (remember cfg st r)).
Proof.
  intros HF HP. unfold remember. destruct (get_retained (qc_retained st) _); cbn.
  - constructor; [exact HP|]. apply Forall_del. exact HF.
  - destruct (lenN (qc_order st) =? cf_retained cfg); [destruct (qc_order st)|]; cbn;
      constructor; try exact HP; try exact HF. apply Forall_del. exact HF.
Qed.

(* agreement of two owner states on everything admission looks at *)
Definition same_admission (st st' : qchannel) : Prop :=
  qc_auth st' = qc_auth st /\ qc_ready st' = qc_ready st.

Lemma same_admission_refl st : same_admission st st.
Proof. split; reflexivity. Qed.

(* the receipts a state can hand out all carry authority [x] *)
Definition retained_auth (x : authid) (st : qchannel) : Prop :=
  Forall (fun p => rc_auth (rt_receipt (snd p)) = x) (qc_retained st).

(* what every path of an admitted Commit has in common: admission still sees the same owner, and if
   the retained receipts carried authority [x] they still do, as does the receipt handed out *)
Definition answers_under (x : authid) (st st' : qchannel) (out : commit_result) : Prop :=
  same_admission st st' /\
  (retained_auth x st -> retained_auth x st' /\ forall rc, out = COk rc -> rc_auth rc = x).

Lemma answers_err x st e : answers_under x st st (CErr e).
Proof. split; [apply same_admission_refl|]. intro HF. split; [exact HF | discriminate]. Qed.

Lemma finishCommit_answers cfg st a r res st' out :
  finishCommit cfg st a r res = (st', out) -> answers_under (a_id a) st st' out.
Proof.
  unfold finishCommit.
  destruct (negb (rr_local res) || (rr_votes res <? a_q a) || negb (outcome_durable (rr_outcome res)));
    [intros [= <- <-]; apply answers_err|].
  destruct (SealProposalManifest (dp_manifest (rt_prop r)) (dp_records (rt_prop r))) as [[m es]|];
    [|intros [= <- <-]; apply answers_err].
  intros [= <- <-].
  match goal with |- context[remember cfg ?s ?x] => destruct (remember_fields cfg s x) as (Ha & Hr & _) end.
  split; [split; [rewrite Ha | rewrite Hr]; reflexivity|].
  intro HF. split; [apply remember_retained; [exact HF | reflexivity] | intros rc [= <-]; reflexivity].
Qed.

Lemma retryPending_answers cfg n st a local r n' st' out :
  retryPending cfg n st a local r = (n', st', out) -> answers_under (a_id a) st st' out.
Proof.
  unfold retryPending.
  destruct (runDurableRound n local (a_voters a) (a_q a) (cf_rot cfg) (rt_prop r)) as [n1 res].
  destruct (negb (rr_ok res)); [intros [= _ <- <-]; apply answers_err|].
  destruct (finishCommit cfg st a r res) as [st2 out2] eqn:Hf. intros [= _ <- <-].
  exact (finishCommit_answers _ _ _ _ _ _ _ Hf).
Qed.

Lemma loadRetainedProposal_auth cfg n st a local c r :
  loadRetainedProposal cfg n st a local c = inr (Some r) -> rc_auth (rt_receipt r) = a_id a.
Proof.
  unfold loadRetainedProposal.
  destruct (lookupCommand (nt_kind n) (net_rep n local) c (cf_maxrecs cfg)) as [e | [[m recs] |]]; try discriminate.
  destruct (_ || _ || _ || _ || _ || _); try discriminate.
  destruct (SealProposalManifest m recs) as [[sealed es]|]; try discriminate.
  destruct (negb (manifest_eqb sealed m) || (lenN es =? 0)); try discriminate.
  intros [= <-]. reflexivity.
Qed.

Lemma reconcile_answers cfg n st a local p st' out :
  reconcileCommandConflict cfg n st a local p = (st', out) -> answers_under (a_id a) st st' out.
Proof.
  unfold reconcileCommandConflict.
  destruct (loadRetainedProposal cfg n st a local (pr_cmd p)) as [e | [loaded |]] eqn:Hl;
    try (intros [= <- <-]; apply answers_err).
  destruct (negb (sameProposalContent (rt_prop loaded) (pr_records p))); intros [= <- <-]; [apply answers_err|].
  destruct (remember_fields cfg st loaded) as (Ha & Hr & _).
  pose proof (loadRetainedProposal_auth _ _ _ _ _ _ _ Hl) as Hau.
  split; [split; assumption|]. intro HF.
  split; [apply remember_retained; [exact HF | exact Hau] | intros rc [= <-]; exact Hau].
Qed.

Lemma Commit_admitted_answers cfg n st local p a n' st' r :
  commit_admitted cfg st a p -> commit_shape cfg n st local p a n' st' r ->
  answers_under (a_id a) st st' r /\ (qc_pending st' <> None -> qc_ready st' = true).
Proof.
  intros (_ & Hrd & _) H.
  (* the pending proposal is part of neither admission nor the retained receipts *)
  assert (Hans : answers_under (a_id a) st st' r).
  { destruct H as [ | rt Hget | | | | | | | | ]; try apply answers_err;
      try (eapply retryPending_answers; eassumption).
    - (* retained hit *)
      split; [apply same_admission_refl|]. intro HF. split; [exact HF|]. intros rc [= <-].
      destruct (get_retained_In _ _ _ Hget) as [c' Hin]. exact (proj1 (Forall_forall _ _) HF _ Hin).
    - (* round failed *) exact (answers_err (a_id a) st EQuorumUnavailable).
    - (* reconcile *)
      match goal with Hx : reconcileCommandConflict _ _ _ _ _ _ = _ |- _ => exact (reconcile_answers _ _ _ _ _ _ _ _ Hx) end.
    - (* finish *)
      match goal with Hx : finishCommit _ _ _ _ _ = _ |- _ => exact (finishCommit_answers _ _ _ _ _ _ _ Hx) end. }
  split; [exact Hans|]. intros _. rewrite (proj2 (proj1 Hans)). exact Hrd.
Qed.

Lemma Commit_keeps_admission cfg n st local p n' st' r :
  Commit cfg n st local p = (n', st', r) -> same_admission st st'.
Proof.
  intro H. apply Commit_cases in H. destruct H as [(_ & -> & _) | (a & Hadm & H)]; [apply same_admission_refl|].
  exact (proj1 (proj1 (Commit_admitted_answers _ _ _ _ _ _ _ _ _ Hadm H))).
Qed.

Lemma Commit_preserves_inv cfg n st local p n' st' r :
  owner_inv st -> Commit cfg n st local p = (n', st', r) -> owner_inv st'.
Proof.
  intros Hinv H. apply Commit_cases in H. destruct H as [(_ & -> & _) | (a & Hadm & H)]; [exact Hinv|].
  destruct (Commit_admitted_answers _ _ _ _ _ _ _ _ _ Hadm H) as (([Hsa Hsr] & Hk) & Hp).
  destruct Hadm as (_ & Hrd & Hau & _ & Hwf). destruct Hinv as (I1 & I2 & I3 & I4).
  destruct (Hk (I4 _ Hau)) as [HF _].
  split; [|split; [|split]].
  - intros _. exists a. rewrite Hsa. auto.
  - exact Hp.
  - intros _. rewrite Hsr. exact Hrd.
  - intros a0 Ha0. rewrite Hsa, Hau in Ha0. inversion Ha0; subst. exact HF.
Qed.

Lemma Commit_receipt_authority cfg n st local p n' st' rc :
  owner_inv st -> Commit cfg n st local p = (n', st', COk rc) ->
  qc_ready st = true /\ exists a, qc_auth st = Some a /\ a_wf a = false /\
                                  pr_expected p = a_id a /\ rc_auth rc = a_id a.
Proof.
  intros Hinv H. apply Commit_cases in H. destruct H as [(_ & _ & Hr) | (a & Hadm & H)].
  { destruct Hr as [Hr | [[_ Hr] | [(x & _ & _ & Hr) | (x & _ & _ & Hr)]]]; discriminate. }
  destruct (Commit_admitted_answers _ _ _ _ _ _ _ _ _ Hadm H) as ((_ & Hk) & _).
  destruct Hadm as (_ & Hrd & Hau & Hex & Hwf). apply authid_eqb_eq in Hex.
  split; [exact Hrd|]. exists a. repeat (split; [assumption|]).
  destruct Hinv as (_ & _ & _ & I4). destruct (Hk (I4 _ Hau)) as [_ Hrc]. apply Hrc. reflexivity.
Qed.

Lemma Commit_stale_rejected cfg n st local p a n' st' r :
  qc_auth st = Some a -> (pr_expected p <> a_id a \/ a_wf a = true \/ qc_ready st = false) ->
  Commit cfg n st local p = (n', st', r) ->
  n' = n /\ st' = st /\
  (r = CErr EInvalid \/ r = CErr ENotReady \/ r = CErr EStale \/ r = CErr EFenced).
Proof.
  intros Hau Hbad H. apply Commit_cases in H.
  destruct H as [(-> & -> & Hr) | (a' & (_ & Hrd & Hau' & Hex & Hwf) & _)].
  - split; [reflexivity|]. split; [reflexivity|].
    destruct Hr as [-> | [(_ & ->) | [(x & _ & _ & ->) | (x & _ & _ & ->)]]]; auto.
  - exfalso. apply authid_eqb_eq in Hex. rewrite Hau in Hau'. inversion Hau'; subst a'.
    destruct Hbad as [Hb | [Hb | Hb]]; congruence.
Qed.

Lemma c04_get_put l v s v' : c04_get (c04_put l v s) v' = if v' =? v then s else c04_get l v'.
Proof. apply (node_get_put _ c04_node_init c04_get c04_put); reflexivity. Qed.

Lemma get_owner_put l v s v' : get_owner (put_owner l v s) v' = if v' =? v then s else get_owner l v'.
Proof. apply (node_get_put _ qchannel_empty get_owner put_owner); reflexivity. Qed.

Lemma get_owner_init (vs : list N) v : get_owner (map (fun x => (x, qchannel_empty)) vs) v = qchannel_empty.
Proof. apply (node_get_init _ qchannel_empty get_owner); reflexivity. Qed.

Fixpoint model_trace (cfg : qconfig) (c : cluster) (ops : list qop) : list (qop * qres) :=
  match ops with
  | [] => []
  | op :: rest => let '(c', r) := q_step cfg c op in (op, r) :: model_trace cfg c' rest
  end.

(* monitor state of a node versus the model's owner of that node; [aid_le] and not equality because a
   higher Install that fails after admission raises the owner's authority but not the monitor's [hi] *)
Definition c04_rel (s : c04_node) (st : qchannel) : Prop :=
  owner_inv st /\
  (cn_hi s = None -> qc_ready st = false) /\
  (forall h, cn_hi s = Some h ->
     exists a, qc_auth st = Some a /\ aid_le h (a_id a) /\ (qc_ready st = true -> a_id a = h)) /\
  (cn_blocked s = true -> qc_ready st = false).

Lemma c04_rel_init : c04_rel c04_node_init qchannel_empty.
Proof.
  split; [apply owner_inv_empty|]. split; [reflexivity|]. split; [intros h Hh; discriminate | reflexivity].
Qed.

Lemma c04_rel_same s st st' :
  c04_rel s st -> owner_inv st' -> same_admission st st' -> c04_rel s st'.
Proof.
  intros (I & R1 & R2 & R3) I' [Ha Hr]. split; [exact I'|]. rewrite Hr, Ha. auto.
Qed.

(* an Install that failed, or did nothing, keeps the relation with the same [hi];
   [blocked] may be set when the answer was ErrWriteFenced *)
Lemma c04_rel_install_err cfg n st local a n' st' e s b :
  c04_rel s st -> Install cfg n st local a = (n', st', IErr e) ->
  (b = true -> cn_blocked s = true \/ e = EFenced) -> (b = false -> cn_blocked s = false) ->
  c04_rel (C04Node (cn_hi s) b) st'.
Proof.
  intros (I & R1 & R2 & R3) H Hb1 Hb2.
  pose proof (Install_preserves_inv _ _ _ _ _ _ _ _ I H) as I'.
  pose proof (Install_authority_monotone _ _ _ _ _ _ _ _ H) as Hmono.
  apply Install_shape in H. apply install_shape_err in H.
  destruct H as [(-> & _ & Hcase) | (Hbase & _)].
  - (* owner untouched *)
    split; [exact I|]. split; [exact R1|]. split; [exact R2|]. cbn. intro Hbt.
    destruct (Hb1 Hbt) as [Hbl | ->]; [auto|].
    destruct Hcase as [He | [(cur & _ & _ & He) | [(cur & _ & _ & _ & He) | (cur & Ha & _ & Hs & Hwf & _)]]];
      try discriminate.
    destruct (qc_ready st) eqn:Hrd; [|reflexivity].
    destruct I as (I1 & _). destruct (I1 Hrd) as (a0 & Ha0 & Hwf0).
    rewrite Ha in Ha0. inversion Ha0; subst a0. rewrite <- (sameAuthority_wf _ _ Hs) in Hwf0. congruence.
  - destruct (install_base_auth _ _ _ Hbase) as (b0 & Hb01 & Hb02 & Hb03 & Hle & Hnr & _).
    split; [exact I'|]. split; [intros _; exact Hnr|]. split; [|intros _; exact Hnr].
    cbn. intros h Hh. destruct (R2 _ Hh) as (a0 & Ha0 & Hle0 & _).
    exists b0. split; [exact Hb01|]. split; [|rewrite Hnr; discriminate].
    rewrite Ha0, Hb01 in Hle. cbn in Hle. eapply aid_le_trans; eauto.
Qed.

(* a successful Install moves the monitor's node to the new authority, which is not below [hi] *)
Lemma c04_rel_install_ok cfg n st local a n' st' x leo hw s :
  c04_rel s st -> Install cfg n st local a = (n', st', IOk x leo hw) ->
  x = a_id a /\ a_wf a = false /\
  match cn_hi s with Some h => authid_ltb (a_id a) h | None => false end = false /\
  c04_rel (C04Node (Some (a_id a)) false) st'.
Proof.
  intros (I & R1 & R2 & R3) HI.
  destruct (Install_ok _ _ _ _ _ _ _ _ _ _ HI) as (Hx & Hwf & Hrd & (b & Hb1 & Hb2 & Hb3) & Hle).
  split; [exact Hx|]. split; [exact Hwf|]. split.
  - destruct (cn_hi s) as [h|]; [|reflexivity]. destruct (R2 _ eq_refl) as (a0 & Ha0 & Hle0 & _).
    destruct (authid_ltb (a_id a) h) eqn:El; [|reflexivity]. apply authid_ltb_spec in El.
    destruct (aid_le_not_lt _ _ (aid_le_trans _ _ _ Hle0 (Hle _ Ha0)) El).
  - split; [eapply Install_preserves_inv; eauto|]. cbn. split; [discriminate|]. split; [|discriminate].
    intros h [= <-]. exists b. split; [exact Hb1|]. split; [rewrite Hb2; apply aid_le_refl | intros _; exact Hb2].
Qed.

(* a Commit leaves the relation alone, and a receipt is only issued where the monitor allows one *)
Lemma c04_rel_commit cfg n st local p n' st' r s :
  c04_rel s st -> Commit cfg n st local p = (n', st', r) ->
  c04_rel s st' /\
  forall rc, r = COk rc -> cn_blocked s = false /\ rc_auth rc = pr_expected p /\ cn_hi s = Some (rc_auth rc).
Proof.
  intros Hrel HC. pose proof Hrel as (I & R1 & R2 & R3).
  split; [eapply c04_rel_same; [exact Hrel | eapply Commit_preserves_inv; eauto | eapply Commit_keeps_admission; eauto]|].
  intros rc ->. destruct (Commit_receipt_authority _ _ _ _ _ _ _ _ I HC) as (Hrd & a & Ha & Hwf & Hex & Hrc).
  split; [destruct (cn_blocked s); [rewrite (R3 eq_refl) in Hrd; discriminate | reflexivity]|].
  split; [congruence|]. destruct (cn_hi s) as [h|]; [|rewrite (R1 eq_refl) in Hrd; discriminate].
  destruct (R2 _ eq_refl) as (a0 & Ha0 & _ & Heq). rewrite Ha in Ha0. injection Ha0 as <-. rewrite Hrc, (Heq Hrd). reflexivity.
Qed.

(* related maps stay related when one node's monitor state and owner are replaced by related ones *)
Lemma c04_rel_put ms owners node s st :
  (forall v, c04_rel (c04_get ms v) (get_owner owners v)) -> c04_rel s st ->
  forall v, c04_rel (c04_get (c04_put ms node s) v) (get_owner (put_owner owners node st) v).
Proof. intros Hrel H v. rewrite c04_get_put, get_owner_put. destruct (v =? node); [exact H | apply Hrel]. Qed.

Lemma c04_rel_put_owner ms owners node st :
  (forall v, c04_rel (c04_get ms v) (get_owner owners v)) -> c04_rel (c04_get ms node) st ->
  forall v, c04_rel (c04_get ms v) (get_owner (put_owner owners node st) v).
Proof.
  intros Hrel H v. rewrite get_owner_put. destruct (N.eqb_spec v node) as [-> | _]; [exact H | apply Hrel].
Qed.

Lemma c04_step_model cfg c op ms :
  (forall v, c04_rel (c04_get ms v) (get_owner (cl_owners c) v)) ->
  let '(c', r) := q_step cfg c op in
  exists ms', c04_step ms op r = Some ms' /\
              forall v, c04_rel (c04_get ms' v) (get_owner (cl_owners c') v).
Proof.
  intro Hrel. destruct op as [node aid wf q f | node expected cmd recs sa f | node | node | node | l fo fr th | node hw];
    cbn [q_step]; try (exists ms; split; [reflexivity | exact Hrel]).
  - destruct (Install cfg _ _ node _) as [[n' st'] [e | x leo hw]] eqn:HI; cbn [c04_step cl_owners].
    + destruct (e =? EFenced) eqn:He; eexists; (split; [reflexivity|]).
      * apply c04_rel_put; [exact Hrel|].
        apply (c04_rel_install_err _ _ _ _ _ _ _ _ _ true (Hrel node) HI); [right; apply N.eqb_eq; exact He | discriminate].
      * apply c04_rel_put_owner; [exact Hrel|]. pose proof (Hrel node) as Hn. destruct (c04_get ms node) as [hi b].
        apply (c04_rel_install_err _ _ _ _ _ _ _ _ (C04Node hi b) b Hn HI); auto.
    + destruct (c04_rel_install_ok _ _ _ _ _ _ _ _ _ _ _ (Hrel node) HI) as (-> & Hwf & Hhi & Hr).
      cbn [a_id a_wf] in Hwf, Hhi, Hr. subst wf. rewrite authid_eqb_refl, Hhi. cbn [negb orb].
      eexists. split; [reflexivity|]. apply c04_rel_put; assumption.
  - destruct (Commit cfg _ _ node _) as [[n' st'] r] eqn:HC; cbn [c04_step cl_owners].
    destruct (c04_rel_commit _ _ _ _ _ _ _ _ _ (Hrel node) HC) as [Hkeep Hrc].
    exists ms. split; [|apply c04_rel_put_owner; assumption].
    destruct r as [e | rc]; [reflexivity|]. destruct (Hrc rc eq_refl) as (Hb & Hex & Hh). cbn [pr_expected] in Hex.
    rewrite Hb, Hh, Hex, authid_eqb_refl. reflexivity.
  - eexists. split; [reflexivity|]. apply c04_rel_put; [exact Hrel | apply c04_rel_init].
  - destruct (RepairFollower cfg (cl_net c) l fo fr th) as [n' ok]. exists ms. split; [reflexivity | exact Hrel].
Qed.

Lemma c04_run_model cfg ops : forall c ms,
  (forall v, c04_rel (c04_get ms v) (get_owner (cl_owners c) v)) ->
  c04_run ms (model_trace cfg c ops) = true.
Proof.
  induction ops as [|op ops IH]; intros c ms Hrel; cbn; [reflexivity|].
  pose proof (c04_step_model cfg c op ms Hrel) as Hs.
  destruct (q_step cfg c op) as [c' r]. destruct Hs as (ms' & Hstep & Hrel').
  cbn. rewrite Hstep. apply IH. exact Hrel'.
Qed.

Lemma submit_all_length n local p vs : forall q n' q',
  submit_all n local p vs q = (n', q') -> length q' = (length q + length vs)%nat.
Proof.
  revert n. induction vs as [|v vs IH]; intros n q n' q' H; cbn in H.
  - inversion H; subst. cbn. lia.
  - destruct (submitReplica n local v p) as [n1 o]. apply IH in H. rewrite app_length in H. cbn in *. lia.
Qed.

(* with enough fuel for the completions still to be consumed, more fuel changes nothing *)
Lemma round_loop_fuel : forall f1 f2 n local wq p queue next ld votes out cf lf,
  (length queue + length next < f1)%nat -> (length queue + length next < f2)%nat ->
  round_loop f1 n local wq p queue next ld votes out cf lf =
  round_loop f2 n local wq p queue next ld votes out cf lf.
Proof.
  induction f1 as [|f1 IH]; intros f2 n local wq p queue next ld votes out cf lf H1 H2; [lia|].
  destruct f2 as [|f2]; [lia|]. cbn [round_loop].
  destruct queue as [|[isLocal o] queue']; [reflexivity|]. cbn [length] in H1, H2.
  destruct ((ld || outcome_durable o && isLocal) && (wq <=? (if outcome_durable o then votes + 1 else votes)));
    [reflexivity|].
  destruct (isLocal && negb (outcome_durable o)).
  - destruct (submit_all n local p next queue') as [n1 q1] eqn:Hs.
    apply submit_all_length in Hs. apply IH; cbn; lia.
  - destruct (negb lf && negb isLocal && negb (outcome_durable o)).
    + destruct next as [|v next'].
      * apply IH; cbn in *; lia.
      * destruct (submitReplica n local v p) as [n1 o1]. apply IH; rewrite app_length; cbn in *; lia.
    + apply IH; lia.
Qed.

(* runDurableRound with its own fuel equals the same loop with any larger fuel: the
   out-of-fuel branch of [round_loop] is never taken *)
Lemma runDurableRound_fuel_sufficient n local voters wq rot p k :
  runDurableRound n local voters wq rot p =
  (let fs := round_followers voters local rot in
   let '(n1, o1) := submitLocal n local p in
   let '(n2, queue) := submit_all n1 local p (firstn (N.to_nat (wq - 1)) fs) [(true, o1)] in
   round_loop (S (S (length voters)) + k) n2 local wq p queue (skipn (N.to_nat (wq - 1)) fs)
              false 0 ONotWritten false false).
Proof.
  unfold runDurableRound. cbv zeta.
  destruct (submitLocal n local p) as [n1 o1].
  destruct (submit_all n1 local p (firstn (N.to_nat (wq - 1)) (round_followers voters local rot)) [(true, o1)])
    as [n2 queue] eqn:Hs.
  apply submit_all_length in Hs. cbn [length] in Hs.
  pose proof (round_followers_length voters local rot) as Hl.
  pose proof (firstn_skipn (N.to_nat (wq - 1)) (round_followers voters local rot)) as Hfs.
  apply (f_equal (@length N)) in Hfs. rewrite app_length in Hfs.
  apply round_loop_fuel; lia.
Qed.
