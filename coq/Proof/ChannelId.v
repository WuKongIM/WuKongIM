(* Proof/ChannelId.v — lemmas about Model/ChannelId.v (person / command / agent
   channel ids).  Everything is over arbitrary byte lists; no length bound. *)
From WK Require Import Base.Base Base.Lists Model.Crc32 Gen.Consts_C35 Model.ChannelId.
Open Scope N_scope.

(* the generated constants have the shape the model relies on *)

Lemma person_separator_is_at : PersonSeparator = [at_sign].
Proof. reflexivity. Qed.

Lemma agent_separator_is_at : AgentSeparator = [at_sign].
Proof. reflexivity. Qed.

Lemma suffix_nonempty : CommandChannelSuffix <> [].
Proof. discriminate. Qed.

Lemma bytes_eqb_neq a b : a <> b -> bytes_eqb a b = false.
Proof. apply Lists.bytes_eqb_neq. Qed.

Lemma bytes_eqb_false a b : bytes_eqb a b = false -> a <> b.
Proof. apply Lists.bytes_eqb_neq. Qed.

Lemma bytes_compare_eq : forall a b, bytes_compare a b = Eq -> a = b.
Proof.
  induction a as [|x a IH]; destruct b as [|y b]; cbn [bytes_compare]; intro H;
    try reflexivity; try discriminate.
  destruct (x ?= y) eqn:E; try discriminate.
  apply N.compare_eq in E. subst. f_equal. apply IH. exact H.
Qed.

Lemma bytes_compare_antisym : forall a b, bytes_compare b a = CompOpp (bytes_compare a b).
Proof.
  induction a as [|x a IH]; destruct b as [|y b]; cbn [bytes_compare]; try reflexivity.
  rewrite (N.compare_antisym x y).
  destruct (x ?= y); cbn [CompOpp]; try reflexivity. apply IH.
Qed.

Lemma bytes_gtb_total a b : a <> b -> bytes_gtb a b = negb (bytes_gtb b a).
Proof.
  intro Hne. unfold bytes_gtb. rewrite (bytes_compare_antisym a b).
  destruct (bytes_compare a b) eqn:E; cbn [CompOpp negb]; try reflexivity.
  apply bytes_compare_eq in E. contradiction.
Qed.

Lemma bytes_gtb_asym a b : bytes_gtb a b = true -> bytes_gtb b a = false.
Proof.
  unfold bytes_gtb. rewrite (bytes_compare_antisym a b).
  destruct (bytes_compare a b); (discriminate || reflexivity).
Qed.

(* the order written: the uid with the larger CRC first; on a tie the larger string *)
Lemma encode_shape a b :
  exists x y, EncodePersonChannel a b = join x y
    /\ ((x = a /\ y = b) \/ (x = b /\ y = a))
    /\ (crc32_bitwise y < crc32_bitwise x
        \/ (crc32_bitwise y = crc32_bitwise x /\ bytes_gtb y x = false)).
Proof.
  unfold EncodePersonChannel, join. rewrite person_separator_is_at. cbv zeta.
  destruct (N.ltb_spec (crc32_bitwise b) (crc32_bitwise a)) as [L|L]; [exists a, b; repeat split; auto|].
  destruct (N.eqb_spec (crc32_bitwise a) (crc32_bitwise b)) as [E|E]; cbn [andb];
    [destruct (bytes_gtb a b) eqn:G|].
  - exists a, b. repeat split; auto using bytes_gtb_asym.
  - exists b, a. repeat split; auto.
  - exists b, a. repeat split; auto. left. lia.
Qed.

Lemma encode_cases a b :
  EncodePersonChannel a b = join a b \/ EncodePersonChannel a b = join b a.
Proof. destruct (encode_shape a b) as (x & y & E & [[-> ->]|[-> ->]] & _); auto. Qed.

Lemma encode_sym a b : EncodePersonChannel a b = EncodePersonChannel b a.
Proof.
  destruct (bytes_eq_dec a b) as [->|Hne]; [reflexivity|].
  unfold EncodePersonChannel. cbv zeta.
  set (ha := crc32_bitwise a). set (hb := crc32_bitwise b).
  destruct (N.ltb_spec hb ha), (N.ltb_spec ha hb), (N.eqb_spec ha hb), (N.eqb_spec hb ha);
    try lia; try reflexivity.
  cbn [andb]. rewrite (bytes_gtb_total a b Hne). destruct (bytes_gtb b a); reflexivity.
Qed.

Lemma split_on_nonnil sep s : split_on sep s <> [].
Proof.
  destruct s as [|c r]; cbn [split_on]; [discriminate|].
  destruct (c =? sep); [discriminate|]. destruct (split_on sep r); discriminate.
Qed.

Lemma contains_cons sep c r : contains sep (c :: r) = (sep =? c) || contains sep r.
Proof. reflexivity. Qed.

Lemma split_on_clean sep : forall s, contains sep s = false -> split_on sep s = [s].
Proof.
  induction s as [|c r IH]; intro H; [reflexivity|].
  rewrite contains_cons in H. apply orb_false_iff in H. destruct H as [Hc Hr].
  cbn [split_on]. rewrite N.eqb_sym, Hc. rewrite (IH Hr). reflexivity.
Qed.

Lemma split_on_join sep : forall l r,
  split_on sep (l ++ sep :: r) = split_on sep l ++ split_on sep r.
Proof.
  induction l as [|c l IH]; intro r; cbn [app split_on]; [rewrite N.eqb_refl; reflexivity|].
  rewrite IH. destruct (c =? sep); [reflexivity|].
  destruct (split_on sep l) eqn:S; [destruct (split_on_nonnil sep l S)|reflexivity].
Qed.

Lemma split_on_singleton_inv sep : forall s p, split_on sep s = [p] -> s = p /\ contains sep s = false.
Proof.
  induction s as [|c r IH]; intros p H.
  - cbn [split_on] in H. inversion H. split; reflexivity.
  - cbn [split_on] in H. destruct (c =? sep) eqn:E.
    + inversion H as [[H0 H1]]. exfalso. exact (split_on_nonnil sep r H1).
    + destruct (split_on sep r) as [|q qs] eqn:S; [exfalso; exact (split_on_nonnil sep r S)|].
      inversion H as [[H0 H1]]. subst qs. destruct (IH q eq_refl) as [Hr Hc].
      split; [rewrite Hr; reflexivity|].
      rewrite contains_cons, N.eqb_sym, E, Hc. reflexivity.
Qed.

Lemma split_on_pair_inv sep : forall s p0 p1, split_on sep s = [p0; p1] ->
  s = p0 ++ sep :: p1 /\ contains sep p0 = false /\ contains sep p1 = false.
Proof.
  induction s as [|c r IH]; intros p0 p1 H.
  - cbn [split_on] in H. discriminate.
  - cbn [split_on] in H. destruct (c =? sep) eqn:E.
    + inversion H as [[H0 H1]]. apply split_on_singleton_inv in H1. destruct H1 as [Hr Hc].
      apply N.eqb_eq in E. subst. split; [reflexivity|]. split; [reflexivity|exact Hc].
    + destruct (split_on sep r) as [|q qs] eqn:S; [discriminate|].
      inversion H as [[H0 H1]]. subst qs. destruct (IH q p1 eq_refl) as [Hr [Hq Hp1]].
      split; [rewrite Hr; reflexivity|]. split; [|exact Hp1].
      rewrite contains_cons, N.eqb_sym, E, Hq. reflexivity.
Qed.

Lemma clean_spec u : clean u = true <-> u <> [] /\ contains at_sign u = false.
Proof.
  unfold clean. rewrite andb_true_iff, !negb_true_iff. split; intros [H1 H2]; split; try exact H2.
  - intro E. subst. discriminate.
  - destruct u; [contradiction|reflexivity].
Qed.

Lemma is_nil_false u : is_nil u = false <-> u <> [].
Proof. destruct u; split; intro H; try reflexivity; try discriminate; contradiction. Qed.

Lemma decode_spec c p0 p1 :
  DecodePersonChannel c = Some (p0, p1) <->
  c = join p0 p1 /\ clean p0 = true /\ clean p1 = true.
Proof.
  unfold DecodePersonChannel, join. split.
  - intro H. destruct (split_on at_sign c) as [|q0 [|q1 [|q2 qs]]] eqn:S; try discriminate.
    destruct (is_nil q0) eqn:N0; cbn [orb] in H; [discriminate|].
    destruct (is_nil q1) eqn:N1; [discriminate|]. inversion H. subst q0 q1.
    apply split_on_pair_inv in S. destruct S as [Hc [H0 H1]].
    split; [exact Hc|]. split; apply clean_spec; split; try assumption; apply is_nil_false; assumption.
  - intros [Hc [H0 H1]]. apply clean_spec in H0. apply clean_spec in H1.
    destruct H0 as [N0 C0]. destruct H1 as [N1 C1].
    subst c. rewrite split_on_join, (split_on_clean _ _ C0), (split_on_clean _ _ C1). cbn [app].
    apply is_nil_false in N0. apply is_nil_false in N1. rewrite N0, N1. reflexivity.
Qed.

Lemma split_on_length_gt1 sep s : contains sep s = true ->
  exists p q qs, split_on sep s = p :: q :: qs.
Proof.
  intro C. destruct (split_on sep s) as [|p [|q qs]] eqn:S; [destruct (split_on_nonnil _ _ S)| |eauto].
  apply split_on_singleton_inv in S. destruct S as [_ C']. congruence.
Qed.

(* l@r splits into the parts of l followed by the parts of r: two parts exactly when neither
   contains "@" *)
Lemma decode_join l r :
  DecodePersonChannel (join l r) = if clean l && clean r then Some (l, r) else None.
Proof.
  unfold DecodePersonChannel, join, clean. rewrite split_on_join.
  destruct (contains at_sign l) eqn:Cl.
  - destruct (split_on_length_gt1 _ _ Cl) as (p & q & qs & ->).
    cbn [negb]. rewrite andb_false_r. cbn [andb app].
    destruct (split_on at_sign r) eqn:Sr; [destruct (split_on_nonnil _ _ Sr)|]. destruct qs; reflexivity.
  - rewrite (split_on_clean _ _ Cl). cbn [app]. destruct (contains at_sign r) eqn:Cr.
    + destruct (split_on_length_gt1 _ _ Cr) as (p & q & qs & ->).
      cbn [negb]. rewrite !andb_false_r. reflexivity.
    + rewrite (split_on_clean _ _ Cr). destruct (is_nil l), (is_nil r); reflexivity.
Qed.

Lemma decode_join_inv l r p0 p1 :
  DecodePersonChannel (join l r) = Some (p0, p1) ->
  p0 = l /\ p1 = r /\ clean l = true /\ clean r = true.
Proof.
  rewrite decode_join. destruct (clean l), (clean r); try discriminate. intro H. inversion H. auto.
Qed.

Lemma decode_encode_unclean a b : clean a && clean b = false ->
  DecodePersonChannel (EncodePersonChannel a b) = None.
Proof.
  intro H. destruct (encode_cases a b) as [E|E]; rewrite E, decode_join, ?(andb_comm (clean b)), H;
    reflexivity.
Qed.

Lemma contains_join l r : contains at_sign (join l r) = true.
Proof. unfold join, contains. rewrite existsb_app. cbn [existsb]. rewrite N.eqb_refl. apply orb_true_r. Qed.

Lemma normalize_plain s c : s <> [] -> c <> [] -> contains at_sign c = false ->
  NormalizePersonChannel s c = Some (EncodePersonChannel s c).
Proof.
  intros Ns Nc Cc. apply is_nil_false in Ns, Nc.
  unfold NormalizePersonChannel. rewrite Ns, Nc, Cc. reflexivity.
Qed.

Lemma normalize_joined s l r : s <> [] -> clean l = true -> clean r = true -> l = s \/ r = s ->
  NormalizePersonChannel s (join l r) = Some (EncodePersonChannel l r).
Proof.
  intros Ns Hl Hr Hs. apply is_nil_false in Ns.
  unfold NormalizePersonChannel. rewrite Ns, contains_join, decode_join, Hl, Hr.
  replace (is_nil (join l r)) with false by (destruct l; reflexivity). cbn [orb negb andb].
  destruct Hs as [->| ->]; rewrite bytes_eqb_refl; [|rewrite andb_false_r]; reflexivity.
Qed.

Lemma normalize_spec s c r :
  NormalizePersonChannel s c = Some r <->
  s <> [] /\ c <> [] /\
  ((contains at_sign c = false /\ r = EncodePersonChannel s c)
   \/ (exists l r', c = join l r' /\ clean l = true /\ clean r' = true
                    /\ (l = s \/ r' = s) /\ r = EncodePersonChannel l r')).
Proof.
  split.
  - unfold NormalizePersonChannel. intro H. destruct (is_nil s) eqn:Ns; cbn [orb] in H; [discriminate|].
    destruct (is_nil c) eqn:Nc; [discriminate|].
    apply is_nil_false in Ns. apply is_nil_false in Nc.
    split; [exact Ns|]. split; [exact Nc|].
    destruct (contains at_sign c) eqn:Cc; cbn [negb] in H.
    + right. destruct (DecodePersonChannel c) as [[l r']|] eqn:D; [|discriminate].
      apply decode_spec in D. destruct D as [Hc [Hl Hr]]. exists l, r'.
      destruct (bytes_eqb l s) eqn:E1; cbn [negb andb] in H.
      * apply bytes_eqb_eq in E1. inversion H. auto 6.
      * destruct (bytes_eqb r' s) eqn:E2; cbn [negb] in H; [|discriminate].
        apply bytes_eqb_eq in E2. inversion H. auto 6.
    + left. inversion H. split; reflexivity.
  - intros (Ns & Nc & [[Cc ->]|(l & r' & -> & Hl & Hr' & Hs & ->)]);
      [apply normalize_plain|apply normalize_joined]; assumption.
Qed.

Lemma normalize_sender_belongs s c r :
  NormalizePersonChannel s c = Some r ->
  s <> [] /\ exists o, r = EncodePersonChannel s o /\ (r = join s o \/ r = join o s).
Proof.
  intro H. apply normalize_spec in H. destruct H as [Ns [_ H]]. split; [exact Ns|].
  destruct H as [[_ Hr]|[l [r' [_ [_ [_ [Hs Hr]]]]]]].
  - exists c. split; [exact Hr|]. subst r. apply encode_cases.
  - destruct Hs as [Hs|Hs]; subst.
    + exists r'. split; [reflexivity|]. apply encode_cases.
    + exists l. split; [apply encode_sym|]. rewrite encode_sym. apply encode_cases.
Qed.

Lemma normalize_rejects_foreign s c l r' :
  DecodePersonChannel c = Some (l, r') -> l <> s -> r' <> s ->
  NormalizePersonChannel s c = None.
Proof.
  intros D H1 H2. destruct (proj1 (decode_spec _ _ _) D) as [-> _].
  unfold NormalizePersonChannel.
  rewrite contains_join, D, (bytes_eqb_neq _ _ H1), (bytes_eqb_neq _ _ H2).
  destruct (is_nil s || is_nil (join l r')); reflexivity.
Qed.

Lemma normalize_rejects_undecodable s c :
  contains at_sign c = true -> DecodePersonChannel c = None -> NormalizePersonChannel s c = None.
Proof.
  intros Cc D. unfold NormalizePersonChannel. rewrite Cc, D. cbn [negb].
  destruct (is_nil s || is_nil c); reflexivity.
Qed.

Lemma contains_encode a b : contains at_sign (EncodePersonChannel a b) = true.
Proof. destruct (encode_cases a b) as [E|E]; rewrite E; apply contains_join. Qed.

Lemma normalize_canonical a b : clean a = true -> clean b = true ->
  NormalizePersonChannel a b = Some (EncodePersonChannel a b)
  /\ NormalizePersonChannel b a = Some (EncodePersonChannel a b)
  /\ NormalizePersonChannel a (EncodePersonChannel a b) = Some (EncodePersonChannel a b)
  /\ NormalizePersonChannel b (EncodePersonChannel a b) = Some (EncodePersonChannel a b).
Proof.
  intros Ha Hb.
  destruct (proj1 (clean_spec a) Ha) as [Na Ca], (proj1 (clean_spec b) Hb) as [Nb Cb].
  assert (J : forall s, s <> [] -> a = s \/ b = s ->
              NormalizePersonChannel s (EncodePersonChannel a b) = Some (EncodePersonChannel a b)).
  { intros s Ns Hs. destruct (encode_cases a b) as [E|E]; rewrite E at 1.
    - apply normalize_joined; assumption.
    - rewrite (encode_sym a b). apply normalize_joined; tauto. }
  repeat split; [apply normalize_plain|rewrite (encode_sym a b); apply normalize_plain|apply J|apply J]; auto.
Qed.

Lemma normalize_idempotent s c r : contains at_sign s = false ->
  NormalizePersonChannel s c = Some r -> NormalizePersonChannel s r = Some r.
Proof.
  intros Cs H. apply normalize_spec in H. destruct H as [Ns [Nc H]].
  assert (Hs : clean s = true) by (apply clean_spec; split; assumption).
  destruct H as [[Cc Hr]|[l [r' [Hc [Hl [Hr' [Hsl Hr]]]]]]]; subst r.
  - assert (Hcc : clean c = true) by (apply clean_spec; split; assumption).
    apply (normalize_canonical s c Hs Hcc).
  - destruct Hsl; subst s; apply (normalize_canonical l r' Hl Hr').
Qed.

Lemma normalize_at_sender_not_idempotent s c :
  contains at_sign s = true -> c <> [] -> contains at_sign c = false ->
  exists r, NormalizePersonChannel s c = Some r
            /\ DecodePersonChannel r = None /\ NormalizePersonChannel s r = None.
Proof.
  intros Cs Nc Cc. exists (EncodePersonChannel s c).
  assert (Ns : s <> []) by (intro E; subst; discriminate).
  assert (Hu : clean s && clean c = false).
  { unfold clean at 1. rewrite Cs. cbn [negb]. rewrite andb_false_r. reflexivity. }
  split; [|split].
  - apply normalize_plain; assumption.
  - apply decode_encode_unclean. exact Hu.
  - apply normalize_rejects_undecodable; [apply contains_encode|].
    apply decode_encode_unclean. exact Hu.
Qed.

Lemma has_suffix_app s suf : has_suffix (s ++ suf) suf = true.
Proof.
  unfold has_suffix. rewrite app_length.
  replace (length s + length suf - length suf)%nat with (length s) by lia.
  rewrite skipn_app, skipn_all, Nat.sub_diag. cbn [app skipn].
  rewrite bytes_eqb_refl, andb_true_r. apply Nat.leb_le. lia.
Qed.

Lemma has_suffix_split s suf : has_suffix s suf = true ->
  s = firstn (length s - length suf) s ++ suf.
Proof.
  unfold has_suffix. intro H. apply andb_true_iff in H. destruct H as [_ H].
  apply bytes_eqb_eq in H.
  rewrite <- (firstn_skipn (length s - length suf) s) at 1. rewrite H. reflexivity.
Qed.

Lemma has_prefix_app s t : has_prefix (s ++ t) s = true.
Proof.
  unfold has_prefix. rewrite app_length, firstn_app, firstn_all, Nat.sub_diag.
  cbn [firstn]. rewrite app_nil_r, bytes_eqb_refl, andb_true_r. apply Nat.leb_le. lia.
Qed.

Lemma contains_user_left s o : contains_user s (join s o) = true.
Proof.
  unfold contains_user, join. replace (s ++ at_sign :: o) with ((s ++ [at_sign]) ++ o)
    by (rewrite <- app_assoc; reflexivity).
  rewrite has_prefix_app. reflexivity.
Qed.

Lemma contains_user_right s o : contains_user s (join o s) = true.
Proof.
  unfold contains_user, join. rewrite (has_suffix_app o (at_sign :: s)). apply orb_true_r.
Qed.

Lemma to_command_is_command x : IsCommandChannel (ToCommandChannel x) = true.
Proof.
  unfold ToCommandChannel. destruct (IsCommandChannel x) eqn:E; [exact E|].
  unfold IsCommandChannel. apply has_suffix_app.
Qed.

Lemma to_command_idempotent x : ToCommandChannel (ToCommandChannel x) = ToCommandChannel x.
Proof.
  unfold ToCommandChannel at 1. rewrite to_command_is_command. reflexivity.
Qed.

Lemma from_to_command x : IsCommandChannel x = false ->
  FromCommandChannel (ToCommandChannel x) = (x, true).
Proof.
  intro H. unfold FromCommandChannel. rewrite to_command_is_command. cbn [negb].
  unfold ToCommandChannel. rewrite H. unfold trim_suffix. rewrite has_suffix_app.
  rewrite app_length, Nat.add_sub, firstn_app_exact. reflexivity.
Qed.

Lemma from_command_plain x : IsCommandChannel x = false -> FromCommandChannel x = (x, false).
Proof. intro H. unfold FromCommandChannel. rewrite H. reflexivity. Qed.

Lemma from_command_spec x :
  (IsCommandChannel x = false /\ FromCommandChannel x = (x, false))
  \/ (IsCommandChannel x = true /\ exists y, FromCommandChannel x = (y, true)
        /\ x = y ++ CommandChannelSuffix).
Proof.
  unfold FromCommandChannel. destruct (IsCommandChannel x) eqn:E; cbn [negb]; [right|left].
  - split; [reflexivity|]. unfold IsCommandChannel in E. unfold trim_suffix. rewrite E.
    eexists. split; [reflexivity|]. apply has_suffix_split. exact E.
  - split; reflexivity.
Qed.

(* ids that already carry the suffix: applied once only, so one suffix is stripped *)
Lemma command_suffix_corner x : IsCommandChannel x = true ->
  ToCommandChannel x = x
  /\ exists y, FromCommandChannel (ToCommandChannel x) = (y, true) /\ x = y ++ CommandChannelSuffix.
Proof.
  intro H. unfold ToCommandChannel. rewrite H. split; [reflexivity|].
  destruct (from_command_spec x) as [[E _]|[_ Hy]]; [rewrite H in E; discriminate|exact Hy].
Qed.

Lemma agent_encode_is_join u g : EncodeAgentChannel u g = join u g.
Proof. unfold EncodeAgentChannel, join. rewrite agent_separator_is_at. reflexivity. Qed.

Lemma agent_decode_is_person c : DecodeAgentChannel c = DecodePersonChannel c.
Proof. reflexivity. Qed.

Lemma is_id_of_encode a b : is_id_of a b (EncodePersonChannel a b) = true.
Proof.
  unfold is_id_of. destruct (encode_cases a b) as [E|E]; rewrite E, bytes_eqb_refl;
    [reflexivity|apply orb_true_r].
Qed.

Lemma decode_ok_model a b :
  decode_ok a b (EncodePersonChannel a b) (DecodePersonChannel (EncodePersonChannel a b)) = true.
Proof.
  unfold decode_ok.
  destruct (encode_cases a b) as [E|E]; rewrite E, decode_join, ?(andb_comm (clean b));
    (destruct (clean a && clean b); [rewrite !bytes_eqb_refl|]; try reflexivity).
  apply orb_true_r.
Qed.

Lemma normalize_ok_model s ch dch :
  dch = None \/ dch = Some (DecodePersonChannel ch) ->
  normalize_ok s ch dch (NormalizePersonChannel s ch) = true.
Proof.
  intro Hd. unfold normalize_ok. destruct (NormalizePersonChannel s ch) as [r|] eqn:E; [|reflexivity].
  pose proof (normalize_sender_belongs s ch r E) as [Ns [o [_ Hj]]].
  apply is_nil_false in Ns. rewrite Ns. cbn [negb andb].
  assert (Hcu : contains_user s r = true).
  { destruct Hj as [-> | ->]; [apply contains_user_left|apply contains_user_right]. }
  rewrite Hcu. cbn [andb].
  apply normalize_spec in E. destruct E as [_ [_ [[Cc Hr]|[l [r' [Hc [Hl [Hr' [Hs Hr]]]]]]]]].
  - rewrite Cc. subst r. apply is_id_of_encode.
  - assert (Cc : contains at_sign ch = true) by (subst ch; apply contains_join).
    rewrite Cc. destruct Hd as [-> | ->]; [reflexivity|].
    assert (D : DecodePersonChannel ch = Some (l, r')) by (apply decode_spec; repeat split; assumption).
    rewrite D. subst r. rewrite is_id_of_encode, andb_true_r.
    destruct Hs as [<- | <-]; rewrite bytes_eqb_refl; [reflexivity|apply orb_true_r].
Qed.

Lemma person_ok_model a b c x : person_ok (c35_model a b c x) = true.
Proof.
  unfold person_ok, c35_model.
  cbn [c35_a c35_b c35_c c35_enc_ab c35_enc_ba c35_dec_enc c35_dec_c c35_norm_ab c35_norm_ba
       c35_norm_a_enc c35_norm_b_enc c35_norm_ac c35_norm_ac2].
  rewrite <- (encode_sym a b), bytes_eqb_refl, is_id_of_encode, decode_ok_model. cbn [andb].
  rewrite !normalize_ok_model by (first [left; reflexivity | right; reflexivity]).
  rewrite !andb_true_r.
  apply andb_true_iff. split.
  - destruct (clean a && clean b) eqn:C; [|reflexivity].
    apply andb_true_iff in C. destruct C as [Ha Hb].
    destruct (normalize_canonical a b Ha Hb) as [E1 [E2 [E3 E4]]].
    rewrite E1, E2, E3, E4. cbn [obytes_eqb option_eqb]. rewrite bytes_eqb_refl. reflexivity.
  - destruct (NormalizePersonChannel a c) as [r|] eqn:E; [|reflexivity].
    destruct (contains at_sign a) eqn:Ca; [reflexivity|].
    rewrite (normalize_idempotent a c r Ca E). apply option_eqb_refl, bytes_eqb_refl.
Qed.

Lemma command_ok_model a b c x : command_ok (c35_model a b c x) = true.
Proof.
  unfold command_ok, c35_model.
  cbn [c35_x c35_is_x c35_to_x c35_to_to_x c35_is_to_x c35_from_x c35_from_to_x].
  rewrite to_command_idempotent, to_command_is_command, bytes_eqb_refl.
  fold (IsCommandChannel x). rewrite eqb_reflx. cbn [andb].
  destruct (IsCommandChannel x) eqn:E.
  - destruct (command_suffix_corner x E) as [T [y [F Hx]]].
    rewrite T, bytes_eqb_refl. cbn [andb].
    rewrite T in F. rewrite F. cbn [fst snd andb]. rewrite <- Hx, bytes_eqb_refl. reflexivity.
  - rewrite (from_to_command x E). unfold ToCommandChannel. rewrite E.
    unfold FromCommandChannel. rewrite E. cbn [negb fst snd andb]. rewrite !bytes_eqb_refl. reflexivity.
Qed.

Lemma agent_ok_model a b c x : agent_ok (c35_model a b c x) = true.
Proof.
  unfold agent_ok, c35_model. cbn [c35_a c35_b c35_agent_enc c35_agent_dec].
  rewrite agent_encode_is_join, agent_decode_is_person, decode_join.
  destruct (clean a && clean b); rewrite !bytes_eqb_refl; reflexivity.
Qed.

Lemma model_satisfies_monitor a b c x : C35_monitor (c35_model a b c x) = 0.
Proof.
  unfold C35_monitor. rewrite person_ok_model, command_ok_model, agent_ok_model. reflexivity.
Qed.

Lemma model_no_mismatch a b c x : C35_mismatch (c35_model a b c x) = false.
Proof.
  assert (P : forall p, pair_eqb p p = true).
  { intro p. unfold pair_eqb. rewrite !bytes_eqb_refl. reflexivity. }
  unfold C35_mismatch. cbn [c35_a c35_b c35_c c35_x c35_model].
  unfold c35_case_eqb, opair_eqb, obytes_eqb, fromres_eqb.
  rewrite !N.eqb_refl, !bytes_eqb_refl, !(option_eqb_refl _ P), !(option_eqb_refl _ bytes_eqb_refl),
    !eqb_reflx. reflexivity.
Qed.
