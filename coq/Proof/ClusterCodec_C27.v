(* Proof/ClusterCodec_C27.v — the monitor is the predicate the theorems are
   about: on a trace the MODEL produces (a value in the codec's domain, its model
   encoding, the model's decode of the encoding and of every strict prefix; no
   allocation) [C27_monitor] returns 0.  Stated once for every codec the monitor
   compares with [monitor_eq] (value, truncation and arbitrary-bytes mode) and
   for every channels frame (value mode); proved directly for FSM commands
   (value mode).  The envelopes that hand the rest of their input on (propose
   payload, net header: [hdr = Some _]) and the unmodelled codecs have no such
   theorem.  On the trace of the known finding the monitor returns its code. *)
From WK Require Import Base.Base Base.Lists Base.Bytes Gen.Consts_C27.
From WK Require Import Model.ClusterCodecBase Model.ClusterCodec_Replication Model.ClusterCodec_Propose
  Model.ClusterCodec_Channels Model.ClusterCodec_SlotFSM Model.ClusterCodec_C27.
From WK Require Import Proof.ClusterCodecBase Proof.ClusterCodec_Replication Proof.ClusterCodec_Propose
  Proof.ClusterCodec_Channels Proof.ClusterCodec_SlotFSM.
From Coq Require Import ZifyBool ZifyN ZifyNat.
Open Scope N_scope.

(* the strict prefixes of [e] the decoder [dec] accepts, as the harness records them *)
Definition model_trunc_ok {A} (dec : bytes -> option A) (e : bytes) : list N :=
  map N.of_nat (filter (fun k => negb (is_none (dec (firstn k e)))) (seq 0 (length e))).

Lemma model_trunc_nil {A} (dec : bytes -> option A) e :
  (forall p s, e = p ++ s -> s <> [] -> dec p = None) -> model_trunc_ok dec e = [].
Proof.
  intro H. unfold model_trunc_ok. rewrite filter_none; [reflexivity|].
  intros k Hk. apply in_seq in Hk. cbn in Hk.
  rewrite (H (firstn k e) (skipn k e)); [reflexivity|symmetry; apply firstn_skipn|].
  intro E. apply (f_equal (@length N)) in E. rewrite skipn_length in E. cbn in E. lia.
Qed.

Lemma alloc_under_zero base pb mode data enc pl same tr :
  alloc_under base pb (C27Case mode data enc pl same tr 0 0 0) = true.
Proof.
  unfold alloc_under. cbn [c_alloc c_alloc_trunc c_alloc_inflate c_data].
  apply andb_true_iff. split; [apply andb_true_iff; split|]; lia.
Qed.

(* value mode: the value comes back, whatever comes back is within bounds, no strict prefix is accepted *)
Lemma monitor_eq_model {A} (eqb : A -> A -> bool) in_bounds res_ok base pb (dec : bytes -> option A) pl x e :
  eqb x x = true -> res_ok x = true -> dec e = Some x ->
  (forall p s, e = p ++ s -> s <> [] -> dec p = None) ->
  monitor_eq eqb in_bounds res_ok None base pb
             (C27Case 0 e true pl false (model_trunc_ok dec e) 0 0 0) (Some x) (dec e) = 0.
Proof.
  intros R K D T. unfold monitor_eq. rewrite alloc_under_zero, D, K, (model_trunc_nil dec e T).
  cbn [negb c_mode c_enc_ok c_trunc_ok option_eqb existsb]. rewrite R, andb_false_r. reflexivity.
Qed.

(* truncation mode *)
Lemma monitor_eq_prefix {A} (eqb : A -> A -> bool) in_bounds res_ok base pb data pl (res : option A) :
  res = None ->
  monitor_eq eqb in_bounds res_ok None base pb (C27Case 1 data true pl false [] 0 0 0) None res = 0.
Proof.
  intros ->. unfold monitor_eq. rewrite alloc_under_zero. reflexivity.
Qed.

(* mutated / arbitrary bytes *)
Lemma monitor_eq_bytes {A} (eqb : A -> A -> bool) in_bounds res_ok hdr base pb mode data pl (res : option A) :
  2 <= mode -> (forall y, res = Some y -> res_ok y = true) ->
  monitor_eq eqb in_bounds res_ok hdr base pb (C27Case mode data true pl false [] 0 0 0) None res = 0.
Proof.
  intros M K. unfold monitor_eq. rewrite alloc_under_zero.
  destruct res as [y|]; [rewrite (K y eq_refl)|]; destruct mode as [|[m|m|]]; try lia; reflexivity.
Qed.

Theorem batch_prefix_satisfies_monitor : forall bits b e p s,
  wf (exchangeBatch (valid_of bits)) b = true -> EncodeExchangeBatch (valid_of bits) b = Some e ->
  e = p ++ s -> s <> [] ->
  C27_monitor (C27Case 1 p true (PReplBatch bits None (DecodeExchangeBatch (valid_of bits) p)) false [] 0 0 0) = 0.
Proof.
  intros bits b e p s W E Hp Hs.
  exact (monitor_eq_prefix _ _ _ _ _ _ _ _ (batch_truncation_rejected _ b e p s W E Hp Hs)).
Qed.

Lemma forward_eqb_refl r : forward_eqb r r = true.
Proof.
  unfold forward_eqb. rewrite !N.eqb_refl, Bool.eqb_reflx. apply bytes_eqb_refl.
Qed.

(* every channels frame, whatever fields its [clear] zeroes *)
Theorem frame_model_satisfies_monitor : forall A (f : fmt (N * A)) clear pl vx e,
  wf f vx = true -> encode_frame f vx = Some e ->
  monitor_frame f clear (C27Case 0 e true pl false (model_trunc_ok (decode_frame f) e) 0 0 0)
                (Some vx) (decode_frame f e) = 0.
Proof.
  intros A f clear pl vx e W E. unfold monitor_frame, monitor_lossy.
  rewrite alloc_under_zero. cbn [negb c_mode c_enc_ok].
  rewrite W, (frame_roundtrip _ _ _ _ W E). unfold res_eqb. cbn [option_eqb]. rewrite (veqb_refl _ f vx W).
  unfold no_prefix_accepted. cbn [c_trunc_ok].
  rewrite model_trunc_nil; [reflexivity|]. intros p s Hp Hs. eapply frame_truncation_rejected; eassumption.
Qed.

(* the known finding: the trace of the witness has exactly the signature of code 2 *)
Theorem k1_witness_has_code_2 :
  exists e, encode_frame f_append_batch (k1_request true) = Some e /\
    C27_monitor (C27Case 0 e true (PChAppendBatch (Some (k1_request true)) (decode_frame f_append_batch e)) false
                         [] 0 0 0) = 2.
Proof. eexists. split; [vm_compute; reflexivity|]. vm_compute. reflexivity. Qed.

Lemma command_eqb_refl c : command_eqb c c = true.
Proof.
  destruct c as [|u|u|d|t]; cbn [command_eqb]; unfold user_eqb, device_eqb;
    rewrite ?Z.eqb_refl, ?bytes_eqb_refl, ?N.eqb_refl; reflexivity.
Qed.

(* the prefixes of a frame the model decoder accepts are field boundaries: the
   monitor's truncation clause holds of the model.  The trace drops [CmdOther] answers;
   none occurs on a prefix of a modelled command (its type byte stays), the filter only
   spares proving so: [decoded_is_complete] asks for a modelled command. *)
Theorem fsm_model_satisfies_monitor : forall c e,
  command_wf c = true -> encodeCommand c = Some e ->
  C27_monitor (C27Case 0 e true (PFsm (Some c) (decodeCommand e)) false
                       (model_trunc_ok (fun p => match decodeCommand p with
                                                  | Some (CmdOther _) => None | r => r end) e) 0 0 0) = 0.
Proof.
  intros c e W E. cbn [C27_monitor c_payload]. unfold eff_res. cbn [c_res_same].
  unfold monitor_fsm. rewrite alloc_under_zero. cbn [negb c_mode c_data c_trunc_ok].
  assert (T : forallb (prefix_ok_tlv e)
                (model_trunc_ok (fun p => match decodeCommand p with Some (CmdOther _) => None | r => r end) e) = true).
  { apply forallb_forall. intros k Hk. unfold model_trunc_ok in Hk. apply in_map_iff in Hk.
    destruct Hk as (n & <- & Hn). apply filter_In in Hn. destruct Hn as [_ Hn].
    unfold prefix_ok_tlv. rewrite Nnat.Nat2N.id.
    destruct (decodeCommand (firstn n e)) as [c'|] eqn:D; [|discriminate].
    apply decoded_is_complete with (c := c'); [exact D|].
    intros t ->. discriminate. }
  rewrite T. cbn [negb]. rewrite W, (command_roundtrip c e W E). cbn. rewrite command_eqb_refl. reflexivity.
Qed.
