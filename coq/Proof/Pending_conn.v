(* Proof/Pending_conn.v — every conn script the acceptor [crun]/[cfinal_ok] of
   Model/Pending.v accepts satisfies the conn monitor [mon_conn]: a call only
   ever returns a peer-originated result (payload / remote error) that the peer
   wrote for the request id that carried that call's request. *)
From Coq Require Import Permutation.
From WK Require Import Base.Base Base.Bytes Base.Lists Gen.Consts_C26 Model.Wire Model.Pending Model.C26Case Proof.Pending.
Open Scope N_scope.

Lemma allowed_in o l : allowed o l = true -> In o l.
Proof.
  unfold allowed. intro H. apply existsb_exists in H. destruct H as (x & I & E).
  apply outcome_eqb_true in E. subst. exact I.
Qed.

(* a local Close may carry any code that is not a peer-originated class; [close_code e] is the
   argument of [shutdown] in [cstep _ (CClose e)] *)
Definition close_code (e : N) : N := if e =? 0 then E_stopped else e.
Definition op_local (o : cop) : bool :=
  match o with CClose e => negb (peer_originated ([], close_code e)) | _ => true end.
Definition closes_local (script : list (cop * cobs)) : bool := forallb (fun oo => op_local (fst oo)) script.

Lemma stopped_local : peer_originated ([], E_stopped) = false. Proof. reflexivity. Qed.
Lemma canceled_local : peer_originated ([], E_canceled) = false. Proof. reflexivity. Qed.
Lemma read_local : peer_originated ([], E_read) = false. Proof. reflexivity. Qed.
Lemma invalid_local : peer_originated ([], E_invalid_frame) = false. Proof. reflexivity. Qed.

Lemma reads_cons x l : reads_of (x :: l) = reads_of [x] ++ reads_of l.
Proof. destruct x as [[] []]; reflexivity. Qed.
Lemma writes_cons x l : writes_of (x :: l) = writes_of [x] ++ writes_of l.
Proof. destruct x as [[] [| |[|]|]]; reflexivity. Qed.
Lemma results_cons x l : results_of (x :: l) = results_of [x] ++ results_of l.
Proof. destruct x as [[] []]; reflexivity. Qed.

Ltac split_st ST :=
  pose proof (f_equal fst ST) as S1; pose proof (f_equal snd ST) as OK; cbn [fst snd] in S1, OK; clear ST.

(* [ST : (s', match ob with ... end) = (s1, true)]: keeps the accepted observations, substitutes
   the new state, names the acceptance condition [OK] *)
Ltac accepted ST ob := destruct ob as [|r q|[|]|p e]; split_st ST; try discriminate; subst.

Section ConnInv.
  Variable rd : list (N * N).          (* call -> request id, as read by the peer *)
  Variable wr : list (N * outcome).    (* request id -> result the peer wrote for it *)

  Definition own_ex (k : N) (o : outcome) : Prop :=
    peer_originated o = true -> exists id, In (k, id) rd /\ In (id, o) wr.

  Definition msg_own (c : N) (m : msg) : Prop := own_ex c (msg_outcome m).

  Definition AllMsgs (p : pstate) : Prop := forall c m, In (c, m) (ps_inflight p ++ ps_bufs p) -> msg_own c m.
  Definition AllEntries (p : pstate) : Prop := forall id c, In (id, c) (ps_entries p) -> In (c, id) rd.
  Definition ClosedLocal (p : pstate) : Prop := ps_closed p = true -> peer_originated ([], ps_close_err p) = false.
  Definition FinOk (fin : list (N * list outcome)) : Prop :=
    forall k al o, In (k, al) fin -> In o al -> own_ex k o.

  (* Call k uses channel k, so an entry (id, c) can be compared with what the peer read for call c:
     every entry is such a read; every message for channel c is a local error or what the peer
     wrote for that id; a closed table's error is local.  [FinOk]: the same for uncollected calls. *)
  Record PInv (p : pstate) : Prop := MkPInv {
    pi_msgs : AllMsgs p; pi_entries : AllEntries p; pi_closed : ClosedLocal p }.

  Lemma own_ex_local k o : peer_originated o = false -> own_ex k o.
  Proof. intros L P. congruence. Qed.

  Lemma local_msg_own c e : peer_originated ([], e) = false -> msg_own c (Msg None [] e).
  Proof. exact (own_ex_local c ([], e)). Qed.

  Lemma pinv_frame p p' : PInv p -> incl (ps_entries p') (ps_entries p) ->
    (forall c m, In (c, m) (ps_inflight p' ++ ps_bufs p') ->
                 In (c, m) (ps_inflight p ++ ps_bufs p) \/ msg_own c m) ->
    ps_closed p' = ps_closed p -> ps_close_err p' = ps_close_err p -> PInv p'.
  Proof.
    intros [M E C] HE HM HC HR. constructor.
    - intros c m H. destruct (HM c m H) as [H'|H']; [exact (M c m H')|exact H'].
    - intros id c H. exact (E id c (HE _ H)).
    - unfold ClosedLocal. rewrite HC, HR. exact C.
  Qed.

  Lemma flush_pinv cap p : PInv p -> PInv (flush cap p).
  Proof.
    destruct p as [es cl ce l b]. intro I. rewrite flush_spec.
    apply (pinv_frame _ _ I); [apply incl_refl| |reflexivity|reflexivity].
    intros c m H. left. exact (in_fold_post cap _ _ _ H).
  Qed.

  Lemma delete_pinv id p : PInv p -> PInv (delete id p).
  Proof.
    intro I. apply (pinv_frame p _ I); [apply incl_filter| |reflexivity|reflexivity].
    intros c m H. left. exact H.
  Qed.

  Lemma insert_pinv id c p : PInv p -> In (c, id) rd -> PInv (insert id c p).
  Proof.
    intros [M E C] R. constructor; unfold AllMsgs, AllEntries, ClosedLocal in *;
      cbn [insert ps_entries ps_closed ps_close_err ps_inflight ps_bufs]; try assumption.
    intros i c' [H|H].
    - inversion H; subst. exact R.
    - apply in_remove_id in H. destruct H as [H _]. exact (E i c' H).
  Qed.

  Lemma remove_pinv id m p : PInv p -> (forall c, In (c, id) rd -> msg_own c m) -> PInv (fst (remove id m p)).
  Proof.
    intros I HQ. unfold remove. destruct (lookup id (ps_entries p)) as [c|] eqn:L; cbn [fst]; [|exact I].
    apply (pinv_frame p _ I); cbn [ps_entries ps_closed ps_close_err ps_inflight ps_bufs];
      [apply incl_filter| |reflexivity|reflexivity].
    intros c' m' H. destruct (in_to_flight _ _ _ _ H) as [H'|E']; [left; exact H'|right].
    inversion E'; subst. exact (HQ _ (pi_entries _ I _ _ (lookup_some_in _ _ _ L))).
  Qed.

  Lemma store_closed_pinv c p : PInv p -> ps_closed p = true -> PInv (store_closed c p).
  Proof.
    intros I CL. apply (pinv_frame p _ I); cbn [store_closed ps_entries ps_closed ps_close_err ps_inflight ps_bufs];
      [apply incl_refl| |reflexivity|reflexivity].
    intros c' m' H. destruct (in_to_flight _ _ _ _ H) as [H'|E']; [left; exact H'|right].
    inversion E'; subst. exact (local_msg_own _ _ (pi_closed _ I CL)).
  Qed.

  Lemma store_pinv cap id c p : PInv p -> In (c, id) rd -> PInv (store cap id c p).
  Proof.
    intros I R. unfold store. destruct (ps_closed p) eqn:CL.
    - apply flush_pinv. apply store_closed_pinv; assumption.
    - apply insert_pinv; assumption.
  Qed.

  (* a call that never reaches the wire: the peer read nothing for it, so [insert_pinv] does not
     apply; the entry is gone again before anyone can look *)
  Lemma delete_store_pinv cap id c p : PInv p -> PInv (delete id (store cap id c p)).
  Proof.
    intro I. unfold store. destruct (ps_closed p) eqn:CL.
    - apply delete_pinv, flush_pinv, store_closed_pinv; assumption.
    - apply (pinv_frame p _ I); cbn [delete insert ps_entries ps_closed ps_close_err ps_inflight ps_bufs];
        [|intros c' m H; left; exact H|reflexivity|reflexivity].
      intros x H. apply in_remove_id in H. destruct H as [[<-|H] NE]; [destruct NE; reflexivity|].
      exact (proj1 (in_remove_id _ _ _ H)).
  Qed.

  Lemma complete_pinv cap id pl e p : PInv p -> In (id, (pl, e)) wr -> PInv (fst (complete cap id pl e p)).
  Proof.
    intros I W. unfold complete.
    pose proof (remove_pinv id (Msg (Some id) pl e) p I) as R.
    destruct (remove id (Msg (Some id) pl e) p) as [p1 ok]. cbn [fst] in *.
    assert (I1 : PInv p1).
    { apply R. intros c Rc _. exists id. split; [exact Rc|exact W]. }
    destruct ok; [apply flush_pinv; exact I1|exact I1].
  Qed.

  Lemma close_pinv e p : PInv p -> peer_originated ([], e) = false -> PInv (close e p).
  Proof.
    intros [M E C] L. unfold close. destruct (ps_closed p) eqn:CL; [constructor; assumption|].
    constructor; unfold AllMsgs, AllEntries, ClosedLocal in *;
      cbn [ps_entries ps_closed ps_close_err ps_inflight ps_bufs]; try assumption. intros _. exact L.
  Qed.

  Lemma fold_fail_pinv e : forall l p, PInv p -> peer_originated ([], e) = false ->
    PInv (fold_left (fun st id => fail_one id e st) l p).
  Proof.
    induction l as [|id l IH]; intros p I L; cbn [fold_left]; [exact I|].
    apply IH; [|exact L]. unfold fail_one. apply remove_pinv; [exact I|]. intros c _. apply local_msg_own. exact L.
  Qed.

  Lemma fail_all_pinv cap e p : PInv p -> peer_originated ([], e) = false -> PInv (fail_all cap e p).
  Proof.
    intros I L. unfold fail_all. cbv zeta. apply flush_pinv. apply fold_fail_pinv; [|exact L].
    apply close_pinv; assumption.
  Qed.

  Lemma recv_pinv c p : PInv p ->
    PInv (fst (recv c p)) /\ forall x, snd (recv c p) = Some x -> msg_own c x.
  Proof.
    intros [M E C]. unfold recv. destruct (take_first c (ps_bufs p)) as [m r] eqn:T. cbn [fst snd].
    destruct m as [x|].
    - destruct (take_first_in _ _ _ _ T) as [IN SUB]. split.
      + apply (pinv_frame p _ (MkPInv p M E C)); cbn [ps_entries ps_closed ps_close_err ps_inflight ps_bufs];
          [apply incl_refl| |reflexivity|reflexivity].
        intros c' m' H. left. apply in_app_or in H. apply in_or_app.
        destruct H as [H|H]; [left; exact H|right; exact (SUB _ H)].
      + intros y Hy. inversion Hy; subst. apply M. apply in_or_app. right. exact IN.
    - apply take_first_none in T. subst r. split; [|discriminate].
      destruct p; constructor; assumption.
  Qed.

  Record CInv (s : cstate) : Prop := MkCInv { ci_p : PInv (cs_p s); ci_fin : FinOk (cs_fin s) }.

  Lemma finok_filter k fin : FinOk fin -> FinOk (filter (fun e => negb (fst e =? k)) fin).
  Proof. intros F k' al o I. apply filter_In in I. destruct I as [I _]. exact (F k' al o I). Qed.

  Lemma shutdown_cinv e s : CInv s -> peer_originated ([], e) = false -> CInv (shutdown e s).
  Proof.
    intros [P F] L. unfold shutdown. destruct (cs_down s); [constructor; assumption|].
    constructor; cbn [cs_p cs_fin].
    - apply fail_all_pinv; assumption.
    - intros k al o I IO. apply in_app_or in I. destruct I as [I|I]; [|exact (F k al o I IO)].
      apply in_map_iff in I. destruct I as ([k' id] & EQ & _).
      destruct (fst (take_first k' (ps_bufs (cs_p s)))) as [m|] eqn:T.
      + inversion EQ; subst. destruct IO as [<-|[]].
        destruct (take_first k (ps_bufs (cs_p s))) as [m' r] eqn:T2. cbn [fst] in T. subst m'.
        destruct (take_first_in _ _ _ _ T2) as [IN _].
        apply (pi_msgs _ P). apply in_or_app. right. exact IN.
      + inversion EQ; subst. destruct IO as [<-|[<-|[]]]; apply own_ex_local; [exact L|reflexivity].
  Qed.
  Definition step_sound (o : cop) (ob : cobs) (s1 : cstate) : Prop :=
    CInv s1 /\ forall k out, In (k, out) (results_of [(o, ob)]) -> own_ex k out.

  Lemma cstart_sound s o ob s1 k payload :
    o = CStart k payload \/ o = CStartCanceled k payload ->
    CInv s -> cstep s o ob = (s1, true) -> incl (reads_of [(o, ob)]) rd -> step_sound o ob s1.
  Proof.
    intros [-> | ->] [P F] ST HR; cbn [cstep] in ST; [destruct (cs_down s) eqn:DN|]; accepted ST ob.
    - apply outcome_eqb_true in OK. inversion OK; subst p e. split.
      + constructor; cbn [cs_p cs_fin]; [apply delete_store_pinv; exact P|exact F].
      + intros k' out [H|[]]. inversion H; subst. apply own_ex_local. reflexivity.
    - apply andb_true_iff in OK. destruct OK as [OK _]. apply N.eqb_eq in OK. subst r.
      split; [|intros k' out []]. constructor; cbn [cs_p cs_fin]; [|exact F].
      apply store_pinv; [exact P|]. apply HR. left. reflexivity.
    - apply outcome_eqb_true in OK. inversion OK; subst p e. split.
      + constructor; cbn [cs_p cs_fin]; [apply delete_store_pinv; exact P|exact F].
      + intros k' out [H|[]]. inversion H; subst. apply own_ex_local. reflexivity.
  Qed.

  Lemma crespond_sound s o ob s1 reqid status payload :
    o = CRespond reqid status payload \/ o = CRespondEmpty reqid ->
    CInv s -> cstep s o ob = (s1, true) -> incl (writes_of [(o, ob)]) wr -> step_sound o ob s1.
  Proof.
    intros [-> | ->] [P F] ST HW; cbn [cstep] in ST; destruct (cs_down s) eqn:DN.
    - accepted ST ob. split; [constructor; assumption|intros k' out []].
    - cbn [writes_of] in HW. destruct (response_msg reqid (Some (status, payload))) as [pl er].
      accepted ST ob. split; [|intros k' out []]. constructor; cbn [cs_p cs_fin]; [|exact F].
      apply complete_pinv; [exact P|]. apply HW. left. reflexivity.
    - accepted ST ob. split; [constructor; assumption|intros k' out []].
    - accepted ST ob. split; [|intros k' out []]. constructor; cbn [cs_p cs_fin]; [|exact F].
      apply complete_pinv; [exact P|]. apply HW. left. reflexivity.
  Qed.

  Lemma ccollect_sound s o ob s1 k :
    o = CCancel k \/ o = CAwait k -> CInv s -> cstep s o ob = (s1, true) -> step_sound o ob s1.
  Proof.
    intros [-> | ->] [P F] ST; cbn [cstep] in ST; destruct (lookup_fin k (cs_fin s)) as [al|] eqn:LF.
    - accepted ST ob. split; [constructor; cbn [cs_p cs_fin]; [exact P|apply finok_filter; exact F]|].
      intros k' out [H|[]]. inversion H; subst k' out. apply allowed_in in OK. destruct OK as [<-|IO].
      + apply own_ex_local. reflexivity.
      + exact (F k al (p, e) (lookup_fin_in _ _ _ LF) IO).
    - destruct (lookup k (cs_calls s)) as [id|] eqn:LC;
        [|accepted ST ob; split; [constructor; assumption|intros k' out []]].
      destruct (recv_pinv k (cs_p s) P) as [P1 QX]. destruct (recv k (cs_p s)) as [p1 m]. cbn [fst snd] in P1, QX.
      accepted ST ob. split; [constructor; cbn [cs_p cs_fin]; [apply delete_pinv; exact P1|exact F]|].
      intros k' out [H|[]]. inversion H; subst k' out. apply allowed_in in OK. destruct OK as [<-|IO].
      + apply own_ex_local. reflexivity.
      + destruct m as [x|]; [|contradiction]. destruct IO as [<-|[]]. exact (QX x eq_refl).
    - accepted ST ob. split; [constructor; cbn [cs_p cs_fin]; [exact P|apply finok_filter; exact F]|].
      intros k' out [H|[]]. inversion H; subst k' out.
      exact (F k al (p, e) (lookup_fin_in _ _ _ LF) (allowed_in _ _ OK)).
    - destruct (lookup k (cs_calls s)) as [id|] eqn:LC;
        [|accepted ST ob; split; [constructor; assumption|intros k' out []]].
      destruct (recv_pinv k (cs_p s) P) as [P1 QX]. destruct (recv k (cs_p s)) as [p1 [x|]]; [|discriminate].
      cbn [fst snd] in P1, QX. accepted ST ob. split; [constructor; assumption|].
      intros k' out [H|[]]. inversion H; subst k' out. apply outcome_eqb_true in OK. rewrite OK. exact (QX x eq_refl).
  Qed.

  Lemma cstep_inv s o ob s1 :
    CInv s -> op_local o = true -> cstep s o ob = (s1, true) ->
    incl (reads_of [(o, ob)]) rd -> incl (writes_of [(o, ob)]) wr -> step_sound o ob s1.
  Proof.
    intros I OL ST HR HW.
    destruct o as [k payload|k payload|reqid status payload|reqid|k|k| | |ce].
    - exact (cstart_sound s _ ob s1 k payload (or_introl eq_refl) I ST HR).
    - exact (cstart_sound s _ ob s1 k payload (or_intror eq_refl) I ST HR).
    - exact (crespond_sound s _ ob s1 reqid status payload (or_introl eq_refl) I ST HW).
    - exact (crespond_sound s _ ob s1 reqid 0 [] (or_intror eq_refl) I ST HW).
    - exact (ccollect_sound s _ ob s1 k (or_introl eq_refl) I ST).
    - exact (ccollect_sound s _ ob s1 k (or_intror eq_refl) I ST).
    - cbn [cstep] in ST. accepted ST ob. split; [exact (shutdown_cinv _ s I read_local)|intros k out []].
    - cbn [cstep] in ST. accepted ST ob. split; [exact (shutdown_cinv _ s I invalid_local)|intros k out []].
    - cbn [cstep op_local] in ST, OL. apply negb_true_iff in OL. accepted ST ob.
      split; [exact (shutdown_cinv _ s I OL)|intros k out []].
  Qed.

  Lemma crun_inv : forall script s s',
    CInv s -> closes_local script = true -> crun s script = (s', true) ->
    incl (reads_of script) rd -> incl (writes_of script) wr ->
    CInv s' /\ forall k out, In (k, out) (results_of script) -> own_ex k out.
  Proof.
    induction script as [|[o ob] script IH]; intros s s' I CL R HR HW.
    - cbn in R. inversion R; subst. split; [exact I|intros k out []].
    - cbn [crun] in R. destruct (cstep s o ob) as [s1 ok1] eqn:ST.
      destruct (crun s1 script) as [s2 ok2] eqn:R2. inversion R; subst s2. clear R.
      apply andb_true_iff in H1. destruct H1 as [-> ->].
      cbn [closes_local forallb fst] in CL. apply andb_true_iff in CL. destruct CL as [OL CL].
      rewrite reads_cons in HR. rewrite writes_cons in HW. apply incl_app_inv in HR, HW.
      destruct (cstep_inv s o ob s1 I OL ST (proj1 HR) (proj1 HW)) as [I1 RS1].
      destruct (IH s1 s' I1 CL R2 (proj2 HR) (proj2 HW)) as [I2 RS2].
      split; [exact I2|]. intros k out H. rewrite results_cons in H. apply in_app_or in H.
      destruct H as [H|H]; [exact (RS1 k out H)|exact (RS2 k out H)].
  Qed.
End ConnInv.

(* request ids on the wire: strictly increasing, hence pairwise distinct *)
Lemma shutdown_next e s : cs_next (shutdown e s) = cs_next s.
Proof. unfold shutdown. destruct (cs_down s); reflexivity. Qed.

Lemma cstep_next s o ob :
  cs_next (fst (cstep s o ob)) =
  match o with CStart _ _ | CStartCanceled _ _ => cs_next s + 1 | _ => cs_next s end.
Proof.
  destruct o as [k p|k p|r st p|r|k|k| | |e]; cbn [cstep]; try apply shutdown_next.
  - destruct (cs_down s); reflexivity.
  - reflexivity.
  - destruct (cs_down s); [reflexivity|]. destruct (response_msg r (Some (st, p))). reflexivity.
  - destruct (cs_down s); reflexivity.
  - destruct (lookup_fin k (cs_fin s)); [reflexivity|]. destruct (lookup k (cs_calls s)); [|reflexivity].
    destruct (recv k (cs_p s)). reflexivity.
  - destruct (lookup_fin k (cs_fin s)); [reflexivity|]. destruct (lookup k (cs_calls s)); [|reflexivity].
    destruct (recv k (cs_p s)) as [p1 [x|]]; reflexivity.
Qed.

Lemma crun_wire_ids : forall script s s' , crun s script = (s', true) ->
  (forall kr, In kr (reads_of script) -> cs_next s < snd kr) /\ nodup_N (map snd (reads_of script)) = true
  /\ request_echo_ok script = true.
Proof.
  induction script as [|[o ob] script IH]; intros s s' R.
  - split; [intros kr []|]. split; reflexivity.
  - cbn [crun] in R. destruct (cstep s o ob) as [s1 ok1] eqn:ST.
    destruct (crun s1 script) as [s2 ok2] eqn:R2. inversion R; subst s2. clear R.
    apply andb_true_iff in H1. destruct H1 as [-> ->].
    destruct (IH s1 s' R2) as (A & B & C). pose proof (cstep_next s o ob) as NX. rewrite ST in NX. cbn [fst] in NX.
    destruct o as [k payload| | | | | | | |]; destruct ob as [|rr qq|bb|pp ee]; lazy beta iota in NX;
      try (cbn [reads_of request_echo_ok]; split; [intros kr H; specialize (A kr H); lia|split; assumption]).
    (* only a CStart whose request the peer read remains *)
    cbn [cstep] in ST. destruct (cs_down s); [split_st ST; discriminate|].
    split_st ST. apply andb_true_iff in OK. destruct OK as [OK1 OK2]. apply N.eqb_eq in OK1. subst rr.
    assert (N1 : cs_next s1 = cs_next s + 1) by (rewrite <- S1; reflexivity).
    cbn [reads_of request_echo_ok map snd nodup_N]. split; [|split].
    + intros kr [<-|H]; [cbn; lia|]. specialize (A kr H). lia.
    + rewrite B, andb_true_r. apply negb_true_iff. destruct (existsb (N.eqb (cs_next s + 1)) (map snd (reads_of script))) eqn:EX; [|reflexivity].
      apply existsb_exists in EX. destruct EX as (x & IX & EQ). apply N.eqb_eq in EQ. subst x.
      apply in_map_iff in IX. destruct IX as (kr & E & IK). specialize (A kr IK). lia.
    + apply bytes_eqb_eq in OK2. subst qq. rewrite C, bytes_eqb_refl. reflexivity.
Qed.

Lemma own_response_of_ex rd wr k o : own_ex rd wr k o -> own_response rd wr (k, o) = true.
Proof.
  intro H. unfold own_response. cbn [fst snd]. destruct (peer_originated o) eqn:P; [|reflexivity].
  destruct (H P) as (id & A & B).
  apply existsb_exists. exists (k, id). split; [exact A|]. cbn [fst snd]. rewrite N.eqb_refl. cbn [andb].
  apply existsb_exists. exists (id, o). split; [exact B|]. cbn [fst snd]. rewrite N.eqb_refl, outcome_eqb_refl. reflexivity.
Qed.

(* C26 (b), conn level: accepted by the model => the monitor holds *)
Lemma conn_accept_monitor script final s :
  closes_local script = true -> crun cinit script = (s, true) -> cfinal_ok s final = true ->
  mon_conn script final = true.
Proof.
  intros CL R FO.
  assert (I0 : CInv (reads_of script) (writes_of script) cinit).
  { constructor; [constructor|]; cbn.
    - intros c m [].
    - intros id c [].
    - intro H. discriminate.
    - intros k al o []. }
  destruct (crun_inv _ _ script cinit s I0 CL R (incl_refl _) (incl_refl _)) as [I RS].
  destruct (crun_wire_ids script cinit s R) as (_ & ND & EC).
  unfold mon_conn. rewrite ND, EC. cbn [andb].
  apply forallb_forall. intros [k o] IN. apply own_response_of_ex.
  apply in_app_or in IN. destruct IN as [IN|IN]; [exact (RS k o IN)|].
  unfold cfinal_ok in FO. apply andb_true_iff in FO. destruct FO as [_ FO].
  rewrite forallb_forall in FO. specialize (FO (k, o) IN). cbn [fst snd] in FO.
  destruct (lookup_fin k (cs_fin (shutdown E_stopped s))) as [al|] eqn:LF; [|discriminate].
  pose proof (shutdown_cinv _ _ E_stopped s I stopped_local) as [_ F].
  exact (F k al o (lookup_fin_in _ _ _ LF) (allowed_in _ _ FO)).
Qed.
