(* Proof/WKStream_feed.v — C23: the adapter loop and the gateway buffering yield the
   original frames for any chunking of a valid stream, and never panic on any input. *)
From WK Require Import Base.Base Base.Bytes Gen.Consts_C22 Model.WKProto Model.WKStream.
From WK Require Import Proof.WKProto Proof.WKProto_types Proof.WKProto_frame Proof.WKStream.
From Coq Require Import ZifyBool ZifyN ZifyNat.
Open Scope N_scope.

Lemma adapter_loop_safe : forall fuel rest v,
  match adapter_loop fuel rest v with AOk _ c => c <= blen rest | AErr => True | APanic => False end.
Proof.
  induction fuel as [|k IH]; intros rest v; cbn [adapter_loop]; [lia|].
  destruct rest as [|b r]; [lia|].
  pose proof (DecodeFrame_no_panic b r v) as NP.
  destruct (DecodeFrame (b :: r) v) as [f m n| | |] eqn:D; [|lia|exact I|exact (NP eq_refl)].
  destruct (DecodeFrame_prefix _ _ _ _ _ D) as [_ [N2 _]].
  destruct (n =? 0); [lia|].
  specialize (IH (skipn (N.to_nat n) (b :: r)) v).
  destruct (adapter_loop k _ v); [|exact I|exact IH].
  unfold blen in *. rewrite skipn_length in IH. lia.
Qed.

Definition enc (v : N) (f : frame) : bytes := frame_bytes f v.
Definition stream_of (v : N) (fs : list frame) : bytes := concat (map (enc v) fs).

Definition all_within (v : N) (fs : list frame) : Prop := Forall (fun f => within_limits v f = true) fs.

Lemma all_within_cons v f r : all_within v (f :: r) <-> within_limits v f = true /\ all_within v r.
Proof. apply Forall_cons_iff. Qed.

Lemma all_within_app v a b : all_within v (a ++ b) <-> all_within v a /\ all_within v b.
Proof. apply Forall_app. Qed.

Lemma all_within_forallb v fs : forallb (within_limits v) fs = true <-> all_within v fs.
Proof. unfold all_within. rewrite forallb_forall, Forall_forall. reflexivity. Qed.

Definition needy (p : bytes) (v : N) : Prop := p = [] \/ DecodeFrame p v = DNeed.

(* what the adapter returns for the frames fs when tl more bytes follow them *)
Fixpoint decoded (v : N) (fs : list frame) (tl : N) : list (frame * meta) :=
  match fs with
  | [] => []
  | f :: r =>
    (normalize v f, Meta (frame_type f) (remlen_of f v) (blen (stream_of v (f :: r)) + tl) false)
    :: decoded v r tl
  end.

Lemma stream_of_nil v : stream_of v [] = [].
Proof. reflexivity. Qed.

Lemma stream_of_cons v f r : stream_of v (f :: r) = frame_bytes f v ++ stream_of v r.
Proof. reflexivity. Qed.

Lemma stream_of_app v a b : stream_of v (a ++ b) = stream_of v a ++ stream_of v b.
Proof. unfold stream_of. rewrite map_app. apply concat_app. Qed.

Lemma map_fst_decoded v fs tl : map fst (decoded v fs tl) = map (normalize v) fs.
Proof. induction fs as [|f r IH]; [reflexivity|]. cbn [decoded map fst]. rewrite IH. reflexivity. Qed.

Lemma blen_stream_pos v f r : 1 <= blen (stream_of v (f :: r)).
Proof.
  rewrite stream_of_cons. pose proof (frame_bytes_nonempty f v) as H.
  destruct (frame_bytes f v); [contradiction|]. autorewrite with blen. lia.
Qed.

(* fuel = bytes of input: every frame consumes at least one *)
Lemma adapter_loop_frames : forall fs v p fuel,
  all_within v fs -> needy p v ->
  (length (stream_of v fs ++ p) <= fuel)%nat ->
  adapter_loop fuel (stream_of v fs ++ p) v = AOk (decoded v fs (blen p)) (blen (stream_of v fs)).
Proof.
  induction fs as [|f r IH]; intros v p fuel W Np Hf.
  - destruct fuel as [|k]; [reflexivity|]. cbn [stream_of map concat app decoded adapter_loop].
    destruct p as [|b p']; [reflexivity|]. destruct Np as [E|E]; [discriminate|]. rewrite E. reflexivity.
  - apply all_within_cons in W. destruct W as [Wf Wr].
    assert (Pos : (1 <= length (frame_bytes f v))%nat)
      by (pose proof (frame_bytes_nonempty f v); destruct (frame_bytes f v); [contradiction|cbn; lia]).
    rewrite stream_of_cons, <- app_assoc in *. rewrite app_length in Hf. destruct fuel as [|k]; [lia|]. cbn [adapter_loop].
    destruct (frame_bytes f v ++ stream_of v r ++ p) as [|b0 r0] eqn:EQ;
      [apply app_eq_nil in EQ; destruct (frame_bytes_nonempty f v (proj1 EQ))|rewrite <- EQ; clear EQ].
    rewrite (DecodeFrame_ok v f _ Wf), skipn_blen.
    replace (blen (frame_bytes f v) =? 0) with false by (unfold blen; lia).
    rewrite (IH v p k Wr Np) by lia. cbn [decoded]. rewrite stream_of_cons, !blen_app. do 4 f_equal. lia.
Qed.

Lemma over_limit_mono limit x y : over_limit limit x = false -> y <= x -> over_limit limit y = false.
Proof. unfold over_limit. intros H L. destruct (0 <? limit); [|reflexivity]. cbn [andb] in *. lia. Qed.

(* the rest p after the complete frames: empty, or a non-empty strict prefix of the next frame *)
Definition pending (v : N) (p : bytes) (rem : list frame) : Prop :=
  p = [] \/ exists f rem' q, rem = f :: rem' /\ p <> [] /\ q <> [] /\ p ++ q = enc v f.

Lemma split_stream v : forall fs a b, a ++ b = stream_of v fs ->
  exists mid rem p, fs = mid ++ rem /\ a = stream_of v mid ++ p /\ p ++ b = stream_of v rem
                    /\ pending v p rem.
Proof.
  induction fs as [|f r IH]; intros a b E.
  - apply app_eq_nil in E. destruct E; subst. exists [], [], []. repeat split. left. reflexivity.
  - rewrite stream_of_cons in E. fold (enc v f) in E.
    destruct (app_eq_app _ _ _ _ E) as [l [[Ea Eb]|[Ea Eb]]]; [|destruct l as [|x l]; [|destruct a as [|y a]]].
    + (* a covers the first frame *)
      destruct (IH l b (eq_sym Eb)) as (mid & rem & p & -> & -> & B & P).
      exists (f :: mid), rem, p. subst a. rewrite app_assoc. repeat split; assumption.
    + rewrite app_nil_r in Ea. subst a b. exists [f], r, []. repeat split; [|left; reflexivity].
      rewrite stream_of_cons, stream_of_nil, !app_nil_r. reflexivity.
    + exists [], (f :: r), []. repeat split; [exact E|left; reflexivity].
    + (* a is a non-empty strict prefix of the first frame *)
      exists [], (f :: r), (y :: a). subst b. repeat split.
      * rewrite stream_of_cons. fold (enc v f). rewrite Ea. apply app_assoc.
      * right. exists f, r, (x :: l). repeat split; (discriminate || auto).
Qed.

Lemma pending_needy v p rem : all_within v rem -> pending v p rem -> needy p v.
Proof.
  intros W [E|(f & rem' & q & -> & Pn & Qn & E)]; [left; exact E|right].
  apply all_within_cons in W. apply (DecodeFrame_incomplete v f p q); (assumption || apply W).
Qed.

(* a pending rest that is the whole remaining stream: nothing remains *)
Lemma pending_all v p rem : pending v p rem -> p = stream_of v rem -> p = [] /\ rem = [].
Proof.
  intros [->|(f & rem' & q & -> & Pn & Qn & E)] S.
  - split; [reflexivity|]. destruct rem as [|f r]; [reflexivity|].
    pose proof (blen_stream_pos v f r) as H. rewrite <- S in H. cbn in H. lia.
  - exfalso. rewrite stream_of_cons in S. fold (enc v f) in S. rewrite <- E in S.
    apply (f_equal (@length N)) in S. rewrite !app_length in S.
    destruct q; [contradiction|]. cbn [length] in S. lia.
Qed.

Definition limit_ok (limit n : N) : Prop := limit = 0 \/ n <= limit.

Lemma limit_ok_over limit n : limit_ok limit n <-> over_limit limit n = false.
Proof. unfold limit_ok, over_limit. destruct (0 <? limit) eqn:Z; cbn [andb]; lia. Qed.

Section Feed.
Variable sv : option N.
Let v : N := sessionVersion_inbound sv.

Lemma Adapter_Decode_frames fs p :
  all_within v fs -> needy p v ->
  Adapter_Decode sv (stream_of v fs ++ p) = AOk (decoded v fs (blen p)) (blen (stream_of v fs)).
Proof. intros W Np. apply adapter_loop_frames; [exact W|exact Np|lia]. Qed.

(* the batch handed to dispatch for the complete frames mid when p stays buffered *)
Definition batch (mid : list frame) (p : bytes) : list (list (frame * meta)) :=
  match mid with [] => [] | _ => [decoded v mid (blen p)] end.

Lemma dif_frames fs p :
  all_within v fs -> needy p v ->
  decodeInboundFrames sv (stream_of v fs ++ p)
  = match fs with
    | [] => DifNotOk
    | _ => DifOk (decoded v fs (blen p)) (blen (stream_of v fs))
    end.
Proof.
  intros W Np. unfold decodeInboundFrames. rewrite (Adapter_Decode_frames fs p W Np), blen_app.
  replace (_ <? _) with false by lia. destruct fs as [|f r]; [reflexivity|].
  pose proof (blen_stream_pos v f r). replace (_ =? 0) with false by lia. reflexivity.
Qed.

Lemma dif_needy p : needy p v -> decodeInboundFrames sv p = DifNotOk.
Proof. exact (dif_frames [] p (Forall_nil _)). Qed.

(* two iterations: the first consumes all complete frames, the second sees the needy rest and
   stops; onData passes S (length inbound), at least 2 on a non-empty buffer *)
Lemma onData_loop_frames fs p fuel acc :
  all_within v fs -> needy p v -> (2 <= fuel)%nat ->
  onData_loop fuel sv (stream_of v fs ++ p) acc = (GW p false false, rev acc ++ batch fs p).
Proof.
  intros W Np Hf. destruct fuel as [|[|k]]; [lia|lia|].
  cbn [onData_loop]. rewrite (dif_frames fs p W Np).
  destruct fs as [|f r]; [cbn [batch]; rewrite app_nil_r; reflexivity|].
  rewrite skipn_blen. destruct k; cbn [onData_loop]; rewrite (dif_needy p Np); reflexivity.
Qed.

(* one chunk: the buffered bytes p0 plus the chunk c are the complete frames mid
   followed by an incomplete rest p *)
Lemma onData_frames limit p0 c mid p :
  all_within v mid -> needy p v ->
  p0 ++ c = stream_of v mid ++ p ->
  over_limit limit (blen (p0 ++ c)) = false ->
  onData limit sv (GW p0 false false) c = (GW p false false, batch mid p).
Proof.
  intros W Np E OL. unfold onData. cbn [gw_closed gw_inbound].
  destruct p0 as [|b0 p0'].
  - cbn [app] in E, OL. rewrite OL, E, (dif_frames mid p W Np).
    destruct mid as [|f r]; [reflexivity|].
    destruct (_ =? _) eqn:Q.
    + rewrite blen_app in Q. rewrite (blen_zero_nil p) by lia. reflexivity.
    + rewrite skipn_blen, (over_limit_mono limit (blen c)) by (exact OL || rewrite E, blen_app; lia).
      destruct p as [|pb pr]; [rewrite app_nil_r in Q; lia|].
      cbn [length onData_loop]. rewrite (dif_needy _ Np). reflexivity.
  - rewrite OL, E. apply (onData_loop_frames mid p _ [] W Np).
    rewrite <- E. cbn [app length]. lia.
Qed.

(* one chunk of a stream: the invariant "buffered = a pending prefix of the remaining
   frames" is kept, and exactly the frames completed by the chunk are dispatched *)
Lemma feed_step limit p0 c cs rem :
  all_within v rem -> pending v p0 rem ->
  p0 ++ concat (c :: cs) = stream_of v rem -> limit_ok limit (blen (stream_of v rem)) ->
  exists mid rem2 p,
    rem = mid ++ rem2 /\ p0 ++ c = stream_of v mid ++ p
    /\ onData limit sv (GW p0 false false) c = (GW p false false, batch mid p)
    /\ all_within v rem2 /\ pending v p rem2
    /\ p ++ concat cs = stream_of v rem2 /\ limit_ok limit (blen (stream_of v rem2)).
Proof.
  intros W P E L. cbn [concat] in E. rewrite app_assoc in E.
  destruct (split_stream v rem (p0 ++ c) (concat cs) E) as (mid & rem2 & p & -> & A & B & P2).
  apply all_within_app in W. destruct W as [Wm Wr].
  exists mid, rem2, p. repeat split; try assumption.
  - apply onData_frames; [exact Wm|exact (pending_needy v p rem2 Wr P2)|exact A|].
    apply limit_ok_over in L. apply (over_limit_mono limit _ _ L). rewrite <- E, (blen_app (p0 ++ c)). lia.
  - apply limit_ok_over in L. apply limit_ok_over, (over_limit_mono limit _ _ L).
    rewrite stream_of_app, blen_app. lia.
Qed.

Theorem feed_stream limit : forall chunks rem p0,
  all_within v rem ->
  pending v p0 rem ->
  p0 ++ concat chunks = stream_of v rem ->
  limit_ok limit (blen (stream_of v rem)) ->
  exists batches,
    feed limit sv (GW p0 false false) chunks = (GW [] false false, batches)
    /\ map fst (concat batches) = map (normalize v) rem.
Proof.
  induction chunks as [|c cs IH]; intros rem p0 W P E L.
  - cbn [concat] in E. rewrite app_nil_r in E.
    destruct (pending_all v p0 rem P E) as [-> ->]. exists []. split; reflexivity.
  - destruct (feed_step limit p0 c cs rem W P E L) as (mid & rem2 & p & -> & _ & OD & W2 & P2 & E2 & L2).
    destruct (IH rem2 p W2 P2 E2 L2) as [bs [FD MF]].
    cbn [feed]. rewrite OD, FD. eexists. split; [reflexivity|].
    rewrite concat_app, !map_app, MF. f_equal.
    destruct mid; [reflexivity|]. cbn [batch concat]. rewrite app_nil_r. apply map_fst_decoded.
Qed.

End Feed.

Lemma dif_no_panic sv data : decodeInboundFrames sv data <> DifPanic.
Proof.
  unfold decodeInboundFrames, Adapter_Decode.
  pose proof (adapter_loop_safe (length data) data (sessionVersion_inbound sv)) as T.
  destruct (adapter_loop _ data _) as [fs c| |]; [|discriminate|destruct T].
  destruct (blen data <? c); [discriminate|]. destruct (c =? 0); [destruct fs|]; discriminate.
Qed.

Lemma onData_loop_no_panic sv : forall fuel inbound acc,
  gw_panicked (fst (onData_loop fuel sv inbound acc)) = false.
Proof.
  induction fuel as [|k IH]; intros inbound acc; [reflexivity|].
  cbn [onData_loop]. pose proof (dif_no_panic sv inbound) as NP.
  destruct (decodeInboundFrames sv inbound); [reflexivity|contradiction|reflexivity|apply IH].
Qed.

Lemma onData_no_panic limit sv st data : gw_panicked st = false ->
  gw_panicked (fst (onData limit sv st data)) = false.
Proof.
  intro H. unfold onData. destruct (gw_closed st); [exact H|].
  destruct (gw_inbound st) as [|b r].
  - destruct (over_limit limit (blen data)); [reflexivity|].
    pose proof (dif_no_panic sv data) as NP.
    destruct (decodeInboundFrames sv data) as [| | |fs c]; [reflexivity|contradiction|reflexivity|].
    destruct (c =? blen data); [reflexivity|].
    destruct (over_limit limit _); [reflexivity|apply onData_loop_no_panic].
  - destruct (over_limit limit _); [reflexivity|apply onData_loop_no_panic].
Qed.

Lemma feed_no_panic limit sv : forall chunks st, gw_panicked st = false ->
  gw_panicked (fst (feed limit sv st chunks)) = false.
Proof.
  induction chunks as [|c cs IH]; intros st H; [exact H|].
  cbn [feed]. pose proof (onData_no_panic limit sv st c H) as H1.
  destruct (onData limit sv st c) as [st1 b1]. specialize (IH st1 H1).
  destruct (feed limit sv st1 cs) as [st2 b2]. exact IH.
Qed.
