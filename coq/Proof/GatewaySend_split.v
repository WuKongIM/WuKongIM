(* Proof/GatewaySend_split.v — the pure splitter lemma for dispatchMailboxBatch:
   the sub-batches concatenate to the input, are non-empty, have at most
   maxRecords items, and exceed maxBytes only as singletons. *)
From WK Require Import Base.Base Model.GatewaySend.
Open Scope N_scope.

Section SplitFacts.
  Context {A : Type} (size : A -> N) (maxrec : nat) (maxbytes : N).
  Hypothesis Hrec : (1 <= maxrec)%nat.

  Lemma split_go_concat : forall items cur cb,
    concat (split_go size maxrec maxbytes cur cb items) = cur ++ items.
  Proof.
    induction items as [|x r IH]; intros cur cb.
    - cbn [split_go]. destruct cur; cbn [concat]; rewrite ?app_nil_r; reflexivity.
    - cbn [split_go].
      destruct (match cur with [] => false | _ :: _ => (0 <? maxbytes) && (maxbytes <? cb + size x) end).
      + destruct (maxrec <=? length ([] ++ [x]))%nat;
          rewrite ?concat_app; cbn [concat app]; rewrite IH; cbn [app];
          rewrite ?app_nil_r; reflexivity.
      + destruct (maxrec <=? length (cur ++ [x]))%nat;
          cbn [concat app]; rewrite IH; cbn [app]; rewrite <- ?app_assoc; reflexivity.
  Qed.

  Definition split_sizes (l : list A) : N := sumN (map size l).

  Lemma split_sizes_cons x l : split_sizes (x :: l) = size x + split_sizes l.
  Proof. reflexivity. Qed.

  Lemma split_sizes_app a b : split_sizes (a ++ b) = split_sizes a + split_sizes b.
  Proof.
    induction a as [|x a IH]; cbn [app].
    - unfold split_sizes at 2. cbn. lia.
    - rewrite !split_sizes_cons, IH. lia.
  Qed.

  (* what every emitted sub-batch satisfies *)
  Definition unit_ok (b : list A) : Prop :=
    b <> [] /\ (length b <= maxrec)%nat /\ (0 < maxbytes -> split_sizes b <= maxbytes \/ length b = 1%nat).

  (* the loop invariant on (cur, cb) = (items[start:i], byteCount) *)
  Definition split_cur_ok (cur : list A) (cb : N) : Prop :=
    cb = split_sizes cur /\ (length cur < maxrec)%nat /\
    (cur = [] \/ (0 < maxbytes -> cb <= maxbytes \/ length cur = 1%nat)).

  Lemma unit_ok_cur cur cb : split_cur_ok cur cb -> cur <> [] -> unit_ok cur.
  Proof.
    intros [Hcb [Hlen Hb]] Hne. repeat split; [exact Hne | lia |].
    destruct Hb as [Hb|Hb]; [contradiction|]. intro H0. subst cb. exact (Hb H0).
  Qed.

  Lemma split_cur_ok_nil : split_cur_ok [] 0.
  Proof. split; [reflexivity | split; [cbn [length]; lia | left; reflexivity]]. Qed.

  (* x joins cur (cur = [] after a flush): by records the result is emitted or carried on *)
  Lemma split_cur_ok_snoc cur cb x :
    split_cur_ok cur cb -> (0 < maxbytes -> cb + size x <= maxbytes \/ cur = []) ->
    let cur2 := cur ++ [x] in
    if (maxrec <=? length cur2)%nat then unit_ok cur2 else split_cur_ok cur2 (cb + size x).
  Proof.
    intros [Hcb [Hlen Hb]] Hbytes cur2.
    assert (Hnew : cb + size x = split_sizes cur2).
    { unfold cur2. rewrite split_sizes_app. subst cb. rewrite split_sizes_cons. unfold split_sizes at 3. cbn. lia. }
    assert (Hb2 : 0 < maxbytes -> split_sizes cur2 <= maxbytes \/ length cur2 = 1%nat).
    { intro H0. destruct (Hbytes H0) as [H|H]; [left; rewrite <- Hnew; exact H | right; unfold cur2; rewrite H; reflexivity]. }
    assert (Hl2 : length cur2 = S (length cur)) by (unfold cur2; rewrite app_length; cbn [length]; lia).
    destruct (maxrec <=? length cur2)%nat eqn:Hm.
    - repeat split; [unfold cur2; destruct cur; discriminate | lia | exact Hb2].
    - apply Nat.leb_gt in Hm. repeat split; [exact Hnew | exact Hm |]. right. rewrite Hnew. exact Hb2.
  Qed.

  Lemma split_go_good : forall items cur cb,
    split_cur_ok cur cb -> Forall unit_ok (split_go size maxrec maxbytes cur cb items).
  Proof.
    induction items as [|x r IH]; intros cur cb Hok.
    - cbn [split_go]. destruct cur as [|y cur'] eqn:E; [constructor|].
      constructor; [|constructor]. apply (unit_ok_cur _ cb Hok). discriminate.
    - cbn [split_go].
      set (flush := match cur with [] => false | _ :: _ => (0 <? maxbytes) && (maxbytes <? cb + size x) end).
      (* after the flush test: what is emitted, and the batch x joins *)
      assert (H1 : Forall unit_ok (if flush then [cur] else [])
                   /\ split_cur_ok (if flush then [] else cur) (if flush then 0 else cb)
                   /\ (0 < maxbytes -> (if flush then 0 else cb) + size x <= maxbytes \/ (if flush then [] else cur) = [])).
      { destruct flush eqn:Hf.
        - split; [|split; [exact split_cur_ok_nil | intros _; right; reflexivity]].
          constructor; [|constructor]. apply (unit_ok_cur _ cb Hok). intros ->. discriminate Hf.
        - split; [constructor|]. split; [exact Hok|]. intro H0. subst flush.
          destruct cur; [right; reflexivity|]. left.
          apply andb_false_iff in Hf. destruct Hf as [Hf|Hf]; apply N.ltb_ge in Hf; lia. }
      destruct H1 as (Hpre & Hok1 & Hbytes). pose proof (split_cur_ok_snoc _ _ x Hok1 Hbytes) as Hsnoc. cbn zeta in Hsnoc.
      destruct (maxrec <=? length ((if flush then [] else cur) ++ [x]))%nat;
        apply Forall_app; (split; [exact Hpre|]).
      + constructor; [exact Hsnoc | apply IH, split_cur_ok_nil].
      + apply IH, Hsnoc.
  Qed.
End SplitFacts.

Lemma eff_maxrec_pos m : (1 <= eff_maxrec m)%nat.
Proof. destruct m; cbn; lia. Qed.

Theorem split_partition {A} (size : A -> N) (maxrec : nat) (maxbytes : N) (items : list A) :
  concat (split size maxrec maxbytes items) = items
  /\ Forall (fun b => b <> []
                      /\ (length b <= eff_maxrec maxrec)%nat
                      /\ (0 < maxbytes -> sumN (map size b) <= maxbytes \/ length b = 1%nat))
            (split size maxrec maxbytes items).
Proof.
  split.
  - unfold split. rewrite split_go_concat. reflexivity.
  - (* [unit_ok] unfolds to the clause of the statement: [split_sizes size b] is [sumN (map size b)] *)
    unfold split. apply (split_go_good size (eff_maxrec maxrec) maxbytes (eff_maxrec_pos maxrec)).
    apply split_cur_ok_nil, eff_maxrec_pos.
Qed.

Lemma units_concat {A} (c : cfg) (size : A -> N) (items : list A) :
  concat (units c size items) = items.
Proof.
  unfold units. destruct (c_batch c).
  - apply split_partition.
  - induction items as [|x r IH]; cbn [map concat app]; [reflexivity|]. rewrite IH. reflexivity.
Qed.

Lemma units_nonempty {A} (c : cfg) (size : A -> N) (items : list A) :
  Forall (fun b => b <> []) (units c size items).
Proof.
  unfold units. destruct (c_batch c).
  - pose proof (proj2 (split_partition size (c_maxrec c) (c_maxbytes c) items)) as H.
    eapply Forall_impl; [|exact H]. cbn. intros b Hb. apply Hb.
  - induction items; cbn [map]; constructor; [discriminate|assumption].
Qed.
