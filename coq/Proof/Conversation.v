(* Proof/Conversation.v — the list item of Model/Conversation.v in terms of the
   specification's read point (unread count, last message, visibility); what an
   accepted ClearUnread / SetUnread / DeleteConversation leaves behind; every step
   of the model satisfies C34_monitor and moves no cursor backwards; the model never
   mismatches itself.  In names: mmf = maxMembershipFloor, jvf = joinVisibilityFloor,
   eread = effective read point, cfm = conversationFromMembership, mmh = membershipMutationHead. *)
From WK Require Import Base.Base Base.Lists Gen.Consts_C34 Model.Conversation.

Open Scope N_scope.

Lemma mmf_fold : forall l acc,
  fold_left (fun out value => if out <? value then value else out) l acc
  = N.max acc (fold_right N.max 0 l).
Proof.
  induction l as [|v l IH]; intro acc; cbn [fold_left fold_right].
  - lia.
  - rewrite IH. destruct (N.ltb_spec acc v); lia.
Qed.

Lemma mmf_max l : maxMembershipFloor l = fold_right N.max 0 l.
Proof. unfold maxMembershipFloor. rewrite mmf_fold. lia. Qed.

Lemma mmf_upper l v : In v l -> v <= maxMembershipFloor l.
Proof.
  rewrite mmf_max. induction l as [|x l IH]; intro H; [contradiction|].
  cbn [fold_right]. destruct H as [->|H]; [lia|]. specialize (IH H). lia.
Qed.

Lemma mmf_attained l : l <> [] -> In (maxMembershipFloor l) l.
Proof.
  rewrite mmf_max. induction l as [|x l IH]; intro H; [contradiction|].
  cbn [fold_right]. destruct l as [|y l'].
  - cbn [fold_right]. left. lia.
  - assert (Hne : y :: l' <> []) by discriminate. specialize (IH Hne).
    destruct (N.max_spec x (fold_right N.max 0 (y :: l'))) as [[_ E]|[_ E]]; rewrite E.
    + right. exact IH.
    + left. reflexivity.
Qed.

Lemma jvf_pred j : joinVisibilityFloor j = N.pred j.
Proof. unfold joinVisibilityFloor. destruct (N.eqb_spec j 0); lia. Qed.

Lemma floor_spec row hd : visibilityFloor row hd = spec_floor row hd.
Proof.
  unfold visibilityFloor, spec_floor. rewrite mmf_max, jvf_pred. cbn [fold_right]. lia.
Qed.

Lemma eread_spec row hd :
  maxMembershipFloor [visibilityFloor row hd; r_read row; h_own hd] = spec_effective_read row hd.
Proof.
  unfold spec_effective_read. rewrite mmf_max, floor_spec. cbn [fold_right]. lia.
Qed.

(* the committed sequences of a channel whose head is [last] are 1..last; count
   those strictly after [er] *)
Definition committed_after (er last : N) : N :=
  N.of_nat (length (filter (fun s => er <? N.of_nat s) (seq 1 (N.to_nat last)))).

Lemma count_after er : forall n,
  length (filter (fun s => er <? N.of_nat s) (seq 1 n)) = (n - N.to_nat er)%nat.
Proof.
  induction n as [|n IH]; [reflexivity|].
  rewrite seq_S, filter_app, app_length, IH. cbn [filter].
  destruct (N.ltb_spec er (N.of_nat (1 + n))); cbn [length]; lia.
Qed.

Lemma committed_after_sub er last : committed_after er last = last - er.
Proof. unfold committed_after. rewrite count_after. lia. Qed.

Lemma cfm_some row hd c : conversationFromMembership row hd = Some c ->
  (visibleMessage row hd = true \/ (0 < r_activated row)%Z)
  /\ c_unread c = h_last hd - spec_effective_read row hd
  /\ c_last c = match h_msg hd with
                | Some s => if visibleMessage row hd && (spec_floor row hd <? s) then Some s else None
                | None => None
                end
  /\ c_join c = r_join row /\ c_active c = r_activated row /\ c_read c = r_read row
  /\ c_deleted c = r_deleted row /\ c_updated c = r_updated row.
Proof.
  unfold conversationFromMembership. cbv zeta. rewrite eread_spec, floor_spec.
  destruct (negb (visibleMessage row hd) && (r_activated row <=? 0)%Z) eqn:E; [discriminate|].
  intro H. inversion H; subst c; clear H. cbn [c_unread c_last c_join c_active c_read c_deleted c_updated].
  split; [|split; [|split; [reflexivity|repeat split]]].
  - destruct (visibleMessage row hd); [left; reflexivity|right]. cbn [negb andb] in E. lia.
  - destruct (N.ltb_spec (spec_effective_read row hd) (h_last hd)); lia.
Qed.

Lemma cfm_unread row hd c : conversationFromMembership row hd = Some c ->
  c_unread c = h_last hd - spec_effective_read row hd.
Proof. intro H. apply (cfm_some row hd c H). Qed.

Lemma cfm_last row hd c : conversationFromMembership row hd = Some c ->
  c_last c = match h_msg hd with
             | Some s => if visibleMessage row hd && (spec_floor row hd <? s) then Some s else None
             | None => None
             end.
Proof. intro H. apply (cfm_some row hd c H). Qed.

Lemma cfm_none row hd : conversationFromMembership row hd = None <->
  visibleMessage row hd = false /\ (r_activated row <= 0)%Z.
Proof.
  unfold conversationFromMembership. cbv zeta.
  destruct (visibleMessage row hd); cbn [negb andb].
  - split; [discriminate|]. intros [H _]. discriminate.
  - destruct (Z.leb_spec (r_activated row) 0); split; try discriminate; try tauto.
    intros [_ H']. lia.
Qed.

Lemma last_visible row hd c s : conversationFromMembership row hd = Some c -> c_last c = Some s ->
  h_msg hd = Some s /\ spec_floor row hd < s
  /\ r_join row <= s /\ r_deleted row < s /\ h_ret hd < s
  /\ r_join row <= h_last hd /\ r_deleted row < h_last hd.
Proof.
  intros H Hs. apply cfm_last in H. rename H into Hl. rewrite Hs in Hl.
  destruct (h_msg hd) as [m|]; [|discriminate].
  destruct (visibleMessage row hd) eqn:V; cbn [andb] in Hl; [|discriminate].
  destruct (N.ltb_spec (spec_floor row hd) m); [|discriminate]. inversion Hl; subst m.
  apply andb_true_iff in V. rewrite N.leb_le, N.ltb_lt in V. unfold spec_floor in *. split; [reflexivity|]. lia.
Qed.

Lemma item_ok_model row hd c : conversationFromMembership row hd = Some c -> item_ok row hd c = true.
Proof.
  intro H. unfold item_ok. destruct (cfm_some row hd c H) as (Hv & -> & _ & -> & -> & -> & -> & ->).
  rewrite !N.eqb_refl, !Z.eqb_refl, !andb_true_r, (proj2 (N.leb_le _ _) (N.le_sub_l _ _)). cbn [andb].
  apply andb_true_intro. split.
  - destruct (c_last c) as [s|] eqn:Hs; [|reflexivity].
    destruct (last_visible row hd c s H Hs) as (-> & _ & A & B & C & _). cbn [option_eqb].
    rewrite N.eqb_refl, (proj2 (N.leb_le _ _) A), (proj2 (N.ltb_lt _ _) B), (proj2 (N.ltb_lt _ _) C). reflexivity.
  - destruct Hv as [Hv|Hv]; [exact (orb_true_intro _ _ (or_introl Hv))|].
    apply orb_true_iff. right. apply Z.ltb_lt. exact Hv.
Qed.

Lemma classify_item row hd c : classify row hd = LItem c -> conversationFromMembership row hd = Some c.
Proof.
  unfold classify. destruct (h_outcome hd =? HydrationDelete); [discriminate|].
  destruct (h_outcome hd =? HydrationRetryable); [discriminate|].
  destruct ((h_outcome hd =? HydrationOK) || (h_outcome hd =? HydrationNoVisibleMessage)); [|discriminate].
  destruct (conversationFromMembership row hd); [|discriminate]. intro H. inversion H. reflexivity.
Qed.

Lemma listed_item_inv st hd c : List st hd = LItem c \/ Retry st hd = LItem c ->
  exists row, st = Some row /\ r_tomb row = false /\ conversationFromMembership row hd = Some c.
Proof.
  unfold List, Retry. destruct st as [row|]; [|intros [H|H]; discriminate].
  destruct (r_tomb row) eqn:T; [intros [H|H]; discriminate|].
  intros [H|H]; exists row; (split; [reflexivity|split; [exact T|apply classify_item; exact H]]).
Qed.

Lemma listing_ok_listed st hd l : List st hd = l \/ Retry st hd = l -> listing_ok st hd l = true.
Proof.
  intro Hl. destruct l as [| | | |c]; try reflexivity.
  destruct (listed_item_inv st hd c Hl) as (row & -> & T & H). cbn [listing_ok]. rewrite T.
  exact (item_ok_model row hd c H).
Qed.

(* the monitor judges a pure op against the row with the tombstone flag cleared; [item_ok]
   reads every field except [r_tomb], so that is [item_ok r hd c] by conversion *)
Lemma listing_ok_pure r hd :
  listing_ok (Some (MRow (r_join r) (r_read r) (r_deleted r) (r_activated r) false (r_updated r)))
             hd (pure_listing r hd) = true.
Proof.
  unfold listing_ok, pure_listing.
  destruct (conversationFromMembership r hd) as [c|] eqn:E; [|reflexivity].
  cbn [r_tomb negb andb].
  replace (item_ok (MRow (r_join r) (r_read r) (r_deleted r) (r_activated r) false (r_updated r)) hd c)
    with (item_ok r hd c) by reflexivity.
  apply item_ok_model. exact E.
Qed.

Lemma mmh_cases st hd :
  match membershipMutationHead st hd with
  | inl e => e <> 0
  | inr row => st = Some row /\ r_tomb row = false
               /\ (h_outcome hd = HydrationOK \/ h_outcome hd = HydrationNoVisibleMessage)
  end.
Proof.
  unfold membershipMutationHead. destruct st as [r|]; [|discriminate].
  destruct (r_tomb r) eqn:T; [discriminate|].
  destruct (N.eqb_spec (h_outcome hd) HydrationOK); cbn [orb]; [auto|].
  destruct (N.eqb_spec (h_outcome hd) HydrationNoVisibleMessage); [auto|].
  destruct (h_outcome hd =? HydrationDelete); [discriminate|].
  destruct (h_outcome hd =? HydrationRetryable); discriminate.
Qed.

Lemma mutate_live row f : r_tomb row = false -> mutate (Some row) f = (EOk, Some (f row)).
Proof. intro T. unfold mutate. rewrite T. reflexivity. Qed.

Lemma set_target_spec row hd n :
  setUnreadTarget row hd n = N.max (spec_floor row hd) (h_last hd - n).
Proof.
  unfold setUnreadTarget. cbv zeta. rewrite floor_spec.
  destruct (N.ltb_spec n (h_last hd)).
  - rewrite mmf_max. cbn [fold_right]. lia.
  - lia.
Qed.

Lemma transition_refl st : transition_ok st st = true.
Proof.
  destruct st as [row|]; [|reflexivity]. cbn [transition_ok].
  rewrite !N.leb_refl, N.eqb_refl, eqb_reflx. reflexivity.
Qed.

Lemma transition_ok_intro row row' :
  r_read row <= r_read row' -> r_deleted row <= r_deleted row' -> r_join row' = r_join row ->
  r_tomb row' = r_tomb row -> transition_ok (Some row) (Some row') = true.
Proof.
  intros A B C D. cbn [transition_ok].
  rewrite C, D, N.eqb_refl, eqb_reflx, (proj2 (N.leb_le _ _) A), (proj2 (N.leb_le _ _) B). reflexivity.
Qed.

Lemma transition_ok_Some b st' :
  transition_ok (Some b) st' = true <->
  exists a, st' = Some a /\ r_read b <= r_read a /\ r_deleted b <= r_deleted a
            /\ r_join a = r_join b /\ r_tomb a = r_tomb b.
Proof.
  destruct st' as [a|]; cbn [transition_ok]; [|split; [discriminate|intros (a & [=] & _)]].
  rewrite !andb_true_iff, !N.leb_le, N.eqb_eq, eqb_true_iff. split.
  - intros [[[? ?] ?] ?]. exists a. auto.
  - intros (a' & [= <-] & ? & ? & ? & ?). auto.
Qed.

Lemma transition_ok_None st' : transition_ok None st' = true <-> st' = None.
Proof. destruct st'; cbn [transition_ok]; split; congruence. Qed.

Lemma transition_trans a b c :
  transition_ok a b = true -> transition_ok b c = true -> transition_ok a c = true.
Proof.
  destruct a as [x|].
  - rewrite !transition_ok_Some. intros (y & -> & ? & ? & ? & ?). rewrite transition_ok_Some.
    intros (z & -> & ? & ? & ? & ?). exists z. repeat split; try congruence; lia.
  - rewrite !transition_ok_None. intros ->. rewrite transition_ok_None. auto.
Qed.

(* closes both halves of a [*_spec] goal in a branch that returns error class [e] with the
   state untouched *)
Lemma refused st e (P : Prop) : e <> 0 -> transition_ok st st = true /\ (e = 0 -> P).
Proof. intro H. split; [apply transition_refl|contradiction]. Qed.

Lemma clear_spec st hd now :
  let r := ClearUnread st hd now in
  transition_ok st (res_st r) = true
  /\ (res_err r = 0 -> exists row', res_st r = Some row' /\ r_tomb row' = false
                                    /\ h_last hd <= r_read row').
Proof.
  cbv zeta. unfold ClearUnread. pose proof (mmh_cases st hd) as M.
  destruct (membershipMutationHead st hd) as [e|row]; [exact (refused st e _ M)|]. destruct M as (-> & T & _).
  destruct (N.leb_spec (h_last hd) (r_read row)) as [Hle|Hgt]; cbn [res_st res_err].
  - split; [apply transition_refl|]. intros _. exists row. auto.
  - unfold AdvanceUserChannelMembershipReadSeq. rewrite (mutate_live _ _ T), (proj2 (N.ltb_lt _ _) Hgt).
    destruct (now <? 0)%Z; cbn [res_st res_err]; [apply refused; discriminate|].
    split; [apply transition_ok_intro; cbn; auto; lia|]. intros _. eexists. repeat split; cbn; auto; lia.
Qed.

Lemma set_spec st hd now n :
  let r := SetUnread st hd now n in
  transition_ok st (res_st r) = true
  /\ (res_err r = 0 -> (0 <= n)%Z /\ exists row', res_st r = Some row' /\ r_tomb row' = false
        /\ h_last hd - Z.to_N n <= N.max (spec_floor row' hd) (r_read row')).
Proof.
  cbv zeta. unfold SetUnread.
  destruct (Z.ltb_spec n 0) as [Hn|Hn]; [apply refused; discriminate|]. pose proof (mmh_cases st hd) as M.
  destruct (membershipMutationHead st hd) as [e|row]; [exact (refused st e _ M)|]. destruct M as (-> & T & _).
  pose proof (set_target_spec row hd (Z.to_N n)) as TS.
  destruct (N.leb_spec (setUnreadTarget row hd (Z.to_N n)) (r_read row)) as [Hle|Hgt]; cbn [res_st res_err].
  - split; [apply transition_refl|]. intros _. split; [exact Hn|]. exists row. repeat split; auto; lia.
  - unfold AdvanceUserChannelMembershipReadSeq. rewrite (mutate_live _ _ T), (proj2 (N.ltb_lt _ _) Hgt).
    destruct (now <? 0)%Z; cbn [res_st res_err]; [apply refused; discriminate|].
    split; [apply transition_ok_intro; cbn; auto; lia|]. intros _. split; [exact Hn|].
    eexists. repeat split; cbn; auto. unfold spec_floor in *. cbn. lia.
Qed.

Lemma delete_spec st hd now :
  let r := DeleteConversation st hd now in
  transition_ok st (res_st r) = true
  /\ (res_err r = 0 -> exists row', res_st r = Some row' /\ r_tomb row' = false
        /\ h_last hd <= r_deleted row' /\ r_activated row' = 0%Z
        /\ (h_outcome hd = HydrationOK \/ h_outcome hd = HydrationNoVisibleMessage)).
Proof.
  cbv zeta. unfold DeleteConversation. pose proof (mmh_cases st hd) as M.
  destruct (membershipMutationHead st hd) as [e|row]; [exact (refused st e _ M)|]. destruct M as (-> & T & O).
  unfold HideUserChannelMembership. rewrite (mutate_live _ _ T).
  destruct (now <? 0)%Z; cbn [res_st res_err]; [apply refused; discriminate|].
  assert (L : r_deleted row <= (if r_deleted row <? h_last hd then h_last hd else r_deleted row)
              /\ h_last hd <= (if r_deleted row <? h_last hd then h_last hd else r_deleted row))
    by (destruct (N.ltb_spec (r_deleted row) (h_last hd)); lia).
  split; [apply transition_ok_intro; cbn; auto; lia|]. intros _. eexists. repeat split; cbn; auto; lia.
Qed.

Lemma activate_transition st now :
  transition_ok st (res_st (ActivateConversation st now)) = true.
Proof.
  unfold ActivateConversation, ActivateUserChannelMembership, mutate.
  destruct ((now <=? 0)%Z || (now <? 0)%Z); [apply transition_refl|].
  destruct st as [row|]; [|reflexivity]. destruct (r_tomb row) eqn:T; [apply transition_refl|].
  destruct (r_activated row <? now)%Z; [|apply transition_refl].
  apply transition_ok_intro; cbn; auto; lia.
Qed.

Lemma clear_zero st hd now c :
  res_err (ClearUnread st hd now) = 0 ->
  List (res_st (ClearUnread st hd now)) hd = LItem c \/ Retry (res_st (ClearUnread st hd now)) hd = LItem c ->
  c_unread c = 0.
Proof.
  intros E L. destruct (clear_spec st hd now) as [_ H]. destruct (H E) as [row' [S [_ Hr]]].
  apply listed_item_inv in L. destruct L as [row [S' [_ Hc]]]. rewrite S in S'. injection S' as <-.
  rewrite (cfm_unread row' hd c Hc). unfold spec_effective_read. lia.
Qed.

Lemma set_at_most st hd now n c :
  res_err (SetUnread st hd now n) = 0 ->
  List (res_st (SetUnread st hd now n)) hd = LItem c \/ Retry (res_st (SetUnread st hd now n)) hd = LItem c ->
  (0 <= n)%Z /\ (Z.of_N (c_unread c) <= n)%Z.
Proof.
  intros E L. destruct (set_spec st hd now n) as [_ H]. destruct (H E) as [Hn [row' [S [_ Hr]]]].
  split; [exact Hn|].
  apply listed_item_inv in L. destruct L as [row [S' [_ Hc]]]. rewrite S in S'. injection S' as <-.
  apply cfm_unread in Hc. unfold spec_effective_read in Hc. lia.
Qed.

Lemma delete_hides st hd now :
  res_err (DeleteConversation st hd now) = 0 ->
  List (res_st (DeleteConversation st hd now)) hd = LNone
  /\ Retry (res_st (DeleteConversation st hd now)) hd = LNone.
Proof.
  intros E. destruct (delete_spec st hd now) as [_ H].
  destruct (H E) as [row' [S [T [Hd [Ha O]]]]]. rewrite S.
  assert (C : classify row' hd = LNone).
  { unfold classify.
    assert (Hn : conversationFromMembership row' hd = None).
    { apply cfm_none. split; [|lia]. unfold visibleMessage.
      apply andb_false_iff. right. apply N.ltb_ge. exact Hd. }
    rewrite Hn. destruct O as [O|O]; rewrite O; reflexivity. }
  unfold List, Retry. rewrite T, C. split; reflexivity.
Qed.

Lemma step_row st o : b_row (snd (step st o)) = fst (step st o).
Proof. unfold step. destruct (o_k o); reflexivity. Qed.

Lemma post_ok_of k e l :
  (e = 0 -> match k, l with
            | OClear, LItem c => c_unread c = 0
            | OSet n, LItem c => (Z.of_N (c_unread c) <= n)%Z
            | ODelete, LItem c => False
            | _, _ => True
            end) -> post_ok k e l = true.
Proof.
  unfold post_ok. destruct (N.eqb_spec e 0) as [E|_]; [|reflexivity]. intro H. specialize (H E).
  destruct k, l; try reflexivity; try contradiction; cbn [negb].
  - rewrite H. reflexivity.
  - apply Z.leb_le. exact H.
Qed.

(* the five conjuncts of the non-pure branch of [step_ok], from the transition and a
   post-condition that holds for whichever of List / Retry produced [l] *)
Lemma finish_ok st k hd r :
  transition_ok st (res_st r) = true ->
  (forall l, List (res_st r) hd = l \/ Retry (res_st r) hd = l -> post_ok k (res_err r) l = true) ->
  transition_ok st (res_st r)
  && listing_ok (res_st r) hd (List (res_st r) hd) && listing_ok (res_st r) hd (Retry (res_st r) hd)
  && post_ok k (res_err r) (List (res_st r) hd) && post_ok k (res_err r) (Retry (res_st r) hd) = true.
Proof.
  intros T P. rewrite T, !listing_ok_listed, !P; auto.
Qed.

Lemma step_ok_model st o : step_ok st o (snd (step st o)) = true.
Proof.
  unfold step_ok, step. destruct o as [k now hd]. cbn [o_k o_now o_head].
  destruct k as [|n| | | |r]; cbn [snd fst b_row b_list b_retry b_err];
    [apply finish_ok; [|intros l Hl; apply post_ok_of; intro E; destruct l; auto].. |].
  - (* OClear: transition *) apply clear_spec.
  - (* OClear: a listed item *) exact (clear_zero st hd now c E Hl).
  - (* OSet: transition *) apply set_spec.
  - (* OSet: a listed item *) exact (proj2 (set_at_most st hd now n c E Hl)).
  - (* ODelete: transition *) apply delete_spec.
  - (* ODelete: nothing is listed *)
    destruct (delete_hides st hd now E) as [H1 H2]. destruct Hl as [Hl|Hl]; congruence.
  - (* OActivate: only the transition, nothing is promised about the listings *)
    apply activate_transition.
  - (* OObserve: the state is untouched *) apply transition_refl.
  - (* OPure: the state is untouched and the listing is judged against the given row *)
    rewrite transition_refl, listing_ok_pure. reflexivity.
Qed.

Lemma steps_ok_model : forall ops st, steps_ok st (combine ops (run st ops)) = true.
Proof.
  induction ops as [|o ops IH]; intro st; [reflexivity|].
  cbn [run]. destruct (step st o) as [st' b] eqn:S. cbn [combine steps_ok].
  pose proof (step_ok_model st o) as H1. pose proof (step_row st o) as H2.
  rewrite S in H1, H2. cbn [snd fst] in H1, H2. rewrite H1, H2. apply IH.
Qed.

Lemma model_satisfies_monitor st ops : C34_monitor (C34Case st (combine ops (run st ops))) = 0.
Proof. unfold C34_monitor. cbn [k_row k_steps]. rewrite steps_ok_model. reflexivity. Qed.

Fixpoint final (st : option mrow) (ops : list op) : option mrow :=
  match ops with
  | [] => st
  | o :: rest => final (fst (step st o)) rest
  end.

Lemma step_ok_transition before o b : step_ok before o b = true -> transition_ok before (b_row b) = true.
Proof. unfold step_ok. destruct (o_k o); rewrite !andb_true_iff; tauto. Qed.

Lemma step_transition st o : transition_ok st (fst (step st o)) = true.
Proof. rewrite <- step_row. exact (step_ok_transition st o _ (step_ok_model st o)). Qed.

Lemma history_monotone : forall ops st, transition_ok st (final st ops) = true.
Proof.
  induction ops as [|o ops IH]; intro st; [apply transition_refl|].
  cbn [final]. eapply transition_trans; [apply step_transition|apply IH].
Qed.

Lemma obs_eqb_refl a : obs_eqb a a = true.
Proof.
  assert (L : forall l, listing_eqb l l = true).
  { intros [| | | |c]; try reflexivity. unfold listing_eqb, conv_eqb.
    rewrite !N.eqb_refl, !Z.eqb_refl, (option_eqb_refl N.eqb N.eqb_refl). reflexivity. }
  assert (R : forall r, mrow_eqb r r = true).
  { intro r. unfold mrow_eqb. rewrite !N.eqb_refl, !Z.eqb_refl, eqb_reflx. reflexivity. }
  unfold obs_eqb. rewrite N.eqb_refl, !L, (option_eqb_refl mrow_eqb R).
  destruct (b_call a); cbn [call_eqb]; rewrite ?N.eqb_refl, ?Z.eqb_refl; reflexivity.
Qed.

Lemma run_length : forall ops st, length (run st ops) = length ops.
Proof.
  induction ops as [|o ops IH]; intro st; [reflexivity|].
  cbn [run]. destruct (step st o). cbn [length]. rewrite IH. reflexivity.
Qed.

Lemma model_no_mismatch st ops : C34_mismatch (C34Case st (combine ops (run st ops))) = false.
Proof.
  unfold C34_mismatch. cbn [k_row k_steps].
  destruct (map_combine ops (run st ops) (eq_sym (run_length ops st))) as [E1 E2].
  rewrite E1, E2, (list_eqb_refl obs_eqb obs_eqb_refl). reflexivity.
Qed.
