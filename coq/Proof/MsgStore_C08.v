(* Proof/MsgStore_C08.v — C08: a (sender, client msg no) pair maps to at most one
   message; a message id is stored at most once (strict mode).

   1. the concrete two-layer Bloom filter is sound for arbitrary hash functions;
   2. for every sound filter the loaded filter covers the durable idempotency
      keys in every reachable state ([Cov], an invariant of all histories);
   3. under [R] and [Cov], a batch the plain log must reject ([must_reject]) is
      rejected by the model -- same batch, later batch, after release / reopen /
      truncation / trim, in strict and server-allocated-id mode;
   4. hence the C08 monitor accepts every trace of the model;
   5. uniqueness: tainted-or-unique in every related state ([unique_pair],
      [unique_id]), absolute in histories without trusted appends / with strict
      appends only ([unique_pair_strict], [unique_id_strict]; the logs then carry
      no taint: [NoPT], [NoIT]);
   6. the whole C07 monitor (refinement + no accepted retry) on the executable
      model ([c07_monitor_zero_on_model]), and the witness of finding C08-K1. *)
From WK Require Import Base.Base Base.Lists Model.KV Gen.Consts_C07 Model.MsgStore Model.MsgStore_C07 Model.MsgStore_C08
     Proof.KV Proof.MsgStore_base Proof.MsgStore_rel Proof.MsgStore_reads Proof.MsgStore_frame
     Proof.MsgStore_mut Proof.MsgStore_step Proof.MsgStore_ops Proof.MsgStore_C07.
From Coq Require Import Sorting.Permutation Sorting.Sorted.

Section BloomSound.
  Variables h1 h2 : bytes * bytes -> N.

  Lemma layer_may_add l w k : layer_may h1 h2 (layer_add h1 h2 l w k) w k = true.
  Proof.
    unfold layer_may, layer_add. apply forallb_forall. intros b Hb. apply mem_N_in. apply in_or_app. left. exact Hb.
  Qed.

  Lemma layer_may_mono l w k k' : layer_may h1 h2 l w k' = true -> layer_may h1 h2 (layer_add h1 h2 l w k) w k' = true.
  Proof.
    unfold layer_may, layer_add. destruct l as [bits|]; [|discriminate].
    intro H. apply forallb_forall. intros b Hb. eapply forallb_forall in H; [|exact Hb].
    apply mem_N_in. apply in_or_app. right. apply mem_N_in. exact H.
  Qed.

  Theorem bloom_add_sound f k : bloom_may h1 h2 (bloom_add h1 h2 f k) k = true.
  Proof.
    unfold bloom_add. destruct (bloom_may h1 h2 f k) eqn:E; [exact E|].
    destruct (b_adds f <? idempotencyMembershipPrimaryCapacity); unfold bloom_may; cbn [b_prim b_over].
    - rewrite layer_may_add. reflexivity.
    - rewrite layer_may_add. apply orb_true_r.
  Qed.

  Theorem bloom_add_mono f k k' : bloom_may h1 h2 f k' = true -> bloom_may h1 h2 (bloom_add h1 h2 f k) k' = true.
  Proof.
    intro H. unfold bloom_add. destruct (bloom_may h1 h2 f k); [exact H|].
    unfold bloom_may in *. apply orb_true_iff in H.
    destruct (b_adds f <? idempotencyMembershipPrimaryCapacity); cbn [b_prim b_over]; apply orb_true_iff;
      destruct H as [H|H]; try (left; exact H); try (right; exact H).
    - left. apply layer_may_mono. exact H.
    - right. apply layer_may_mono. exact H.
  Qed.

  (* the empty filter contains nothing: the first lookup of a key skips the read *)
  Lemma bloom_empty_none k : bloom_may h1 h2 bloom_empty k = false.
  Proof. reflexivity. Qed.
End BloomSound.

Lemma row_eq_dec (a b : row) : {a = b} + {a <> b}.
Proof.
  decide equality; try apply N.eq_dec; try apply Z.eq_dec; apply (list_eq_dec N.eq_dec).
Qed.

Section Cov.
  Variable F : Type.
  Variable f_empty : F.
  Variable f_may : F -> bytes * bytes -> bool.
  Variable f_add : F -> bytes * bytes -> F.
  Hypothesis f_sound : forall f k, f_may (f_add f k) k = true.
  Hypothesis f_mono : forall f k k', f_may f k' = true -> f_may (f_add f k) k' = true.

  Notation mstate := (mstate F).
  Notation st_kv := (st_kv F).
  Notation st_cache := (st_cache F).
  Notation validateAppendRow := (validateAppendRow F f_may f_add).
  Notation validate_rows := (validate_rows F f_may f_add).
  Notation add_key := (add_key F f_add).

  Definition covers (st : mstate) (c : N) (n u : bytes) : Prop :=
    cc_floaded F (st_cache st c) = true -> f_may (cc_filter F (st_cache st c)) (n, u) = true.

  (* a loaded filter answers "maybe" for every durable idempotency key of its channel *)
  Definition Cov (st : mstate) : Prop :=
    forall c n u q i h, kget (KyIdem c n u) (st_kv st) = Some (VIdem q i h) -> covers st c n u.

  (* the filter of a channel only grows and is never unloaded *)
  Definition grows (st st' : mstate) : Prop :=
    st_kv st' = st_kv st
    /\ forall c, (cc_floaded F (st_cache st c) = true -> cc_floaded F (st_cache st' c) = true)
                 /\ forall k, cc_floaded F (st_cache st c) = true -> f_may (cc_filter F (st_cache st c)) k = true ->
                              f_may (cc_filter F (st_cache st' c)) k = true.

  Lemma grows_refl st : grows st st.
  Proof. split; [reflexivity|]. intro c. split; auto. Qed.

  Lemma grows_trans a b c : grows a b -> grows b c -> grows a c.
  Proof.
    intros [H1 H2] [H3 H4]. split; [congruence|]. intro x. destruct (H2 x) as [A B], (H4 x) as [C D].
    split; [auto|]. intros k Hl Hm. apply D; [auto|]. apply B; assumption.
  Qed.

  Lemma grows_covers st st' c n u : grows st st' -> covers st c n u -> cc_floaded F (st_cache st c) = true -> covers st' c n u.
  Proof. intros [_ H] Hc Hl _. destruct (H c) as [_ B]. apply B; [exact Hl|]. apply Hc. exact Hl. Qed.

  Lemma fold_add_mono (l : list (bytes * bytes * (N * N * N))) : forall f k,
    f_may f k = true -> f_may (fold_left (fun f e => f_add f (fst (fst e), snd (fst e))) l f) k = true.
  Proof. induction l as [|e l IH]; intros f k H; cbn [fold_left]; [exact H|]. apply IH. apply f_mono. exact H. Qed.

  Lemma fold_add_in (l : list (bytes * bytes * (N * N * N))) : forall f e,
    In e l -> f_may (fold_left (fun f e => f_add f (fst (fst e), snd (fst e))) l f) (fst (fst e), snd (fst e)) = true.
  Proof.
    induction l as [|x l IH]; intros f e []; cbn [fold_left].
    - subst. apply fold_add_mono. apply f_sound.
    - apply IH. assumption.
  Qed.

  Lemma set_filter_cache st c f b c' :
    st_cache (set_filter F st c f b) c'
    = if c' =? c then CC F (cc_leo F (st_cache st c)) (cc_loaded F (st_cache st c)) f b else st_cache st c'.
  Proof. reflexivity. Qed.

  Lemma grows_Cov st st' : grows st st' -> Cov st ->
    (forall c, cc_floaded F (st_cache st c) = false -> cc_floaded F (st_cache st' c) = true ->
               forall n u q i h, kget (KyIdem c n u) (st_kv st) = Some (VIdem q i h) -> f_may (cc_filter F (st_cache st' c)) (n, u) = true) ->
    Cov st'.
  Proof.
    intros [Hk Hg] HC Hnew c n u q i h G Hl. rewrite Hk in G.
    destruct (cc_floaded F (st_cache st c)) eqn:E.
    - destruct (Hg c) as [_ B]. apply B; [exact E|]. apply (HC c n u q i h G). exact E.
    - eapply Hnew; eassumption.
  Qed.

  Lemma ensure_grows st c : grows st (ensureIdempotencyMembershipLoaded F f_add st c).
  Proof.
    unfold ensureIdempotencyMembershipLoaded. destruct (cc_floaded F (st_cache st c)) eqn:E; [apply grows_refl|].
    split; [reflexivity|]. intro c'. rewrite set_filter_cache.
    destruct (c' =? c) eqn:Ec; [|split; auto]. apply N.eqb_eq in Ec. subst c'. cbn [cc_floaded cc_filter].
    split; [reflexivity|]. intros k Hl. rewrite E in Hl. discriminate.
  Qed.

  Lemma ensure_loaded st c :
    swf (st_kv st) -> Cov st ->
    let st' := ensureIdempotencyMembershipLoaded F f_add st c in
    cc_floaded F (st_cache st' c) = true
    /\ forall n u q i h, kget (KyIdem c n u) (st_kv st) = Some (VIdem q i h) -> f_may (cc_filter F (st_cache st' c)) (n, u) = true.
  Proof.
    intros W HC. unfold ensureIdempotencyMembershipLoaded.
    destruct (cc_floaded F (st_cache st c)) eqn:E.
    - split; [exact E|]. intros n u q i h G. apply (HC c n u q i h G). exact E.
    - rewrite set_filter_cache, N.eqb_refl. cbn [cc_floaded cc_filter].
      split; [reflexivity|]. intros n u q i h G.
      apply (in_idem_entries _ _ _ _ _ _ _ W) in G.
      apply (fold_add_in _ (cc_filter F (st_cache st c)) (n, u, (q, i, h))). exact G.
  Qed.

  Lemma ensure_Cov st c :
    swf (st_kv st) -> Cov st -> Cov (ensureIdempotencyMembershipLoaded F f_add st c).
  Proof.
    intros W HC. destruct (ensure_loaded st c W HC) as [_ Hcov].
    apply (grows_Cov st); [apply ensure_grows|exact HC|]. intros c' Hf Ht n u q i h G.
    assert (c' = c).
    { unfold ensureIdempotencyMembershipLoaded in Ht. destruct (cc_floaded F (st_cache st c)); [congruence|].
      rewrite set_filter_cache in Ht. destruct (c' =? c) eqn:Ec; [apply N.eqb_eq; exact Ec|congruence]. }
    subst c'. eapply Hcov. exact G.
  Qed.

  Lemma add_key_Cov st c k :
    Cov st -> cc_floaded F (st_cache st c) = true ->
    grows st (add_key st c k) /\ Cov (add_key st c k) /\ covers (add_key st c k) c (fst k) (snd k)
    /\ forall c', cc_floaded F (st_cache (add_key st c k) c') = cc_floaded F (st_cache st c').
  Proof.
    intros HC Hl. unfold MsgStore_step.add_key.
    assert (Hf : forall c', cc_floaded F (st_cache (set_filter F st c (f_add (cc_filter F (st_cache st c)) k) true) c')
                            = cc_floaded F (st_cache st c')).
    { intro c'. rewrite set_filter_cache. destruct (c' =? c) eqn:E; [|reflexivity]. apply N.eqb_eq in E. subst. symmetry. exact Hl. }
    assert (Hg : grows st (set_filter F st c (f_add (cc_filter F (st_cache st c)) k) true)).
    { split; [reflexivity|]. intro c'. rewrite set_filter_cache.
      destruct (c' =? c) eqn:E; [|split; auto]. apply N.eqb_eq in E. subst c'. cbn [cc_floaded cc_filter].
      split; [reflexivity|]. intros k' _ H. apply f_mono. exact H. }
    split; [exact Hg|]. split; [|split; [|exact Hf]].
    - apply (grows_Cov st); [exact Hg|exact HC|]. intros c' H0 H1. rewrite Hf in H1. congruence.
    - intros _. rewrite set_filter_cache, N.eqb_refl. cbn [cc_filter]. destruct k. apply f_sound.
  Qed.

  (* validateAppendRow: the filters grow and keep covering; a trusted append leaves
     the loaded flags alone; the key of an accepted row with a pair is covered, and
     after a checked append the filter of the channel is loaded *)
  Lemma validateAppendRow_cov st c r sn mode :
    swf (st_kv st) -> Cov st ->
    let st' := fst (validateAppendRow st c r sn mode) in
    grows st st' /\ Cov st'
    /\ ((mode =? AppendTrustedContiguous) = true -> forall c', cc_floaded F (st_cache st' c') = cc_floaded F (st_cache st c'))
    /\ (forall sn', snd (validateAppendRow st c r sn mode) = inl sn' -> idem_cond r = true ->
         covers st' c (r_cno r) (r_uid r)
         /\ ((mode =? AppendTrustedContiguous) = false -> cc_floaded F (st_cache st' c) = true)).
  Proof.
    intros W HC. cbv zeta.
    pose proof (ensure_grows st c) as Hg1. pose proof (ensure_Cov st c W HC) as HC1.
    destruct (ensure_loaded st c W HC) as [Hl1 _].
    destruct (validateAppendRow_validated F f_may f_add st c r sn mode) as [e He|e Hm He|Hid Hmem Hb|Hid Hmem Hb Hp Hm|Hid Hmem Hb Hp Hm];
      cbn [fst snd].
    - split; [apply grows_refl|]. split; [exact HC|]. split; [reflexivity|intros; discriminate].
    - split; [exact Hg1|]. split; [exact HC1|]. split; [congruence|intros; discriminate].
    - split; [apply grows_refl|]. split; [exact HC|]. split; [reflexivity|].
      intros sn' _ Hi. change (both_nonempty (r_uid r) (r_cno r) = true) in Hi. congruence.
    - destruct (cc_floaded F (st_cache st c)) eqn:El.
      + destruct (add_key_Cov st c (r_cno r, r_uid r) HC El) as [A [B [C D]]].
        split; [exact A|]. split; [exact B|]. split; [intros _; exact D|]. intros sn' _ _. split; [exact C|congruence].
      + split; [apply grows_refl|]. split; [exact HC|]. split; [reflexivity|]. intros sn' _ _. split; [intro; congruence|congruence].
    - destruct (add_key_Cov _ c (r_cno r, r_uid r) HC1 Hl1) as [A [B [C D]]].
      split; [eapply grows_trans; eassumption|]. split; [exact B|]. split; [congruence|].
      intros sn' _ _. split; [exact C|]. intros _. rewrite D. exact Hl1.
  Qed.

  Lemma validate_rows_cov rows : forall st c sn mode,
    swf (st_kv st) -> Cov st ->
    let st' := fst (validate_rows st c rows sn mode) in
    grows st st' /\ Cov st'
    /\ (forall sn', snd (validate_rows st c rows sn mode) = inl sn' ->
         forall r, In r rows -> idem_cond r = true -> covers st' c (r_cno r) (r_uid r))
    /\ ((mode =? AppendTrustedContiguous) = true -> forall c', cc_floaded F (st_cache st' c') = cc_floaded F (st_cache st c')).
  Proof.
    induction rows as [|r rows IH]; intros st c sn mode W HC; cbn [MsgStore.validate_rows].
    - cbn [fst snd]. split; [apply grows_refl|]. split; [exact HC|]. split; [intros sn' _ r []|reflexivity].
    - destruct (validateAppendRow_cov st c r sn mode W HC) as [Hg1 [HC1 [Hf1 Hcov1]]].
      destruct (validateAppendRow st c r sn mode) as [st1 [sn1|e]] eqn:Ev; cbn [fst snd] in *.
      2:{ split; [exact Hg1|]. split; [exact HC1|]. split; [intros; discriminate|exact Hf1]. }
      assert (W1 : swf (st_kv st1)) by (destruct Hg1 as [Hk _]; rewrite Hk; exact W).
      destruct (IH st1 c sn1 mode W1 HC1) as [Hg2 [HC2 [Hcov2 Hf3]]].
      destruct (validate_rows st1 c rows sn1 mode) as [st2 res] eqn:Ev2. cbn [fst snd] in *.
      split; [eapply grows_trans; eassumption|]. split; [exact HC2|]. split.
      + intros sn' Hres r0 [<-|Hin] Hi; [|eapply Hcov2; eassumption].
        (* the key of the first row was covered when it was accepted, and the filter only grows *)
        destruct (Hcov1 sn1 eq_refl Hi) as [Hc1 Hl]. intro Hl2.
        assert (Hl1 : cc_floaded F (st_cache st1 c) = true).
        { destruct (mode =? AppendTrustedContiguous) eqn:Em; [rewrite <- (Hf3 eq_refl c); exact Hl2|apply Hl; reflexivity]. }
        destruct Hg2 as [_ Hg2]. destruct (Hg2 c) as [_ B]. apply B; [exact Hl1|]. apply Hc1. exact Hl1.
      + intros Em c'. rewrite (Hf3 Em c'). apply Hf1. exact Em.
  Qed.

  Lemma keff_no_idem_put c n u b : no_idem_put b -> forall cur v,
    keff (KyIdem c n u) b cur = Some v -> cur = Some v.
  Proof.
    induction 1 as [|o b Ho Hb IH]; intros cur v; [cbn; auto|].
    rewrite keff_cons. intro H. apply IH in H. destruct o as [k v0|k|p]; cbn [op_effect] in H.
    - destruct k; try contradiction; cbn [key_eqb] in H; exact H.
    - destruct (key_eqb (KyIdem c n u) k); [discriminate|exact H].
    - destruct (p (KyIdem c n u)); [discriminate|exact H].
  Qed.

  Lemma same_cache_Cov (st st' : mstate) :
    (forall c, cc_filter F (st_cache st' c) = cc_filter F (st_cache st c) /\ cc_floaded F (st_cache st' c) = cc_floaded F (st_cache st c)) ->
    (forall c n u q i h, kget (KyIdem c n u) (st_kv st') = Some (VIdem q i h) ->
                         (exists q' i' h', kget (KyIdem c n u) (st_kv st) = Some (VIdem q' i' h')) \/ covers st c n u) ->
    Cov st -> Cov st'.
  Proof.
    intros Hc Hk HC c n u q i h G Hl. destruct (Hc c) as [E1 E2]. rewrite E1. rewrite E2 in Hl.
    destruct (Hk c n u q i h G) as [[q' [i' [h' G']]]|Hcov]; [apply (HC c n u q' i' h' G'); exact Hl|apply Hcov; exact Hl].
  Qed.

  Lemma Cov_commit_other st b : no_idem_put b -> Cov st -> Cov (commit F st b).
  Proof.
    intros Hb HC. apply (same_cache_Cov st); [intro; split; reflexivity| |exact HC].
    intros c n u q i h G. left. cbn [MsgStore.st_kv commit] in G. rewrite kget_apply in G.
    apply keff_no_idem_put in G; [|exact Hb]. eauto.
  Qed.

  Lemma keff_rows_idem c' n u c rows : forall cur v,
    keff (KyIdem c' n u) (stageMessageRows c rows) cur = Some v ->
    cur = Some v \/ (c' = c /\ exists r, In r rows /\ idem_cond r = true /\ n = r_cno r /\ u = r_uid r).
  Proof.
    induction rows as [|r rows IH]; intros cur v; [cbn; auto|].
    unfold stageMessageRows. cbn [flat_map]. fold (stageMessageRows c rows). rewrite keff_app. intro H.
    apply IH in H. destruct H as [H|[Hc [r0 [Hr0 H0]]]].
    - rewrite keff_stage_row in H.
      destruct (idem_cond r && ((c' =? c) && bytes_eqb n (r_cno r) && bytes_eqb u (r_uid r))) eqn:E; [|left; exact H].
      right. apply andb_true_iff in E. destruct E as [E1 E2]. beq. subst. split; [reflexivity|].
      exists r. split; [left; reflexivity|]. repeat split. exact E1.
    - right. split; [exact Hc|]. exists r0. split; [right; exact Hr0|exact H0].
  Qed.

  Lemma Cov_commit_rows st c rows rest :
    no_idem_put rest -> Cov st ->
    (forall r, In r rows -> idem_cond r = true -> covers st c (r_cno r) (r_uid r)) ->
    Cov (commit F st (stageMessageRows c rows ++ rest)).
  Proof.
    intros Hb HC Hrows. apply (same_cache_Cov st); [intro; split; reflexivity| |exact HC].
    intros c' n u q i h G. cbn [MsgStore.st_kv commit] in G. rewrite kget_apply, keff_app in G.
    apply keff_no_idem_put in G; [|exact Hb]. apply keff_rows_idem in G.
    destruct G as [G|[-> [r [Hr [Hi [-> ->]]]]]].
    - destruct (kget (KyIdem c' n u) (st_kv st)) as [v|] eqn:Gv; [|discriminate]. injection G as ->. left. eauto.
    - right. apply Hrows; assumption.
  Qed.

  Lemma set_cache_Cov st c leo loaded : Cov st ->
    Cov (set_cache F st c (CC F leo loaded (cc_filter F (st_cache st c)) (cc_floaded F (st_cache st c)))).
  Proof.
    intro HC. apply (same_cache_Cov st); [| |exact HC].
    - intro c'. unfold set_cache. cbn [MsgStore.st_cache]. destruct (c' =? c) eqn:E; [|split; reflexivity].
      apply N.eqb_eq in E. subst. split; reflexivity.
    - intros c' n u q i h G. left. eauto.
  Qed.

  Definition Inv (st : mstate) : Prop := swf (st_kv st) /\ Cov st.

  Lemma Inv_loadLEO st c : Inv st -> Inv (fst (loadLEOLocked F st c)).
  Proof.
    intros [W HC]. unfold MsgStore.loadLEOLocked. destruct (cc_loaded F (st_cache st c)); cbn [fst]; [split; assumption|].
    split; [exact W|apply set_cache_Cov; exact HC].
  Qed.

  (* every move keeps the invariant: idempotency entries are committed only for rows
     whose keys the validation has just put into the filter *)
  Lemma moves_Inv st st' bs : moves F f_empty f_may f_add false st st' bs -> Inv st -> Inv st'.
  Proof.
    induction 1 as [st|st1 st2 st3 bs1 bs2 _ IH1 _ IH2|st c leo loaded|st c rows sn mode|st|st b Hb
                   |st c rows sn mode st2 sn' rest Ev Hr|st b Hf]; intros [W HC].
    - split; assumption.
    - apply IH2, IH1. split; assumption.
    - split; [exact W|apply set_cache_Cov; exact HC].
    - destruct (validate_rows_cov rows st c sn mode W HC) as [[Hk _] [HC2 _]]. split; [rewrite Hk; exact W|exact HC2].
    - split; [exact W|]. intros c n u q i h _ Hl. discriminate Hl.
    - split; [apply swf_apply; exact W|apply Cov_commit_other; assumption].
    - destruct (validate_rows_cov rows st c sn mode W HC) as [[Hk _] [HC2 [Hcov _]]].
      rewrite Ev in Hk, HC2, Hcov. cbn [fst snd] in Hk, HC2, Hcov.
      split; [apply swf_apply; rewrite Hk; exact W|]. apply Cov_commit_rows; [exact Hr|exact HC2|].
      intros r Hin Hi. eapply Hcov; [reflexivity|exact Hin|exact Hi].
    - discriminate Hf.
  Qed.

  Theorem Inv_step compact st o :
    Inv st -> (forall items, o <> OCBatch items) -> Inv (fst (fst (step_dump F f_empty f_may f_add compact st o))).
  Proof.
    intros HI Hnb. destruct (step_dump_moves F f_empty f_may f_add compact st o) as [bs [H _]].
    replace (is_batch o) with false in H by (destruct o; try reflexivity; exfalso; eapply Hnb; reflexivity).
    exact (moves_Inv _ _ _ H HI).
  Qed.

  Fixpoint ids_dup (rows : list row) (seen : list N) : bool :=
    match rows with
    | [] => false
    | r :: rest => if mem_N (r_id r) seen then true else ids_dup rest (r_id r :: seen)
    end.

  Fixpoint pairs_dup (rows : list row) (seen : list (bytes * bytes)) : bool :=
    match rows with
    | [] => false
    | r :: rest =>
      if both_nonempty (r_uid r) (r_cno r)
      then if mem_pair (r_uid r, r_cno r) seen then true else pairs_dup rest ((r_uid r, r_cno r) :: seen)
      else pairs_dup rest seen
    end.

  Definition row_must (s : aspec) (c mode : N) (r : row) : Prop :=
    ((mode =? AppendTrustedContiguous) = false /\ both_nonempty (r_uid r) (r_cno r) = true
     /\ pair_stored (as_log s c) (r_uid r) (r_cno r) = true /\ pair_tainted (as_log s c) (r_uid r) (r_cno r) = false)
    \/ ((mode =? AppendStrict) = true /\ id_stored s (r_id r) = true /\ ~ In (r_id r) (as_tids s)).

  Lemma validateAppendRow_seen st c r sn mode st' sn' :
    validateAppendRow st c r sn mode = (st', inl sn') ->
    mem_N (r_id r) (sn_ids sn) = false /\ sn_ids sn' = r_id r :: sn_ids sn
    /\ (if both_nonempty (r_uid r) (r_cno r)
        then mem_pair (r_uid r, r_cno r) (sn_keys sn) = false /\ sn_keys sn' = (r_uid r, r_cno r) :: sn_keys sn
        else sn_keys sn' = sn_keys sn).
  Proof.
    intro E. pose proof (validateAppendRow_validated F f_may f_add st c r sn mode) as V. rewrite E in V.
    inversion V as [| |Hid Hmem Hb|Hid Hmem Hb Hp Hm|Hid Hmem Hb Hp Hm]; subst; rewrite Hb; cbn [sn_ids sn_keys]; repeat split; assumption.
  Qed.

  Lemma validateAppendRow_must st s c r sn mode :
    Rkv (st_kv st) s -> Inv st -> al_leo (as_log s c) < r_seq r -> row_must s c mode r ->
    exists e, snd (validateAppendRow st c r sn mode) = inr e.
  Proof.
    intros HR [W HC] Hseq Hm. unfold MsgStore.validateAppendRow.
    destruct (r_id r =? 0); [eexists; reflexivity|].
    destruct (mem_N (r_id r) (sn_ids sn)); [eexists; reflexivity|].
    destruct Hm as [[Em [Hbn [Hps Hpt]]]|[Em [Hid Hnt]]].
    - (* a stored, untainted pair *)
      destruct (if mode =? AppendStrict then _ else false); [eexists; reflexivity|].
      rewrite both_nonempty_nil in Hbn. apply negb_true_iff in Hbn. rewrite Hbn.
      destruct (mem_pair _ _); [eexists; reflexivity|]. rewrite Em.
      destruct (rk_chan _ _ HR c) as [rows Rc].
      unfold pair_stored in Hps. apply existsb_exists in Hps. destruct Hps as [a [Ha Hp]].
      rewrite (rc_rows _ _ _ _ Rc) in Ha. apply in_map_iff in Ha. destruct Ha as [r0 [<- Hr0]].
      cbn [arow_of a_msg m_uid m_cno messageFromRow] in Hp. beq.
      assert (Hu0 : r_uid r0 <> []) by (apply orb_false_iff in Hbn; destruct Hbn as [Hbn _]; apply is_nil_false in Hbn; congruence).
      assert (Hn0 : r_cno r0 <> []) by (apply orb_false_iff in Hbn; destruct Hbn as [_ Hbn]; apply is_nil_false in Hbn; congruence).
      assert (Hpt0 : pair_tainted (as_log s c) (r_uid r0) (r_cno r0) = false) by congruence.
      pose proof (rc_idem_complete _ _ _ _ Rc r0 Hr0 Hu0 Hn0 Hpt0) as G. rewrite H, H0 in G.
      set (st1 := ensureIdempotencyMembershipLoaded F f_add st c).
      destruct (ensure_loaded st c W HC) as [Hl1 Hcov1]. fold st1 in Hl1, Hcov1.
      rewrite (Hcov1 _ _ _ _ _ G). cbn [negb].
      assert (Hkv1 : MsgStore.st_kv F st1 = st_kv st) by (apply (ensure_grows st c)).
      rewrite Hkv1.
      destruct (lookupIdem_spec _ _ _ _ (r_uid r) (r_cno r) Rc) as [[r1 [Hr1 [Hu1 [Hn1 E]]]]|[E Hno]].
      + rewrite E. unfold ok. cbv beta iota. assert (Hle : r_seq r1 <= al_leo (as_log s c)).
        { pose proof (rc_le_leo _ _ _ _ Rc) as Hle. eapply Forall_forall in Hle; eassumption. }
        assert (Eq : (r_seq r1 =? r_seq r) = false) by (apply N.eqb_neq; lia). rewrite Eq. cbn [negb].
        eexists; reflexivity.
      + exfalso. eapply Hno. exact G.
    - (* a stored, untainted id, strict mode *)
      rewrite Em.
      unfold id_stored in Hid. apply existsb_exists in Hid. destruct Hid as [c0 [Hc0 Hex]].
      apply existsb_exists in Hex. destruct Hex as [a [Ha Hi]].
      destruct (rk_chan _ _ HR c0) as [rows0 Rc0].
      rewrite (rc_rows _ _ _ _ Rc0) in Ha. apply in_map_iff in Ha. destruct Ha as [r0 [<- Hr0]].
      cbn [arow_of a_msg m_id messageFromRow] in Hi. apply N.eqb_eq in Hi.
      assert (G0 : kget (KyRow c0 (r_seq r0)) (st_kv st) = Some (VRow r0)) by (apply Rc0; split; [exact Hr0|reflexivity]).
      assert (Gg : kget (KyGid (r_id r0)) (st_kv st) = Some (VGid c0 (r_seq r0))).
      { apply (rk_gc _ _ HR _ _ _ G0). rewrite Hi. exact Hnt. }
      rewrite Hi in Gg. rewrite Gg.
      assert (Hneg : negb ((c0 =? c) && (r_seq r0 =? r_seq r)) = true).
      { apply negb_true_iff. destruct (c0 =? c) eqn:Ec; [|reflexivity]. apply N.eqb_eq in Ec. subst c0.
        pose proof (rc_le_leo _ _ _ _ Rc0) as Hle. eapply Forall_forall in Hle; [|exact Hr0].
        cbn [andb]. apply N.eqb_neq. lia. }
      rewrite Hneg. eexists; reflexivity.
  Qed.

  Lemma validate_rows_rejects s c mode rows : forall st sn,
    Rkv (st_kv st) s -> Inv st -> Forall (fun r => al_leo (as_log s c) < r_seq r) rows ->
    (ids_dup rows (sn_ids sn) = true \/ pairs_dup rows (sn_keys sn) = true \/ exists r, In r rows /\ row_must s c mode r) ->
    exists e, snd (validate_rows st c rows sn mode) = inr e.
  Proof.
    induction rows as [|r rows IH]; intros st sn HR HI Hseq Hm.
    - exfalso. destruct Hm as [H|[H|[r [[] _]]]]; discriminate H.
    - cbn [MsgStore.validate_rows]. inversion Hseq as [|? ? Hs1 Hs2]; subst.
      destruct (validateAppendRow st c r sn mode) as [st1 [sn1|e]] eqn:Ev; [|eexists; reflexivity].
      destruct (validateAppendRow_seen _ _ _ _ _ _ _ Ev) as [Hm1 [Hids Hkeys]].
      destruct HI as [W HC].
      destruct (validateAppendRow_cov st c r sn mode W HC) as [Hg [HC1 _]]. rewrite Ev in Hg, HC1. cbn [fst] in Hg, HC1.
      assert (Hkv : st_kv st1 = st_kv st) by apply Hg.
      apply IH; [rewrite Hkv; exact HR|split; [rewrite Hkv; exact W|exact HC1]|exact Hs2|].
      destruct Hm as [H|[H|[r0 [[<-|Hin] Hmust]]]].
      + left. cbn [ids_dup] in H. rewrite Hm1 in H. rewrite Hids. exact H.
      + right. left. cbn [pairs_dup] in H. destruct (both_nonempty (r_uid r) (r_cno r)).
        * destruct Hkeys as [Hk1 Hk2]. rewrite Hk1 in H. rewrite Hk2. exact H.
        * rewrite Hkeys. exact H.
      + exfalso. destruct (validateAppendRow_must st s c r sn mode HR (conj W HC) Hs1 Hmust) as [e He].
        rewrite Ev in He. discriminate He.
      + right. right. exists r0. split; assumption.
  Qed.

  Fixpoint rec_ids_dup (l : list rec) (seen : list N) : bool :=
    match l with
    | [] => false
    | x :: r => if mem_N (i_id x) seen then true else rec_ids_dup r (i_id x :: seen)
    end.

  Fixpoint rec_pairs_dup (l : list rec) (seen : list (bytes * bytes)) : bool :=
    match l with
    | [] => false
    | x :: r =>
      if both_nonempty (i_uid x) (i_cno x)
      then if mem_pair (i_uid x, i_cno x) seen then true else rec_pairs_dup r ((i_uid x, i_cno x) :: seen)
      else rec_pairs_dup r seen
    end.

  Lemma rec_id_dup_eq recs : rec_id_dup_in_batch recs = rec_ids_dup recs [].
  Proof. reflexivity. Qed.

  Lemma rec_pair_dup_eq recs : rec_pair_dup_in_batch recs = rec_pairs_dup recs [].
  Proof. reflexivity. Qed.

  (* rows carrying the ids / pairs of the records *)
  Definition same_keys (r : row) (x : rec) : Prop := r_id r = i_id x /\ r_uid r = i_uid x /\ r_cno r = i_cno x.

  Lemma ids_dup_same rows recs : Forall2 same_keys rows recs -> forall seen, ids_dup rows seen = rec_ids_dup recs seen.
  Proof.
    induction 1 as [|r x rows recs [Hi _] _ IH]; intro seen; cbn [ids_dup rec_ids_dup]; [reflexivity|].
    rewrite Hi, IH. reflexivity.
  Qed.

  Lemma pairs_dup_same rows recs : Forall2 same_keys rows recs -> forall seen, pairs_dup rows seen = rec_pairs_dup recs seen.
  Proof.
    induction 1 as [|r x rows recs [_ [Hu Hn]] _ IH]; intro seen; cbn [pairs_dup rec_pairs_dup]; [reflexivity|].
    rewrite Hu, Hn, !IH. reflexivity.
  Qed.

  Lemma rows_from_same c recs : forall q, Forall2 same_keys (rows_from c q recs) recs.
  Proof.
    induction recs as [|x recs IH]; intro q; cbn [rows_from]; constructor; [|apply IH].
    unfold same_keys, recordToRow. cbn. repeat split.
  Qed.

  Lemma compat_same c recs : forall q rows, compatibilityRowsFromRecords c q recs = ok rows -> Forall2 same_keys rows recs.
  Proof.
    induction recs as [|x recs IH]; intros q rows H; cbn [compatibilityRowsFromRecords] in H.
    - injection H as <-. constructor.
    - destruct (negb (i_ridx x =? 0) && negb (i_ridx x =? q)); [discriminate|].
      destruct (i_id x =? 0); [discriminate|].
      destruct (negb (i_rid x =? 0) && negb (i_rid x =? i_id x)); [discriminate|].
      destruct (compatibilityRowsFromRecords c (q + 1) recs) as [rs|e] eqn:E; [|discriminate].
      cbn [bind ok] in H. injection H as <-. constructor; [|eapply IH; exact E].
      unfold same_keys. cbn. repeat split.
  Qed.

  Lemma must_reject_rows s c mode rows recs :
    Forall2 same_keys rows recs -> must_reject s c mode recs = true ->
    ids_dup rows [] = true \/ pairs_dup rows [] = true \/ exists r, In r rows /\ row_must s c mode r.
  Proof.
    intros Hsame Hm. unfold must_reject in Hm.
    rewrite rec_id_dup_eq, rec_pair_dup_eq in Hm.
    apply orb_true_iff in Hm. destruct Hm as [Hm|Hm].
    apply orb_true_iff in Hm. destruct Hm as [Hm|Hm].
    apply orb_true_iff in Hm. destruct Hm as [Hm|Hm].
    - left. rewrite (ids_dup_same _ _ Hsame). exact Hm.
    - right. left. rewrite (pairs_dup_same _ _ Hsame). exact Hm.
    - right. right. apply andb_true_iff in Hm. destruct Hm as [Hmode Hex]. apply negb_true_iff in Hmode.
      apply existsb_exists in Hex. destruct Hex as [x [Hx Hp]].
      apply andb_true_iff in Hp. destruct Hp as [Hp Ht]. apply andb_true_iff in Hp. destruct Hp as [Hbn Hps]. apply negb_true_iff in Ht.
      clear - Hsame Hx Hmode Hbn Hps Ht. induction Hsame as [|r y rows recs [_ [Hu Hn]] _ IH]; [destruct Hx|].
      destruct Hx as [->|Hx].
      + exists r. split; [left; reflexivity|]. left. rewrite Hu, Hn. repeat split; assumption.
      + destruct (IH Hx) as [r0 [H1 H2]]. exists r0. split; [right; exact H1|exact H2].
    - right. right. apply andb_true_iff in Hm. destruct Hm as [Hmode Hex].
      apply existsb_exists in Hex. destruct Hex as [x [Hx Hp]].
      apply andb_true_iff in Hp. destruct Hp as [Hid Ht]. apply negb_true_iff in Ht.
      assert (Hnt : ~ In (i_id x) (as_tids s)).
      { intro Hin. apply mem_N_in in Hin. unfold mem_N in Hin. rewrite Hin in Ht. discriminate. }
      clear Ht. clear - Hsame Hx Hmode Hid Hnt. induction Hsame as [|r y rows recs [Hi _] _ IH]; [destruct Hx|].
      destruct Hx as [->|Hx].
      + exists r. split; [left; reflexivity|]. right. rewrite Hi. repeat split; assumption.
      + destruct (IH Hx) as [r0 [H1 H2]]. exists r0. split; [right; exact H1|exact H2].
  Qed.

  Lemma rows_from_above c recs : forall q leo, leo < q -> Forall (fun r => leo < r_seq r) (rows_from c q recs).
  Proof. induction recs as [|x recs IH]; intros q leo H; cbn [rows_from]; constructor; [cbn; exact H|apply IH; lia]. Qed.

  Lemma consec_above q rows leo : leo < q -> consec q rows -> Forall (fun r => leo < r_seq r) rows.
  Proof.
    revert q. induction rows as [|r rows IH]; intros q H Hc; constructor; destruct Hc as [Hs Hc]; [lia|apply (IH (q + 1)); [lia|exact Hc]].
  Qed.

  Lemma must_reject_nil s c mode : must_reject s c mode [] = false.
  Proof. unfold must_reject. cbn. rewrite !andb_false_r. reflexivity. Qed.

  Notation R := (MsgStore_reads.R F).

  Lemma walk_rejects st s c mode base recs :
    R st s -> Inv st -> must_reject s c mode recs = true ->
    exists e, snd (walkAppendRowsLocked F f_may f_add st c recs mode base) = inr e.
  Proof.
    intros HR HI Hm. unfold walkAppendRowsLocked.
    destruct (negb (valid_mode mode)); [eexists; reflexivity|].
    destruct (loadLEO_R F st s c HR) as [H1 [H2 [H3 _]]]. pose proof (Inv_loadLEO st c HI) as HI1.
    destruct (loadLEOLocked F st c) as [st1 leo]. cbn [fst snd] in *. subst leo.
    destruct (negb (base =? 0) && negb (base =? al_leo (as_log s c) + 1)); [eexists; reflexivity|].
    destruct recs as [|x recs]; [rewrite must_reject_nil in Hm; discriminate Hm|].
    set (rows := rows_from c (al_leo (as_log s c) + 1) (x :: recs)).
    destruct (validate_rows_rejects s c mode rows st1 (Seen [] []) (proj1 H2) HI1) as [e He].
    - apply rows_from_above. lia.
    - apply (must_reject_rows s c mode rows (x :: recs)); [apply rows_from_same|exact Hm].
    - destruct (validate_rows st1 c rows (Seen [] []) mode) as [st2 [sn|e']]; [discriminate He|]. eexists; reflexivity.
  Qed.

  Theorem append_rejects st s c mode base recs :
    R st s -> Inv st -> must_reject s c mode recs = true ->
    exists e, snd (Append F f_may f_add st c recs mode base) = inr e.
  Proof.
    intros HR HI Hm. unfold Append. destruct (walk_rejects st s c mode base recs HR HI Hm) as [e He].
    destruct (walkAppendRowsLocked F f_may f_add st c recs mode base) as [st1 r]. cbn [snd] in He. subst r. eexists; reflexivity.
  Qed.

  Theorem apply_rejects st s c base recs ck ep :
    R st s -> Inv st -> must_reject s c AppendTrustedContiguous recs = true ->
    exists e, snd (ApplyFetch F f_may f_add st c base recs ck ep) = inr e.
  Proof.
    intros HR HI Hm. unfold ApplyFetch. destruct (walk_rejects st s c _ base recs HR HI Hm) as [e He].
    destruct (walkAppendRowsLocked F f_may f_add st c recs _ base) as [st1 r]. cbn [snd] in He. subst r. eexists; reflexivity.
  Qed.

  Theorem capp_rejects st s c mode recs :
    R st s -> Inv st -> must_reject s c mode recs = true ->
    exists e, snd (CAppend F f_may f_add st c recs mode) = inr e.
  Proof.
    intros HR HI Hm. unfold CAppend.
    destruct (loadLEO_R F st s c HR) as [H1 [H2 [H3 _]]]. pose proof (Inv_loadLEO st c HI) as HI1.
    destruct (loadLEOLocked F st c) as [st1 leo]. cbn [fst snd] in *. subst leo.
    destruct recs as [|x recs]; [rewrite must_reject_nil in Hm; discriminate Hm|].
    destruct (compatibilityRowsFromRecords c (al_leo (as_log s c) + 1) (x :: recs)) as [rows|e] eqn:Ec; [|eexists; reflexivity].
    destruct (compat_rows _ _ _ _ Ec) as [Hcs _].
    destruct (validate_rows_rejects s c mode rows st1 (Seen [] []) (proj1 H2) HI1) as [e He].
    - eapply consec_above; [|exact Hcs]. lia.
    - apply (must_reject_rows s c mode rows (x :: recs)); [eapply compat_same; exact Ec|exact Hm].
    - destruct (validate_rows st1 c rows (Seen [] []) mode) as [st2 [sn|e']]; [discriminate He|]. eexists; reflexivity.
  Qed.

  Notation step := (MsgStore.step F f_empty f_may f_add).
  Notation step_dump := (MsgStore.step_dump F f_empty f_may f_add).
  Notation run := (MsgStore.run F f_empty f_may f_add).

  (* a call that rejects whenever the plain log must reject gets code 0 *)
  Lemma rejected_code {A} (call : mstate * res A) (g : A -> out) (must : bool) :
    (must = true -> exists e, snd call = inr e) ->
    (if accepted (snd (let '(st', r) := call in (st', out_of r g))) && must then 1 else 0) = 0.
  Proof.
    intro H. destruct must; [|rewrite andb_false_r; reflexivity]. destruct (H eq_refl) as [e He].
    destruct call as [st' r]. cbn [snd] in *. subst r. reflexivity.
  Qed.

  Lemma step_code_zero st s o ds :
    R st s -> Inv st -> op_ok o -> c08_step_code s (E o (snd (step st o)) ds) = 0.
  Proof.
    intros HR HI [_ Hb]. destruct o; try contradiction; cbn [c08_step_code MsgStore.step]; try reflexivity;
      apply rejected_code.
    - apply append_rejects; assumption.
    - apply apply_rejects; assumption.
    - apply capp_rejects; assumption.
  Qed.

  Lemma Inv_init : Inv (st_init F f_empty).
  Proof. split; [constructor|]. intros c n u q i h H. discriminate H. Qed.

  Lemma op_ok_nobatch o : op_ok o -> forall items, o <> OCBatch items.
  Proof. intros [_ H] items ->. exact H. Qed.

  Lemma run_c08 compact ops : forall st s,
    R st s -> Inv st -> Forall op_ok ops ->
    c08_run s (entries ops (snd (run compact st ops))) = 0.
  Proof.
    induction ops as [|o ops IH]; intros st s HR HI Hok; cbn [MsgStore.run entries snd c08_run]; [reflexivity|].
    inversion Hok as [|? ? Ho Hrest]; subst.
    pose proof (step_sim F f_empty f_may f_add compact st s o HR (op_ok_b o Ho)) as Hs.
    pose proof (Inv_step compact st o HI (op_ok_nobatch o Ho)) as HI1.
    pose proof (step_dump_out F f_empty f_may f_add compact st o) as Hx.
    destruct (step_dump compact st o) as [[st1 x] ds]. cbn [fst snd] in HI1, Hx. subst x.
    destruct Hs as [s1 [H1 H2]]. specialize (IH st1 s1 H2 HI1 Hrest).
    destruct (run compact st1 ops) as [st2 tr]. cbn [snd entries c08_run] in *.
    rewrite H1, (step_code_zero st s o ds HR HI Ho), IH. reflexivity.
  Qed.

  Theorem c08_model_ok compact ops :
    Forall op_ok ops -> c08_run as_init (entries ops (snd (run compact (st_init F f_empty) ops))) = 0.
  Proof. intro H. apply run_c08; [apply R_init|apply Inv_init|exact H]. Qed.

  (* two different rows of a channel with the same non-empty (sender, client msg no)
     pair exist only if that pair was tainted by a trusted duplicate *)
  Theorem unique_pair st s c r1 r2 :
    R st s -> In r1 (rows_of (st_kv st) c) -> In r2 (rows_of (st_kv st) c) -> r1 <> r2 ->
    r_uid r1 = r_uid r2 -> r_cno r1 = r_cno r2 -> r_uid r1 <> [] -> r_cno r1 <> [] ->
    pair_tainted (as_log s c) (r_uid r1) (r_cno r1) = true.
  Proof.
    intros [Hk _] H1 H2 Hne Hu Hn Hun Hnn. destruct (rk_chan _ _ Hk c) as [rows Rc].
    rewrite (Rchan_rows_of _ _ _ _ (rk_wf _ _ Hk) Rc) in H1, H2.
    destruct (pair_tainted (as_log s c) (r_uid r1) (r_cno r1)) eqn:T; [reflexivity|]. exfalso.
    pose proof (rc_idem_complete _ _ _ _ Rc r1 H1 Hun Hnn T) as G1.
    assert (T2 : pair_tainted (as_log s c) (r_uid r2) (r_cno r2) = false) by (rewrite <- Hu, <- Hn; exact T).
    pose proof (rc_idem_complete _ _ _ _ Rc r2 H2 ltac:(congruence) ltac:(congruence) T2) as G2.
    rewrite <- Hu, <- Hn, G1 in G2. injection G2 as Hq _ _.
    apply Hne. apply (sorted_lt_inj rows); [apply Rc|assumption|assumption|exact Hq].
  Qed.

  (* two different stored rows (any channels) with the same message id exist only if the id is tainted *)
  Theorem unique_id st s c1 q1 r1 c2 q2 r2 :
    R st s -> kget (KyRow c1 q1) (st_kv st) = Some (VRow r1) -> kget (KyRow c2 q2) (st_kv st) = Some (VRow r2) ->
    (c1, q1) <> (c2, q2) -> r_id r1 = r_id r2 -> In (r_id r1) (as_tids s).
  Proof.
    intros [Hk _] G1 G2 Hne Hid.
    destruct (in_dec N.eq_dec (r_id r1) (as_tids s)) as [H|H]; [exact H|]. exfalso.
    pose proof (rk_gc _ _ Hk _ _ _ G1 H) as X1.
    assert (H' : ~ In (r_id r2) (as_tids s)) by (rewrite <- Hid; exact H).
    pose proof (rk_gc _ _ Hk _ _ _ G2 H') as X2. rewrite <- Hid, X1 in X2. injection X2 as -> ->. apply Hne. reflexivity.
  Qed.

  Lemma pair_stored_snoc l a u n :
    pair_stored (AL (al_rows l ++ [a]) (m_seq (a_msg a)) (al_ck l) (al_hist l) (al_tpairs l)) u n
    = pair_stored l u n || (bytes_eqb (m_uid (a_msg a)) u && bytes_eqb (m_cno (a_msg a)) n).
  Proof. unfold pair_stored. cbn [al_rows]. rewrite existsb_app. cbn [existsb]. rewrite orb_false_r. reflexivity. Qed.

  Lemma mem_pair_cons x y l : mem_pair x (y :: l) = pair_eqb x y || mem_pair x l.
  Proof. reflexivity. Qed.

  Lemma spec_append_no_ptaint c recs : forall s q seen,
    al_tpairs (as_log s c) = [] ->
    (forall u n, both_nonempty u n = true -> mem_pair (u, n) seen = true -> pair_stored (as_log s c) u n = true) ->
    rec_pairs_dup recs seen = false ->
    (forall x, In x recs -> both_nonempty (i_uid x) (i_cno x) = true ->
               pair_stored (as_log s c) (i_uid x) (i_cno x) = true -> mem_pair (i_uid x, i_cno x) seen = true) ->
    al_tpairs (as_log (spec_append s c (msgs_from c q recs)) c) = [].
  Proof.
    induction recs as [|x recs IH]; intros s q seen Ht Hseen Hdup Hst; [exact Ht|].
    cbn [msgs_from]. rewrite spec_append_cons. cbn [rec_pairs_dup] in Hdup.
    assert (Hx : both_nonempty (i_uid x) (i_cno x) = true -> pair_stored (as_log s c) (i_uid x) (i_cno x) = false).
    { intro Hb. rewrite Hb in Hdup. destruct (pair_stored (as_log s c) (i_uid x) (i_cno x)) eqn:Ep; [|reflexivity].
      rewrite (Hst x (or_introl eq_refl) Hb Ep) in Hdup. discriminate. }
    set (s1 := spec_append s c [msg_of_rec c q x]).
    assert (Hl1 : as_log s1 c = AL (al_rows (as_log s c) ++ [msg_of_rec c q x]) q (al_ck (as_log s c)) (al_hist (as_log s c)) []).
    { unfold s1. rewrite spec_append_one. cbn [as_log]. rewrite N.eqb_refl. cbn [msg_of_rec a_msg m_seq m_uid m_cno].
      destruct (both_nonempty (i_uid x) (i_cno x)) eqn:Hb; cbn [andb]; [rewrite (Hx eq_refl)|]; rewrite Ht; reflexivity. }
    assert (Eps : forall u n, pair_stored (as_log s1 c) u n
                              = pair_stored (as_log s c) u n || (bytes_eqb (i_uid x) u && bytes_eqb (i_cno x) n)).
    { intros u n. rewrite Hl1. unfold pair_stored. cbn [al_rows]. rewrite existsb_app.
      cbn [existsb msg_of_rec a_msg m_uid m_cno]. rewrite orb_false_r. reflexivity. }
    set (seen1 := if both_nonempty (i_uid x) (i_cno x) then (i_uid x, i_cno x) :: seen else seen).
    apply (IH s1 (q + 1) seen1).
    - rewrite Hl1. reflexivity.
    - intros u n Hb Hm. rewrite Eps. unfold seen1 in Hm. destruct (both_nonempty (i_uid x) (i_cno x)).
      + rewrite mem_pair_cons in Hm. apply orb_true_iff in Hm. destruct Hm as [Hm|Hm].
        * unfold pair_eqb in Hm. cbn [fst snd] in Hm. apply andb_true_iff in Hm. destruct Hm as [H1 H2].
          apply bytes_eqb_eq in H1, H2. subst. rewrite !bytes_eqb_refl. apply orb_true_r.
        * rewrite (Hseen u n Hb Hm). reflexivity.
      + rewrite (Hseen u n Hb Hm). reflexivity.
    - unfold seen1. destruct (both_nonempty (i_uid x) (i_cno x)); [|exact Hdup].
      destruct (mem_pair (i_uid x, i_cno x) seen); [discriminate|exact Hdup].
    - intros y Hy Hb Hp. rewrite Eps in Hp. apply orb_true_iff in Hp. unfold seen1. destruct Hp as [Hp|Hp].
      + pose proof (Hst y (or_intror Hy) Hb Hp) as Hm. destruct (both_nonempty (i_uid x) (i_cno x)); [|exact Hm].
        rewrite mem_pair_cons, Hm. apply orb_true_r.
      + apply andb_true_iff in Hp. destruct Hp as [H1 H2]. apply bytes_eqb_eq in H1, H2.
        rewrite <- H1, <- H2 in Hb |- *. rewrite Hb. rewrite mem_pair_cons. unfold pair_eqb. cbn [fst snd]. rewrite !bytes_eqb_refl. reflexivity.
  Qed.

  Definition no_trusted (o : op) : Prop :=
    match o with
    | OAppend _ m _ _ | OCApp _ m _ => (m =? AppendTrustedContiguous) = false
    | OApply _ _ _ _ _ | OCBatch _ => False
    | _ => True
    end.

  Definition NoPT (s : aspec) : Prop := forall c, al_tpairs (as_log s c) = [].

  Lemma spec_append_other_tp s c l c' : c' <> c -> al_tpairs (as_log (spec_append s c l) c') = al_tpairs (as_log s c').
  Proof. intro H. rewrite spec_append_other by exact H. reflexivity. Qed.

  Lemma typed_keys recs : forall seen, rec_pairs_dup (map typed recs) seen = rec_pairs_dup recs seen.
  Proof. induction recs as [|x recs IH]; intro seen; cbn [map rec_pairs_dup typed i_uid i_cno]; [reflexivity|]. rewrite !IH. reflexivity. Qed.

  Lemma accepted_no_ptaint s c mode recs recs' q :
    NoPT s -> (mode =? AppendTrustedContiguous) = false -> must_reject s c mode recs = false ->
    rec_pairs_dup recs' [] = rec_pairs_dup recs [] ->
    (forall x', In x' recs' -> exists x, In x recs /\ i_uid x' = i_uid x /\ i_cno x' = i_cno x) ->
    NoPT (spec_append s c (msgs_from c q recs')).
  Proof.
    intros Hn Hmode Hm Hdup Hsub c'. destruct (N.eq_dec c' c) as [->|Hne]; [|rewrite spec_append_other_tp by exact Hne; apply Hn].
    unfold must_reject in Hm. rewrite rec_pair_dup_eq in Hm.
    apply orb_false_iff in Hm. destruct Hm as [Hm _]. apply orb_false_iff in Hm. destruct Hm as [Hm Hc].
    apply orb_false_iff in Hm. destruct Hm as [_ Hp]. rewrite Hmode in Hc. cbn [negb andb] in Hc.
    apply (spec_append_no_ptaint c recs' s q []); [apply Hn|intros u n _ H; discriminate H|rewrite Hdup; exact Hp|].
    intros x' Hx' Hb Hst. exfalso. destruct (Hsub x' Hx') as [x [Hx [Hu Hn']]].
    assert (E : existsb (fun x0 => both_nonempty (i_uid x0) (i_cno x0) && pair_stored (as_log s c) (i_uid x0) (i_cno x0)
                                  && negb (pair_tainted (as_log s c) (i_uid x0) (i_cno x0))) recs = true).
    { apply existsb_exists. exists x. split; [exact Hx|]. rewrite <- Hu, <- Hn', Hb, Hst. cbn [andb].
      unfold pair_tainted. rewrite (Hn c). reflexivity. }
    rewrite E in Hc. discriminate.
  Qed.

  Lemma keep_rows_tp p l leo : al_tpairs (keep_rows p l leo) = al_tpairs l.
  Proof. reflexivity. Qed.

  (* what an accepted step does to the plain logs: a read leaves them alone ... *)
  Lemma spec_step_cases s o x ds s' : spec_step s (E o x ds) = Some s' -> s' = s \/ spec_mutate s o x = Some s'.
  Proof.
    cbn [spec_step]. destruct (is_read o).
    - destruct (spec_check_read s o x); [intro H; injection H as <-; left; reflexivity|discriminate].
    - destruct (spec_mutate s o x) as [s1|]; [|discriminate]. destruct (forallb _ ds); [|discriminate].
      intro H. injection H as <-. right. reflexivity.
  Qed.

  (* ... and of the mutations only appends add taints *)
  Lemma spec_mutate_taints s o x s' :
    spec_mutate s o x = Some s' ->
    match o with
    | OAppend _ _ _ _ | OApply _ _ _ _ _ | OCApp _ _ _ | OCBatch _ | ODiscard _ => True
    | _ => as_tids s' = as_tids s /\ forall c, al_tpairs (as_log s' c) = al_tpairs (as_log s c)
    end.
  Proof.
    assert (Hset : forall c l, al_tpairs l = al_tpairs (as_log s c) ->
              as_tids (set_log s c l) = as_tids s /\ forall c0, al_tpairs (as_log (set_log s c l) c0) = al_tpairs (as_log s c0)).
    { intros c l Hl. split; [reflexivity|]. intro c0. unfold set_log. cbn [as_log]. destruct (c0 =? c) eqn:E; [|reflexivity].
      apply N.eqb_eq in E. subst. exact Hl. }
    destruct o; try exact (fun _ => I); destruct x; cbn [spec_mutate]; try discriminate; cbv zeta;
      repeat match goal with |- context [if ?b then _ else _] => destruct b end;
      intro H; try discriminate H; injection H as <-; try (split; reflexivity); apply Hset; reflexivity.
  Qed.

  Lemma append_accepted st s c mode base recs s' :
    R st s -> Inv st ->
    spec_mutate s (OAppend c mode base recs) (snd (step st (OAppend c mode base recs))) = Some s' ->
    s' = s \/ (must_reject s c mode recs = false /\ exists b, s' = spec_append s c (msgs_from c b (map typed recs))).
  Proof.
    intros HR HI. cbn [MsgStore.step]. destruct (must_reject s c mode recs) eqn:Em.
    - destruct (append_rejects st s c mode base recs HR HI Em) as [e He].
      destruct (Append F f_may f_add st c recs mode base) as [st' r]. cbn [snd] in *. subst r.
      intro H. injection H as <-. left. reflexivity.
    - destruct (Append F f_may f_add st c recs mode base) as [st' [[[b l] n]|e]]; cbn [snd out_of spec_mutate].
      2:{ intro H. injection H as <-. left. reflexivity. }
      destruct recs as [|x recs]; [destruct (_ && _ && _); [intro H; injection H as <-; left; reflexivity|discriminate]|].
      destruct (_ && _ && _ && _); [|discriminate]. intro H. injection H as <-. right. split; [reflexivity|]. exists b. reflexivity.
  Qed.

  Lemma capp_accepted st s c mode recs s' :
    R st s -> Inv st ->
    spec_mutate s (OCApp c mode recs) (snd (step st (OCApp c mode recs))) = Some s' ->
    s' = s \/ (must_reject s c mode recs = false /\ exists b, s' = spec_append s c (msgs_from c b recs)).
  Proof.
    intros HR HI. cbn [MsgStore.step]. destruct (must_reject s c mode recs) eqn:Em.
    - destruct (capp_rejects st s c mode recs HR HI Em) as [e He].
      destruct (CAppend F f_may f_add st c recs mode) as [st' r]. cbn [snd] in *. subst r.
      intro H. injection H as <-. left. reflexivity.
    - destruct (CAppend F f_may f_add st c recs mode) as [st' [base|e]]; cbn [snd out_of spec_mutate].
      2:{ intro H. injection H as <-. left. reflexivity. }
      destruct (base =? al_leo (as_log s c)); [|discriminate]. intro H. injection H as <-.
      right. split; [reflexivity|]. exists (base + 1). reflexivity.
  Qed.

  Lemma step_no_ptaint st s o s' ds :
    R st s -> Inv st -> op_ok o -> no_trusted o -> NoPT s ->
    spec_step s (E o (snd (step st o)) ds) = Some s' -> NoPT s'.
  Proof.
    intros HR HI Hok Hnt Hn Hs. apply spec_step_cases in Hs. destruct Hs as [->|Hm]; [exact Hn|].
    destruct o; cbn [no_trusted] in Hnt; try contradiction;
      try (intro c0; rewrite (proj2 (spec_mutate_taints _ _ _ _ Hm)); apply Hn).
    - destruct (append_accepted _ _ _ _ _ _ _ HR HI Hm) as [->|[Em [b ->]]]; [exact Hn|].
      apply (accepted_no_ptaint s c mode recs); [exact Hn|exact Hnt|exact Em|apply typed_keys|].
      intros x' Hx'. apply in_map_iff in Hx'. destruct Hx' as [y [<- Hy]]. exists y. split; [exact Hy|split; reflexivity].
    - destruct (capp_accepted _ _ _ _ _ _ HR HI Hm) as [->|[Em [b ->]]]; [exact Hn|].
      apply (accepted_no_ptaint s c mode recs); [exact Hn|exact Hnt|exact Em|reflexivity|].
      intros x' Hx'. exists x'. split; [exact Hx'|split; reflexivity].
    - destruct Hok as [_ []].
  Qed.

  (* a property of the plain logs that every accepted step keeps holds at the end of every run *)
  Lemma run_spec_inv (P : aspec -> Prop) (okP : op -> Prop) :
    (forall st s o s' ds, R st s -> Inv st -> op_ok o -> okP o -> P s ->
       spec_step s (E o (snd (step st o)) ds) = Some s' -> P s') ->
    forall compact ops st s, R st s -> Inv st -> P s -> Forall op_ok ops -> Forall okP ops ->
    exists s', R (fst (run compact st ops)) s' /\ P s'.
  Proof.
    intros Hstep compact. induction ops as [|o ops IH]; intros st s HR HI HP Hok Hp; cbn [MsgStore.run fst]; [exists s; split; assumption|].
    inversion Hok as [|? ? Ho Hrest]; subst. inversion Hp as [|? ? Hpo Hprest]; subst.
    pose proof (step_sim F f_empty f_may f_add compact st s o HR (op_ok_b o Ho)) as Hs.
    pose proof (Inv_step compact st o HI (op_ok_nobatch o Ho)) as HI1.
    pose proof (step_dump_out F f_empty f_may f_add compact st o) as Hx.
    destruct (step_dump compact st o) as [[st1 x] ds]. cbn [fst snd] in HI1, Hx. subst x.
    destruct Hs as [s1 [H1 H2]].
    destruct (IH st1 s1 H2 HI1 (Hstep _ _ _ _ _ HR HI Ho Hpo HP H1) Hrest Hprest) as [s2 H3].
    destruct (run compact st1 ops) as [st2 tr]. exists s2. exact H3.
  Qed.

  (* C08, first half, absolute form: in a history whose appends are all strict or
     server-allocated-id mode, no two different rows of a channel ever share a
     non-empty (sender, client msg no) pair -- for every sound filter *)
  Theorem unique_pair_strict compact ops c r1 r2 :
    Forall op_ok ops -> Forall no_trusted ops ->
    let kv := st_kv (fst (run compact (st_init F f_empty) ops)) in
    In r1 (rows_of kv c) -> In r2 (rows_of kv c) ->
    r_uid r1 = r_uid r2 -> r_cno r1 = r_cno r2 -> r_uid r1 <> [] -> r_cno r1 <> [] -> r1 = r2.
  Proof.
    intros Hok Hnt kv H1 H2 Hu Hn Hun Hnn.
    destruct (run_spec_inv NoPT no_trusted step_no_ptaint compact ops _ _ (R_init F f_empty) Inv_init (fun _ => eq_refl) Hok Hnt) as [s [HR Hp]].
    destruct (row_eq_dec r1 r2) as [E|Hne]; [exact E|]. exfalso.
    pose proof (unique_pair _ s c r1 r2 HR H1 H2 Hne Hu Hn Hun Hnn) as T.
    unfold pair_tainted in T. rewrite (Hp c) in T. discriminate T.
  Qed.

  Definition strict_only (o : op) : Prop :=
    match o with
    | OAppend _ m _ _ | OCApp _ m _ => (m =? AppendStrict) = true
    | OApply _ _ _ _ _ | OCBatch _ => False
    | _ => True
    end.

  Lemma spec_append_no_itaint c recs : forall s q seen,
    In c all_chans -> as_tids s = [] ->
    (forall i, mem_N i seen = true -> id_stored s i = true) ->
    rec_ids_dup recs seen = false ->
    (forall x, In x recs -> id_stored s (i_id x) = true -> mem_N (i_id x) seen = true) ->
    as_tids (spec_append s c (msgs_from c q recs)) = [].
  Proof.
    induction recs as [|x recs IH]; intros s q seen Hc Ht Hseen Hdup Hst; [exact Ht|].
    cbn [msgs_from]. rewrite spec_append_cons. cbn [rec_ids_dup] in Hdup.
    destruct (mem_N (i_id x) seen) eqn:Em; [discriminate|].
    assert (Hx : id_stored s (i_id x) = false).
    { destruct (id_stored s (i_id x)) eqn:E; [|reflexivity]. rewrite (Hst x (or_introl eq_refl) E) in Em. discriminate. }
    set (s1 := spec_append s c [msg_of_rec c q x]).
    assert (Ht1 : as_tids s1 = []).
    { unfold s1. rewrite spec_append_one. cbn [as_tids msg_of_rec a_msg m_id]. rewrite Hx. exact Ht. }
    assert (Hid1 : forall i, id_stored s1 i = id_stored s i || (i_id x =? i)).
    { intro i. unfold s1. rewrite (id_stored_one s c _ i Hc). reflexivity. }
    apply (IH s1 (q + 1) (i_id x :: seen)); [exact Hc|exact Ht1| |exact Hdup|].
    - intros i Hm. rewrite Hid1. unfold mem_N in Hm. cbn [existsb] in Hm. apply orb_true_iff in Hm. destruct Hm as [Hm|Hm].
      + apply N.eqb_eq in Hm. subst. rewrite N.eqb_refl. apply orb_true_r.
      + rewrite (Hseen i Hm). reflexivity.
    - intros y Hy Hs1. rewrite Hid1 in Hs1. unfold mem_N. cbn [existsb]. apply orb_true_iff in Hs1. destruct Hs1 as [Hs1|Hs1].
      + pose proof (Hst y (or_intror Hy) Hs1) as X. unfold mem_N in X. rewrite X. apply orb_true_r.
      + apply N.eqb_eq in Hs1. rewrite Hs1, N.eqb_refl. reflexivity.
  Qed.

  Definition NoIT (s : aspec) : Prop := as_tids s = [].

  Lemma typed_ids recs : forall seen, rec_ids_dup (map typed recs) seen = rec_ids_dup recs seen.
  Proof. induction recs as [|x recs IH]; intro seen; cbn [map rec_ids_dup typed i_id]; [reflexivity|]. rewrite !IH. reflexivity. Qed.

  Lemma accepted_no_itaint s c recs recs' q :
    In c all_chans -> NoIT s -> must_reject s c AppendStrict recs = false ->
    rec_ids_dup recs' [] = rec_ids_dup recs [] ->
    (forall x', In x' recs' -> exists x, In x recs /\ i_id x' = i_id x) ->
    NoIT (spec_append s c (msgs_from c q recs')).
  Proof.
    intros Hc Hn Hm Hdup Hsub. unfold must_reject in Hm. rewrite rec_id_dup_eq in Hm.
    apply orb_false_iff in Hm. destruct Hm as [Hm Hd]. apply orb_false_iff in Hm. destruct Hm as [Hm _].
    apply orb_false_iff in Hm. destruct Hm as [Hi _]. rewrite N.eqb_refl in Hd. cbn [andb] in Hd.
    apply (spec_append_no_itaint c recs' s q []); [exact Hc|exact Hn|intros i H; discriminate H|rewrite Hdup; exact Hi|].
    intros x' Hx' Hst. exfalso. destruct (Hsub x' Hx') as [x [Hx Hid]].
    assert (E : existsb (fun x0 => id_stored s (i_id x0) && negb (existsb (N.eqb (i_id x0)) (as_tids s))) recs = true).
    { apply existsb_exists. exists x. split; [exact Hx|]. rewrite <- Hid, Hst. unfold NoIT in Hn. rewrite Hn. reflexivity. }
    rewrite E in Hd. discriminate.
  Qed.

  Lemma step_no_itaint st s o s' ds :
    R st s -> Inv st -> op_ok o -> strict_only o -> NoIT s ->
    spec_step s (E o (snd (step st o)) ds) = Some s' -> NoIT s'.
  Proof.
    intros HR HI Hok Hnt Hn Hs. apply spec_step_cases in Hs. destruct Hs as [->|Hm]; [exact Hn|].
    destruct Hok as [Hc Hnd].
    destruct o; cbn [strict_only] in Hnt; try contradiction; cbn [op_chan] in Hc;
      try (unfold NoIT; rewrite (proj1 (spec_mutate_taints _ _ _ _ Hm)); exact Hn).
    - apply N.eqb_eq in Hnt. subst mode.
      destruct (append_accepted _ _ _ _ _ _ _ HR HI Hm) as [->|[Em [b ->]]]; [exact Hn|].
      apply (accepted_no_itaint s c recs); [exact Hc|exact Hn|exact Em|apply typed_ids|].
      intros x' Hx'. apply in_map_iff in Hx'. destruct Hx' as [y [<- Hy]]. exists y. split; [exact Hy|reflexivity].
    - apply N.eqb_eq in Hnt. subst mode.
      destruct (capp_accepted _ _ _ _ _ _ HR HI Hm) as [->|[Em [b ->]]]; [exact Hn|].
      apply (accepted_no_itaint s c recs); [exact Hc|exact Hn|exact Em|reflexivity|].
      intros x' Hx'. exists x'. split; [exact Hx'|reflexivity].
  Qed.

  (* C08, second half: in a history whose appends are all strict, a message id is
     stored at most once across all channels *)
  Theorem unique_id_strict compact ops c1 q1 r1 c2 q2 r2 :
    Forall op_ok ops -> Forall strict_only ops ->
    let kv := st_kv (fst (run compact (st_init F f_empty) ops)) in
    kget (KyRow c1 q1) kv = Some (VRow r1) -> kget (KyRow c2 q2) kv = Some (VRow r2) ->
    r_id r1 = r_id r2 -> (c1, q1) = (c2, q2).
  Proof.
    intros Hok Hnt kv G1 G2 Hid.
    destruct (run_spec_inv NoIT strict_only step_no_itaint compact ops _ _ (R_init F f_empty) Inv_init eq_refl Hok Hnt) as [s [HR Hp]].
    destruct (N.eq_dec c1 c2) as [->|Hc]; [destruct (N.eq_dec q1 q2) as [->|Hq]; [reflexivity|]|];
      exfalso; [assert (Hne : (c2, q1) <> (c2, q2)) by congruence|assert (Hne : (c1, q1) <> (c2, q2)) by congruence];
      pose proof (unique_id _ s _ _ _ _ _ _ HR G1 G2 Hne Hid) as T; unfold NoIT in Hp; rewrite Hp in T; destruct T.
  Qed.
End Cov.

Lemma x_add_sound f k : x_may (x_add f k) k = true.
Proof.
  unfold x_add. destruct (x_may f k) eqn:E; [exact E|]. unfold x_may. cbn [existsb]. rewrite !bytes_eqb_refl. reflexivity.
Qed.

Lemma x_add_mono f k k' : x_may f k' = true -> x_may (x_add f k) k' = true.
Proof.
  intro H. unfold x_add. destruct (x_may f k); [exact H|]. unfold x_may in *. cbn [existsb]. rewrite H. apply orb_true_r.
Qed.

Lemma c08_monitor_zero_on_model (compact : bool) (ops : list op) (kv : list kvent) :
  Forall op_ok ops -> C08_monitor (C07Case compact (entries ops (snd (xrun compact ops))) kv) = 0.
Proof.
  intro H. unfold C08_monitor. cbn [c_steps]. unfold xrun, xinit.
  apply (c08_model_ok xfilter [] x_may x_add x_add_sound x_add_mono compact ops H).
Qed.

(* ... hence also the whole C07 monitor: refinement + no accepted retry of a stored pair *)
Lemma worst_zero a b : worst a b = 0 -> a = 0 /\ b = 0.
Proof.
  unfold worst. destruct (a =? 1) eqn:Ea; [discriminate|]. destruct (b =? 1) eqn:Eb; [discriminate|]. cbn [orb]. lia.
Qed.

Lemma c08_zero_no_retry tr : forall s, c08_run s tr = 0 -> retry_run s tr = false.
Proof.
  induction tr as [|e tr IH]; intros s H; cbn [c08_run retry_run] in *; [reflexivity|].
  destruct (spec_step s e) as [s'|]; [|discriminate H].
  apply worst_zero in H. destruct H as [H1 H2]. rewrite (IH s' H2), orb_false_r.
  assert (Hm : forall c mode recs, stored_pair_retry s c mode recs = true -> must_reject s c mode recs = true).
  { intros c mode recs Hs. unfold stored_pair_retry in Hs. unfold must_reject.
    rewrite Hs. rewrite !orb_true_r. reflexivity. }
  destruct e as [o x ds]. destruct o; cbn [retry_accepted c08_step_code] in *; try reflexivity.
  - destruct (out_accepted x) eqn:Ea; [|reflexivity]. cbn [andb].
    destruct (stored_pair_retry s c mode recs) eqn:Es; [|reflexivity].
    change (accepted x) with (out_accepted x) in H1. rewrite Ea, (Hm _ _ _ Es) in H1. discriminate H1.
  - destruct (out_accepted x) eqn:Ea; [|reflexivity]. cbn [andb].
    destruct (stored_pair_retry s c mode recs) eqn:Es; [|reflexivity].
    change (accepted x) with (out_accepted x) in H1. rewrite Ea, (Hm _ _ _ Es) in H1. discriminate H1.
Qed.

Lemma c07_monitor_zero_on_model (compact : bool) (ops : list op) (kv : list kvent) :
  Forall op_ok ops -> C07_monitor (C07Case compact (entries ops (snd (xrun compact ops))) kv) = 0.
Proof.
  intro H. unfold C07_monitor. cbn [c_steps].
  rewrite (spec_run_on_model compact ops (Forall_impl _ op_ok_b H)).
  pose proof (c08_monitor_zero_on_model compact ops kv H) as H8. unfold C08_monitor in H8. cbn [c_steps] in H8.
  rewrite (c08_zero_no_retry _ _ H8). reflexivity.
Qed.

(* finding C08-K1: one StoreAppendBatch, the same message id in the strict items
   of two channels: both are stored (witness replayed on /repo: corpus/C08/k1_*.json) *)
Definition k1_ops : list op :=
  [ OCBatch [(0, 0, [MsgStore.R 14 [] [] [120] 1%Z 0 0 0]); (2, 0, [MsgStore.R 14 [] [] [121] 1%Z 0 0 0])];
    OById 0 14; OById 2 14;
    OAppend 1 0 0 [MsgStore.R 14 [] [] [122] 1%Z 0 0 0] ].

Lemma k1_refuted :
  (* the model accepts both strict items ... *)
  map fst (snd (xrun false k1_ops))
  = [ XBatch [(0, 0, 1); (0, 0, 1)]; XMsgO None;
      XMsgO (Some (M 1 14 2 [] [] (hashPayload [121]) [121] 1%Z)); XErr EConflict ]
  (* ... the id is stored in two channels ... *)
  /\ (exists r0 r2, kget (KyRow 0 1) (st_kv _ (fst (xrun false k1_ops))) = Some (VRow r0)
                    /\ kget (KyRow 2 1) (st_kv _ (fst (xrun false k1_ops))) = Some (VRow r2)
                    /\ r_id r0 = 14 /\ r_id r2 = 14)
  (* ... and the monitor classifies exactly this as known finding number 1 (code 2) *)
  /\ C08_monitor (C07Case false (entries k1_ops (snd (xrun false k1_ops))) []) = 2.
Proof.
  split; [vm_compute; reflexivity|]. split; [|vm_compute; reflexivity].
  eexists. eexists. split; [vm_compute; reflexivity|]. split; [vm_compute; reflexivity|]. split; reflexivity.
Qed.
