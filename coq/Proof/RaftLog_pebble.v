(* Proof/RaftLog_pebble.v — one scope of the Pebble store against the reference:
   the representation invariant of the rows, the cached writer state as a
   function of the rows, and the simulation of saveOp.apply. *)
From WK Require Import Base.Base Base.Lists Gen.Consts_C14 Model.RaftLog Proof.RaftLog_lists Proof.RaftLog_ref.
From Coq Require Import ZifyBool ZifyN ZifyNat.
Open Scope N_scope.

(* [canon_meta]: what updateScopeWriteMeta leaves.  [mf_id mf < next]: ids are fresh, so later
   stagings keep [snap_rel].  [pristine] leaves the config index out: markConfigAppliedOp writes
   no meta row; [k_applied rw = 0] because currentMeta rebuilds the applied index from that
   row; once there is a meta row the reads take it from there. *)
Definition canon_meta (r : rstate) (cs : conf) : meta :=
  M (r_sidx r + 1) (r_last r) (r_applied r) (r_sidx r) (s_term (r_snap r)) cs.

Definition snap_rel (files : list (N * bytes)) (next : N) (ks : option manifest) (s : snapshot) : Prop :=
  match ks with
  | None => s = snap0
  | Some mf => 0 < s_idx s /\ mf_idx mf = s_idx s /\ mf_term mf = s_term s /\ mf_conf mf = s_conf s
               /\ mf_size mf = blen (s_data s) /\ mf_sum mf = s_sum s
               /\ mf_id mf < next /\ file_get (mf_id mf) files = Some (s_data s)
  end.

Definition pristine (r : rstate) : Prop :=
  r_hs r = hs0 /\ r_applied r = 0 /\ r_snap r = snap0 /\ r_ents r = [].

Definition RowsInv (files : list (N * bytes)) (next : N) (rw : rows) (r : rstate) : Prop :=
  k_hs rw = r_hs r /\ k_cfg rw = r_cfg r /\ k_ents rw = r_ents r
  /\ snap_rel files next (k_snap rw) (r_snap r)
  /\ match k_meta rw with
     | None => pristine r /\ k_applied rw = 0
     | Some m => exists cs, ref_conf r = Some cs /\ m = canon_meta r cs
     end.

(* the writer's cached state is a function of the rows *)
Definition canon_w (rw : rows) (r : rstate) (cs : conf) : wstate :=
  WS (r_hs r) (smeta_of (r_snap r)) (k_snap rw) (map cloneCachedEntry (r_ents r)) (canon_meta r cs).

Lemma RowsInv_rows0 files next : RowsInv files next rows0 rstate0.
Proof.
  unfold RowsInv, rows0, rstate0, pristine. cbn. repeat split; reflexivity.
Qed.

Lemma ref_conf_pristine r : pristine r -> ref_conf r = Some [].
Proof.
  intros (Hh & _ & Hs & He). unfold ref_conf. rewrite Hs, He. reflexivity.
Qed.

Lemma ref_conf_empty_log r cs :
  wf r -> r_ents r = [] -> ref_conf r = Some cs ->
  cs = if r_sidx r =? 0 then [] else s_conf (r_snap r).
Proof.
  intros (_ & _ & _ & Hz & Hpos & _) He H. unfold ref_conf, deriveConfState in H.
  rewrite He in H. unfold smeta_of in H. cbn [sm_idx sm_conf] in H. fold (r_sidx r) in H.
  destruct (r_sidx r =? 0) eqn:E.
  - cbn in H. congruence.
  - assert (Hp : 0 < r_sidx r) by lia. destruct (Hpos Hp) as [Hok _].
    rewrite (conf_ok_restore _ Hok) in H.
    destruct (s_conf (r_snap r)); cbn in H; congruence.
Qed.

Lemma snap_rel_none_sidx files next r : snap_rel files next None (r_snap r) -> r_sidx r = 0.
Proof. cbn. intro H. unfold r_sidx. rewrite H. reflexivity. Qed.

Lemma loadEntries_all rw a :
  contiguous_from (a + 1) (k_ents rw) = true ->
  loadEntries rw (a + 1) 0 = k_ents rw.
Proof.
  intro H. unfold loadEntries. apply filter_all. intros x Hx.
  pose proof (contig_in _ _ _ H Hx). cbn [N.eqb orb]. lia.
Qed.

Lemma loadEntries_00 rw : loadEntries rw 0 0 = k_ents rw.
Proof. unfold loadEntries. apply filter_all. intros. cbn. lia. Qed.

Lemma validate_ok files next rw r :
  wf r -> RowsInv files next rw r -> validateManifestMetaConsistency rw = true.
Proof.
  intros Hwf (Hh & Hc & He & Hs & Hm). unfold validateManifestMetaConsistency.
  destruct (k_snap rw) as [mf|] eqn:Eks; destruct (k_meta rw) as [m|] eqn:Ekm.
  - destruct Hm as (cs & Hcs & ->). cbn in Hs. destruct Hs as (Hp & Hi & Ht & Hcf & _).
    unfold canon_meta. cbn [m_sidx m_sterm m_last m_conf]. unfold r_sidx.
    rewrite Hi, Ht, !N.eqb_refl. cbn [andb].
    destruct (r_last r <=? s_idx (r_snap r)) eqn:El; [|reflexivity].
    assert (Hnil : r_ents r = []).
    { unfold r_last, r_sidx in El. destruct (r_ents r); [reflexivity|]. cbn [length] in El. lia. }
    rewrite (ref_conf_empty_log r cs Hwf Hnil Hcs). unfold r_sidx.
    replace (s_idx (r_snap r) =? 0) with false by lia.
    rewrite Hcf, conf_eqb_refl. reflexivity.
  - destruct Hm as ((_ & _ & Hs0 & _) & _). cbn in Hs. rewrite Hs0 in Hs. cbn in Hs. lia.
  - destruct Hm as (cs & Hcs & ->). cbn in Hs. unfold canon_meta. cbn [m_sidx]. unfold r_sidx. rewrite Hs. reflexivity.
  - reflexivity.
Qed.

Lemma load_canon files next rw r cs :
  wf r -> RowsInv files next rw r -> ref_conf r = Some cs ->
  load_from_rows rw = Ok (canon_w rw r cs).
Proof.
  intros Hwf Hinv Hcs. unfold load_from_rows.
  rewrite (validate_ok _ _ _ _ Hwf Hinv). cbn [negb].
  destruct Hwf as (Hcont & _ & Hmax & _).
  destruct Hinv as (Hh & Hc & He & Hs & Hm).
  assert (Hents : loadEntries rw (match k_snap rw with
                                  | Some mf => if mf_idx mf <? c14_MaxUint64 then mf_idx mf + 1 else 0
                                  | None => 0 end) 0 = r_ents r).
  { destruct (k_snap rw) as [mf|] eqn:Eks.
    - cbn in Hs. destruct Hs as (_ & Hi & _). rewrite Hi. fold (r_sidx r).
      replace (r_sidx r <? c14_MaxUint64) with true by lia.
      rewrite <- He. apply loadEntries_all. rewrite He. exact Hcont.
    - rewrite loadEntries_00. exact He. }
  rewrite Hents.
  assert (Hsm : match k_snap rw with Some mf => smeta_of_manifest mf | None => smeta0 end = smeta_of (r_snap r)).
  { destruct (k_snap rw) as [mf|]; cbn in Hs.
    - destruct Hs as (_ & Hi & Ht & Hcf & _). unfold smeta_of_manifest, smeta_of. rewrite Hi, Ht, Hcf. reflexivity.
    - rewrite Hs. reflexivity. }
  rewrite Hsm.
  destruct (k_meta rw) as [m|] eqn:Ekm.
  - destruct Hm as (cs' & Hcs' & ->). rewrite Hcs in Hcs'. inversion Hcs'; subst cs'.
    unfold canon_w. rewrite Hh. reflexivity.
  - destruct Hm as (Hp & Ha). pose proof Hp as (Hh0 & Ha0 & Hs0 & He0).
    rewrite (ref_conf_pristine r Hp) in Hcs. inversion Hcs; subst cs.
    unfold canon_w, canon_meta, r_last, r_sidx. rewrite He0, Hs0, Hh, Hh0, Ha0. reflexivity.
Qed.

Lemma fold_bent sc es rw :
  fold_left apply_bop_rows (map (BEnt sc) es) rw =
  RW (k_hs rw) (k_applied rw) (k_cfg rw) (k_snap rw) (k_meta rw)
     (fold_left (fun acc e => row_put e acc) es (k_ents rw)).
Proof.
  revert rw. induction es as [|e es IH]; intro rw.
  - destruct rw; reflexivity.
  - cbn [map fold_left]. rewrite IH. reflexivity.
Qed.

Lemma row_del_below l x :
  row_del 0 (Some (x + 1)) l = filter (fun e => x <? e_idx e) l.
Proof.
  unfold row_del. apply filter_ext. intro e. unfold in_range. lia.
Qed.

Lemma row_del_from l f :
  row_del f None l = filter (fun e => negb (f <=? e_idx e)) l.
Proof.
  unfold row_del. apply filter_ext. intro e. unfold in_range. rewrite andb_true_r. reflexivity.
Qed.

(* [L]: the LastIndex of the meta, which right after the snapshot sub-step may lie below the
   snapshot index [a]; then no row is left and no tombstone is needed *)
Lemma rows_append a base L f es :
  contiguous_from (a + 1) base = true -> N.max a L = a + len base ->
  contiguous_from f es = true -> a + 1 <= f -> f <= a + 1 + len base ->
  fold_left (fun acc e => row_put e acc) es (if f <=? L then row_del f None base else base)
  = firstn (N.to_nat (f - a - 1)) base ++ es.
Proof.
  intros Hb HL Hes Hlo Hhi.
  assert (Hcut : (if f <=? L then row_del f None base else base) = firstn (N.to_nat (f - a - 1)) base).
  { destruct (f <=? L) eqn:E.
    - rewrite row_del_from, (filter_lt_firstn (a + 1) base f Hb). f_equal. lia.
    - symmetry. apply firstn_all2. unfold len in *. lia. }
  rewrite Hcut. apply (fold_row_put_tail (a + 1)); [apply contig_firstn; assumption|].
  rewrite len_firstn by lia. replace (a + 1 + (f - a - 1)) with f by lia. assumption.
Qed.

Lemma set_first_same m : set_first m (m_first m) = m.
Proof. destruct m; reflexivity. Qed.

Lemma manifest_equiv_refl mf : snapshotManifestEquivalent mf mf = true.
Proof. unfold snapshotManifestEquivalent. rewrite !N.eqb_refl, conf_eqb_refl. reflexivity. Qed.

Lemma snapshot_step_eq sc st h hs es sm mf :
  sm_idx (w_snap st) <= sm_idx sm -> sm_idx sm < c14_MaxUint64 ->
  (sm_idx sm = sm_idx (w_snap st) -> w_mf st = Some mf) ->
  save_snapshot_step sc st h (WSv hs es (Some sm) (Some mf)) =
  Ok ([BSnap sc mf; BDel sc 0 (Some (sm_idx sm + 1))],
      WS (w_hs st) sm (Some mf) (trimCachedEntriesAfterSnapshot (w_ents st) (sm_idx sm))
         (set_first (w_meta st) (sm_idx sm + 1)),
      (if hs_commit h <? sm_idx sm then set_commit h (sm_idx sm) else h), sm_idx sm).
Proof.
  intros Hle Hmax Hsame. unfold save_snapshot_step. cbn [ws_snap ws_mf].
  replace (sm_idx sm <? sm_idx (w_snap st)) with false by lia.
  replace (sm_idx sm <? c14_MaxUint64) with true by lia.
  destruct (sm_idx sm =? sm_idx (w_snap st)) eqn:E; [|reflexivity].
  rewrite (Hsame ltac:(lia)), manifest_equiv_refl. reflexivity.
Qed.

Lemma trim_clone l i :
  trimCachedEntriesAfterSnapshot (map cloneCachedEntry l) i =
  map cloneCachedEntry (filter (fun e => i <? e_idx e) l).
Proof.
  unfold trimCachedEntriesAfterSnapshot. rewrite filter_map_comm, map_map.
  rewrite (filter_ext _ (fun e => i <? e_idx e)) by (intro e; rewrite cloneCached_idx; reflexivity).
  apply map_ext, cloneCached_idem.
Qed.

Lemma filter_after_idem ents i :
  filterEntriesAfterSnapshot (filterEntriesAfterSnapshot ents i) i = filterEntriesAfterSnapshot ents i.
Proof.
  unfold filterEntriesAfterSnapshot. apply filter_all. intros x Hx. apply filter_In in Hx. tauto.
Qed.

Lemma filter_all_gt a ents :
  match ents with [] => true | e0 :: _ => contiguous_from (e_idx e0) ents end = true ->
  match ents with [] => true | e0 :: _ => a <? e_idx e0 end = true ->
  filterEntriesAfterSnapshot ents a = ents.
Proof.
  intros Hc Hh. destruct ents as [|e0 l]; [reflexivity|].
  unfold filterEntriesAfterSnapshot. apply filter_all. intros x Hx.
  pose proof (contig_in _ _ _ Hc Hx). lia.
Qed.

(* what planSnapshotSave / prepareAndWriteSnapshot hand to the writer *)
Definition plan_ok (files' : list (N * bytes)) (next' : N) (rw : rows) (r : rstate)
           (hs : option hardstate) (ents : list entry) (snap : option snapshot) (sv : wsave) : Prop :=
  match snap with
  | None => sv = WSv hs ents None None /\ snap_rel files' next' (k_snap rw) (r_snap r)
  | Some s => exists mf', sv = WSv hs (filterEntriesAfterSnapshot ents (s_idx s)) (Some (smeta_of s)) (Some mf')
                          /\ snap_rel files' next' (Some mf') s
                          /\ (s_idx s = r_sidx r -> k_snap rw = Some mf')
  end.

Lemma plan_ok_hs files' next' rw r hs ents snap sv :
  plan_ok files' next' rw r hs ents snap sv -> ws_hs sv = hs.
Proof. unfold plan_ok. destruct snap; [intros (mf & -> & _)|intros (-> & _)]; reflexivity. Qed.

Lemma plan_ok_snap_none files' next' rw r hs ents snap sv :
  plan_ok files' next' rw r hs ents snap sv -> (ws_snap sv = None <-> snap = None).
Proof.
  unfold plan_ok. destruct snap; [intros (mf & -> & _)|intros (-> & _)]; split; try discriminate; reflexivity.
Qed.

Lemma plan_ok_ents files' next' rw r hs ents snap sv :
  plan_ok files' next' rw r hs ents snap sv ->
  match ents with [] => true | e0 :: _ => contiguous_from (e_idx e0) ents end = true ->
  match snap with
  | Some s => 0 <? s_idx s
  | None => match ents with [] => true | e0 :: _ => r_sidx r <? e_idx e0 end
  end = true ->
  let si := match snap with Some s => s_idx s | None => 0 end in
  (if 0 <? si then filterEntriesAfterSnapshot (ws_ents sv) si else ws_ents sv)
  = filterEntriesAfterSnapshot ents (s_idx (spec_snapshot r snap)).
Proof.
  unfold plan_ok. intros Hplan Hcg Hpos. destruct snap as [s|]; cbn [spec_snapshot spec_base fst].
  - destruct Hplan as (mf & -> & _). rewrite Hpos. apply filter_after_idem.
  - destruct Hplan as (-> & _). symmetry. apply filter_all_gt; assumption.
Qed.

Lemma snapshot_step_sim sc files' next' rw r cs hs ents snap sv h :
  contiguous_from (r_sidx r + 1) (r_ents r) = true -> k_ents rw = r_ents r ->
  r_sidx r <= s_idx (spec_snapshot r snap) -> s_idx (spec_snapshot r snap) < c14_MaxUint64 ->
  plan_ok files' next' rw r hs ents snap sv ->
  exists b1 mfo,
    save_snapshot_step sc (canon_w rw r cs) h sv =
      Ok (b1, WS (r_hs r) (smeta_of (spec_snapshot r snap)) mfo
                 (map cloneCachedEntry (spec_base r snap))
                 (set_first (canon_meta r cs) (s_idx (spec_snapshot r snap) + 1)),
          raise_commit h snap, match snap with Some s => s_idx s | None => 0 end)
    /\ Forall (fun x => bop_scope x = sc) b1
    /\ fold_left apply_bop_rows b1 rw =
       RW (k_hs rw) (k_applied rw) (k_cfg rw) mfo (k_meta rw) (spec_base r snap)
    /\ snap_rel files' next' mfo (spec_snapshot r snap).
Proof.
  intros Hcont He Hle Hmax Hplan. unfold plan_ok in Hplan.
  destruct snap as [s|]; cbn [spec_snapshot spec_base fst snd raise_commit] in *.
  - destruct Hplan as (mf' & -> & Hrel & Hsame).
    exists [BSnap sc mf'; BDel sc 0 (Some (s_idx s + 1))], (Some mf').
    rewrite snapshot_step_eq by assumption.
    cbn [canon_w w_hs w_ents w_meta smeta_of sm_idx].
    rewrite trim_clone, (filter_gt_skipn_succ _ _ _ Hcont).
    split; [reflexivity|]. split; [repeat constructor|]. split; [|exact Hrel].
    cbn [fold_left apply_bop_rows k_hs k_applied k_cfg k_snap k_meta k_ents].
    rewrite row_del_below, He, (filter_gt_skipn_succ _ _ _ Hcont). reflexivity.
  - destruct Hplan as (-> & Hrel). exists [], (k_snap rw).
    split; [reflexivity|]. split; [constructor|]. split; [|exact Hrel].
    cbn [fold_left]. rewrite <- He. destruct rw; reflexivity.
Qed.

Lemma entries_step_sim sc a base L st sv si ents rw :
  contiguous_from (a + 1) base = true -> N.max a L = a + len base ->
  k_ents rw = base ->
  w_ents st = map cloneCachedEntry base ->
  m_first (w_meta st) = a + 1 -> m_last (w_meta st) = L ->
  (if 0 <? si then filterEntriesAfterSnapshot (ws_ents sv) si else ws_ents sv)
  = filterEntriesAfterSnapshot ents a ->
  append_ok a base ents ->
  exists b,
    save_entries_step sc st sv si =
      (b, WS (w_hs st) (w_snap st) (w_mf st) (map cloneCachedEntry (append_spec a base ents)) (w_meta st))
    /\ Forall (fun x => bop_scope x = sc) b
    /\ fold_left apply_bop_rows b rw =
       RW (k_hs rw) (k_applied rw) (k_cfg rw) (k_snap rw) (k_meta rw) (append_spec a base ents).
Proof.
  intros Hb HL Hk Hw Hf Hl Hes Hok. unfold save_entries_step, append_spec, append_ok in *. rewrite Hes.
  destruct (filterEntriesAfterSnapshot ents a) as [|e0 es0].
  { exists []. rewrite <- Hw, <- Hk. split; [destruct st; reflexivity|].
    split; [constructor|destruct rw; reflexivity]. }
  destruct Hok as (Hc & Hlo & Hhi). rewrite Hf, Hl.
  assert (Hm' : (if (L <? a + 1) || (e_idx e0 <? a + 1) then set_first (w_meta st) (e_idx e0) else w_meta st)
                = w_meta st).
  { destruct ((L <? a + 1) || (e_idx e0 <? a + 1)) eqn:E; [|reflexivity].
    replace (e_idx e0) with (a + 1) by lia. rewrite <- Hf. apply set_first_same. }
  rewrite Hm', Hl. eexists. split.
  { f_equal. f_equal. rewrite Hw. unfold replaceCachedEntriesFromIndex.
    rewrite take_below_map_clone, (take_below_firstn (a + 1) base (e_idx e0) Hb), <- map_app.
    do 3 f_equal. lia. }
  split.
  { apply Forall_app. split; [destruct (e_idx e0 <=? L); repeat constructor|].
    apply Forall_forall. intros x Hx. apply in_map_iff in Hx. destruct Hx as (e & <- & _). reflexivity. }
  assert (Hdel : fold_left apply_bop_rows (if e_idx e0 <=? L then [BDel sc (e_idx e0) None] else []) rw
                 = RW (k_hs rw) (k_applied rw) (k_cfg rw) (k_snap rw) (k_meta rw)
                      (if e_idx e0 <=? L then row_del (e_idx e0) None base else base)).
  { rewrite <- Hk. destruct (e_idx e0 <=? L); destruct rw; reflexivity. }
  rewrite fold_left_app, Hdel, fold_bent. cbn [k_hs k_applied k_cfg k_snap k_meta k_ents].
  rewrite (rows_append a base L (e_idx e0) (e0 :: es0) Hb HL Hc Hlo Hhi). reflexivity.
Qed.

Lemma update_meta_sim hs sm mf l m a cs :
  sm_idx sm = a -> a < c14_MaxUint64 ->
  contiguous_from (a + 1) l = true ->
  m_first m = a + 1 ->
  deriveConfState sm l (hs_commit hs) = Some cs ->
  updateScopeWriteMeta (WS hs sm mf (map cloneCachedEntry l) m) =
  Ok (WS hs sm mf (map cloneCachedEntry l)
         (M (a + 1) (a + len l) (m_applied m) a (sm_term sm) cs)).
Proof.
  intros Ha Hmax Hc Hf Hd. unfold updateScopeWriteMeta. cbn [w_snap w_ents w_hs w_meta].
  rewrite deriveConfState_clone, Hd, Ha, Hf.
  rewrite last_idx_of_map_clone, (last_idx_of_contig (a + 1) l Hc).
  replace (a + 1 =? 0) with false by lia.
  destruct l as [|e l].
  - rewrite len_nil. replace ((a <? a + 1) && (a <? c14_MaxUint64)) with true by lia.
    rewrite N.add_0_r. reflexivity.
  - set (n := len (e :: l)). assert (1 <= n) by (subst n; rewrite len_cons; lia).
    replace (a <? a + 1 + n - 1) with true by lia.
    replace ((a + 1 + n - 1 <? a + 1) && (a + 1 + n - 1 <? c14_MaxUint64)) with false by lia.
    replace (a + 1 + n - 1) with (a + n) by lia. reflexivity.
Qed.

Lemma hardstate_row sc (persist : bool) h rw :
  (persist = false -> k_hs rw = h) ->
  fold_left apply_bop_rows (if persist then [BHs sc h] else []) rw
  = RW h (k_applied rw) (k_cfg rw) (k_snap rw) (k_meta rw) (k_ents rw).
Proof. destruct persist; [reflexivity|]. intro H. rewrite <- (H eq_refl). destruct rw; reflexivity. Qed.

(* sub-step by sub-step.  After [snapshot_step_sim] the meta still holds the OLD LastIndex,
   which decides about the tombstone in [rows_append].  The closing [reflexivity]s identify
   [canon_meta (save_spec ...) cs'] with the meta of [update_meta_sim] by conversion:
   [canon_meta] and [r_last] have to stay transparent. *)
Lemma saveOp_sim sc files next files' next' rw r cs hs ents snap sv r' :
  wf r -> RowsInv files next rw r -> ref_conf r = Some cs ->
  req_valid r (WSave hs ents snap) = true -> k1_signature r (WSave hs ents snap) = false ->
  ref_save false r hs ents snap = ROk r' ->
  plan_ok files' next' rw r hs ents snap sv ->
  exists b st' cs',
    saveOp_apply sc (canon_w rw r cs) sv = Ok (b, st')
    /\ Forall (fun x => bop_scope x = sc) b
    /\ RowsInv files' next' (fold_left apply_bop_rows b rw) r'
    /\ ref_conf r' = Some cs'
    /\ st' = canon_w (fold_left apply_bop_rows b rw) r' cs'.
Proof.
  intros Hwf Hinv Hcs Hv Hk Href Hplan.
  destruct (ref_save_ok r hs ents snap r' Hwf Hv Hk Href) as (-> & Hle & Hao & Hwf').
  destruct (req_valid_save _ _ _ _ Hv) as (_ & Hcg & Hsn & _).
  pose proof (wf_contig _ Hwf) as Hcont. destruct Hwf' as (Hcont' & _ & Hmax' & _ & _ & (cs' & Hcs')).
  destruct Hinv as (Hh & Hc & He & _).
  assert (Hpos : match snap with
                 | Some s => 0 <? s_idx s
                 | None => match ents with [] => true | e0 :: _ => r_sidx r <? e_idx e0 end
                 end = true).
  { destruct snap as [s|]; [|exact Hsn]. destruct (snapshot_ok_inv r s Hsn) as (Hi & _). lia. }
  set (h1 := match hs with Some h => h | None => r_hs r end).
  destruct (snapshot_step_sim sc files' next' rw r cs hs ents snap sv h1 Hcont He Hle Hmax' Hplan)
    as (b1 & mfo & Hs1 & Hb1 & Hrows1 & Hrel1).
  pose proof (plan_ok_ents _ _ _ _ _ _ _ _ Hplan Hcg Hpos) as Hfil. cbn zeta in Hfil.
  pose proof (plan_ok_hs _ _ _ _ _ _ _ _ Hplan) as Hwhs.
  pose proof (plan_ok_snap_none _ _ _ _ _ _ _ _ Hplan) as Hwsn.
  set (sn' := spec_snapshot r snap) in *. set (base := spec_base r snap) in *.
  pose proof (spec_base_contig r snap Hcont Hle) as Hbase.
  pose proof (spec_base_last r snap Hle) as HL.
  destruct (entries_step_sim sc (s_idx sn') base (r_last r)
              (WS (r_hs r) (smeta_of sn') mfo (map cloneCachedEntry base)
                  (set_first (canon_meta r cs) (s_idx sn' + 1)))
              sv (match snap with Some s => s_idx s | None => 0 end) ents
              (fold_left apply_bop_rows b1 rw) Hbase HL)
    as (b2 & Hs2 & Hb2 & Hrows2);
    [rewrite Hrows1; reflexivity|reflexivity|reflexivity|reflexivity|exact Hfil|exact Hao|].
  set (ents' := append_spec (s_idx sn') base ents) in *.
  pose proof (update_meta_sim (raise_commit h1 snap) (smeta_of sn') mfo ents'
                (set_first (canon_meta r cs) (s_idx sn' + 1)) (s_idx sn') cs'
                eq_refl Hmax' Hcont' eq_refl Hcs') as Hum.
  unfold saveOp_apply. rewrite Hwhs. change (w_hs (canon_w rw r cs)) with (r_hs r). fold h1.
  rewrite Hs1, Hs2. cbn [w_snap w_mf w_ents w_meta w_hs]. rewrite Hum. cbn [w_meta].
  assert (Hhs : match hs with Some _ => true | None => match ws_snap sv with Some _ => true | None => false end end
                = false -> r_hs r = raise_commit h1 snap).
  { destruct hs; [discriminate|]. destruct (ws_snap sv); [discriminate|]. intros _.
    rewrite (proj1 Hwsn eq_refl). reflexivity. }
  eexists. eexists. exists cs'. split; [reflexivity|].
  split.
  { repeat (apply Forall_app; split); try assumption; [|repeat constructor].
    destruct hs; [|destruct (ws_snap sv)]; repeat constructor. }
  rewrite !fold_left_app, Hrows2, Hrows1. cbn [k_hs k_applied k_cfg k_snap k_meta k_ents].
  rewrite hardstate_row by (intro Hp; rewrite <- (Hhs Hp); exact Hh).
  cbn [fold_left apply_bop_rows k_hs k_applied k_cfg k_snap k_meta k_ents].
  split.
  { unfold RowsInv. cbn [k_hs k_applied k_cfg k_snap k_meta k_ents].
    split; [reflexivity|]. split; [exact Hc|]. split; [reflexivity|]. split; [exact Hrel1|].
    exists cs'. split; [exact Hcs'|reflexivity]. }
  split; [exact Hcs'|reflexivity].
Qed.

(* markConfigAppliedOp.apply writes only its own row: the meta row does not hold that index *)
Lemma markApplied_sim sc files next rw r cs i :
  RowsInv files next rw r -> ref_conf r = Some cs ->
  let r' := RS (r_hs r) i (r_cfg r) (r_snap r) (r_ents r) in
  let '(b, st') := markAppliedOp_apply sc (canon_w rw r cs) i in
  Forall (fun x => bop_scope x = sc) b
  /\ RowsInv files next (fold_left apply_bop_rows b rw) r'
  /\ ref_conf r' = Some cs
  /\ st' = canon_w (fold_left apply_bop_rows b rw) r' cs.
Proof.
  intros (Hh & Hc & He & Hs & Hm) Hcs. unfold markAppliedOp_apply.
  cbn [fold_left apply_bop_rows k_hs k_applied k_cfg k_snap k_meta k_ents].
  split; [repeat constructor|]. split; [|split; [exact Hcs|reflexivity]].
  unfold RowsInv. cbn [k_hs k_applied k_cfg k_snap k_meta k_ents]. repeat split; try assumption.
  exists cs. split; [exact Hcs|reflexivity].
Qed.

Lemma markConfigApplied_sim sc files next rw r cs i :
  RowsInv files next rw r -> ref_conf r = Some cs ->
  let r' := RS (r_hs r) (r_applied r) i (r_snap r) (r_ents r) in
  let '(b, st') := markConfigAppliedOp_apply sc (canon_w rw r cs) i in
  Forall (fun x => bop_scope x = sc) b
  /\ RowsInv files next (fold_left apply_bop_rows b rw) r'
  /\ ref_conf r' = Some cs
  /\ st' = canon_w (fold_left apply_bop_rows b rw) r' cs.
Proof.
  intros (Hh & Hc & He & Hs & Hm) Hcs. unfold markConfigAppliedOp_apply.
  cbn [fold_left apply_bop_rows k_hs k_applied k_cfg k_snap k_meta k_ents].
  split; [repeat constructor|]. split; [|split; [exact Hcs|reflexivity]].
  unfold RowsInv. cbn [k_hs k_applied k_cfg k_snap k_meta k_ents]. repeat split; assumption.
Qed.
