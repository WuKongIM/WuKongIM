(* Proof/GatewaySend_lib.v — list / sum / history-projection lemmas used by the
   GatewaySend invariant proofs. *)
From Coq Require Import Sorting.Sorted.
From WK Require Import Base.Base Model.GatewaySend.
Open Scope N_scope.

Lemma upd_same {A} (f : nat -> A) k v : upd f k v k = v.
Proof. unfold upd. rewrite Nat.eqb_refl. reflexivity. Qed.

Lemma upd_other {A} (f : nat -> A) k v i : i <> k -> upd f k v i = f i.
Proof. intro H. unfold upd. apply Nat.eqb_neq in H. rewrite H. reflexivity. Qed.

Lemma upd_id {A} (f : nat -> A) k i : upd f k (f k) i = f i.
Proof. unfold upd. destruct (Nat.eqb i k) eqn:E; [apply Nat.eqb_eq in E; subst|]; reflexivity. Qed.

(* a field indexed by threads after one [upd]: at the updated index, and elsewhere *)
Ltac by_idx i k :=
  destruct (Nat.eq_dec i k) as [->|?];
  [rewrite ?upd_same in * | rewrite ?upd_other in * by assumption].

Lemma upd_keep {A} (f : nat -> A) k v i a : f i = a -> f k <> a -> upd f k v i = a.
Proof. intros Hi Hk. rewrite upd_other; [exact Hi | intros ->; exact (Hk Hi)]. Qed.

Lemma upd_inv {A} (f : nat -> A) k v i a : upd f k v i = a -> v <> a -> f i = a.
Proof. intros H Hv. destruct (Nat.eq_dec i k) as [->|Hne]; [rewrite upd_same in H; destruct (Hv H) | rewrite upd_other in H; assumption]. Qed.

Lemma upd_true_mono (f : nat -> bool) s i : f i = true -> upd f s true i = true.
Proof. intro H. by_idx i s; [reflexivity | exact H]. Qed.

(* membership in a list that grew by one element *)
Ltac in_snoc H :=
  apply in_app_or in H; destruct H as [H|[H|[]]].

Fixpoint sumf (f : nat -> N) (n : nat) : N :=
  match n with O => 0 | S m => sumf f m + f m end.

Lemma sumf_ext f g n : (forall i, (i < n)%nat -> f i = g i) -> sumf f n = sumf g n.
Proof.
  induction n as [|n IH]; intro H; cbn [sumf]; [reflexivity|].
  rewrite IH by (intros; apply H; lia). rewrite H by lia. reflexivity.
Qed.

(* f' differs from f at k only; k may lie outside the range if nothing changes there *)
Lemma sumf_change f f' n k :
  (forall i, i <> k -> f' i = f i) -> (k < n)%nat \/ f' k = f k ->
  sumf f' n + f k = sumf f n + f' k.
Proof.
  intros H [Hk|Hk].
  - induction n as [|n IH]; [lia|]. cbn [sumf].
    destruct (Nat.eq_dec k n) as [->|Hne].
    + rewrite (sumf_ext f' f n) by (intros; apply H; lia). lia.
    + rewrite (H n) by lia. specialize (IH ltac:(lia)). lia.
  - rewrite (sumf_ext f' f n), Hk; [reflexivity|].
    intros i _. destruct (Nat.eq_dec i k) as [->|Hne]; [exact Hk | apply H; exact Hne].
Qed.

Lemma sumf_upd {A} (g : A -> N) (f : nat -> A) n k v :
  (k < n)%nat \/ v = f k ->
  sumf (fun i => g (upd f k v i)) n + g (f k) = sumf (fun i => g (f i)) n + g v.
Proof.
  intro Hk.
  pose proof (sumf_change (fun i => g (f i)) (fun i => g (upd f k v i)) n k) as H. cbn beta in H.
  rewrite upd_same in H. apply H.
  - intros i Hi. rewrite upd_other by exact Hi. reflexivity.
  - destruct Hk as [Hk| ->]; [left; exact Hk | right; reflexivity].
Qed.

Lemma sumf_all_zero f n : (forall i, f i = 0) -> sumf f n = 0.
Proof. intro H. induction n as [|n IH]; cbn [sumf]; [reflexivity|]. rewrite IH, H. reflexivity. Qed.

Lemma sumf_ge f n i : (i < n)%nat -> f i <= sumf f n.
Proof.
  induction n as [|n IH]; intro Hi; [lia|]. cbn [sumf].
  destruct (Nat.eq_dec i n) as [->|Hne]; [lia|]. specialize (IH ltac:(lia)). lia.
Qed.

Lemma len_app {A} (a b : list A) : len (a ++ b) = len a + len b.
Proof. unfold len. rewrite app_length. lia. Qed.

Lemma len_cons {A} (x : A) l : len (x :: l) = len l + 1.
Proof. unfold len. cbn [length]. lia. Qed.

Lemma len_nil {A} : len (@nil A) = 0.
Proof. reflexivity. Qed.

Lemma len_zero {A} (l : list A) : len l = 0 -> l = [].
Proof. destruct l; [reflexivity|]. rewrite len_cons. lia. Qed.

#[export] Hint Rewrite @len_app @len_cons @len_nil : len.

Definition qs_of (s : nat) (l : list task) : list N :=
  map t_q (filter (fun x => Nat.eqb (t_s x) s) l).

Lemma qs_of_app s a b : qs_of s (a ++ b) = qs_of s a ++ qs_of s b.
Proof. unfold qs_of. rewrite filter_app, map_app. reflexivity. Qed.

Lemma qs_of_cons_same s x l : t_s x = s -> qs_of s (x :: l) = t_q x :: qs_of s l.
Proof. intro H. unfold qs_of. cbn [filter]. rewrite H, Nat.eqb_refl. reflexivity. Qed.

Lemma qs_of_cons_other s x l : t_s x <> s -> qs_of s (x :: l) = qs_of s l.
Proof. intro H. unfold qs_of. cbn [filter]. apply Nat.eqb_neq in H. rewrite H. reflexivity. Qed.

Lemma qs_of_nil s : qs_of s [] = [].
Proof. reflexivity. Qed.

Lemma qs_of_in s l q : In q (qs_of s l) -> exists x, In x l /\ t_s x = s /\ t_q x = q.
Proof.
  unfold qs_of. intro H. apply in_map_iff in H. destruct H as [x [Hq Hx]].
  apply filter_In in Hx. destruct Hx as [Hx Hs]. apply Nat.eqb_eq in Hs. eauto.
Qed.

Lemma qs_of_nonempty s l : qs_of s l <> [] -> exists x, In x l /\ t_s x = s.
Proof.
  destruct (qs_of s l) as [|q r] eqn:E; [congruence|]. intros _.
  destruct (qs_of_in s l q) as [x [H1 [H2 _]]]; [rewrite E; left; reflexivity|]. eauto.
Qed.

Lemma accq_app h1 h2 s : accq (h1 ++ h2) s = accq h1 s ++ accq h2 s.
Proof. unfold accq. rewrite filter_app, map_app. reflexivity. Qed.
Lemma finq_app h1 h2 s : finq (h1 ++ h2) s = finq h1 s ++ finq h2 s.
Proof. unfold finq. rewrite filter_app, map_app. reflexivity. Qed.
Lemma ackq_app h1 h2 s : ackq (h1 ++ h2) s = ackq h1 s ++ ackq h2 s.
Proof. unfold ackq. rewrite filter_app, map_app. reflexivity. Qed.

Lemma accq_one s' q b t0 t1 acc s :
  accq [HSend s' q b t0 t1 acc] s = if Nat.eqb s' s && acc then [q] else [].
Proof. unfold accq. cbn. destruct (Nat.eqb s' s && acc); reflexivity. Qed.

Lemma ackq_one s' w tag t s :
  ackq [HWire s' w tag t] s = if Nat.eqb s' s && (w =? 0) then [tag] else [].
Proof. unfold ackq. cbn. destruct (Nat.eqb s' s && (w =? 0)); reflexivity. Qed.

Lemma accq_rej h s0 q b t0 t1 s : accq (h ++ [HSend s0 q b t0 t1 false]) s = accq h s.
Proof. rewrite accq_app, accq_one, andb_false_r, app_nil_r. reflexivity. Qed.


Lemma accq_acc h s0 q b t0 t1 s :
  accq (h ++ [HSend s0 q b t0 t1 true]) s = accq h s ++ (if Nat.eqb s0 s then [q] else []).
Proof. rewrite accq_app, accq_one, andb_true_r. reflexivity. Qed.


Lemma ackq_push w s0 w0 tag t s : w0 <> 0 -> ackq (w ++ [HWire s0 w0 tag t]) s = ackq w s.
Proof.
  intro H. rewrite ackq_app, ackq_one. apply N.eqb_neq in H. rewrite H, andb_false_r, app_nil_r. reflexivity.
Qed.

Lemma in_accq h x : In x h -> hs_acc x = true -> In (hs_q x) (accq h (hs_s x)).
Proof.
  intros Hin Ha. unfold accq. apply in_map. apply filter_In. split; [exact Hin|].
  rewrite Nat.eqb_refl, Ha. reflexivity.
Qed.


Lemma accq_in h s q : In q (accq h s) -> exists x, In x h /\ hs_s x = s /\ hs_q x = q /\ hs_acc x = true.
Proof.
  unfold accq. intro H. apply in_map_iff in H. destruct H as [x [Hq Hx]]. apply filter_In in Hx.
  destruct Hx as [Hx Hc]. apply andb_true_iff in Hc. destruct Hc as [Hs Ha]. apply Nat.eqb_eq in Hs. eauto.
Qed.


Lemma finq_in d s q : In q (finq d s) -> exists e, In e d /\ hd_s e = s /\ hd_q e = q.
Proof.
  unfold finq. intro H. apply in_map_iff in H. destruct H as [e [Hq He]]. apply filter_In in He.
  destruct He as [He Hs]. apply Nat.eqb_eq in Hs. eauto.
Qed.


(* the handler gives up / finishes a list of items: their disp records *)
Lemma finq_drop items t s :
  finq (map (fun x => HDisp (t_s x) (t_q x) t) items) s = qs_of s items.
Proof.
  unfold finq, qs_of. induction items as [|x r IH]; [reflexivity|].
  cbn [map filter hd_s]. destruct (Nat.eqb (t_s x) s); cbn [map hd_q]; rewrite IH; reflexivity.
Qed.

Lemma prefixb_app a r : prefixb a (a ++ r) = true.
Proof. induction a as [|x a IH]; [reflexivity|]. cbn. rewrite N.eqb_refl. exact IH. Qed.

Lemma subseqb_nil_l b : subseqb [] b = true.
Proof. destruct b; reflexivity. Qed.

Lemma subseqb_single q f : subseqb [q] (f ++ [q]) = true.
Proof.
  induction f as [|y f IH]; cbn [app subseqb].
  - rewrite N.eqb_refl. reflexivity.
  - destruct (q =? y); [apply subseqb_nil_l | exact IH].
Qed.

Lemma subseqb_snoc f : forall a q, subseqb a f = true -> subseqb (a ++ [q]) (f ++ [q]) = true.
Proof.
  induction f as [|y f IH]; intros a q H.
  - destruct a; [cbn; rewrite N.eqb_refl; reflexivity | discriminate H].
  - destruct a as [|x a'].
    + apply (subseqb_single q (y :: f)).
    + cbn [app subseqb] in *. destruct (x =? y).
      * apply IH. exact H.
      * apply (IH (x :: a') q H).
Qed.

Lemma subseqb_app_r f : forall a r, subseqb a f = true -> subseqb a (f ++ r) = true.
Proof.
  induction f as [|y f IH]; intros a r H.
  - destruct a; [apply subseqb_nil_l | discriminate H].
  - destruct a as [|x a']; [reflexivity|]. cbn [app subseqb] in *.
    destruct (x =? y); apply IH; exact H.
Qed.

Lemma subseqb_refl a : subseqb a a = true.
Proof. induction a as [|x a IH]; [reflexivity|]. cbn. rewrite N.eqb_refl. exact IH. Qed.

Lemma subseqb_incl f : forall a, subseqb a f = true -> incl a f.
Proof.
  induction f as [|y f IH]; intros [|x a] H z Hz; try contradiction; [discriminate H|].
  cbn [subseqb] in H. destruct (x =? y) eqn:E.
  - apply N.eqb_eq in E. subst y. destruct Hz as [<-|Hz]; [left; reflexivity | right; exact (IH a H z Hz)].
  - right. exact (IH (x :: a) H z Hz).
Qed.

Lemma subseqb_nodup f : forall a, subseqb a f = true -> NoDup f -> NoDup a.
Proof.
  induction f as [|y f IH]; intros [|x a] H Hn; [constructor | discriminate H | constructor |].
  cbn [subseqb] in H. inversion Hn as [|? ? Hy Hf]; subst. destruct (x =? y) eqn:E.
  - apply N.eqb_eq in E. subst y. constructor; [|exact (IH a H Hf)].
    intro Hin. apply Hy. exact (subseqb_incl f a H x Hin).
  - exact (IH (x :: a) H Hf).
Qed.

Lemma incrb_sorted l : StronglySorted N.lt l -> incrb l = true.
Proof.
  induction 1 as [|x l Hs IH Hall]; [reflexivity|].
  destruct l as [|y r]; [reflexivity|]. cbn [incrb].
  inversion Hall; subst. apply andb_true_iff. split; [apply N.ltb_lt; assumption | exact IH].
Qed.

Lemma sorted_filter {A} (key : A -> N) (p : A -> bool) l :
  StronglySorted N.lt (map key l) -> StronglySorted N.lt (map key (filter p l)).
Proof.
  induction l as [|x l IH]; intro H; [constructor|]. cbn [map] in H. inversion H; subst.
  cbn [filter]. destruct (p x); [|apply IH; assumption]. cbn [map]. constructor; [apply IH; assumption|].
  rewrite Forall_forall in *. intros y Hy. apply in_map_iff in Hy. destruct Hy as [z [Hz Hin]].
  apply filter_In in Hin. destruct Hin as [Hin _]. apply H3. apply in_map_iff. eauto.
Qed.

Lemma sorted_nodup l : StronglySorted N.lt l -> NoDup l.
Proof.
  induction 1 as [|x l Hs IH Hall]; constructor; [|exact IH].
  intro Hin. rewrite Forall_forall in Hall. specialize (Hall x Hin). lia.
Qed.

Lemma nodup_pairs_spec (l : list (nat * N)) : NoDup l -> nodup_pairs l = true.
Proof.
  induction 1 as [|[s q] l Hni Hnd IH]; [reflexivity|]. cbn [nodup_pairs].
  apply andb_true_iff. split; [|exact IH]. apply negb_true_iff.
  destruct (existsb _ l) eqn:E; [|reflexivity]. exfalso. apply Hni.
  apply existsb_exists in E. destruct E as [[s' q'] [Hin Heq]]. cbn [fst snd] in Heq.
  apply andb_true_iff in Heq. destruct Heq as [H1 H2].
  apply Nat.eqb_eq in H1. apply N.eqb_eq in H2. subst. exact Hin.
Qed.

(* a list of (session, seq) pairs has no duplicates when every session's
   projection has none *)
Lemma nodup_by_session (l : list hdisp) :
  (forall s, NoDup (finq l s)) -> NoDup (map (fun e => (hd_s e, hd_q e)) l).
Proof.
  induction l as [|e l IH]; intro H; [constructor|]. cbn [map]. constructor.
  - intro Hin. apply in_map_iff in Hin. destruct Hin as [e' [Heq Hin]]. inversion Heq as [[Hs Hq]].
    specialize (H (hd_s e)). unfold finq in H. cbn [filter] in H. rewrite Nat.eqb_refl in H.
    cbn [map] in H. inversion H as [|? ? Hni _]; subst. apply Hni.
    apply in_map_iff. exists e'. split; [exact Hq|]. apply filter_In. split; [exact Hin|].
    apply Nat.eqb_eq. exact Hs.
  - apply IH. intro s. specialize (H s). unfold finq in *. cbn [filter] in H.
    destruct (Nat.eqb (hd_s e) s); [|exact H]. cbn [map] in H. inversion H; assumption.
Qed.

Lemma in_dedup x l : In x l -> In x (dedup l).
Proof.
  induction l as [|y l IH]; intro H; [contradiction|]. cbn [dedup].
  destruct (Nat.eq_dec x y) as [->|Hne]; [left; reflexivity|]. right.
  destruct H as [->|H]; [congruence|]. apply filter_In. split; [apply IH; exact H|].
  apply negb_true_iff. apply Nat.eqb_neq. exact Hne.
Qed.
