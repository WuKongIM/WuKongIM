(* Proof/ChanMigration_inv.v — histories of one-command ApplyBatch calls: what one accepted
   command does to the database ([one_step], the case analysis every later proof about such
   histories starts from), and the invariant "distinct keys, and every active task is the one the
   active index of its channel points at" (hence at most one active task per channel). *)
From WK Require Import Base.Base.
From WK Require Import Gen.Consts_C15 Gen.Consts_C17 Model.RuntimeMeta Model.ChanMigration Model.ChanMigration_C17.
From WK Require Import Proof.RuntimeMeta Proof.ChanMigration Proof.ChanMigration_cmds.
Open Scope N_scope.

(* the validator [stage_cmd] runs on [c], and the operations a successful staging of [c] alone
   queues ([stage_all_single]) *)
Definition cmd_valid (c : cmd) : bool :=
  match c with
  | CUpsertMeta m => validateChannelRuntimeMeta (upsert_wire m)
  | CCreate t => validateChannelMigrationTask t
  | CCreateGuarded t g => validateChannelMigrationTaskCreate t g
  | CClaim g _ _ owner lease now _ => validateChannelMigrationTaskClaim g owner lease now
  | CAdvance _ _ _ _ _ _ _ _ _ _ _ _ _ => true
  | CSetFence h reason until_ms => validateChannelMigrationFenceRequest h reason until_ms
  | CReset h now => validateChannelMigrationResetFenceRequest h now
  | CCommit h desired next_epoch lease now => validateChannelMigrationLeaderTransferRequest h desired next_epoch lease now
  | CAddLearner h target => validateChannelMigrationAddLearnerRequest h target
  | CPromote h source target now => validateChannelMigrationPromoteLearnerRequest h source target now
  | CClear h completed => validateChannelMigrationClearFenceRequest h completed
  | CAbort h completed _ => validateChannelMigrationAbortRequest h completed
  | CGC before limit => validateChannelMigrationTaskGCRequest before limit
  end.

Definition ops_of (c : cmd) : list op :=
  match c with
  | CUpsertMeta m => [OpUpsertMeta (upsert_wire m)]
  | CCreate t => [OpCreate t]
  | CCreateGuarded t g => [OpGuardCheck t g; OpCreate t]
  | CClaim _ _ _ _ _ _ _ | CAdvance _ _ _ _ _ _ _ _ _ _ _ _ _ => [OpTask c]
  | CGC before limit => [OpGC before limit]
  | _ => [OpTaskMeta c]
  end.

Lemma validateCreate_task t g : validateChannelMigrationTaskCreate t g = true -> validateChannelMigrationTask t = true.
Proof. unfold validateChannelMigrationTaskCreate. intro H. b2p. assumption. Qed.

Lemma stage_all_guarded c ok o :
  stage_cmd wb_empty c = stage_guarded ok wb_empty o ->
  stage_all wb_empty [c] = if ok then Ok (WBatch [o] [] [], [0]) else Err EInvalidArgument.
Proof. intro H. cbn [stage_all]. rewrite H. destruct ok; reflexivity. Qed.

Lemma stage_all_single c :
  stage_all wb_empty [c] =
  if cmd_valid c then Ok (WBatch (ops_of c)
                                 (match c with CCreate t | CCreateGuarded t _ => [(task_key t, t)] | _ => [] end)
                                 (match c with
                                  | CCreate t | CCreateGuarded t _ => if isActive t then [task_chan t] else []
                                  | _ => [] end), [0])
  else Err EInvalidArgument.
Proof.
  destruct c; cbn [cmd_valid ops_of]; try (apply stage_all_guarded; reflexivity).
  - cbn [stage_all stage_cmd]. unfold stageCreate.
    destruct (validateChannelMigrationTask t); cbn [negb]; [|reflexivity].
    cbn [wb_empty wb_creates assoc_get wb_active existsb wb_ops app].
    rewrite andb_false_r. destruct (isActive t); reflexivity.
  - cbn [stage_all stage_cmd].
    destruct (validateChannelMigrationTaskCreate t g) eqn:V; cbn [negb]; [|reflexivity].
    unfold stageCreate. rewrite (validateCreate_task _ _ V). cbn [negb].
    cbn [wb_add wb_empty wb_creates assoc_get wb_active existsb wb_ops app].
    rewrite andb_false_r. destruct (isActive t); reflexivity.
  - reflexivity.
Qed.

Lemma apply_core_single d c :
  apply_core d [c] =
  if cmd_valid c then
    match run_ops d (CState d [] []) (ops_of c) with
    | Ok cs => CoreOk (cs_pend cs) [0]
    | Err e => if isStaleMetaCommitError e then CoreStale else CoreErr e
    end
  else CoreErr EInvalidArgument.
Proof.
  unfold apply_core. rewrite stage_all_single.
  destruct (cmd_valid c); [|reflexivity].
  cbn [wb_ops]. unfold commit.
  destruct (run_ops d (CState d [] []) (ops_of c)) as [cs|e]; reflexivity.
Qed.

Lemma apply_one_spec d c :
  apply_one d c =
  if cmd_valid c then
    match run_ops d (CState d [] []) (ops_of c) with
    | Ok cs => (cs_pend cs, Ok 0)
    | Err e => if isStaleMetaCommitError e then (d, Ok 1) else (d, Err e)
    end
  else (d, Err EInvalidArgument).
Proof.
  unfold apply_one. rewrite apply_core_single.
  destruct (cmd_valid c); [|reflexivity].
  destruct (run_ops d (CState d [] []) (ops_of c)) as [cs|e]; [reflexivity|].
  destruct (isStaleMetaCommitError e); reflexivity.
Qed.

Lemma apply_one_rejected d c d' r : apply_one d c = (d', r) -> r <> Ok 0 -> d' = d.
Proof.
  rewrite apply_one_spec. destruct (cmd_valid c).
  - destruct (run_ops d (CState d [] []) (ops_of c)) as [cs|e].
    + intros H N. inversion H; subst. contradiction.
    + destruct (isStaleMetaCommitError e); intros H _; inversion H; reflexivity.
  - intros H _. inversion H. reflexivity.
Qed.

Definition active_indexed (d : db) : Prop :=
  forall t, In t (db_tasks d) -> isActive t = true -> active_get d (task_chan t) = Some (t_task_id t).

Definition db_inv (d : db) : Prop := tasks_wf (db_tasks d) /\ active_indexed d.

Lemma db_inv_empty : db_inv db_empty.
Proof. split; [constructor|intros t []]. Qed.

(* THEOREM c17_single_active (state form): under the invariant two active tasks of one channel are the same row *)
Theorem inv_single_active d t1 t2 :
  db_inv d -> In t1 (db_tasks d) -> In t2 (db_tasks d) ->
  isActive t1 = true -> isActive t2 = true -> task_chan t1 = task_chan t2 -> t1 = t2.
Proof.
  intros [W A] I1 I2 A1 A2 C.
  pose proof (A _ I1 A1) as G1. pose proof (A _ I2 A2) as G2.
  rewrite C in G1. rewrite G1 in G2. inversion G2 as [Id].
  assert (K : task_key t1 = task_key t2) by (unfold task_key; rewrite C, Id; reflexivity).
  pose proof (tasks_wf_get _ _ W I1) as T1. pose proof (tasks_wf_get _ _ W I2) as T2.
  rewrite K in T1. rewrite T1 in T2. inversion T2. reflexivity.
Qed.

Lemma active_get_set d c id c' :
  active_get (db_set_active d c id) c' = if chan_key_eqb c c' then Some id else active_get d c'.
Proof. unfold active_get, db_set_active. cbn [db_active]. apply chan_get_put. Qed.

Lemma active_get_del d c c' :
  active_get (db_del_active d c) c' = if chan_key_eqb c c' then None else active_get d c'.
Proof. unfold active_get, db_del_active. cbn [db_active]. apply chan_get_del. Qed.

Lemma active_get_put_task d t c : active_get (db_put_task d t) c = active_get d c.
Proof. reflexivity. Qed.

Lemma put_task_inv d t d' :
  db_inv d -> db_tasks d' = task_put (db_tasks d) t ->
  (isActive t = true -> active_get d' (task_chan t) = Some (t_task_id t)) ->
  (forall u, In u (db_tasks d) -> task_key u <> task_key t -> isActive u = true ->
             active_get d' (task_chan u) = active_get d (task_chan u)) ->
  db_inv d'.
Proof.
  intros [W A] T Ht Ho. unfold db_inv, active_indexed. rewrite T.
  split; [apply tasks_wf_put; exact W|].
  intros u Hu Au. apply in_task_put in Hu. destruct Hu as [->|[Hu Ku]]; [exact (Ht Au)|].
  rewrite (Ho u Hu Ku Au). exact (A u Hu Au).
Qed.

(* whatever the outcome for the active index, an accepted stageUpsertChannelMigrationTask puts the
   row into the pending tasks and leaves the metas alone *)
Lemma stageUpsert_frame d pend t pend' :
  stageUpsertChannelMigrationTask d pend t = Ok pend' ->
  db_tasks pend' = task_put (db_tasks pend) t /\ db_metas pend' = db_metas pend.
Proof.
  unfold stageUpsertChannelMigrationTask.
  destruct (negb (validateChannelMigrationTask t)); [discriminate|].
  destruct (isActive t).
  - destruct (negb (ensureChannelMigrationActiveAvailable d t)); [discriminate|].
    intro H. inversion H. split; reflexivity.
  - destruct (task_get (db_tasks d) (task_key t)) as [e|]; [destruct (isActive e)|];
      intro H; inversion H; split; reflexivity.
Qed.

(* stageUpsertChannelMigrationTask on a consistent database (one-command batch: pend = d).  An
   active [t] takes the index entry: ensureChannelMigrationActiveAvailable excludes another active
   row there.  A terminal [t] that replaces an active row clears the entry: that row was the only
   active one of the channel. *)
Lemma stageUpsert_inv d t d' :
  db_inv d -> stageUpsertChannelMigrationTask d d t = Ok d' -> db_inv d'.
Proof.
  intros I. pose proof I as [W A]. unfold stageUpsertChannelMigrationTask.
  destruct (negb (validateChannelMigrationTask t)); [discriminate|].
  destruct (isActive t) eqn:Act.
  - destruct (ensureChannelMigrationActiveAvailable d t) eqn:En; [|discriminate]. cbn [negb].
    intro H. inversion H; subst d'. clear H.
    apply (put_task_inv d t); [exact I|reflexivity| |].
    + intros _. rewrite active_get_put_task, active_get_set, chan_key_eqb_refl. reflexivity.
    + intros u Hu Ku Au. rewrite active_get_put_task, active_get_set.
      destruct (chan_key_eqb (task_chan t) (task_chan u)) eqn:C; [exfalso|reflexivity].
      apply chan_key_eqb_eq in C. unfold ensureChannelMigrationActiveAvailable in En.
      rewrite C, (A _ Hu Au) in En.
      destruct (bytes_eqb (t_task_id u) (t_task_id t)) eqn:B.
      * apply bytes_eqb_eq in B. apply Ku. unfold task_key. rewrite C, B. reflexivity.
      * change (TKey (task_chan u) (t_task_id u)) with (task_key u) in En.
        rewrite (tasks_wf_get _ _ W Hu), Au in En. discriminate.
  - destruct (task_get (db_tasks d) (task_key t)) as [e|] eqn:Ge; [destruct (isActive e) eqn:Ae|];
      intro H; inversion H; subst d'; clear H;
      apply (put_task_inv d t); try exact I; try reflexivity; try (intro Q; congruence).
    intros u Hu Ku Au. rewrite active_get_put_task, active_get_del.
    destruct (chan_key_eqb (task_chan t) (task_chan u)) eqn:C; [exfalso|reflexivity].
    apply chan_key_eqb_eq in C. apply Ku.
    rewrite <- (task_get_key _ _ _ Ge). f_equal.
    apply (inv_single_active d u e I Hu (task_get_in _ _ _ Ge) Au Ae).
    rewrite <- C. unfold task_chan. pose proof (task_get_key _ _ _ Ge) as Ke. inversion Ke. reflexivity.
Qed.

Lemma gc_scan_spec l pend before limit deleted :
  db_active (gc_scan l pend before limit deleted) = db_active pend
  /\ db_metas (gc_scan l pend before limit deleted) = db_metas pend
  /\ (tasks_wf (db_tasks pend) -> tasks_wf (db_tasks (gc_scan l pend before limit deleted)))
  /\ (forall u, In u (db_tasks (gc_scan l pend before limit deleted)) -> In u (db_tasks pend))
  /\ (forall k, task_get (db_tasks (gc_scan l pend before limit deleted)) k = task_get (db_tasks pend) k
                \/ (task_get (db_tasks (gc_scan l pend before limit deleted)) k = None
                    /\ exists t, In t l /\ task_key t = k /\ isTerminal t = true)).
Proof.
  revert pend deleted. induction l as [|t r IH]; intros pend deleted; cbn [gc_scan].
  - repeat split; auto.
  - destruct (limit <=? deleted)%Z; [repeat split; auto|].
    destruct (negb (isTerminal t) || (before <=? t_completed_at_ms t)%Z) eqn:E.
    + destruct (IH pend deleted) as (A & B & C & D & F). repeat split; auto.
      intro k. destruct (F k) as [F1|[F1 [u [U1 [U2 U3]]]]]; [left; exact F1|right].
      split; [exact F1|]. exists u. repeat split; auto. right. exact U1.
    + destruct (IH (db_del_task pend (task_key t)) (deleted + 1)%Z) as (A & B & C & D & F).
      apply orb_false_iff in E. destruct E as [E1 E2]. apply negb_false_iff in E1.
      repeat split.
      * rewrite A. reflexivity.
      * rewrite B. reflexivity.
      * intro W. apply C. cbn [db_del_task db_tasks]. apply tasks_wf_del. exact W.
      * intros u Hu. apply D in Hu. cbn [db_del_task db_tasks] in Hu. apply in_task_del in Hu. tauto.
      * intro k. destruct (F k) as [F1|[F1 [u [U1 [U2 U3]]]]].
        -- cbn [db_del_task db_tasks] in F1. rewrite task_get_del in F1.
           destruct (tkey_eqb (task_key t) k) eqn:K.
           ++ right. split; [exact F1|]. exists t. apply tkey_eqb_eq in K. repeat split; auto. left. reflexivity.
           ++ left. exact F1.
        -- right. split; [exact F1|]. exists u. repeat split; auto. right. exact U1.
Qed.

Definition metas_normalized (d : db) : Prop := forall ch m, meta_get d ch = Some m -> rm_normalized m.

(* What an accepted one-command batch did, by the kind of its command: nothing (an upsert ignored
   as stale, a create of a row that is there already); a runtime-meta upsert; a create; a
   Claim/Advance; a task+meta command that found nothing to do; a task+meta command that wrote both
   rows; a garbage collection.  Reads go to the committed database, as the overlay is empty.
   [OS_same] says that its command is not a task+meta command, so that a proof about those can
   discard the case. *)
Inductive one_step (d : db) (c : cmd) (d' : db) : Prop :=
| OS_same : cmd_trans c = None -> d' = d -> one_step d c d'
| OS_upsert m next : c = CUpsertMeta m -> (metas_normalized d -> rm_normalized next) ->
    d' = db_put_meta d (meta_chan (upsert_wire m)) next -> one_step d c d'
| OS_create t : (c = CCreate t \/ exists g, c = CCreateGuarded t g) ->
    task_get (db_tasks d) (task_key t) = None ->
    stageUpsertChannelMigrationTask d d t = Ok d' -> one_step d c d'
| OS_task g t next : cmd_tguard c = Some g -> is_claim_advance c = true ->
    task_get (db_tasks d) (tguard_key g) = Some t -> tguard_matches g t = true ->
    mutate_task c t = Ok next ->
    stageUpsertChannelMigrationTask d d next = Ok d' -> one_step d c d'
| OS_nothing h t m nm : cmd_trans c = Some h ->
    task_get (db_tasks d) (tguard_key (tr_guard h)) = Some t ->
    meta_get d (rguard_chan (tr_rguard h)) = Some m ->
    mutate_task_meta c t m = Ok (t, nm) -> d' = d -> one_step d c d'
| OS_taskmeta h t m nt nm pend : cmd_trans c = Some h ->
    task_get (db_tasks d) (tguard_key (tr_guard h)) = Some t ->
    meta_get d (rguard_chan (tr_rguard h)) = Some m ->
    tguard_matches (tr_guard h) t = true -> rguard_matches (tr_rguard h) m = true ->
    mutate_task_meta c t m = Ok (nt, nm) -> (isTerminal t = true -> nt = t) ->
    validateChannelRuntimeMeta (stored_meta m nm) = true ->
    stageUpsertChannelMigrationTask d d nt = Ok pend ->
    d' = db_put_meta pend (rguard_chan (tr_rguard h)) (stored_meta m nm) -> one_step d c d'
| OS_gc before limit : c = CGC before limit ->
    d' = gc_scan (db_tasks d) d before limit 0%Z -> one_step d c d'.

Lemma run_ops_single d cs o : run_ops d cs [o] = run_op d cs o.
Proof. cbn [run_ops]. destruct (run_op d cs o); reflexivity. Qed.

Lemma upsert_step d m cs :
  opUpsertMeta d (CState d [] []) (upsert_wire m) = Ok cs -> one_step d (CUpsertMeta m) (cs_pend cs).
Proof.
  unfold opUpsertMeta, loadRuntimeMeta. cbn [cs_ometas assoc_get cs_pend cs_otasks].
  destruct (resolveMonotonicChannelRuntimeMeta _ _ (upsert_wire m)) as [next result] eqn:Rs.
  destruct (result =? MonotonicIgnoredStale) eqn:S1; [intro H; inversion H; apply OS_same; reflexivity|].
  destruct (result =? MonotonicConflict) eqn:S2; [discriminate|].
  intro H. inversion H. cbn [cs_pend]. eapply OS_upsert; [reflexivity| |reflexivity].
  intro Nm. destruct (meta_get d (meta_chan (upsert_wire m))) as [ex|] eqn:Gx.
  - destruct (resolve_result_cases _ _ _ _ Rs) as [Ap|[[St|Cf] _]]; subst result.
    + eapply resolve_applied; [eapply Nm; eauto|exact Rs].
    + rewrite N.eqb_refl in S1. discriminate.
    + rewrite N.eqb_refl in S2. discriminate.
  - rewrite resolve_absent in Rs. inversion Rs. apply normalize_normalized.
Qed.

Lemma create_step d c t cs :
  (c = CCreate t \/ exists g, c = CCreateGuarded t g) ->
  opCreate d (CState d [] []) t = Ok cs -> one_step d c (cs_pend cs).
Proof.
  intro Hc. assert (Nt : cmd_trans c = None) by (destruct Hc as [->|[g ->]]; reflexivity).
  unfold opCreate, loadChannelMigrationTask. cbn [cs_otasks assoc_get cs_pend].
  destruct (task_get (db_tasks d) (task_key t)) as [e|] eqn:G.
  - destruct (task_eqb e t); [|discriminate]. intro H. inversion H. apply OS_same; auto.
  - destruct (stageUpsertChannelMigrationTask d d t) as [pend|e] eqn:U; [|discriminate].
    intro H. inversion H. eapply OS_create; eauto.
Qed.

Lemma task_step d c g cs :
  cmd_tguard c = Some g -> is_claim_advance c = true ->
  stageChannelMigrationTask d (CState d [] []) c = Ok cs -> one_step d c (cs_pend cs).
Proof.
  intros Hg Hca. unfold stageChannelMigrationTask, loadChannelMigrationTask. rewrite Hg.
  cbn [cs_otasks assoc_get cs_pend].
  destruct (task_get (db_tasks d) (tguard_key g)) as [t|] eqn:G; [|discriminate].
  destruct (tguard_matches g t) eqn:Mg; [|discriminate]. cbn [negb].
  destruct (mutate_task c t) as [next|e] eqn:M; [|discriminate].
  destruct (stageUpsertChannelMigrationTask d d next) as [pend|e] eqn:U; [|discriminate].
  intro H. inversion H. eapply OS_task; eauto.
Qed.

Lemma taskmeta_step d c cs :
  stageChannelMigrationTaskAndMeta d (CState d [] []) c = Ok cs -> one_step d c (cs_pend cs).
Proof.
  intro H. destruct (stage_taskmeta_inv _ _ _ _ H) as (h & t & m & nt & nm & Ht & Lt & Lm & M & Out).
  destruct Out as [[E1 E2]|(Mg & Mr & Tm & _ & V & pend & U & E)]; subst.
  - eapply OS_nothing; eauto.
  - eapply OS_taskmeta; eauto.
Qed.

Lemma opGuardCheck_same d cs t g cs' : opGuardCheck d cs t g = Ok cs' -> cs' = cs.
Proof.
  unfold opGuardCheck.
  destruct (loadChannelMigrationTask d cs (task_key t)) as [e|].
  - destruct (task_eqb e t); [intro H; inversion H; reflexivity|discriminate].
  - destruct (loadRuntimeMeta d cs (rguard_chan g)) as [m|]; [|discriminate].
    destruct (rguard_matches g m); [intro H; inversion H; reflexivity|discriminate].
Qed.

Theorem accepted_step d c d' : apply_one d c = (d', Ok 0) -> one_step d c d'.
Proof.
  rewrite apply_one_spec. destruct (cmd_valid c); [|discriminate].
  destruct (run_ops d (CState d [] []) (ops_of c)) as [cs|e] eqn:R;
    [|destruct (isStaleMetaCommitError e); discriminate].
  intro H. inversion H; subst d'. clear H.
  destruct c; cbn [ops_of] in R; try rewrite run_ops_single in R; cbn [run_op] in R;
    try exact (taskmeta_step _ _ _ R); try (eapply task_step; [| |exact R]; reflexivity).
  - exact (upsert_step _ _ _ R).
  - exact (create_step _ _ _ _ (or_introl eq_refl) R).
  - cbn [run_ops run_op] in R.
    destruct (opGuardCheck d (CState d [] []) t g) as [cs0|e0] eqn:G; [|discriminate].
    apply opGuardCheck_same in G. subst cs0.
    change (run_ops d (CState d [] []) [OpCreate t] = Ok cs) in R. rewrite run_ops_single in R.
    exact (create_step _ _ _ _ (or_intror (ex_intro _ g eq_refl)) R).
  - unfold opGC in R. inversion R. eapply OS_gc; reflexivity.
Qed.

(* THEOREM c17_single_active (step form): a one-command ApplyBatch preserves the invariant *)
Theorem one_step_inv d c d' : db_inv d -> one_step d c d' -> db_inv d'.
Proof.
  intros I [_ E|m next _ _ E|t _ _ U|g t next _ _ _ _ _ U|h t m nm _ _ _ _ E
           |h t m nt nm pend _ _ _ _ _ _ _ _ U E|b l _ E]; try subst d'; try exact I.
  - exact (stageUpsert_inv _ _ _ I U).
  - exact (stageUpsert_inv _ _ _ I U).
  - exact (stageUpsert_inv _ _ _ I U).
  - destruct I as [W A]. destruct (gc_scan_spec (db_tasks d) d b l 0%Z) as (G1 & _ & G3 & G4 & _).
    split; [exact (G3 W)|]. intros u Hu Au. unfold active_get. rewrite G1. apply A; auto.
Qed.

Theorem apply_one_inv d c d' r : db_inv d -> apply_one d c = (d', r) -> db_inv d'.
Proof.
  intros I A. destruct r as [[|p]|e];
    try (rewrite (apply_one_rejected _ _ _ _ A) by discriminate; exact I).
  exact (one_step_inv _ _ _ I (accepted_step _ _ _ A)).
Qed.

Lemma apply_one_fst_inv d c : db_inv d -> db_inv (fst (apply_one d c)).
Proof. intro Hinv. destruct (apply_one d c) as [d' r] eqn:E. exact (apply_one_inv _ _ _ _ Hinv E). Qed.

(* the database after a history of one-command ApplyBatch calls *)
Fixpoint run_singles (d : db) (cs : list cmd) : db :=
  match cs with
  | [] => d
  | c :: r => run_singles (fst (apply_one d c)) r
  end.

Theorem run_singles_inv cs : forall d, db_inv d -> db_inv (run_singles d cs).
Proof.
  induction cs as [|c r IH]; intros d I; cbn [run_singles]; [exact I|].
  apply IH, apply_one_fst_inv, I.
Qed.
