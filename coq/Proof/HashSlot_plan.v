(* Proof/HashSlot_plan.v — the planners' selection functions and the shared
   transfer loop: what a plan looks like (each hash slot at most once, taken from
   its current owner, sent elsewhere), how the per-slot holdings after applying
   the plan relate to the loop's [current] map, and the loop's exit. *)
From WK Require Import Base.Base Model.HashSlot Proof.HashSlot_table Proof.HashSlot_lists.
From Coq Require Import ZifyBool ZifyN ZifyNat Sorting.Sorted Sorting.Permutation.
Open Scope N_scope.

(* Both selections are one scan over the candidates that keeps a slot of highest score
   (surplus, resp. deficit); a slot enters only with a positive score.  The tie-breaks
   play no part in what is proved, so a scan step is characterised up to them.
   Slot id 0 is Go's "none chosen yet"; a candidate 0 could not be told from it, hence
   [~ In 0 cands] below. *)
Definition scan_step (score : N -> N) (step : N * N * N -> N -> N * N * N) : Prop :=
  forall ch b bc x,
    (step (ch, b, bc) x = (ch, b, bc) /\ (score x = 0 \/ ch <> 0 /\ score x <= b))
    \/ ((exists c, step (ch, b, bc) x = (x, score x, c)) /\ 0 < score x /\ (ch = 0 \/ b <= score x)).

Definition scan_inv (score : N -> N) (seen : list N) (st : N * N * N) : Prop :=
  let '(ch, b, _) := st in
  if ch =? 0 then forall x, In x seen -> score x = 0
  else In ch seen /\ 0 < score ch /\ b = score ch /\ forall x, In x seen -> score x <= b.

Lemma scan_fold score step : scan_step score step -> forall cands seen st, ~ In 0 cands ->
  scan_inv score seen st -> scan_inv score (seen ++ cands) (fold_left step cands st).
Proof.
  intro SS. induction cands as [|x cands IH]; intros seen st NZ Inv; cbn [fold_left]; [rewrite app_nil_r; exact Inv|].
  replace (seen ++ x :: cands) with ((seen ++ [x]) ++ cands) by (rewrite <- app_assoc; reflexivity).
  apply IH; [intro I; apply NZ; right; exact I|].
  assert (Hx : (x =? 0) = false) by (apply N.eqb_neq; intro; subst; apply NZ; left; reflexivity).
  assert (IN : forall y, In y (seen ++ [x]) -> In y seen \/ y = x).
  { intros y I. apply in_app_or in I. destruct I as [I|[I|[]]]; [left; exact I|right; symmetry; exact I]. }
  destruct st as [[ch b] bc]. unfold scan_inv in *.
  destruct (SS ch b bc x) as [[-> K]|[[c ->] [P M]]].
  - destruct (ch =? 0) eqn:E.
    + intros y I. destruct (IN y I) as [Q| ->]; [apply Inv; exact Q|lia].
    + destruct Inv as (A & B & C & D). split; [apply in_or_app; left; exact A|]. split; [exact B|]. split; [exact C|].
      intros y I. destruct (IN y I) as [Q| ->]; [apply D; exact Q|lia].
  - rewrite Hx. split; [apply in_or_app; right; left; reflexivity|]. split; [exact P|]. split; [reflexivity|].
    intros y I. destruct (IN y I) as [Q| ->]; [|lia].
    destruct (ch =? 0) eqn:E; [rewrite (Inv y Q); lia|]. destruct Inv as (_ & _ & _ & D). specialize (D y Q). lia.
Qed.

(* for a score that is a difference a - b, in the form the loop heads use *)
Lemma scan_spec (a b : N -> N) step cands : scan_step (fun x => a x - b x) step -> ~ In 0 cands ->
  let d := fst (fst (fold_left step cands (0, 0, 0))) in
  if d =? 0 then forall x, In x cands -> a x <= b x
  else In d cands /\ b d < a d /\ forall x, In x cands -> a x - b x <= a d - b d.
Proof.
  intros SS NZ. pose proof (scan_fold _ step SS cands [] (0, 0, 0) NZ (fun x (I : In x []) => match I with end)) as H.
  cbn [app] in H. destruct (fold_left step cands (0, 0, 0)) as [[ch c] bc]. cbn [fst scan_inv] in *.
  destruct (ch =? 0).
  - intros x I. specialize (H x I). lia.
  - destruct H as (A & B & -> & D). split; [exact A|]. split; [lia|exact D].
Qed.

Lemma sel_surplus_scan cur tgt : scan_step (fun x => aget 0 cur x - aget 0 tgt x) (sel_surplus_step cur tgt).
Proof.
  intros ch b bc x. unfold sel_surplus_step.
  destruct (aget 0 cur x <=? aget 0 tgt x) eqn:E1; [left; split; [reflexivity|left; lia]|].
  destruct (_ || _) eqn:E2.
  - right. split; [eexists; reflexivity|lia].
  - left. split; [reflexivity|right; lia].
Qed.

Lemma sel_deficit_scan cur tgt : scan_step (fun x => aget 0 tgt x - aget 0 cur x) (sel_deficit_step cur tgt).
Proof.
  intros ch b bc x. unfold sel_deficit_step.
  destruct (aget 0 tgt x <=? aget 0 cur x) eqn:E1; [left; split; [reflexivity|left; lia]|].
  destruct (_ || _) eqn:E2.
  - right. split; [eexists; reflexivity|lia].
  - left. split; [reflexivity|right; lia].
Qed.

Lemma select_largest_spec cur tgt cands : ~ In 0 cands ->
  let d := select_largest_surplus_slot cur tgt cands in
  if d =? 0 then forall x, In x cands -> aget 0 cur x <= aget 0 tgt x
  else In d cands /\ aget 0 tgt d < aget 0 cur d
       /\ forall x, In x cands -> aget 0 cur x - aget 0 tgt x <= aget 0 cur d - aget 0 tgt d.
Proof. intro NZ. exact (scan_spec (aget 0 cur) (aget 0 tgt) _ cands (sel_surplus_scan cur tgt) NZ). Qed.

Lemma select_smallest_spec cur tgt cands : ~ In 0 cands ->
  let d := select_smallest_deficit_slot cur tgt cands in
  if d =? 0 then forall x, In x cands -> aget 0 tgt x <= aget 0 cur x
  else In d cands /\ aget 0 cur d < aget 0 tgt d
       /\ forall x, In x cands -> aget 0 tgt x - aget 0 cur x <= aget 0 tgt d - aget 0 cur d.
Proof. intro NZ. exact (scan_spec (aget 0 tgt) (aget 0 cur) _ cands (sel_deficit_scan cur tgt) NZ). Qed.

Lemma transfer_get cur d r s : d <> r ->
  aget 0 (transfer cur d r) s =
  if s =? d then aget 0 cur d - 1 else if s =? r then aget 0 cur r + 1 else aget 0 cur s.
Proof.
  intro H. unfold transfer.
  destruct (s =? d) eqn:E1.
  - apply N.eqb_eq in E1. subst s. rewrite aget_aset_other by congruence. apply aget_aset_same.
  - apply N.eqb_neq in E1. destruct (s =? r) eqn:E2.
    + apply N.eqb_eq in E2. subst s. rewrite aget_aset_same, aget_aset_other by congruence. reflexivity.
    + apply N.eqb_neq in E2. rewrite !aget_aset_other by congruence. reflexivity.
Qed.

Lemma sumf_Add f a l l' : Add a l l' -> sumf f l' = f a + sumf f l.
Proof. intro A. rewrite <- (sumf_perm f _ _ (Permutation_Add A)). reflexivity. Qed.

(* a per-slot function of [current] across one transfer: only the donor's and the
   receiver's terms change *)
Lemma sumf_transfer_phi (phi : N -> N -> N) cur d r l : NoDup l -> In d l -> In r l -> d <> r ->
  sumf (fun s => phi (aget 0 (transfer cur d r) s) s) l + phi (aget 0 cur d) d + phi (aget 0 cur r) r
  = sumf (fun s => phi (aget 0 cur s) s) l + phi (aget 0 cur d - 1) d + phi (aget 0 cur r + 1) r.
Proof.
  intros ND Id Ir D.
  destruct (Add_inv d l Id) as [l1 A1]. apply (NoDup_Add A1) in ND. destruct ND as [ND N1].
  assert (Ir1 : In r l1) by (apply (Add_in A1) in Ir; destruct Ir; [congruence|assumption]).
  destruct (Add_inv r l1 Ir1) as [l2 A2]. apply (NoDup_Add A2) in ND. destruct ND as [_ N2].
  rewrite !(sumf_Add _ _ _ _ A1), !(sumf_Add _ _ _ _ A2).
  rewrite (sumf_ext (fun s => phi (aget 0 (transfer cur d r) s) s) (fun s => phi (aget 0 cur s) s) l2).
  - rewrite !(transfer_get cur d r) by exact D.
    rewrite !N.eqb_refl, (proj2 (N.eqb_neq r d)) by congruence. lia.
  - intros s Is. rewrite transfer_get by exact D.
    rewrite (proj2 (N.eqb_neq s d)), (proj2 (N.eqb_neq s r)); [reflexivity| |]; intro; subst s;
      [exact (N2 Is)|apply N1, (Add_in A2); right; exact Is].
Qed.

Lemma sumf_transfer cur d r l : NoDup l -> In d l -> In r l -> d <> r -> 1 <= aget 0 cur d ->
  sumf (aget 0 (transfer cur d r)) l = sumf (aget 0 cur) l.
Proof.
  intros ND Id Ir D L. pose proof (sumf_transfer_phi (fun v _ => v) cur d r l ND Id Ir D) as Q. cbn beta in Q.
  change (sumf (fun s => aget 0 (transfer cur d r) s) l = sumf (fun s => aget 0 cur s) l). lia.
Qed.

(* the owned lists are duplicate free and hold only hash slots that [assign] gives to that slot *)
Definition owned_ok (assign : list N) (owned : list (N * list N)) : Prop :=
  forall s, NoDup (aget [] owned s) /\
            forall hs, In hs (aget [] owned s) ->
                       (N.to_nat hs < length assign)%nat /\ nth (N.to_nat hs) assign 0 = s.

(* on [dom], [cur] counts the holdings in [assign] *)
Definition tracks (assign : list N) (cur : list (N * N)) (dom : list N) : Prop :=
  forall s, In s dom -> aget 0 cur s = cnt assign s.

(* what every loop head guarantees of the donor d and the receiver r it selects *)
Definition choose_ok (choose : list (N * N) -> option (N * N)) (dom : list N) : Prop :=
  forall cur d r, choose cur = Some (d, r) ->
    d <> r /\ In d dom /\ In r dom /\ 1 <= aget 0 cur d /\ r <> 0.

Definition move_ok (assign : list N) (dom : list N) (m : move) : Prop :=
  (N.to_nat (mv_hs m) < length assign)%nat /\ nth (N.to_nat (mv_hs m)) assign 0 = mv_from m
  /\ mv_to m <> mv_from m /\ mv_to m <> 0 /\ In (mv_from m) dom /\ In (mv_to m) dom.

(* [fuel] bounds the length of the plan, hence the version bumps of applying it *)
Definition plan_ok (assign dom : list N) (fuel : nat) (p : list move) : Prop :=
  Forall (move_ok assign dom) p /\ NoDup (map mv_hs p) /\ (length p <= fuel)%nat.

Lemma plan_ok_nil assign dom fuel : plan_ok assign dom fuel [].
Proof. split; [constructor|]. split; [constructor|apply Nat.le_0_l]. Qed.

Lemma plan_ok_incl assign dom dom' fuel p : (forall s, In s dom -> In s dom') ->
  plan_ok assign dom fuel p -> plan_ok assign dom' fuel p.
Proof.
  intros H [F R]. split; [|exact R]. eapply Forall_impl; [|exact F]. intros m (A & B & C & D & E & G).
  unfold move_ok. repeat split; try assumption; apply H; assumption.
Qed.

Lemma tracks_transfer assign cur dom n d r : tracks assign cur dom ->
  (n < length assign)%nat -> nth n assign 0 = d -> d <> r -> In d dom -> In r dom ->
  tracks (set_nth n r assign) (transfer cur d r) dom.
Proof.
  intros TR L E D Id Ir s Is. rewrite transfer_get by exact D.
  pose proof (cnt_set_nth assign n r s L) as Q. rewrite E in Q.
  destruct (s =? d) eqn:E1.
  - apply N.eqb_eq in E1. subst s. rewrite (proj2 (N.eqb_neq d r) D) in Q. rewrite (TR d Id). lia.
  - destruct (s =? r) eqn:E2; [apply N.eqb_eq in E2; subst s; rewrite (TR r Ir)|rewrite (TR s Is)]; lia.
Qed.

(* popping hs from d's list and reassigning it: the lists lose exactly hs *)
Lemma owned_ok_pop assign owned d r hs rest : owned_ok assign owned -> aget [] owned d = hs :: rest ->
  owned_ok (set_nth (N.to_nat hs) r assign) (aset owned d rest)
  /\ forall s x, In x (aget [] (aset owned d rest) s) -> In x (aget [] owned s) /\ x <> hs.
Proof.
  intros OK OD. destruct (OK d) as [NDd INd]. rewrite OD in NDd, INd. inversion NDd as [|? ? Nhs NDr]; subst.
  assert (SUB : forall s x, In x (aget [] (aset owned d rest) s) -> In x (aget [] owned s) /\ x <> hs).
  { intros s x I. destruct (N.eq_dec d s) as [<-|Q].
    - rewrite aget_aset_same in I. rewrite OD. split; [right; exact I|intro; subst; contradiction].
    - rewrite aget_aset_other in I by exact Q. split; [exact I|]. intros ->.
      destruct (OK s) as [_ INs]. destruct (INs hs I) as [_ Q2]. destruct (INd hs (or_introl eq_refl)) as [_ Q3]. congruence. }
  split; [|exact SUB]. intro s. split.
  - destruct (N.eq_dec d s) as [<-|Q]; [rewrite aget_aset_same; exact NDr|rewrite aget_aset_other by exact Q; apply (OK s)].
  - intros x I. destruct (SUB s x I) as [I0 Nx]. destruct (OK s) as [_ INs]. destruct (INs x I0) as [Lx Nthx].
    rewrite set_nth_length. split; [exact Lx|]. rewrite nth_set_nth_other by (intro Q; apply Nx; lia). exact Nthx.
Qed.

Lemma move_ok_set_nth assign dom n v m : N.to_nat (mv_hs m) <> n ->
  move_ok (set_nth n v assign) dom m -> move_ok assign dom m.
Proof.
  intros H (A & B & R). rewrite set_nth_length in A. rewrite nth_set_nth_other in B by congruence.
  split; [exact A|]. split; [exact B|exact R].
Qed.

(* a plan with the final [current]: well-formed moves, each hash slot once and taken from the
   owned lists, and [current] = the holdings after the plan *)
Definition loop_ok (assign : list N) (owned : list (N * list N)) (dom : list N) (pc : list move * list (N * N)) : Prop :=
  Forall (move_ok assign dom) (fst pc) /\ NoDup (map mv_hs (fst pc))
  /\ (forall m, In m (fst pc) -> In (mv_hs m) (aget [] owned (mv_from m)))
  /\ tracks (apply_moves (fst pc) assign) (snd pc) dom.

Lemma loop_ok_nil assign owned dom cur : tracks assign cur dom -> loop_ok assign owned dom ([], cur).
Proof. intro TR. split; [constructor|]. split; [constructor|]. split; [intros m []|exact TR]. Qed.

Lemma loop_struct choose dom : choose_ok choose dom -> forall fuel cur owned assign,
  owned_ok assign owned -> tracks assign cur dom -> loop_ok assign owned dom (transfer_loop fuel choose cur owned).
Proof.
  intro CO. induction fuel as [|f IH]; intros cur owned assign OK TR; cbn [transfer_loop]; [apply loop_ok_nil, TR|].
  destruct (choose cur) as [[d r]|] eqn:CH; [|apply loop_ok_nil, TR].
  destruct (CO cur d r CH) as (Ddr & Id & Ir & _ & Rnz).
  unfold pop_owned_hash_slot. destruct (aget [] owned d) as [|hs rest] eqn:OD; [apply loop_ok_nil, TR|].
  destruct (OK d) as [_ INd]. rewrite OD in INd. destruct (INd hs (or_introl eq_refl)) as [Lhs Nhs].
  destruct (owned_ok_pop assign owned d r hs rest OK OD) as [OK' SUB].
  specialize (IH _ _ _ OK' (tracks_transfer assign cur dom _ d r TR Lhs Nhs Ddr Id Ir)).
  destruct (transfer_loop f choose (transfer cur d r) (aset owned d rest)) as [p c].
  destruct IH as (F & ND & INO & TRF). unfold loop_ok. cbn [fst snd] in *.
  (* the later moves take other hash slots than hs *)
  assert (NH : forall m, In m p -> mv_hs m <> hs) by (intros m Im; apply (SUB _ _ (INO m Im))).
  split; [|split; [|split]].
  - constructor; [unfold move_ok; cbn [mv_hs mv_from mv_to]; repeat split; try assumption; congruence|].
    apply Forall_forall. intros m Im. rewrite Forall_forall in F.
    apply (move_ok_set_nth _ _ _ _ _ (fun Q => NH m Im (Nnat.N2Nat.inj _ _ Q)) (F m Im)).
  - cbn [map mv_hs]. constructor; [|exact ND]. intro I. apply in_map_iff in I. destruct I as [m [Q Im]]. apply (NH m Im Q).
  - intros m [<-|Im]; [cbn [mv_hs mv_from]; rewrite OD; left; reflexivity|apply (SUB _ _ (INO m Im))].
  - exact TRF.
Qed.

Lemma transfer_loop_length choose : forall fuel cur owned,
  (length (fst (transfer_loop fuel choose cur owned)) <= fuel)%nat.
Proof.
  induction fuel as [|f IH]; intros cur owned; cbn [transfer_loop]; [cbn; lia|].
  destruct (choose cur) as [[d r]|]; [|cbn; lia].
  destruct (pop_owned_hash_slot owned d) as [[hs owned']|]; [|cbn; lia].
  specialize (IH (transfer cur d r) owned').
  destruct (transfer_loop f choose (transfer cur d r) owned') as [p c]. cbn [fst length] in *. lia.
Qed.

Lemma loop_plan_ok choose dom fuel cur owned assign :
  choose_ok choose dom -> owned_ok assign owned -> tracks assign cur dom ->
  plan_ok assign dom fuel (fst (transfer_loop fuel choose cur owned)).
Proof.
  intros CO OK TR. destruct (loop_struct choose dom CO fuel cur owned assign OK TR) as [F [ND _]].
  split; [exact F|]. split; [exact ND|apply transfer_loop_length].
Qed.

Lemma nodupb_iff l : nodupb l = true <-> NoDup l.
Proof.
  induction l as [|x l IH]; cbn [nodupb]; [split; [constructor|reflexivity]|].
  rewrite andb_true_iff, negb_true_iff, mem_false, IH. split.
  - intros [A B]. constructor; assumption.
  - intro H. inversion H; subst. split; assumption.
Qed.

Lemma moves_ok_of t p dom fuel : wf t -> plan_ok (t_assign t) dom fuel p -> moves_ok t p = true.
Proof.
  intros W [F [ND _]]. unfold moves_ok. apply andb_true_iff. split; [apply nodupb_iff; exact ND|].
  apply forallb_forall. intros m Im. rewrite Forall_forall in F. destruct (F m Im) as [A [B [C _]]].
  unfold wf in W. rewrite !andb_true_iff. split; [split|].
  - apply N.ltb_lt. lia.
  - apply N.eqb_eq. exact B.
  - apply negb_true_iff, N.eqb_neq. exact C.
Qed.

(* popOwnedHashSlot never fails as long as the potential donors (P) own as many hash slots
   as [current] says; with an invariant and a measure that fits in the fuel the loop then
   leaves through [choose] *)
Lemma loop_exit choose (P : list (N * N) -> N -> Prop) (Inv : list (N * N) -> Prop) (mu : list (N * N) -> N) :
  (forall cur d r, choose cur = Some (d, r) -> P cur d /\ 1 <= aget 0 cur d /\ d <> r) ->
  (forall cur d r s, choose cur = Some (d, r) -> P (transfer cur d r) s -> P cur s /\ s <> r) ->
  (forall cur d r, Inv cur -> choose cur = Some (d, r) -> Inv (transfer cur d r) /\ mu (transfer cur d r) < mu cur) ->
  forall fuel cur owned,
    (forall s, P cur s -> N.of_nat (length (aget [] owned s)) = aget 0 cur s) ->
    Inv cur -> mu cur < N.of_nat fuel ->
    Inv (snd (transfer_loop fuel choose cur owned)) /\ choose (snd (transfer_loop fuel choose cur owned)) = None.
Proof.
  intros H1 H2 STEP. induction fuel as [|f IH]; intros cur owned J Ic L; [lia|]. cbn [transfer_loop].
  destruct (choose cur) as [[d r]|] eqn:CH; [|split; [exact Ic|exact CH]].
  destruct (H1 cur d r CH) as [Pd [L1 D]]. destruct (STEP cur d r Ic CH) as [I' M].
  unfold pop_owned_hash_slot. pose proof (J d Pd) as Jd.
  destruct (aget [] owned d) as [|hs rest] eqn:OD; [cbn [length] in Jd; lia|].
  specialize (IH (transfer cur d r) (aset owned d rest)).
  destruct (transfer_loop f choose (transfer cur d r) (aset owned d rest)) as [p c]. cbn [snd] in *.
  apply IH; [|exact I'|lia]. intros s Ps. destruct (H2 cur d r s CH Ps) as [Ps0 Nr].
  rewrite transfer_get by exact D. destruct (N.eq_dec d s) as [Q|Q].
  - subst s. rewrite aget_aset_same, N.eqb_refl. cbn [length] in Jd. lia.
  - rewrite aget_aset_other by exact Q.
    rewrite (proj2 (N.eqb_neq s d)), (proj2 (N.eqb_neq s r)) by congruence. apply J. exact Ps0.
Qed.

Lemma slot_hash_slots_ok t slots : owned_ok (t_assign t) (slot_hash_slots t slots).
Proof.
  intro s. rewrite slot_hash_slots_get. destruct (mem s slots).
  - split.
    + apply NoDup_rev. unfold hash_slots_of. apply indices_of_nodup.
    + intros hs I. apply in_rev in I. unfold hash_slots_of in I. apply in_indices_of in I.
      rewrite N.sub_0_r in I. destruct I as [_ [A B]]. split; [lia|exact B].
  - split; [constructor|intros hs []].
Qed.

Lemma slot_hash_slots_len t slots s : In s slots ->
  N.of_nat (length (aget [] (slot_hash_slots t slots) s)) = cnt (t_assign t) s.
Proof.
  intro I. rewrite slot_hash_slots_get. assert (M : mem s slots = true) by (apply mem_iff; exact I). rewrite M.
  rewrite rev_length. unfold hash_slots_of. apply indices_of_length.
Qed.

Lemma slot_counts_tracks t slots : tracks (t_assign t) (slot_counts t slots) slots.
Proof. intros s I. apply slot_counts_get. exact I. Qed.

Lemma slot_counts_out t slots s : ~ In s slots -> aget 0 (slot_counts t slots) s = 0.
Proof.
  intro I. rewrite slot_counts_spec, (proj2 (mem_false s slots) I). reflexivity.
Qed.

Lemma assign_in_active t : Forall (fun s => s <> 0) (t_assign t) ->
  forall x, In x (t_assign t) -> In x (active_slot_ids t).
Proof.
  intros NZ x I. apply in_active. split; [|exact I]. rewrite Forall_forall in NZ. apply NZ. exact I.
Qed.

Lemma sum_tracked t cur dom : wf t -> NoDup dom -> (forall s, In s (t_assign t) -> In s dom) ->
  tracks (t_assign t) cur dom -> sumf (aget 0 cur) dom = t_count t.
Proof. intros W ND IN TR. rewrite (sumf_ext _ _ dom TR), sumf_cnt by assumption. exact W. Qed.

(* A planner's loop as its proof sees it.  [P] marks the slots that may still be chosen as
   donor: they never receive, so their [owned] lists stay as long as [current] says and
   popOwnedHashSlot cannot fail; [Inv] and [mu] are the planner's invariant and measure.
   The loop then ends because [choose] breaks, with [current] = the holdings after the plan. *)
Lemma planner_run t choose dom donors cur0
      (P : list (N * N) -> N -> Prop) (Inv : list (N * N) -> Prop) (mu : list (N * N) -> N) :
  wf t -> NoDup dom -> (forall s, In s (t_assign t) -> In s dom) ->
  choose_ok choose dom -> tracks (t_assign t) cur0 dom ->
  (forall cur d r, choose cur = Some (d, r) -> P cur d) ->
  (forall cur d r s, choose cur = Some (d, r) -> P (transfer cur d r) s -> P cur s /\ s <> r) ->
  (forall s, P cur0 s -> In s donors /\ In s dom) ->
  (forall cur d r, Inv cur -> choose cur = Some (d, r) -> Inv (transfer cur d r) /\ mu (transfer cur d r) < mu cur) ->
  Inv cur0 -> mu cur0 <= t_count t ->
  exists c,
    tracks (apply_moves (fst (transfer_loop (plan_fuel t) choose cur0 (slot_hash_slots t donors))) (t_assign t)) c dom
    /\ Inv c /\ choose c = None /\ sumf (aget 0 c) dom = t_count t.
Proof.
  intros W ND IN CO TR P1 P2 P0 STEP I0 M0.
  exists (snd (transfer_loop (plan_fuel t) choose cur0 (slot_hash_slots t donors))).
  split; [apply (loop_struct choose dom CO _ _ _ _ (slot_hash_slots_ok t donors) TR)|].
  destruct (loop_exit choose P (fun cur => Inv cur /\ sumf (aget 0 cur) dom = t_count t) mu)
    with (fuel := plan_fuel t) (cur := cur0) (owned := slot_hash_slots t donors) as [[Ic Sc] EX].
  - intros cur d r CH. destruct (CO cur d r CH) as (D & _ & _ & L & _). split; [exact (P1 cur d r CH)|]. split; assumption.
  - exact P2.
  - intros cur d r [Ic Sc] CH. destruct (STEP cur d r Ic CH) as [I' M]. destruct (CO cur d r CH) as (D & Id & Ir & L & _).
    split; [split; [exact I'|]|exact M]. rewrite sumf_transfer; assumption.
  - intros s Ps. destruct (P0 s Ps) as [Id Im]. rewrite slot_hash_slots_len by exact Id. symmetry. apply TR. exact Im.
  - split; [exact I0|apply sum_tracked; assumption].
  - unfold plan_fuel, wf in *. lia.
  - split; [exact Ic|]. split; [exact EX|exact Sc].
Qed.
