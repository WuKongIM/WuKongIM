(* Proof/ChanAppend_expand.v — alignment of the completion vectors (append.go):
   appendResultCompletions gives one completion per item, in item order,
   whatever the length of the appender's result vector; expandCompletions gives
   one completion per ORIGINAL item, in its own position, carrying its owner's
   result, and only the first emission of an owner stays committed;
   activeAppendItems splits a batch into its live items (in order) and one error
   completion per inactive item. *)
From WK Require Import Base.Base Base.Lists Gen.Consts_C29 Model.ChanAppend Proof.ChanAppend_coalesce.
From Coq Require Import Sorted.
Local Open Scope nat_scope.

(* the completion appendResultCompletions builds for one item from its result, if the vector reaches it *)
Definition arc_one (it : psend) (r : option ares) : comp :=
  match r with
  | None => errcomp it E_RESULT_MISSING
  | Some a =>
      if (a_err a =? 0)%N
      then Comp it (SRes (a_id a) (a_seq a) c29_reason_success 0) (a_id a, a_seq a) true 0
      else Comp it (SRes 0 0 (reasonForAppendError (a_err a)) 0) (a_id a, a_seq a) false (a_err a)
  end.

Lemma arc_items : forall items res, map cp_item (appendResultCompletions items res) = items.
Proof.
  induction items as [|it r IH]; intro res; cbn [appendResultCompletions map]; [reflexivity|].
  destruct res as [|a res']; cbn [map].
  - rewrite IH. reflexivity.
  - rewrite IH. destruct (a_err a =? 0)%N; reflexivity.
Qed.

Lemma arc_length items res : length (appendResultCompletions items res) = length items.
Proof. rewrite <- (arc_items items res) at 2. rewrite map_length. reflexivity. Qed.

Lemma arc_nth_error : forall items res i it,
  nth_error items i = Some it ->
  nth_error (appendResultCompletions items res) i = Some (arc_one it (nth_error res i)).
Proof.
  induction items as [|x r IH]; intros res i it H; [destruct i; discriminate|].
  destruct i as [|i]; cbn [nth_error] in H.
  - inversion H; subst. destruct res as [|a res']; reflexivity.
  - destruct res as [|a res']; cbn [appendResultCompletions nth_error].
    + rewrite (IH [] i it H). destruct i; reflexivity.
    + apply IH. exact H.
Qed.

Lemma arc_committed items res c :
  In c (appendResultCompletions items res) -> cp_committed c = true ->
  exists i a, nth_error items i = Some (cp_item c) /\ nth_error res i = Some a /\ a_err a = 0%N
              /\ cp_res c = SRes (a_id a) (a_seq a) c29_reason_success 0.
Proof.
  intros Hin Hc. apply In_nth_error in Hin. destruct Hin as [i Hi].
  assert (Hlt : i < length items).
  { rewrite <- (arc_length items res). apply nth_error_Some. congruence. }
  destruct (nth_error items i) as [it|] eqn:E; [|apply nth_error_None in E; lia].
  rewrite (arc_nth_error _ res _ _ E) in Hi. inversion Hi; subst c. clear Hi.
  unfold arc_one in *. destruct (nth_error res i) as [a|] eqn:Er; [|discriminate].
  destruct (a_err a =? 0)%N eqn:Ea; [|discriminate].
  apply N.eqb_eq in Ea. exists i, a. cbn [cp_item cp_res]. repeat split; auto.
Qed.

Lemma nth_set_nth {A} n m (x d : A) l :
  n < length l -> nth m (set_nth n x l) d = if Nat.eqb m n then x else nth m l d.
Proof.
  revert n m. induction l as [|y l IH]; intros n m H; [cbn in H; lia|].
  destruct n as [|n]; destruct m as [|m]; cbn [set_nth nth Nat.eqb]; try reflexivity.
  apply IH. cbn in H. lia.
Qed.

Lemma expand_loop_length unique : forall ows orig em,
  length ows = length orig -> length (expand_loop unique ows orig em) = length orig.
Proof.
  induction ows as [|o ows IH]; intros orig em H; destruct orig as [|it orig]; cbn in *; try lia.
  f_equal. apply IH. lia.
Qed.

Lemma expand_loop_nth unique : forall ows orig em i,
  length ows = length orig -> i < length ows ->
  Forall (fun o => o < length em) ows ->
  nth i (expand_loop unique ows orig em) dflt_comp =
  let o := nth i ows 0 in
  let u := nth o unique dflt_comp in
  Comp (nth i orig dflt_psend) (cp_res u) (cp_app u)
       (if nth o em false || existsb (Nat.eqb o) (firstn i ows) then false else cp_committed u)
       (cp_trace u).
Proof.
  induction ows as [|o0 ows IH]; intros orig em i Hlen Hi Hb; [cbn in Hi; lia|].
  destruct orig as [|it orig]; [cbn in Hlen; lia|].
  inversion Hb as [|x l Hb1 Hb2]; subst.
  destruct i as [|i]; cbn [expand_loop nth firstn existsb].
  - rewrite orb_false_r. reflexivity.
  - rewrite IH; [|cbn in Hlen; lia|cbn in Hi; lia|].
    2:{ eapply Forall_impl; [|exact Hb2]. intros a Ha. rewrite set_nth_length. exact Ha. }
    cbv zeta. f_equal.
    rewrite nth_set_nth by exact Hb1.
    destruct (Nat.eqb (nth i ows 0) o0) eqn:E.
    + cbn [orb]. rewrite orb_true_r. reflexivity.
    + cbn [orb]. reflexivity.
Qed.

Lemma existsb_firstn_iff (ow : list nat) i o :
  existsb (Nat.eqb o) (firstn i ow) = true <-> exists i', i' < i /\ i' < length ow /\ nth i' ow 0 = o.
Proof.
  rewrite existsb_exists. split.
  - intros [x [Hin E]]. apply Nat.eqb_eq in E. subst x.
    apply In_nth_error in Hin. destruct Hin as [i' Hi'].
    assert (L : i' < length (firstn i ow)) by (apply nth_error_Some; congruence).
    rewrite firstn_length in L.
    exists i'. split; [lia|]. split; [lia|].
    rewrite nth_error_firstn_lt in Hi' by lia.
    apply nth_error_nth with (d := 0) in Hi'. exact Hi'.
  - intros [i' [H1 [H2 H3]]]. exists o. split; [|apply Nat.eqb_refl].
    rewrite <- H3. rewrite <- (firstn_skipn i ow) at 1.
    rewrite app_nth1 by (rewrite firstn_length; lia).
    apply nth_In. rewrite firstn_length. lia.
Qed.

(* the completion expandCompletions builds for item i *)
Definition expanded_at (items : list psend) (b : ibatch) (pos : list nat) (unique : list comp) (i : nat) : comp :=
  let u := nth (owner_of b i) unique dflt_comp in
  Comp (nth i items dflt_psend) (cp_res u) (cp_app u)
       (cp_committed u && Nat.eqb (nth (owner_of b i) pos 0) i) (cp_trace u).

Theorem expand_aligned : forall items b pos unique,
  coalesced items b pos -> map cp_item unique = ib_items b ->
  length (expandCompletions b unique) = length items
  /\ forall i, i < length items ->
       nth i (expandCompletions b unique) dflt_comp = expanded_at items b pos unique i.
Proof.
  intros items b pos unique C Hu.
  assert (Hlen : length unique = length pos).
  { rewrite <- (map_length cp_item unique), Hu, (cz_items _ _ _ C), map_length. reflexivity. }
  unfold expandCompletions, expanded_at, owner_of.
  destruct (ib_owners b) as [ow|] eqn:O.
  - destruct (cz_owners _ _ _ C ow O) as [L Eo]. rewrite Eo.
    split; [apply expand_loop_length; exact L|].
    intros i Hi.
    assert (Hb : Forall (fun o => o < length (repeat false (length unique))) ow).
    { apply Forall_forall. intros o Ho. rewrite repeat_length, Hlen.
      apply In_nth with (d := 0) in Ho. destruct Ho as [j [Hj Ej]]. subst o.
      destruct (cz_owner _ _ _ C j ltac:(lia)) as [p [P1 _]]. unfold owner_of in P1. rewrite O in P1.
      apply nth_error_Some. congruence. }
    rewrite expand_loop_nth by (try exact L; try lia; exact Hb).
    cbv zeta. f_equal. rewrite nth_repeat. cbn [orb].
    destruct (cz_owner _ _ _ C i Hi) as [p [P1 [P2 P3]]]. unfold owner_of in P1. rewrite O in P1.
    rewrite (nth_error_nth _ _ 0 P1).
    destruct (existsb (Nat.eqb (nth i ow 0)) (firstn i ow)) eqn:E.
    + apply existsb_firstn_iff in E. destruct E as [i' [E1 [E2 E3]]].
      (* an earlier item uses the same slot, so the slot's own position is before i *)
      destruct (cz_owner _ _ _ C i' ltac:(lia)) as [p' [Q1 [Q2 _]]]. unfold owner_of in Q1. rewrite O in Q1.
      rewrite E3, P1 in Q1. inversion Q1; subst p'.
      replace (Nat.eqb p i) with false; [rewrite andb_false_r; reflexivity|].
      symmetry. apply Nat.eqb_neq. lia.
    + destruct (Nat.eq_dec p i) as [Ep|Ep].
      * subst p. rewrite Nat.eqb_refl, andb_true_r. reflexivity.
      * exfalso. assert (Hp : p < i) by lia.
        assert (Et : existsb (Nat.eqb (nth i ow 0)) (firstn i ow) = true).
        { apply existsb_firstn_iff. exists p. split; [exact Hp|]. split; [lia|].
          pose proof (cz_slot _ _ _ C _ _ P1) as S. unfold owner_of in S. rewrite O in S. exact S. }
        congruence.
  - pose proof (cz_none _ _ _ C O) as Ep. subst pos.
    rewrite seq_length in Hlen. split; [exact Hlen|].
    intros i Hi. rewrite seq_nth by exact Hi. cbn [plus]. rewrite Nat.eqb_refl, andb_true_r.
    assert (Ei : cp_item (nth i unique dflt_comp) = nth i items dflt_psend).
    { change dflt_psend with (cp_item dflt_comp) at 1.
      rewrite <- (map_nth cp_item), Hu, (cz_items _ _ _ C).
      rewrite map_nth_seq by lia. rewrite firstn_all. reflexivity. }
    rewrite <- Ei. destruct (nth i unique dflt_comp); reflexivity.
Qed.

Corollary expand_items : forall items b pos unique,
  coalesced items b pos -> map cp_item unique = ib_items b ->
  map cp_item (expandCompletions b unique) = items.
Proof.
  intros items b pos unique C Hu. destruct (expand_aligned _ _ _ _ C Hu) as [L N].
  apply nth_ext with (d := dflt_psend) (d' := dflt_psend); [rewrite map_length; exact L|].
  intros i Hi. rewrite map_length in Hi.
  change dflt_psend with (cp_item dflt_comp) at 1. rewrite map_nth, N by lia. reflexivity.
Qed.

(* at most one completion per owner is committed: the owner's own *)
Corollary expand_committed_owner : forall items b pos unique i,
  coalesced items b pos -> map cp_item unique = ib_items b -> i < length items ->
  cp_committed (nth i (expandCompletions b unique) dflt_comp) = true ->
  nth_error pos (owner_of b i) = Some i /\ cp_committed (nth (owner_of b i) unique dflt_comp) = true.
Proof.
  intros items b pos unique i C Hu Hi Hc. destruct (expand_aligned _ _ _ _ C Hu) as [_ N].
  rewrite N in Hc by exact Hi. unfold expanded_at in Hc. cbn [cp_committed] in Hc.
  apply andb_true_iff in Hc. destruct Hc as [H1 H2]. apply Nat.eqb_eq in H2.
  destruct (cz_owner _ _ _ C i Hi) as [p [P1 _]].
  rewrite (nth_error_nth _ _ 0 P1) in H2. subst p. auto.
Qed.

Lemma active_loop_spec all : forall rest i active filtered,
  i + length rest = length all -> rest = skipn i all ->
  (filtered = true -> active = filter alive (firstn i all)) ->
  (filtered = false -> filter alive (firstn i all) = firstn i all) ->
  let '(a, f) := active_loop all i rest active filtered in
  (f = true -> a = filter alive all) /\ (f = false -> filter alive all = all).
Proof.
  induction rest as [|it rest IH]; intros i active filtered Hlen Hrest H1 H2; cbn [active_loop].
  - cbn in Hlen. assert (E : firstn i all = all) by (apply firstn_all2; lia). rewrite E in *. auto.
  - cbn [length] in Hlen.
    assert (Hi : i < length all) by lia.
    destruct (skipn_step dflt_psend _ _ _ _ Hrest) as [_ [E2 Ef]].
    destruct (alive it) eqn:A.
    + apply IH; [lia|exact E2| |].
      * intro F. rewrite F in *. rewrite Ef, filter_app. cbn [filter]. rewrite A. rewrite (H1 eq_refl). reflexivity.
      * intro F. rewrite Ef, filter_app. cbn [filter]. rewrite A. rewrite (H2 F). reflexivity.
    + apply IH; [lia|exact E2| |].
      * intros _. rewrite Ef, filter_app. cbn [filter]. rewrite A, app_nil_r.
        destruct filtered; [apply H1; reflexivity|symmetry; apply H2; reflexivity].
      * discriminate.
Qed.

Theorem activeAppendItems_correct : forall items, activeAppendItems items = activeAppendItems_spec items.
Proof.
  intro items. unfold activeAppendItems, activeAppendItems_spec.
  pose proof (active_loop_spec items items 0 [] false eq_refl eq_refl) as H.
  destruct (active_loop items 0 items [] false) as [a f].
  destruct H as [H1 H2]; [discriminate|reflexivity|].
  destruct f; [rewrite (H1 eq_refl)|rewrite (H2 eq_refl)]; reflexivity.
Qed.
