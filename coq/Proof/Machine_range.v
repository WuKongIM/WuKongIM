(* Proof/Machine_range.v — assignInflightRecordsToWaiters never slices out of range in a
   reachable state: the record counts of the in-flight batch are positive and add up to the
   number of flattened records (C06).  This discharges the one place where the model replaces a
   Go panic (slice bounds) by a total function. *)
From WK Require Import Base.Base Gen.Consts_C06 Model.Machine Proof.Machine Proof.Machine_steps
     Proof.Machine_trans.
Open Scope N_scope.

Definition count_sum (counts : list N) : nat := fold_right (fun c a => (N.to_nat c + a)%nat) 0%nat counts.

Definition infl_wf (f : inflight) : Prop :=
  Forall (fun c => 0 < c) (f_counts f) /\ count_sum (f_counts f) = length (f_recs f).

Definition IW (s : state) : Prop :=
  match s_infl s with None => True | Some f => infl_wf f end.

Lemma assign_offsets_length : forall recs base, length (assign_offsets recs base) = length recs.
Proof.
  induction recs as [|[i x] r IH]; intro base; cbn [assign_offsets length]; [reflexivity|].
  rewrite IH. reflexivity.
Qed.

Lemma assign_in_range_ok recs : forall ids next counts pend,
  Forall (fun c => 0 < c) counts -> (next + count_sum counts <= length recs)%nat ->
  assign_in_range recs next ids counts pend = true.
Proof.
  induction ids as [|op ids IH]; intros next counts pend Hpos Hsum; cbn [assign_in_range]; [reflexivity|].
  destruct counts as [|c cs].
  - cbn [count_sum fold_right] in Hsum. cbn [tl]. destruct (find_w op pend) as [w|].
    + apply andb_true_iff. split.
      * apply Nat.leb_le. apply Nat.min_glb; lia.
      * apply IH; [constructor|]. cbn [count_sum fold_right]. pose proof (Nat.le_min_r (next + (if Nat.eqb 0 0 then length (w_recs w) else 0)) (length recs)). lia.
    + apply IH; [constructor|]. cbn [count_sum fold_right]. lia.
  - inversion Hpos as [|c0 cs0 Hc Hcs]; subst. cbn [count_sum fold_right] in Hsum.
    fold (count_sum cs) in Hsum. cbn [tl].
    assert (Hn : N.to_nat c <> 0%nat) by lia.
    destruct (find_w op pend) as [w|].
    + apply Nat.eqb_neq in Hn. rewrite Hn. apply andb_true_iff. split.
      * apply Nat.leb_le. apply Nat.min_glb; lia.
      * apply IH; [exact Hcs|]. pose proof (Nat.le_min_l (next + N.to_nat c) (length recs)). lia.
    + apply IH; [exact Hcs|]. lia.
Qed.

Lemma new_batch_wf batch (ws : list bwaiter) :
  (forall b, In b ws -> b_ids b <> []) ->
  infl_wf (Inflight batch (concat (map (fun b => new_recs (b_ids b)) ws)) (map b_op ws)
                    (map (fun b => N.of_nat (length (b_ids b))) ws)).
Proof.
  intro H. unfold infl_wf. cbn [f_counts f_recs]. split.
  - apply Forall_forall. intros c Hc. apply in_map_iff in Hc. destruct Hc as [b [E Hb]].
    subst c. specialize (H b Hb). destruct (b_ids b); [exfalso; apply H; reflexivity|].
    cbn [length]. lia.
  - clear H. induction ws as [|b r IH]; cbn [map concat count_sum fold_right]; [reflexivity|].
    fold (count_sum (map (fun b0 => N.of_nat (length (b_ids b0))) r)).
    rewrite app_length, IH. unfold new_recs. rewrite map_length, Nat2N.id. reflexivity.
Qed.

Lemma complete_waiters_infl s order s' rs : complete_waiters s order = (s', rs) -> s_infl s' = s_infl s.
Proof. intro H. destruct (complete_waiters_spec _ _ _ _ H) as [_ [I _]]. exact I. Qed.

Lemma fail_inflight_IW s err s' d : fail_inflight s err = (s', d) -> IW s -> IW s'.
Proof.
  unfold fail_inflight, IW. destruct (s_infl s) as [f|] eqn:I.
  - destruct (fail_loop err (f_ids f) (s_pending s)) as [[rs cs] p']. intro H. inversion H; subst.
    st. auto.
  - intro H. inversion H; subst. rewrite I. auto.
Qed.

Lemma propose_IW s batch ws s' d : propose_batch s batch ws = (s', d) -> IW s -> IW s'.
Proof.
  intros H HI.
  destruct (propose_cases s batch ws) as [[d0 [E _]]|[pend' [ord' [t [C [_ E]]]]]];
    rewrite E in H; inversion H; subst; [exact HI|].
  unfold IW; st. apply new_batch_wf. intros b Hb. apply (proj2 (propose_check_ok _ _ _ C) b Hb).
Qed.

Lemma follower_ack_IW s follower off s' d : apply_follower_ack s follower off = (s', d) -> IW s -> IW s'.
Proof.
  intros H HI. unfold apply_follower_ack in H.
  destruct (negb (s_role s =? RoleLeader) || negb (mem follower (s_replicas s)));
    [inversion H; subst; exact HI|]. cbv zeta in H.
  match type of H with (match complete_waiters (advance_hw ?x) _ with _ => _ end) = _ =>
    set (s1 := x) in * end.
  destruct (complete_waiters (advance_hw s1) (s_order (advance_hw s1))) as [s3 rs] eqn:CW.
  inversion H; subst. apply complete_waiters_infl in CW.
  unfold IW in *. rewrite CW, advance_hw_eq. unfold s1.
  destruct (pr_get follower (s_progress s) <? off); st; exact HI.
Qed.

Lemma finish_IW s2 i signals s' d : finish s2 i signals = (s', d) -> IW s'.
Proof.
  unfold finish. destruct (complete_waiters _ _) as [s4 rs] eqn:CW. intro H. inversion H; subst.
  apply complete_waiters_infl in CW. unfold IW. rewrite CW. exact Logic.I.
Qed.

Lemma step_IW s e s' d : step s e = (s', d) -> IW s -> IW s'.
Proof.
  intros H HI. destruct e; cbn [step] in H.
  - unfold apply_meta in H. destruct (validate_meta s m); [|inversion H; subst; exact HI].
    destruct (m_status m =? StatusDeleted); inversion H; subst; unfold IW in *; st;
      destruct (should_clear s m); auto.
  - exact (propose_IW _ _ _ _ _ H HI).
  - exact (propose_IW _ _ _ _ _ H HI).
  - destruct (stored_cases s f base last err) as [E|[[_ E]|[i [_ E]]]]; rewrite E in H;
      [inversion H; subst; exact HI|exact (fail_inflight_IW _ _ _ _ H HI)|exact (finish_IW _ _ _ _ _ H)].
  - destruct (quorum_cases s f first last hw err) as [E|[[e' [_ E]]|[i [_ [_ E]]]]]; rewrite E in H;
      [inversion H; subst; exact HI|exact (fail_inflight_IW _ _ _ _ H HI)|exact (finish_IW _ _ _ _ _ H)].
  - destruct (step_ack_cases s r key epoch lepoch follower off ver_ok) as [[e [_ E]]|[[_ E]|[_ E]]];
      rewrite E in H; [inversion H; subst; exact HI|inversion H; subst; exact HI|].
    exact (follower_ack_IW _ _ _ _ _ H HI).
  - unfold cancel_waiter in H. destruct (find_w op (s_pending s)); inversion H; subst; [|exact HI].
    unfold IW in *; st. exact HI.
  - unfold abort_batch in H. destruct (s_infl s) as [f|] eqn:I; [|inversion H; subst; exact HI].
    destruct (f_op f =? batch); inversion H; subst; [|exact HI]. unfold IW; st. exact Logic.I.
Qed.

Lemma IW_init key local gen id leo hw cp : IW (init_state key local gen id leo hw cp).
Proof. exact Logic.I. Qed.

Lemma IW_run_state : forall evs s, IW s -> IW (run_state s evs).
Proof.
  apply run_state_preserves. intros s e HI. destruct (step s e) as [s' d] eqn:E. exact (step_IW _ _ _ _ E HI).
Qed.

Lemma in_range_of_IW s i base : IW s -> s_infl s = Some i ->
  assign_in_range (assign_offsets (f_recs i) base) 0 (f_ids i) (f_counts i) (s_pending s) = true.
Proof.
  unfold IW. intros W H. rewrite H in W. destruct W as [Hpos Hsum].
  apply assign_in_range_ok; [exact Hpos|]. rewrite assign_offsets_length, Hsum. lia.
Qed.
