(* Proof/SlotFSM_tlv.v — the command decoder of pkg/slot/fsm is a total, length-respecting
   function of the byte string; unknown tags are skipped by apply_delta and enter_fence (ack / cleanup reject every field
   that is not 8 bytes long); the four migration commands
   round-trip through their encoders.  (Model/SlotFSM_tlv.v.) *)
From WK Require Import Base.Base Base.Bytes.
From WK Require Import Gen.Consts_C13 Model.SlotFSM_tlv.
Open Scope N_scope.

(* a field consumes at least its 5-byte header and never more than there is *)
Lemma readTLV_consumed data tag v n :
  readTLV data = Some (tag, v, n) ->
  (5 <= n <= length data)%nat /\ length v = (n - 5)%nat /\ v = firstn (n - 5) (skipn 5 data).
Proof.
  unfold readTLV. destruct data as [|t [|l3 [|l2 [|l1 [|l0 rest]]]]]; try discriminate.
  destruct (be_get [l3; l2; l1; l0] <=? N.of_nat (length rest)) eqn:E; [|discriminate].
  intro H. inversion H; subst; clear H. apply N.leb_le in E.
  set (L := N.to_nat (be_get [l3; l2; l1; l0])) in *.
  assert (Hl : (L <= length rest)%nat) by (subst L; lia).
  assert (Hs : (S (S (S (S (S L)))) - 5 = L)%nat) by lia. rewrite Hs.
  change (skipn 5 (tag :: l3 :: l2 :: l1 :: l0 :: rest)) with rest.
  change (length (tag :: l3 :: l2 :: l1 :: l0 :: rest)) with (S (S (S (S (S (length rest)))))).
  split; [lia|]. split; [|reflexivity]. rewrite firstn_length. lia.
Qed.

(* the length of a value fits the 4-byte length field *)
Definition u32_len_ok (v : bytes) : Prop := N.of_nat (length v) < 4294967296.

Lemma readTLV_tlv tag v rest :
  u32_len_ok v ->
  readTLV (tlv tag v ++ rest) = Some (tag, v, (5 + length v)%nat).
Proof.
  unfold u32_len_ok. intro Hl. unfold tlv, put_u32.
  pose proof (be_put_length 4 (N.of_nat (length v))) as L4.
  destruct (be_put 4 (N.of_nat (length v))) as [|l3 [|l2 [|l1 [|l0 [|x r]]]]] eqn:P; cbn in L4; try discriminate.
  cbn [app]. unfold readTLV.
  assert (G : be_get [l3; l2; l1; l0] = N.of_nat (length v)).
  { rewrite <- P. apply be_get_put. cbn. exact Hl. }
  rewrite G. rewrite app_length.
  assert (E : (N.of_nat (length v) <=? N.of_nat (length v + length rest)) = true) by (apply N.leb_le; lia).
  rewrite E. rewrite Nat2N.id. rewrite firstn_app, firstn_all, Nat.sub_diag. cbn [firstn]. rewrite app_nil_r. reflexivity.
Qed.

Lemma tlv_fields_fuel fuel : forall data extra,
    (length data <= fuel)%nat -> tlv_fields (fuel + extra) data = tlv_fields fuel data.
Proof.
  induction fuel as [|f IH]; intros data extra Hl.
  - destruct data; [|cbn in Hl; lia]. destruct extra; reflexivity.
  - destruct data as [|b data']; [reflexivity|].
    cbn [Nat.add tlv_fields].
    destruct (readTLV (b :: data')) as [[[tag v] n]|] eqn:R; [|reflexivity].
    destruct (readTLV_consumed _ _ _ _ R) as ((Hn5 & Hn) & _).
    rewrite IH; [reflexivity|]. rewrite skipn_length. lia.
Qed.

(* any fuel >= length data gives the result of fields_of: the loop never stops for lack of fuel *)
Theorem tlv_fields_fuel_irrelevant data fuel :
  (length data <= fuel)%nat -> tlv_fields fuel data = fields_of data.
Proof.
  intro H. unfold fields_of. replace fuel with (length data + (fuel - length data))%nat by lia.
  apply tlv_fields_fuel. lia.
Qed.

Lemma tlv_length tag v : length (tlv tag v) = (5 + length v)%nat.
Proof. unfold tlv, put_u32. cbn [length]. rewrite app_length, be_put_length. reflexivity. Qed.

Lemma fields_of_cons tag v rest :
  u32_len_ok v ->
  fields_of (tlv tag v ++ rest) = match fields_of rest with Some r => Some ((tag, v) :: r) | None => None end.
Proof.
  intro Hl. unfold fields_of at 1. rewrite app_length, tlv_length.
  change (5 + length v + length rest)%nat with (S (4 + length v + length rest)).
  change (tlv tag v ++ rest) with (tag :: (put_u32 (N.of_nat (length v)) ++ v) ++ rest).
  cbn [tlv_fields].
  change (tag :: (put_u32 (N.of_nat (length v)) ++ v) ++ rest) with (tlv tag v ++ rest).
  rewrite (readTLV_tlv tag v rest Hl), <- (tlv_length tag v), skipn_app, skipn_all, Nat.sub_diag. cbn [skipn app].
  rewrite (tlv_fields_fuel_irrelevant rest) by lia. reflexivity.
Qed.

Lemma fields_of_one tag v :
  u32_len_ok v -> fields_of (tlv tag v) = Some [(tag, v)].
Proof. intro Hl. rewrite <- (app_nil_r (tlv tag v)). apply (fields_of_cons tag v [] Hl). Qed.

Lemma delta_step_unknown a tag v :
  negb (existsb (N.eqb tag) [tagApplyDeltaSourceSlotID; tagApplyDeltaSourceIndex; tagApplyDeltaHashSlot;
                              tagApplyDeltaOriginalCmd]) = true ->
  delta_step a (tag, v) = Some a.
Proof.
  intro H. apply negb_true_iff in H. cbn [existsb] in H. rewrite !orb_false_iff in H.
  destruct H as (E1 & E2 & E3 & E4 & _). unfold delta_step. rewrite E1, E2, E3, E4. reflexivity.
Qed.

Lemma fence_step_unknown a tag v :
  negb (existsb (N.eqb tag) [tagEnterFenceHashSlot; tagEnterFenceTarget]) = true -> fence_step a (tag, v) = Some a.
Proof.
  intro H. apply negb_true_iff in H. cbn [existsb] in H. rewrite !orb_false_iff in H.
  destruct H as (E1 & E2 & _). unfold fence_step. rewrite E1, E2. reflexivity.
Qed.

Definition u64_ok (x : N) : Prop := x < 18446744073709551616.

Lemma u64_field_put x : u64_ok x -> u64_field (put_u64 x) = Some x.
Proof.
  intro H. unfold u64_field, put_u64. rewrite be_put_length. cbn [Nat.eqb]. rewrite be_get_put; [reflexivity|exact H].
Qed.

Lemma put_u64_len_ok x : u32_len_ok (put_u64 x).
Proof. unfold u32_len_ok, put_u64. rewrite be_put_length. cbn. lia. Qed.

(* The field loop reads back the fields that were written; every u64 field reads back its value;
   the rest is the comparison of the constant tags and command types. *)
Ltac round_trip step :=
  rewrite ?fields_of_cons, fields_of_one by (assumption || apply put_u64_len_ok);
  cbn [fold_opt]; unfold step; cbv beta iota;
  rewrite !u64_field_put by assumption.

Theorem decode_encode_apply_delta s i h orig :
  u64_ok s -> u64_ok i -> h <= 65535 -> N.of_nat (length orig) < 4294967296 ->
  decodeCommand (encodeApplyDelta s i h orig) = DecDelta s i h orig.
Proof.
  intros Hs Hi Hh Ho. assert (Hh64 : u64_ok h) by (unfold u64_ok; lia).
  assert (Hc : (65535 <? h) = false) by (apply N.ltb_ge; exact Hh).
  unfold encodeApplyDelta. cbn [app decodeCommand]. unfold decodeApplyDelta, tlv_u64.
  round_trip delta_step. rewrite Hc. reflexivity.
Qed.

Theorem decode_encode_outbox cleanup h s t i :
  h <= 65535 -> u64_ok s -> u64_ok t -> u64_ok i ->
  decodeCommand (encodeMigrationOutbox cleanup h s t i) = if cleanup then DecCleanup h s t i else DecAck h s t i.
Proof.
  intros Hh Hs Ht Hi. assert (Hh64 : u64_ok h) by (unfold u64_ok; lia).
  assert (Hc : (65535 <? h) = false) by (apply N.ltb_ge; exact Hh).
  unfold encodeMigrationOutbox. cbn [app decodeCommand]. unfold decodeMigrationOutbox, tlv_u64.
  round_trip outbox_step. rewrite Hc. destruct cleanup; reflexivity.
Qed.

Theorem decode_encode_fence h t :
  h <= 65535 -> u64_ok t ->
  decodeCommand (encodeEnterFence h t) = DecFence h t.
Proof.
  intros Hh Ht. assert (Hh64 : u64_ok h) by (unfold u64_ok; lia).
  assert (Hc : (65535 <? h) = false) by (apply N.ltb_ge; exact Hh).
  unfold encodeEnterFence. cbn [app decodeCommand]. unfold decodeEnterFence, tlv_u64.
  destruct (t =? 0) eqn:T0.
  - apply N.eqb_eq in T0. subst t. rewrite app_nil_r. round_trip fence_step. rewrite Hc. reflexivity.
  - round_trip fence_step. rewrite Hc. reflexivity.
Qed.

(* the header checks: shorter than 2 bytes or wrong version: corrupt; unknown command type:
   invalid argument *)
Theorem decode_short data : (length data < 2)%nat -> decodeCommand data = DecErr DEC_CORRUPT.
Proof. destruct data as [|a [|b r]]; cbn [length]; intro H; try reflexivity. lia. Qed.

Theorem decode_bad_version v t payload : v <> commandVersion -> decodeCommand (v :: t :: payload) = DecErr DEC_CORRUPT.
Proof.
  intro H. cbn [decodeCommand]. assert (E : (v =? commandVersion) = false) by (apply N.eqb_neq; exact H).
  rewrite E. reflexivity.
Qed.

Theorem decode_unknown_type t payload :
  existsb (N.eqb t) commandTypes = false -> decodeCommand (commandVersion :: t :: payload) = DecErr DEC_INVALID.
Proof. intro H. cbn [decodeCommand]. rewrite N.eqb_refl, H. reflexivity. Qed.
