(* Proof/StateFile_C19.v — the monitor of C19 on the model's own runs: the hook cases, what the
   kill clause means ([kill_ok_spec]), and histories (by [vis_full], [vis_kill], [vis_fail] of
   Proof/StateFile.v: a history step is a Save of a living process, the machine does not crash). *)
From WK Require Import Base.Base.
From WK Require Import Gen.Consts_C18 Model.CtrlFSM Model.StateFile Model.StateFile_C19 Proof.StateFile.
From Coq Require Import ZifyBool ZifyN ZifyNat.
Open Scope N_scope.

(* the hook cases as the model runs them satisfy the monitor and agree with themselves *)
Lemma model_hook_ok : forall v has_old, v < 4 ->
  let '(h, a, l) := model_hook v has_old in
  C19_monitor (HookCase v has_old h a v l) = 0 /\ C19_mismatch (HookCase v has_old h a v l) = false.
Proof.
  intros v has_old Hv.
  assert (Hc : v = 0 \/ v = 1 \/ v = 2 \/ v = 3) by lia.
  destruct Hc as [ -> | [ -> | [ -> | -> ] ] ]; destruct has_old; vm_compute; split; reflexivity.
Qed.

(* the kill cases: a child that reported [done] saves of a round-robin over n states and is killed
   leaves the state of the last reported save or of the next one *)
Lemma kill_ok_spec n done loaded :
  n <> 0 ->
  kill_ok n done loaded = true <->
  (loaded = Z.of_N (done mod n) \/ (done <> 0 /\ loaded = Z.of_N ((done - 1) mod n)) \/ (done = 0 /\ loaded = (-1)%Z)).
Proof.
  intro Hn. unfold kill_ok, old_or_new_b. rewrite (proj2 (N.eqb_neq _ _) Hn).
  destruct (N.eq_dec done 0) as [->|Hd].
  - cbn [N.eqb]. rewrite orb_true_iff, !Z.eqb_eq. intuition.
  - rewrite (proj2 (N.eqb_neq _ _) Hd). rewrite orb_true_iff, !Z.eqb_eq. intuition.
Qed.

(* every history the model can run satisfies the history clause of the monitor *)
Theorem model_hist_ok : forall plan s n cur,
  vis_ok s -> code_gen (read s 0) = cur -> hist_ok cur (model_hist s n plan) = true.
Proof.
  induction plan as [|[mode idx] plan IH]; intros s n cur Hv Hc; [reflexivity|].
  cbn [model_hist hist_ok he_save he_loaded he_idx].
  assert (Ht : n + 1 <> 0) by lia.
  unfold hist_step, load_bytes.
  destruct (mode =? 0) eqn:E0.
  - destruct (vis_full s (n + 1) [idx] Hv) as [Hr Hv'].
    cbn [N.eqb]. rewrite Hr. cbn [code_gen]. rewrite Z.eqb_refl. cbn [andb].
    apply IH; [exact Hv'|rewrite Hr; reflexivity].
  - destruct (mode =? 1) eqn:E1.
    + destruct (vis_kill s (n + 1) [idx] Hv Ht) as [Hr Hv'].
      cbn [N.eqb]. rewrite Hr, Hc. unfold old_or_new_b. rewrite Z.eqb_refl. cbn [orb andb].
      apply IH; [exact Hv'|rewrite Hr; exact Hc].
    + destruct (vis_fail s (n + 1) [idx] Hv Ht) as [Hr Hv'].
      cbn [N.eqb]. rewrite Hr, Hc. unfold old_or_new_b. rewrite Z.eqb_refl. cbn [orb andb].
      apply IH; [exact Hv'|rewrite Hr; exact Hc].
Qed.
