(* Proof/ReplicaLog.v — facts about Model/ReplicaLog.v shared by the proofs of C01..C04: boolean
   equalities reflect Leibniz equality, node maps, the entry chain built by DeriveProposalEntries (the
   structural digest is injective in the records), where entries sit in a log, and one case lemma per
   store operation (the exact append of each back end, Sync, Replace) saying what was checked and
   what was written. *)
From WK Require Import Base.Base.
From WK Require Import Model.ReplicaLog.
From Coq Require Import ZifyBool ZifyN.
Open Scope N_scope.

Lemma tag_eqb_eq a b : tag_eqb a b = true <-> a = b.
Proof.
  destruct a as [x | e t f l], b as [y | e' t' f' l']; cbn; split; intro H; try discriminate.
  - apply N.eqb_eq in H. congruence.
  - inversion H. apply N.eqb_refl.
  - rewrite !andb_true_iff, !N.eqb_eq in H. destruct H as [[[-> ->] ->] ->]. reflexivity.
  - inversion H. rewrite !N.eqb_refl. reflexivity.
Qed.

Lemma tag_eqb_refl a : tag_eqb a a = true.
Proof. apply tag_eqb_eq. reflexivity. Qed.

Lemma tag_eqb_sym a b : tag_eqb a b = tag_eqb b a.
Proof.
  destruct (tag_eqb a b) eqn:E.
  - apply tag_eqb_eq in E. subst. symmetry. apply tag_eqb_refl.
  - destruct (tag_eqb b a) eqn:E2; [|reflexivity]. apply tag_eqb_eq in E2. subst. rewrite tag_eqb_refl in E. discriminate.
Qed.

Lemma record_eqb_eq a b : record_eqb a b = true <-> a = b.
Proof.
  destruct a, b. unfold record_eqb. cbn.
  rewrite !andb_true_iff, !N.eqb_eq, tag_eqb_eq, Bool.eqb_true_iff. split.
  - intros [[[[[[-> ->] ->] ->] ->] ->] ->]. reflexivity.
  - intro H. inversion H. repeat split; reflexivity.
Qed.

Lemma record_eqb_refl a : record_eqb a a = true.
Proof. apply record_eqb_eq. reflexivity. Qed.

Lemma digest_eqb_eq : forall a b, digest_eqb a b = true <-> a = b.
Proof.
  induction a as [| e t f i pt pi c pd IH r]; destruct b as [| e' t' f' i' pt' pi' c' pd' r']; cbn;
    split; intro H; try discriminate; try reflexivity.
  - rewrite !andb_true_iff, !N.eqb_eq, tag_eqb_eq, record_eqb_eq, IH in H.
    destruct H as [[[[[[[[-> ->] ->] ->] ->] ->] ->] ->] ->]. reflexivity.
  - inversion H; subst. rewrite !N.eqb_refl, tag_eqb_refl, record_eqb_refl. cbn.
    apply IH. reflexivity.
Qed.

Lemma digest_eqb_refl a : digest_eqb a a = true.
Proof. apply digest_eqb_eq. reflexivity. Qed.

Lemma ident_eqb_eq a b : ident_eqb a b = true <-> a = b.
Proof.
  destruct a, b. unfold ident_eqb. cbn.
  rewrite !andb_true_iff, !N.eqb_eq, tag_eqb_eq, !digest_eqb_eq. split.
  - intros [[[[[[[[-> ->] ->] ->] ->] ->] ->] ->] ->]. reflexivity.
  - intro H. inversion H. repeat split; reflexivity.
Qed.

Lemma ident_eqb_refl a : ident_eqb a a = true.
Proof. apply ident_eqb_eq. reflexivity. Qed.

Lemma manifest_eqb_eq a b : manifest_eqb a b = true <-> a = b.
Proof.
  destruct a, b. unfold manifest_eqb. cbn.
  rewrite !andb_true_iff, !N.eqb_eq, tag_eqb_eq, !digest_eqb_eq. split.
  - intros [[[[[[[[[-> ->] ->] ->] ->] ->] ->] ->] ->] ->]. reflexivity.
  - intro H. inversion H. repeat split; reflexivity.
Qed.

Lemma manifest_eqb_refl a : manifest_eqb a a = true.
Proof. apply manifest_eqb_eq. reflexivity. Qed.

Lemma rstate_eqb_eq a b : rstate_eqb a b = true <-> a = b.
Proof.
  destruct a, b. unfold rstate_eqb. cbn.
  rewrite !andb_true_iff, !N.eqb_eq, manifest_eqb_eq, ident_eqb_eq. split.
  - intros [[[-> ->] ->] ->]. reflexivity.
  - intro H. inversion H. repeat split; reflexivity.
Qed.

Lemma list_record_eqb_eq (a b : list record) : list_eqb record_eqb a b = true <-> a = b.
Proof. apply list_eqb_spec. intros. apply record_eqb_eq. Qed.

Lemma lenN_app {A} (a b : list A) : lenN (a ++ b) = lenN a + lenN b.
Proof. unfold lenN. rewrite app_length. lia. Qed.

Lemma lenN_cons {A} (x : A) (l : list A) : lenN (x :: l) = lenN l + 1.
Proof. unfold lenN. cbn [length]. lia. Qed.

Lemma last_nth_error {A} (d : A) : forall l, l <> [] -> nth_error l (length l - 1) = Some (last l d).
Proof.
  induction l as [|x l IH]; intro H; [congruence|]. destruct l as [|y l]; [reflexivity|].
  replace (length (x :: y :: l) - 1)%nat with (S (length (y :: l) - 1)) by (cbn; lia).
  cbn [nth_error]. rewrite IH by discriminate. reflexivity.
Qed.

Lemma combine_nth_error {A B} : forall (l1 : list A) (l2 : list B) k a,
  length l1 = length l2 -> nth_error l1 k = Some a -> exists b, nth_error (combine l1 l2) k = Some (a, b).
Proof.
  induction l1 as [|x l1 IH]; intros l2 k a Hl Hk; [destruct k; discriminate|].
  destruct l2 as [|y l2]; [discriminate|]. destruct k as [|k]; cbn in *.
  - inversion Hk; subst. eauto.
  - apply IH; [lia | exact Hk].
Qed.

(* maps from node ids kept as association lists: every [get] / [put] pair of the models that unfolds like
   this one reads back what was put, and reads the default from a list of defaults *)
Section NodeMap.
  Variables (V : Type) (d : V) (get : list (N * V) -> N -> V) (put : list (N * V) -> N -> V -> list (N * V)).
  Hypothesis get_nil : forall v, get [] v = d.
  Hypothesis get_cons : forall w t l v, get ((w, t) :: l) v = if v =? w then t else get l v.
  Hypothesis put_nil : forall v r, put [] v r = [(v, r)].
  Hypothesis put_cons : forall w t l v r, put ((w, t) :: l) v r = if v =? w then (v, r) :: l else (w, t) :: put l v r.

  Lemma node_get_put l v r v' : get (put l v r) v' = if v' =? v then r else get l v'.
  Proof.
    induction l as [|[w t] l IH]; [rewrite put_nil, get_cons, get_nil; reflexivity|].
    rewrite put_cons, (get_cons w). destruct (N.eqb_spec v w) as [<- | Hne]; rewrite get_cons; [destruct (v' =? v); reflexivity|].
    rewrite IH. destruct (N.eqb_spec v' w) as [-> | _]; [|reflexivity].
    destruct (N.eqb_spec w v) as [-> | _]; [contradiction | reflexivity].
  Qed.

  Lemma node_get_init (vs : list N) v : get (map (fun x => (x, d)) vs) v = d.
  Proof. induction vs as [|w vs IH]; cbn [map]; [apply get_nil|]. rewrite get_cons, IH. destruct (v =? w); reflexivity. Qed.
End NodeMap.

Lemma derive_loop_length m : forall recs idx pt pidx pd es,
  derive_loop m idx pt pidx pd recs = Some es -> length es = length recs.
Proof.
  induction recs as [|r rest IH]; intros idx pt pidx pd es H; cbn in H.
  - inversion H. reflexivity.
  - destruct (tag_is_zero (r_id r) || negb (r_epoch r =? m_e m) || (r_ts r =? 0)); [discriminate|].
    destruct (derive_loop m (idx + 1) (m_t m) idx _ rest) as [es'|] eqn:E; [|discriminate].
    inversion H; subst. cbn. f_equal. eapply IH. exact E.
Qed.

Lemma derive_loop_entries m : forall recs idx pt pidx pd es,
  derive_loop m idx pt pidx pd recs = Some es ->
  forall k e, nth_error es k = Some e ->
    i_idx e = idx + N.of_nat k /\ i_e e = m_e m /\ i_t e = m_t m /\ i_f e = m_f m /\ i_cmd e = m_cmd m.
Proof.
  induction recs as [|r rest IH]; intros idx pt pidx pd es H k e Hk; cbn in H.
  - inversion H; subst. destruct k; discriminate.
  - destruct (tag_is_zero (r_id r) || negb (r_epoch r =? m_e m) || (r_ts r =? 0)); [discriminate|].
    destruct (derive_loop m (idx + 1) (m_t m) idx _ rest) as [es'|] eqn:E; [|discriminate].
    inversion H; subst. destruct k as [|k]; cbn in Hk.
    + inversion Hk; subst. cbn. repeat split; lia.
    + destruct (IH _ _ _ _ _ E k e Hk) as (H1 & H2). split; [lia | exact H2].
Qed.

(* digests are injective: chain digests embed the predecessor digest and the record, so two
   chains of the same length ending in the same digest started from the same digest and the
   same records *)
Lemma derive_loop_inj m : forall q1 q2 i p pi d1 d2 u1 u2,
  derive_loop m i p pi d1 q1 = Some u1 -> derive_loop m i p pi d2 q2 = Some u2 ->
  length q1 = length q2 -> q1 <> [] ->
  i_dg (last u1 ident_zero) = i_dg (last u2 ident_zero) -> d1 = d2 /\ q1 = q2.
Proof.
  induction q1 as [|a q1 IHq]; intros q2 i p pi d1 d2 u1 u2 G1 G2 L NE D; [congruence|].
  destruct q2 as [|b q2]; [discriminate|]. cbn in G1, G2.
  destruct (tag_is_zero (r_id a) || negb (r_epoch a =? m_e m) || (r_ts a =? 0)); [discriminate|].
  destruct (tag_is_zero (r_id b) || negb (r_epoch b =? m_e m) || (r_ts b =? 0)); [discriminate|].
  destruct (derive_loop m (i + 1) (m_t m) i _ q1) as [v1|] eqn:F1; [|discriminate].
  destruct (derive_loop m (i + 1) (m_t m) i _ q2) as [v2|] eqn:F2; [|discriminate].
  inversion G1; subst u1. inversion G2; subst u2. cbn [length] in L. injection L as L.
  destruct q1 as [|a' q1'].
  - destruct q2; [|discriminate]. cbn in F1, F2. inversion F1; inversion F2; subst.
    cbn in D. inversion D. auto.
  - destruct q2 as [|b' q2']; [discriminate|].
    pose proof (derive_loop_length _ _ _ _ _ _ _ F1) as L1.
    pose proof (derive_loop_length _ _ _ _ _ _ _ F2) as L2.
    destruct v1 as [|y1 v1]; [discriminate|]. destruct v2 as [|y2 v2]; [discriminate|].
    cbn [last] in D.
    assert (NE2 : a' :: q1' <> []) by discriminate.
    destruct (IHq _ _ _ _ _ _ _ _ F1 F2 L NE2 D) as [Hdd Hqq].
    inversion Hdd. subst. rewrite Hqq. auto.
Qed.

Lemma set_m_dg_fields m d :
  m_e (set_m_dg m d) = m_e m /\ m_t (set_m_dg m d) = m_t m /\ m_f (set_m_dg m d) = m_f m /\
  m_cmd (set_m_dg m d) = m_cmd m /\ m_base (set_m_dg m d) = m_base m /\ m_last (set_m_dg m d) = m_last m /\
  m_pt (set_m_dg m d) = m_pt m /\ m_pidx (set_m_dg m d) = m_pidx m /\ m_pd (set_m_dg m d) = m_pd m /\
  m_dg (set_m_dg m d) = d.
Proof. repeat split. Qed.

Lemma derive_loop_ext m m' : m_e m = m_e m' -> m_t m = m_t m' -> m_f m = m_f m' -> m_cmd m = m_cmd m' ->
  forall recs idx pt pidx pd, derive_loop m idx pt pidx pd recs = derive_loop m' idx pt pidx pd recs.
Proof.
  intros He Ht Hf Hc. induction recs as [|r rest IH]; intros idx pt pidx pd; cbn; [reflexivity|].
  rewrite He, Ht, Hf, Hc. rewrite IH. reflexivity.
Qed.

Lemma DeriveProposalEntries_loop m recs es :
  DeriveProposalEntries m recs = Some es ->
  derive_loop m (m_base m + 1) (m_pt m) (m_base m) (m_pd m) recs = Some es /\
  recs <> [] /\ m_last m = m_base m + lenN recs.
Proof.
  unfold DeriveProposalEntries. destruct (_ || _ || _ || _ || _ || _ || _) eqn:C; [discriminate|].
  destruct (if m_base m =? 0 then _ else _); [discriminate|].
  replace (m_pidx m) with (m_base m) by lia. intro H. split; [exact H|].
  split; [intros -> | lia]. discriminate.
Qed.

(* sameProposalContent: resealing other records under a sealed manifest reproduces the
   manifest only if the records are the same *)
Lemma seal_same_manifest_same_records m recs1 recs2 m1 es1 es2 :
  SealProposalManifest m recs1 = Some (m1, es1) -> SealProposalManifest m recs2 = Some (m1, es2) ->
  length recs1 = length recs2 -> recs1 = recs2.
Proof.
  unfold SealProposalManifest. intros H1 H2 Hlen.
  destruct (DeriveProposalEntries (set_m_dg m D0) recs1) as [e1|] eqn:E1; [|discriminate].
  destruct (DeriveProposalEntries (set_m_dg m D0) recs2) as [e2|] eqn:E2; [|discriminate].
  injection H1 as Hm1 _. injection H2 as Hm2 _. rewrite <- Hm1 in Hm2. apply (f_equal m_dg) in Hm2. cbn in Hm2.
  apply DeriveProposalEntries_loop in E1, E2. destruct E1 as (L1 & NE & _), E2 as (L2 & _).
  exact (proj2 (derive_loop_inj _ _ _ _ _ _ _ _ _ _ L1 L2 Hlen NE (eq_sym Hm2))).
Qed.

Lemma ent_at_nth rp idx e : ent_at rp idx = Some e ->
  idx <> 0 /\ exists r, nth_error (rp_log rp) (N.to_nat (idx - 1)) = Some (e, r).
Proof.
  unfold ent_at, log_at. destruct (idx =? 0) eqn:E; [discriminate|].
  destruct (nth_error (rp_log rp) (N.to_nat (idx - 1))) as [[e0 r]|] eqn:En; [|discriminate].
  cbn. intro H. inversion H; subst. split; [lia | eauto].
Qed.

Lemma ent_at_Some_le rp idx e : ent_at rp idx = Some e -> 0 < idx <= rp_leo rp.
Proof.
  intro H. apply ent_at_nth in H. destruct H as (H0 & r & Hn). unfold rp_leo, lenN.
  assert (N.to_nat (idx - 1) < length (rp_log rp))%nat by (apply nth_error_Some; congruence). lia.
Qed.

Lemma ent_at_app rp rp' ext idx :
  rp_log rp' = rp_log rp ++ ext -> idx <= rp_leo rp -> ent_at rp' idx = ent_at rp idx.
Proof.
  intros Hlog Hle. unfold ent_at, log_at. rewrite Hlog. destruct (idx =? 0) eqn:E; [reflexivity|].
  rewrite nth_error_app1; [reflexivity|]. unfold rp_leo, lenN in Hle. lia.
Qed.

Lemma appended_ent_at rp rp' m recs es k e :
  DeriveProposalEntries m recs = Some es -> rp_leo rp = m_base m ->
  rp_log rp' = rp_log rp ++ combine es recs -> nth_error es k = Some e ->
  i_idx e = m_base m + 1 + N.of_nat k /\ ent_at rp' (i_idx e) = Some e.
Proof.
  intros Hd Hleo Hlog Hk. apply DeriveProposalEntries_loop in Hd. destruct Hd as (Hd & _).
  destruct (derive_loop_entries _ _ _ _ _ _ _ Hd k e Hk) as (Hidx & _).
  destruct (combine_nth_error es recs k e (derive_loop_length _ _ _ _ _ _ _ Hd) Hk) as [r Hc].
  split; [exact Hidx|]. unfold ent_at, log_at. rewrite Hidx, Hlog.
  replace (m_base m + 1 + N.of_nat k =? 0) with false by lia.
  replace (N.to_nat (m_base m + 1 + N.of_nat k - 1)) with (length (rp_log rp) + k)%nat
    by (unfold rp_leo, lenN in Hleo; lia).
  rewrite nth_error_app2 by lia.
  replace (length (rp_log rp) + k - length (rp_log rp))%nat with k by lia. rewrite Hc. reflexivity.
Qed.

Lemma by_last_set_last l k m k' : by_last (set_last l k m) k' = if k' =? k then Some m else by_last l k'.
Proof.
  unfold set_last. cbn. destruct (k' =? k) eqn:E; [reflexivity|].
  induction l as [|[k0 m0] l IH]; cbn; [reflexivity|].
  destruct (N.eqb_spec k0 k) as [-> | _]; cbn; rewrite IH; [rewrite E|]; reflexivity.
Qed.

(* what one Sync can do to a replica, for both store back ends:
   Durable     the log end was exactly the proposal's base and the derived entries / rows were
               appended, both proposal indexes now bind the manifest;
   Already     log and indexes are untouched (only the committed watermark may rise);
   otherwise   the replica is unchanged. *)
Definition sync_effect (rp : replica) (mu : mutation) (rp' : replica) (o : outcome) : Prop :=
  match o with
  | ODurable =>
      rp_leo rp = m_base (mu_manifest mu) /\
      exists es, DeriveProposalEntries (mu_manifest mu) (mu_records mu) = Some es /\
                 rp_log rp' = rp_log rp ++ combine es (mu_records mu) /\
                 rp_bycmd rp' = set_cmd (rp_bycmd rp) (m_cmd (mu_manifest mu)) (mu_manifest mu) /\
                 rp_bylast rp' = set_last (rp_bylast rp) (m_last (mu_manifest mu)) (mu_manifest mu)
  | OAlready =>
      rp_log rp' = rp_log rp /\ rp_bycmd rp' = rp_bycmd rp /\ rp_bylast rp' = rp_bylast rp /\
      by_cmd (rp_bycmd rp) (m_cmd (mu_manifest mu)) = Some (mu_manifest mu)
  | _ => rp' = rp
  end.

(* what every store has checked of a proposal before it writes it: the manifest is valid for the
   records and their entry chain [es] ends in the manifest's digest *)
Definition derives (m : manifest) (recs : list record) (es : list ident) : Prop :=
  ValidFor m (m_base m) (lenN recs) = true /\ DeriveProposalEntries m recs = Some es /\
  digest_eqb (i_dg (last_ident es)) (m_dg m) = true.

(* an AlreadyDurable answer: the command index binds this very manifest and every
   derived entry is stored, identical, at its index *)
Definition already (rp : replica) (m : manifest) (recs : list record) : Prop :=
  by_cmd (rp_bycmd rp) (m_cmd m) = Some m /\ m_last m <= rp_leo rp /\
  exists es, DeriveProposalEntries m recs = Some es /\ entries_persisted rp es = true.

Lemma ValidFor_last m base count : ValidFor m base count = true -> m_base m = base /\ m_last m = base + count /\ 0 < count.
Proof. unfold ValidFor. rewrite !andb_true_iff. lia. Qed.

Lemma set_hw_fields rp hw :
  rp_log (set_hw rp hw) = rp_log rp /\ rp_bycmd (set_hw rp hw) = rp_bycmd rp /\
  rp_bylast (set_hw rp hw) = rp_bylast rp /\ rp_hw (set_hw rp hw) = hw.
Proof. repeat split. Qed.

(* an exit that leaves the replica alone *)
Ltac unchanged := intros [= <- <- <-]; reflexivity.

Lemma appendLeaderExactLocked_cases rp m recs rp' o nf :
  appendLeaderExactLocked rp m recs = (rp', o, nf) ->
  match o with
  | ODurable => exists es, rp' = put_proposal rp m es recs /\ derives m recs es /\ rp_leo rp = m_base m /\
                  by_cmd (rp_bycmd rp) (m_cmd m) = None /\
                  (m_base m = 0 \/ exists p, by_last (rp_bylast rp) (m_base m) = Some p /\
                                             m_t p = m_pt m /\ m_dg p = m_pd m)
  | OAlready => rp' = rp /\ already rp m recs
  | _ => rp' = rp
  end.
Proof.
  unfold appendLeaderExactLocked. cbv zeta.
  destruct (ValidFor m (m_base m) (lenN recs)) eqn:Hv; cbn [negb]; [|unchanged].
  destruct (DeriveProposalEntries m recs) as [es|] eqn:Hd; [|unchanged].
  destruct (digest_eqb (i_dg (last_ident es)) (m_dg m)) eqn:Hdg; cbn [negb]; [|unchanged].
  destruct (rp_leo rp <? m_base m) eqn:Hlt; [unchanged|].
  destruct ((0 <? m_base m) && negb _) eqn:Hp; [unchanged|].
  destruct (by_cmd (rp_bycmd rp) (m_cmd m)) as [bc|] eqn:Hbc, (by_last (rp_bylast rp) (m_last m)) as [bl|];
    try unchanged.
  - destruct (manifest_eqb bc m && manifest_eqb bl m && (m_last m <=? rp_leo rp) && entries_persisted rp es) eqn:Ha;
      [|unchanged].
    intros [= <- <- <-]. rewrite !andb_true_iff, manifest_eqb_eq in Ha. destruct Ha as [[[-> _] Hl] Hp'].
    split; [reflexivity|]. split; [exact Hbc|]. split; [lia | eauto].
  - destruct (negb (entries_absent rp es)); [unchanged|].
    destruct (_ || _ && _) eqn:Hmid; [unchanged|].
    destruct (m_last m <=? rp_leo rp) eqn:Hend; [unchanged|].
    intros [= <- <- <-]. exists es. split; [reflexivity|]. split; [repeat split; assumption|].
    split; [lia|]. split; [reflexivity|].
    destruct (by_last (rp_bylast rp) (m_base m)) as [p|]; [|left; lia].
    destruct (0 <? m_base m) eqn:Hb; [|left; lia]. right. exists p. split; [reflexivity|].
    apply negb_false_iff, andb_true_iff in Hp. rewrite digest_eqb_eq in Hp. split; [lia | apply Hp].
Qed.

Lemma prepareExactAppendRecordsLocked_cases rp mu rp' o nf :
  prepareExactAppendRecordsLocked rp mu = (rp', o, nf) ->
  let m := mu_manifest mu in
  match o with
  | ODurable => exists es, rp' = set_hw (put_proposal rp m es (mu_records mu)) (N.max (rp_hw rp) (mu_committed mu)) /\
                  derives m (mu_records mu) es /\ rp_leo rp = m_base m /\ mu_committed mu <= m_last m /\
                  validateDurableProposalPredecessor rp m = true /\
                  (by_cmd (rp_bycmd rp) (m_cmd m) = None \/ mu_sa mu = true)
  | OAlready => rp' = set_hw rp (N.max (rp_hw rp) (mu_committed mu)) /\ mu_committed mu <= rp_leo rp /\
                already rp m (mu_records mu)
  | _ => rp' = rp
  end.
Proof.
  unfold prepareExactAppendRecordsLocked. cbv zeta.
  set (m := mu_manifest mu). set (recs := mu_records mu).
  destruct (rp_leo rp <? m_base m) eqn:Hlt; [unchanged|].
  destruct (ValidFor m (m_base m) (lenN recs)) eqn:Hv; cbn [negb]; [|unchanged].
  destruct (ValidFor_last _ _ _ Hv) as (_ & Hlast & _). rewrite <- Hlast.
  destruct (DeriveProposalEntries m recs) as [es|] eqn:Hd; [|unchanged].
  destruct (digest_eqb (i_dg (last_ident es)) (m_dg m)) eqn:Hdg; cbn [negb]; [|unchanged].
  destruct (validateDurableProposalPredecessor rp m) eqn:Hpred; cbn [negb]; [|unchanged].
  destruct (mu_sa mu && (m_base m =? rp_leo rp)) eqn:Hfresh.
  - (* sequencedFresh: the indexes are not consulted *)
    cbn [negb]. destruct (m_last m <? mu_committed mu) eqn:Hc; [unchanged|].
    destruct (negb (mu_committed mu =? 0) && _); [unchanged|].
    destruct (_ || _ && _); [unchanged|].
    destruct (m_last m <=? rp_leo rp); [unchanged|].
    destruct (negb (validateRowsForAppend rp (negb (mu_sa mu)) (m_base m + 1) [] recs)); [unchanged|].
    intros [= <- <- <-]. exists es. split; [reflexivity|]. apply andb_true_iff in Hfresh.
    split; [repeat split; assumption|]. split; [lia|]. split; [lia|]. split; [reflexivity | right; tauto].
  - destruct (by_cmd (rp_bycmd rp) (m_cmd m)) as [bc|] eqn:Hbc, (by_last (rp_bylast rp) (m_last m)) as [bl|];
      try unchanged.
    + destruct (manifest_eqb bc m && manifest_eqb bl m && entries_persisted rp es) eqn:Ha; cbn [negb]; [|unchanged].
      destruct (m_last m <? mu_committed mu) eqn:Hc; [unchanged|].
      destruct (negb (mu_committed mu =? 0) && _); [unchanged|].
      destruct (rp_leo rp <? m_last m) eqn:Hend; [unchanged|].
      intros [= <- <- <-]. rewrite !andb_true_iff, manifest_eqb_eq in Ha. destruct Ha as [[-> _] Hp'].
      split; [reflexivity|]. split; [lia|]. split; [exact Hbc|]. split; [lia | eauto].
    + destruct (entries_absent rp es); cbn [negb]; [|unchanged].
      destruct (m_last m <? mu_committed mu) eqn:Hc; [unchanged|].
      destruct (negb (mu_committed mu =? 0) && _); [unchanged|].
      destruct (_ || _ && _) eqn:Hmid; [unchanged|].
      destruct (m_last m <=? rp_leo rp) eqn:Hend; [unchanged|].
      destruct (negb (validateRowsForAppend rp (negb (mu_sa mu)) (m_base m + 1) [] recs)); [unchanged|].
      intros [= <- <- <-]. exists es. split; [reflexivity|].
      split; [repeat split; assumption|]. split; [lia|]. split; [lia|]. split; [reflexivity | left; reflexivity].
Qed.

(* ReplicaStore.Sync of one mutation, both back ends: the memory store raises the watermark after
   the append, the Pebble store with it; the predecessor check differs and is kept per store *)
Lemma sync_cases k rp mu rp' o nf :
  sync k rp mu = (rp', o, nf) ->
  let m := mu_manifest mu in let hw := N.max (rp_hw rp) (mu_committed mu) in
  match o with
  | ODurable => exists es, rp' = set_hw (put_proposal rp m es (mu_records mu)) hw /\
                  derives m (mu_records mu) es /\ rp_leo rp = m_base m /\ mu_committed mu <= m_last m /\
                  match k with
                  | SMem => m_base m = 0 \/ exists p, by_last (rp_bylast rp) (m_base m) = Some p /\
                                                      m_t p = m_pt m /\ m_dg p = m_pd m
                  | SPebble => validateDurableProposalPredecessor rp m = true
                  end /\
                  (by_cmd (rp_bycmd rp) (m_cmd m) = None \/ k = SPebble /\ mu_sa mu = true)
  | OAlready => rp' = set_hw rp hw /\ mu_committed mu <= rp_leo rp /\ already rp m (mu_records mu)
  | _ => rp' = rp
  end.
Proof.
  unfold sync. destruct (validMutation mu) eqn:Hvm; cbn [negb]; [|unchanged].
  destruct k.
  2:{ (* Pebble: its own case lemma; the command index is skipped only on the fast path *)
      intro H. apply prepareExactAppendRecordsLocked_cases in H. destruct o; try exact H.
      destruct H as (es & Hrp & Hd & Hleo & Hcm & Hpred & [Hbc | Hsa]); exists es; auto 10. }
  assert (Hcm : mu_committed mu <= m_last (mu_manifest mu)).
  { unfold validMutation in Hvm. rewrite !andb_true_iff in Hvm. lia. }
  assert (Hmax : forall r, (if rp_hw r <? mu_committed mu then set_hw r (mu_committed mu) else r) =
                           set_hw r (N.max (rp_hw r) (mu_committed mu))).
  { intro r. destruct (N.ltb_spec (rp_hw r) (mu_committed mu)); [rewrite N.max_r by lia | rewrite N.max_l by lia; destruct r]; reflexivity. }
  destruct (appendLeaderExactLocked rp (mu_manifest mu) (mu_records mu)) as [[rp1 o1] nf1] eqn:E.
  apply appendLeaderExactLocked_cases in E.
  destruct o1; cbn [outcome_durable]; intros [= <- <- <-]; try exact E; rewrite Hmax.
  - destruct E as (es & -> & Hd & Hleo & Hbc & Hp). exists es. cbn [rp_hw put_proposal]. auto 7.
  - destruct E as (-> & Hbc & Hl & He). split; [reflexivity|]. split; [lia|]. split; auto.
Qed.

Lemma sync_effect_holds k rp mu rp' o nf :
  sync k rp mu = (rp', o, nf) -> sync_effect rp mu rp' o.
Proof.
  intro H. apply sync_cases in H. destruct o; try exact H; cbn.
  - destruct H as (es & -> & (_ & Hd & _) & Hleo & _). split; [exact Hleo|]. exists es. auto.
  - destruct H as (-> & _ & Hbc & _). auto.
Qed.

Lemma sync_not_durable_unchanged k rp mu rp' o nf :
  sync k rp mu = (rp', o, nf) -> outcome_durable o = false -> rp' = rp.
Proof.
  intros H Hd. apply sync_effect_holds in H. destruct o; try discriminate; exact H.
Qed.

Lemma sync_log_prefix k rp mu rp' o nf :
  sync k rp mu = (rp', o, nf) -> exists ext, rp_log rp' = rp_log rp ++ ext.
Proof.
  intro H. apply sync_effect_holds in H.
  destruct o; cbn in H; try (subst; exists []; symmetry; apply app_nil_r).
  - destruct H as (_ & es & _ & Hl & _). eexists. exact Hl.
  - destruct H as (Hl & _). exists []. rewrite app_nil_r. exact Hl.
Qed.

(* a guard that must have been passed for the function to succeed *)
Ltac passed := match goal with |- (if ?c then _ else _) = _ -> _ => destruct c; [discriminate|] end.

Definition stage (a : replica) (s : manifest * list ident * list record) : replica :=
  let '(m, es, recs) := s in put_proposal a m es recs.

(* what the Pebble store has checked of each proposal it stages: it starts at the running base, names
   [previous] as its predecessor, and its entry chain ends in the manifest's digest *)
Lemma replace_prepare_pebble_cons rp keep m recs rest base previous sc sl sr staged final :
  replace_prepare_pebble rp keep ((m, recs) :: rest) base previous sc sl sr = Some (staged, final) ->
  exists es sr' staged',
    staged = (m, es, recs) :: staged' /\ m_base m = base /\ derives m recs es /\
    m_pt m = i_t previous /\ m_pd m = i_dg previous /\
    replace_prepare_pebble rp keep rest (m_last m) (last_ident es) (m_cmd m :: sc) (m_last m :: sl) sr' =
      Some (staged', final).
Proof.
  cbn [replace_prepare_pebble].
  destruct (ValidFor m base (lenN recs)) eqn:Hv; cbn [negb]; [|discriminate].
  destruct (_ || _ || negb (digest_eqb (m_pd m) (i_dg previous))) eqn:Hlink; [discriminate|].
  do 3 passed.
  destruct (DeriveProposalEntries m recs) as [es|] eqn:Hd; [|discriminate].
  destruct (digest_eqb (i_dg (last_ident es)) (m_dg m)) eqn:Hdg; cbn [negb]; [|discriminate].
  match goal with |- match ?rows with Some _ => _ | None => None end = _ -> _ => destruct rows as [sr'|] end;
    [|discriminate].
  destruct (replace_prepare_pebble rp keep rest _ _ _ _ sr') as [[staged' final']|] eqn:Hrest; [|discriminate].
  intros [= <- <-]. exists es, sr', staged'. destruct (ValidFor_last _ _ _ Hv) as [<- _].
  rewrite !orb_false_iff, !negb_false_iff, digest_eqb_eq in Hlink. repeat split; try tauto. lia.
Qed.

Lemma stageTruncateDurableProposals_cut rp keep cut :
  stageTruncateDurableProposals rp keep = Some cut ->
  exists bc, cut = Replica (firstn (N.to_nat keep) (rp_log rp)) bc
                           (filter (fun p => fst p <=? keep) (rp_bylast rp)) (rp_hw rp).
Proof. unfold stageTruncateDurableProposals. do 3 passed. intros [= <-]. eexists. reflexivity. Qed.

Lemma replace_cases k rp q rp' lo :
  replace k rp q = inr (rp', lo) ->
  let keep := rq_keep q in
  rp_hw rp <= keep <= rp_leo rp /\ rp_hw rp <= rq_committed q <= lo /\
  exists rp1, rp' = set_hw rp1 (rq_committed q) /\
    match k with
    | SMem => replace_append_mem (truncate_to rp keep) (rq_proposals q) keep = inr (rp1, lo)
    | SPebble => exists pv staged cut,
        (if keep =? 0 then pv = ident_zero else ent_at rp keep = Some pv) /\
        replace_prepare_pebble rp keep (rq_proposals q) keep pv [] [] [] = Some (staged, lo) /\
        stageTruncateDurableProposals rp keep = Some cut /\ rp1 = fold_left stage staged cut
    end.
Proof.
  unfold replace. cbv zeta. passed.
  destruct (loadExactState k rp) as [current|]; [|discriminate].
  destruct (_ || _ || _ || _) eqn:Hg; [discriminate|]. destruct k; passed.
  - destruct (replace_append_mem _ _ _) as [e | [rp1 base]]; [discriminate|].
    destruct (base <? rq_committed q) eqn:Hb; intros [= <- <-]. split; [lia|]. split; [lia|]. eauto.
  - destruct (if 0 <? rq_keep q then _ else _) as [pv|] eqn:Epv; [|discriminate].
    destruct (replace_prepare_pebble _ _ _ _ _ _ _ _) as [[staged final]|] eqn:Eprep; [|discriminate].
    destruct (final <? rq_committed q) eqn:Hb; [discriminate|].
    destruct (stageTruncateDurableProposals rp (rq_keep q)) as [cut|]; [|discriminate].
    intros [= <- <-]. split; [lia|]. split; [lia|]. eexists. split; [reflexivity|].
    exists pv, staged, cut. split; [|auto].
    destruct (N.eqb_spec (rq_keep q) 0) as [E | E].
    + rewrite E in Epv. injection Epv as <-. reflexivity.
    + replace (0 <? rq_keep q) with true in Epv by lia. exact Epv.
Qed.
