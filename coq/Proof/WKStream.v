(* Proof/WKStream.v — C23: DecodeFrame is determined by the prefix it consumes,
   reports no progress on an incomplete frame, never panics on non-empty input. *)
From WK Require Import Base.Base Base.Bytes Gen.Consts_C22 Model.WKProto Model.WKStream.
From WK Require Import Proof.WKProto Proof.WKProto_types Proof.WKProto_frame.
From Coq Require Import ZifyBool ZifyN ZifyNat.
Open Scope N_scope.

(* decodeLength looks only at the bytes it counts *)
Lemma decodeLength_aux_prefix : forall k data mult off acc rl rll,
  decodeLength_aux k data mult off acc = Some (rl, rll) ->
  off + 1 <= rll /\
  forall j x, (N.to_nat (rll - off) <= j)%nat ->
    decodeLength_aux k (firstn j data ++ x) mult off acc = Some (rl, rll).
Proof.
  induction k as [|k IH]; intros data mult off acc rl rll H; cbn [decodeLength_aux] in H.
  - injection H as <- <-. split; [lia|reflexivity].
  - destruct data as [|d r]; [discriminate|]. destruct (negb (cont_bit d)) eqn:C.
    + injection H as <- <-. split; [lia|]. intros [|j] x Hj; [lia|].
      cbn [firstn app decodeLength_aux]. rewrite C. reflexivity.
    + destruct (IH _ _ _ _ _ _ H) as [B P]. split; [lia|]. intros [|j] x Hj; [lia|].
      cbn [firstn app decodeLength_aux]. rewrite C. apply P. lia.
Qed.

Lemma decodeLength_prefix data rl rll : decodeLength data = Some (rl, rll) ->
  1 <= rll /\ forall j x, (N.to_nat rll <= j)%nat -> decodeLength (firstn j data ++ x) = Some (rl, rll).
Proof.
  intro H. destruct (decodeLength_aux_prefix 4 data 0 0 0 rl rll H) as [B P].
  split; [lia|]. intros j x Hj. apply P. lia.
Qed.

(* the body slice [b, b+a) of l survives cutting l after b+a and appending anything *)
Lemma body_slice_prefix (l x : bytes) (a b : nat) : (b + a <= length l)%nat ->
  firstn a (skipn b (firstn (b + a) l ++ x)) = firstn a (skipn b l).
Proof.
  intro H. rewrite skipn_app, firstn_app, skipn_firstn_comm, firstn_firstn, firstn_length, skipn_length.
  rewrite firstn_length_le by exact H.
  replace (b + a - b)%nat with a by lia. replace (a - Nat.min a (length l - b))%nat with 0%nat by lia.
  rewrite Nat.min_id. apply app_nil_r.
Qed.

Definition with_fsize (m : meta) (s : N) : meta := Meta (m_type m) (m_remlen m) s (m_end m).

Lemma DecodeFrame_prefix bs v f m n : DecodeFrame bs v = DFrame f m n ->
  1 <= n /\ n <= blen bs /\
  forall x, DecodeFrame (firstn (N.to_nat n) bs ++ x) v = DFrame f (with_fsize m (n + blen x)) n.
Proof.
  (* along DecodeFrame_pingpong / DecodeFrame_body: every test looks only at the first 1 + rll + rl
     bytes ([decodeLength_prefix] for the varint, [body_slice_prefix] for the body); only the
     FrameSize bookkeeping sees the rest, hence [with_fsize] *)
  destruct bs as [|b rest]; [discriminate|]. rewrite blen_cons.
  destruct (FramerFromUint8 b) as [ft fl] eqn:FB. destruct ((ft =? PING) || (ft =? PONG)) eqn:PP.
  - rewrite (DecodeFrame_pingpong b rest v ft fl FB PP). intro H. injection H as <- <- <-.
    split; [lia|split; [lia|]]. intro x. change (N.to_nat 1) with 1%nat. cbn [firstn app].
    apply (DecodeFrame_pingpong b x v ft fl FB PP).
  - rewrite (DecodeFrame_body b rest v ft fl FB PP).
    destruct (decodeLength rest) as [[rl rll]|] eqn:DL; [|discriminate].
    destruct (ft =? UNKNOWN) eqn:U; [discriminate|].
    destruct (MaxRemaingLength <? rl) eqn:MX; [discriminate|].
    destruct (1 + blen rest <? rl + 1 + rll) eqn:LN; [discriminate|].
    destruct (packetDecodeMap ft) as [dec|] eqn:PD; [|discriminate].
    destruct (dec fl _ v) as [f0|] eqn:DB; [|discriminate].
    intro H. replace f with f0 by congruence. replace m with (Meta ft rl (1 + blen rest) false) by congruence.
    replace n with (1 + rll + rl) by congruence. clear H.
    destruct (decodeLength_prefix rest rl rll DL) as [R1 RP].
    split; [lia|]. split; [lia|]. intro x.
    assert (Ln : (N.to_nat rll + N.to_nat rl <= length rest)%nat) by (unfold blen in LN; lia).
    replace (N.to_nat (1 + rll + rl)) with (S (N.to_nat rll + N.to_nat rl)) by lia. cbn [firstn app].
    rewrite (DecodeFrame_body b _ v ft fl FB PP), (RP _ x), U, MX, PD by lia.
    rewrite blen_app. replace (blen (firstn _ rest)) with (rll + rl) by (unfold blen; rewrite firstn_length_le; lia).
    replace (1 + (rll + rl + blen x)) with (1 + rll + rl + blen x) by lia.
    replace (1 + rll + rl + blen x <? rl + 1 + rll) with false by lia.
    rewrite body_slice_prefix, DB by exact Ln. reflexivity.
Qed.

(* DecodeFrame panics only on empty input: behind a first byte every exit is a frame,
   "need more data" or an error *)
Lemma DecodeFrame_no_panic b rest v : DecodeFrame (b :: rest) v <> DPanic.
Proof.
  destruct (FramerFromUint8 b) as [ft fl] eqn:FB. destruct ((ft =? PING) || (ft =? PONG)) eqn:PP.
  - rewrite (DecodeFrame_pingpong b rest v ft fl FB PP). discriminate.
  - rewrite (DecodeFrame_body b rest v ft fl FB PP).
    destruct (decodeLength rest) as [[rl rll]|]; [|discriminate].
    destruct (ft =? UNKNOWN); [discriminate|]. destruct (MaxRemaingLength <? rl); [discriminate|].
    destruct (_ <? _); [discriminate|]. destruct (packetDecodeMap ft) as [dec|]; [|discriminate].
    destruct (dec fl _ v); discriminate.
Qed.

Lemma DecodeFrame_incomplete v f p q : within_limits v f = true ->
  p ++ q = frame_bytes f v -> p <> [] -> q <> [] -> DecodeFrame p v = DNeed.
Proof.
  intros H E Pn Qn. unfold frame_bytes in E.
  destruct p as [|h p]; [contradiction|]. destruct (is_pingpong f) eqn:NP; injection E as -> E.
  - (* one byte: no non-empty strict prefix *)
    apply app_eq_nil in E. destruct E as [_ E]. contradiction.
  - destruct (body_bounds v f H NP) as [B1 B2]. set (body := body_bytes f v) in *.
    assert (Bq : 0 < blen q) by (destruct q; [contradiction|rewrite blen_cons; lia]).
    (* the length is complete, the body is not *)
    assert (Short : forall l, body = l ++ q ->
              DecodeFrame (ToFixHeaderUint8 f :: encodeVariable2 (blen body) ++ l) v = DNeed).
    { intros l Eb. apply (f_equal blen) in Eb. rewrite blen_app in Eb.
      rewrite (DecodeFrame_after_header f _ v NP), decodeLength_enc by (unfold MaxRemaingLength in *; lia).
      replace (MaxRemaingLength <? blen body) with false by lia. rewrite blen_app.
      match goal with |- context [?a <? ?b] => replace (a <? b) with true by lia end. reflexivity. }
    destruct (app_eq_app _ _ _ _ E) as [l [[-> Eb]|[Ea Eb]]]; [exact (Short l Eb)|destruct l as [|x l]].
    + rewrite app_nil_r in Ea. subst p. rewrite <- (app_nil_r (encodeVariable2 _)). exact (Short [] (eq_sym Eb)).
    + (* the length itself is incomplete *)
      rewrite (DecodeFrame_after_header f p v NP), (decodeLength_cut (blen body) p (x :: l));
        [reflexivity|lia|unfold MaxRemaingLength in *; lia|auto|discriminate].
Qed.
