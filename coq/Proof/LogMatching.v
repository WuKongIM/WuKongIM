(* Proof/LogMatching.v — entry digests are the structural hash of the entry's own fields, row and
   predecessor digest; hence two well-formed logs that hold the same identity at some index hold
   the same identities (and rows) at every smaller index ("log matching"). *)
From WK Require Import Base.Base Base.Lists.
From WK Require Import Model.ReplicaLog Proof.ReplicaLog Proof.ReplicaLog_WF.
From Coq Require Import ZifyBool ZifyN.
Open Scope N_scope.

Definition ent_digest_ok (x : ident * record) : Prop :=
  let e := fst x in
  i_dg e = DH (i_e e) (i_t e) (i_f e) (i_idx e) (i_pt e) (i_pidx e) (i_cmd e) (i_pd e) (snd x).

Definition digests_ok (rp : replica) : Prop := Forall ent_digest_ok (rp_log rp).

Lemma derive_loop_digests m : forall recs idx pt pidx pd es,
  derive_loop m idx pt pidx pd recs = Some es -> Forall ent_digest_ok (combine es recs).
Proof.
  induction recs as [|r rest IH]; intros idx pt pidx pd es H; cbn in H.
  - inversion H; subst. constructor.
  - destruct (tag_is_zero (r_id r) || negb (r_epoch r =? m_e m) || (r_ts r =? 0)); [discriminate|].
    destruct (derive_loop m (idx + 1) (m_t m) idx _ rest) as [es'|] eqn:E; [|discriminate].
    inversion H; subst. cbn. constructor; [reflexivity | eapply IH; eauto].
Qed.

Lemma Derive_digests m recs es : DeriveProposalEntries m recs = Some es -> Forall ent_digest_ok (combine es recs).
Proof. intro H. apply DeriveProposalEntries_loop in H. eapply derive_loop_digests, H. Qed.

Lemma put_proposal_digests rp m recs es :
  digests_ok rp -> derives m recs es -> digests_ok (put_proposal rp m es recs).
Proof. intros Hd (_ & He & _). apply Forall_app. split; [exact Hd | eapply Derive_digests; eauto]. Qed.

Lemma sync_digests k rp mu rp' o nf : digests_ok rp -> sync k rp mu = (rp', o, nf) -> digests_ok rp'.
Proof.
  intros Hd H. apply sync_cases in H. destruct o; try (subst rp'; exact Hd).
  - destruct H as (es & -> & He & _). apply (put_proposal_digests rp _ _ es Hd He).
  - destruct H as (-> & _). exact Hd.
Qed.

Lemma storeCheckpoint_digests rp w : digests_ok rp -> digests_ok (storeCheckpoint rp w).
Proof. unfold digests_ok, storeCheckpoint. destruct (rp_hw rp <? w); auto. Qed.

Lemma replace_append_mem_digests : forall ps rp base rp' final,
  digests_ok rp -> replace_append_mem rp ps base = inr (rp', final) -> digests_ok rp'.
Proof.
  induction ps as [|[m recs] ps IH]; intros rp base rp' final Hd H; cbn in H; [injection H as <- _; exact Hd|].
  destruct (negb (m_base m =? base)); [discriminate|].
  destruct (appendLeaderExactLocked rp m recs) as [[rp1 o] nf] eqn:E. apply appendLeaderExactLocked_cases in E.
  destruct o; try discriminate; apply (IH _ _ _ _) in H; try exact H.
  - destruct E as (es & -> & He & _). apply put_proposal_digests; assumption.
  - destruct E as (-> & _). exact Hd.
Qed.

Lemma replace_prepare_pebble_digests : forall ps rp keep base previous sc sl sr staged final acc,
  replace_prepare_pebble rp keep ps base previous sc sl sr = Some (staged, final) -> digests_ok acc ->
  digests_ok (fold_left stage staged acc).
Proof.
  induction ps as [|[m recs] ps IH]; intros rp keep base previous sc sl sr staged final acc H Hd.
  - injection H as <- _. exact Hd.
  - apply replace_prepare_pebble_cons in H. destruct H as (es & sr' & staged' & -> & _ & He & _ & _ & Hrest).
    apply (IH _ _ _ _ _ _ _ _ _ _ Hrest). apply put_proposal_digests; assumption.
Qed.

Lemma replace_digests k rp q rp' lo : digests_ok rp -> replace k rp q = inr (rp', lo) -> digests_ok rp'.
Proof.
  intros Hd H. apply replace_cases in H. destruct H as (_ & _ & rp1 & -> & H).
  assert (Hcut : forall bc bl hw, digests_ok (Replica (firstn (N.to_nat (rq_keep q)) (rp_log rp)) bc bl hw))
    by (intros; apply Forall_firstn; exact Hd).
  destruct k.
  - exact (replace_append_mem_digests _ _ _ _ _ (Hcut _ _ _) H).
  - destruct H as (pv & staged & cut & _ & Hprep & Hc & ->).
    apply stageTruncateDurableProposals_cut in Hc. destruct Hc as [bc ->].
    exact (replace_prepare_pebble_digests _ _ _ _ _ _ _ _ _ _ _ Hprep (Hcut _ _ _)).
Qed.

Lemma chain_raw_link : forall l idx pt pidx pd k e1 r1 e2 r2,
  chain_raw idx pt pidx pd l -> nth_error l k = Some (e1, r1) -> nth_error l (S k) = Some (e2, r2) ->
  i_pd e2 = i_dg e1.
Proof.
  induction l as [|[e0 r0] l IH]; intros idx pt pidx pd k e1 r1 e2 r2 H H1 H2; [destruct k; discriminate|].
  cbn in H. destruct H as (_ & _ & _ & _ & E). destruct k as [|k].
  - cbn in H1, H2. inversion H1; subst. destruct l as [|[e3 r3] l']; [discriminate|].
    cbn in H2. inversion H2; subst. cbn in E. tauto.
  - cbn in H1, H2. eapply IH; eauto.
Qed.

Lemma ent_digest_ok_inj (x y : ident * record) :
  ent_digest_ok x -> ent_digest_ok y -> i_dg (fst x) = i_dg (fst y) -> x = y.
Proof.
  destruct x as [[e1 t1 f1 i1 pt1 pi1 c1 pd1 dg1] r1], y as [[e2 t2 f2 i2 pt2 pi2 c2 pd2 dg2] r2].
  unfold ent_digest_ok. cbn. intros XA XB H.
  assert (E : DH e1 t1 f1 i1 pt1 pi1 c1 pd1 r1 = DH e2 t2 f2 i2 pt2 pi2 c2 pd2 r2) by congruence.
  inversion E. subst. reflexivity.
Qed.

(* two chains of structurally hashed entries with the same digest at position k hold the same entry there
   (the digest determines it), hence the same predecessor digest, hence the same digest at k - 1 *)
Lemma log_matching_nat : forall k (A B : list (ident * record)) xA xB,
  chain_raw 1 0 0 D0 A -> chain_raw 1 0 0 D0 B -> Forall ent_digest_ok A -> Forall ent_digest_ok B ->
  nth_error A k = Some xA -> nth_error B k = Some xB -> i_dg (fst xA) = i_dg (fst xB) ->
  forall j, (j <= k)%nat -> nth_error A j = nth_error B j.
Proof.
  induction k as [|k IH]; intros A B xA xB CA CB DA DB HA HB Hdg j Hj;
    assert (Hsame : xA = xB)
      by (apply ent_digest_ok_inj; [exact (proj1 (Forall_forall _ _) DA _ (nth_error_In _ _ HA))
                                   | exact (proj1 (Forall_forall _ _) DB _ (nth_error_In _ _ HB)) | exact Hdg]).
  - replace j with 0%nat by lia. rewrite HA, HB, Hsame. reflexivity.
  - destruct (Nat.eq_dec j (S k)) as [-> | Hne]; [rewrite HA, HB, Hsame; reflexivity|].
    destruct (nth_error A k) as [[pA qA]|] eqn:PA.
    2:{ apply nth_error_None in PA. assert (S k < length A)%nat by (apply nth_error_Some; congruence). lia. }
    destruct (nth_error B k) as [[pB qB]|] eqn:PB.
    2:{ apply nth_error_None in PB. assert (S k < length B)%nat by (apply nth_error_Some; congruence). lia. }
    destruct xA as [eA rA], xB as [eB rB].
    pose proof (chain_raw_link _ _ _ _ _ _ _ _ _ _ CA PA HA) as LA.
    pose proof (chain_raw_link _ _ _ _ _ _ _ _ _ _ CB PB HB) as LB.
    apply (IH A B (pA, qA) (pB, qB) CA CB DA DB PA PB); [|lia].
    cbn [fst]. rewrite <- LA, <- LB. inversion Hsame. reflexivity.
Qed.

Lemma log_matching (A B : replica) k e :
  WF A -> WF B -> digests_ok A -> digests_ok B ->
  ent_at A k = Some e -> ent_at B k = Some e ->
  forall idx, idx <= k -> ent_at A idx = ent_at B idx.
Proof.
  intros WA WB DA DB HA HB idx Hi.
  destruct (ent_at_nth _ _ _ HA) as (Hk & rA & NA). destruct (ent_at_nth _ _ _ HB) as (_ & rB & NB).
  unfold ent_at, log_at. destruct (idx =? 0) eqn:E0; [reflexivity|].
  rewrite (log_matching_nat (N.to_nat (k - 1)) _ _ (e, rA) (e, rB) (proj1 WA) (proj1 WB) DA DB NA NB eq_refl (N.to_nat (idx - 1))) by lia.
  reflexivity.
Qed.
