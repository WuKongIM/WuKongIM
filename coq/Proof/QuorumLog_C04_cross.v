(* Proof/QuorumLog_C04_cross.v — C04 across nodes: the empty-log witness (known finding C04-K1), a
   positive theorem (a durability round cannot succeed once more than N - Q voters hold another entry at
   the proposal's first index — e.g. the newer authority's quorum-durable barrier), bounded checks. *)
From WK Require Import Base.Base Base.Lists.
From WK Require Import Model.ReplicaLog Model.QuorumLog Model.Cluster Model.Monitor_C01 Model.Monitor_C04.
From WK Require Import Proof.ReplicaLog Proof.QuorumLog_Commit Proof.QuorumLog_C01 Proof.Cluster_Lift Proof.QuorumLog_C01_partial Proof.Sweep.
From Coq Require Import ZifyBool ZifyN.
Open Scope N_scope.

(* ---- the witness (corpus/C04/cross_node_empty_log.json) -------------------------------------------------------- *)

Definition x_cfg : qconfig := QCfg SMem 3 2 2 3 65536 0.
Definition x_r1 : record := Rec (TUser 7) 1 1 42 5 false 1.
Definition x_r2 : record := Rec (TUser 8) 1 2 43 5 false 1.
Definition x_r3 : record := Rec (TUser 9) 1 3 44 5 false 1.
(* authority (1,1,1) on node 1, the newer (1,2,2) on node 2 — both over an empty log, so no barrier is
   written — then the deposed leader 1 proposes: acknowledged; the new leader's first proposal conflicts *)
Definition x_ops : list qop :=
  [ OInstall 1 (1, 1, 1) false 2 no_faults;
    OInstall 2 (1, 2, 2) false 2 no_faults;
    OCommit 1 (1, 1, 1) (TUser 1) [x_r1] false no_faults;
    OCommit 2 (1, 2, 2) (TUser 2) [x_r2] false no_faults ].

Lemma cross_node_empty_log_receipt :
  fst (run_model x_cfg (cluster_init x_cfg) x_ops) =
    [ RInstalled (1, 1, 1) 0 0; RInstalled (1, 2, 2) 0 0; RReceipt (1, 1, 1) (TUser 1) 1 1 1; RErr EConflict ] /\
  C04_monitor (model_case x_cfg x_ops) = 2.
Proof. split; vm_compute; reflexivity. Qed.

Lemma holds_first_entry rp m recs es :
  DeriveProposalEntries m recs = Some es -> holds_proposal rp m recs = true ->
  exists e1, hd_error es = Some e1 /\ ent_at rp (m_base m + 1) = Some e1.
Proof.
  intros Hd Hh. unfold holds_proposal in Hh. rewrite Hd in Hh.
  destruct (DeriveProposalEntries_loop _ _ _ Hd) as (Hloop & Hne & _).
  destruct es as [|e1 es']; [apply derive_loop_length in Hloop; destruct recs; [congruence | discriminate]|].
  exists e1. split; [reflexivity|]. cbn in Hh. apply andb_true_iff in Hh. destruct Hh as [Hh _].
  destruct (derive_loop_entries _ _ _ _ _ _ _ Hloop 0%nat e1 eq_refl) as (Hi & _).
  rewrite Hi, N.add_0_r in Hh.
  destruct (ent_at rp (m_base m + 1)) as [x|]; [|discriminate]. apply ident_eqb_eq in Hh. subst. reflexivity.
Qed.

(* the positive cross-node statement, for ANY durability round (business proposal of a deposed leader in
   particular): if a set F of voters, more than N - wq of them, already hold at the proposal's first index
   an entry that is not the proposal's first entry, the round fails — no receipt *)
Lemma round_blocked_by_foreign_entries n local voters wq rot p es F n' res :
  NoDup voters -> DeriveProposalEntries (dp_manifest p) (dp_records p) = Some es ->
  NoDup F -> incl F (local :: round_followers voters local rot) ->
  (forall f, In f F -> exists x, ent_at (net_rep n f) (m_base (dp_manifest p) + 1) = Some x /\ hd_error es <> Some x) ->
  (length (local :: round_followers voters local rot) < length F + N.to_nat wq)%nat ->
  runDurableRound n local voters wq rot p = (n', res) -> rr_ok res = false.
Proof.
  intros Hnd Hd HF Hincl Hfor Hcount Hr. destruct (rr_ok res) eqn:Hok; [|reflexivity]. exfalso.
  destruct (runDurableRound_quorum _ _ _ _ _ _ _ _ Hnd Hr Hok) as (_ & S & S1 & S2 & S3).
  pose proof (Cluster_Lift.runDurableRound_ok log_extends log_extends_refl log_extends_trans log_extends_sync _ _ _ _ _ _ _ _ Hr) as [_ Kp].
  set (H := filter (holdsP p n') S).
  assert (HH : NoDup H) by (apply NoDup_filter; exact S1).
  assert (HHincl : incl H (local :: round_followers voters local rot)).
  { intros x Hx. apply filter_In in Hx. apply S2. tauto. }
  assert (Hdisj : forall x, In x H -> ~ In x F).
  { intros x Hx Hf. apply filter_In in Hx. destruct Hx as [_ Hh]. unfold holdsP in Hh.
    destruct (holds_first_entry _ _ _ _ Hd Hh) as (e1 & He1 & Hat).
    destruct (Hfor _ Hf) as (y & Hy & Hne).
    pose proof (log_extends_ent_at _ _ _ _ (Kp x) Hy) as Hy'. rewrite Hat in Hy'. inversion Hy'; subst. congruence. }
  assert (Hlen : (length (H ++ F) <= length (local :: round_followers voters local rot))%nat).
  { apply NoDup_incl_length.
    - exact (NoDup_app_intro _ _ HH HF Hdisj).
    - intros x Hx. apply in_app_or in Hx. destruct Hx; [apply HHincl | apply Hincl]; assumption. }
  rewrite app_length in Hlen. unfold H_count, countb in S3. fold H in S3. unfold lenN in S3. lia.
Qed.

(* ---- bounded exhaustive checks of the whole monitor on the model ------------------------------------------------ *)

Fixpoint schedules04 (alphabet : list qop) (len : nat) : list (list qop) :=
  match len with
  | O => [[]]
  | S k => [] :: flat_map (fun s => map (fun op => op :: s) alphabet) (schedules04 alphabet k)
  end.

Definition x_alphabet : list qop :=
  [ OInstall 2 (1, 2, 2) false 2 no_faults;
    OCommit 1 (1, 1, 1) (TUser 1) [x_r1] false no_faults;
    OCommit 1 (1, 1, 1) (TUser 3) [x_r3] false no_faults;
    OCommit 2 (1, 2, 2) (TUser 2) [x_r2] false no_faults;
    ORestart 2; ODown 3; OUp 3 ].

Definition c04_codes_in (allowed : list N) (prefix : list qop) (len : nat) : bool :=
  forallb (fun s => existsb (N.eqb (C04_monitor (model_case x_cfg (prefix ++ s)))) allowed) (schedules04 x_alphabet len).

(* the newer authority may be installed over an empty log: only 0 or the known-finding code 2 *)
Lemma c04_bounded_empty_log : c04_codes_in [0; 2] [OInstall 1 (1, 1, 1) false 2 no_faults] 4 = true.
Proof. apply (sweep_sound x_cfg (codes_in C04_monitor [0; 2]) _ _ (schedules04 _) eq_refl (fun _ => eq_refl)). vm_compute. reflexivity. Qed.

(* one proposal is acknowledged before anything else (the log is non-empty at every later install, so the
   newer authority writes its barrier): the monitor returns 0 — the deposed leader never gets a new receipt *)
Lemma c04_bounded_non_empty_log :
  c04_codes_in [0] [OInstall 1 (1, 1, 1) false 2 no_faults;
                    OCommit 1 (1, 1, 1) (TUser 5) [Rec (TUser 5) 2 2 40 5 false 1] false no_faults] 4 = true.
Proof. apply (sweep_sound x_cfg (codes_in C04_monitor [0]) _ _ (schedules04 _) eq_refl (fun _ => eq_refl)). vm_compute. reflexivity. Qed.
