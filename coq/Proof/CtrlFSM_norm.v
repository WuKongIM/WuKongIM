(* Proof/CtrlFSM_norm.v — facts about the transcribed state package used by the handler
   contract: insertion sort by a strict weak order is idempotent, hence Normalize is;
   Validate gives the schema version and revision <> 0; the structural equality tests of
   the component types decide equality, and CState_body_eqb is reflexive. *)
From WK Require Import Base.Base Base.Lists.
From WK Require Import Gen.Consts_C18 Model.CtrlFSM.
From Coq Require Import ZifyBool ZifyN ZifyNat.
Open Scope N_scope.

Section SortFacts.
  Context {A : Type} (ltb : A -> A -> bool).
  (* a strict weak order given as its "less" test *)
  Hypothesis ltb_asym : forall x y, ltb x y = true -> ltb y x = false.
  Hypothesis ltb_ntrans : forall x y z, ltb x y = false -> ltb y z = false -> ltb x z = false.

  (* every element is not greater than the ones after it *)
  Fixpoint sorted_by (l : list A) : Prop :=
    match l with
    | [] => True
    | x :: r => Forall (fun y => ltb y x = false) r /\ sorted_by r
    end.

  Lemma insert_In x l : forall y, In y (insert ltb x l) <-> y = x \/ In y l.
  Proof.
    induction l as [|z l IH]; intro y; cbn [insert].
    - cbn. intuition.
    - destruct (ltb z x); cbn [In]; [rewrite IH|]; intuition.
  Qed.

  Lemma isort_In l : forall y, In y (isort ltb l) <-> In y l.
  Proof.
    induction l as [|z l IH]; intro y; cbn [isort]; [reflexivity|].
    rewrite insert_In, IH. cbn. intuition.
  Qed.

  Lemma insert_sorted x l : sorted_by l -> sorted_by (insert ltb x l).
  Proof.
    induction l as [|z l IH]; intro Hs; cbn [insert].
    - cbn. auto.
    - destruct Hs as [Hz Hs]. destruct (ltb z x) eqn:E.
      + cbn [sorted_by]. split; [|apply IH; exact Hs].
        apply Forall_forall. intros y Hy. apply (proj1 (insert_In _ _ _)) in Hy. destruct Hy as [->|Hy].
        * apply ltb_asym. exact E.
        * rewrite Forall_forall in Hz. apply Hz. exact Hy.
      + cbn [sorted_by]. split; [|split; assumption].
        constructor; [exact E|].
        apply Forall_forall. intros y Hy. rewrite Forall_forall in Hz.
        apply (ltb_ntrans y z x); [apply Hz; exact Hy|exact E].
  Qed.

  Lemma isort_sorted l : sorted_by (isort ltb l).
  Proof. induction l as [|z l IH]; cbn [isort]; [exact I|]. apply insert_sorted. exact IH. Qed.

  Lemma insert_sorted_id x l : sorted_by (x :: l) -> insert ltb x l = x :: l.
  Proof.
    destruct l as [|z l]; intro Hs; [reflexivity|]. cbn [insert].
    destruct Hs as [Hx _]. inversion Hx as [|? ? Hzx _]; subst. rewrite Hzx. reflexivity.
  Qed.

  Lemma isort_sorted_id l : sorted_by l -> isort ltb l = l.
  Proof.
    induction l as [|z l IH]; intro Hs; [reflexivity|]. cbn [isort].
    rewrite IH by (destruct Hs; assumption). apply insert_sorted_id. exact Hs.
  Qed.

  Lemma isort_idem l : isort ltb (isort ltb l) = isort ltb l.
  Proof. apply isort_sorted_id. apply isort_sorted. Qed.

  (* every element of the inner sort is an f-image, hence fixed by f *)
  Lemma isort_map_idem (f : A -> A) l :
    (forall x, f (f x) = f x) ->
    isort ltb (map f (isort ltb (map f l))) = isort ltb (map f l).
  Proof.
    intro Hf.
    assert (Hfix : map f (isort ltb (map f l)) = isort ltb (map f l)).
    { rewrite <- map_id. apply map_ext_in. intros y Hy.
      apply (proj1 (isort_In _ _)) in Hy. apply in_map_iff in Hy. destruct Hy as (x & <- & _). apply Hf. }
    rewrite Hfix. apply isort_idem.
  Qed.
End SortFacts.

(* the orders used by Normalize are strict weak orders *)
Lemma Nltb_asym x y : (x <? y) = true -> (y <? x) = false. Proof. lia. Qed.
Lemma Nltb_ntrans x y z : (x <? y) = false -> (y <? z) = false -> (x <? z) = false. Proof. lia. Qed.

Lemma bytes_ltb_asym : forall x y, bytes_ltb x y = true -> bytes_ltb y x = false.
Proof.
  induction x as [|a x IH]; destruct y as [|b y]; cbn; intro H; try reflexivity; try discriminate.
  destruct (a <? b) eqn:E1; destruct (b <? a) eqn:E2; try reflexivity; try lia; try discriminate.
  all: try (apply IH; exact H).
Qed.

Lemma bytes_ltb_ntrans : forall x y z, bytes_ltb x y = false -> bytes_ltb y z = false -> bytes_ltb x z = false.
Proof.
  induction x as [|a x IH]; destruct y as [|b y]; destruct z as [|c z]; cbn; intros H1 H2;
    try reflexivity; try discriminate.
  destruct (a <? b) eqn:E1; [discriminate|]. destruct (b <? a) eqn:E1'.
  - destruct (b <? c) eqn:E2; [discriminate|].
    assert (Hac : (a <? c) = false) by lia. rewrite Hac.
    destruct (c <? a) eqn:E3; [reflexivity|]. lia.
  - assert (a = b) by lia. subst b.
    destruct (a <? c) eqn:E2; [discriminate|]. destruct (c <? a) eqn:E2'; [reflexivity|].
    apply (IH y z); assumption.
Qed.

Definition sortN_idem := isort_idem N.ltb Nltb_asym Nltb_ntrans.
Definition sort_bytes_idem := isort_idem bytes_ltb bytes_ltb_asym bytes_ltb_ntrans.

Lemma key_asym {A} (k : A -> N) x y : (k x <? k y) = true -> (k y <? k x) = false. Proof. lia. Qed.
Lemma key_ntrans {A} (k : A -> N) x y z : (k x <? k y) = false -> (k y <? k z) = false -> (k x <? k z) = false.
Proof. lia. Qed.

Lemma HRange_ltb_asym x y : HRange_ltb x y = true -> HRange_ltb y x = false.
Proof. unfold HRange_ltb. destruct (hr_from x =? hr_from y) eqn:E; destruct (hr_from y =? hr_from x) eqn:E'; lia. Qed.
Lemma HRange_ltb_ntrans x y z : HRange_ltb x y = false -> HRange_ltb y z = false -> HRange_ltb x z = false.
Proof.
  unfold HRange_ltb.
  destruct (hr_from x =? hr_from y) eqn:E1; destruct (hr_from y =? hr_from z) eqn:E2;
    destruct (hr_from x =? hr_from z) eqn:E3; lia.
Qed.

Lemma Task_ltb_asym x y : Task_ltb x y = true -> Task_ltb y x = false.
Proof.
  unfold Task_ltb. destruct (t_slot x =? t_slot y) eqn:E; destruct (t_slot y =? t_slot x) eqn:E'; try lia.
  apply bytes_ltb_asym.
Qed.
Lemma Task_ltb_ntrans x y z : Task_ltb x y = false -> Task_ltb y z = false -> Task_ltb x z = false.
Proof.
  unfold Task_ltb.
  destruct (t_slot x =? t_slot y) eqn:E1; destruct (t_slot y =? t_slot z) eqn:E2;
    destruct (t_slot x =? t_slot z) eqn:E3; try lia.
  apply bytes_ltb_ntrans.
Qed.

Lemma normalize_node_idem n : normalize_node (normalize_node n) = normalize_node n.
Proof.
  unfold normalize_node. cbn [n_id n_name n_addr n_roles n_join n_status n_weight].
  unfold sort_bytes. rewrite sort_bytes_idem. f_equal.
  destruct (n_weight n =? 0) eqn:E; [reflexivity|]. rewrite E. reflexivity.
Qed.

Lemma normalize_assign_idem a : normalize_assign (normalize_assign a) = normalize_assign a.
Proof. unfold normalize_assign. cbn [sa_slot sa_peers sa_epoch sa_leader]. unfold sortN. rewrite sortN_idem. reflexivity. Qed.

Lemma isort_pending_progress peers :
  sorted_by N.ltb peers -> isort Progress_ltb (pending_progress peers) = pending_progress peers.
Proof.
  intro Hs. apply (isort_sorted_id Progress_ltb).
  induction peers as [|p peers IH]; [exact I|]. destruct Hs as [Hp Hs]. cbn [pending_progress map sorted_by].
  split; [|apply IH; exact Hs].
  apply Forall_forall. intros y Hy. apply in_map_iff in Hy. destruct Hy as (q & <- & Hq).
  rewrite Forall_forall in Hp. unfold Progress_ltb. cbn [pp_node]. apply Hp. exact Hq.
Qed.

(* normalize_task = [ntp] after [sort_lists]: normalizeTaskProgress with its two lets named *)
Definition default_policy (kind p : bytes) : bytes :=
  if is_empty p then
    if bytes_eqb kind TaskKindBootstrap then TaskCompletionPolicyAllTargetPeers
    else if bytes_eqb kind TaskKindLeaderTransfer then TaskCompletionPolicySingleObserver
    else if bytes_eqb kind TaskKindSlotReplicaMove then TaskCompletionPolicySingleObserver
    else p
  else p.

Definition fill_progress (pol : bytes) (peers : list N) (pr : list Progress) : list Progress :=
  isort Progress_ltb (if bytes_eqb pol TaskCompletionPolicyAllTargetPeers && is_empty pr then pending_progress peers else pr).

Definition ntp (t : Task) : Task :=
  t_with_peers t (t_peers t) (default_policy (t_kind t) (t_policy t))
               (fill_progress (default_policy (t_kind t) (t_policy t)) (t_peers t) (t_progress t))
               (t_obs_voters t) (t_obs_learners t).

Definition sort_lists (t : Task) : Task :=
  t_with_peers t (sortN (t_peers t)) (t_policy t) (t_progress t) (sortN (t_obs_voters t)) (sortN (t_obs_learners t)).

Lemma normalize_task_eq t : normalize_task t = ntp (sort_lists t).
Proof. reflexivity. Qed.

Lemma default_policy_idem kind p : default_policy kind (default_policy kind p) = default_policy kind p.
Proof.
  unfold default_policy. destruct (is_empty p) eqn:E; [|rewrite E; reflexivity].
  destruct (bytes_eqb kind TaskKindBootstrap); [reflexivity|].
  destruct (bytes_eqb kind TaskKindLeaderTransfer); [reflexivity|].
  destruct (bytes_eqb kind TaskKindSlotReplicaMove); [reflexivity|].
  rewrite E. reflexivity.
Qed.

Lemma fill_progress_idem pol peers pr : sorted_by N.ltb peers ->
  fill_progress pol peers (fill_progress pol peers pr) = fill_progress pol peers pr.
Proof.
  intro Hs. assert (Hid := isort_idem Progress_ltb (key_asym pp_node) (key_ntrans pp_node)).
  unfold fill_progress. destruct (bytes_eqb pol TaskCompletionPolicyAllTargetPeers); cbn [andb]; [|apply Hid].
  destruct (is_empty pr) eqn:Et.
  - (* refilled from the sorted peers, and refilled again if there are none *)
    rewrite (isort_pending_progress peers Hs).
    destruct (is_empty (pending_progress peers)); apply isort_pending_progress, Hs.
  - (* sorting keeps a non-empty progress non-empty *)
    destruct pr as [|x r]; [discriminate Et|].
    destruct (isort Progress_ltb (x :: r)) as [|y l] eqn:Ei; [|cbn [is_empty]; rewrite <- Ei; apply Hid].
    exfalso. apply (in_nil (a := x)). rewrite <- Ei. apply isort_In. left. reflexivity.
Qed.

Lemma ntp_idem v : sorted_by N.ltb (t_peers v) -> ntp (ntp v) = ntp v.
Proof.
  intro Hs. unfold ntp, t_with_peers. cbn [t_kind t_peers t_policy t_progress].
  rewrite default_policy_idem, (fill_progress_idem _ _ _ Hs). reflexivity.
Qed.

Lemma sort_lists_ntp t : sort_lists (ntp (sort_lists t)) = ntp (sort_lists t).
Proof.
  unfold sort_lists, ntp, t_with_peers.
  cbn [t_id t_slot t_kind t_step t_source t_target t_peers t_policy t_progress t_epoch t_attempt t_status
       t_err t_phase t_obs_index t_obs_voters t_obs_learners].
  unfold sortN. rewrite !sortN_idem. reflexivity.
Qed.

Lemma normalize_task_idem t : normalize_task (normalize_task t) = normalize_task t.
Proof.
  rewrite (normalize_task_eq t), normalize_task_eq, sort_lists_ntp.
  apply ntp_idem, (isort_sorted N.ltb Nltb_asym Nltb_ntrans).
Qed.

Lemma Normalize_idem s : Normalize (Normalize s) = Normalize s.
Proof.
  unfold Normalize.
  cbn [s_schema s_cluster s_rev s_applied s_updated s_config s_controllers s_nodes s_slots s_health
       s_hashslots s_tasks s_sb s_ops s_checksum ht_version ht_count ht_ranges].
  rewrite (isort_idem Voter_ltb (key_asym cv_id) (key_ntrans cv_id)).
  rewrite (isort_map_idem Node_ltb (key_asym n_id) (key_ntrans n_id) normalize_node _ normalize_node_idem).
  rewrite (isort_map_idem Assign_ltb (key_asym sa_slot) (key_ntrans sa_slot) normalize_assign _ normalize_assign_idem).
  rewrite (isort_idem Health_ltb (key_asym h_node) (key_ntrans h_node)).
  rewrite (isort_idem HRange_ltb HRange_ltb_asym HRange_ltb_ntrans).
  rewrite (isort_map_idem Task_ltb Task_ltb_asym Task_ltb_ntrans normalize_task _ normalize_task_idem).
  reflexivity.
Qed.

Lemma Validate_schema s : Validate s = true -> s_schema s = CurrentSchemaVersion.
Proof.
  unfold Validate, validate_normalized. intro H.
  destruct (N.eqb_spec (s_schema (Normalize s)) CurrentSchemaVersion) as [E|_]; [exact E|discriminate H].
Qed.

Lemma Validate_rev s : Validate s = true -> s_rev s <> 0.
Proof.
  unfold Validate, validate_normalized. intros H E.
  change (s_rev (Normalize s)) with (s_rev s) in H. rewrite E in H.
  cbn [N.eqb negb] in H. rewrite andb_false_r in H. discriminate H.
Qed.

Lemma Nlist_eqb_eq a b : Nlist_eqb a b = true <-> a = b.
Proof. apply list_eqb_spec. intros. apply N.eqb_eq. Qed.

Lemma list_bytes_eqb_eq a b : list_eqb bytes_eqb a b = true <-> a = b.
Proof. apply list_eqb_spec. intros. apply bytes_eqb_eq. Qed.

Ltac eqb_spec_tac :=
  repeat match goal with
         | H : _ && _ = true |- _ => apply andb_true_iff in H; destruct H
         | H : (_ =? _) = true |- _ => apply N.eqb_eq in H
         | H : Z.eqb _ _ = true |- _ => apply Z.eqb_eq in H
         | H : bytes_eqb _ _ = true |- _ => apply bytes_eqb_eq in H
         | H : Nlist_eqb _ _ = true |- _ => apply Nlist_eqb_eq in H
         | H : list_eqb bytes_eqb _ _ = true |- _ => apply list_bytes_eqb_eq in H
         | H : Bool.eqb _ _ = true |- _ => apply Bool.eqb_prop in H
         end.

Lemma Node_eqb_eq a b : Node_eqb a b = true <-> a = b.
Proof.
  split.
  - destruct a, b. unfold Node_eqb. cbn. intro H.
    eqb_spec_tac. subst. reflexivity.
  - intros <-. unfold Node_eqb. rewrite !N.eqb_refl, !bytes_eqb_refl.
    rewrite (proj2 (list_bytes_eqb_eq _ _) eq_refl). reflexivity.
Qed.

Lemma Voter_eqb_eq a b : Voter_eqb a b = true <-> a = b.
Proof.
  split.
  - destruct a, b. unfold Voter_eqb. cbn. intro H. eqb_spec_tac. subst. reflexivity.
  - intros <-. unfold Voter_eqb. rewrite !N.eqb_refl, !bytes_eqb_refl. reflexivity.
Qed.

Lemma Assign_eqb_eq a b : Assign_eqb a b = true <-> a = b.
Proof.
  split.
  - destruct a, b. unfold Assign_eqb. cbn. intro H. eqb_spec_tac. subst. reflexivity.
  - intros <-. unfold Assign_eqb. rewrite !N.eqb_refl, ?(proj2 (Nlist_eqb_eq _ _) eq_refl). reflexivity.
Qed.

Lemma HRange_eqb_eq a b : HRange_eqb a b = true <-> a = b.
Proof.
  split.
  - destruct a, b. unfold HRange_eqb. cbn. intro H. eqb_spec_tac. subst. reflexivity.
  - intros <-. unfold HRange_eqb. rewrite !N.eqb_refl. reflexivity.
Qed.

Lemma HTable_eqb_eq a b : HTable_eqb a b = true <-> a = b.
Proof.
  split.
  - destruct a, b. unfold HTable_eqb. cbn. intro H. eqb_spec_tac.
    apply (list_eqb_spec HRange_eqb HRange_eqb_eq) in H0. subst. reflexivity.
  - intros <-. unfold HTable_eqb. rewrite !N.eqb_refl.
    rewrite (proj2 (list_eqb_spec HRange_eqb HRange_eqb_eq _ _) eq_refl). reflexivity.
Qed.

Lemma Progress_eqb_eq a b : Progress_eqb a b = true <-> a = b.
Proof.
  split.
  - destruct a, b. unfold Progress_eqb. cbn. intro H. eqb_spec_tac. subst. reflexivity.
  - intros <-. unfold Progress_eqb. rewrite !N.eqb_refl, !bytes_eqb_refl. reflexivity.
Qed.

Lemma Task_eqb_eq a b : Task_eqb a b = true <-> a = b.
Proof.
  split.
  - destruct a, b. unfold Task_eqb. cbn.
    intro H. eqb_spec_tac.
    match goal with H : list_eqb Progress_eqb _ _ = true |- _ => apply (list_eqb_spec Progress_eqb Progress_eqb_eq) in H end.
    subst. reflexivity.
  - intros <-. unfold Task_eqb. rewrite !N.eqb_refl, !bytes_eqb_refl, ?(proj2 (Nlist_eqb_eq _ _) eq_refl).
    rewrite (proj2 (list_eqb_spec Progress_eqb Progress_eqb_eq _ _) eq_refl). reflexivity.
Qed.

Lemma Health_eqb_eq a b : Health_eqb a b = true <-> a = b.
Proof.
  split.
  - destruct a, b. unfold Health_eqb. cbn. intro H. eqb_spec_tac. subst. reflexivity.
  - intros <-. unfold Health_eqb. rewrite !N.eqb_refl, !bytes_eqb_refl, Z.eqb_refl, Bool.eqb_reflx. reflexivity.
Qed.

Lemma Config_eqb_eq a b : Config_eqb a b = true <-> a = b.
Proof.
  split.
  - destruct a, b. unfold Config_eqb. cbn. intro H. eqb_spec_tac. subst. reflexivity.
  - intros <-. unfold Config_eqb. rewrite !N.eqb_refl. reflexivity.
Qed.

Lemma SBlob_eqb_eq a b : SBlob_eqb a b = true <-> a = b.
Proof.
  split.
  - destruct a, b. unfold SBlob_eqb. cbn. intro H. eqb_spec_tac. subst. reflexivity.
  - intros <-. unfold SBlob_eqb. rewrite !N.eqb_refl, !Bool.eqb_reflx. reflexivity.
Qed.

Lemma OBlob_eqb_eq a b : OBlob_eqb a b = true <-> a = b.
Proof.
  split.
  - destruct a, b. unfold OBlob_eqb. cbn. intro H. eqb_spec_tac. subst. reflexivity.
  - intros <-. unfold OBlob_eqb. rewrite !N.eqb_refl, !Bool.eqb_reflx. reflexivity.
Qed.

Lemma CState_body_eqb_refl s : CState_body_eqb s s = true.
Proof.
  assert (R : forall A (eqb : A -> A -> bool), (forall x y, eqb x y = true <-> x = y) -> forall x, eqb x x = true)
    by (intros A eqb H x; apply H; reflexivity).
  unfold CState_body_eqb. rewrite !N.eqb_refl, bytes_eqb_refl, (R _ _ Config_eqb_eq), (R _ _ HTable_eqb_eq).
  rewrite (list_eqb_refl _ (R _ _ Voter_eqb_eq)), (list_eqb_refl _ (R _ _ Node_eqb_eq)),
    (list_eqb_refl _ (R _ _ Assign_eqb_eq)), (list_eqb_refl _ (R _ _ Health_eqb_eq)),
    (list_eqb_refl _ (R _ _ Task_eqb_eq)), (option_eqb_refl _ (R _ _ SBlob_eqb_eq)),
    (option_eqb_refl _ (R _ _ OBlob_eqb_eq)).
  reflexivity.
Qed.

Lemma CState_eqb_refl s : CState_eqb s s = true.
Proof. unfold CState_eqb. rewrite CState_body_eqb_refl, bytes_eqb_refl. reflexivity. Qed.
