(* Proof/ChanMigration.v — basic facts about the channel-migration model: the equality tests,
   the mutators keep the identity of a task, the task store and the association lists. *)
From WK Require Import Base.Base Base.Lists.
From WK Require Import Gen.Consts_C15 Gen.Consts_C17 Model.RuntimeMeta Model.ChanMigration Model.ChanMigration_C17.
From WK Require Import Proof.RuntimeMeta.
Open Scope N_scope.

Ltac bsplit H :=
  repeat match type of H with
         | (_ && _) = true => let H1 := fresh H in apply andb_prop in H; destruct H as [H H1]
         end.

Lemma negb_false b : negb b = false -> b = true.
Proof. destruct b; simpl; congruence. Qed.
Lemma negb_true b : negb b = true -> b = false.
Proof. destruct b; simpl; congruence. Qed.

Lemma orb_false3 a b : a || b = false -> a = false /\ b = false.
Proof. apply orb_false_iff. Qed.

(* projections reduce by [cbn] with an explicit list only: [simpl] would unfold N / Z comparisons *)
Ltac task_cbn := cbn [t_task_id t_kind t_status t_phase t_channel_id t_channel_type t_source_node t_target_node t_desired_leader t_base_channel_epoch t_base_leader_epoch t_fence_token t_fence_version t_fence_until_ms t_embedded_leader_transfer t_embedded_desired_leader t_owner_node_id t_owner_lease_until_ms t_proof t_attempt t_next_run_at_ms t_blocker_code t_blocker_message t_last_error t_created_at_ms t_updated_at_ms t_completed_at_ms t_progress].
Ltac proof_cbn := cbn [pf_cutover_leo pf_cutover_hw pf_drained_leader_node pf_drained_runtime_generation pf_drained_channel_epoch pf_drained_leader_epoch pf_drained_fence_version].
Ltac progress_cbn := cbn [pg_leader_leo pg_leader_hw pg_target_leo pg_target_checkpoint_hw pg_lag_records pg_stable_since_ms].

Lemma chan_key_eqb_eq a b : chan_key_eqb a b = true <-> a = b.
Proof.
  destruct a as [i1 t1], b as [i2 t2]; unfold chan_key_eqb; simpl. split.
  - intro H. apply andb_prop in H. destruct H as [H1 H2].
    apply bytes_eqb_eq in H1. apply Z.eqb_eq in H2. subst. reflexivity.
  - intro H. inversion H; subst. rewrite bytes_eqb_refl, Z.eqb_refl. reflexivity.
Qed.

Lemma chan_key_eqb_refl a : chan_key_eqb a a = true.
Proof. apply chan_key_eqb_eq. reflexivity. Qed.

Lemma chan_key_eqb_neq a b : chan_key_eqb a b = false <-> a <> b.
Proof.
  split.
  - intros H E. subst. rewrite chan_key_eqb_refl in H. discriminate.
  - intro H. destruct (chan_key_eqb a b) eqn:E; [apply chan_key_eqb_eq in E; contradiction|reflexivity].
Qed.

Lemma chan_key_eq_dec (a b : chan_key) : {a = b} + {a <> b}.
Proof.
  destruct (chan_key_eqb a b) eqn:E; [left; apply chan_key_eqb_eq|right; apply chan_key_eqb_neq]; exact E.
Qed.

Lemma tkey_eqb_eq a b : tkey_eqb a b = true <-> a = b.
Proof.
  destruct a as [c1 i1], b as [c2 i2]; unfold tkey_eqb; simpl. split.
  - intro H. apply andb_prop in H. destruct H as [H1 H2].
    apply chan_key_eqb_eq in H1. apply bytes_eqb_eq in H2. subst. reflexivity.
  - intro H. inversion H; subst. rewrite chan_key_eqb_refl, bytes_eqb_refl. reflexivity.
Qed.

Lemma tkey_eqb_refl a : tkey_eqb a a = true.
Proof. apply tkey_eqb_eq. reflexivity. Qed.

Lemma tkey_eqb_neq a b : tkey_eqb a b = false <-> a <> b.
Proof.
  split.
  - intros H E. subst. rewrite tkey_eqb_refl in H. discriminate.
  - intro H. destruct (tkey_eqb a b) eqn:E; [apply tkey_eqb_eq in E; contradiction|reflexivity].
Qed.

Lemma tkey_eqb_sym a b : tkey_eqb a b = tkey_eqb b a.
Proof.
  destruct (tkey_eqb a b) eqn:E.
  - apply tkey_eqb_eq in E. subst. symmetry. apply tkey_eqb_refl.
  - symmetry. apply tkey_eqb_neq. apply tkey_eqb_neq in E. congruence.
Qed.

Lemma proof_eqb_eq a b : proof_eqb a b = true -> a = b.
Proof.
  destruct a, b; unfold proof_eqb; proof_cbn. intro H. bsplit H.
  repeat match goal with H : (_ =? _) = true |- _ => apply N.eqb_eq in H end. subst. reflexivity.
Qed.

Lemma proof_eqb_refl a : proof_eqb a a = true.
Proof. destruct a; unfold proof_eqb; proof_cbn. rewrite !N.eqb_refl. reflexivity. Qed.

Lemma progress_eqb_eq a b : progress_eqb a b = true -> a = b.
Proof.
  destruct a, b; unfold progress_eqb; progress_cbn. intro H. bsplit H.
  repeat match goal with H : (_ =? _) = true |- _ => apply N.eqb_eq in H end.
  repeat match goal with H : (_ =? _)%Z = true |- _ => apply Z.eqb_eq in H end. subst. reflexivity.
Qed.

Lemma progress_eqb_refl a : progress_eqb a a = true.
Proof. destruct a; unfold progress_eqb; progress_cbn. rewrite !N.eqb_refl, Z.eqb_refl. reflexivity. Qed.

Lemma task_eqb_eq a b : task_eqb a b = true -> a = b.
Proof.
  destruct a, b; unfold task_eqb; task_cbn. intro H. bsplit H.
  repeat match goal with H : (_ =? _) = true |- _ => apply N.eqb_eq in H end.
  repeat match goal with H : (_ =? _)%Z = true |- _ => apply Z.eqb_eq in H end.
  repeat match goal with H : bytes_eqb _ _ = true |- _ => apply bytes_eqb_eq in H end.
  repeat match goal with H : Bool.eqb _ _ = true |- _ => apply Bool.eqb_prop in H end.
  repeat match goal with H : proof_eqb _ _ = true |- _ => apply proof_eqb_eq in H end.
  repeat match goal with H : progress_eqb _ _ = true |- _ => apply progress_eqb_eq in H end.
  subst. reflexivity.
Qed.

Lemma task_eqb_refl a : task_eqb a a = true.
Proof.
  destruct a; unfold task_eqb; task_cbn.
  rewrite !N.eqb_refl, !Z.eqb_refl, !bytes_eqb_refl, proof_eqb_refl, progress_eqb_refl, Bool.eqb_reflx.
  reflexivity.
Qed.

Lemma task_eqb_false_neq a b : task_eqb a b = false -> a <> b.
Proof. intros H E. subst. rewrite task_eqb_refl in H. discriminate. Qed.

Lemma task_key_set_status_phase_updated t s p u : task_key (set_status_phase_updated t s p u) = task_key t.
Proof. reflexivity. Qed.
Lemma task_key_set_owner t o l : task_key (set_owner t o l) = task_key t.
Proof. reflexivity. Qed.
Lemma task_key_set_fence t a b c : task_key (set_fence t a b c) = task_key t.
Proof. reflexivity. Qed.
Lemma task_key_set_proof t p : task_key (set_proof t p) = task_key t.
Proof. reflexivity. Qed.
Lemma task_key_set_embedded t f d : task_key (set_embedded t f d) = task_key t.
Proof. reflexivity. Qed.
Lemma task_key_set_completed t c : task_key (set_completed t c) = task_key t.
Proof. reflexivity. Qed.
Lemma task_key_set_last_error t e : task_key (set_last_error t e) = task_key t.
Proof. reflexivity. Qed.
Lemma task_key_set_advance_fields t a n b1 b2 b3 p : task_key (set_advance_fields t a n b1 b2 b3 p) = task_key t.
Proof. reflexivity. Qed.

Lemma tguard_matches_key g t : tguard_matches g t = true -> task_key t = tguard_key g.
Proof.
  unfold tguard_matches. rewrite !andb_true_iff, !bytes_eqb_eq, Z.eqb_eq.
  intros (((((((Hc & Hty) & Hid) & _) & _) & _) & _) & _).
  unfold task_key, tguard_key, task_chan. rewrite Hc, Hty, Hid. reflexivity.
Qed.

Definition same_identity (t t' : task) : Prop :=
  task_key t' = task_key t /\ t_kind t' = t_kind t /\ t_source_node t' = t_source_node t
  /\ t_target_node t' = t_target_node t /\ t_desired_leader t' = t_desired_leader t.

Lemma same_identity_refl t : same_identity t t.
Proof. repeat split. Qed.

Lemma mutate_task_identity c t t' : mutate_task c t = Ok t' -> same_identity t t'.
Proof.
  destruct c; simpl; try discriminate.
  - unfold mutClaim. destruct (canClaimChannelMigrationTask t owner now); [|discriminate].
    cbn [negb]. intro H. inversion H; subst. repeat split.
  - unfold mutAdvance. intro H. inversion H; subst. clear H.
    destruct (negb (proof_eqb pf proof_zero)), (negb (embedded_desired_leader =? 0)); repeat split.
Qed.

Lemma task_get_del l k' k :
  task_get (task_del l k') k = if tkey_eqb k' k then None else task_get l k.
Proof.
  induction l as [|u r IH]; simpl.
  - destruct (tkey_eqb k' k); reflexivity.
  - destruct (tkey_eqb (task_key u) k') eqn:E1.
    + rewrite IH. apply tkey_eqb_eq in E1. subst k'.
      destruct (tkey_eqb (task_key u) k); reflexivity.
    + simpl. rewrite IH.
      destruct (tkey_eqb (task_key u) k) eqn:E2; [|reflexivity].
      apply tkey_eqb_eq in E2. subst k. rewrite tkey_eqb_sym, E1. reflexivity.
Qed.

Lemma in_task_del l k u : In u (task_del l k) <-> In u l /\ task_key u <> k.
Proof.
  induction l as [|v r IH]; simpl.
  - tauto.
  - destruct (tkey_eqb (task_key v) k) eqn:E.
    + apply tkey_eqb_eq in E. rewrite IH. split.
      * intros [H1 H2]. auto.
      * intros [[H1|H1] H2]; [subst; contradiction|auto].
    + apply tkey_eqb_neq in E. simpl. rewrite IH. split.
      * intros [H|[H1 H2]]; [subst; auto|auto].
      * intros [[H1|H1] H2]; auto.
Qed.

Lemma in_task_insert l t u : In u (task_insert l t) <-> u = t \/ In u l.
Proof.
  induction l as [|v r IH]; simpl.
  - split; [intros [H|[]]; auto|intros [H|[]]; auto].
  - destruct (tkey_ltb (task_key t) (task_key v)); simpl.
    + split; [intros [H|H]; auto|intros [H|H]; auto].
    + rewrite IH. split; [intros [H|[H|H]]; auto|intros [H|[H|H]]; auto].
Qed.

Lemma task_get_insert l t k :
  (forall u, In u l -> task_key u <> task_key t) ->
  task_get (task_insert l t) k = if tkey_eqb (task_key t) k then Some t else task_get l k.
Proof.
  induction l as [|v r IH]; simpl; intro F.
  - reflexivity.
  - destruct (tkey_ltb (task_key t) (task_key v)); simpl.
    + reflexivity.
    + rewrite IH by (intros u Hu; apply F; auto).
      destruct (tkey_eqb (task_key v) k) eqn:E; [|reflexivity].
      apply tkey_eqb_eq in E. subst k.
      assert (task_key v <> task_key t) by (apply F; auto).
      rewrite (proj2 (tkey_eqb_neq _ _)) by congruence. reflexivity.
Qed.

Lemma task_get_put l t k :
  task_get (task_put l t) k = if tkey_eqb (task_key t) k then Some t else task_get l k.
Proof.
  unfold task_put. rewrite task_get_insert.
  - rewrite task_get_del. destruct (tkey_eqb (task_key t) k); reflexivity.
  - intros u Hu. apply in_task_del in Hu. tauto.
Qed.

Lemma in_task_put l t u : In u (task_put l t) <-> u = t \/ (In u l /\ task_key u <> task_key t).
Proof. unfold task_put. rewrite in_task_insert, in_task_del. tauto. Qed.

Lemma task_get_key l k t : task_get l k = Some t -> task_key t = k.
Proof.
  induction l as [|u r IH]; simpl; [discriminate|].
  destruct (tkey_eqb (task_key u) k) eqn:E; [|exact IH].
  intro H. inversion H; subst. apply tkey_eqb_eq. exact E.
Qed.

Lemma task_get_in l k t : task_get l k = Some t -> In t l.
Proof.
  induction l as [|u r IH]; simpl; [discriminate|].
  destruct (tkey_eqb (task_key u) k); [intro H; inversion H; auto|auto].
Qed.

Definition tasks_wf (l : list task) : Prop := NoDup (map task_key l).

Lemma tasks_wf_get l u : tasks_wf l -> In u l -> task_get l (task_key u) = Some u.
Proof.
  unfold tasks_wf. induction l as [|v r IH]; simpl; intros W H; [contradiction|].
  inversion W as [|? ? W1 W2]; subst.
  destruct H as [H|H].
  - subst. rewrite tkey_eqb_refl. reflexivity.
  - destruct (tkey_eqb (task_key v) (task_key u)) eqn:E.
    + exfalso. apply tkey_eqb_eq in E. apply W1. rewrite E. apply in_map. exact H.
    + apply IH; assumption.
Qed.

Lemma tasks_wf_del l k : tasks_wf l -> tasks_wf (task_del l k).
Proof.
  unfold tasks_wf. induction l as [|v r IH]; simpl; intro W; [constructor|].
  inversion W as [|? ? W1 W2]; subst.
  destruct (tkey_eqb (task_key v) k); [auto|].
  simpl. constructor; [|auto].
  intro H. apply in_map_iff in H. destruct H as [u [Hk Hu]]. apply in_task_del in Hu.
  apply W1. rewrite <- Hk. apply in_map. tauto.
Qed.

Lemma tasks_wf_insert l t :
  tasks_wf l -> (forall u, In u l -> task_key u <> task_key t) -> tasks_wf (task_insert l t).
Proof.
  unfold tasks_wf. induction l as [|v r IH]; simpl; intros W F.
  - constructor; [intros []|constructor].
  - inversion W as [|? ? W1 W2]; subst.
    destruct (tkey_ltb (task_key t) (task_key v)); simpl.
    + constructor; [|exact W].
      intro H. simpl in H. destruct H as [H|H].
      * apply (F v); auto.
      * apply in_map_iff in H. destruct H as [u [Hk Hu]]. apply (F u); auto.
    + constructor.
      * intro H. apply in_map_iff in H. destruct H as [u [Hk Hu]].
        apply in_task_insert in Hu. destruct Hu as [Hu|Hu].
        -- subst u. apply (F v); auto.
        -- apply W1. rewrite <- Hk. apply in_map. exact Hu.
      * apply IH; [exact W2|]. intros u Hu. apply F. auto.
Qed.

Lemma tasks_wf_put l t : tasks_wf l -> tasks_wf (task_put l t).
Proof.
  intro W. unfold task_put. apply tasks_wf_insert.
  - apply tasks_wf_del. exact W.
  - intros u Hu. apply in_task_del in Hu. tauto.
Qed.

Section AssocLemmas.
  Context {K V : Type} (eqb : K -> K -> bool) (eqb_eq : forall a b, eqb a b = true <-> a = b).

  Lemma assoc_eqb_refl k : eqb k k = true.
  Proof. apply eqb_eq. reflexivity. Qed.

  Lemma assoc_get_put (l : list (K * V)) k v k' :
    assoc_get eqb (assoc_put eqb l k v) k' = if eqb k k' then Some v else assoc_get eqb l k'.
  Proof.
    induction l as [|[k0 v0] l IH]; simpl.
    - reflexivity.
    - destruct (eqb k0 k) eqn:E; simpl.
      + apply eqb_eq in E. subst k0. destruct (eqb k k'); reflexivity.
      + rewrite IH. destruct (eqb k0 k') eqn:E2; [|reflexivity].
        apply eqb_eq in E2. subst k'.
        destruct (eqb k k0) eqn:E3; [|reflexivity].
        apply eqb_eq in E3. subst k0. rewrite assoc_eqb_refl in E. discriminate.
  Qed.

  Lemma assoc_get_del (l : list (K * V)) k k' :
    assoc_get eqb (assoc_del eqb l k) k' = if eqb k k' then None else assoc_get eqb l k'.
  Proof.
    induction l as [|[k0 v0] l IH]; simpl.
    - destruct (eqb k k'); reflexivity.
    - destruct (eqb k0 k) eqn:E; simpl.
      + rewrite IH. apply eqb_eq in E. subst k0. destruct (eqb k k'); reflexivity.
      + rewrite IH. destruct (eqb k0 k') eqn:E2; [|reflexivity].
        apply eqb_eq in E2. subst k'.
        destruct (eqb k k0) eqn:E3; [|reflexivity].
        apply eqb_eq in E3. subst k0. rewrite assoc_eqb_refl in E. discriminate.
  Qed.
End AssocLemmas.

Definition chan_get_put {V} := @assoc_get_put chan_key V chan_key_eqb chan_key_eqb_eq.
Definition chan_get_del {V} := @assoc_get_del chan_key V chan_key_eqb chan_key_eqb_eq.
Definition tkey_get_put {V} := @assoc_get_put tkey V tkey_eqb tkey_eqb_eq.
