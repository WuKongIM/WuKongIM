(* Proof/MsgStore_base.v — groundwork for the proofs about Model/MsgStore.v:
   key equality, stores with unique keys ([swf]), effect of a batch (of point
   deletes in particular) on point reads, the scans characterised by point reads,
   the greatest sequence of a list of rows. *)
From WK Require Import Base.Base Base.Lists Model.KV Gen.Consts_C07 Model.MsgStore Proof.KV.
From Coq Require Import Sorting.Permutation Sorting.Sorted.

Lemma bytes_eqb_false a b : bytes_eqb a b = false -> a <> b.
Proof. apply bytes_eqb_neq. Qed.

Lemma mem_N_in x l : mem_N x l = true <-> In x l.
Proof.
  unfold mem_N. rewrite existsb_exists. split.
  - intros [y [Hy E]]. apply N.eqb_eq in E. subst. exact Hy.
  - intro H. exists x. split; [exact H|apply N.eqb_refl].
Qed.

Lemma is_nil_true b : is_nil b = true <-> b = [].
Proof. destruct b; cbn; split; intro H; try reflexivity; discriminate. Qed.

Lemma is_nil_false b : is_nil b = false <-> b <> [].
Proof. destruct b; cbn; split; intro H; try discriminate; try reflexivity; contradiction. Qed.

Ltac beq :=
  repeat match goal with
         | H : (_ && _) = true |- _ => apply andb_true_iff in H; destruct H
         | H : (_ =? _) = true |- _ => apply N.eqb_eq in H
         | H : bytes_eqb _ _ = true |- _ => apply bytes_eqb_eq in H
         end.

Lemma key_eqb_eq a b : key_eqb a b = true <-> a = b.
Proof.
  split.
  - destruct a, b; cbn [key_eqb]; intro H; try discriminate H; beq; subst; reflexivity.
  - intro H. subst b. destruct a; cbn [key_eqb];
      rewrite ?N.eqb_refl, ?bytes_eqb_refl; reflexivity.
Qed.

Lemma key_eqb_refl k : key_eqb k k = true.
Proof. apply key_eqb_eq. reflexivity. Qed.

Lemma key_eqb_neq a b : a <> b -> key_eqb a b = false.
Proof. apply (keqb_neq key_eqb key_eqb_eq). Qed.

Definition keff := batch_effect key_eqb (V := value).
Definition swf (s : kvs) : Prop := wf (K := key) (V := value) s.

Lemma kget_apply k b (s : kvs) : kget k (kapply s b) = keff k b (kget k s).
Proof. unfold kget, kapply, keff. apply get_apply_batch. exact key_eqb_eq. Qed.

Lemma swf_apply b (s : kvs) : swf s -> swf (kapply s b).
Proof. unfold swf, kapply. apply wf_apply_batch. exact key_eqb_eq. Qed.

Lemma keff_app k b1 b2 cur : keff k (b1 ++ b2) cur = keff k b2 (keff k b1 cur).
Proof. apply batch_effect_app. Qed.

Lemma keff_nil k cur : keff k [] cur = cur.
Proof. reflexivity. Qed.

Lemma keff_cons k o b cur : keff k (o :: b) cur = keff k b (op_effect key_eqb k o cur).
Proof. reflexivity. Qed.

Lemma kin_iff_get k v (s : kvs) : swf s -> (In (k, v) s <-> kget k s = Some v).
Proof. unfold swf, kget. apply in_iff_get. exact key_eqb_eq. Qed.

Definition del_keys (b : kbatch) : list key :=
  flat_map (fun o => match o with Del k => [k] | _ => [] end) b.
Definition all_del (b : kbatch) : Prop :=
  Forall (fun o => match o with Del _ => True | _ => False end) b.

Lemma keff_dels k b : all_del b -> forall cur,
  keff k b cur = if existsb (key_eqb k) (del_keys b) then None else cur.
Proof.
  induction 1 as [|o b Ho Hb IH]; intro cur; [reflexivity|].
  rewrite keff_cons. destruct o as [? ?|k'|?]; try contradiction.
  cbn [op_effect del_keys flat_map app existsb]. rewrite IH.
  destruct (key_eqb k k'); cbn [orb]; [destruct (existsb _ _); reflexivity|reflexivity].
Qed.

Lemma all_del_flat_map {A} (f : A -> kbatch) l :
  (forall x, all_del (f x)) -> all_del (flat_map f l).
Proof.
  intro H. induction l as [|x l IH]; cbn [flat_map]; [constructor|].
  apply Forall_app. split; [apply H|exact IH].
Qed.

Lemma del_keys_app b1 b2 : del_keys (b1 ++ b2) = del_keys b1 ++ del_keys b2.
Proof. unfold del_keys. apply flat_map_app. Qed.

Lemma del_keys_flat_map {A} (f : A -> kbatch) l :
  del_keys (flat_map f l) = flat_map (fun x => del_keys (f x)) l.
Proof.
  induction l as [|x l IH]; cbn [flat_map]; [reflexivity|].
  rewrite del_keys_app, IH. reflexivity.
Qed.

Lemma existsb_key_in k l : existsb (key_eqb k) l = true <-> In k l.
Proof.
  rewrite existsb_exists. split.
  - intros [x [Hx E]]. apply key_eqb_eq in E. subst. exact Hx.
  - intro H. exists k. split; [exact H|apply key_eqb_refl].
Qed.

Lemma existsb_key_notin k l : existsb (key_eqb k) l = false <-> ~ In k l.
Proof.
  rewrite <- existsb_key_in. destruct (existsb (key_eqb k) l); split; intro H;
    try discriminate; try reflexivity; try (intro; discriminate). exfalso. apply H. reflexivity.
Qed.

Lemma in_rows_unsorted (s : kvs) c r :
  In r (rows_unsorted s c) <-> exists q, In (KyRow c q, VRow r) s.
Proof.
  unfold rows_unsorted. rewrite in_flat_map. split.
  - intros [[k v] [Hin Hr]]. destruct k; try contradiction. destruct v; try contradiction.
    destruct (c0 =? c) eqn:E; [|contradiction]. apply N.eqb_eq in E. subst.
    destruct Hr as [Hr|[]]. subst. eexists. exact Hin.
  - intros [q Hin]. exists (KyRow c q, VRow r). split; [exact Hin|].
    rewrite N.eqb_refl. left. reflexivity.
Qed.

Lemma in_rows_of (s : kvs) c r :
  swf s -> (In r (rows_of s c) <-> exists q, kget (KyRow c q) s = Some (VRow r)).
Proof.
  intro W. unfold rows_of. rewrite in_sort_by, in_rows_unsorted.
  split; intros [q H]; exists q; apply (kin_iff_get _ _ _ W); exact H.
Qed.

Lemma rows_of_sorted (s : kvs) c : sorted_le r_seq (rows_of s c).
Proof. apply sort_by_sorted. Qed.

Lemma in_idem_entries (s : kvs) c n u q i h :
  swf s -> (In (n, u, (q, i, h)) (idem_entries s c) <-> kget (KyIdem c n u) s = Some (VIdem q i h)).
Proof.
  intro W. rewrite <- (kin_iff_get _ _ _ W). unfold idem_entries. rewrite in_flat_map. split.
  - intros [[k v] [Hin Hr]]. destruct k; try contradiction. destruct v; try contradiction.
    destruct (c0 =? c) eqn:E; [|contradiction]. apply N.eqb_eq in E. subst.
    destruct Hr as [Hr|[]]. injection Hr as -> -> -> -> ->. exact Hin.
  - intro Hin. exists (KyIdem c n u, VIdem q i h). split; [exact Hin|].
    rewrite N.eqb_refl. left. reflexivity.
Qed.

Lemma in_cidx_seqs (s : kvs) c n q :
  swf s -> (In q (cidx_seqs s c n) <-> exists v, kget (KyCidx c n q) s = Some v).
Proof.
  intro W. unfold cidx_seqs. rewrite in_flat_map. split.
  - intros [[k v] [Hin Hr]]. destruct k; try contradiction.
    destruct ((c0 =? c) && bytes_eqb cno n) eqn:E; [|contradiction]. beq. subst.
    destruct Hr as [Hr|[]]. subst. exists v. apply (kin_iff_get _ _ _ W). exact Hin.
  - intros [v H]. apply (kin_iff_get _ _ _ W) in H. exists (KyCidx c n q, v). split; [exact H|].
    rewrite N.eqb_refl, bytes_eqb_refl. left. reflexivity.
Qed.

Lemma in_sseq_seqs (s : kvs) c u q :
  swf s -> (In q (sseq_seqs s c u) <-> exists v, kget (KySseq c u q) s = Some v).
Proof.
  intro W. unfold sseq_seqs. rewrite in_flat_map. split.
  - intros [[k v] [Hin Hr]]. destruct k; try contradiction.
    destruct ((c0 =? c) && bytes_eqb uid u) eqn:E; [|contradiction]. beq. subst.
    destruct Hr as [Hr|[]]. subst. exists v. apply (kin_iff_get _ _ _ W). exact Hin.
  - intros [v H]. apply (kin_iff_get _ _ _ W) in H. exists (KySseq c u q, v). split; [exact H|].
    rewrite N.eqb_refl, bytes_eqb_refl. left. reflexivity.
Qed.

Lemma in_hist_points (s : kvs) c o e :
  swf s -> (In (o, e) (hist_points s c) <-> exists v, kget (KyHist c o e) s = Some v).
Proof.
  intro W. unfold hist_points. rewrite in_flat_map. split.
  - intros [[k v] [Hin Hr]]. destruct k; try contradiction.
    destruct (c0 =? c) eqn:E; [|contradiction]. beq. subst.
    destruct Hr as [Hr|[]]. injection Hr as -> ->. exists v. apply (kin_iff_get _ _ _ W). exact Hin.
  - intros [v H]. apply (kin_iff_get _ _ _ W) in H. exists (KyHist c o e, v). split; [exact H|].
    rewrite N.eqb_refl. left. reflexivity.
Qed.

Lemma fold_Nmax_ge (l : list N) : forall m, m <= fold_left N.max l m.
Proof.
  induction l as [|x l IH]; intro m; cbn [fold_left]; [lia|]. specialize (IH (N.max m x)). lia.
Qed.

Lemma fold_Nmax_in (l : list N) : forall m x, In x l -> x <= fold_left N.max l m.
Proof.
  induction l as [|y l IH]; intros m x []; cbn [fold_left].
  - subst. pose proof (fold_Nmax_ge l (N.max m x)). lia.
  - apply IH. assumption.
Qed.

Lemma fold_Nmax_cases (l : list N) : forall m,
  fold_left N.max l m = m \/ In (fold_left N.max l m) l.
Proof.
  induction l as [|x l IH]; intro m; cbn [fold_left]; [left; reflexivity|].
  destruct (IH (N.max m x)) as [E|Hin].
  - rewrite E. destruct (N.max_spec m x) as [[_ E2]|[_ E2]]; rewrite E2; [right; left; reflexivity|left; reflexivity].
  - right. right. exact Hin.
Qed.

Lemma fold_Nmax_ext l1 l2 : (forall x, In x l1 <-> In x l2) -> fold_left N.max l1 0 = fold_left N.max l2 0.
Proof.
  intro H. apply N.le_antisymm.
  - destruct (fold_Nmax_cases l1 0) as [E|Hin]; [lia|]. apply fold_Nmax_in. apply H. exact Hin.
  - destruct (fold_Nmax_cases l2 0) as [E|Hin]; [lia|]. apply fold_Nmax_in. apply H. exact Hin.
Qed.

Lemma max_seq_map l : max_seq l = fold_left N.max (map r_seq l) 0.
Proof. unfold max_seq. generalize 0. induction l as [|r l IH]; intro m; cbn [fold_left map]; [reflexivity|apply IH]. Qed.

Lemma max_seq_in l r : In r l -> r_seq r <= max_seq l.
Proof. intro H. rewrite max_seq_map. apply fold_Nmax_in, in_map, H. Qed.

Lemma max_seq_cases l : (max_seq l = 0) \/ exists r, In r l /\ max_seq l = r_seq r.
Proof.
  rewrite max_seq_map. destruct (fold_Nmax_cases (map r_seq l) 0) as [E|H]; [left; exact E|right].
  apply in_map_iff in H. destruct H as [r [E Hr]]. exists r. split; [exact Hr|symmetry; exact E].
Qed.

Lemma max_seq_ext l1 l2 : (forall r, In r l1 <-> In r l2) -> max_seq l1 = max_seq l2.
Proof.
  intro H. rewrite !max_seq_map. apply fold_Nmax_ext. intro x. rewrite !in_map_iff.
  split; intros [r [E Hr]]; exists r; (split; [exact E|apply H, Hr]).
Qed.

Lemma max_seq_le l b : Forall (fun r => r_seq r <= b) l -> max_seq l <= b.
Proof.
  intro H. destruct (max_seq_cases l) as [E|[r [Hr E]]]; [lia|]. rewrite E.
  eapply Forall_forall in H; [exact H|exact Hr].
Qed.

Lemma max_seq_app l1 l2 : max_seq (l1 ++ l2) = N.max (max_seq l1) (max_seq l2).
Proof.
  apply N.le_antisymm.
  - apply max_seq_le, Forall_forall. intros r Hr. apply in_app_or in Hr. destruct Hr as [Hr|Hr]; apply max_seq_in in Hr; lia.
  - apply N.max_lub; apply max_seq_le, Forall_forall; intros r Hr; apply max_seq_in, in_or_app; [left|right]; exact Hr.
Qed.

Lemma last_seq_in (rows : list row) : rows <> [] -> exists r, In r rows /\ r_seq r = last_seq rows.
Proof.
  intro H. unfold last_seq. destruct (rev rows) as [|r l] eqn:E.
  - exfalso. apply H. rewrite <- (rev_involutive rows), E. reflexivity.
  - exists r. split; [apply in_rev; rewrite E; left; reflexivity|reflexivity].
Qed.
