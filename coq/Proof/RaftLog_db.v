(* Proof/RaftLog_db.v — the whole database: all scopes at once, the group write
   worker (one Pebble batch for the requests of several scopes), refused
   commits, reopen. *)
From WK Require Import Base.Base Base.Lists Gen.Consts_C14 Model.RaftLog
     Proof.RaftLog_lists Proof.RaftLog_ref Proof.RaftLog_pebble Proof.RaftLog_ops.
From Coq Require Import ZifyBool ZifyN ZifyNat.
Open Scope N_scope.

Lemma aget_fold_aset {A B} (key : B -> N) (val : B -> A) (l : list B) (init : list (N * A)) (k : N) :
  NoDup (map key l) ->
  aget k (fold_left (fun acc p => aset (key p) (val p) acc) l init) =
  match find (fun p => key p =? k) l with
  | Some p => Some (val p)
  | None => aget k init
  end.
Proof.
  revert init. induction l as [|p l IH]; intros init Hnd; [reflexivity|].
  cbn [map] in Hnd. inversion Hnd as [|? ? Hni Hnd']; subst.
  cbn [fold_left find]. rewrite (IH _ Hnd').
  destruct (key p =? k) eqn:E.
  - assert (Hk : key p = k) by lia. subst k.
    assert (Hf : find (fun p0 => key p0 =? key p) l = None).
    { destruct (find (fun p0 => key p0 =? key p) l) as [p0|] eqn:Ef; [|reflexivity].
      apply find_some in Ef. destruct Ef as [Hin He]. exfalso. apply Hni.
      apply in_map_iff. exists p0. split; [lia|assumption]. }
    rewrite Hf. apply aget_aset_eq.
  - destruct (find (fun p0 => key p0 =? k) l); [reflexivity|].
    apply aget_aset_neq. lia.
Qed.

Lemma aset_keys_in {A} k k' (v : A) l : In k' (map fst (aset k v l)) -> k' = k \/ In k' (map fst l).
Proof.
  induction l as [|[k2 v2] l IH]; cbn [aset map fst].
  - intros [<-|[]]. left. reflexivity.
  - destruct (k2 =? k) eqn:E; cbn [map fst]; intros [<-|H].
    + left. reflexivity.
    + right. right. exact H.
    + right. left. reflexivity.
    + destruct (IH H) as [->|H']; [left; reflexivity|right; right; exact H'].
Qed.

Lemma aset_keys_nodup {A} k (v : A) l : NoDup (map fst l) -> NoDup (map fst (aset k v l)).
Proof.
  induction l as [|[k' v'] l IH]; intro H; cbn [aset].
  - constructor; [intros []|constructor].
  - cbn [map fst] in H. inversion H as [|? ? Hni Hnd]; subst.
    destruct (k' =? k) eqn:E; cbn [map fst].
    + assert (k' = k) by lia. subst k'. constructor; assumption.
    + constructor; [|apply IH; assumption].
      intro Hin. destruct (aset_keys_in _ _ _ _ Hin) as [->|Hin']; [lia|exact (Hni Hin')].
Qed.

Lemma aget_none_not_key {A} k (l : list (N * A)) : aget k l = None <-> ~ In k (map fst l).
Proof.
  induction l as [|[k' v] l IH]; cbn [aget map fst].
  - split; [intros _ []|reflexivity].
  - destruct (k' =? k) eqn:E.
    + split; [discriminate|]. intro H. exfalso. apply H. left. lia.
    + rewrite IH. split; intro H.
      * intros [Hk|Hk]; [lia|apply H; assumption].
      * intro Hk. apply H. right. assumption.
Qed.

Lemma aget_publish lc cache k :
  NoDup (map fst lc) ->
  aget k (publish_cache lc cache) = match aget k lc with Some w => Some w | None => aget k cache end.
Proof.
  intro Hnd. unfold publish_cache. rewrite (aget_fold_aset fst snd lc cache k Hnd).
  clear Hnd. induction lc as [|[k' v] lc IH]; [reflexivity|].
  cbn [find aget fst snd]. destruct (k' =? k); [reflexivity|exact IH].
Qed.


Definition scope_ops (sc : N) (b : list bop) : list bop := filter (fun x => bop_scope x =? sc) b.

Lemma rows_of_apply_batch kv b sc :
  rows_of sc (apply_batch kv b) = fold_left apply_bop_rows (scope_ops sc b) (rows_of sc kv).
Proof.
  revert kv. induction b as [|x b IH]; intro kv; [reflexivity|].
  unfold apply_batch in *. cbn [fold_left scope_ops filter]. rewrite IH. unfold apply_bop.
  destruct (bop_scope x =? sc) eqn:E.
  - assert (bop_scope x = sc) by lia. subst sc. rewrite rows_of_aset_same. reflexivity.
  - rewrite rows_of_aset_other by lia. reflexivity.
Qed.

Lemma scope_ops_app sc b1 b2 : scope_ops sc (b1 ++ b2) = scope_ops sc b1 ++ scope_ops sc b2.
Proof. apply filter_app. Qed.

Lemma scope_ops_same sc b : Forall (fun x => bop_scope x = sc) b -> scope_ops sc b = b.
Proof. rewrite Forall_forall. intro H. apply filter_all. intros x Hx. rewrite (H x Hx). apply N.eqb_refl. Qed.

Lemma scope_ops_other sc s b : Forall (fun x => bop_scope x = sc) b -> s <> sc -> scope_ops s b = [].
Proof. rewrite Forall_forall. intros H Hs. apply filter_none. intros x Hx. rewrite (H x Hx). lia. Qed.

Definition ref_of (sc : N) (rs : list (N * rstate)) : rstate :=
  match aget sc rs with Some r => r | None => rstate0 end.

(* last clause: a cached writer state is the one load_from_rows would rebuild *)
Definition ScopeInv (c : cstate) (sc : N) (r : rstate) : Prop :=
  wf r
  /\ RowsInv (c_files c) (c_next c) (rows_of sc (c_kv c)) r
  /\ (forall w, aget sc (c_cache c) = Some w ->
                exists cs, ref_conf r = Some cs /\ w = canon_w (rows_of sc (c_kv c)) r cs).

Definition Inv (c : cstate) (rs : list (N * rstate)) : Prop :=
  forall sc, ScopeInv c sc (ref_of sc rs).

Lemma Inv_init : Inv cstate0 [].
Proof.
  intro sc. unfold ScopeInv, ref_of. cbn [aget cstate0 c_kv c_files c_next c_cache].
  split; [apply wf_rstate0|]. split; [apply RowsInv_rows0|]. intros w H. discriminate.
Qed.

Lemma RowsInv_mono c c' rw r :
  files_mono c c' -> RowsInv (c_files c) (c_next c) rw r -> RowsInv (c_files c') (c_next c') rw r.
Proof.
  intros Hm (Hh & Hc & He & Hs & Hmeta). repeat split; try assumption. apply Hm. assumption.
Qed.

Lemma Inv_mono c c' rs : plan_ext c c' -> Inv c rs -> Inv c' rs.
Proof.
  intros (Hkv & Hca & Hm) H sc. destruct (H sc) as (Hwf & Hri & Hcw).
  unfold ScopeInv. rewrite Hkv, Hca. split; [assumption|]. split; [|assumption].
  eapply RowsInv_mono; eassumption.
Qed.

Record plreq := PL { pl_sc : N; pl_q : wreq; pl_ref : rstate; pl_op : writeOp }.
Definition pl_req (p : plreq) : N * writeOp := (pl_sc p, pl_op p).

Definition planned (c : cstate) (rs : list (N * rstate)) (p : plreq) : Prop :=
  let '(PL sc q r' o) := p in
  let r := ref_of sc rs in
  ref_req false r q = ROk r' /\ req_valid r q = true /\ k1_signature r q = false
  /\ match q, o with
     | WSave hs ents snap, WOSave sv =>
         plan_ok (c_files c) (c_next c) (rows_of sc (c_kv c)) r hs ents snap sv
     | WMark i, WOMark j => i = j
     | WCfg i, WOCfg j => i = j
     | _, _ => False
     end.

Lemma plan_ok_mono c c' rw r hs ents snap sv :
  files_mono c c' ->
  plan_ok (c_files c) (c_next c) rw r hs ents snap sv ->
  plan_ok (c_files c') (c_next c') rw r hs ents snap sv.
Proof.
  intros Hm H. unfold plan_ok in *. destruct snap as [s|].
  - destruct H as (mf' & Hsv & Hrel & Hsame). exists mf'. split; [assumption|]. split; [apply Hm; assumption|assumption].
  - destruct H as [Hsv Hrel]. split; [assumption|apply Hm; assumption].
Qed.

Lemma planned_mono c c' rs p : plan_ext c c' -> planned c rs p -> planned c' rs p.
Proof.
  intros (Hkv & _ & Hm). destruct p as [sc q r' o]. unfold planned. rewrite Hkv.
  intros (H1 & H2 & H3 & H4). repeat split; try assumption.
  destruct q, o; try assumption. eapply plan_ok_mono; eassumption.
Qed.

Lemma plan_req_sim c rs sc q :
  Inv c rs -> req_valid (ref_of sc rs) q = true -> k1_signature (ref_of sc rs) q = false ->
  match ref_req false (ref_of sc rs) q with
  | ROk r' => exists c' o,
      plan_req c sc q = Ok (c', o)
      /\ plan_ext c c'
      /\ planned c' rs (PL sc q r' o)
  | RRej e => plan_req c sc q = Err e
  | RInvalid => True
  end.
Proof.
  intros HI Hv Hk. destruct (HI sc) as (Hwf & Hri & _).
  destruct q as [hs ents snap|i|i]; cbn [ref_req plan_req].
  - destruct (ref_save false (ref_of sc rs) hs ents snap) as [r'|e|] eqn:Href; [| |exact I].
    + destruct (plan_save_ok c sc _ hs ents snap r' Hwf Hri Hv Href) as (c' & sv & Hp & Hext & Hok).
      pose proof Hext as (Hkv & _).
      rewrite Hp. exists c', (WOSave sv). split; [reflexivity|]. split; [exact Hext|].
      unfold planned. cbn [ref_req]. rewrite Href, Hkv. repeat split; assumption.
    + rewrite (plan_save_rej c sc _ hs ents snap e Hwf Hri Hv Href). reflexivity.
  - exists c, (WOMark i). split; [reflexivity|]. split; [apply plan_ext_refl|]. unfold planned. cbn [ref_req]. repeat split; assumption.
  - exists c, (WOCfg i). split; [reflexivity|]. split; [apply plan_ext_refl|]. unfold planned. cbn [ref_req]. repeat split; assumption.
Qed.

Definition pre_code (rs : list (N * rstate)) (p : N * wreq) : option N :=
  match ref_req false (ref_of (fst p) rs) (snd p) with RRej e => Some e | _ => None end.

Definition req_valid_nok1 (rs : list (N * rstate)) (p : N * wreq) : Prop :=
  req_valid (ref_of (fst p) rs) (snd p) = true /\ k1_signature (ref_of (fst p) rs) (snd p) = false.


Lemma plan_group_sim rs reqs : forall c,
  Inv c rs -> Forall (req_valid_nok1 rs) reqs ->
  exists c1 pl,
    plan_group c reqs = (c1, map pl_req pl, map (pre_code rs) reqs)
    /\ plan_ext c c1
    /\ Forall (planned c1 rs) pl
    /\ (forall p, In p pl -> In (pl_sc p, pl_q p) reqs)
    /\ (NoDup (map fst reqs) -> NoDup (map pl_sc pl))
    /\ (forall sc q, In (sc, q) reqs -> ~ In sc (map pl_sc pl) ->
                     forall r', ref_req false (ref_of sc rs) q <> ROk r').
Proof.
  induction reqs as [|[sc q] reqs IH]; intros c HI Hall.
  { exists c, []. cbn. split; [reflexivity|]. split; [apply plan_ext_refl|].
    repeat split; try constructor; [intros p []|intros sc q []]. }
  inversion Hall as [|? ? [Hv Hk] Hall']; subst. cbn [fst snd] in *.
  pose proof (plan_req_sim c rs sc q HI Hv Hk) as Hp.
  cbn [plan_group map]. unfold pre_code at 1. cbn [fst snd].
  destruct (ref_req false (ref_of sc rs) q) as [r'|e|] eqn:Href;
    [|clear Hk|destruct (req_valid_not_invalid _ _ Hv Href)].
  - destruct Hp as (c' & o & Hpr & Hx & Hpl). rewrite Hpr.
    destruct (IH c' (Inv_mono _ _ _ Hx HI) Hall') as (c1 & pl & Hg & Hx1 & Hpls & Hin & Hnd & Hrej).
    rewrite Hg. exists c1, ((PL sc q r' o) :: pl). cbn [map pl_req pl_sc pl_op].
    split; [reflexivity|]. split; [exact (plan_ext_trans _ _ _ Hx Hx1)|].
    split; [constructor; [exact (planned_mono _ _ _ _ Hx1 Hpl)|exact Hpls]|].
    split; [intros p [<-|Hp']; [left; reflexivity|right; apply Hin; assumption]|].
    split.
    { intro H. inversion H as [|? ? Hni Hnd']; subst. constructor; [|apply Hnd; assumption].
      intro Hc. apply Hni. apply in_map_iff in Hc. destruct Hc as (p & <- & Hp').
      exact (in_map fst _ _ (Hin p Hp')). }
    intros s q0 [Hq0|Hq0] Hns r0.
    + inversion Hq0; subst. exfalso. apply Hns. left. reflexivity.
    + apply (Hrej s q0 Hq0). intro Hc. apply Hns. right. assumption.
  - rewrite Hp.
    destruct (IH c HI Hall') as (c1 & pl & Hg & Hx1 & Hpls & Hin & Hnd & Hrej).
    rewrite Hg. exists c1, pl. repeat (split; [assumption||reflexivity|]).
    split; [intros p Hp'; right; apply Hin; assumption|].
    split; [intro H; inversion H; subst; apply Hnd; assumption|].
    intros s q0 [Hq0|Hq0] Hns r0; [|exact (Hrej s q0 Hq0 Hns r0)].
    inversion Hq0; subst. rewrite Href. discriminate.
Qed.

Lemma writeOp_sim c rs sc q r' o cs :
  Inv c rs -> planned c rs (PL sc q r' o) -> ref_conf (ref_of sc rs) = Some cs ->
  let rw := rows_of sc (c_kv c) in
  exists b st' cs',
    writeOp_apply sc (canon_w rw (ref_of sc rs) cs) o = Ok (b, st')
    /\ Forall (fun x => bop_scope x = sc) b
    /\ RowsInv (c_files c) (c_next c) (fold_left apply_bop_rows b rw) r'
    /\ ref_conf r' = Some cs'
    /\ st' = canon_w (fold_left apply_bop_rows b rw) r' cs'.
Proof.
  intros HI (Href & Hv & Hk & Hm) Hcs rw. destruct (HI sc) as (Hwf & Hri & _).
  destruct q as [hs ents snap|i|i]; destruct o as [sv|j|j]; try contradiction; cbn [ref_req writeOp_apply] in *.
  - exact (saveOp_sim sc _ _ _ _ _ _ cs hs ents snap sv r' Hwf Hri Hcs Hv Hk Href Hm).
  - subst j. injection Href as <-. pose proof (markApplied_sim sc _ _ rw _ cs i Hri Hcs) as H.
    destruct (markAppliedOp_apply sc (canon_w rw (ref_of sc rs) cs) i) as [b st'].
    exists b, st', cs. split; [reflexivity|exact H].
  - subst j. injection Href as <-. pose proof (markConfigApplied_sim sc _ _ rw _ cs i Hri Hcs) as H.
    destruct (markConfigAppliedOp_apply sc (canon_w rw (ref_of sc rs) cs) i) as [b st'].
    exists b, st', cs. split; [reflexivity|exact H].
Qed.

(* the scope is not in the local cache yet: the writer state comes from DB.stateCache or
   from the rows, the same either way *)
Lemma stage_one c rs lc sc q r' o :
  Inv c rs -> planned c rs (PL sc q r' o) -> aget sc lc = None ->
  let rw := rows_of sc (c_kv c) in
  exists st b st' cs',
    loadScopeWriteState c lc sc = Ok st /\ writeOp_apply sc st o = Ok (b, st')
    /\ Forall (fun x => bop_scope x = sc) b
    /\ wf r' /\ ref_conf r' = Some cs'
    /\ RowsInv (c_files c) (c_next c) (fold_left apply_bop_rows b rw) r'
    /\ st' = canon_w (fold_left apply_bop_rows b rw) r' cs'.
Proof.
  intros HI Hp Hfree rw. destruct (HI sc) as (Hwf & Hri & Hcw).
  destruct (wf_conf _ Hwf) as (cs & Hcs).
  destruct (writeOp_sim c rs sc q r' o cs HI Hp Hcs) as (b & st' & cs' & Hap & Hbs & Hri' & Hcs' & Hst').
  exists (canon_w rw (ref_of sc rs) cs), b, st', cs'. split.
  { unfold loadScopeWriteState. rewrite Hfree.
    destruct (aget sc (c_cache c)) as [w|] eqn:Ec; [|eapply load_canon; eassumption].
    destruct (Hcw w eq_refl) as (cs0 & Hcs0 & ->). rewrite Hcs in Hcs0. inversion Hcs0. reflexivity. }
  destruct Hp as (Href & Hv & Hk & _). pose proof (ref_req_wf _ _ _ Hwf Hv Hk Href) as Hwf'.
  repeat (split; [assumption|]). assumption.
Qed.

Lemma stage_sim c rs : Inv c rs -> forall pl lc batch,
  NoDup (map pl_sc pl) -> NoDup (map fst lc) ->
  (forall sc, In sc (map pl_sc pl) -> aget sc lc = None) ->
  Forall (planned c rs) pl ->
  exists batch' lc',
    stage_requests c lc batch (map pl_req pl) = Ok (batch ++ batch', lc')
    /\ NoDup (map fst lc')
    /\ (forall sc, ~ In sc (map pl_sc pl) -> scope_ops sc batch' = [] /\ aget sc lc' = aget sc lc)
    /\ (forall p, In p pl ->
          let rw' := fold_left apply_bop_rows (scope_ops (pl_sc p) batch') (rows_of (pl_sc p) (c_kv c)) in
          exists cs', wf (pl_ref p) /\ ref_conf (pl_ref p) = Some cs'
            /\ RowsInv (c_files c) (c_next c) rw' (pl_ref p)
            /\ aget (pl_sc p) lc' = Some (canon_w rw' (pl_ref p) cs')).
Proof.
  intro HI. induction pl as [|p pl IH]; intros lc batch Hnd Hndl Hfree Hpl.
  { exists [], lc. cbn [map stage_requests]. rewrite app_nil_r.
    split; [reflexivity|]. split; [assumption|]. split; [split; reflexivity|intros p []]. }
  inversion Hpl as [|? ? Hp Hpl']; subst.
  cbn [map] in Hnd. inversion Hnd as [|? ? Hni Hnd']; subst.
  destruct p as [sc q r' o]. cbn [pl_sc pl_ref map] in *. change (pl_req (PL sc q r' o)) with (sc, o).
  destruct (stage_one c rs lc sc q r' o HI Hp (Hfree sc (or_introl eq_refl)))
    as (st & b & st' & cs' & Hload & Hap & Hbs & Hwf' & Hcs' & Hri' & Hst').
  cbn [stage_requests]. rewrite Hload, Hap.
  destruct (IH (aset sc st' lc) (batch ++ b) Hnd' (aset_keys_nodup _ _ _ Hndl))
    as (batch'' & lc' & Hst & Hndl' & Hother & Heff); [|assumption|].
  { intros s Hs. rewrite aget_aset_neq; [apply Hfree; right; assumption|].
    intro Heq. subst s. apply Hni. assumption. }
  exists (b ++ batch''), lc'. rewrite app_assoc. split; [exact Hst|]. split; [assumption|].
  split.
  { intros s Hs. destruct (Hother s (fun H => Hs (or_intror H))) as [Hb'' Hl'].
    assert (Hne : s <> sc) by (intro Heq; apply Hs; left; symmetry; assumption).
    rewrite scope_ops_app, Hb'', Hl', (scope_ops_other sc s b Hbs Hne). split; [reflexivity|].
    apply aget_aset_neq. exact Hne. }
  intros p0 [<-|Hin]; cbn zeta; rewrite scope_ops_app.
  - cbn [pl_sc pl_ref]. destruct (Hother sc Hni) as [Hb'' Hl'].
    rewrite Hb'', app_nil_r, (scope_ops_same sc b Hbs), Hl', aget_aset_eq, Hst'.
    exists cs'. split; [assumption|]. split; [assumption|]. split; [assumption|reflexivity].
  - assert (Hne : pl_sc p0 <> sc) by (intro Heq; apply Hni; rewrite <- Heq; apply in_map; assumption).
    rewrite (scope_ops_other sc _ b Hbs Hne). exact (Heff p0 Hin).
Qed.

Lemma find_key_in {B} (key : B -> N) l k p :
  NoDup (map key l) -> In p l -> key p = k -> find (fun x => key x =? k) l = Some p.
Proof.
  induction l as [|x l IH]; intros Hnd Hin Hk; [destruct Hin|].
  cbn [map] in Hnd. inversion Hnd as [|? ? Hni Hnd']; subst.
  cbn [find]. destruct Hin as [->|Hin].
  - rewrite N.eqb_refl. reflexivity.
  - destruct (key x =? key p) eqn:E.
    + exfalso. apply Hni. apply in_map_iff. exists p. split; [lia|assumption].
    + apply IH; [assumption|assumption|reflexivity].
Qed.

Lemma find_key_none {B} (key : B -> N) l k :
  ~ In k (map key l) -> find (fun x => key x =? k) l = None.
Proof.
  intro H. destruct (find (fun x => key x =? k) l) as [p|] eqn:E; [|reflexivity].
  apply find_some in E. destruct E as [Hin He]. exfalso. apply H.
  apply in_map_iff. exists p. split; [lia|assumption].
Qed.

Lemma flush_sim c rs pl :
  Inv c rs -> NoDup (map pl_sc pl) -> Forall (planned c rs) pl ->
  exists c', flushWriteRequests c false (map pl_req pl) = (c', 0)
             /\ (forall rs', (forall sc, ref_of sc rs' = match find (fun p => pl_sc p =? sc) pl with
                                                           | Some p => pl_ref p
                                                           | None => ref_of sc rs
                                                           end) -> Inv c' rs')
             /\ exists batch lc, stage_requests c [] [] (map pl_req pl) = Ok (batch, lc)
                                 /\ c' = CS (apply_batch (c_kv c) batch) (publish_cache lc (c_cache c)) (c_files c) (c_next c).
Proof.
  intros HI Hnd Hpl.
  destruct (stage_sim c rs HI pl [] [] Hnd (NoDup_nil _) (fun _ _ => eq_refl) Hpl)
    as (batch & lc & Hst & Hndl & Hother & Heff).
  unfold flushWriteRequests. rewrite Hst. cbn [app].
  eexists. split; [reflexivity|]. split; [|exists batch, lc; split; reflexivity].
  intros rs' Hrs' sc. rewrite Hrs'.
  unfold ScopeInv. cbn [c_kv c_files c_next c_cache].
  rewrite rows_of_apply_batch, (aget_publish lc (c_cache c) sc Hndl).
  destruct (in_dec N.eq_dec sc (map pl_sc pl)) as [Hin|Hni].
  - apply in_map_iff in Hin. destruct Hin as (p & <- & Hin).
    rewrite (find_key_in pl_sc pl _ p Hnd Hin eq_refl).
    destruct (Heff p Hin) as (cs' & Hwf' & Hcs' & Hri' & Hlc). rewrite Hlc.
    split; [assumption|]. split; [assumption|].
    intros w Hw. inversion Hw; subst w. exists cs'. split; [assumption|reflexivity].
  - rewrite (find_key_none pl_sc pl sc Hni). destruct (Hother sc Hni) as [-> ->].
    exact (HI sc).
Qed.

Lemma flush_refused c rs pl :
  Inv c rs -> NoDup (map pl_sc pl) -> Forall (planned c rs) pl ->
  flushWriteRequests c true (map pl_req pl) = (c, errInjected).
Proof.
  intros HI Hnd Hpl.
  destruct (stage_sim c rs HI pl [] [] Hnd (NoDup_nil _) (fun _ _ => eq_refl) Hpl)
    as (batch & lc & Hst & _).
  unfold flushWriteRequests. rewrite Hst. reflexivity.
Qed.


Lemma reopen_Inv c rs : Inv c rs -> Inv (reopen c) rs.
Proof.
  intros HI sc. destruct (HI sc) as (Hwf & Hri & _). unfold ScopeInv, reopen, drop_cache.
  cbn [c_kv c_files c_next c_cache]. split; [assumption|]. split; [assumption|]. intros w Hw. discriminate.
Qed.

Definition expected_codes (rs : list (N * rstate)) (reqs : list (N * wreq)) : list N :=
  map (fun p => expected_code (ref_req false (ref_of (fst p) rs) (snd p))) reqs.

Lemma scopes_distinct_nodup l : scopes_distinct l = true -> NoDup l.
Proof.
  induction l as [|x l IH]; intro H; [constructor|].
  cbn [scopes_distinct] in H. apply andb_true_iff in H. destruct H as [Hx Hl].
  constructor; [|apply IH; assumption].
  intro Hin. apply negb_true_iff in Hx.
  assert (existsb (N.eqb x) l = true) by (apply existsb_exists; exists x; split; [assumption|apply N.eqb_refl]).
  congruence.
Qed.

Lemma codes_of_pre rs reqs :
  map (fun p => match p with Some e => e | None => 0 end) (map (pre_code rs) reqs) = expected_codes rs reqs.
Proof.
  unfold expected_codes. rewrite map_map. apply map_ext. intros [sc q]. unfold pre_code. cbn [fst snd].
  destruct (ref_req false (ref_of sc rs) q); reflexivity.
Qed.

Lemma run_group_commit c rs reqs :
  Inv c rs -> scopes_distinct (map fst reqs) = true -> Forall (req_valid_nok1 rs) reqs ->
  exists c',
    run_group c 0 reqs = (c', expected_codes rs reqs)
    /\ forall rs',
         (forall sc, ref_of sc rs' =
                     match find (fun p => fst p =? sc) reqs with
                     | Some p => match ref_req false (ref_of (fst p) rs) (snd p) with
                                 | ROk r' => r'
                                 | _ => ref_of (fst p) rs
                                 end
                     | None => ref_of sc rs
                     end) -> Inv c' rs'.
Proof.
  intros HI Hd Hall. apply scopes_distinct_nodup in Hd.
  destruct (plan_group_sim rs reqs c HI Hall) as (c1 & pl & Hg & Hx & Hpls & Hin & Hnd & Hrej).
  specialize (Hnd Hd).
  pose proof (Inv_mono _ _ _ Hx HI) as HI1.
  unfold run_group. rewrite Hg. cbn [N.eqb negb].
  assert (Hfl : exists c', (match map pl_req pl with
                            | [] => (c1, 0)
                            | _ :: _ => flushWriteRequests c1 false (map pl_req pl)
                            end) = (c', 0)
                           /\ forall rs', (forall sc, ref_of sc rs' = match find (fun p => pl_sc p =? sc) pl with
                                                                      | Some p => pl_ref p
                                                                      | None => ref_of sc rs
                                                                      end) -> Inv c' rs').
  { destruct (flush_sim c1 rs pl HI1 Hnd Hpls) as (c' & Hf & HI' & _).
    destruct pl as [|p pl'].
    - exists c1. split; [reflexivity|]. intros rs' Hrs' sc. rewrite (Hrs' sc). apply HI1.
    - exists c'. split; [exact Hf|exact HI']. }
  destruct Hfl as (c' & Hf & HI'). rewrite Hf.
  exists c'. split; [f_equal; apply codes_of_pre|].
  intros rs' Hrs'. apply HI'. intro sc. rewrite Hrs'.
  destruct (in_dec N.eq_dec sc (map pl_sc pl)) as [Hi|Hni].
  - apply in_map_iff in Hi. destruct Hi as (p & <- & Hp).
    rewrite (find_key_in pl_sc pl _ p Hnd Hp eq_refl).
    rewrite (find_key_in fst reqs (pl_sc p) (pl_sc p, pl_q p) Hd (Hin p Hp) eq_refl). cbn [fst snd].
    pose proof (proj1 (Forall_forall _ _) Hpls p Hp) as Hpp. destruct p as [s q r' o].
    destruct Hpp as (Href & _). cbn [pl_sc pl_q pl_ref]. rewrite Href. reflexivity.
  - rewrite (find_key_none pl_sc pl sc Hni).
    destruct (find (fun p => fst p =? sc) reqs) as [[sc' q]|] eqn:Ef; [|reflexivity].
    apply find_some in Ef. destruct Ef as [Hq E]. cbn [fst snd] in *.
    assert (sc' = sc) by lia. subst sc'.
    destruct (ref_req false (ref_of sc rs) q) as [r'|e|] eqn:E'; try reflexivity.
    destruct (Hrej sc q Hq Hni r' E').
Qed.

Lemma run_group_refused c rs mode reqs :
  Inv c rs -> scopes_distinct (map fst reqs) = true -> Forall (req_valid_nok1 rs) reqs -> mode <> 0 ->
  exists c' codes,
    run_group c mode reqs = (c', codes)
    /\ Inv c' rs
    /\ forallb (fun x => negb (x =? 0)) codes = true
    /\ length codes = length reqs.
Proof.
  intros HI Hd Hall Hmode. apply scopes_distinct_nodup in Hd.
  destruct (plan_group_sim rs reqs c HI Hall) as (c1 & pl & Hg & Hx & Hpls & Hin & Hnd & Hrej).
  specialize (Hnd Hd).
  pose proof (Inv_mono _ _ _ Hx HI) as HI1.
  unfold run_group. rewrite Hg.
  replace (mode =? 0) with false by lia. cbn [negb].
  assert (Hfl : exists code, (match map pl_req pl with
                              | [] => (c1, 0)
                              | _ :: _ => flushWriteRequests c1 true (map pl_req pl)
                              end) = (c1, code)
                             /\ (pl <> [] -> code = errInjected)).
  { pose proof (flush_refused c1 rs pl HI1 Hnd Hpls) as Hf.
    destruct pl as [|p pl'].
    - exists 0. split; [reflexivity|]. intro H. congruence.
    - exists errInjected. split; [exact Hf|reflexivity]. }
  destruct Hfl as (code & Hf & Hcode). rewrite Hf.
  eexists. eexists. split; [reflexivity|].
  split.
  { destruct (mode =? 2); [apply reopen_Inv|]; exact HI1. }
  split; [|rewrite !map_length; reflexivity].
  apply forallb_forall. intros x Hxc. apply in_map_iff in Hxc. destruct Hxc as (po & <- & Hpo).
  apply in_map_iff in Hpo. destruct Hpo as ([sc q] & <- & Hq).
  unfold pre_code. cbn [fst snd].
  destruct (ref_req false (ref_of sc rs) q) as [r'|e|] eqn:Href.
  - (* accepted by planning, so it was enqueued: pl is not empty *)
    assert (Hne : pl <> []).
    { intro Hnil. subst pl. exact (Hrej sc q Hq (fun H => H) r' Href). }
    rewrite (Hcode Hne). reflexivity.
  - apply negb_true_iff. apply N.eqb_neq. eapply ref_req_rej_nonzero. eassumption.
  - pose proof (proj1 (Forall_forall _ _) Hall (sc, q) Hq) as [Hv _].
    destruct (req_valid_not_invalid _ _ Hv Href).
Qed.

Lemma reopen_rebuilds_cache c rs sc w :
  Inv c rs -> aget sc (c_cache c) = Some w ->
  loadScopeWriteState (reopen c) [] sc = Ok w.
Proof.
  intros HI Hw. destruct (HI sc) as (Hwf & Hri & Hcw).
  destruct (Hcw w Hw) as (cs & Hcs & ->).
  unfold loadScopeWriteState, reopen, drop_cache. cbn [aget c_cache c_kv].
  eapply load_canon; eassumption.
Qed.

Lemma Inv_persisted c c' rs sc : Inv c rs -> meta_persisted c c' sc (ref_of sc rs) -> Inv c' rs.
Proof.
  intros HI (Hf & Hn & Hca & Hkv & Hri' & Hks) s. destruct (HI s) as (Hwf & Hri & Hcw).
  unfold ScopeInv. rewrite Hca.
  destruct (N.eq_dec s sc) as [->|Hne].
  - split; [assumption|]. split; [assumption|].
    intros w Hw. destruct (Hcw w Hw) as (cs & Hcs & ->). exists cs. split; [assumption|].
    unfold canon_w. rewrite Hks. reflexivity.
  - assert (Hsame : rows_of s (c_kv c') = rows_of s (c_kv c))
      by (destruct Hkv as [Hkv|Hkv]; rewrite Hkv; [reflexivity|apply rows_of_aset_other; assumption]).
    rewrite Hsame, Hf, Hn. split; [assumption|]. split; assumption.
Qed.
