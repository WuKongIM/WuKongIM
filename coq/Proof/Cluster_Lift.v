(* Proof/Cluster_Lift.v — generic lifting: any reflexive, transitive relation on replicas that every
   Sync and every recovery suffix replacement satisfies is satisfied, replica by replica, by every
   owner-level operation (durability rounds, barrier, recovery repair, Install, Commit, follower gap
   repair).  Instantiated with the invariant of C02 in Proof/Cluster_WF.v, with digests and with log growth in
   Proof/QuorumLog_C01_partial.v (log growth again in QuorumLog_C04_cross.v), trivially in QuorumLog_C03.v. *)
From WK Require Import Base.Base.
From WK Require Import Model.ReplicaLog Model.QuorumLog Model.Cluster.
From WK Require Import Proof.ReplicaLog Proof.QuorumLog_Commit Proof.QuorumLog_C04.
From Coq Require Import ZifyBool ZifyN.
Open Scope N_scope.

(* one page of repairQuorumPrefix: it returns at once without writing, or replaces a suffix of the local
   log and then stops with an error or goes on from the state it loads back *)
Lemma repair_pages_step fuel n local sel maxBytes current from keepThrough previous firstPage n' r :
  repair_pages (S fuel) n local sel maxBytes current from keepThrough previous firstPage = (n', r) ->
  (n' = n /\ (r = inr (current, from) \/ exists e, r = inl e)) \/
  exists q n1 res, local_replace n local q = (n1, res) /\
    ((n' = n1 /\ exists e, r = inl e) \/
     exists loaded es from' previous',
       loadRecoveryReplicaState n1 local [] = inr (loaded, es) /\
       repair_pages fuel n1 local sel maxBytes loaded from' keepThrough previous' false = (n', r)).
Proof.
  cbn [repair_pages]. destruct (sl_index sel <? from); [intros [= <- <-]; auto|].
  destruct (fetchRecoveryPage _ _ _ _ _ _ _ _) as [e | ps]; [intros [= <- <-]; eauto|].
  destruct (negb (validRecoveryProposals _ _ _ _ _)); [intros [= <- <-]; eauto|].
  destruct (last_proposal ps) as [lm lrecs].
  destruct (SealProposalManifest lm lrecs) as [[sm les]|]; [|intros [= <- <-]; eauto].
  destruct (_ && _ && _); [intros [= <- <-]; eauto|].
  destruct (local_replace n local _) as [n1 res] eqn:E. intro H. right. do 3 eexists. split; [exact E|].
  destruct res as [e | lo]; [injection H as <- <-; eauto|].
  destruct (negb (lo =? m_last lm)); [injection H as <- <-; eauto|].
  destruct (loadRecoveryReplicaState n1 local []) as [e | [loaded es]]; [injection H as <- <-; eauto|].
  destruct (negb (rstate_eqb loaded _)); [injection H as <- <-; eauto|]. right. eauto 6.
Qed.

(* repairQuorumPrefix: it refuses without writing, finds the local log already ending in the selection, or runs
   the page loop from the loaded state, followed — only for an empty selection — by one more replacement *)
Lemma repairQuorumPrefix_cases n local voters q sel maxBytes n' r :
  repairQuorumPrefix n local voters q sel maxBytes = (n', r) ->
  (n' = n /\ exists e, r = inl e) \/
  exists localSt es, loadRecoveryReplicaState n local [] = inr (localSt, es) /\
    ((n' = n /\ r = inr localSt /\ rs_leo localSt = sl_index sel /\ rs_tail localSt = sl_ident sel) \/
     exists fuel from keep previous n1 res,
       repair_pages fuel n local sel maxBytes localSt from keep previous true = (n1, res) /\
       match res with
       | inl e => n' = n1 /\ r = inl e
       | inr (current, _) =>
           (sl_index sel = 0 /\ exists q2 res2, local_replace n1 local q2 = (n', res2)) \/
           (n' = n1 /\ ((exists e, r = inl e) \/
                        (r = inr current /\ rs_leo current = sl_index sel /\ rs_tail current = sl_ident sel)))
       end).
Proof.
  unfold repairQuorumPrefix. destruct (_ || _); [intros [= <- <-]; eauto|].
  destruct (loadRecoveryReplicaState n local []) as [e | [localSt es]]; [intros [= <- <-]; eauto|].
  destruct (sl_index sel <? rs_committed localSt); [intros [= <- <-]; eauto|].
  match goal with |- context[match ?prev with inl _ => _ | inr _ => _ end] => destruct prev as [e | previous] end;
    [intros [= <- <-]; eauto|].
  destruct (_ && _ && _) eqn:Eearly.
  { intros [= <- <-]. rewrite !andb_true_iff, N.eqb_eq, ident_eqb_eq in Eearly. right. exists localSt, es. intuition. }
  destruct (repair_pages _ n local sel maxBytes localSt _ _ previous true) as [n1 res] eqn:E. intro H.
  right. exists localSt, es. split; [reflexivity|]. right. do 6 eexists. split; [exact E|].
  destruct res as [e | [current from]]; [injection H as <- <-; auto|].
  destruct ((from =? 1) && (sl_index sel =? 0)) eqn:Ez.
  - left. split; [lia|]. destruct (local_replace n1 local _) as [n2 res2] eqn:E2. do 2 eexists.
    replace n' with n2; [exact E2|].
    destruct res2 as [e | lo]; [|destruct (lo =? 0); [destruct (_ || _ || _)|]]; injection H as <- _; reflexivity.
  - right. destruct (_ || _ || negb (ident_eqb (rs_tail current) (sl_ident sel))) eqn:Ec; injection H as <- <-;
      (split; [reflexivity|]); [eauto|].
    rewrite !orb_false_iff, !negb_false_iff, N.eqb_eq, ident_eqb_eq in Ec. right. intuition.
Qed.

Section Lift.
  Variable R : replica -> replica -> Prop.
  Hypothesis R_refl : forall rp, R rp rp.
  Hypothesis R_trans : forall a b c, R a b -> R b c -> R a c.
  Hypothesis R_sync : forall k rp mu rp' o nf, sync k rp mu = (rp', o, nf) -> R rp rp'.
  Hypothesis R_replace : forall k rp q rp' lo, replace k rp q = inr (rp', lo) -> R rp rp'.

Definition net_ok (n n' : net) : Prop :=
  nt_kind n' = nt_kind n /\ forall v, R (net_rep n v) (net_rep n' v).

Lemma net_ok_refl n : net_ok n n.
Proof. split; [reflexivity | intro v; apply R_refl]. Qed.

Lemma net_ok_trans a b c : net_ok a b -> net_ok b c -> net_ok a c.
Proof.
  intros [K1 H1] [K2 H2]. split; [congruence|]. intro v. eapply R_trans; eauto.
Qed.

Lemma net_set_ok n v rp : R (net_rep n v) rp -> net_ok n (net_set n v rp).
Proof.
  intro H. split; [reflexivity|]. intro w. rewrite net_rep_set.
  destruct (w =? v) eqn:E; [apply N.eqb_eq in E; subst; exact H | apply R_refl].
Qed.

(* an exit that returns the network it was given *)
Ltac stays := intro X; inversion X; apply net_ok_refl.

Lemma submitLocal_ok n local p n' o : submitLocal n local p = (n', o) -> net_ok n n'.
Proof.
  unfold submitLocal. destruct (memN local (fl_drop (nt_flt n))); [stays|].
  destruct (sync (nt_kind n) (net_rep n local) (dp_mutation p)) as [[rp o1] nf] eqn:E.
  intro H. assert (n' = net_set n local rp) by (destruct (memN local _); inversion H; reflexivity). subst.
  apply net_set_ok. eapply R_sync; eauto.
Qed.

Lemma submitReplica_ok n local v p n' o : submitReplica n local v p = (n', o) -> net_ok n n'.
Proof.
  unfold submitReplica. destruct (unreachable n local v); [stays|].
  destruct (negb (net_known n v) || negb (replicate_request_valid (dp_leader p) v p)); [stays|].
  destruct (sync (nt_kind n) (net_rep n v) (dp_mutation p)) as [[rp o1] nf] eqn:E.
  intro H. assert (n' = net_set n v rp).
  { destruct (memN v _); [inversion H; reflexivity|]. destruct o1; try (inversion H; reflexivity).
    destruct (0 <? nf); inversion H; reflexivity. }
  subst. apply net_set_ok. eapply R_sync; eauto.
Qed.

Lemma runDurableRound_ok n local voters wq rot p n' res :
  runDurableRound n local voters wq rot p = (n', res) -> net_ok n n'.
Proof.
  unfold runDurableRound. cbv zeta. destruct (submitLocal n local p) as [n1 o1] eqn:E1.
  destruct (submit_all n1 local p _ _) as [n2 queue] eqn:E2. intro H.
  assert (Hs : forall a v b o, True -> submitReplica a local v p = (b, o) -> net_ok a b)
    by (intros a v b o _; apply submitReplica_ok).
  eapply net_ok_trans; [eapply submitLocal_ok; eauto|].
  eapply net_ok_trans; [exact (submit_all_lift _ _ _ _ net_ok_refl net_ok_trans Hs _ _ _ _ _ (fun _ _ => I) E2)|].
  exact (round_loop_lift _ _ _ _ net_ok_refl net_ok_trans Hs _ _ _ _ _ _ _ _ _ _ _ _ (fun _ _ => I) H).
Qed.

Lemma writeCurrentTermBarrier_ok n a recovered rot n' r :
  writeCurrentTermBarrier n a recovered rot = (n', r) -> net_ok n n'.
Proof.
  unfold writeCurrentTermBarrier.
  destruct (_ || _ || _); [stays|].
  destruct (_ && _); [stays|].
  destruct (recoveryBarrierContent a) as [cmd rec].
  destruct (SealProposalManifest _ _) as [[m es]|]; [|stays].
  destruct (runDurableRound n (a_leader a) (a_voters a) (a_q a) rot _) as [n1 res] eqn:E.
  intro H. assert (n' = n1).
  { destruct (negb (rr_ok res)); [inversion H; reflexivity|]. destruct (_ || _ || _); inversion H; reflexivity. }
  subst. eapply runDurableRound_ok; eauto.
Qed.

Lemma local_replace_ok n local q n' r : local_replace n local q = (n', r) -> net_ok n n'.
Proof.
  unfold local_replace.
  assert (Hput : forall rp lo c, replace (nt_kind n) (net_rep n local) q = inr (rp, lo) ->
            net_ok n (Net (nt_kind n) (put_rep (nt_reps n) local rp) (nt_down n) (nt_flt n) c)).
  { intros rp lo c E. split; [reflexivity|]. intro v. unfold net_rep at 2. cbn [nt_reps]. rewrite get_rep_put.
    destruct (v =? local) eqn:Ev; [|apply R_refl]. apply N.eqb_eq in Ev. subst v.
    eapply R_replace; eauto. }
  assert (Hsame : forall c, net_ok n (Net (nt_kind n) (nt_reps n) (nt_down n) (nt_flt n) c)).
  { intro c. split; [reflexivity|]. intro v. apply R_refl. }
  destruct (fl_rb (nt_flt n)) as [b|].
  - destruct (b <=? nt_replaced n); [stays|].
    destruct (replace (nt_kind n) (net_rep n local) q) as [e | [rp lo]] eqn:E; intro H; inversion H; subst.
    + apply Hsame.
    + eapply Hput; eauto.
  - destruct (replace (nt_kind n) (net_rep n local) q) as [e | [rp lo]] eqn:E; intro H; inversion H; subst.
    + apply net_ok_refl.
    + exact (Hput rp lo (nt_replaced n) eq_refl).
Qed.

Lemma repair_pages_ok : forall fuel n local sel maxBytes current from keepThrough previous firstPage n' r,
  repair_pages fuel n local sel maxBytes current from keepThrough previous firstPage = (n', r) -> net_ok n n'.
Proof.
  induction fuel as [|fuel IH]; intros n local sel maxBytes current from keepThrough previous firstPage n' r H;
    [revert H; stays|].
  apply repair_pages_step in H.
  destruct H as [(-> & _) | (q & n1 & res & E & [(-> & _) | (loaded & es & f' & p' & _ & Hrec)])].
  - apply net_ok_refl.
  - eapply local_replace_ok; eauto.
  - eapply net_ok_trans; [eapply local_replace_ok; eauto | eapply IH; eauto].
Qed.

Lemma repairQuorumPrefix_ok n local voters q sel maxBytes n' r :
  repairQuorumPrefix n local voters q sel maxBytes = (n', r) -> net_ok n n'.
Proof.
  intro H. apply repairQuorumPrefix_cases in H.
  destruct H as [(-> & _) | (localSt & es & _ & [(-> & _) | (fuel & from & keep & previous & n1 & res & E & H)])];
    try apply net_ok_refl.
  apply repair_pages_ok in E. destruct res as [e | [current from']]; [destruct H as [-> _]; exact E|].
  destruct H as [(_ & q2 & res2 & E2) | (-> & _)]; [|exact E].
  eapply net_ok_trans; [exact E | eapply local_replace_ok; eauto].
Qed.

Lemma install_run_ok cfg n local a n' r : install_run cfg n local a = (n', r) -> net_ok n n'.
Proof.
  unfold install_run. destruct (recoverQuorumPrefix _ _ _ _) as [e | sel]; [intros [= <- _]; apply net_ok_refl|].
  destruct (repairQuorumPrefix _ _ _ _ _ _) as [n1 [e | recovered]] eqn:E;
    pose proof (repairQuorumPrefix_ok _ _ _ _ _ _ _ _ E) as K; [intros [= <- _]; exact K|].
  destruct (_ && _); [|intros [= <- _]; exact K].
  intro E2. eapply net_ok_trans; [exact K | eapply writeCurrentTermBarrier_ok; eauto].
Qed.

Lemma Install_net_ok cfg n st local a n' st' r : Install cfg n st local a = (n', st', r) -> net_ok n n'.
Proof.
  intro H. apply Install_shape in H. destruct H; try apply net_ok_refl; eapply install_run_ok; eauto.
Qed.

Lemma Commit_net_ok cfg n st local p n' st' r : Commit cfg n st local p = (n', st', r) -> net_ok n n'.
Proof.
  intro H. apply Commit_cases in H. destruct H as [(-> & _) | (a & _ & H)]; [apply net_ok_refl|].
  destruct H; try apply net_ok_refl;
    try match goal with Hr : retryPending _ _ _ _ _ _ = _ |- _ => apply retryPending_net in Hr; destruct Hr as [res Hr] end;
    eapply runDurableRound_ok; eauto.
Qed.

Lemma repair_send_ok : forall ps n leader follower committed previous n' r,
  repair_send n leader follower committed ps previous = (n', r) -> net_ok n n'.
Proof.
  induction ps as [|[m recs] ps IH]; intros n leader follower committed previous n' r H; cbn in H;
    [revert H; stays|].
  destruct (negb (replicate_request_valid _ _ _)); [revert H; stays|].
  destruct (sync _ _ _) as [[rp o] nf] eqn:E.
  assert (K : net_ok n (net_set n follower rp)) by (apply net_set_ok; eapply R_sync; eauto).
  destruct (negb (outcome_durable o)); [inversion H; subst; exact K|].
  destruct (SealProposalManifest m recs) as [[sm es]|]; [|inversion H; subst; exact K].
  eapply net_ok_trans; [exact K | eapply IH; eauto].
Qed.

Lemma repair_loop_ok : forall fuel cfg n leader follower state from through previous n' r,
  repair_loop fuel cfg n leader follower state from through previous = (n', r) -> net_ok n n'.
Proof.
  induction fuel as [|fuel IH]; intros cfg n leader follower state from through previous n' r H; cbn in H;
    [revert H; stays|].
  destruct (through <? from); [revert H; stays|].
  destruct (fetch _ _ _) as [e | [st ps]]; [revert H; stays|].
  destruct ps as [|p0 ps0]; [revert H; stays|].
  destruct (repair_send n leader follower (rs_committed state) (p0 :: ps0) previous) as [n1 [pv|]] eqn:E;
    pose proof (repair_send_ok _ _ _ _ _ _ _ _ E) as K.
  - eapply net_ok_trans; [exact K | eapply IH; eauto].
  - inversion H; subst. exact K.
Qed.

Lemma RepairFollower_ok cfg n leader follower needFrom through n' r :
  RepairFollower cfg n leader follower needFrom through = (n', r) -> net_ok n n'.
Proof.
  unfold RepairFollower. destruct (_ || _); [stays|].
  destruct (load _ _ _) as [[state es]|]; [|stays].
  destruct (_ || _); [stays|].
  match goal with |- context[match ?prev with Some _ => _ | None => _ end] => destruct prev as [pv|] end;
    [|stays].
  apply repair_loop_ok.
Qed.

End Lift.
