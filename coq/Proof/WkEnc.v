(* Proof/WkEnc.v — C25: round trip, key agreement and tamper evidence of
   Model/WkEnc.v, for ARBITRARY primitives satisfying the stated algebraic laws
   (AES: decryption inverts encryption on 16-byte blocks and encryption maps
   blocks to blocks; MD5: 16 output bytes; X25519: Diffie-Hellman commutativity,
   32 output bytes).  No property of MD5 beyond its output shape is assumed:
   tamper evidence concludes "rejected, or here is an explicit MD5 collision". *)
From WK Require Import Base.Base Base.Bytes Base.Lists Gen.Consts_C25 Model.WkEnc.
From WK Require Import Proof.WkEnc_b64 Proof.WkEnc_blocks.
From Coq Require Import ZifyBool ZifyN ZifyNat.
Open Scope N_scope.

Definition aes_ok (aesE aesD : bytes -> bytes -> bytes) : Prop :=
  (forall k b, is_block b -> aesD k (aesE k b) = b) /\
  (forall k b, is_block b -> is_block (aesE k b)).

Definition md5_ok (md5 : bytes -> bytes) : Prop :=
  forall m, length (md5 m) = 16%nat /\ all_bytes (md5 m) = true.

Definition dh_ok (x25519 : bytes -> bytes -> option bytes) : Prop :=
  (forall a b pa pb, x25519 a X25519Basepoint = Some pa -> x25519 b X25519Basepoint = Some pb ->
                     x25519 a pb = x25519 b pa) /\
  (forall a p r, x25519 a p = Some r -> length r = 32%nat /\ all_bytes r = true).

Definition md5_collision (md5 : bytes -> bytes) : Prop :=
  exists x y, x <> y /\ md5 x = md5 y.

(* usable session keys: at least one block of key and of IV *)
Definition usable (keys : session_keys) : Prop :=
  (16 <= length (AESKey keys))%nat /\ (16 <= length (AESIV keys))%nat.

Lemma keys_eqb_eq a b : keys_eqb a b = true <-> a = b.
Proof.
  destruct a as [k1 i1], b as [k2 i2]. unfold keys_eqb. cbn [AESKey AESIV].
  rewrite andb_true_iff, !bytes_eqb_eq. split; [intros [-> ->]; reflexivity|intro H; inversion H; split; reflexivity].
Qed.

Lemma NewSessionCrypto_usable keys : usable keys ->
  NewSessionCrypto keys = Ok (SC (firstn 16 (AESKey keys)) (firstn 16 (AESIV keys))).
Proof.
  intros [Hk Hi]. unfold NewSessionCrypto. rewrite block_len_16.
  destruct (Nat.ltb_spec (length (AESKey keys)) 16); [lia|].
  destruct (Nat.ltb_spec (length (AESIV keys)) 16); [lia|]. reflexivity.
Qed.

Lemma NewSessionCrypto_ok keys sc : NewSessionCrypto keys = Ok sc ->
  usable keys /\ sc = SC (firstn 16 (AESKey keys)) (firstn 16 (AESIV keys)).
Proof.
  unfold NewSessionCrypto. rewrite block_len_16.
  destruct (Nat.ltb_spec (length (AESKey keys)) 16); [discriminate|].
  destruct (Nat.ltb_spec (length (AESIV keys)) 16); [discriminate|]. cbn [orb].
  intro E. inversion E. split; [split; assumption|reflexivity].
Qed.

Lemma NewSessionCrypto_unusable keys : ~ usable keys -> NewSessionCrypto keys = Err E_MissingSessionKey.
Proof.
  intro NU. unfold NewSessionCrypto. rewrite block_len_16.
  destruct (Nat.ltb_spec (length (AESKey keys)) 16); [reflexivity|].
  destruct (Nat.ltb_spec (length (AESIV keys)) 16); [reflexivity|]. destruct NU. split; assumption.
Qed.

Lemma NewSessionCrypto_err keys e : NewSessionCrypto keys = Err e -> ~ usable keys.
Proof.
  intros E [Hk Hi]. rewrite NewSessionCrypto_usable in E by (split; assumption). discriminate.
Qed.

Lemma sc_iv_block keys sc : NewSessionCrypto keys = Ok sc -> all_bytes (AESIV keys) = true -> is_block (sc_iv sc).
Proof.
  intros E B. apply NewSessionCrypto_ok in E. destruct E as [[_ Hi] ->]. cbn [sc_iv]. split.
  - rewrite firstn_length. lia.
  - apply all_bytes_firstn. exact B.
Qed.

Section AesLaws.

Variable aesE aesD : bytes -> bytes -> bytes.
Hypothesis AES : aes_ok aesE aesD.

Lemma cbc_enc_blocks key : forall blocks prev, is_block prev -> Forall is_block blocks ->
  Forall is_block (cbc_enc aesE key prev blocks).
Proof.
  destruct AES as [_ EB].
  induction blocks as [|b r IH]; intros prev Hp Hb; [constructor|].
  inversion Hb as [|? ? Hb1 Hb2]; subst. cbn [cbc_enc].
  assert (Hc : is_block (aesE key (xorBlock b prev))) by (apply EB; apply xorBlock_block; assumption).
  constructor; [exact Hc|]. apply IH; assumption.
Qed.

Lemma cbc_dec_enc key : forall blocks prev, is_block prev -> Forall is_block blocks ->
  cbc_dec aesD key prev (cbc_enc aesE key prev blocks) = blocks.
Proof.
  destruct AES as [DE EB].
  induction blocks as [|b r IH]; intros prev Hp Hb; [reflexivity|].
  inversion Hb as [|? ? Hb1 Hb2]; subst. cbn [cbc_enc cbc_dec].
  assert (Hx : is_block (xorBlock b prev)) by (apply xorBlock_block; assumption).
  rewrite DE by exact Hx. rewrite xorBlock_involutive by (destruct Hb1, Hp; congruence).
  f_equal. apply IH; [apply EB; exact Hx|exact Hb2].
Qed.

Lemma cbc_enc_length key : forall blocks prev, length (cbc_enc aesE key prev blocks) = length blocks.
Proof. induction blocks as [|b r IH]; intro prev; [reflexivity|]. cbn [cbc_enc length]. rewrite IH. reflexivity. Qed.

(* the ciphertext of a padded buffer: non-empty, whole blocks, bytes; decrypts to the buffer *)
Lemma encrypt_padded_spec sc p : is_block (sc_iv sc) -> all_bytes p = true ->
  let ct := encryptCBCBlocks aesE sc (pkcs7_pad p) in
  all_bytes ct = true /\ is_nil ct = false /\ Nat.modulo (length ct) 16 = 0%nat /\
  decryptCBCBlocks aesD sc ct = pkcs7_pad p.
Proof.
  intros Hiv Hp. cbv zeta. unfold encryptCBCBlocks, decryptCBCBlocks.
  destruct (pkcs7_pad_length p) as (m & Lm & Hm).
  destruct (split_blocks m (pkcs7_pad p) Lm (pkcs7_pad_bytes p Hp)) as (bs & E & FB & L).
  rewrite E, (chunks_concat bs FB).
  pose proof (cbc_enc_blocks (sc_key sc) bs (sc_iv sc) Hiv FB) as CB.
  set (cs := cbc_enc aesE (sc_key sc) (sc_iv sc) bs) in *.
  assert (Lc : length (concat cs) = (16 * m)%nat).
  { rewrite concat_blocks_length by exact CB. unfold cs. rewrite cbc_enc_length. f_equal. exact L. }
  repeat split.
  - apply blocks_bytes. exact CB.
  - destruct (concat cs); [cbn [length] in Lc; lia|reflexivity].
  - transitivity (Nat.modulo (16 * m) 16); [f_equal; exact Lc|].
    rewrite Nat.mul_comm. apply Nat.mod_mul. discriminate.
  - rewrite chunks_concat by exact CB. unfold cs. rewrite cbc_dec_enc by assumption. reflexivity.
Qed.

(* [EncryptPayloadWithCrypto aesE p (Some sc)] is [Ok] of this ciphertext by definition *)
Theorem decrypt_encrypt_crypto sc p : is_block (sc_iv sc) -> all_bytes p = true ->
  DecryptPayloadWithCrypto aesD (b64_encode (encryptCBCBlocks aesE sc (pkcs7_pad p))) (Some sc) = Ok p.
Proof.
  intros Hiv Hp. destruct (encrypt_padded_spec sc p Hiv Hp) as (B & NZ & M & D).
  unfold DecryptPayloadWithCrypto. rewrite b64_decode_encode by exact B.
  rewrite NZ, block_len_16, M. cbn [orb negb Nat.eqb].
  rewrite D, pkcs7_unpad_pad. reflexivity.
Qed.

Theorem decrypt_encrypt keys p e : all_bytes (AESIV keys) = true -> all_bytes p = true ->
  EncryptPayload aesE p keys = Ok e -> DecryptPayload aesD e keys = Ok p.
Proof.
  intros Hiv Hp. unfold EncryptPayload, DecryptPayload, with_keys.
  destruct (NewSessionCrypto keys) as [sc|err] eqn:K; [|discriminate].
  intro E. injection E as <-. exact (decrypt_encrypt_crypto sc p (sc_iv_block keys sc K Hiv) Hp).
Qed.

Lemma Decrypt_crypto_eq keys sc d : NewSessionCrypto keys = Ok sc ->
  DecryptPayloadWithCrypto aesD d (Some sc) = DecryptPayload aesD d keys.
Proof. intro K. unfold DecryptPayload, with_keys. rewrite K. reflexivity. Qed.

Lemma EncryptPayload_ok keys p e : EncryptPayload aesE p keys = Ok e ->
  exists sc, NewSessionCrypto keys = Ok sc /\ all_bytes e = true.
Proof.
  unfold EncryptPayload, with_keys. destruct (NewSessionCrypto keys) as [sc|]; [|discriminate].
  intro E. injection E as <-. exists sc. split; [reflexivity|apply b64_encode_all_bytes].
Qed.

(* the bytes handed to MD5 determine the sign bytes *)
Lemma msg_key_preimage_inj sc s1 s2 : is_block (sc_iv sc) -> all_bytes s1 = true -> all_bytes s2 = true ->
  msg_key_preimage aesE s1 sc = msg_key_preimage aesE s2 sc -> s1 = s2.
Proof.
  (* both are what decryption returns on the common preimage *)
  intros Hiv H1 H2 E. unfold msg_key_preimage in E.
  pose proof (decrypt_encrypt_crypto sc s1 Hiv H1) as D.
  rewrite E, (decrypt_encrypt_crypto sc s2 Hiv H2) in D. injection D as ->. reflexivity.
Qed.

End AesLaws.

Section MacLaws.

Variable aesE aesD : bytes -> bytes -> bytes.
Variable md5 : bytes -> bytes.
Hypothesis AES : aes_ok aesE aesD.
Hypothesis MD5 : md5_ok md5.

Lemma SendMsgKey_crypto_eq keys sc p : NewSessionCrypto keys = Ok sc ->
  SendMsgKey aesE md5 p keys = Ok (hexMD5String (md5 (msg_key_preimage aesE (send_sign_bytes p) sc))).
Proof. intro K. unfold SendMsgKey, with_keys. rewrite K. reflexivity. Qed.

Lemma Validate_crypto_eq keys sc p : NewSessionCrypto keys = Ok sc ->
  ValidateSendPacketWithCrypto aesE md5 p (Some sc) = ValidateSendPacket aesE md5 p keys.
Proof.
  intro K. unfold ValidateSendPacket. rewrite (SendMsgKey_crypto_eq keys sc p K). reflexivity.
Qed.

(* the message key depends on the packet through its covered bytes only *)
Lemma SendMsgKey_sign keys p p' : send_sign_bytes p' = send_sign_bytes p ->
  SendMsgKey aesE md5 p' keys = SendMsgKey aesE md5 p keys.
Proof. intro S. unfold SendMsgKey, with_keys, SendMsgKeyWithCrypto. rewrite S. reflexivity. Qed.

Theorem validate_honest keys p k : SendMsgKey aesE md5 p keys = Ok k -> sp_msgkey p = k ->
  ValidateSendPacket aesE md5 p keys = 0.
Proof.
  intros E H. unfold ValidateSendPacket. rewrite E, H, bytes_eqb_refl. reflexivity.
Qed.

Theorem tamper_key keys p p' k : SendMsgKey aesE md5 p keys = Ok k ->
  send_sign_bytes p' = send_sign_bytes p -> sp_msgkey p' <> k ->
  ValidateSendPacket aesE md5 p' keys = E_MsgKeyMismatch.
Proof.
  intros E S N. unfold ValidateSendPacket.
  rewrite (SendMsgKey_sign keys p p' S), E, (proj2 (bytes_eqb_neq _ _) N). reflexivity.
Qed.

(* same message key, different covered bytes: rejected, or the two preimages are an MD5 collision *)
Theorem tamper_covered keys p p' k :
  all_bytes (AESIV keys) = true -> all_bytes (send_sign_bytes p) = true -> all_bytes (send_sign_bytes p') = true ->
  SendMsgKey aesE md5 p keys = Ok k -> sp_msgkey p' = k ->
  send_sign_bytes p' <> send_sign_bytes p ->
  ValidateSendPacket aesE md5 p' keys = E_MsgKeyMismatch \/ md5_collision md5.
Proof.
  intros Hiv B B' E Hk N.
  unfold SendMsgKey, with_keys in E. destruct (NewSessionCrypto keys) as [sc|err] eqn:K; [|discriminate].
  cbn [SendMsgKeyWithCrypto msgKeyWithCrypto] in E. inversion E as [Ek]. clear E.
  unfold ValidateSendPacket. rewrite (SendMsgKey_crypto_eq keys sc p' K).
  destruct (bytes_eqb (sp_msgkey p') (hexMD5String (md5 (msg_key_preimage aesE (send_sign_bytes p') sc)))) eqn:Q;
    [|left; reflexivity].
  right. apply bytes_eqb_eq in Q. rewrite Hk, <- Ek in Q.
  apply hexMD5String_inj in Q; [|apply MD5|apply MD5].
  exists (msg_key_preimage aesE (send_sign_bytes p) sc), (msg_key_preimage aesE (send_sign_bytes p') sc).
  split; [|exact Q].
  intro P. apply N. symmetry. revert P. apply (msg_key_preimage_inj aesE aesD AES); [exact (sc_iv_block keys sc K Hiv)|exact B|exact B'].
Qed.

Lemma sign_bytes_payload p p' :
  sp_seq p' = sp_seq p -> sp_msgno p' = sp_msgno p -> sp_chid p' = sp_chid p -> sp_chtype p' = sp_chtype p ->
  sp_payload p' <> sp_payload p -> send_sign_bytes p' <> send_sign_bytes p.
Proof.
  intros E1 E2 E3 E4 N S. unfold send_sign_bytes in S. rewrite E1, E2, E3, E4 in S.
  repeat apply app_inv_head in S. contradiction.
Qed.

End MacLaws.

Section DhLaws.

Variable md5 : bytes -> bytes.
Variable x25519 : bytes -> bytes -> option bytes.
Hypothesis MD5 : md5_ok md5.
Hypothesis DH : dh_ok x25519.

Lemma fit_exact n b : length b = n -> fit n b = b.
Proof. intros <-. apply firstn_app_exact. Qed.

Lemma DecodePublicKey_encode pub : length pub = 32%nat -> all_bytes pub = true ->
  DecodePublicKey (EncodePublicKey pub) = Ok pub.
Proof.
  intros L B. unfold DecodePublicKey, EncodePublicKey. rewrite b64_decode_encode by exact B.
  rewrite L. reflexivity.
Qed.

(* the client that sent its genuine public key and receives the server's key and salt
   derives exactly the server's session keys *)
Theorem same_keys cpriv cpub rnd skeys spub_enc :
  x25519 cpriv X25519Basepoint = Some cpub ->
  NegotiateServerSession md5 x25519 (EncodePublicKey cpub) rnd = Ok (skeys, spub_enc) ->
  DeriveClientSession md5 x25519 cpriv spub_enc (AESIV skeys) = Ok skeys.
Proof.
  destruct DH as [COMM SHAPE]. intros Hc N.
  destruct (SHAPE _ _ _ Hc) as [Lc Bc].
  unfold NegotiateServerSession in N. rewrite (DecodePublicKey_encode cpub Lc Bc) in N.
  unfold GenerateKeyPair in N.
  destruct (x25519 (fit 32 rnd) X25519Basepoint) as [spub|] eqn:Hs; [|discriminate].
  destruct (SHAPE _ _ _ Hs) as [Ls Bs]. rewrite (fit_exact 32 spub Ls) in N.
  unfold sharedSecret in N.
  destruct (x25519 (fit 32 rnd) cpub) as [secret|] eqn:Hsec; [|discriminate].
  inversion N; subst. clear N.
  unfold DeriveClientSession. rewrite (DecodePublicKey_encode spub Ls Bs).
  unfold sharedSecret. rewrite (COMM cpriv (fit 32 rnd) cpub spub Hc Hs), Hsec. reflexivity.
Qed.

Theorem negotiated_key_sizes ckey rnd skeys spub_enc :
  NegotiateServerSession md5 x25519 ckey rnd = Ok (skeys, spub_enc) ->
  length (AESKey skeys) = 16%nat /\ length (AESIV skeys) = iv_size.
Proof.
  unfold NegotiateServerSession. destruct (DecodePublicKey ckey); [|discriminate].
  destruct (GenerateKeyPair x25519 rnd) as [[sp spub]|]; [|discriminate].
  destruct (sharedSecret x25519 sp a); [|discriminate]. intro E. inversion E; subst. cbn [AESKey AESIV]. split.
  - unfold deriveAESKey. rewrite firstn_length. unfold hexLower. rewrite hex_with_length.
    destruct (MD5 (b64_encode b)) as [L _]. rewrite L. reflexivity.
  - unfold randomIV. rewrite map_length. unfold fit. rewrite firstn_length, app_length, repeat_length. lia.
Qed.

End DhLaws.
