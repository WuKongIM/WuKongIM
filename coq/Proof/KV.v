(* Proof/KV.v — lemmas about the key-value store of Model/KV.v: point reads after
   writes, key uniqueness, membership, batches, the crash invariant lemma and
   the sort used by scans. *)
From WK Require Import Base.Base Model.KV.
From Coq Require Import Sorting.Permutation Sorting.Sorted.

Section KVProof.
  Context {K V : Type}.
  Variable keqb : K -> K -> bool.
  Hypothesis keqb_eq : forall a b, keqb a b = true <-> a = b.

  Lemma keqb_refl k : keqb k k = true.
  Proof. apply keqb_eq. reflexivity. Qed.

  Lemma keqb_neq a b : a <> b -> keqb a b = false.
  Proof.
    intro H. destruct (keqb a b) eqn:E; [|reflexivity].
    apply keqb_eq in E. contradiction.
  Qed.

  Lemma keqb_false a b : keqb a b = false -> a <> b.
  Proof. intros E H. subst. rewrite keqb_refl in E. discriminate. Qed.

  Lemma keqb_sym a b : keqb a b = keqb b a.
  Proof.
    destruct (keqb a b) eqn:E.
    - apply keqb_eq in E. subst. symmetry. apply keqb_refl.
    - symmetry. apply keqb_neq. intro H. subst. rewrite keqb_refl in E. discriminate.
  Qed.

  Notation store := (@store K V).
  Notation get := (get keqb).
  Notation del := (del keqb).
  Notation put := (put keqb).

  (* ---- point reads ------------------------------------------------------------- *)

  Lemma get_del_same k (s : store) : get k (del k s) = None.
  Proof.
    induction s as [|[k' v] s IH]; cbn [KV.del KV.get]; [reflexivity|].
    destruct (keqb k k') eqn:E; [exact IH|].
    cbn [KV.get]. rewrite E. exact IH.
  Qed.

  Lemma get_del_other k k' (s : store) : k <> k' -> get k (del k' s) = get k s.
  Proof.
    intro N. induction s as [|[k2 v] s IH]; cbn [KV.del KV.get]; [reflexivity|].
    destruct (keqb k' k2) eqn:E.
    - apply keqb_eq in E. subst k2. rewrite (keqb_neq _ _ N). exact IH.
    - cbn [KV.get]. destruct (keqb k k2); [reflexivity|exact IH].
  Qed.

  Lemma get_put_same k v (s : store) : get k (put k v s) = Some v.
  Proof. unfold KV.put. cbn [KV.get]. rewrite keqb_refl. reflexivity. Qed.

  Lemma get_put_other k k' v (s : store) : k <> k' -> get k (put k' v s) = get k s.
  Proof.
    intro N. unfold KV.put. cbn [KV.get]. rewrite (keqb_neq _ _ N).
    apply get_del_other. exact N.
  Qed.

  Lemma get_del_range k p (s : store) :
    get k (del_range p s) = if p k then None else get k s.
  Proof.
    unfold del_range.
    induction s as [|[k' v] s IH]; cbn [filter KV.get fst].
    - destruct (p k); reflexivity.
    - destruct (p k') eqn:P; cbn [negb].
      + rewrite IH. destruct (keqb k k') eqn:E; [|reflexivity].
        apply keqb_eq in E. subst. rewrite P. reflexivity.
      + cbn [KV.get]. destruct (keqb k k') eqn:E; [|exact IH].
        apply keqb_eq in E. subst. rewrite P. reflexivity.
  Qed.

  (* ---- key uniqueness ------------------------------------------------------------ *)

  Definition keys (s : store) : list K := map fst s.
  Definition wf (s : store) : Prop := NoDup (keys s).

  Lemma in_keys_del k k' (s : store) : In k (keys (del k' s)) -> In k (keys s) /\ k <> k'.
  Proof.
    induction s as [|[k2 v] s IH]; cbn [KV.del keys map fst]; [intros []|].
    destruct (keqb k' k2) eqn:E.
    - intro H. destruct (IH H) as [H1 H2]. split; [right; exact H1|exact H2].
    - cbn [keys map fst In]. intros [H|H].
      + subst k2. split; [left; reflexivity|]. intro; subst. rewrite keqb_refl in E. discriminate.
      + destruct (IH H) as [H1 H2]. split; [right; exact H1|exact H2].
  Qed.

  Lemma wf_del k (s : store) : wf s -> wf (del k s).
  Proof.
    unfold wf. induction s as [|[k' v] s IH]; cbn [KV.del keys map fst]; [intro; constructor|].
    intro H. inversion H as [|? ? Hn Hd]; subst.
    destruct (keqb k k'); [apply IH; exact Hd|].
    cbn [keys map fst]. constructor; [|apply IH; exact Hd].
    intro Hin. apply in_keys_del in Hin. apply Hn. exact (proj1 Hin).
  Qed.

  Lemma wf_put k v (s : store) : wf s -> wf (put k v s).
  Proof.
    intro H. unfold KV.put, wf. cbn [keys map fst]. constructor; [|apply wf_del; exact H].
    intro Hin. apply in_keys_del in Hin. destruct Hin as [_ N]. apply N. reflexivity.
  Qed.

  Lemma wf_del_range p (s : store) : wf s -> wf (del_range p s).
  Proof.
    unfold wf, del_range. induction s as [|[k v] s IH]; cbn [filter keys map fst]; [intro; constructor|].
    intro H. inversion H as [|? ? Hn Hd]; subst.
    destruct (negb (p k)); [|apply IH; exact Hd].
    cbn [keys map fst]. constructor; [|apply IH; exact Hd].
    intro Hin. apply Hn. unfold keys in *. apply in_map_iff in Hin. destruct Hin as [[k2 v2] [E Hin]].
    apply filter_In in Hin. apply in_map_iff. exists (k2, v2). split; [exact E|exact (proj1 Hin)].
  Qed.

  (* ---- membership = point read, for well-formed stores ------------------------------ *)

  Lemma get_in k v (s : store) : get k s = Some v -> In (k, v) s.
  Proof.
    induction s as [|[k' v'] s IH]; cbn [KV.get]; [discriminate|].
    destruct (keqb k k') eqn:E.
    - intro H. injection H as ->. apply keqb_eq in E. subst. left. reflexivity.
    - intro H. right. apply IH. exact H.
  Qed.

  Lemma in_get k v (s : store) : wf s -> In (k, v) s -> get k s = Some v.
  Proof.
    unfold wf. induction s as [|[k' v'] s IH]; cbn [KV.get keys map fst]; [intros _ []|].
    intros H [Hin|Hin]; inversion H as [|? ? Hn Hd]; subst.
    - injection Hin as -> ->. rewrite keqb_refl. reflexivity.
    - destruct (keqb k k') eqn:E.
      + apply keqb_eq in E. subst k'. exfalso. apply Hn. unfold keys.
        apply in_map_iff. exists (k, v). split; [reflexivity|exact Hin].
      + apply IH; assumption.
  Qed.

  Lemma in_iff_get k v (s : store) : wf s -> (In (k, v) s <-> get k s = Some v).
  Proof. intro H. split; [apply in_get; exact H|apply get_in]. Qed.

  (* ---- batches ------------------------------------------------------------------------ *)

  Notation apply_op := (apply_op keqb).
  Notation apply_batch := (apply_batch keqb).
  Notation run_batches := (run_batches keqb).

  Lemma wf_apply_op (s : store) o : wf s -> wf (apply_op s o).
  Proof.
    destruct o; cbn [KV.apply_op]; intro H;
      [apply wf_put|apply wf_del|apply wf_del_range]; exact H.
  Qed.

  Lemma wf_apply_batch b : forall s : store, wf s -> wf (apply_batch s b).
  Proof.
    induction b as [|o b IH]; intros s H; cbn [KV.apply_batch fold_left]; [exact H|].
    apply IH. apply wf_apply_op. exact H.
  Qed.

  Lemma apply_batch_app (s : store) b1 b2 :
    apply_batch s (b1 ++ b2) = apply_batch (apply_batch s b1) b2.
  Proof. unfold KV.apply_batch. apply fold_left_app. Qed.

  Lemma apply_batch_cons (s : store) o b :
    apply_batch s (o :: b) = apply_batch (apply_op s o) b.
  Proof. reflexivity. Qed.

  Lemma run_batches_app (s : store) bs1 bs2 :
    run_batches s (bs1 ++ bs2) = run_batches (run_batches s bs1) bs2.
  Proof. unfold KV.run_batches. apply fold_left_app. Qed.

  (* the effect of one staged write on a point read *)
  Definition op_effect (k : K) (o : @wop K V) (cur : option V) : option V :=
    match o with
    | Put k' v => if keqb k k' then Some v else cur
    | Del k' => if keqb k k' then None else cur
    | DelRange p => if p k then None else cur
    end.

  Lemma get_apply_op k (s : store) o : get k (apply_op s o) = op_effect k o (get k s).
  Proof.
    destruct o as [k' v|k'|p]; cbn [KV.apply_op op_effect].
    - destruct (keqb k k') eqn:E.
      + apply keqb_eq in E. subst. apply get_put_same.
      + apply get_put_other. apply keqb_false. exact E.
    - destruct (keqb k k') eqn:E.
      + apply keqb_eq in E. subst. apply get_del_same.
      + apply get_del_other. apply keqb_false. exact E.
    - apply get_del_range.
  Qed.

  Definition batch_effect (k : K) (b : @batch K V) (cur : option V) : option V :=
    fold_left (fun c o => op_effect k o c) b cur.

  Lemma get_apply_batch k b : forall s : store, get k (apply_batch s b) = batch_effect k b (get k s).
  Proof.
    induction b as [|o b IH]; intro s; cbn [KV.apply_batch fold_left batch_effect]; [reflexivity|].
    fold (apply_batch (apply_op s o) b). rewrite IH. rewrite get_apply_op. reflexivity.
  Qed.

  Lemma batch_effect_app k b1 b2 cur :
    batch_effect k (b1 ++ b2) cur = batch_effect k b2 (batch_effect k b1 cur).
  Proof. unfold batch_effect. apply fold_left_app. Qed.

  (* a batch that never mentions a key leaves it alone *)
  Definition op_touches (k : K) (o : @wop K V) : bool :=
    match o with
    | Put k' _ | Del k' => keqb k k'
    | DelRange p => p k
    end.

  Lemma batch_effect_untouched k b cur :
    forallb (fun o => negb (op_touches k o)) b = true -> batch_effect k b cur = cur.
  Proof.
    revert cur. induction b as [|o b IH]; intros cur H; cbn [batch_effect fold_left]; [reflexivity|].
    cbn [forallb] in H. apply andb_true_iff in H. destruct H as [H1 H2].
    fold (batch_effect k b (op_effect k o cur)). rewrite IH by exact H2.
    destruct o; cbn [op_touches op_effect] in *; apply negb_true_iff in H1; rewrite H1; reflexivity.
  Qed.

  (* ---- crash semantics ------------------------------------------------------------------- *)

  (* crash_inv: an invariant preserved by every single batch holds in every crash state *)
  Lemma crash_inv (Inv : store -> Prop) (s0 : store) bs :
    Inv s0 ->
    (forall s b, Inv s -> In b bs -> Inv (apply_batch s b)) ->
    forall durable s, crash_states keqb s0 bs durable s -> Inv s.
  Proof.
    intros H0 Hstep durable s [k [_ ->]]. unfold crash_state.
    assert (G : forall l s1, Inv s1 -> (forall b, In b l -> In b bs) -> Inv (run_batches s1 l)).
    { induction l as [|b l IH]; intros s1 H1 Hsub; cbn [KV.run_batches fold_left]; [exact H1|].
      apply IH.
      - apply Hstep; [exact H1|apply Hsub; left; reflexivity].
      - intros b' Hb. apply Hsub. right. exact Hb. }
    apply G; [exact H0|].
    intros b Hb. rewrite <- (firstn_skipn k bs). apply in_or_app. left. exact Hb.
  Qed.

  (* a crash state of a history that extends [l], at or beyond [l] *)
  Lemma crash_state_app (s0 : store) l bs k :
    (length l <= k)%nat ->
    crash_state keqb s0 (l ++ bs) k = run_batches (run_batches s0 l) (firstn (k - length l) bs).
  Proof. intro H. unfold crash_state. rewrite firstn_app, firstn_all2 by exact H. apply run_batches_app. Qed.

  (* every returned batch is contained in every crash state's prefix *)
  Lemma crash_contains_durable (s0 : store) bs durable s :
    crash_states keqb s0 bs durable s ->
    exists k, (durable <= k <= length bs)%nat /\
              s = run_batches (run_batches s0 (firstn durable bs)) (skipn durable (firstn k bs)).
  Proof.
    intros [k [Hk ->]]. exists k. split; [exact Hk|].
    unfold crash_state. rewrite <- run_batches_app.
    f_equal. rewrite <- (firstn_skipn durable (firstn k bs)) at 1.
    f_equal. rewrite firstn_firstn. f_equal. lia.
  Qed.

  (* the full history is one of the crash states (no crash) *)
  Lemma crash_states_full (s0 : store) bs durable :
    (durable <= length bs)%nat -> crash_states keqb s0 bs durable (run_batches s0 bs).
  Proof.
    intro H. exists (length bs). split; [lia|]. unfold crash_state. rewrite firstn_all. reflexivity.
  Qed.
End KVProof.

(* ---- lists sorted by a strict order ----------------------------------------------------------- *)
Section StrictSorted.
  Context {A : Type} (R : A -> A -> Prop).

  Lemma StronglySorted_filter p l : StronglySorted R l -> StronglySorted R (filter p l).
  Proof.
    induction 1 as [|x l Hs IH Hall]; cbn [filter]; [constructor|].
    destruct (p x); [|exact IH]. constructor; [exact IH|].
    apply Forall_forall. intros y Hy. apply filter_In in Hy. eapply Forall_forall in Hall; [exact Hall|apply Hy].
  Qed.

  Hypothesis R_irrefl : forall x, ~ R x x.
  Hypothesis R_trans : forall x y z, R x y -> R y z -> R x z.

  (* a strictly sorted list is determined by its elements *)
  Lemma strict_sorted_unique l1 : forall l2,
    StronglySorted R l1 -> StronglySorted R l2 -> (forall x, In x l1 <-> In x l2) -> l1 = l2.
  Proof.
    induction l1 as [|x l1 IH]; intros l2 H1 H2 Hiff.
    - destruct l2 as [|y l2]; [reflexivity|]. exfalso. apply (Hiff y). left. reflexivity.
    - destruct l2 as [|y l2]; [exfalso; apply (Hiff x); left; reflexivity|].
      inversion H1 as [|? ? Hs1 Ha1]; subst. inversion H2 as [|? ? Hs2 Ha2]; subst.
      assert (Exy : x = y).
      { assert (Hx : In x (y :: l2)) by (apply Hiff; left; reflexivity).
        assert (Hy : In y (x :: l1)) by (apply Hiff; left; reflexivity).
        destruct Hx as [Hx|Hx]; [symmetry; exact Hx|]. destruct Hy as [Hy|Hy]; [exact Hy|].
        eapply Forall_forall in Ha1; [|exact Hy]. eapply Forall_forall in Ha2; [|exact Hx].
        exfalso. apply (R_irrefl x). eapply R_trans; eassumption. }
      subst y. f_equal. apply IH; [exact Hs1|exact Hs2|].
      intro z. split; intro Hz.
      + assert (Hz' : In z (x :: l2)) by (apply Hiff; right; exact Hz).
        destruct Hz' as [Hz'|Hz']; [|exact Hz']. subst z. eapply Forall_forall in Ha1; [|exact Hz].
        exfalso. exact (R_irrefl x Ha1).
      + assert (Hz' : In z (x :: l1)) by (apply Hiff; right; exact Hz).
        destruct Hz' as [Hz'|Hz']; [|exact Hz']. subst z. eapply Forall_forall in Ha2; [|exact Hz].
        exfalso. exact (R_irrefl x Ha2).
  Qed.
End StrictSorted.

(* ---- sort_by ------------------------------------------------------------------------------- *)
Section SortProof.
  Context {A : Type}.
  Variable f : A -> N.

  Lemma insert_by_perm x l : Permutation (insert_by f x l) (x :: l).
  Proof.
    induction l as [|y l IH]; cbn [insert_by]; [apply Permutation_refl|].
    destruct (f x <=? f y); [apply Permutation_refl|].
    eapply perm_trans; [apply perm_skip; exact IH|apply perm_swap].
  Qed.

  Lemma sort_by_perm l : Permutation (sort_by f l) l.
  Proof.
    induction l as [|x l IH]; cbn [sort_by]; [apply Permutation_refl|].
    eapply perm_trans; [apply insert_by_perm|apply perm_skip; exact IH].
  Qed.

  Lemma in_sort_by x l : In x (sort_by f l) <-> In x l.
  Proof.
    split; apply Permutation_in; [apply sort_by_perm|apply Permutation_sym, sort_by_perm].
  Qed.

  Definition sorted_le (l : list A) : Prop := StronglySorted (fun a b => f a <= f b) l.
  Definition sorted_lt (l : list A) : Prop := StronglySorted (fun a b => f a < f b) l.

  Lemma insert_by_sorted x l : sorted_le l -> sorted_le (insert_by f x l).
  Proof.
    unfold sorted_le. induction l as [|y l IH]; cbn [insert_by]; intro H.
    - constructor; [constructor|constructor].
    - destruct (f x <=? f y) eqn:E.
      + apply N.leb_le in E. constructor; [exact H|].
        inversion H as [|? ? Hs Hall]; subst. constructor; [exact E|].
        eapply Forall_impl; [|exact Hall]. cbn. intros; lia.
      + apply N.leb_gt in E. inversion H as [|? ? Hs Hall]; subst.
        constructor; [apply IH; exact Hs|].
        assert (P : Permutation (insert_by f x l) (x :: l)) by apply insert_by_perm.
        eapply Permutation_Forall; [apply Permutation_sym; exact P|].
        constructor; [lia|exact Hall].
  Qed.

  Lemma sort_by_sorted l : sorted_le (sort_by f l).
  Proof.
    induction l as [|x l IH]; cbn [sort_by]; [constructor|].
    apply insert_by_sorted. exact IH.
  Qed.

  (* with pairwise distinct keys the sorted order is strict *)
  Lemma sorted_le_lt l : NoDup (map f l) -> sorted_le l -> sorted_lt l.
  Proof.
    unfold sorted_le, sorted_lt. induction l as [|x l IH]; intros Hn Hs; [constructor|].
    cbn [map] in Hn. inversion Hn as [|? ? Hnx Hnl]; subst.
    inversion Hs as [|? ? Hs' Hall]; subst.
    constructor; [apply IH; assumption|].
    apply Forall_forall. intros y Hy.
    assert (f x <= f y) by (eapply Forall_forall in Hall; [exact Hall|exact Hy]).
    assert (f x <> f y).
    { intro E. apply Hnx. rewrite E. apply in_map. exact Hy. }
    lia.
  Qed.

  Lemma sorted_lt_unique l1 : forall l2,
    sorted_lt l1 -> sorted_lt l2 -> (forall x, In x l1 <-> In x l2) -> l1 = l2.
  Proof. apply (strict_sorted_unique (fun a b => f a < f b)); intros; lia. Qed.

  Lemma sorted_lt_nodup l : sorted_lt l -> NoDup (map f l).
  Proof.
    unfold sorted_lt. induction l as [|x l IH]; intro H; cbn [map]; [constructor|].
    inversion H as [|? ? Hs Ha]; subst. constructor; [|apply IH; exact Hs].
    intro Hin. apply in_map_iff in Hin. destruct Hin as [y [E Hy]].
    eapply Forall_forall in Ha; [|exact Hy]. lia.
  Qed.

  (* sorting a permutation of a strictly sorted list gives that list *)
  Lemma sort_by_perm_sorted l l' : Permutation l l' -> sorted_lt l' -> sort_by f l = l'.
  Proof.
    intros P Hs. apply sorted_lt_unique; [|exact Hs|].
    - apply sorted_le_lt; [|apply sort_by_sorted].
      eapply Permutation_NoDup; [apply Permutation_map, Permutation_sym; eapply perm_trans; [apply sort_by_perm|exact P]|].
      apply sorted_lt_nodup. exact Hs.
    - intro x. rewrite in_sort_by. split; apply Permutation_in; [exact P|apply Permutation_sym, P].
  Qed.
End SortProof.
