(* Proof/Wire_monitor.v — the C26 (a) monitor accepts every case the Wire model produces. *)
From WK Require Import Base.Base Base.Bytes Base.Lists Gen.Consts_C26 Model.Wire Model.C26Case Proof.Wire.
Open Scope N_scope.

Lemma werr_eqb_refl e : werr_eqb e e = true.
Proof. destruct e; reflexivity. Qed.

Lemma header_eqb_refl h : header_eqb h h = true.
Proof. unfold header_eqb. rewrite !N.eqb_refl. reflexivity. Qed.

Lemma hb_eqb_refl x : hb_eqb x x = true.
Proof. unfold hb_eqb. rewrite header_eqb_refl, bytes_eqb_refl. reflexivity. Qed.

Lemma wres_eqb_refl {A} (eqb : A -> A -> bool) (R : forall x, eqb x x = true) r : wres_eqb eqb r r = true.
Proof. destruct r; cbn [wres_eqb]; [apply R|apply werr_eqb_refl]. Qed.

Lemma mon_dec_model enc max : all_bytes enc = true ->
  mon_dec enc max (decode_header enc max) (reenc_of (decode_header enc max)) = true.
Proof.
  intro A. unfold mon_dec. destruct (hdr_malformed enc max) eqn:M.
  - destruct (malformed_rejected enc max M) as (e & E & _). rewrite E. reflexivity.
  - destruct (wellformed_accepted enc max M) as (h & E). rewrite E. cbn [reenc_of].
    rewrite <- (decode_ok_is_encoding enc max h A E).
    unfold obytes_eqb. cbn [option_eqb]. apply bytes_eqb_refl.
Qed.

Lemma mon_enc_model h max : header_in_domain h = true ->
  mon_enc h max (encode_header h) (decode_header (encode_header h) max) = true.
Proof.
  intro D. unfold mon_enc. rewrite encode_header_length, Nat.eqb_refl. cbn [andb].
  rewrite <- (app_nil_r (encode_header h)).
  destruct (header_ok h max) eqn:O.
  - rewrite header_roundtrip by exact O. cbn [wres_eqb]. apply header_eqb_refl.
  - destruct (header_not_ok_rejected h [] max D O) as (e & E & _). rewrite E. reflexivity.
Qed.

Lemma mon_read_model stream max : all_bytes stream = true ->
  let o := read_frame stream max in
  mon_read stream max (ro_res o) (ro_consumed o) (ro_beyond o) (ro_alloc_over o)
           (reenc_of_hb (ro_res o)) = true.
Proof.
  intro A. cbv zeta. unfold mon_read.
  destruct (ro_res (read_frame stream max)) as [[h body]|e] eqn:R.
  - (* a frame was returned: the header was well formed, re-encodes to the 24 bytes read, and the
       body is the slice that follows *)
    destruct (Nat.lt_ge_cases (length stream) header_size) as [S|L];
      [destruct (read_frame_short _ max S) as [_ [e [E _]]]; congruence|].
    rewrite (read_frame_eq _ _ L) in *.
    destruct (decode_header (firstn header_size stream) max) as [h'|e'] eqn:D; [|discriminate].
    pose proof (decode_ok_wellformed _ _ _ D) as M.
    pose proof (decode_ok_is_encoding _ _ _ (all_bytes_firstn _ _ A) D) as EN.
    rewrite firstn_firstn, Nat.min_id in EN.
    pose proof (decode_ok_bodylen _ _ _ D) as B. cbv zeta in *.
    destruct (IntMax <? h_bodylen h'); [discriminate|].
    destruct (Nat.ltb (length (skipn header_size stream)) (N.to_nat (h_bodylen h'))) eqn:L2; [discriminate|].
    cbn [ro_res ro_consumed] in *. inversion R; subst h' body. clear R.
    rewrite M, B. cbn [negb andb reenc_of_hb]. rewrite EN.
    unfold obytes_eqb. cbn [option_eqb]. rewrite bytes_eqb_refl. unfold slice. rewrite bytes_eqb_refl.
    cbn [andb]. apply Nat.ltb_ge in L2. rewrite firstn_length_le by exact L2.
    rewrite N2Nat.id, !N.eqb_refl. reflexivity.
  - (* an error: a validation error stops at the header; a malformed header gives one *)
    apply andb_true_iff. split.
    + destruct (validation_error e) eqn:V; [|reflexivity].
      destruct (validation_error_stops_at_header stream max e R V) as [AL C].
      unfold ro_beyond, ro_alloc_over. rewrite AL, C. rewrite N.leb_refl. reflexivity.
    + destruct (Nat.leb header_size (length stream)) eqn:L; [|reflexivity].
      destruct (hdr_malformed (firstn header_size stream) max) eqn:M; [|reflexivity].
      cbn [andb]. apply Nat.leb_le in L.
      destruct (malformed_rejected _ _ M) as (e' & E & V).
      rewrite (read_rejected stream max e' L E) in R |- *. cbn [ro_res ro_consumed] in *.
      inversion R; subst e'. rewrite V, N.eqb_refl. reflexivity.
Qed.

Lemma frame_ok_domain max f : frame_ok max f = true -> frame_in_domain f = true.
Proof.
  unfold frame_ok, header_ok, header_in_domain, frame_in_domain, with_bodylen.
  cbn [h_kind h_prio h_service h_reqid h_bodylen]. rewrite !andb_true_iff. tauto.
Qed.

(* AppendFrame fails exactly on the frames that are not acceptable *)
Lemma append_frame_err max f : frame_in_domain f = true -> is_err (append_frame f max) = negb (frame_ok max f).
Proof.
  intro D. unfold append_frame. destruct (frame_ok max f) eqn:O; cbn [negb].
  - unfold frame_ok in O. apply header_ok_validate in O. destruct O as [HD V].
    pose proof (validate_none_not_exceeds _ _ V) as B. cbn [with_bodylen h_bodylen] in B.
    apply in_domain_inv in HD. cbn [with_bodylen h_bodylen] in HD. destruct HD as (_ & _ & _ & _ & Db).
    assert (E1 : (max <? Z.of_nat (length (f_body f)))%Z = false).
    { unfold body_exceeds_max in B. destruct (max <? 0)%Z; [discriminate|]. rewrite nat_N_Z in B. exact B. }
    assert (E2 : u32max <? N.of_nat (length (f_body f)) = false) by (apply N.ltb_ge; unfold u32max; lia).
    rewrite E1, E2, V. reflexivity.
  - destruct (max <? Z.of_nat (length (f_body f)))%Z; [reflexivity|].
    destruct (u32max <? N.of_nat (length (f_body f))) eqn:U; [reflexivity|].
    apply N.ltb_ge in U. destruct (validate_not_ok _ max (frame_hdr_domain f D U) O) as (e & V & _).
    rewrite V. reflexivity.
Qed.

Lemma write_frames_err max fs : forallb frame_in_domain fs = true ->
  is_err (write_frames fs max) = negb (forallb (frame_ok max) fs).
Proof.
  induction fs as [|f fs IH]; intro D; [reflexivity|].
  cbn [forallb] in *. apply andb_true_iff in D. destruct D as [Df Dfs].
  pose proof (append_frame_err max f Df) as A. specialize (IH Dfs). cbn [write_frames].
  destruct (append_frame f max); cbn [is_err] in A; destruct (frame_ok max f); try discriminate;
    cbn [andb negb]; [|reflexivity].
  destruct (write_frames fs max); exact IH.
Qed.

Lemma forallb_impl {A} (p q : A -> bool) l : (forall x, p x = true -> q x = true) ->
  forallb p l = true -> forallb q l = true.
Proof.
  intros I. induction l as [|x l IH]; [reflexivity|]. cbn [forallb]. rewrite !andb_true_iff.
  intros [H1 H2]. split; [apply I, H1|apply IH, H2].
Qed.

Lemma mon_write_model fs max : forallb frame_in_domain fs = true ->
  mon_write fs max (write_frames fs max)
    (match write_frames fs max with WOk b => read_frames (length fs) b max | WErr _ => [] end) = true.
Proof.
  intro D. unfold mon_write. pose proof (write_frames_err max fs D) as W.
  destruct (write_frames fs max) as [b|e] eqn:E; cbn [is_err] in W;
    destruct (forallb (frame_ok max) fs); try discriminate; [|reflexivity].
  rewrite <- (app_nil_r b), (write_read_roundtrip fs max b [] D E).
  apply list_eqb_refl. intro x. apply wres_eqb_refl. apply hb_eqb_refl.
Qed.
