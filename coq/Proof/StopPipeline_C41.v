(* Proof/StopPipeline_C41.v — the invariant [SInv] of the stop / drain protocol [sstep], its
   preservation move by move, the monitor clauses from it, facts about single steps, and the
   two computed witnesses. *)
From WK Require Import Base.Base Base.Lists Model.GatewaySend Model.StopPipeline_C41 Proof.GatewaySend_lib.
Open Scope N_scope.

Definition thold (p : tpc) : N := match p with TWork => 1 | _ => 0 end.

Definition admitted_task (subs : list hsub) (t : nat) : Prop :=
  exists x, In x subs /\ hb_task x = t /\ hb_acc x = true.

Lemma admitted_task_app subs l t : admitted_task subs t -> admitted_task (subs ++ l) t.
Proof. intros [x [Hx H]]. exists x. split; [apply in_or_app; left; exact Hx | exact H]. Qed.

Record Stamps (n : N) (pcs : nat -> tpc) (subs : list hsub) (terms : list hterm) (stops : list hstop) : Prop := {
  b_subs : forall x, In x subs -> hb_t0 x <= n;
  b_gate : forall t t0, pcs t = TGate t0 -> t0 <= n;
  b_terms : forall e, In e terms -> ht_t e <= n;
  b_stops : forall s, In s stops -> hp_t1 s <= n }.

Lemma stamps_tick n pcs subs terms stops : Stamps n pcs subs terms stops -> Stamps (n + 1) pcs subs terms stops.
Proof.
  intros [H1 H2 H3 H4]. constructor.
  - intros x Hx. specialize (H1 x Hx). lia.
  - intros t t0 Ht. specialize (H2 t t0 Ht). lia.
  - intros e He. specialize (H3 e He). lia.
  - intros s Hs. specialize (H4 s Hs). lia.
Qed.

Lemma stamps_pc n pcs subs terms stops t p :
  Stamps n pcs subs terms stops -> (forall t0, p = TGate t0 -> t0 <= n) -> Stamps n (upd pcs t p) subs terms stops.
Proof.
  intros [H1 H2 H3 H4] Hp. constructor; try assumption.
  intros t1 t0. destruct (Nat.eq_dec t1 t) as [->|Hne]; [rewrite upd_same; apply Hp | rewrite upd_other by exact Hne; apply H2].
Qed.

Lemma stamps_sub n pcs subs terms stops x :
  Stamps n pcs subs terms stops -> hb_t0 x <= n -> Stamps n pcs (subs ++ [x]) terms stops.
Proof.
  intros [H1 H2 H3 H4] Hx. constructor; try assumption.
  intros y Hy. apply in_app_or in Hy. destruct Hy as [Hy|[<-|[]]]; [exact (H1 y Hy) | exact Hx].
Qed.

Lemma stamps_term n pcs subs terms stops e :
  Stamps n pcs subs terms stops -> ht_t e <= n -> Stamps n pcs subs (terms ++ [e]) stops.
Proof.
  intros [H1 H2 H3 H4] He. constructor; try assumption.
  intros y Hy. apply in_app_or in Hy. destruct Hy as [Hy|[<-|[]]]; [exact (H3 y Hy) | exact He].
Qed.

Lemma stamps_stop n pcs subs terms stops s :
  Stamps n pcs subs terms stops -> hp_t1 s <= n -> Stamps n pcs subs terms (stops ++ [s]).
Proof.
  intros [H1 H2 H3 H4] Hs. constructor; try assumption.
  intros y Hy. apply in_app_or in Hy. destruct Hy as [Hy|[<-|[]]]; [exact (H4 y Hy) | exact Hs].
Qed.

(* the theorems read i_fence, i_stopped, i_term_nodup, i_term_fin, i_rc, i_cancel, i_done;
   the rest makes them inductive (i_cancel_sig is what i_rc is proved from) *)
Record SInv (c : scfg) (st : sstate) : Prop := {
  i_range : forall t, (sc_ntasks c <= t)%nat -> s_tpc st t = TIdle;
  i_infl : s_inflight st = sumf (fun t => thold (s_tpc st t)) (sc_ntasks c);
  i_done : s_done st = true -> s_dstarted st = true /\ s_inflight st = 0 /\ s_cancelled st = true;
  i_dstarted : s_dstarted st = true -> s_stopping st = true;
  i_kpc : s_stopping st = false -> forall d, match s_kpc st d with KIdle | KSet _ => True | _ => False end;
  i_cancel : s_cancelled st = true -> sc_cod c = false -> s_done st = true;
  i_cancel_sig : s_cancelled st = true ->
                 s_done st = true \/ exists s, In s (s_stops st) /\ hp_ok s = false;
  i_sub_acc : forall x, In x (s_subs st) -> hb_acc x = true ->
              s_tpc st (hb_task x) = TWork \/ exists e, In e (s_terms st) /\ ht_task e = hb_task x;
  i_work_sub : forall t, s_tpc st t = TWork -> admitted_task (s_subs st) t;
  i_term_fin : forall e, In e (s_terms st) ->
               s_tpc st (ht_task e) = TFin /\ admitted_task (s_subs st) (ht_task e);
  i_term_nodup : NoDup (map ht_task (s_terms st));
  i_stamps : Stamps (s_now st) (s_tpc st) (s_subs st) (s_terms st) (s_stops st);
  i_nostop : s_stopping st = false -> s_stops st = [];
  i_fence : forall x s, In x (s_subs st) -> hb_acc x = true -> In s (s_stops st) -> hb_t0 x <= hp_t1 s;
  i_stopped : forall s x, In s (s_stops st) -> hp_ok s = true -> In x (s_subs st) -> hb_acc x = true ->
              exists e, In e (s_terms st) /\ ht_task e = hb_task x /\ ht_t e < hp_t1 s;
  i_rc : forall e, In e (s_terms st) -> ht_res e = RCancel ->
         sc_cod c = true /\ exists s, In s (s_stops st) /\ hp_ok s = false /\ hp_t1 s <= ht_t e }.

Lemma sinv_init c : SInv c sinit.
Proof.
  constructor; cbn; intros; try contradiction; try discriminate; try reflexivity; try exact I.
  - rewrite sumf_all_zero; reflexivity.
  - constructor.
  - constructor; cbn; intros; try contradiction; discriminate.
Qed.

Lemma sinv_in_range c st t : SInv c st -> s_tpc st t <> TIdle -> (t < sc_ntasks c)%nat.
Proof.
  intros I H. destruct (Nat.lt_ge_cases t (sc_ntasks c)) as [Hlt|Hge]; [exact Hlt|].
  destruct (H (i_range c st I t Hge)).
Qed.

Lemma sinv_work_pos c st t : SInv c st -> s_tpc st t = TWork -> 1 <= s_inflight st.
Proof.
  intros I Hw. assert (Ht : (t < sc_ntasks c)%nat) by (apply (sinv_in_range c st t I); rewrite Hw; discriminate).
  rewrite (i_infl c st I). pose proof (sumf_ge (fun t => thold (s_tpc st t)) _ t Ht) as H.
  cbn beta in H. rewrite Hw in H. exact H.
Qed.

Lemma done_all_terminal c st x :
  SInv c st -> s_done st = true -> In x (s_subs st) -> hb_acc x = true ->
  exists e, In e (s_terms st) /\ ht_task e = hb_task x.
Proof.
  intros I Hd Hx Ha. destruct (i_done c st I Hd) as [_ [H0 _]].
  destruct (i_sub_acc c st I x Hx Ha) as [Hw|H]; [|exact H]. pose proof (sinv_work_pos c st _ I Hw). lia.
Qed.

Lemma sinv_caller_stopping c st d :
  SInv c st -> (forall t0, s_kpc st d <> KSet t0) -> s_kpc st d <> KIdle -> s_stopping st = true.
Proof.
  intros I H1 H2. destruct (s_stopping st) eqn:E; [reflexivity|]. pose proof (i_kpc c st I E d) as H.
  destruct (s_kpc st d); [congruence | exfalso; eapply H1; reflexivity | contradiction..].
Qed.

Ltac sproj := cbn [s_now s_stopping s_cancelled s_dstarted s_done s_inflight s_tpc s_kpc s_subs s_terms s_stops].

Lemma sinv_tick c st :
  SInv c st ->
  SInv c (SSt (s_now st + 1) (s_stopping st) (s_cancelled st) (s_dstarted st) (s_done st)
              (s_inflight st) (s_tpc st) (s_kpc st) (s_subs st) (s_terms st) (s_stops st)).
Proof. intros []. constructor; sproj; try assumption. apply stamps_tick. assumption. Qed.

Lemma sinv_count_upd c st t p n :
  SInv c st -> s_tpc st t <> TIdle \/ (t < sc_ntasks c)%nat -> n + thold (s_tpc st t) = s_inflight st + thold p ->
  (forall i, (sc_ntasks c <= i)%nat -> upd (s_tpc st) t p i = TIdle)
  /\ n = sumf (fun i => thold (upd (s_tpc st) t p i)) (sc_ntasks c).
Proof.
  intros I Ht Hn. assert (Hlt : (t < sc_ntasks c)%nat) by (destruct Ht; [apply (sinv_in_range c st t I)|]; assumption).
  split.
  - intros i Hi. rewrite upd_other by lia. exact (i_range c st I i Hi).
  - pose proof (sumf_upd thold (s_tpc st) (sc_ntasks c) t p (or_introl Hlt)) as Hs.
    rewrite <- (i_infl c st I) in Hs. lia.
Qed.

Lemma sinv_submit c st t : SInv c st -> SInv c (sstep c st (SSubmit t)).
Proof.
  intros I. pose proof (sinv_tick c st I) as IT. unfold sstep. sproj.
  destruct (s_tpc st t) eqn:Hp; try exact IT.
  destruct (t <? sc_ntasks c)%nat eqn:Ht; [|exact IT]. apply Nat.ltb_lt in Ht. clear IT.
  destruct (sinv_count_upd c st t (TGate (s_now st + 1)) (s_inflight st) I (or_intror Ht)) as [Hrange Hinfl];
    [rewrite Hp; reflexivity|].
  destruct I. constructor; sproj; try assumption.
  - intros x Hx Ha. destruct (i_sub_acc0 x Hx Ha) as [H|H]; [left|right; exact H].
    apply upd_keep; [exact H | rewrite Hp; discriminate].
  - intros t0 H0. apply upd_inv in H0; [auto | discriminate].
  - intros e He. destruct (i_term_fin0 e He) as [H1 H2]. split; [|exact H2].
    apply upd_keep; [exact H1 | rewrite Hp; discriminate].
  - apply stamps_pc; [apply stamps_tick; assumption|]. intros t0 H. inversion H. lia.
Qed.

(* the admission critical section: admitted unless [stopping] *)
Lemma sinv_gate c st t t0 (acc : bool) :
  SInv c st -> s_tpc st t = TGate t0 -> s_stopping st = negb acc ->
  SInv c (SSt (s_now st + 1) (s_stopping st) (s_cancelled st) (s_dstarted st) (s_done st)
              (if acc then s_inflight st + 1 else s_inflight st)
              (upd (s_tpc st) t (if acc then TWork else TFin)) (s_kpc st)
              (s_subs st ++ [HSub t t0 (s_now st + 1) acc]) (s_terms st) (s_stops st)).
Proof.
  intros I Hp Hst.
  destruct (sinv_count_upd c st t (if acc then TWork else TFin) (if acc then s_inflight st + 1 else s_inflight st) I)
    as [Hrange Hinfl]; [left; rewrite Hp; discriminate | rewrite Hp; destruct acc; cbn [thold]; lia |].
  assert (Hnostop : acc = true -> s_stops st = []) by (intros ->; exact (i_nostop c st I Hst)).
  destruct I; constructor; sproj; try assumption.
  - intro Hd. destruct acc; [|exact (i_done0 Hd)]. destruct (i_done0 Hd) as [H1 _]. rewrite (i_dstarted0 H1) in Hst. discriminate.
  - intros x Hx Ha. in_snoc Hx.
    + destruct (i_sub_acc0 x Hx Ha) as [H|H]; [left|right; exact H]. apply upd_keep; [exact H | rewrite Hp; discriminate].
    + subst x. cbn [hb_task hb_acc] in *. subst acc. left. apply upd_same.
  - intros t1 H1. destruct (Nat.eq_dec t1 t) as [->|Hne].
    + rewrite upd_same in H1. destruct acc; [|discriminate]. exists (HSub t t0 (s_now st + 1) true).
      split; [apply in_or_app; right; left; reflexivity|split; reflexivity].
    + rewrite upd_other in H1 by exact Hne. apply admitted_task_app, i_work_sub0, H1.
  - intros e He. destruct (i_term_fin0 e He) as [H1 H2]. split; [|apply admitted_task_app, H2].
    apply upd_keep; [exact H1 | rewrite Hp; discriminate].
  - apply stamps_sub; [apply stamps_pc; [apply stamps_tick; assumption | destruct acc; discriminate]|].
    cbn [hb_t0]. pose proof (b_gate _ _ _ _ _ i_stamps0 t t0 Hp). lia.
  - intros x s Hx Ha Hs. in_snoc Hx; [eauto|]. subst x. rewrite (Hnostop Ha) in Hs. destruct Hs.
  - intros s x Hs Hok Hx Ha. in_snoc Hx; [eauto|]. subst x. rewrite (Hnostop Ha) in Hs. destruct Hs.
Qed.

Lemma sinv_terminal c st t r :
  SInv c st -> s_tpc st t = TWork -> res_eqb r RCancel && negb (s_cancelled st) = false ->
  SInv c (SSt (s_now st + 1) (s_stopping st) (s_cancelled st) (s_dstarted st) (s_done st) (s_inflight st - 1)
              (upd (s_tpc st) t TFin) (s_kpc st) (s_subs st) (s_terms st ++ [HTerm t (s_now st + 1) r])
              (s_stops st)).
Proof.
  intros I Hp Hrc. pose proof (sinv_work_pos c st t I Hp) as Hpos.
  destruct (sinv_count_upd c st t TFin (s_inflight st - 1) I) as [Hrange Hinfl];
    [left; rewrite Hp; discriminate | rewrite Hp; cbn [thold]; lia |].
  assert (Hnd : s_done st = false).
  { destruct (s_done st) eqn:Hd; [|reflexivity]. destruct (i_done c st I Hd) as [_ [H0 _]]. lia. }
  destruct I; constructor; sproj; try assumption.
  - rewrite Hnd. discriminate.
  - intros x Hx Ha. destruct (i_sub_acc0 x Hx Ha) as [H|[e [He1 He2]]].
    + destruct (Nat.eq_dec (hb_task x) t) as [E|Hne].
      * right. exists (HTerm t (s_now st + 1) r). split; [apply in_or_app; right; left; reflexivity|]. cbn. congruence.
      * left. rewrite upd_other by assumption. exact H.
    + right. exists e. split; [apply in_or_app; left; exact He1|exact He2].
  - intros t1 H1. apply upd_inv in H1; [auto | discriminate].
  - intros e He. in_snoc He.
    + destruct (i_term_fin0 e He) as [H1 H2]. split; [|exact H2].
      destruct (Nat.eq_dec (ht_task e) t) as [E|Hne]; [rewrite E; apply upd_same|]. rewrite upd_other by assumption. exact H1.
    + subst e. cbn [ht_task]. split; [apply upd_same|]. apply i_work_sub0. exact Hp.
  - rewrite map_app. apply NoDup_app_intro; [exact i_term_nodup0 | repeat constructor; intros [] |].
    intros t1 Hin [<-|[]]. apply in_map_iff in Hin. destruct Hin as [e [E He]]. destruct (i_term_fin0 e He) as [H1 _].
    cbn [ht_task] in E. rewrite E in H1. congruence.
  - apply stamps_term; [apply stamps_pc; [apply stamps_tick; assumption | discriminate] | cbn; lia].
  - intros s x Hs Hok Hx Ha. destruct (i_stopped0 s x Hs Hok Hx Ha) as [e [H1 H2]]. exists e. split; [apply in_or_app; left; exact H1|exact H2].
  -
    intros e He Hr. in_snoc He; [apply i_rc0; assumption|]. subst e. cbn [ht_res ht_t] in *. subst r. cbn [res_eqb andb] in Hrc.
    apply negb_false_iff in Hrc. split.
    + destruct (sc_cod c) eqn:Hcod; [reflexivity|]. rewrite (i_cancel0 Hrc eq_refl) in Hnd. discriminate.
    + destruct (i_cancel_sig0 Hrc) as [Hd|[s [Hs1 Hs2]]]; [congruence|]. exists s. repeat split; try assumption.
      pose proof (b_stops _ _ _ _ _ i_stamps0 s Hs1). lia.
Qed.

Lemma sinv_task c st t r : SInv c st -> SInv c (sstep c st (STask t r)).
Proof.
  intros I. pose proof (sinv_tick c st I) as IT. unfold sstep. sproj.
  destruct (s_tpc st t) eqn:Hp; try exact IT.
  - (* reverted so that the destruct rewrites [s_stopping st] in G *)
    pose proof (fun acc => sinv_gate c st t t0 acc I Hp) as G. revert G.
    destruct (s_stopping st); intro G; [exact (G false eq_refl) | exact (G true eq_refl)].
  - destruct (res_eqb r RCancel && negb (s_cancelled st)) eqn:Hrc; [exact IT | apply sinv_terminal; assumption].
Qed.

Lemma sinv_stopcall c st d : SInv c st -> SInv c (sstep c st (SStopCall d)).
Proof.
  intros I. pose proof (sinv_tick c st I) as IT. unfold sstep. sproj.
  destruct (s_kpc st d) eqn:Hk; try exact IT. clear IT.
  destruct I; constructor; sproj; try assumption; [|apply stamps_tick; assumption].
  intros Hs d0. specialize (i_kpc0 Hs d0). unfold upd. destruct (Nat.eqb d0 d); [exact I|exact i_kpc0].
Qed.

(* a stop call returns nil, or its deadline error (and then cancels if [sc_cod]) *)
Lemma sinv_return c st d t0 ok :
  SInv c st -> s_kpc st d = KWait t0 -> s_done st = ok ->
  SInv c (SSt (s_now st + 1) (s_stopping st) (if ok then s_cancelled st else s_cancelled st || sc_cod c)
              (s_dstarted st) (s_done st) (s_inflight st) (s_tpc st) (upd (s_kpc st) d KIdle)
              (s_subs st) (s_terms st) (s_stops st ++ [HStop t0 (s_now st + 1) ok])).
Proof.
  intros I Hk Hd.
  assert (Hst : s_stopping st = true) by (apply (sinv_caller_stopping c st d I); rewrite Hk; discriminate).
  pose proof (done_all_terminal c st) as Hterm. specialize (fun x => Hterm x I).
  destruct I. constructor; sproj; try assumption.
  - destruct ok; [exact i_done0 | rewrite Hd; discriminate].
  - intro Hs. rewrite Hst in Hs. discriminate.
  - destruct ok; [exact i_cancel0|]. intros Hc Hcod. rewrite Hcod, orb_false_r in Hc. apply i_cancel0; assumption.
  - destruct ok; [intro Hc; left; exact Hd|]. intros _. right. exists (HStop t0 (s_now st + 1) false).
    split; [apply in_or_app; right; left; reflexivity|reflexivity].
  - apply stamps_stop; [apply stamps_tick; assumption | cbn; lia].
  - intro Hs. rewrite Hst in Hs. discriminate.
  - intros x s Hx Ha Hs. in_snoc Hs; [eauto|]. subst s. cbn [hp_t1]. pose proof (b_subs _ _ _ _ _ i_stamps0 x Hx). lia.
  - intros s x Hs Hok Hx Ha. in_snoc Hs; [eauto|]. subst s. cbn [hp_t1 hp_ok] in *. rewrite Hok in Hd.
    destruct (Hterm x Hd Hx Ha) as [e [He1 He2]]. exists e. repeat split; try assumption. pose proof (b_terms _ _ _ _ _ i_stamps0 e He1). lia.
  - intros e He Hr. destruct (i_rc0 e He Hr) as [H1 [s [H2 H3]]]. split; [exact H1|]. exists s. split; [apply in_or_app; left; exact H2|exact H3].
Qed.

Lemma sinv_stop c st d timeout : SInv c st -> SInv c (sstep c st (SStop d timeout)).
Proof.
  intros I. pose proof (sinv_tick c st I) as IT. unfold sstep. sproj.
  destruct (s_kpc st d) eqn:Hk; try exact IT.
  -
    clear IT. destruct I; constructor; sproj; try assumption; try (intros; discriminate); try (intros; reflexivity). apply stamps_tick. assumption.
  -
    assert (Hst : s_stopping st = true) by (apply (sinv_caller_stopping c st d I); rewrite Hk; discriminate).
    clear IT. destruct I; constructor; sproj; try assumption.
    + intro Hd. destruct (i_done0 Hd) as [_ H]. split; [reflexivity|exact H].
    + intros _. exact Hst.
    + intro Hs. rewrite Hst in Hs. discriminate.
    + apply stamps_tick. assumption.
  - pose proof (fun ok => sinv_return c st d t0 ok I Hk) as R. revert R.
    destruct (s_done st); intro R; [exact (R true eq_refl)|].
    destruct timeout; [exact (R false eq_refl) | exact IT].
Qed.

Lemma sinv_drainer c st : SInv c st -> SInv c (sstep c st SDrainer).
Proof.
  intros I. pose proof (sinv_tick c st I) as IT. unfold sstep. sproj.
  destruct (s_dstarted st && negb (s_done st) && (s_inflight st =? 0)) eqn:Hg; [|exact IT]. clear IT.
  apply andb_true_iff in Hg. destruct Hg as [Hg H0]. apply andb_true_iff in Hg. destruct Hg as [Hds Hnd].
  apply N.eqb_eq in H0. apply negb_true_iff in Hnd.
  destruct I; constructor; sproj; try assumption; try (intros; reflexivity).
  - intros _. repeat split; assumption.
  - intros _. left. reflexivity.
  - apply stamps_tick. assumption.
Qed.

Lemma sinv_step c st e : SInv c st -> SInv c (sstep c st e).
Proof.
  destruct e; [apply sinv_submit | apply sinv_task | apply sinv_stopcall | apply sinv_stop | apply sinv_drainer].
Qed.

Lemma sinv_run c evs : SInv c (srun c evs).
Proof.
  unfold srun. rewrite <- fold_left_rev_right.
  induction (rev evs) as [|e l IH]; cbn [fold_right]; [apply sinv_init|]. apply sinv_step. exact IH.
Qed.

Definition squiescent (st : sstate) : Prop := forall t, s_tpc st t = TIdle \/ s_tpc st t = TFin.

Lemma nodup_nat_spec l : NoDup l -> nodup_nat l = true.
Proof.
  induction 1 as [|x l Hni Hnd IH]; [reflexivity|]. cbn [nodup_nat]. rewrite IH, andb_true_r.
  apply negb_true_iff. destruct (existsb (Nat.eqb x) l) eqn:E; [|reflexivity]. exfalso. apply Hni.
  apply existsb_exists in E. destruct E as [y [Hy Hxy]]. apply Nat.eqb_eq in Hxy. subst. exact Hy.
Qed.

Lemma sok_fence_inv c st : SInv c st -> sok_fence (shist_of st) = true.
Proof.
  intro I. unfold sok_fence, shist_of. cbn [sh_subs sh_stops].
  apply forallb_forall. intros x Hx. destruct (hb_acc x) eqn:Ha; [|reflexivity]. cbn [negb orb].
  apply forallb_forall. intros s Hs. apply negb_true_iff, N.ltb_ge, (i_fence c _ I x s Hx Ha Hs).
Qed.

Lemma sok_terms_inv c st : SInv c st -> sok_terms (shist_of st) = true.
Proof.
  intro I. unfold sok_terms, shist_of. cbn [sh_subs sh_terms].
  apply andb_true_iff. split; [apply nodup_nat_spec, (i_term_nodup c _ I)|].
  apply forallb_forall. intros e He. destruct (i_term_fin c _ I e He) as [_ [x [Hx [H1 H2]]]].
  apply existsb_exists. exists x. split; [exact Hx|]. rewrite H1, H2, Nat.eqb_refl. reflexivity.
Qed.

Lemma sok_stopped_inv c st : SInv c st -> sok_stopped (shist_of st) = true.
Proof.
  intro I. unfold sok_stopped, shist_of. cbn [sh_subs sh_terms sh_stops].
  apply forallb_forall. intros s Hs. destruct (hp_ok s) eqn:Hok; [|reflexivity]. cbn [negb orb].
  apply forallb_forall. intros x Hx. destruct (hb_acc x) eqn:Ha; [|reflexivity]. cbn [negb orb].
  destruct (i_stopped c _ I s x Hs Hok Hx Ha) as [e [H1 [H2 H3]]].
  apply existsb_exists. exists e. split; [exact H1|]. rewrite H2, Nat.eqb_refl. apply N.ltb_lt in H3. rewrite H3. reflexivity.
Qed.

Lemma sok_complete_inv c st : SInv c st -> squiescent st -> sok_complete (shist_of st) = true.
Proof.
  intros I Q. unfold sok_complete, shist_of. cbn [sh_subs sh_terms].
  apply forallb_forall. intros x Hx. destruct (hb_acc x) eqn:Ha; [|reflexivity]. cbn [negb orb].
  destruct (i_sub_acc c _ I x Hx Ha) as [Hw|[e [H1 H2]]].
  - destruct (Q (hb_task x)) as [H|H]; rewrite H in Hw; discriminate.
  - apply existsb_exists. exists e. split; [exact H1|]. rewrite H2. apply Nat.eqb_refl.
Qed.

Lemma sok_nocancel_inv c st : SInv c st -> sc_cod c = false -> sok_nocancel (shist_of st) = true.
Proof.
  intros I Hcod. unfold sok_nocancel, shist_of. cbn [sh_terms].
  apply forallb_forall. intros e He. apply negb_true_iff. destruct (ht_res e) eqn:Hr; try reflexivity.
  destruct (i_rc c _ I e He Hr) as [H _]. congruence.
Qed.

Lemma cancel_sig_inv c st : SInv c st -> cancel_after_expired_stop (shist_of st) = true.
Proof.
  intro I. unfold cancel_after_expired_stop, shist_of. cbn [sh_terms sh_stops].
  apply forallb_forall. intros e He. destruct (ht_res e) eqn:Hr; try reflexivity. cbn [res_eqb negb orb].
  destruct (i_rc c _ I e He Hr) as [_ [s [H1 [H2 H3]]]]. apply existsb_exists. exists s. split; [exact H1|].
  rewrite H2. cbn [negb andb]. apply N.leb_le. exact H3.
Qed.

Lemma sok_common c st final :
  SInv c st -> (final = true -> squiescent st) ->
  sok_fence (shist_of st) && sok_terms (shist_of st) && sok_stopped (shist_of st)
  && (negb final || sok_complete (shist_of st)) = true.
Proof.
  intros I Hq. rewrite (sok_fence_inv c st I), (sok_terms_inv c st I), (sok_stopped_inv c st I).
  destruct final; [|reflexivity]. exact (sok_complete_inv c st I (Hq eq_refl)).
Qed.

(* Group.Stop, DrainSends, Quiesce: the monitor is 0 *)
Theorem smonitor_inv c st comp final :
  SInv c st -> sc_cod c = false -> (final = true -> squiescent st) -> smonitor comp final (shist_of st) = 0.
Proof.
  intros I Hcod Hq. unfold smonitor. rewrite (sok_common c st final I Hq), (sok_nocancel_inv c st I Hcod). reflexivity.
Qed.

(* Runtime.Stop: 0 or the known signature, a task cancelled after a stop call's deadline expired *)
Theorem smonitor_inv_cod c st final :
  SInv c st -> (final = true -> squiescent st) ->
  smonitor 3 final (shist_of st) = 0 \/ smonitor 3 final (shist_of st) = 2.
Proof.
  intros I Hq. unfold smonitor. rewrite (sok_common c st final I Hq), (cancel_sig_inv c st I). cbn [N.eqb andb].
  destruct (sok_nocancel _); auto.
Qed.

Theorem no_admission_after_stop c st e :
  s_stopping st = true ->
  s_stopping (sstep c st e) = true /\ s_inflight (sstep c st e) <= s_inflight st.
Proof.
  intro H. unfold sstep. destruct e; sproj; rewrite ?H;
    repeat match goal with
           | |- context [match ?x with _ => _ end] => destruct x
           | |- context [if ?x then _ else _] => destruct x
           end; sproj; split; try reflexivity; try assumption; lia.
Qed.

(* stated for any pc of the caller, hence nothing about [s_stopping] *)
Lemma stop_step_frame c st d timeout :
  let st' := sstep c st (SStop d timeout) in
  s_tpc st' = s_tpc st /\ s_inflight st' = s_inflight st /\ s_subs st' = s_subs st /\ s_terms st' = s_terms st
  /\ s_done st' = s_done st /\ (s_dstarted st = true -> s_dstarted st' = true)
  /\ (sc_cod c = false -> s_cancelled st' = s_cancelled st).
Proof.
  unfold sstep. sproj. destruct (s_kpc st d); [| | |destruct (s_done st) eqn:E; [|destruct timeout]]; sproj;
    repeat split; auto. intros ->. apply orb_false_r.
Qed.

Lemma runtime_stop_refuted :
  exists c evs e, sc_cod c = true /\ In e (s_terms (srun c evs)) /\ ht_res e = RCancel
                  /\ smonitor 3 true (shist_of (srun c evs)) = 2.
Proof.
  exists (SCfg 2 true),
         [SSubmit 0; STask 0 ROk; SSubmit 1; STask 1 ROk; SStopCall 0; SStop 0 false; SStop 0 false;
          SStop 0 true; STask 0 RCancel; STask 1 RCancel; SDrainer],
         (HTerm 0 9 RCancel).
  vm_compute. repeat split; try reflexivity. left. reflexivity.
Qed.

(* seeded change C41-a: with check and admission in two critical sections a stop completes in
   between and a task is admitted after the drain is done *)
Lemma split_check_refuted :
  let c := SCfg 1 false in
  let evs := [SSubmit 0; STask 0 ROk; SStopCall 0; SStop 0 false; SStop 0 false; SDrainer; SStop 0 false; STask 0 ROk] in
  let st := srun_split c evs in
  s_done st = true /\ s_inflight st = 1 /\ s_tpc st 0%nat = TWork
  /\ map hb_acc (s_subs st) = [true] /\ s_terms st = [] /\ map hp_ok (s_stops st) = [true]
  /\ smonitor 1 false (shist_of st) = 1
  /\ smonitor 1 false (shist_of (srun c evs)) = 0.
Proof. vm_compute. repeat split; reflexivity. Qed.
