(* Proof/RaftDriver_exec.v — C12: what a micro-operation of the driver model does to a
   live node: its unfolding, the two classes of operations (the bookkeeping of
   futures, which touches nothing else, and the others, which leave it alone), the
   events an operation appends; newSlot on a stopped node. *)
From WK Require Import Base.Base Model.RaftDriver.
From Coq Require Import ZifyBool ZifyN ZifyNat.
Open Scope N_scope.

Ltac nsimpl :=
  cbn [durable_sm d_log d_hs d_snap d_snapc d_applied sm_idx sm_hist v_up v_failed v_applying v_applied
       v_queue v_submitted v_pending v_leader g_pos n_tr n_futs
       emit set_durable_log set_d_applied set_sm set_pos set_volatile set_futures] in *.

Definition live (s : node) : Prop := v_up s = true /\ v_failed s = false.

Lemma live_guard s : live s -> v_failed s || negb (v_up s) = false.
Proof. intros [-> ->]. reflexivity. Qed.

Lemma exec_dead o s : ~ live s -> exec o s = s.
Proof.
  intro H. unfold exec. destruct (v_failed s) eqn:F; [reflexivity|].
  destruct (v_up s) eqn:U; [exfalso; apply H; split; assumption | reflexivity].
Qed.

Lemma live_dec s : {live s} + {~ live s}.
Proof.
  unfold live. destruct (v_up s), (v_failed s); try (left; split; reflexivity);
    right; intros [A B]; discriminate.
Qed.

(* on a live node the guard of [exec] is false: what is left is the operation's own clause *)
Ltac exec_on L := unfold exec in *; rewrite (live_guard _ L) in *.

Definition save_body (hs : option hardstate) (ents : list entry) (snap : option (N * N * list entry)) (s : node) : node :=
  let log' := log_put (d_log s) ents in
  let hs' := match hs with Some h => h | None => d_hs s end in
  let '(sn, snc) := match snap with Some (i, _, c) => (i, c) | None => (d_snap s, d_snapc s) end in
  emit (EvSave hs ents (snap_meta snap)) (set_durable_log log' hs' sn snc s).

Lemma exec_save_live hs ents snap s :
  live s ->
  (hs = None /\ ents = [] /\ snap = None /\ exec (OSave hs ents snap) s = s)
  \/ exec (OSave hs ents snap) s = save_body hs ents snap s.
Proof.
  intro L. exec_on L. unfold save_body.
  destruct hs, ents, snap; try (right; reflexivity). left. repeat split; reflexivity.
Qed.

Lemma exec_all_app a b s : exec_all (a ++ b) s = exec_all b (exec_all a s).
Proof. unfold exec_all. apply fold_left_app. Qed.

Lemma exec_all_cons o r s : exec_all (o :: r) s = exec_all r (exec o s).
Proof. reflexivity. Qed.

Lemma exec_all_nil s : exec_all [] s = s.
Proof. reflexivity. Qed.

Lemma exec_all_dead ops s : ~ live s -> exec_all ops s = s.
Proof.
  intro H. induction ops as [|o r IH]; [reflexivity|]. rewrite exec_all_cons, exec_dead by exact H. exact IH.
Qed.

(* s' is s except for the four fields that hold the futures *)
Definition same_core (s s' : node) : Prop :=
  exists sub pend l out, s' = set_futures sub pend l out s.

Lemma same_core_refl s : same_core s s.
Proof. exists (v_submitted s), (v_pending s), (v_leader s), (n_futs s). destruct s. reflexivity. Qed.

Lemma same_core_trans a b c : same_core a b -> same_core b c -> same_core a c.
Proof. intros (x & y & z & w & ->) (x' & y' & z' & w' & ->). exists x', y', z', w'. reflexivity. Qed.

Lemma same_core_set_futures sub pend l out s : same_core s (set_futures sub pend l out s).
Proof. exists sub, pend, l, out. reflexivity. Qed.

Lemma same_core_live s s' : same_core s s' -> live s -> live s'.
Proof. intros (sub & pend & l & out & ->) L. exact L. Qed.

Lemma resolveProposal_core e s : same_core s (resolveProposal e s).
Proof.
  unfold resolveProposal. destruct (pend_get (v_pending s) (e_idx e)) as [[t f]|]; [|apply same_core_refl].
  destruct (t =? e_term e); [apply same_core_set_futures | apply same_core_refl].
Qed.

Lemma completeResolutions_core ents s : same_core s (completeResolutions ents s).
Proof.
  unfold completeResolutions. revert s. induction ents as [|e r IH]; intro s; cbn [fold_left].
  - apply same_core_refl.
  - eapply same_core_trans; [apply resolveProposal_core | apply IH].
Qed.

Lemma failLeadershipDependent_core s : same_core s (failLeadershipDependent s).
Proof. apply same_core_set_futures. Qed.

Lemma refreshStatus_core l s : same_core s (refreshStatus l s).
Proof.
  unfold refreshStatus. destruct (v_leader s && negb l).
  - eapply same_core_trans; [apply failLeadershipDependent_core | apply same_core_set_futures].
  - apply same_core_set_futures.
Qed.

Lemma propose_core cmd acc s : same_core s (step_node (SPropose cmd acc) s).
Proof.
  cbn [step_node]. destruct (v_up s && negb (v_failed s)); [destruct acc; apply same_core_set_futures | apply same_core_refl].
Qed.

(* three operations (OTrack, OResolve, ORefresh) only touch the four fields that hold the futures, v_submitted,
   v_pending, v_leader, n_futs ([same_core]); the others leave those fields alone ([exec_futs]) *)
Definition futs_op (o : mop) : bool :=
  match o with OTrack _ | OResolve _ | ORefresh _ => true | _ => false end.

Lemma exec_core o s : futs_op o = true -> same_core s (exec o s).
Proof.
  intro F. destruct (live_dec s) as [L|D]; [|rewrite exec_dead by exact D; apply same_core_refl].
  exec_on L. destruct o; try discriminate F.
  - destruct (trackReadyEntries ents (v_submitted s) (v_pending s)). apply same_core_set_futures.
  - apply completeResolutions_core.
  - apply refreshStatus_core.
Qed.

Definition ev_of (o : mop) (s : node) : list event :=
  match o with
  | OSave hs ents snap =>
      match hs, ents, snap with None, [], None => [] | _, _, _ => [EvSave hs ents (snap_meta snap)] end
  | OSend ms => match ms with [] => [] | _ => [EvSend ms] end
  | ORestore i _ => [EvRestore i]
  | OCall ents => [EvApply (1 <? N.of_nat (length ents)) ents]
  | OMarkApplied i =>
      if i <=? v_applied s then [] else
      match markApplied (durable_sm s) (sm_idx s) i with MarkStore => [EvMark i] | _ => [] end
  | OCompactMark i => if durable_sm s then [EvMark i] else []
  | OCompactSave i => [EvSave None [] (Some (i, 0))]
  | _ => []
  end.

(* the other operations append [ev_of] to the event list and leave the futures alone *)
Lemma exec_quiet o s :
  live s -> futs_op o = false ->
  n_tr (exec o s) = n_tr s ++ ev_of o s
  /\ (v_submitted (exec o s) = v_submitted s /\ v_pending (exec o s) = v_pending s /\ n_futs (exec o s) = n_futs s)
  /\ match o with OMarkApplied _ => True | _ => live (exec o s) end.
Proof.
  intros L F. pose proof L as [LU LF]. exec_on L. destruct o as [hs ents snap| |ms| | |idx| | | | | |i|]; try discriminate F; cbn [ev_of].
  - destruct hs, ents, snap as [[[? ?] ?]|]; rewrite ?app_nil_r; repeat split; try reflexivity; assumption.
  - destruct ms; rewrite ?app_nil_r; repeat split; try reflexivity; assumption.
  - repeat split; try reflexivity; assumption.
  - repeat split; try reflexivity; assumption.
  - destruct (idx <=? v_applied s); [|destruct (markApplied (durable_sm s) (sm_idx s) idx)];
      rewrite ?app_nil_r; repeat split; try reflexivity; assumption.
  - rewrite app_nil_r. repeat split; try reflexivity; assumption.
  - rewrite app_nil_r. repeat split; try reflexivity; assumption.
  - rewrite app_nil_r. repeat split; try reflexivity; assumption.
  - destruct (durable_sm s); rewrite ?app_nil_r; repeat split; try reflexivity; assumption.
  - repeat split; try reflexivity; assumption.
Qed.

Lemma exec_futs o s :
  futs_op o = false ->
  v_submitted (exec o s) = v_submitted s /\ v_pending (exec o s) = v_pending s /\ n_futs (exec o s) = n_futs s.
Proof.
  intro F. destruct (live_dec s) as [L|D]; [apply (exec_quiet o s L F) | rewrite exec_dead by exact D; repeat split; reflexivity].
Qed.

Lemma exec_tr o s : live s -> n_tr (exec o s) = n_tr s ++ ev_of o s.
Proof.
  intro L. destruct (futs_op o) eqn:F; [|apply (exec_quiet o s L F)].
  destruct (exec_core o s F) as (sub & pend & l & out & E). rewrite E.
  destruct o; try discriminate F; cbn [ev_of]; rewrite app_nil_r; reflexivity.
Qed.

Lemma resolveProposal_submitted e s : v_submitted (resolveProposal e s) = v_submitted s.
Proof.
  unfold resolveProposal. destruct (pend_get (v_pending s) (e_idx e)) as [[t f]|]; [|reflexivity].
  destruct (t =? e_term e); reflexivity.
Qed.

Lemma completeResolutions_submitted ents s : v_submitted (completeResolutions ents s) = v_submitted s.
Proof.
  unfold completeResolutions. revert s. induction ents as [|e r IH]; intro s; cbn [fold_left]; [reflexivity|].
  rewrite IH. apply resolveProposal_submitted.
Qed.

Definition sub_op (o : mop) : bool := match o with OTrack _ | ORefresh _ => true | _ => false end.

Lemma exec_submitted o s : sub_op o = false -> v_submitted (exec o s) = v_submitted s.
Proof.
  intro F. destruct o; try discriminate F; try (refine (proj1 (exec_futs _ s _)); reflexivity).
  destruct (live_dec s) as [L|D]; [|rewrite exec_dead by exact D; reflexivity].
  exec_on L. apply completeResolutions_submitted.
Qed.

Lemma exec_all_submitted ops : forall s, existsb sub_op ops = false -> v_submitted (exec_all ops s) = v_submitted s.
Proof.
  induction ops as [|o r IH]; intros s H; [reflexivity|]. cbn [existsb] in H. apply orb_false_iff in H.
  rewrite exec_all_cons, IH, exec_submitted; [reflexivity | apply H | apply H].
Qed.

Lemma drain_submitted q : existsb sub_op (drain q) = false.
Proof.
  induction q as [|t q IH]; [reflexivity|]. unfold drain in *. cbn [flat_map].
  rewrite existsb_app, IH. unfold runApplyTask, apply_ops. rewrite !existsb_app. cbn [existsb sub_op]. rewrite !orb_false_r.
  induction (applyCommittedEntries (t_ents t)) as [|c l IHl]; [reflexivity | exact IHl].
Qed.

Definition boot_event (first : bool) (s : node) : event :=
  EvBoot first (hs_term (d_hs s)) (hs_vote (d_hs s)) (hs_commit (d_hs s)) (d_applied s) (d_snap s) (sm_idx s).

Lemma newSlot_down first s :
  v_up s = false ->
  newSlot first s =
  let start := newSlot_applied (durable_sm s) (d_snap s) (d_applied s) (sm_idx s) in
  let s1 := set_pos start (set_volatile true false start start [] (emit (boot_event first s) s)) in
  emit (EvBooted start)
    (if negb (d_snap s =? 0) then emit (EvRestore (d_snap s)) (set_sm (d_snap s) (d_snapc s) (d_snap s) s1) else s1).
Proof.
  intro U. unfold newSlot. rewrite U. cbn zeta. destruct (negb (d_snap s =? 0)); reflexivity.
Qed.

Definition boot_events (first : bool) (s : node) : list event :=
  boot_event first s :: (if negb (d_snap s =? 0) then [EvRestore (d_snap s)] else [])
  ++ [EvBooted (newSlot_applied (durable_sm s) (d_snap s) (d_applied s) (sm_idx s))].

Lemma newSlot_tr first s : v_up s = false -> n_tr (newSlot first s) = n_tr s ++ boot_events first s.
Proof.
  intro U. rewrite (newSlot_down first s U). cbn zeta. unfold boot_events.
  destruct (negb (d_snap s =? 0)); nsimpl; rewrite <- !app_assoc; reflexivity.
Qed.
