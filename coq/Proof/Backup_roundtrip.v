(* Proof/Backup_roundtrip.v — C11 (uses Backup, Backup_import): what is written is what is read back.
   - the framing decoders invert the encoders (both stream formats);
   - [restored]: the form in which a successful import into an empty store leaves every section
     (catalog, checkpoint, system entries, rows);
   - an exported section holds only rows at or below the cut. *)
From WK Require Import Base.Base Base.Bytes Base.Lists Gen.Consts_C11 Model.Backup Proof.Backup Proof.Backup_import.
From Coq Require Import ZifyBool.
Open Scope N_scope.

(* well-formed sections: what a Go value can be *)
Definition field_ok (b : bytes) : Prop := N.of_nat (length b) <= maxMessageBackupStreamFieldBytes.
Definition row_wf (r : raw_row) : Prop := rr_seq r < 2 ^ 64 /\ field_ok (rr_header r) /\ field_ok (rr_payload r).
Definition chan_wf (c : raw_chan) : Prop :=
  field_ok (rc_key c) /\ field_ok (rc_id c) /\ length (rc_ckpt c) = 24%nat
  /\ Forall (fun e => field_ok (fst e) /\ field_ok (snd e)) (rc_sys c)
  /\ N.of_nat (length (rc_sys c)) < 2 ^ 64
  /\ rc_count c = N.of_nat (length (rc_rows c)) /\ rc_count c < 2 ^ 64
  /\ Forall row_wf (rc_rows c).

Lemma field_rt b rest : field_ok b -> get_field maxMessageBackupStreamFieldBytes (put_field b ++ rest) = Some (b, rest).
Proof.
  intro H. apply field_roundtrip; [exact H|]. unfold field_ok in H.
  assert (maxMessageBackupStreamFieldBytes < 2 ^ 64) by (vm_compute; reflexivity). lia.
Qed.

Lemma dec_sys_rt e rest : field_ok (fst e) /\ field_ok (snd e) -> dec_sys (enc_sys e ++ rest) = Some (e, rest).
Proof.
  intros [Hk Hv]. unfold dec_sys, enc_sys. rewrite <- app_assoc, !field_rt by assumption. destruct e; reflexivity.
Qed.

Lemma dec_row_rt r rest : row_wf r -> dec_row (enc_row r ++ rest) = Some (r, rest).
Proof.
  intros (Hs & Hh & Hp). unfold dec_row, enc_row, put_u64. rewrite <- !app_assoc.
  rewrite get_be_put, !field_rt by assumption. destruct r; reflexivity.
Qed.

Lemma dec_chan_rt c rest : chan_wf c -> dec_chan (enc_chan c ++ rest) = Some (c, rest).
Proof.
  intros (Hk & Hi & Hc & Hs & Hsn & Hcnt & Hcl & Hr).
  unfold dec_chan, dec_chan_header, enc_chan. rewrite <- !app_assoc.
  rewrite !field_rt by assumption. cbn [app].
  rewrite take_app by exact Hc.
  rewrite uvarint_roundtrip by exact Hsn.
  rewrite dec_sys_list_eq, (dec_list_roundtrip_counted _ _ _ reads_sys dec_sys_rt) by (exact Hs || reflexivity).
  rewrite uvarint_roundtrip by exact Hcl. cbn [rc_count].
  rewrite dec_row_list_eq, (dec_list_roundtrip_counted _ _ _ reads_row dec_row_rt) by assumption.
  destruct c; reflexivity.
Qed.

Theorem msg_payload_roundtrip s :
  rs_hash_slot s < 2 ^ 16 -> N.of_nat (length (rs_chans s)) < 2 ^ 32 -> Forall chan_wf (rs_chans s) ->
  dec_msg_payload (enc_msg_payload s) = Some (s, []).
Proof.
  intros Hh Hn Hwf. unfold dec_msg_payload, enc_msg_payload.
  rewrite take_app by reflexivity. rewrite bytes_eqb_refl. cbn [negb].
  unfold put_u16 at 1. rewrite get_be_put by (vm_compute; reflexivity). rewrite N.eqb_refl. cbn [negb].
  unfold put_u16. rewrite get_be_put by exact Hh.
  unfold put_u32. rewrite get_be_put by exact Hn.
  rewrite <- (app_nil_r (concat (map enc_chan (rs_chans s)))).
  rewrite dec_chan_list_eq, (dec_list_roundtrip_counted _ _ _ reads_chan dec_chan_rt) by (exact Hwf || reflexivity).
  destruct s; reflexivity.
Qed.

Definition entry_wf (e : kv) : Prop :=
  N.of_nat (length (fst e)) <= maxSlotSnapshotStreamEntryBytes /\ N.of_nat (length (snd e)) <= maxSlotSnapshotStreamEntryBytes.

Lemma dec_entry_rt e rest : entry_wf e -> dec_entry (enc_entry e ++ rest) = Some (e, rest).
Proof.
  intros (Hk & Hv). unfold dec_entry, enc_entry. rewrite <- !app_assoc.
  assert (maxSlotSnapshotStreamEntryBytes < 2 ^ 64) by (vm_compute; reflexivity).
  rewrite uvarint_roundtrip by lia.
  replace (maxSlotSnapshotStreamEntryBytes <? N.of_nat (length (fst e))) with false by lia.
  rewrite uvarint_roundtrip by lia.
  replace (maxSlotSnapshotStreamEntryBytes <? N.of_nat (length (snd e))) with false by lia.
  replace (N.of_nat (length (fst e ++ snd e ++ rest)) <? N.of_nat (length (fst e))) with false by (rewrite app_length; lia).
  rewrite Nat2N.id, take_app by reflexivity.
  replace (N.of_nat (length (snd e ++ rest)) <? N.of_nat (length (snd e))) with false by (rewrite app_length; lia).
  rewrite Nat2N.id, take_app by reflexivity. destruct e; reflexivity.
Qed.

Theorem meta_payload_roundtrip s :
  rm_slots s <> [] -> N.of_nat (length (rm_slots s)) < 2 ^ 16 -> Forall (fun x => x < 2 ^ 16) (rm_slots s) ->
  rm_count s = N.of_nat (length (rm_entries s)) -> rm_count s <= 9223372036854775807 ->
  Forall entry_wf (rm_entries s) ->
  dec_meta_payload (enc_meta_payload s) = Some (s, []).
Proof.
  intros Hne Hn Hs Hc Hcl Hwf. unfold dec_meta_payload, enc_meta_payload.
  rewrite take_app by reflexivity. rewrite bytes_eqb_refl. cbn [negb].
  unfold put_u16 at 1. rewrite get_be_put by (vm_compute; reflexivity). rewrite N.eqb_refl. cbn [negb].
  unfold put_u16 at 1. rewrite get_be_put by exact Hn.
  replace (N.of_nat (length (rm_slots s)) =? 0) with false by (destruct (rm_slots s); [contradiction|cbn [length]; lia]).
  rewrite Nat2N.id, dec_u16_list_eq.
  rewrite (dec_list_roundtrip (get_be 2) put_u16 _ (fun x rest => get_be_put 2 x rest)) by exact Hs.
  unfold put_u64. rewrite get_be_put by lia.
  replace (9223372036854775807 <? rm_count s) with false by lia.
  rewrite <- (app_nil_r (concat (map enc_entry (rm_entries s)))).
  rewrite dec_entry_list_eq, (dec_list_roundtrip_counted _ _ _ reads_entry dec_entry_rt) by assumption.
  destruct s; reflexivity.
Qed.

Lemma rows_through_bound hw : forall rows, Forall (fun r => rw_seq r <= hw) (rows_through hw rows).
Proof.
  induction rows as [|r rest IH]; cbn [rows_through]; [constructor|].
  destruct (hw <? rw_seq r) eqn:E; [constructor|]. apply N.ltb_ge in E. constructor; assumption.
Qed.

Theorem exported_rows_within_cut vt d c s :
  export_chan vt d c = Ok s -> Forall (fun r => rr_seq r <= cu_hw c) (rc_rows s).
Proof.
  unfold export_chan.
  destruct (match ch_cat d with Some (id, ty) => _ | None => None end); [discriminate|].
  destruct (match ch_ret d with Some (e, retained) => _ | None => _ end) as [leo|e]; [|discriminate].
  destruct (leo <? cu_hw c); [discriminate|].
  destruct (filter_sys (cu_hw c) (ch_sys d)) as [kept|e]; [|discriminate].
  destruct (lookup_valid vt (ch_key d) (cu_hw c) (map se_key kept)) as [v|]; [|discriminate].
  destruct (negb (v =? 0)); [discriminate|].
  destruct (first_row_err _); [discriminate|]. destruct (negb (forallb rw_ident_ok _)); [discriminate|].
  intro H. injection H as <-. cbn [rc_rows]. apply Forall_map. cbn [rr_seq].
  destruct (cu_hw c =? 0); [constructor|apply rows_through_bound].
Qed.

(* the restored form of one section *)
Definition restored (c : raw_chan) : chan_dump := install_rows (rc_rows c) (install_meta c (empty_dump (rc_key c))).

