(* Proof/Machine_monitor.v — the boolean monitor of Model/Machine.v accepts every trace of the
   model, and any trace the monitor accepts answers each op id at most as often as it was
   admitted (C06). *)
From WK Require Import Base.Base Base.Lists Gen.Consts_C06 Model.Machine Proof.Machine Proof.Machine_steps
     Proof.Machine_trans.
Open Scope N_scope.

Lemma pair_eqb_refl p : pair_eqb p p = true.
Proof. unfold pair_eqb. rewrite !N.eqb_refl. reflexivity. Qed.

Lemma nlist_eqb_refl l : nlist_eqb l l = true.
Proof. apply list_eqb_refl. apply N.eqb_refl. Qed.

Lemma plist_eqb_refl l : plist_eqb l l = true.
Proof. apply list_eqb_refl. apply pair_eqb_refl. Qed.

Lemma waiter_eqb_refl w : waiter_eqb w w = true.
Proof. unfold waiter_eqb. rewrite !N.eqb_refl, plist_eqb_refl. reflexivity. Qed.

Lemma inflight_eqb_refl f : inflight_eqb f f = true.
Proof. unfold inflight_eqb. rewrite N.eqb_refl, plist_eqb_refl, !nlist_eqb_refl. reflexivity. Qed.

Lemma state_eqb_refl s : state_eqb s s = true.
Proof.
  unfold state_eqb. rewrite !N.eqb_refl, !nlist_eqb_refl, Z.eqb_refl, Bool.eqb_reflx, plist_eqb_refl.
  rewrite (list_eqb_refl waiter_eqb waiter_eqb_refl), (option_eqb_refl inflight_eqb inflight_eqb_refl).
  reflexivity.
Qed.

Lemma reply_eqb_refl r : reply_eqb r r = true.
Proof. unfold reply_eqb. rewrite !N.eqb_refl, plist_eqb_refl. reflexivity. Qed.

Lemma task_eqb_refl t : task_eqb t t = true.
Proof. unfold task_eqb. rewrite !N.eqb_refl, nlist_eqb_refl, Bool.eqb_reflx. reflexivity. Qed.

Lemma decision_eqb_refl d : decision_eqb d d = true.
Proof.
  unfold decision_eqb.
  rewrite !N.eqb_refl, Bool.eqb_reflx, (list_eqb_refl reply_eqb reply_eqb_refl), (option_eqb_refl task_eqb task_eqb_refl).
  reflexivity.
Qed.

Lemma step_ok_parts pre e d post :
  step_ok pre e d post = true <->
  wm_ok post = true /\ hw_mono_ok pre post = true
  /\ forallb (reply_ok pre post) (d_replies d) = true /\ nodup_b (map r_op (d_replies d)) = true
  /\ admission_ok pre e d post = true /\ stale_ok pre e d post = true /\ meta_ok pre e d post = true.
Proof. unfold step_ok. rewrite !andb_true_iff. tauto. Qed.

Lemma admission_ok_parts pre e d post :
  admission_ok pre e d post = true <->
  forallb (fun id => negb (mem id (pend_ids (s_pending pre)))) (admitted_ids e d) = true
  /\ nodup_b (admitted_ids e d) = true
  /\ forallb (fun id => mem id (pend_ids (s_pending pre)) || mem id (admitted_ids e d))
             (pend_ids (s_pending post)) = true.
Proof. unfold admission_ok. cbv zeta. rewrite !andb_true_iff. tauto. Qed.

Lemma step_ok_model s e s' d : Inv s -> step s e = (s', d) -> step_ok s e d s' = true.
Proof.
  intros HI H. pose proof (step_establishes_facts _ _ _ _ HI H) as F.
  destruct F as [[[W1 [W2 _]] _] Fhw _ _ Frep Fnd Fpend Ffresh Fadm].
  apply step_ok_parts. split; [|split; [|split; [|split; [|split; [|split]]]]].
  - unfold wm_ok. apply andb_true_iff. split; apply N.leb_le; assumption.
  - unfold hw_mono_ok. destruct ((s_epoch s =? s_epoch s') && (s_lepoch s =? s_lepoch s'));
      [apply N.leb_le; exact Fhw|reflexivity].
  - apply forallb_forall. intros r Hr. destruct (Frep r Hr) as [w [Fw [Nin Q]]].
    unfold reply_ok. rewrite Fw. apply andb_true_iff. split.
    + apply negb_true_iff. apply mem_false. exact Nin.
    + destruct ((r_err r =? 0) && (w_mode w =? CommitModeQuorum)) eqn:C; [|reflexivity].
      apply andb_true_iff in C. destruct C as [C1 C2]. apply N.eqb_eq in C1, C2.
      destruct (Q C1) as [w' [_ [_ [_ [_ [L Hq]]]]]].
      destruct (last_idx (r_items r)) as [q|] eqn:Lq; [|reflexivity].
      apply N.leb_le. rewrite (L q eq_refl). apply Hq. exact C2.
  - apply nodup_b_NoDup. exact Fnd.
  - apply admission_ok_parts. split; [|split].
    + apply forallb_forall. intros x Hx. apply negb_true_iff. apply mem_false. apply Ffresh. exact Hx.
    + apply nodup_b_NoDup. exact Fadm.
    + apply forallb_forall. intros x Hx. apply orb_true_iff.
      destruct (Fpend x Hx) as [H1|H1]; [left|right]; apply mem_In; exact H1.
  - unfold stale_ok. destruct e; try reflexivity.
    + destruct (matches_fence s f) eqn:M; [reflexivity|].
      cbn [step] in H. rewrite (stale_stored _ _ _ _ _ M) in H. inversion H; subst.
      rewrite state_eqb_refl. reflexivity.
    + destruct (matches_fence s f) eqn:M; [reflexivity|].
      cbn [step] in H. rewrite (stale_quorum _ _ _ _ _ _ M) in H. inversion H; subst.
      rewrite state_eqb_refl. reflexivity.
  - unfold meta_ok. destruct e; try reflexivity.
    destruct (meta_older s m || meta_leader_switch s m) eqn:M; [|reflexivity].
    destruct (meta_rejected s m M) as [e [He Ha]]. cbn [step] in H. rewrite Ha in H.
    inversion H; subst. rewrite state_eqb_refl. cbn [dec_err d_err].
    apply N.eqb_neq in He. rewrite He. reflexivity.
Qed.

Lemma trace_ok_run : forall evs s, Inv s -> trace_ok s (run s evs) = true.
Proof.
  induction evs as [|e evs IH]; intros s HI; cbn [run trace_ok]; [reflexivity|].
  destruct (step s e) as [s' d] eqn:E. cbn [trace_ok].
  rewrite (step_ok_model _ _ _ _ HI E). cbn [andb]. apply IH.
  exact (sf_inv _ _ _ _ (step_establishes_facts _ _ _ _ HI E)).
Qed.

Lemma mm_steps_run : forall evs s, mm_steps s (run s evs) = false.
Proof.
  induction evs as [|e evs IH]; intros s; cbn [run mm_steps]; [reflexivity|].
  destruct (step s e) as [s' d] eqn:E. cbn [mm_steps]. rewrite E.
  rewrite decision_eqb_refl, state_eqb_refl. cbn [andb negb orb]. apply IH.
Qed.

(* the case the harness would print if the implementation behaved exactly like the model *)
Definition model_case (key local gen id leo hw cp : N) (evs : list event) : c06_case :=
  let s0 := init_state key local gen id leo hw cp in
  C06Case key local gen id leo hw cp s0 (run s0 evs).

Theorem model_satisfies_monitor key local gen id leo hw cp evs :
  cp <= hw -> hw <= leo -> C06_monitor (model_case key local gen id leo hw cp evs) = 0.
Proof.
  intros H1 H2. unfold C06_monitor, model_case. cbn [c_s0 c_steps].
  rewrite trace_ok_run by (apply Inv_init; assumption).
  assert (W : wm_ok (init_state key local gen id leo hw cp) = true).
  { unfold wm_ok, init_state; st. apply andb_true_iff. split; apply N.leb_le; assumption. }
  rewrite W. reflexivity.
Qed.

Theorem model_case_no_mismatch key local gen id leo hw cp evs :
  C06_mismatch (model_case key local gen id leo hw cp evs) = false.
Proof.
  unfold C06_mismatch, model_case. cbn [c_key c_local c_gen c_id c_leo c_hw c_cp c_s0 c_steps].
  rewrite state_eqb_refl, mm_steps_run. reflexivity.
Qed.

(* at most one answer per admission, for ANY trace the monitor accepts *)
Definition cnt (x : N) (l : list N) : nat := count_occ N.eq_dec l x.

Fixpoint replies_to (x : N) (tr : list (event * decision * state)) : nat :=
  match tr with
  | [] => 0
  | (_, d, _) :: r => cnt x (map r_op (d_replies d)) + replies_to x r
  end.

Fixpoint admissions_of (x : N) (tr : list (event * decision * state)) : nat :=
  match tr with
  | [] => 0
  | (e, d, _) :: r => cnt x (admitted_ids e d) + admissions_of x r
  end.

Fixpoint final_state (s : state) (tr : list (event * decision * state)) : state :=
  match tr with
  | [] => s
  | (_, _, s') :: r => final_state s' r
  end.

Definition waiting (x : N) (s : state) : nat := if mem x (pend_ids (s_pending s)) then 1 else 0.

Lemma cnt_le_1 x l : NoDup l -> (cnt x l <= 1)%nat.
Proof. intro H. apply NoDup_count_occ. exact H. Qed.

Lemma cnt_pos x l : (cnt x l > 0)%nat <-> In x l.
Proof. unfold cnt. symmetry. apply count_occ_In. Qed.

Lemma step_ok_counts pre e d post x :
  step_ok pre e d post = true ->
  (cnt x (map r_op (d_replies d)) + waiting x post <= cnt x (admitted_ids e d) + waiting x pre)%nat.
Proof.
  intro H. apply step_ok_parts in H. destruct H as [_ [_ [Hrep [Hnd [Hadm _]]]]].
  apply nodup_b_NoDup in Hnd. pose proof (cnt_le_1 x _ Hnd) as R1.
  apply admission_ok_parts in Hadm. destruct Hadm as [_ [_ Hpend]].
  rewrite forallb_forall in Hrep, Hpend.
  destruct (Nat.eq_dec (cnt x (map r_op (d_replies d))) 0) as [Z|NZ].
  - rewrite Z. unfold waiting at 1. destruct (mem x (pend_ids (s_pending post))) eqn:P1; [|lia].
    apply mem_In in P1. pose proof (Hpend x P1) as Hx. apply orb_true_iff in Hx.
    destruct Hx as [Hx|Hx].
    + unfold waiting. rewrite Hx. lia.
    + apply mem_In in Hx. apply cnt_pos in Hx. lia.
  - assert (Hin : In x (map r_op (d_replies d))) by (apply cnt_pos; lia).
    apply in_map_iff in Hin. destruct Hin as [r [E Hr]]. pose proof (Hrep r Hr) as Ok.
    unfold reply_ok in Ok. rewrite E in Ok.
    destruct (find_w x (s_pending pre)) as [w|] eqn:Fw; [|discriminate].
    apply andb_true_iff in Ok. destruct Ok as [Ok _]. apply negb_true_iff in Ok.
    pose proof (find_w_some_ids _ _ _ Fw) as Pin. apply mem_In in Pin.
    unfold waiting. rewrite Ok, Pin. lia.
Qed.

Theorem trace_ok_reply_once : forall tr s0 x,
  trace_ok s0 tr = true ->
  (replies_to x tr + waiting x (final_state s0 tr) <= admissions_of x tr + waiting x s0)%nat.
Proof.
  induction tr as [|[[e d] s1] r IH]; intros s0 x H; cbn [replies_to admissions_of final_state].
  - lia.
  - cbn [trace_ok] in H. apply andb_true_iff in H. destruct H as [H1 H2].
    pose proof (step_ok_counts _ _ _ _ x H1). pose proof (IH s1 x H2). lia.
Qed.
