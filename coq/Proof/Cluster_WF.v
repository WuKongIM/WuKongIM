(* Proof/Cluster_WF.v — whole schedules.  The generic lifting of Proof/Cluster_Lift.v is extended to
   schedule steps (a standalone checkpoint must stay within the log of its node) and to schedules, and
   instantiated with the per-replica invariant of Proof/ReplicaLog_WF.v.  Result: on every schedule every
   replica log stays an unbroken hash chain with committed <= log end, its committed watermark never
   moves backwards and no entry identity at or below it ever changes. *)
From WK Require Import Base.Base.
From WK Require Import Model.ReplicaLog Model.QuorumLog Model.Cluster.
From WK Require Import Proof.ReplicaLog Proof.QuorumLog_Commit Proof.ReplicaLog_WF Proof.Cluster_Lift.
Open Scope N_scope.

(* a standalone checkpoint stays within the log of its node *)
Definition ckpt_bounded (c : cluster) (op : qop) : Prop :=
  match op with
  | OCheckpoint node hw =>
      let o := get_owner (cl_owners c) node in
      N.min hw (if qc_ready o then qc_hw o else 0) <= rp_leo (net_rep (cl_net c) node)
  | _ => True
  end.

Lemma with_faults_rep n f v : net_rep (with_faults n f) v = net_rep n v.
Proof. reflexivity. Qed.

Fixpoint run_bounded (cfg : qconfig) (c : cluster) (ops : list qop) : Prop :=
  match ops with
  | [] => True
  | op :: rest => ckpt_bounded c op /\ run_bounded cfg (fst (q_step cfg c op)) rest
  end.

Fixpoint run_cluster (cfg : qconfig) (c : cluster) (ops : list qop) : cluster :=
  match ops with
  | [] => c
  | op :: rest => run_cluster cfg (fst (q_step cfg c op)) rest
  end.

Section LiftStep.
  Variable R : replica -> replica -> Prop.
  Hypothesis R_refl : forall rp, R rp rp.
  Hypothesis R_trans : forall a b c, R a b -> R b c -> R a c.
  Hypothesis R_sync : forall k rp mu rp' o nf, sync k rp mu = (rp', o, nf) -> R rp rp'.
  Hypothesis R_replace : forall k rp q rp' lo, replace k rp q = inr (rp', lo) -> R rp rp'.
  Hypothesis R_ckpt : forall rp w, w <= rp_leo rp -> R rp (storeCheckpoint rp w).

  (* the fault plan of a call is not part of what [net_ok] compares *)
  Lemma q_step_lift cfg c op c' r :
    ckpt_bounded c op -> q_step cfg c op = (c', r) -> net_ok R (cl_net c) (cl_net c').
  Proof.
    intros Hb. destruct op as [node aid wf q f | node expected cmd recs sa f | node | node | node | l fo fr th | node hw];
      cbn [q_step].
    - destruct (Install cfg (with_faults (cl_net c) f) _ node _) as [[n' st'] res] eqn:E.
      intros [= <- _]. exact (Install_net_ok R R_refl R_trans R_sync R_replace _ _ _ _ _ _ _ _ E).
    - destruct (Commit cfg (with_faults (cl_net c) f) _ node _) as [[n' st'] res] eqn:E.
      intros [= <- _]. exact (Commit_net_ok R R_refl R_trans R_sync _ _ _ _ _ _ _ _ E).
    - intros [= <- _]. exact (net_ok_refl R R_refl (cl_net c)).
    - intros [= <- _]. exact (net_ok_refl R R_refl (cl_net c)).
    - intros [= <- _]. apply (net_ok_refl R R_refl).
    - destruct (RepairFollower cfg (cl_net c) l fo fr th) as [n' ok] eqn:E.
      intros [= <- _]. exact (RepairFollower_ok R R_refl R_trans R_sync _ _ _ _ _ _ _ _ E).
    - intros [= <- _]. apply (net_set_ok R R_refl), R_ckpt, Hb.
  Qed.

  Lemma run_cluster_lift cfg : forall ops c, run_bounded cfg c ops ->
    forall v, R (net_rep (cl_net c) v) (net_rep (cl_net (run_cluster cfg c ops)) v).
  Proof.
    induction ops as [|op ops IH]; intros c Hb v; cbn; [apply R_refl|].
    destruct Hb as [Hb1 Hb2]. destruct (q_step cfg c op) as [c' r] eqn:E. cbn [fst] in *.
    destruct (q_step_lift _ _ _ _ _ Hb1 E) as [_ K].
    eapply R_trans; [apply K | apply IH; exact Hb2].
  Qed.
End LiftStep.

Definition all_WF (c : cluster) : Prop := forall v, WF (net_rep (cl_net c) v).

Lemma all_WF_init cfg : all_WF (cluster_init cfg).
Proof. intro v. unfold cluster_init, net_rep. cbn. rewrite get_rep_init. apply WF_empty. Qed.

Lemma run_cluster_WF cfg ops c : all_WF c -> run_bounded cfg c ops ->
  all_WF (run_cluster cfg c ops) /\ forall v, keeps (net_rep (cl_net c) v) (net_rep (cl_net (run_cluster cfg c ops)) v).
Proof.
  intros HWF Hb.
  pose proof (run_cluster_lift rep_ok rep_ok_refl rep_ok_trans sync_rep_ok replace_rep_ok storeCheckpoint_rep_ok
                               cfg ops c Hb) as K.
  split; intro v; apply (K v (HWF v)).
Qed.
