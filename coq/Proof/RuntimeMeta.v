(* Proof/RuntimeMeta.v — lemmas about Model/RuntimeMeta.v:
   normalization is idempotent, the advance relation is a preorder, and the
   monotonic resolver / retention advance only ever replace a stored row by one
   that advances it. *)
From WK Require Import Base.Base Base.Lists.
From WK Require Import Gen.Consts_C15 Model.RuntimeMeta.
Open Scope N_scope.

(* projections and field updates reduce by [rm_cbn]; nothing arithmetic is unfolded *)
Ltac rm_cbn :=
  cbn [rm_channel_id rm_channel_type rm_channel_epoch rm_leader_epoch rm_route_generation
       rm_replicas rm_isr rm_leader rm_min_isr rm_status rm_features rm_lease_until_ms
       rm_retention_through_seq rm_retention_updated_at_ms rm_write_fence_token
       rm_write_fence_version rm_write_fence_reason rm_write_fence_until_ms
       rm_directory_generation
       set_route_generation set_replicas_isr set_lease_until_ms set_retention set_write_fence
       set_directory_generation] in *.

Lemma monotonic_results_distinct :
  MonotonicApplied <> MonotonicIgnoredStale /\ MonotonicApplied <> MonotonicConflict
  /\ MonotonicIgnoredStale <> MonotonicConflict /\ MonotonicApplied <> 0.
Proof. repeat split; vm_compute; discriminate. Qed.

Fixpoint ssorted (l : list N) : Prop :=
  match l with
  | [] => True
  | x :: r => match r with [] => True | y :: _ => x < y end /\ ssorted r
  end.

Lemma insert_uniq_head x l :
  match insert_uniq x l with
  | [] => False
  | h :: _ => h = x \/ (exists y r, l = y :: r /\ h = y /\ y < x)
  end.
Proof.
  destruct l as [|y r]; cbn [insert_uniq]; [left; reflexivity|].
  destruct (x <? y) eqn:Hlt; [left; reflexivity|].
  destruct (x =? y) eqn:Heq.
  - apply N.eqb_eq in Heq. left. symmetry. exact Heq.
  - right. exists y, r. apply N.ltb_ge in Hlt. apply N.eqb_neq in Heq.
    repeat split. lia.
Qed.

Lemma insert_uniq_ssorted x : forall l, ssorted l -> ssorted (insert_uniq x l).
Proof.
  induction l as [|y r IH]; intro Hs; [cbn; auto|].
  cbn [insert_uniq].
  destruct (x <? y) eqn:Hlt.
  - apply N.ltb_lt in Hlt. cbn [ssorted]. split; [exact Hlt|exact Hs].
  - destruct (x =? y) eqn:Heq; [exact Hs|].
    apply N.ltb_ge in Hlt. apply N.eqb_neq in Heq.
    destruct Hs as [Hh Hr]. specialize (IH Hr).
    pose proof (insert_uniq_head x r) as Hhead.
    destruct (insert_uniq x r) as [|h t] eqn:Hins; [contradiction|].
    cbn [ssorted]. split; [|exact IH].
    destruct Hhead as [-> | (y' & r' & -> & -> & Hy')]; [lia|exact Hh].
Qed.

Lemma normalizeUint64Set_ssorted l : ssorted (normalizeUint64Set l).
Proof.
  induction l as [|x r IH]; [cbn; auto|].
  cbn [normalizeUint64Set fold_right]. apply insert_uniq_ssorted. exact IH.
Qed.

Lemma normalizeUint64Set_fixed : forall l, ssorted l -> normalizeUint64Set l = l.
Proof.
  induction l as [|x r IH]; intro Hs; [reflexivity|].
  cbn [normalizeUint64Set fold_right]. fold (normalizeUint64Set r).
  destruct Hs as [Hh Hr]. rewrite (IH Hr).
  destruct r as [|y t]; [reflexivity|].
  cbn [insert_uniq]. apply N.ltb_lt in Hh. rewrite Hh. reflexivity.
Qed.

Lemma normalizeUint64Set_idem l : normalizeUint64Set (normalizeUint64Set l) = normalizeUint64Set l.
Proof. apply normalizeUint64Set_fixed, normalizeUint64Set_ssorted. Qed.

Lemma in_insert_uniq x l y : In y (insert_uniq x l) <-> y = x \/ In y l.
Proof.
  induction l as [|z r IH]; cbn [insert_uniq In].
  - split; [intros [H|[]]; auto|intros [H|[]]; auto].
  - destruct (x <? z); [cbn [In]; split; [intros [H|H]; auto|intros [H|H]; auto]|].
    destruct (x =? z) eqn:E.
    + apply N.eqb_eq in E. subst z. cbn [In]. split; [auto|intros [H|H]; auto].
    + cbn [In]. rewrite IH. split; [intros [H|[H|H]]; auto|intros [H|[H|H]]; auto].
Qed.

Lemma in_normalize l y : In y (normalizeUint64Set l) <-> In y l.
Proof.
  unfold normalizeUint64Set. induction l as [|x r IH]; cbn [fold_right In]; [tauto|].
  rewrite in_insert_uniq, IH. split; [intros [H|H]; auto|intros [H|H]; auto].
Qed.

Lemma length_insert_uniq x l : ~ In x l -> length (insert_uniq x l) = S (length l).
Proof.
  induction l as [|z r IH]; cbn [insert_uniq In length]; intro H; [reflexivity|].
  destruct (x <? z); [reflexivity|].
  destruct (x =? z) eqn:E; [apply N.eqb_eq in E; subst; exfalso; apply H; auto|].
  cbn [length]. rewrite IH; [reflexivity|]. intro K. apply H. auto.
Qed.

Lemma length_normalize_nodup l : NoDup l -> length (normalizeUint64Set l) = length l.
Proof.
  unfold normalizeUint64Set. induction 1 as [|x r Hx N IH]; cbn [fold_right length]; [reflexivity|].
  rewrite length_insert_uniq; [rewrite IH; reflexivity|].
  intro K. apply Hx. apply (in_normalize r x). exact K.
Qed.

Lemma ssorted_lt_head x l : ssorted (x :: l) -> forall y, In y l -> x < y.
Proof.
  revert x. induction l as [|z r IH]; intros x S y Hy; [destruct Hy|].
  cbn [ssorted] in S. destruct S as [S1 S2]. destruct Hy as [Hy|Hy].
  - subst. exact S1.
  - assert (z < y) by (apply (IH z S2 y Hy)). lia.
Qed.

Lemma ssorted_tail x l : ssorted (x :: l) -> ssorted l.
Proof. destruct l as [|z r]; cbn [ssorted]; [trivial|intros [_ S]; exact S]. Qed.

Lemma ssorted_nodup l : ssorted l -> NoDup l.
Proof.
  induction l as [|x r IH]; intro S; [constructor|].
  constructor; [|apply IH; eapply ssorted_tail; eauto].
  intro H. pose proof (ssorted_lt_head _ _ S x H). lia.
Qed.

(* what normalizeChannelRuntimeMeta establishes; every stored row has it *)
Definition rm_normalized (m : runtime_meta) : Prop :=
  ssorted (rm_replicas m) /\ ssorted (rm_isr m) /\ rm_route_generation m <> 0
  /\ (rm_channel_type m = personChannelType -> rm_directory_generation m <> 0).

Lemma maxUint64_ge_1 a b c : maxUint64 [a; b; c; 1] <> 0.
Proof. unfold maxUint64. cbn [fold_left]. lia. Qed.

Lemma normalize_normalized m : rm_normalized (normalizeChannelRuntimeMeta m).
Proof.
  unfold normalizeChannelRuntimeMeta, rm_normalized.
  rm_cbn.
  destruct (rm_route_generation m =? 0) eqn:Hrg; rm_cbn;
    destruct ((rm_channel_type m =? personChannelType)%Z && (rm_directory_generation m =? 0)) eqn:Hdg;
    rm_cbn; (split; [apply normalizeUint64Set_ssorted|]); (split; [apply normalizeUint64Set_ssorted|]);
    (split; [first [apply maxUint64_ge_1 | apply N.eqb_neq; exact Hrg]|]);
    intro Hty; try discriminate.
  (* the directory generation was left alone: the row is not of person type, or it was set already *)
  all: apply andb_false_iff in Hdg; destruct Hdg as [Hdg|Hdg];
    [apply Z.eqb_neq in Hdg; contradiction|apply N.eqb_neq in Hdg; exact Hdg].
Qed.

Lemma normalized_fixed m : rm_normalized m -> normalizeChannelRuntimeMeta m = m.
Proof.
  intros (Hr & Hi & Hrg & Hdg).
  unfold normalizeChannelRuntimeMeta. rm_cbn.
  rewrite (normalizeUint64Set_fixed _ Hr), (normalizeUint64Set_fixed _ Hi).
  apply N.eqb_neq in Hrg. rewrite Hrg. rm_cbn.
  destruct ((rm_channel_type m =? personChannelType)%Z) eqn:Hty; cbn [andb].
  - apply Z.eqb_eq in Hty. specialize (Hdg Hty). apply N.eqb_neq in Hdg. rewrite Hdg.
    destruct m; reflexivity.
  - destruct m; reflexivity.
Qed.

Lemma normalize_idem m :
  normalizeChannelRuntimeMeta (normalizeChannelRuntimeMeta m) = normalizeChannelRuntimeMeta m.
Proof. apply normalized_fixed, normalize_normalized. Qed.

Lemma normalize_preserves m :
  let n := normalizeChannelRuntimeMeta m in
  rm_channel_id n = rm_channel_id m /\ rm_channel_type n = rm_channel_type m
  /\ rm_channel_epoch n = rm_channel_epoch m /\ rm_leader_epoch n = rm_leader_epoch m
  /\ rm_leader n = rm_leader m /\ rm_lease_until_ms n = rm_lease_until_ms m
  /\ rm_retention_through_seq n = rm_retention_through_seq m
  /\ rm_write_fence_version n = rm_write_fence_version m.
Proof.
  unfold normalizeChannelRuntimeMeta. rm_cbn.
  destruct (rm_route_generation m =? 0); rm_cbn;
    destruct ((rm_channel_type m =? personChannelType)%Z && (rm_directory_generation m =? 0));
    rm_cbn; repeat split; reflexivity.
Qed.

Lemma nlist_eqb_eq a b : nlist_eqb a b = true <-> a = b.
Proof. apply list_eqb_spec. intros. apply N.eqb_eq. Qed.

Lemma nlist_eqb_refl a : nlist_eqb a a = true.
Proof. apply nlist_eqb_eq. reflexivity. Qed.

Lemma runtime_meta_eqb_refl m : runtime_meta_eqb m m = true.
Proof.
  unfold runtime_meta_eqb.
  rewrite ?bytes_eqb_refl, ?nlist_eqb_refl, ?N.eqb_refl, ?Z.eqb_refl. reflexivity.
Qed.

Lemma runtime_meta_eqb_eq a b : runtime_meta_eqb a b = true -> a = b.
Proof.
  unfold runtime_meta_eqb. intro H.
  repeat (apply andb_true_iff in H; let H' := fresh "E" in destruct H as [H H']).
  destruct a, b. rm_cbn.
  repeat match goal with
         | E : bytes_eqb _ _ = true |- _ => apply bytes_eqb_eq in E
         | E : nlist_eqb _ _ = true |- _ => apply nlist_eqb_eq in E
         | E : N.eqb _ _ = true |- _ => apply N.eqb_eq in E
         | E : Z.eqb _ _ = true |- _ => apply Z.eqb_eq in E
         end.
  subst. reflexivity.
Qed.

Lemma rm_key_eqb_eq a b : rm_key_eqb a b = true <-> a = b.
Proof.
  unfold rm_key_eqb. split.
  - intro H. apply andb_true_iff in H. destruct H as [H Ht].
    apply andb_true_iff in H. destruct H as [Hs Hi].
    apply N.eqb_eq in Hs. apply bytes_eqb_eq in Hi. apply Z.eqb_eq in Ht.
    destruct a, b. cbn in *. subst. reflexivity.
  - intros ->. rewrite N.eqb_refl, bytes_eqb_refl, Z.eqb_refl. reflexivity.
Qed.

Lemma rm_key_eqb_refl k : rm_key_eqb k k = true.
Proof. apply rm_key_eqb_eq. reflexivity. Qed.

Lemma rm_key_eqb_sym a b : rm_key_eqb a b = rm_key_eqb b a.
Proof.
  destruct (rm_key_eqb a b) eqn:H1, (rm_key_eqb b a) eqn:H2; try reflexivity.
  - apply rm_key_eqb_eq in H1. subst. rewrite rm_key_eqb_refl in H2. discriminate.
  - apply rm_key_eqb_eq in H2. subst. rewrite rm_key_eqb_refl in H1. discriminate.
Qed.

Lemma store_get_put s k m k' :
  store_get (store_put s k m) k' = if rm_key_eqb k k' then Some m else store_get s k'.
Proof.
  induction s as [|[k0 m0] r IH].
  - cbn [store_put store_get]. reflexivity.
  - cbn [store_put]. destruct (rm_key_eqb k0 k) eqn:H0.
    + apply rm_key_eqb_eq in H0. subst k0. cbn [store_get].
      destruct (rm_key_eqb k k'); reflexivity.
    + cbn [store_get]. destruct (rm_key_eqb k0 k') eqn:H1.
      * apply rm_key_eqb_eq in H1. subst k'. rewrite rm_key_eqb_sym, H0. reflexivity.
      * exact IH.
Qed.

Lemma store_get_del s k k' :
  store_get (store_del s k) k' = if rm_key_eqb k k' then None else store_get s k'.
Proof.
  induction s as [|[k0 m0] r IH].
  - cbn. destruct (rm_key_eqb k k'); reflexivity.
  - cbn [store_del]. destruct (rm_key_eqb k0 k) eqn:H0.
    + apply rm_key_eqb_eq in H0. subst k0. rewrite IH. cbn [store_get].
      destruct (rm_key_eqb k k'); reflexivity.
    + cbn [store_get]. destruct (rm_key_eqb k0 k') eqn:H1.
      * apply rm_key_eqb_eq in H1. subst k'. rewrite rm_key_eqb_sym, H0. reflexivity.
      * exact IH.
Qed.

(* the 14 fields that runtimeRouteChanged compares *)
Definition route_fields (m : runtime_meta) :=
  (rm_channel_epoch m, rm_leader_epoch m, rm_leader m, rm_replicas m, rm_isr m, rm_min_isr m, rm_status m,
   rm_lease_until_ms m, rm_retention_through_seq m, rm_retention_updated_at_ms m,
   rm_write_fence_token m, rm_write_fence_version m, rm_write_fence_reason m, rm_write_fence_until_ms m).

Lemma runtimeRouteChanged_false a b : runtimeRouteChanged a b = false <-> route_fields a = route_fields b.
Proof.
  unfold runtimeRouteChanged, route_fields.
  rewrite !orb_false_iff, !negb_false_iff, !N.eqb_eq, !Z.eqb_eq, !nlist_eqb_eq. split.
  - intros H. decompose [and] H. congruence.
  - intro H. inversion H. repeat split; reflexivity.
Qed.

Lemma runtimeRouteChanged_triangle a b c :
  runtimeRouteChanged a c = true -> runtimeRouteChanged a b = true \/ runtimeRouteChanged b c = true.
Proof.
  intro H.
  destruct (runtimeRouteChanged a b) eqn:Hab; [left; reflexivity|].
  destruct (runtimeRouteChanged b c) eqn:Hbc; [right; reflexivity|].
  apply runtimeRouteChanged_false in Hab. apply runtimeRouteChanged_false in Hbc.
  rewrite (proj2 (runtimeRouteChanged_false a c)) in H by congruence. discriminate.
Qed.

Record advances (a b : runtime_meta) : Prop := Advances {
  adv_epochs : rm_channel_epoch a < rm_channel_epoch b
               \/ (rm_channel_epoch a = rm_channel_epoch b /\ rm_leader_epoch a <= rm_leader_epoch b);
  adv_same_epochs : rm_channel_epoch a = rm_channel_epoch b -> rm_leader_epoch a = rm_leader_epoch b ->
                    rm_leader a = rm_leader b /\ (rm_lease_until_ms a <= rm_lease_until_ms b)%Z;
  adv_retention : rm_retention_through_seq a <= rm_retention_through_seq b;
  adv_fence : rm_write_fence_version a <= rm_write_fence_version b;
  adv_route_generation : rm_route_generation a <= rm_route_generation b;
  adv_route_strict : runtimeRouteChanged a b = true ->
                     rm_route_generation a < rm_route_generation b \/ rm_route_generation a = u64max }.

Lemma epochs_lex_le_iff a b :
  epochs_lex_le a b = true <->
  rm_channel_epoch a < rm_channel_epoch b
  \/ (rm_channel_epoch a = rm_channel_epoch b /\ rm_leader_epoch a <= rm_leader_epoch b).
Proof. unfold epochs_lex_le. rewrite orb_true_iff, andb_true_iff, N.ltb_lt, N.eqb_eq, N.leb_le. reflexivity. Qed.

(* [negb (same_epochs a b) || p]: p is required only when both epochs are unchanged *)
Lemma same_epochs_guard a b p :
  negb (same_epochs a b) || p = true <->
  (rm_channel_epoch a = rm_channel_epoch b -> rm_leader_epoch a = rm_leader_epoch b -> p = true).
Proof.
  unfold same_epochs.
  destruct (rm_channel_epoch a =? rm_channel_epoch b) eqn:E1;
    [apply N.eqb_eq in E1|apply N.eqb_neq in E1; split; [intros _ C; contradiction|reflexivity]].
  destruct (rm_leader_epoch a =? rm_leader_epoch b) eqn:E2;
    [apply N.eqb_eq in E2|apply N.eqb_neq in E2; split; [intros _ _ C; contradiction|reflexivity]].
  cbn [andb negb orb]. split; auto.
Qed.

Lemma runtime_meta_advances_iff a b : runtime_meta_advances a b = true <-> advances a b.
Proof.
  unfold runtime_meta_advances, route_generation_advances.
  rewrite !andb_true_iff, epochs_lex_le_iff, same_epochs_guard, andb_true_iff, !N.leb_le, N.eqb_eq, Z.leb_le.
  split.
  - intros ((((He & Hs) & Hr) & Hf) & Hg & Hst). constructor; try assumption.
    intro Hch. rewrite Hch in Hst. cbn [negb orb] in Hst.
    apply orb_true_iff in Hst. rewrite N.ltb_lt, N.eqb_eq in Hst. exact Hst.
  - intros [He Hs Hr Hf Hg Hst]. split; [auto|]. split; [exact Hg|].
    destruct (runtimeRouteChanged a b); [|reflexivity].
    cbn [negb orb]. apply orb_true_iff. rewrite N.ltb_lt, N.eqb_eq. exact (Hst eq_refl).
Qed.

Lemma advances_refl a : advances a a.
Proof.
  constructor.
  - right. split; [reflexivity|lia].
  - intros _ _. split; [reflexivity|lia].
  - lia.
  - lia.
  - lia.
  - intro H. rewrite (proj2 (runtimeRouteChanged_false a a) eq_refl) in H. discriminate.
Qed.

Lemma advances_trans a b c : advances a b -> advances b c -> advances a c.
Proof.
  intros [He1 Hs1 Hr1 Hf1 Hg1 Hst1] [He2 Hs2 Hr2 Hf2 Hg2 Hst2].
  constructor.
  - lia.
  - intros E1 E2.
    assert (rm_channel_epoch a = rm_channel_epoch b /\ rm_leader_epoch a = rm_leader_epoch b) as [Eb1 Eb2] by lia.
    assert (rm_channel_epoch b = rm_channel_epoch c /\ rm_leader_epoch b = rm_leader_epoch c) as [Ec1 Ec2] by lia.
    destruct (Hs1 Eb1 Eb2) as [L1 Z1]. destruct (Hs2 Ec1 Ec2) as [L2 Z2].
    split; [congruence|lia].
  - lia.
  - lia.
  - lia.
  - intro Hch. destruct (runtimeRouteChanged_triangle a b c Hch) as [H|H].
    + destruct (Hst1 H) as [Hlt|Heq]; [left; lia|right; exact Heq].
    + destruct (Hst2 H) as [Hlt|Heq]; [left; lia|].
      destruct (N.eq_dec (rm_route_generation a) u64max) as [Ha|Ha]; [right; exact Ha|left; lia].
Qed.

Lemma candidate_not_regressing_iff s c :
  candidate_not_regressing s c = true <->
  (rm_channel_epoch s < rm_channel_epoch c
   \/ (rm_channel_epoch s = rm_channel_epoch c /\ rm_leader_epoch s <= rm_leader_epoch c))
  /\ (rm_channel_epoch s = rm_channel_epoch c -> rm_leader_epoch s = rm_leader_epoch c ->
      rm_leader s = rm_leader c).
Proof.
  unfold candidate_not_regressing.
  rewrite andb_true_iff, epochs_lex_le_iff, same_epochs_guard, N.eqb_eq. reflexivity.
Qed.

Lemma nextChannelRouteGeneration_spec g :
  (g <> u64max /\ nextChannelRouteGeneration g = g + 1)
  \/ (g = u64max /\ nextChannelRouteGeneration g = g).
Proof.
  unfold nextChannelRouteGeneration. destruct (g =? u64max) eqn:H.
  - right. apply N.eqb_eq in H. split; [exact H|reflexivity].
  - left. apply N.eqb_neq in H. split; [exact H|reflexivity].
Qed.

Lemma preserve_spec ex c :
  let p := preserveRuntimeMetaState ex c in
  rm_channel_id p = rm_channel_id c /\ rm_channel_type p = rm_channel_type c
  /\ rm_channel_epoch p = rm_channel_epoch c /\ rm_leader_epoch p = rm_leader_epoch c
  /\ rm_route_generation p = rm_route_generation c
  /\ rm_replicas p = rm_replicas c /\ rm_isr p = rm_isr c /\ rm_leader p = rm_leader c
  /\ rm_lease_until_ms p = rm_lease_until_ms c
  /\ rm_retention_through_seq ex <= rm_retention_through_seq p
  /\ rm_write_fence_version ex <= rm_write_fence_version p
  /\ (rm_directory_generation c <> 0 -> rm_directory_generation p <> 0).
Proof.
  unfold preserveRuntimeMetaState.
  destruct (rm_directory_generation c <? rm_directory_generation ex) eqn:Hd; rm_cbn;
  destruct ((rm_retention_through_seq c <? rm_retention_through_seq ex)
            || ((rm_retention_through_seq c =? rm_retention_through_seq ex)
                && (rm_retention_updated_at_ms c <? rm_retention_updated_at_ms ex)%Z)) eqn:Hr; rm_cbn;
  destruct (rm_write_fence_version c <=? rm_write_fence_version ex) eqn:Hf; rm_cbn;
  repeat split; try reflexivity;
  try (apply N.ltb_lt in Hd); try (apply N.ltb_ge in Hd);
  try (apply N.leb_le in Hf); try (apply N.leb_gt in Hf);
  try lia;
  try (apply orb_false_iff in Hr; destruct Hr as [Hr1 Hr2]; apply N.ltb_ge in Hr1; lia).
Qed.

Lemma runtimeRouteChanged_set_rg a c v :
  runtimeRouteChanged a (set_route_generation c v) = runtimeRouteChanged a c.
Proof. reflexivity. Qed.

(* Step 1 clamps a candidate that came without a route generation up to the stored one; step 2
   bumps past the stored generation iff a route field changed and the generation did not advance.
   Either way only the route generation of the candidate changes, and it does not decrease. *)
Lemma bump_shape ex c had :
  exists g, bumpRuntimeRoute ex c had = set_route_generation c g /\ rm_route_generation c <= g.
Proof.
  unfold bumpRuntimeRoute.
  assert (S1 : exists g1, (if negb had && (rm_route_generation c <? rm_route_generation ex)
                           then set_route_generation c (rm_route_generation ex) else c)
                          = set_route_generation c g1 /\ rm_route_generation c <= g1).
  { destruct (negb had && (rm_route_generation c <? rm_route_generation ex)) eqn:E.
    - exists (rm_route_generation ex). split; [reflexivity|].
      apply andb_prop in E. destruct E as [_ E]. apply N.ltb_lt in E. lia.
    - exists (rm_route_generation c). split; [destruct c; reflexivity|lia]. }
  destruct S1 as (g1 & -> & L1). rm_cbn.
  destruct (runtimeRouteChanged ex (set_route_generation c g1) && (g1 <=? rm_route_generation ex)) eqn:E.
  - exists (nextChannelRouteGeneration (rm_route_generation ex)). split; [reflexivity|].
    apply andb_prop in E. destruct E as [_ E]. apply N.leb_le in E.
    destruct (nextChannelRouteGeneration_spec (rm_route_generation ex)) as [[_ ->]|[_ ->]]; lia.
  - exists g1. auto.
Qed.

Lemma bump_normalized ex c had : rm_normalized c -> rm_normalized (bumpRuntimeRoute ex c had).
Proof.
  intros (A & B & C & D). destruct (bump_shape ex c had) as (g & -> & L).
  unfold rm_normalized. rm_cbn. repeat split; auto. lia.
Qed.

Lemma bump_spec ex c had :
  (had = true -> rm_route_generation ex <= rm_route_generation c) ->
  let r := bumpRuntimeRoute ex c had in
  r = set_route_generation c (rm_route_generation r)
  /\ rm_route_generation ex <= rm_route_generation r
  /\ rm_route_generation c <= rm_route_generation r
  /\ (runtimeRouteChanged ex c = true ->
      rm_route_generation ex < rm_route_generation r \/ rm_route_generation ex = u64max).
Proof.
  intro Hhad. unfold bumpRuntimeRoute.
  destruct (nextChannelRouteGeneration_spec (rm_route_generation ex)) as [[Hn1 Hn2]|[Hn1 Hn2]];
  destruct had; cbn [negb andb];
  try (specialize (Hhad eq_refl));
  try (destruct (rm_route_generation c <? rm_route_generation ex) eqn:Hlt;
       [apply N.ltb_lt in Hlt|apply N.ltb_ge in Hlt]);
  rewrite ?runtimeRouteChanged_set_rg; rm_cbn;
  destruct (runtimeRouteChanged ex c) eqn:Hch; cbn [andb];
  try (match goal with
       | |- context [?x <=? ?y] => destruct (x <=? y) eqn:Hle; [apply N.leb_le in Hle|apply N.leb_gt in Hle]
       end);
  rm_cbn; rewrite ?Hn2;
  (split; [destruct c; reflexivity|]); repeat split; try lia; try discriminate;
  intros _; try (left; lia); try (right; assumption).
Qed.

Lemma resolve_absent ex c :
  resolveMonotonicChannelRuntimeMeta ex false c = (normalizeChannelRuntimeMeta c, MonotonicApplied).
Proof. reflexivity. Qed.

(* the result is one of the three enum values; a rejected write returns the stored row *)
Lemma resolve_result_cases ex c next result :
  resolveMonotonicChannelRuntimeMeta ex true c = (next, result) ->
  result = MonotonicApplied
  \/ ((result = MonotonicIgnoredStale \/ result = MonotonicConflict)
      /\ next = normalizeChannelRuntimeMeta ex).
Proof.
  unfold resolveMonotonicChannelRuntimeMeta. cbn [negb].
  repeat match goal with
         | |- context [if ?b then _ else _] => destruct b
         end;
  intro H; inversion H; subst; auto.
Qed.

Lemma resolve_applied ex c next :
  rm_normalized ex ->
  resolveMonotonicChannelRuntimeMeta ex true c = (next, MonotonicApplied) ->
  advances ex next /\ candidate_not_regressing ex c = true /\ rm_normalized next
  /\ rm_channel_id next = rm_channel_id c /\ rm_channel_type next = rm_channel_type c.
Proof.
  intros Hnorm.
  pose proof monotonic_results_distinct as (D1 & D2 & D3 & D4).
  unfold resolveMonotonicChannelRuntimeMeta. cbn [negb].
  rewrite (normalized_fixed ex Hnorm).
  pose proof (normalize_preserves c) as Hk. cbv zeta in Hk.
  pose proof (normalize_normalized c) as Hcn.
  set (c' := normalizeChannelRuntimeMeta c) in *.
  destruct Hk as (Kid & Kty & Kce & Kle & Kld & Kls & Krt & Kwf).
  set (had := negb (rm_route_generation c =? 0)).
  destruct (had && (rm_route_generation c' <? rm_route_generation ex)) eqn:Hstale.
  { intro H. apply (f_equal snd) in H. cbn [snd] in H. congruence. }
  assert (Hhad : had = true -> rm_route_generation ex <= rm_route_generation c').
  { intro Hh. rewrite Hh in Hstale. cbn [andb] in Hstale. apply N.ltb_ge in Hstale. exact Hstale. }
  (* common tail: next = bump ex (preserve ex c2) had, where c2 agrees with c' except the lease *)
  assert (Tail : forall c2,
            rm_channel_id c2 = rm_channel_id c' -> rm_channel_type c2 = rm_channel_type c' ->
            rm_channel_epoch c2 = rm_channel_epoch c' -> rm_leader_epoch c2 = rm_leader_epoch c' ->
            rm_leader c2 = rm_leader c' -> rm_route_generation c2 = rm_route_generation c' ->
            rm_replicas c2 = rm_replicas c' -> rm_isr c2 = rm_isr c' ->
            rm_directory_generation c2 = rm_directory_generation c' ->
            (rm_channel_epoch ex < rm_channel_epoch c'
             \/ (rm_channel_epoch ex = rm_channel_epoch c' /\ rm_leader_epoch ex <= rm_leader_epoch c')) ->
            (rm_channel_epoch ex = rm_channel_epoch c' -> rm_leader_epoch ex = rm_leader_epoch c' ->
             rm_leader ex = rm_leader c' /\ (rm_lease_until_ms ex <= rm_lease_until_ms c2)%Z) ->
            let next := bumpRuntimeRoute ex (preserveRuntimeMetaState ex c2) had in
            advances ex next /\ candidate_not_regressing ex c = true /\ rm_normalized next
            /\ rm_channel_id next = rm_channel_id c /\ rm_channel_type next = rm_channel_type c).
  { intros c2 Eid Ety Ece Ele Eld Erg Erep Eisr Edg Hlex Hsame next0.
    pose proof (preserve_spec ex c2) as P. cbv zeta in P.
    set (p := preserveRuntimeMetaState ex c2) in *.
    destruct P as (Pid & Pty & Pce & Ple & Prg & Prep & Pisr & Pld & Pls & Prt & Pwf & Pdg).
    assert (Hhad' : had = true -> rm_route_generation ex <= rm_route_generation p).
    { intro Hh. rewrite Prg, Erg. apply Hhad. exact Hh. }
    pose proof (bump_spec ex p had Hhad') as B. cbv zeta in B. fold next0 in B.
    destruct B as (Bshape & Bge & Bgec & Bstrict).
    assert (Fce : rm_channel_epoch next0 = rm_channel_epoch c') by (rewrite Bshape; rm_cbn; congruence).
    assert (Fle : rm_leader_epoch next0 = rm_leader_epoch c') by (rewrite Bshape; rm_cbn; congruence).
    assert (Fld : rm_leader next0 = rm_leader c') by (rewrite Bshape; rm_cbn; congruence).
    assert (Fls : rm_lease_until_ms next0 = rm_lease_until_ms c2) by (rewrite Bshape; rm_cbn; congruence).
    assert (Frt : rm_retention_through_seq next0 = rm_retention_through_seq p) by (rewrite Bshape; reflexivity).
    assert (Fwf : rm_write_fence_version next0 = rm_write_fence_version p) by (rewrite Bshape; reflexivity).
    assert (Fch : runtimeRouteChanged ex next0 = runtimeRouteChanged ex p)
      by (rewrite Bshape; apply runtimeRouteChanged_set_rg).
    split; [|split; [|split; [|split]]].
    - constructor.
      + rewrite Fce, Fle. exact Hlex.
      + rewrite Fce, Fle, Fld, Fls. exact Hsame.
      + rewrite Frt. exact Prt.
      + rewrite Fwf. exact Pwf.
      + exact Bge.
      + rewrite Fch. exact Bstrict.
    - apply candidate_not_regressing_iff. rewrite <- Kce, <- Kle, <- Kld. split; [exact Hlex|].
      intros E1 E2. apply (Hsame E1 E2).
    - destruct Hcn as (Nr & Ni & Ng & Nd). unfold rm_normalized.
      rewrite Bshape. rm_cbn. rewrite Prep, Pisr, Pty, Erep, Eisr, Ety.
      repeat split; try assumption.
      + rewrite Prg, Erg in Bgec. clear - Bgec Ng. lia.
      + intro Hty. apply Pdg. rewrite Edg. apply Nd. exact Hty.
    - rewrite Bshape. rm_cbn. congruence.
    - rewrite Bshape. rm_cbn. congruence. }
  destruct (rm_channel_epoch c' <? rm_channel_epoch ex) eqn:H1.
  { intro H. apply (f_equal snd) in H. cbn [snd] in H. congruence. }
  apply N.ltb_ge in H1.
  destruct (rm_channel_epoch ex <? rm_channel_epoch c') eqn:H2.
  { apply N.ltb_lt in H2. intro H. inversion H. subst next.
    apply Tail; try reflexivity; [left; exact H2|intros; lia]. }
  apply N.ltb_ge in H2.
  destruct (rm_leader_epoch c' <? rm_leader_epoch ex) eqn:H3.
  { intro H. apply (f_equal snd) in H. cbn [snd] in H. congruence. }
  apply N.ltb_ge in H3.
  destruct (rm_leader_epoch ex <? rm_leader_epoch c') eqn:H4.
  { apply N.ltb_lt in H4. intro H. inversion H. subst next.
    apply Tail; try reflexivity; [right; lia|intros; lia]. }
  apply N.ltb_ge in H4.
  destruct (negb (rm_leader c' =? rm_leader ex)) eqn:H5.
  { intro H. apply (f_equal snd) in H. cbn [snd] in H. congruence. }
  apply negb_false_iff in H5. apply N.eqb_eq in H5.
  intro H. inversion H. subst next.
  destruct (rm_lease_until_ms c' <? rm_lease_until_ms ex)%Z eqn:H6.
  - apply Z.ltb_lt in H6.
    apply Tail; try reflexivity; [right; lia|].
    intros _ _. rm_cbn. split; [symmetry; exact H5|lia].
  - apply Z.ltb_ge in H6.
    apply Tail; try reflexivity; [right; lia|].
    intros _ _. split; [symmetry; exact H5|lia].
Qed.

Lemma advanceRetentionRow_advances ex req :
  rm_retention_through_seq ex <= ra_retention_through_seq req ->
  advances ex (advanceRetentionRow ex req).
Proof.
  intro Hle. unfold advanceRetentionRow.
  pose proof (nextChannelRouteGeneration_spec (rm_route_generation ex)) as Hn.
  constructor; rm_cbn.
  - right. split; [reflexivity|lia].
  - intros _ _. split; [reflexivity|lia].
  - exact Hle.
  - lia.
  - destruct Hn as [[H1 H2]|[H1 H2]]; rewrite H2; lia.
  - intros _. destruct Hn as [[H1 H2]|[H1 H2]]; rewrite H2; [left; lia|right; exact H1].
Qed.

Lemma advanceRetentionRow_normalized ex req :
  rm_normalized ex -> rm_normalized (advanceRetentionRow ex req).
Proof.
  intros (Nr & Ni & Ng & Nd). unfold advanceRetentionRow, rm_normalized. rm_cbn.
  repeat split; try assumption.
  destruct (nextChannelRouteGeneration_spec (rm_route_generation ex)) as [[H1 H2]|[H1 H2]]; rewrite H2; lia.
Qed.
