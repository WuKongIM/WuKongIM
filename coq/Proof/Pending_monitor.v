(* Proof/Pending_monitor.v — the C26 (b) table monitor [mon_pend] (a checker over
   implementation observations: registered owners + per-channel mailboxes)
   accepts every history the Pending model produces. *)
From WK Require Import Base.Base Base.Bytes Gen.Consts_C26 Model.Wire Model.Pending Model.C26Case Proof.Pending.
Open Scope N_scope.

Definition msg_view (cm : N * msg) : N * outcome := (fst cm, msg_outcome (snd cm)).

Lemma count_chan_proj c (b : list (N * msg)) : count_chan c (map msg_view b) = count_chan c b.
Proof.
  unfold count_chan. f_equal. induction b as [|x b IH]; [reflexivity|].
  cbn [map filter msg_view fst]. destruct (fst x =? c); cbn [length]; rewrite IH; reflexivity.
Qed.

Lemma post_proj caps b cm :
  map msg_view (post_m (cap_of caps) b cm) = post caps (fst cm) (msg_outcome (snd cm)) (map msg_view b).
Proof.
  unfold post_m, post. rewrite count_chan_proj.
  destruct (count_chan (fst cm) b <? cap_of caps (fst cm)); [|reflexivity].
  rewrite map_app. reflexivity.
Qed.

Lemma take_first_proj c : forall b,
  take_mail c (map msg_view b) =
  (match fst (take_first c b) with Some m => Some (msg_outcome m) | None => None end,
   map msg_view (snd (take_first c b))).
Proof.
  induction b as [|x b IH]; [reflexivity|].
  cbn [map take_mail take_first msg_view fst]. destruct (fst x =? c); [reflexivity|].
  rewrite IH. destruct (take_first c b) as [m r]. reflexivity.
Qed.

(* FailAll's sweep: with unique ids every entry is taken once, in order *)
Lemma fold_fail_spec e : forall es cl ce infl b, NoDup (map fst es) ->
  fold_left (fun st id => fail_one id e st) (map fst es) (PState es cl ce infl b)
  = PState [] cl ce (infl ++ map (fun ic => (snd ic, Msg None [] e)) es) b.
Proof.
  induction es as [|[id c] es IH]; intros cl ce infl b ND.
  - cbn. rewrite app_nil_r. reflexivity.
  - cbn [map fst] in ND. inversion ND as [|? ? NI ND']; subst.
    cbn [map fold_left fst]. unfold fail_one at 2, remove. cbn [ps_entries].
    unfold lookup. cbn [find fst]. rewrite N.eqb_refl. cbn [snd fst ps_closed ps_close_err ps_inflight ps_bufs].
    assert (RE : remove_id id ((id, c) :: es) = es).
    { unfold remove_id. cbn [filter fst]. rewrite N.eqb_refl. cbn [negb]. apply not_in_remove_id. exact NI. }
    rewrite RE, IH by exact ND'. rewrite <- app_assoc. reflexivity.
Qed.

Definition table_view (s : pstate) : pm_state :=
  PM (ps_entries s) (map msg_view (ps_bufs s)) (ps_closed s) (ps_close_err s).

Definition quiet (s : pstate) : Prop := ps_inflight s = [] /\ NoDup (map fst (ps_entries s)).

Lemma fold_post_proj caps e : forall (es : list (N * N)) (b : list (N * msg)),
  map msg_view (fold_left (post_m (cap_of caps)) (map (fun ic => (snd ic, Msg None [] e)) es) b)
  = fold_left (fun m ic => post caps (snd ic) ([], e) m) es (map msg_view b).
Proof.
  induction es as [|x es IH]; intro b; [reflexivity|].
  cbn [map fold_left]. rewrite IH, post_proj. reflexivity.
Qed.

Lemma sim_step caps s o : quiet s ->
  pm_step caps (table_view s) (o, snd (pstep caps s o)) = (table_view (fst (pstep caps s o)), true)
  /\ quiet (fst (pstep caps s o)).
Proof.
  destruct s as [es cl ce infl b]. intros [EI ND]. cbn in EI, ND. subst infl. unfold quiet, table_view.
  destruct o as [id c|id|id pl e|e| |c]; cbn [pstep pm_step].
  -
    destruct (cap_of caps c =? 0); [repeat split; assumption|].
    unfold store, store_closed. destruct cl; cbn [snd fst ps_entries ps_closed ps_close_err ps_inflight ps_bufs pm_closed app].
    + rewrite flush_spec. cbn [fold_left ps_entries ps_closed ps_close_err ps_inflight ps_bufs pm_owner pm_mail pm_close_err].
      rewrite post_proj. repeat split; assumption.
    + repeat split. apply nodup_insert, ND.
  -
    repeat split. apply nodup_remove_id, ND.
  -
    unfold complete, remove. cbn [ps_entries pm_owner].
    destruct (lookup id es) as [c|]; cbn [snd fst ps_entries ps_closed ps_close_err ps_inflight ps_bufs app]; [|repeat split; assumption].
    rewrite flush_spec. cbn [fold_left ps_entries ps_closed ps_close_err ps_inflight ps_bufs pm_owner pm_mail pm_closed pm_close_err].
    rewrite post_proj. repeat split. apply nodup_remove_id, ND.
  -
    unfold fail_all, close. cbv zeta.
    destruct cl; cbn [snd fst ps_closed ps_entries]; rewrite fold_fail_spec, flush_spec by exact ND;
      cbn [app ps_entries ps_closed ps_close_err ps_inflight ps_bufs pm_owner pm_mail pm_closed pm_close_err];
      rewrite fold_post_proj; repeat split; constructor.
  -
    cbn [snd fst pm_owner]. unfold plen. cbn [ps_entries]. rewrite N.eqb_refl. repeat split; assumption.
  -
    unfold recv. cbn [ps_bufs pm_mail]. rewrite take_first_proj.
    destruct (take_first c b) as [m r]. cbn [snd fst ps_entries ps_closed ps_close_err ps_inflight ps_bufs].
    replace (opt_eqb outcome_eqb _ _) with true; [repeat split; assumption|].
    symmetry. destruct m as [x|]; [|reflexivity]. apply outcome_eqb_refl.
Qed.

Lemma pm_run_model caps : forall ops s, quiet s ->
  pm_run caps (table_view s) (combine ops (prun caps s ops)) = true.
Proof.
  induction ops as [|o ops IH]; intros s Q; [reflexivity|].
  cbn [prun]. destruct (sim_step caps s o Q) as [ST Q'].
  destruct (pstep caps s o) as [s' ob]. cbn [combine pm_run]. cbn [snd fst] in ST, Q'.
  rewrite ST. exact (IH s' Q').
Qed.

(* C26 (b): the table monitor accepts every sequential history of the model *)
Lemma mon_pend_model caps ops : mon_pend caps (combine ops (prun caps pinit ops)) = true.
Proof.
  unfold mon_pend. apply (pm_run_model caps ops pinit). split; [reflexivity|constructor].
Qed.
