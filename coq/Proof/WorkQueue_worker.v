(* Proof/WorkQueue_worker.v — BoundedWorkerQueue: the monitor is 0 on every model history.
   (The split-Close variant [ws_run] has only its witness in Properties/C37.v.) *)
From WK Require Import Base.Base Model.WorkQueue Model.WorkQueue_worker Proof.WorkQueue.
Open Scope N_scope.

Section WorkerProof.
Variable cf : cfg.

Notation w_step := (w_step cf).
Notation w_run := (w_run cf).
Notation w_hist := (w_hist cf).

Definition pc_task (p : wpc) : option (N * N) :=
  match p with
  | WIdle => None
  | WLock x st _ | WPark x st | WLock2 x st => Some (x, st)
  end.

Definition k_items (k : kpc) : list N :=
  match k with KGot x _ | KRun x _ _ => [x] | _ => [] end.
Definition held (wk : list kpc) : list N := flat_map k_items wk.

Definition needs_closed (k : kpc) : bool :=
  match k with
  | KGot _ dr | KRun _ _ dr => dr
  | KDrain | KExit => true
  | KIdle => false
  end.

Definition places (s : wstate) : list N := w_queue s ++ held (w_wk s) ++ map r_task (w_runs s).

Definition close_flags (b : N) (s : wstate) : Prop :=
  match w_close s with
  | CIdle => w_closed s = false /\ w_clos s = []
  | CStart cb => w_closed s = false /\ w_clos s = [] /\ cb <= b
  | CMid _ => False
  | CWait cb => w_closed s = true /\ w_clos s = [] /\ cb <= b
  | CDone => w_closed s = true
  end.

Definition returned (s : wstate) (c : clo) : Prop :=
  w_closed s = true /\ w_queue s = [] /\ all_exited (w_wk s) = true /\ l_b c < l_e c
  /\ forall r, In r (w_runs s) -> r_e r < l_e c.

Record WInvB (b : N) (s : wstate) : Prop := {
  i_prod : producers WIdle pc_task (fun k => k = 0) b (w_subs s) (w_pcs s);
  i_runs : forall r, In r (w_runs s) -> r_b r < r_e r /\ r_e r <= b /\ r_pos r = 0;
  i_krun : forall i x rb dr, w_k s i = KRun x rb dr -> rb <= b;
  i_cons : conserved (w_subs s) (places s);
  i_needs_closed : forall i, needs_closed (w_k s i) = true -> w_closed s = true;
  i_exit : forall i, w_k s i = KExit -> w_queue s = [];
  i_close : close_flags b s;
  i_ret : forall c, In c (w_clos s) -> returned s c;
  (* NewBoundedWorkerQueue rejects Workers <= 0; [all_exited []] would let Close return at once *)
  i_wk : w_wk s <> [] }.

Definition WInv (s : wstate) : Prop := WInvB (w_now s) s.

Lemma all_exited_nth l : all_exited l = true -> forall i, nth i l KIdle = KExit \/ nth i l KIdle = KIdle.
Proof.
  intros H i. destruct (nth_In_or_default i l KIdle) as [Hin|E]; [|right; exact E].
  unfold all_exited in H. rewrite forallb_forall in H. specialize (H _ Hin).
  destruct (nth i l KIdle); try discriminate. left; reflexivity.
Qed.

Lemma all_exited_ex l i : (i < length l)%nat -> nth i l KIdle <> KExit -> all_exited l = false.
Proof.
  intros Hi Hne. apply not_true_is_false. intro H. unfold all_exited in H. rewrite forallb_forall in H.
  specialize (H _ (nth_In l KIdle Hi)). destruct (nth i l KIdle); try discriminate. apply Hne. reflexivity.
Qed.

Lemma held_all_exited l : all_exited l = true -> held l = [].
Proof.
  induction l as [|k r IH]; [reflexivity|]. cbn [all_exited forallb held flat_map].
  intro H. apply andb_true_iff in H. destruct H as [Hk Hr]. destruct k; try discriminate. apply IH. exact Hr.
Qed.

Ltac prj := unfold places, w_pc, w_k;
            cbn [w_now w_closed w_slots w_queue w_pcs w_wk w_close w_subs w_runs w_clos
                 w_set_pc w_set_k w_with w_ret w_set_close w_tick].

Lemma worker_running b s i : WInvB b s -> (i < length (w_wk s))%nat -> w_k s i <> KExit -> w_clos s = [].
Proof.
  intros HI Hi Hne. destruct (w_clos s) as [|c l] eqn:E; [reflexivity|]. exfalso.
  destruct (i_ret _ _ HI c) as (_ & _ & A & _); [rewrite E; left; reflexivity|].
  rewrite (all_exited_ex _ i Hi Hne) in A. discriminate.
Qed.

Lemma cnt_held_set s i k y : (i < length (w_wk s))%nat ->
  (cnt y (held (set_nth i k KIdle (w_wk s))) + cnt y (k_items (w_k s i)) = cnt y (held (w_wk s)) + cnt y (k_items k))%nat.
Proof. apply cnt_flat_map_set_nth. Qed.

Lemma inv_mono b b' s : b <= b' -> WInvB b s -> WInvB b' s.
Proof.
  intros Hb [ ]. constructor; try assumption.
  - eapply producers_mono; eassumption.
  - intros r Hr. destruct (i_runs0 r Hr) as (A & B & C). repeat split; auto; lia.
  - intros i x rb dr E. specialize (i_krun0 i x rb dr E). lia.
  - unfold close_flags in *. destruct (w_close s); auto.
    + destruct i_close0 as (A & B & C). repeat split; auto; lia.
    + destruct i_close0 as (A & B & C). repeat split; auto; lia.
Qed.

Lemma inv_tick s : WInv s -> WInvB (w_now s) (w_tick s).
Proof. intros [ ]. constructor; assumption. Qed.

(* a producer step; the queue changes only while it is open *)
Lemma inv_thread b s t p sl q' subs' : WInvB b s ->
  producers WIdle pc_task (fun k => k = 0) b subs' (set_nth t p WIdle (w_pcs s)) ->
  conserved subs' (q' ++ held (w_wk s) ++ map r_task (w_runs s)) ->
  (q' = w_queue s \/ w_closed s = false) ->
  WInvB b (WSt (w_now s) (w_closed s) sl q' (set_nth t p WIdle (w_pcs s)) (w_wk s) (w_close s)
               subs' (w_runs s) (w_clos s)).
Proof.
  intros [ ] HP HC Hq. constructor; prj; try assumption.
  - intros i E. destruct Hq as [->|Hcl]; [exact (i_exit0 i E)|].
    specialize (i_needs_closed0 i). unfold w_k in *. rewrite E in i_needs_closed0. specialize (i_needs_closed0 eq_refl). congruence.
  - intros c Hc. destruct (i_ret0 c Hc) as (A & B). destruct Hq as [->|Hcl]; [split; assumption|congruence].
Qed.

Lemma inv_call b s t wait : WInvB b s -> b < w_now s ->
  WInv (w_set_pc s t (WLock (w_now s) (w_now s) wait)).
Proof.
  intros HI Hb. pose proof (inv_mono b (w_now s) s ltac:(lia) HI) as HM.
  apply (inv_thread _ s t _ (w_slots s) (w_queue s) (w_subs s) HM); [|apply HM|left; reflexivity].
  apply (producers_call _ _ _ b); [apply HI|exact Hb|reflexivity].
Qed.

Lemma inv_pc_move b s t p sl : WInvB b s -> pc_task p = pc_task (w_pc s t) ->
  WInvB b (w_set_pc (w_with s sl (w_queue s)) t p).
Proof.
  intros HI Hp. apply (inv_thread _ s t _ sl (w_queue s) (w_subs s) HI); [|apply HI|left; reflexivity].
  apply producers_move; [apply HI|exact Hp].
Qed.

Lemma inv_ret_rej b s t x st r sl : WInvB b s -> b < w_now s -> pc_task (w_pc s t) = Some (x, st) ->
  r <> ROk -> WInv (w_ret (w_with s sl (w_queue s)) t x st r).
Proof.
  intros HI Hb Hpc Hr. pose proof (inv_mono b (w_now s) s ltac:(lia) HI) as HM.
  apply (inv_thread _ s t _ sl (w_queue s) _ HM); [| |left; reflexivity].
  - exact (producers_ret WIdle pc_task _ b _ _ _ t WIdle x st 0 r (i_prod _ _ HI) Hb Hpc eq_refl eq_refl).
  - apply conserved_rej; [exact Hr|apply HM].
Qed.

Lemma inv_ret_ok b s t x st sl : WInvB b s -> b < w_now s -> pc_task (w_pc s t) = Some (x, st) ->
  w_closed s = false -> WInv (w_ret (w_with s sl (w_queue s ++ [x])) t x st ROk).
Proof.
  intros HI Hb Hpc Hcl. pose proof (inv_mono b (w_now s) s ltac:(lia) HI) as HM.
  destruct (p_pcs _ _ _ _ _ _ (i_prod _ _ HI) _ _ _ Hpc) as (_ & _ & Hfresh).
  apply (inv_thread _ s t _ sl (w_queue s ++ [x]) _ HM); [| |right; exact Hcl].
  - exact (producers_ret WIdle pc_task _ b _ _ _ t WIdle x st 0 ROk (i_prod _ _ HI) Hb Hpc eq_refl eq_refl).
  - apply conserved_ok with (pl := places s); [exact Hfresh| |apply HM].
    intro y. unfold places. rewrite !cnt_app, cnt_cons, cnt_nil. lia.
Qed.

Lemma inv_k_upd b s i k sl : WInvB b s -> (i < length (w_wk s))%nat -> w_k s i <> KExit ->
  k_items k = k_items (w_k s i) -> (needs_closed k = true -> w_closed s = true) ->
  (k = KExit -> w_queue s = []) -> (forall x rb dr, k = KRun x rb dr -> rb <= b) ->
  WInvB b (w_set_k (w_with s sl (w_queue s)) i k).
Proof.
  intros HI Hi Hne Hh Hc He Hr. pose proof (worker_running _ _ _ HI Hi Hne) as Hclos.
  pose proof (fun y => cnt_held_set s i k y Hi) as Hcnt. rewrite Hh in Hcnt. destruct HI as [ ].
  constructor; prj; try assumption; try (rewrite Hclos; intros c []).
  - apply (set_nth_forall (fun _ k => forall x rb dr, k = KRun x rb dr -> rb <= b)); [exact Hr|exact i_krun0].
  - apply (conserved_same _ (places s)); [|exact i_cons0]. intro y. specialize (Hcnt y). prj. rewrite !cnt_app. lia.
  - apply (set_nth_forall (fun _ k => needs_closed k = true -> w_closed s = true)); [exact Hc|exact i_needs_closed0].
  - apply (set_nth_forall (fun _ k => k = KExit -> w_queue s = [])); [exact He|exact i_exit0].
  - apply set_nth_not_nil.
Qed.

Lemma inv_k_pop b s i x r dr : WInvB b s -> (i < length (w_wk s))%nat -> w_queue s = x :: r ->
  k_items (w_k s i) = [] -> (dr = true -> w_closed s = true) ->
  WInvB b (w_set_k (w_with s (w_slots s) r) i (KGot x dr)).
Proof.
  intros HI Hi Hq Hh Hc. pose proof (fun y => cnt_held_set s i (KGot x dr) y Hi) as Hcnt. rewrite Hh in Hcnt.
  destruct HI as [ ]. constructor; prj; try assumption.
  - apply (set_nth_forall (fun _ k => forall x rb dr, k = KRun x rb dr -> rb <= b)); [discriminate|exact i_krun0].
  - apply (conserved_same _ (places s)); [|exact i_cons0]. intro y. specialize (Hcnt y). prj.
    cbn [k_items] in Hcnt. rewrite Hq, !cnt_app, !cnt_cons, ?cnt_nil in *. lia.
  - apply (set_nth_forall (fun _ k => needs_closed k = true -> w_closed s = true)); [exact Hc|exact i_needs_closed0].
  - apply (set_nth_forall (fun _ k => k = KExit -> r = [])); [discriminate|].
    intros j E. specialize (i_exit0 j E). congruence.
  - intros c Hc'. destruct (i_ret0 c Hc') as (_ & Q & _). congruence.
  - apply set_nth_not_nil.
Qed.

Lemma inv_k_done b s i x rb dr : WInvB b s -> b < w_now s -> w_k s i = KRun x rb dr ->
  (i < length (w_wk s))%nat ->
  let s' := w_set_k s i (if dr then KDrain else KIdle) in
  WInv (WSt (w_now s') (w_closed s') (w_slots s') (w_queue s') (w_pcs s') (w_wk s') (w_close s')
            (w_subs s') (Run x 0 rb (w_now s) 0 :: w_runs s') (w_clos s')).
Proof.
  intros HI Hb Hk Hi s'. pose proof (i_krun _ _ HI _ _ _ _ Hk) as Hrb.
  pose proof (worker_running _ _ _ HI Hi ltac:(rewrite Hk; discriminate)) as Hclos.
  pose proof (fun y => cnt_held_set s i (if dr then KDrain else KIdle) y Hi) as Hcnt. rewrite Hk in Hcnt.
  replace (k_items (if dr then KDrain else KIdle)) with (@nil N) in Hcnt by (destruct dr; reflexivity).
  cbn [k_items] in Hcnt.
  apply (inv_mono b (w_now s)) in HI; [|lia]. destruct HI as [ ].
  unfold WInv, s'. constructor; prj; try assumption; try (rewrite Hclos; intros c []).
  - intros r [<-|Hr]; [cbn; repeat split; lia|apply i_runs0; exact Hr].
  - apply (set_nth_forall (fun _ k => forall x rb dr, k = KRun x rb dr -> rb <= w_now s)); [destruct dr; discriminate|exact i_krun0].
  - apply (conserved_same _ (places s)); [|exact i_cons0]. intro y. specialize (Hcnt y). prj.
    cbn [map r_task]. rewrite !cnt_app, !cnt_cons, ?cnt_nil in *. lia.
  - apply (set_nth_forall (fun _ k => needs_closed k = true -> w_closed s = true)); [|exact i_needs_closed0].
    intro Hn. destruct dr; [apply (i_needs_closed0 i); unfold w_k in *; rewrite Hk; reflexivity|discriminate Hn].
  - apply (set_nth_forall (fun _ k => k = KExit -> w_queue s = [])); [destruct dr; discriminate|exact i_exit0].
  - apply set_nth_not_nil.
Qed.

Lemma inv_close_call b s : WInvB b s -> b < w_now s -> w_close s = CIdle ->
  WInv (w_set_close s (w_closed s) (CStart (w_now s)) (w_clos s)).
Proof.
  intros HI Hb Hc. apply (inv_mono b (w_now s)) in HI; [|lia]. destruct HI as [ ].
  unfold close_flags in i_close0. rewrite Hc in i_close0. destruct i_close0 as (A & B).
  unfold WInv. constructor; unfold close_flags; prj; try assumption. repeat split; auto. apply N.le_refl.
Qed.

Lemma inv_close_lock b s cb : WInvB b s -> w_close s = CStart cb ->
  WInvB b (w_set_close s true (CWait cb) (w_clos s)).
Proof.
  intros [ ] Hc. unfold close_flags in i_close0. rewrite Hc in i_close0. destruct i_close0 as (A & B & C).
  constructor; unfold close_flags; prj; try assumption; try (intros; reflexivity).
  - repeat split; assumption.
  - rewrite B. intros c [].
Qed.

Lemma inv_close_done b s cb : WInvB b s -> b < w_now s -> w_close s = CWait cb ->
  all_exited (w_wk s) = true ->
  WInv (w_set_close s (w_closed s) CDone (Clo cb (w_now s) true :: w_clos s)).
Proof.
  intros HI Hb Hc Hex. pose proof (i_close _ _ HI) as F. unfold close_flags in F. rewrite Hc in F.
  destruct F as (A & B & C).
  (* some worker exists and has exited: it saw the queue empty after closed *)
  assert (Hq : w_queue s = []).
  { pose proof (i_wk _ _ HI) as Hwk. apply (i_exit _ _ HI 0%nat). unfold w_k.
    destruct (all_exited_nth _ Hex 0%nat) as [E|E]; [exact E|]. exfalso.
    destruct (w_wk s) as [|k0 wk']; [congruence|]. cbn [nth] in E. subst k0. discriminate Hex. }
  destruct (inv_mono b (w_now s) s ltac:(lia) HI) as [ ].
  unfold WInv. constructor; unfold close_flags; prj; try assumption.
  rewrite B. intros c [<-|[]]. unfold returned. prj. cbn [l_b l_e]. repeat split; try assumption; try lia.
  intros r Hr. destruct (i_runs _ _ HI r Hr) as (_ & D & _). lia.
Qed.

(* [HB] bounds the ticked state by the old clock (for fresh stamps), [HM] by its own *)
Lemma inv_step s e : WInv s -> WInv (w_step s e).
Proof.
  intro HI0. pose proof (inv_tick s HI0) as HB. unfold Model.WorkQueue_worker.w_step.
  set (s1 := w_tick s) in *. assert (Hb : w_now s < w_now s1) by (unfold s1; cbn; lia).
  assert (HM : WInv s1) by (apply (inv_mono (w_now s)); [lia|exact HB]).
  destruct e as [t wait|t alt|i alt| |].
  - destruct (w_pc s1 t) eqn:Hpc; try exact HM. apply (inv_call (w_now s)); auto.
  - unfold w_thread_step. destruct (w_pc s1 t) as [|x st wait|x st|x st] eqn:Hpc; [exact HM| | |].
    + destruct (w_closed s1) eqn:Hcl.
      * apply (inv_ret_rej (w_now s) s1 t x st RClosed (w_slots s1)); auto; [rewrite Hpc; reflexivity|discriminate].
      * destruct (0 <? w_slots s1).
        -- destruct (queue_has_room cf s1); [|exact HM].
           apply (inv_ret_ok (w_now s)); auto. rewrite Hpc; reflexivity.
        -- destruct wait.
           ++ apply (inv_pc_move _ s1 t _ (w_slots s1) HM). rewrite Hpc; reflexivity.
           ++ apply (inv_ret_rej (w_now s) s1 t x st RFull (w_slots s1)); auto; [rewrite Hpc; reflexivity|discriminate].
    + destruct alt.
      * destruct (w_closed s1); [|exact HM].
        apply (inv_ret_rej (w_now s) s1 t x st RClosed (w_slots s1)); auto; [rewrite Hpc; reflexivity|discriminate].
      * destruct (0 <? w_slots s1); [|exact HM]. apply (inv_pc_move _ s1 t _ _ HM). rewrite Hpc; reflexivity.
    + destruct (w_closed s1) eqn:Hcl.
      * apply (inv_ret_rej (w_now s)); auto; [rewrite Hpc; reflexivity|discriminate].
      * destruct (queue_has_room cf s1).
        -- apply (inv_ret_ok (w_now s)); auto. rewrite Hpc; reflexivity.
        -- apply (inv_pc_move _ s1 t _ _ HM). rewrite Hpc; reflexivity.
  - unfold w_worker_step. destruct (Nat.ltb_spec i (length (w_wk s1))) as [Hi|Hi]; cbn [negb]; [|exact HM].
    destruct (w_k s1 i) as [|x dr|x rb dr| |] eqn:Hk.
    + destruct alt.
      * destruct (w_closed s1) eqn:Hcl; [|exact HM].
        apply (inv_k_upd _ s1 i KDrain (w_slots s1) HM Hi); rewrite ?Hk; try discriminate; auto.
      * destruct (w_queue s1) as [|x r] eqn:Hq; [exact HM|].
        apply inv_k_pop; auto; [rewrite Hk; reflexivity|discriminate].
    + apply (inv_k_upd _ s1 i _ _ HM Hi); rewrite ?Hk; try discriminate; auto.
      * cbn [needs_closed]. intro E. apply (i_needs_closed _ _ HM i). rewrite Hk. exact E.
      * intros x0 rb0 dr0 E. inversion E. apply N.le_refl.
    + apply (inv_k_done (w_now s)); auto.
    + assert (Hcl : w_closed s1 = true) by (apply (i_needs_closed _ _ HM i); rewrite Hk; reflexivity).
      destruct (w_queue s1) as [|x r] eqn:Hq.
      * apply (inv_k_upd _ s1 i KExit (w_slots s1) HM Hi); rewrite ?Hk; try discriminate; auto.
      * apply inv_k_pop; auto. rewrite Hk; reflexivity.
    + exact HM.
  - destruct (w_close s1) eqn:Hc; try exact HM. apply (inv_close_call (w_now s)); auto.
  - destruct (w_close s1) as [|cb|cb|cb|] eqn:Hc; try exact HM.
    + apply inv_close_lock; assumption.
    + destruct (all_exited (w_wk s1)) eqn:Hex; [|exact HM]. apply (inv_close_done (w_now s)); auto.
Qed.

Lemma w_at_most_once s : WInv s -> NoDup (map r_task (w_runs s)).
Proof.
  intro HI. apply NoDup_cnt. intro x. pose proof (proj1 (i_cons _ _ HI) x) as H.
  unfold places in H. rewrite !cnt_app in H. lia.
Qed.

Lemma w_rejected_never_runs s sb : WInv s ->
  In sb (w_subs s) -> s_res sb <> ROk -> ~ In (s_task sb) (map r_task (w_runs s)).
Proof.
  intros HI Hin Hr Hran.
  assert (Hpl : In (s_task sb) (places s)) by (unfold places; rewrite !in_app_iff; tauto).
  apply (i_cons _ _ HI) in Hpl. destruct Hpl as (sb' & Hin' & Et & Er).
  rewrite (producers_sub_unique _ _ _ _ _ _ sb' sb (i_prod _ _ HI) Hin' Hin Et) in Er. contradiction.
Qed.

Lemma w_close_waits s c sb : WInv s -> In c (w_clos s) -> In sb (w_subs s) -> s_res sb = ROk ->
  exists r, In r (w_runs s) /\ r_task r = s_task sb /\ r_e r < l_e c.
Proof.
  intros HI Hc Hin Hr.
  destruct (i_ret _ _ HI c Hc) as (_ & Hq & Hex & _ & Hruns).
  assert (Hpl : In (s_task sb) (places s)) by (apply (i_cons _ _ HI); exists sb; auto).
  unfold places in Hpl. rewrite Hq, (held_all_exited _ Hex) in Hpl. cbn [app] in Hpl.
  apply in_map_iff in Hpl. destruct Hpl as (r & Er & Hr'). exists r. auto.
Qed.

Hypothesis kind_worker : c_kind cf = KWorker.

Theorem w_monitor s : WInv s -> C37_monitor (w_hist s) = 0.
Proof.
  intro HI. apply allowed_0. apply monitor_allowed; [discriminate| | | | |].
  - apply ok_once_intro. unfold terminal_ids, w_hist. cbn [h_runs h_cans map]. rewrite app_nil_r. apply w_at_most_once. exact HI.
  - apply ok_rejected_intro. intros sb Hin Hr. unfold terminal_ids, w_hist. cbn [h_runs h_cans map]. rewrite app_nil_r.
    apply w_rejected_never_runs; [exact HI|exact Hin|]. intro E. rewrite E in Hr. discriminate.
  - reflexivity.
  - unfold ok_mailbox, w_hist. cbn [h_cfg]. rewrite kind_worker. reflexivity.
  - intros c Hc _ sb Hin Hr. left. apply task_code_zero.
    assert (Er : s_res sb = ROk) by (destruct (s_res sb); try discriminate; reflexivity).
    destruct (w_close_waits s c sb HI Hc Hin Er) as (r & Hr1 & Hr2 & Hr3).
    eapply terminal_before_run; eauto.
Qed.

Theorem w_accepts s : WInv s -> C37_mismatch (w_hist s) = false.
Proof.
  intro HI. apply accepts_intro; cbn [w_hist h_subs h_runs h_clos h_drains h_cfg].
  - apply (p_nd _ _ _ _ _ _ (i_prod _ _ HI)).
  - intros sb Hin. destruct (p_subs _ _ _ _ _ _ (i_prod _ _ HI) sb Hin) as (_ & A & _ & E). rewrite E. split; [exact A|lia].
  - intros r Hin. destruct (i_runs _ _ HI r Hin) as (A & _ & E). rewrite E. split; [exact A|lia].
  - intros c Hc. apply (i_ret _ _ HI c Hc).
  - intros d [].
Qed.

Hypothesis workers_pos : c_workers cf <> 0.

Lemma inv_init : WInv (w_init cf).
Proof.
  assert (Hp : forall t, nth t [] WIdle = WIdle) by (intros [|t]; reflexivity).
  constructor; unfold close_flags; prj; cbn [w_init w_pcs w_wk w_subs w_runs w_clos w_queue w_closed w_close w_now map app];
    unfold held; rewrite ?(flat_map_repeat_nil k_items KIdle) by reflexivity; try solve [intros ? []]; try (intros ? ? ? ?); try (intro i); rewrite ?nth_repeat; try discriminate.
  - apply producers_init. reflexivity.
  - split; [intro; cbn; lia|]. intro x. split; [intros []|intros (sb & [] & _)].
  - split; reflexivity.
  - destruct (N.to_nat (c_workers cf)) eqn:E; [lia|]. discriminate.
Qed.

Theorem inv_run evs : WInv (w_run evs).
Proof. apply (fold_left_inv WInv); [exact inv_step|exact inv_init]. Qed.

End WorkerProof.
