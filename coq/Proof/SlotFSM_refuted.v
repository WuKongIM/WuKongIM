(* Proof/SlotFSM_refuted.v — the batch-transparency statement is FALSE of the faithful model
   (and of the code) on the channel-migration commands and on the outbox cleanup command.

   Each witness below is a corpus input of C13 (corpus/C13/<name>.json) together with the
   observations of the real state machine on it (printed by harness/cmd/C13_C39); for each:
     - the model reproduces the observations, including those of the diverging partition
       (C13_mismatch = false);
     - the monitor classifies the divergence as the known finding named in the file name;
     - on the model alone: some partition recorded in the case departs from the
       one-command-per-batch run in its results or its tables ([diverges]).
   K6 (channel / subscriber family, which the model does not interpret): the observations and the
   monitor's code only.
   GENERATED from the corpus by the harness output; regenerate when the corpus changes. *)
From WK Require Import Base.Base.
From WK Require Import Gen.Consts_C15 Gen.Consts_C17 Gen.Consts_C13.
From WK Require Import Model.RuntimeMeta Model.ChanMigration Model.SlotFSM Model.SlotFSM_tlv Model.SlotFSM_C13.
Open Scope N_scope.

(* the two runs of the model on the log of a case, from the empty store: one batch / one per batch *)
Definition one_batch (c : c13_case) := fsm_apply_batch (c_cfg c) store_empty (to_fcmds 1 (c_log c)).
Definition one_each (c : c13_case) := fsm_apply_individually (c_cfg c) store_empty (to_fcmds 1 (c_log c)).

(* forwards are compared by their index only: coarse, hence conservative for [diverges] *)
Definition fres_eqb (a b : fres) : bool := (fst a =? fst b) && list_eqb (fun x y => fw_index x =? fw_index y) (snd a) (snd b).
Definition bres_eqb (a b : @bres fres) : bool :=
  match a, b with
  | BErr x, BErr y => x =? y
  | BRes x, BRes y => list_eqb fres_eqb x y
  | _, _ => false
  end.
(* the tables, the applied index apart *)
Definition store_data_eqb (a b : store) : bool :=
  list_eqb urow_eqb (st_users a) (st_users b)
  && list_eqb (fun x y => (fst x =? fst y) && db_eqb (snd x) (snd y)) (st_cm a) (st_cm b)
  && list_eqb hs_state_eqb (st_states a) (st_states b)
  && list_eqb outbox_eqb (st_outbox a) (st_outbox b)
  && list_eqb dkey_eqb (st_applied a) (st_applied b).
Definition same_outcome (x y : store * @bres fres) : bool :=
  bres_eqb (snd x) (snd y) && store_data_eqb (fst x) (fst y).

Fixpoint flatten (outs : list (@bres fres)) : @bres fres :=
  match outs with
  | [] => BRes []
  | BErr e :: _ => BErr e
  | BRes rs :: r => match flatten r with BRes rs' => BRes (rs ++ rs') | BErr e => BErr e end
  end.

(* the log applied under the partition with the given batch sizes *)
Definition under (c : c13_case) (sizes : list N) : store * @bres fres :=
  let '(s, outs) := fsm_apply_partition (c_cfg c) store_empty (split_sizes sizes (to_fcmds 1 (c_log c))) in
  (s, flatten outs).

(* some partition of the case departs from the one-command-per-batch run, on the model *)
Definition diverges (c : c13_case) : bool :=
  existsb (fun p => negb (same_outcome (under c (p_sizes p)) (one_each c))) (c_parts c).

Definition w_k1_create_then_reactivate_terminal : c13_case :=
  (C13Case (Cfg 11 [11; 12] 11 false []) true [(Entry true 11 (HCM (CUpsertMeta (RuntimeMeta (hx "6731") (2)%Z 1 3 0 [1; 2; 3; 4] [1; 2; 3; 4] 2 (1)%Z 1 1 (1500)%Z 0 (0)%Z [] 0 0 (0)%Z 0))) [] None None); (Entry true 11 (HCM (CUpsertMeta (RuntimeMeta (hx "7531407532") (1)%Z 2 3 0 [1; 4; 2; 3] [1; 4; 2; 3] 3 (1)%Z 1 1 (1500)%Z 0 (0)%Z [] 0 0 (0)%Z 0))) [] None None); (Entry true 11 (HCM (CCreate (Task (hx "7433") 2 1 1 (hx "7531407532") (1)%Z 3 5 0 2 3 [] 0 (0)%Z false 0 0 (0)%Z proof_zero 0 (0)%Z [] [] [] (1017)%Z (1017)%Z (0)%Z progress_zero))) [] None None); (Entry true 11 (HCM (CAdvance (TGuard (hx "7531407532") (1)%Z (hx "7433") 1 1 0 (0)%Z (1017)%Z) 2 4 1 (0)%Z [] [] [] (1024)%Z (0)%Z progress_zero proof_zero 0)) [] None None); (Entry true 11 (HCM (CClaim (TGuard (hx "7531407532") (1)%Z (hx "7433") 2 4 0 (0)%Z (1024)%Z) 2 4 7 (1431)%Z (1031)%Z (1032)%Z)) [] None None); (Entry true 11 (HCM (CAdvance (TGuard (hx "7531407532") (1)%Z (hx "7433") 2 4 7 (1431)%Z (1032)%Z) 3 4 2 (0)%Z [] (hx "626c6f636b6564") [] (1033)%Z (0)%Z progress_zero proof_zero 0)) [] None None); (Entry true 11 (HCM (CCreate (Task (hx "743130") 2 4 1 (hx "6731") (2)%Z 1 5 0 1 3 [] 0 (0)%Z false 0 0 (0)%Z proof_zero 0 (0)%Z [] [] [] (1131)%Z (1131)%Z (1131)%Z progress_zero))) [] None None); (Entry true 11 (HCM (CUpsertMeta (RuntimeMeta (hx "7531407532") (1)%Z 2 3 0 [3; 2] [3; 2] 2 (1)%Z 1 1 (1671)%Z 0 (0)%Z [] 0 0 (0)%Z 0))) [] None None); (Entry true 11 (HCM (CCreateGuarded (Task (hx "7432") 2 1 1 (hx "6731") (2)%Z 1 5 0 1 3 [] 0 (0)%Z false 0 0 (0)%Z proof_zero 0 (0)%Z [] [] [] (1171)%Z (1171)%Z (0)%Z progress_zero) (RGuard (hx "6731") (2)%Z 1 3 2 [] 0 0))) [] None None); (Entry true 11 (HCM (CAdvance (TGuard (hx "6731") (2)%Z (hx "743130") 4 1 0 (0)%Z (1131)%Z) 2 23 1 (0)%Z [] [] [] (1171)%Z (0)%Z progress_zero proof_zero 0)) [] None None); (Entry true 11 (HCM (CAbort (Trans (TGuard (hx "6731") (2)%Z (hx "743130") 2 23 0 (0)%Z (1171)%Z) (RGuard (hx "6731") (2)%Z 1 3 2 [] 0 0) 6 23 (1178)%Z) (1178)%Z (hx "61626f72746564"))) [] None None); (Entry true 11 (HCM (CUpsertMeta (RuntimeMeta (hx "7531407532") (1)%Z 2 4 0 [1; 2; 3; 4] [1; 2; 3; 4] 3 (1)%Z 1 1 (1500)%Z 0 (0)%Z (hx "7433") 1 1 (1421)%Z 0))) [] None None)] 1406798228487054592 [(BObs (BOk [(0, 15183413101789618141)]) 12051865729167606664 1); (BObs (BOk [(0, 15183413101789618141)]) 14238979761548858983 2); (BObs (BOk [(0, 15183413101789618141)]) 10520583654773067145 3); (BObs (BOk [(0, 15183413101789618141)]) 11487134124019432604 4); (BObs (BOk [(0, 15183413101789618141)]) 9018140802399169922 5); (BObs (BOk [(0, 15183413101789618141)]) 14547037885360019307 6); (BObs (BOk [(0, 15183413101789618141)]) 14152458175096777148 7); (BObs (BOk [(1, 15195458097672424536)]) 14152458175096777148 7); (BObs (BOk [(0, 15183413101789618141)]) 17533727807967067503 9); (BObs (BOk [(1, 15195458097672424536)]) 17533727807967067503 9); (BObs (BOk [(1, 15195458097672424536)]) 17533727807967067503 9); (BObs (BOk [(0, 15183413101789618141)]) 12282352173871395619 12)] [(Part [12] [(BObs (BOk [(0, 15183413101789618141); (0, 15183413101789618141); (0, 15183413101789618141); (0, 15183413101789618141); (0, 15183413101789618141); (0, 15183413101789618141); (0, 15183413101789618141); (1, 15195458097672424536); (0, 15183413101789618141); (1, 15195458097672424536); (1, 15195458097672424536); (0, 15183413101789618141)]) 12282352173871395619 12)] None); (Part [1; 3; 2; 1; 1; 3; 1] [(BObs (BOk [(0, 15183413101789618141)]) 12051865729167606664 1); (BObs (BOk [(0, 15183413101789618141); (0, 15183413101789618141); (0, 15183413101789618141)]) 11487134124019432604 4); (BObs (BOk [(0, 15183413101789618141); (0, 15183413101789618141)]) 14547037885360019307 6); (BObs (BOk [(0, 15183413101789618141)]) 14152458175096777148 7); (BObs (BOk [(1, 15195458097672424536)]) 14152458175096777148 7); (BObs (BOk [(0, 15183413101789618141); (0, 15183413101789618141); (0, 15183413101789618141)]) 9780836376329543534 11); (BObs (BOk [(0, 15183413101789618141)]) 480034250292495433 12)] (Some (Dump [] [(CmObs 11 [(Task (hx "7432") 2 1 1 (hx "6731") (2)%Z 1 5 0 1 3 [] 0 (0)%Z false 0 0 (0)%Z proof_zero 0 (0)%Z [] [] [] (1171)%Z (1171)%Z (0)%Z progress_zero); (Task (hx "743130") 2 6 23 (hx "6731") (2)%Z 1 5 0 1 3 [] 0 (0)%Z false 0 0 (0)%Z proof_zero 1 (0)%Z [] [] (hx "61626f72746564") (1131)%Z (1178)%Z (1178)%Z progress_zero); (Task (hx "7433") 2 3 4 (hx "7531407532") (1)%Z 3 5 0 2 3 [] 0 (0)%Z false 0 7 (1431)%Z proof_zero 2 (0)%Z [] (hx "626c6f636b6564") [] (1017)%Z (1033)%Z (0)%Z progress_zero)] [((ChanKey (hx "6731") (2)%Z), (Some (hx "743130"))); ((ChanKey (hx "7531407532") (1)%Z), (Some (hx "7433")))] [((ChanKey (hx "6731") (2)%Z), (Some (RuntimeMeta (hx "6731") (2)%Z 1 3 3 [1; 2; 3; 4] [1; 2; 3; 4] 2 (1)%Z 1 1 (1500)%Z 0 (0)%Z [] 0 0 (0)%Z 0))); ((ChanKey (hx "7531407532") (1)%Z), (Some (RuntimeMeta (hx "7531407532") (1)%Z 2 4 4 [1; 2; 3; 4] [1; 2; 3; 4] 3 (1)%Z 1 1 (1500)%Z 0 (0)%Z (hx "7433") 1 1 (1421)%Z 1)))]); (CmObs 12 [] [((ChanKey (hx "6731") (2)%Z), None); ((ChanKey (hx "7531407532") (1)%Z), None)] [((ChanKey (hx "6731") (2)%Z), None); ((ChanKey (hx "7531407532") (1)%Z), None)]); (CmObs 13 [] [((ChanKey (hx "6731") (2)%Z), None); ((ChanKey (hx "7531407532") (1)%Z), None)] [((ChanKey (hx "6731") (2)%Z), None); ((ChanKey (hx "7531407532") (1)%Z), None)])] [] [] [] 12))); (Part [1; 1; 2; 1; 1; 2; 1; 1; 2] [(BObs (BOk [(0, 15183413101789618141)]) 12051865729167606664 1); (BObs (BOk [(0, 15183413101789618141)]) 14238979761548858983 2); (BObs (BOk [(0, 15183413101789618141); (0, 15183413101789618141)]) 11487134124019432604 4); (BObs (BOk [(0, 15183413101789618141)]) 9018140802399169922 5); (BObs (BOk [(0, 15183413101789618141)]) 14547037885360019307 6); (BObs (BOk [(0, 15183413101789618141); (1, 15195458097672424536)]) 14152458175096777148 7); (BObs (BOk [(0, 15183413101789618141)]) 17533727807967067503 9); (BObs (BOk [(1, 15195458097672424536)]) 17533727807967067503 9); (BObs (BOk [(1, 15195458097672424536); (0, 15183413101789618141)]) 12282352173871395619 12)] None); (Part [1; 1; 1; 1; 4; 2; 1; 1] [(BObs (BOk [(0, 15183413101789618141)]) 12051865729167606664 1); (BObs (BOk [(0, 15183413101789618141)]) 14238979761548858983 2); (BObs (BOk [(0, 15183413101789618141)]) 10520583654773067145 3); (BObs (BOk [(0, 15183413101789618141)]) 11487134124019432604 4); (BObs (BOk [(0, 15183413101789618141); (0, 15183413101789618141); (0, 15183413101789618141); (1, 15195458097672424536)]) 14152458175096777148 7); (BObs (BOk [(0, 15183413101789618141); (0, 15183413101789618141)]) 5072784251893427021 10); (BObs (BOk [(0, 15183413101789618141)]) 15900732884051598806 11); (BObs (BOk [(0, 15183413101789618141)]) 2248442477238937467 12)] (Some (Dump [] [(CmObs 11 [(Task (hx "7432") 2 1 1 (hx "6731") (2)%Z 1 5 0 1 3 [] 0 (0)%Z false 0 0 (0)%Z proof_zero 0 (0)%Z [] [] [] (1171)%Z (1171)%Z (0)%Z progress_zero); (Task (hx "743130") 2 6 23 (hx "6731") (2)%Z 1 5 0 1 3 [] 0 (0)%Z false 0 0 (0)%Z proof_zero 1 (0)%Z [] [] (hx "61626f72746564") (1131)%Z (1178)%Z (1178)%Z progress_zero); (Task (hx "7433") 2 3 4 (hx "7531407532") (1)%Z 3 5 0 2 3 [] 0 (0)%Z false 0 7 (1431)%Z proof_zero 2 (0)%Z [] (hx "626c6f636b6564") [] (1017)%Z (1033)%Z (0)%Z progress_zero)] [((ChanKey (hx "6731") (2)%Z), None); ((ChanKey (hx "7531407532") (1)%Z), (Some (hx "7433")))] [((ChanKey (hx "6731") (2)%Z), (Some (RuntimeMeta (hx "6731") (2)%Z 1 3 3 [1; 2; 3; 4] [1; 2; 3; 4] 2 (1)%Z 1 1 (1500)%Z 0 (0)%Z [] 0 0 (0)%Z 0))); ((ChanKey (hx "7531407532") (1)%Z), (Some (RuntimeMeta (hx "7531407532") (1)%Z 2 4 4 [1; 2; 3; 4] [1; 2; 3; 4] 3 (1)%Z 1 1 (1500)%Z 0 (0)%Z (hx "7433") 1 1 (1421)%Z 1)))]); (CmObs 12 [] [((ChanKey (hx "6731") (2)%Z), None); ((ChanKey (hx "7531407532") (1)%Z), None)] [((ChanKey (hx "6731") (2)%Z), None); ((ChanKey (hx "7531407532") (1)%Z), None)]); (CmObs 13 [] [((ChanKey (hx "6731") (2)%Z), None); ((ChanKey (hx "7531407532") (1)%Z), None)] [((ChanKey (hx "6731") (2)%Z), None); ((ChanKey (hx "7531407532") (1)%Z), None)])] [] [] [] 12)))] [] (Some (Dump [] [(CmObs 11 [(Task (hx "7432") 2 1 1 (hx "6731") (2)%Z 1 5 0 1 3 [] 0 (0)%Z false 0 0 (0)%Z proof_zero 0 (0)%Z [] [] [] (1171)%Z (1171)%Z (0)%Z progress_zero); (Task (hx "743130") 2 4 1 (hx "6731") (2)%Z 1 5 0 1 3 [] 0 (0)%Z false 0 0 (0)%Z proof_zero 0 (0)%Z [] [] [] (1131)%Z (1131)%Z (1131)%Z progress_zero); (Task (hx "7433") 2 3 4 (hx "7531407532") (1)%Z 3 5 0 2 3 [] 0 (0)%Z false 0 7 (1431)%Z proof_zero 2 (0)%Z [] (hx "626c6f636b6564") [] (1017)%Z (1033)%Z (0)%Z progress_zero)] [((ChanKey (hx "6731") (2)%Z), (Some (hx "7432"))); ((ChanKey (hx "7531407532") (1)%Z), (Some (hx "7433")))] [((ChanKey (hx "6731") (2)%Z), (Some (RuntimeMeta (hx "6731") (2)%Z 1 3 3 [1; 2; 3; 4] [1; 2; 3; 4] 2 (1)%Z 1 1 (1500)%Z 0 (0)%Z [] 0 0 (0)%Z 0))); ((ChanKey (hx "7531407532") (1)%Z), (Some (RuntimeMeta (hx "7531407532") (1)%Z 2 4 4 [1; 2; 3; 4] [1; 2; 3; 4] 3 (1)%Z 1 1 (1500)%Z 0 (0)%Z (hx "7433") 1 1 (1421)%Z 1)))]); (CmObs 12 [] [((ChanKey (hx "6731") (2)%Z), None); ((ChanKey (hx "7531407532") (1)%Z), None)] [((ChanKey (hx "6731") (2)%Z), None); ((ChanKey (hx "7531407532") (1)%Z), None)]); (CmObs 13 [] [((ChanKey (hx "6731") (2)%Z), None); ((ChanKey (hx "7531407532") (1)%Z), None)] [((ChanKey (hx "6731") (2)%Z), None); ((ChanKey (hx "7531407532") (1)%Z), None)])] [] [] [] 12))).

Lemma w_k1_create_then_reactivate_terminal_model_matches : C13_mismatch w_k1_create_then_reactivate_terminal = false.
Proof. vm_compute. reflexivity. Qed.
Lemma w_k1_create_then_reactivate_terminal_code : C13_monitor w_k1_create_then_reactivate_terminal = 2.
Proof. vm_compute. reflexivity. Qed.
Lemma w_k1_create_then_reactivate_terminal_diverges : diverges w_k1_create_then_reactivate_terminal = true.
Proof. vm_compute. reflexivity. Qed.

Definition w_k1_reactivate_terminal_then_create : c13_case :=
  (C13Case (Cfg 11 [11; 12] 11 false []) true [(Entry true 11 (HCM (CCreate (Task (hx "7441") 1 1 1 (hx "6731") (2)%Z 1 2 2 0 0 [] 0 (0)%Z false 0 0 (0)%Z proof_zero 0 (0)%Z [] [] [] (10)%Z (10)%Z (0)%Z progress_zero))) [] None None); (Entry true 11 (HCM (CAdvance (TGuard (hx "6731") (2)%Z (hx "7441") 1 1 0 (0)%Z (10)%Z) 4 1 0 (0)%Z [] [] [] (20)%Z (20)%Z progress_zero proof_zero 0)) [] None None); (Entry true 11 (HCM (CAdvance (TGuard (hx "6731") (2)%Z (hx "7441") 4 1 0 (0)%Z (20)%Z) 2 1 0 (0)%Z [] [] [] (30)%Z (0)%Z progress_zero proof_zero 0)) [] None None); (Entry true 11 (HCM (CCreate (Task (hx "7442") 1 1 1 (hx "6731") (2)%Z 1 2 2 0 0 [] 0 (0)%Z false 0 0 (0)%Z proof_zero 0 (0)%Z [] [] [] (10)%Z (10)%Z (0)%Z progress_zero))) [] None None)] 1406798228487054592 [(BObs (BOk [(0, 15183413101789618141)]) 16631123309888254723 1); (BObs (BOk [(0, 15183413101789618141)]) 7978658743034841071 2); (BObs (BOk [(0, 15183413101789618141)]) 10815827912382278469 3); (BObs (BOk [(1, 15195458097672424536)]) 10815827912382278469 3)] [(Part [4] [(BObs (BOk [(0, 15183413101789618141); (0, 15183413101789618141); (0, 15183413101789618141); (1, 15195458097672424536)]) 16659081241265668619 4)] (Some (Dump [] [(CmObs 11 [(Task (hx "7441") 1 2 1 (hx "6731") (2)%Z 1 2 2 0 0 [] 0 (0)%Z false 0 0 (0)%Z proof_zero 0 (0)%Z [] [] [] (10)%Z (30)%Z (0)%Z progress_zero)] [((ChanKey (hx "6731") (2)%Z), (Some (hx "7441")))] [((ChanKey (hx "6731") (2)%Z), None)]); (CmObs 12 [] [((ChanKey (hx "6731") (2)%Z), None)] [((ChanKey (hx "6731") (2)%Z), None)]); (CmObs 13 [] [((ChanKey (hx "6731") (2)%Z), None)] [((ChanKey (hx "6731") (2)%Z), None)])] [] [] [] 4))); (Part [1; 1; 2] [(BObs (BOk [(0, 15183413101789618141)]) 16631123309888254723 1); (BObs (BOk [(0, 15183413101789618141)]) 7978658743034841071 2); (BObs (BOk [(0, 15183413101789618141); (0, 15183413101789618141)]) 14279933408363493833 4)] (Some (Dump [] [(CmObs 11 [(Task (hx "7441") 1 2 1 (hx "6731") (2)%Z 1 2 2 0 0 [] 0 (0)%Z false 0 0 (0)%Z proof_zero 0 (0)%Z [] [] [] (10)%Z (30)%Z (0)%Z progress_zero); (Task (hx "7442") 1 1 1 (hx "6731") (2)%Z 1 2 2 0 0 [] 0 (0)%Z false 0 0 (0)%Z proof_zero 0 (0)%Z [] [] [] (10)%Z (10)%Z (0)%Z progress_zero)] [((ChanKey (hx "6731") (2)%Z), (Some (hx "7442")))] [((ChanKey (hx "6731") (2)%Z), None)]); (CmObs 12 [] [((ChanKey (hx "6731") (2)%Z), None)] [((ChanKey (hx "6731") (2)%Z), None)]); (CmObs 13 [] [((ChanKey (hx "6731") (2)%Z), None)] [((ChanKey (hx "6731") (2)%Z), None)])] [] [] [] 4)))] [(SnapObs 2 true 15672066392214199541 15672066392214199541 12746679097007546138 12746679097007546138)] (Some (Dump [] [(CmObs 11 [(Task (hx "7441") 1 2 1 (hx "6731") (2)%Z 1 2 2 0 0 [] 0 (0)%Z false 0 0 (0)%Z proof_zero 0 (0)%Z [] [] [] (10)%Z (30)%Z (0)%Z progress_zero)] [((ChanKey (hx "6731") (2)%Z), (Some (hx "7441")))] [((ChanKey (hx "6731") (2)%Z), None)]); (CmObs 12 [] [((ChanKey (hx "6731") (2)%Z), None)] [((ChanKey (hx "6731") (2)%Z), None)]); (CmObs 13 [] [((ChanKey (hx "6731") (2)%Z), None)] [((ChanKey (hx "6731") (2)%Z), None)])] [] [] [] 3))).

Lemma w_k1_reactivate_terminal_then_create_model_matches : C13_mismatch w_k1_reactivate_terminal_then_create = false.
Proof. vm_compute. reflexivity. Qed.
Lemma w_k1_reactivate_terminal_then_create_code : C13_monitor w_k1_reactivate_terminal_then_create = 2.
Proof. vm_compute. reflexivity. Qed.
Lemma w_k1_reactivate_terminal_then_create_diverges : diverges w_k1_reactivate_terminal_then_create = true.
Proof. vm_compute. reflexivity. Qed.

Definition w_k2_create_complete_create : c13_case :=
  (C13Case (Cfg 11 [11; 12] 11 false []) true [(Entry true 11 (HCM (CCreate (Task (hx "7441") 1 1 1 (hx "6731") (2)%Z 1 2 2 0 0 [] 0 (0)%Z false 0 0 (0)%Z proof_zero 0 (0)%Z [] [] [] (10)%Z (10)%Z (0)%Z progress_zero))) [] None None); (Entry true 11 (HCM (CAdvance (TGuard (hx "6731") (2)%Z (hx "7441") 1 1 0 (0)%Z (10)%Z) 4 1 0 (0)%Z [] [] [] (20)%Z (20)%Z progress_zero proof_zero 0)) [] None None); (Entry true 11 (HCM (CCreate (Task (hx "7442") 1 1 1 (hx "6731") (2)%Z 1 2 2 0 0 [] 0 (0)%Z false 0 0 (0)%Z proof_zero 0 (0)%Z [] [] [] (10)%Z (10)%Z (0)%Z progress_zero))) [] None None)] 1406798228487054592 [(BObs (BOk [(0, 15183413101789618141)]) 16631123309888254723 1); (BObs (BOk [(0, 15183413101789618141)]) 7978658743034841071 2); (BObs (BOk [(0, 15183413101789618141)]) 17611507649795400691 3)] [(Part [3] [(BObs (BOk [(0, 15183413101789618141); (0, 15183413101789618141); (1, 15195458097672424536)]) 3801880155396749162 3)] (Some (Dump [] [(CmObs 11 [(Task (hx "7441") 1 4 1 (hx "6731") (2)%Z 1 2 2 0 0 [] 0 (0)%Z false 0 0 (0)%Z proof_zero 0 (0)%Z [] [] [] (10)%Z (20)%Z (20)%Z progress_zero)] [((ChanKey (hx "6731") (2)%Z), (Some (hx "7441")))] [((ChanKey (hx "6731") (2)%Z), None)]); (CmObs 12 [] [((ChanKey (hx "6731") (2)%Z), None)] [((ChanKey (hx "6731") (2)%Z), None)]); (CmObs 13 [] [((ChanKey (hx "6731") (2)%Z), None)] [((ChanKey (hx "6731") (2)%Z), None)])] [] [] [] 3)))] [(SnapObs 1 true 14129127428975134386 14129127428975134386 11665985047424855758 11665985047424855758)] (Some (Dump [] [(CmObs 11 [(Task (hx "7441") 1 4 1 (hx "6731") (2)%Z 1 2 2 0 0 [] 0 (0)%Z false 0 0 (0)%Z proof_zero 0 (0)%Z [] [] [] (10)%Z (20)%Z (20)%Z progress_zero); (Task (hx "7442") 1 1 1 (hx "6731") (2)%Z 1 2 2 0 0 [] 0 (0)%Z false 0 0 (0)%Z proof_zero 0 (0)%Z [] [] [] (10)%Z (10)%Z (0)%Z progress_zero)] [((ChanKey (hx "6731") (2)%Z), (Some (hx "7442")))] [((ChanKey (hx "6731") (2)%Z), None)]); (CmObs 12 [] [((ChanKey (hx "6731") (2)%Z), None)] [((ChanKey (hx "6731") (2)%Z), None)]); (CmObs 13 [] [((ChanKey (hx "6731") (2)%Z), None)] [((ChanKey (hx "6731") (2)%Z), None)])] [] [] [] 3))).

Lemma w_k2_create_complete_create_model_matches : C13_mismatch w_k2_create_complete_create = false.
Proof. vm_compute. reflexivity. Qed.
Lemma w_k2_create_complete_create_code : C13_monitor w_k2_create_complete_create = 3.
Proof. vm_compute. reflexivity. Qed.
Lemma w_k2_create_complete_create_diverges : diverges w_k2_create_complete_create = true.
Proof. vm_compute. reflexivity. Qed.

Definition w_k3_complete_then_gc : c13_case :=
  (C13Case (Cfg 11 [11; 12] 11 false []) true [(Entry true 11 (HCM (CCreate (Task (hx "7441") 1 1 1 (hx "6731") (2)%Z 1 2 2 0 0 [] 0 (0)%Z false 0 0 (0)%Z proof_zero 0 (0)%Z [] [] [] (10)%Z (10)%Z (0)%Z progress_zero))) [] None None); (Entry true 11 (HCM (CAdvance (TGuard (hx "6731") (2)%Z (hx "7441") 1 1 0 (0)%Z (10)%Z) 4 1 0 (0)%Z [] [] [] (20)%Z (20)%Z progress_zero proof_zero 0)) [] None None); (Entry true 11 (HCM (CGC (1000)%Z (10)%Z)) [] None None)] 1406798228487054592 [(BObs (BOk [(0, 15183413101789618141)]) 16631123309888254723 1); (BObs (BOk [(0, 15183413101789618141)]) 7978658743034841071 2); (BObs (BOk [(101, 14597054052757429612)]) 1406798228487054592 3)] [(Part [3] [(BObs (BOk [(0, 15183413101789618141); (0, 15183413101789618141); (100, 1580999312285076677)]) 3801880155396749162 3)] (Some (Dump [] [(CmObs 11 [(Task (hx "7441") 1 4 1 (hx "6731") (2)%Z 1 2 2 0 0 [] 0 (0)%Z false 0 0 (0)%Z proof_zero 0 (0)%Z [] [] [] (10)%Z (20)%Z (20)%Z progress_zero)] [((ChanKey (hx "6731") (2)%Z), (Some (hx "7441")))] [((ChanKey (hx "6731") (2)%Z), None)]); (CmObs 12 [] [((ChanKey (hx "6731") (2)%Z), None)] [((ChanKey (hx "6731") (2)%Z), None)]); (CmObs 13 [] [((ChanKey (hx "6731") (2)%Z), None)] [((ChanKey (hx "6731") (2)%Z), None)])] [] [] [] 3))); (Part [1; 2] [(BObs (BOk [(0, 15183413101789618141)]) 16631123309888254723 1); (BObs (BOk [(0, 15183413101789618141); (100, 1580999312285076677)]) 7978658743034841071 3)] (Some (Dump [] [(CmObs 11 [(Task (hx "7441") 1 4 1 (hx "6731") (2)%Z 1 2 2 0 0 [] 0 (0)%Z false 0 0 (0)%Z proof_zero 0 (0)%Z [] [] [] (10)%Z (20)%Z (20)%Z progress_zero)] [((ChanKey (hx "6731") (2)%Z), None)] [((ChanKey (hx "6731") (2)%Z), None)]); (CmObs 12 [] [((ChanKey (hx "6731") (2)%Z), None)] [((ChanKey (hx "6731") (2)%Z), None)]); (CmObs 13 [] [((ChanKey (hx "6731") (2)%Z), None)] [((ChanKey (hx "6731") (2)%Z), None)])] [] [] [] 3)))] [(SnapObs 3 true 254516036370617935 254516036370617935 254516036370617935 254516036370617935)] (Some (Dump [] [(CmObs 11 [] [((ChanKey (hx "6731") (2)%Z), None)] [((ChanKey (hx "6731") (2)%Z), None)]); (CmObs 12 [] [((ChanKey (hx "6731") (2)%Z), None)] [((ChanKey (hx "6731") (2)%Z), None)]); (CmObs 13 [] [((ChanKey (hx "6731") (2)%Z), None)] [((ChanKey (hx "6731") (2)%Z), None)])] [] [] [] 3))).

Lemma w_k3_complete_then_gc_model_matches : C13_mismatch w_k3_complete_then_gc = false.
Proof. vm_compute. reflexivity. Qed.
Lemma w_k3_complete_then_gc_code : C13_monitor w_k3_complete_then_gc = 4.
Proof. vm_compute. reflexivity. Qed.
Lemma w_k3_complete_then_gc_diverges : diverges w_k3_complete_then_gc = true.
Proof. vm_compute. reflexivity. Qed.

Definition w_k3_gc_then_advance : c13_case :=
  (C13Case (Cfg 11 [11; 12] 11 false []) true [(Entry true 11 (HCM (CCreate (Task (hx "7441") 1 1 1 (hx "6731") (2)%Z 1 2 2 0 0 [] 0 (0)%Z false 0 0 (0)%Z proof_zero 0 (0)%Z [] [] [] (10)%Z (10)%Z (0)%Z progress_zero))) [] None None); (Entry true 11 (HCM (CAdvance (TGuard (hx "6731") (2)%Z (hx "7441") 1 1 0 (0)%Z (10)%Z) 4 1 0 (0)%Z [] [] [] (20)%Z (20)%Z progress_zero proof_zero 0)) [] None None); (Entry true 11 (HCM (CGC (1000)%Z (10)%Z)) [] None None); (Entry true 11 (HCM (CAdvance (TGuard (hx "6731") (2)%Z (hx "7441") 4 1 0 (0)%Z (20)%Z) 4 1 0 (0)%Z [] [] [] (30)%Z (20)%Z progress_zero proof_zero 0)) [] None None)] 1406798228487054592 [(BObs (BOk [(0, 15183413101789618141)]) 16631123309888254723 1); (BObs (BOk [(0, 15183413101789618141)]) 7978658743034841071 2); (BObs (BOk [(101, 14597054052757429612)]) 1406798228487054592 3); (BObs (BOk [(1, 15195458097672424536)]) 1406798228487054592 3)] [(Part [4] [(BObs (BOk [(0, 15183413101789618141); (0, 15183413101789618141); (100, 1580999312285076677); (0, 15183413101789618141)]) 14712745213836656554 4)] (Some (Dump [] [(CmObs 11 [(Task (hx "7441") 1 4 1 (hx "6731") (2)%Z 1 2 2 0 0 [] 0 (0)%Z false 0 0 (0)%Z proof_zero 0 (0)%Z [] [] [] (10)%Z (30)%Z (20)%Z progress_zero)] [((ChanKey (hx "6731") (2)%Z), (Some (hx "7441")))] [((ChanKey (hx "6731") (2)%Z), None)]); (CmObs 12 [] [((ChanKey (hx "6731") (2)%Z), None)] [((ChanKey (hx "6731") (2)%Z), None)]); (CmObs 13 [] [((ChanKey (hx "6731") (2)%Z), None)] [((ChanKey (hx "6731") (2)%Z), None)])] [] [] [] 4))); (Part [1; 1; 2] [(BObs (BOk [(0, 15183413101789618141)]) 16631123309888254723 1); (BObs (BOk [(0, 15183413101789618141)]) 7978658743034841071 2); (BObs (BOk [(101, 14597054052757429612); (0, 15183413101789618141)]) 10080072046152161713 4)] (Some (Dump [] [(CmObs 11 [(Task (hx "7441") 1 4 1 (hx "6731") (2)%Z 1 2 2 0 0 [] 0 (0)%Z false 0 0 (0)%Z proof_zero 0 (0)%Z [] [] [] (10)%Z (30)%Z (20)%Z progress_zero)] [((ChanKey (hx "6731") (2)%Z), None)] [((ChanKey (hx "6731") (2)%Z), None)]); (CmObs 12 [] [((ChanKey (hx "6731") (2)%Z), None)] [((ChanKey (hx "6731") (2)%Z), None)]); (CmObs 13 [] [((ChanKey (hx "6731") (2)%Z), None)] [((ChanKey (hx "6731") (2)%Z), None)])] [] [] [] 4)))] [] (Some (Dump [] [(CmObs 11 [] [((ChanKey (hx "6731") (2)%Z), None)] [((ChanKey (hx "6731") (2)%Z), None)]); (CmObs 12 [] [((ChanKey (hx "6731") (2)%Z), None)] [((ChanKey (hx "6731") (2)%Z), None)]); (CmObs 13 [] [((ChanKey (hx "6731") (2)%Z), None)] [((ChanKey (hx "6731") (2)%Z), None)])] [] [] [] 3))).

Lemma w_k3_gc_then_advance_model_matches : C13_mismatch w_k3_gc_then_advance = false.
Proof. vm_compute. reflexivity. Qed.
Lemma w_k3_gc_then_advance_code : C13_monitor w_k3_gc_then_advance = 4.
Proof. vm_compute. reflexivity. Qed.
Lemma w_k3_gc_then_advance_diverges : diverges w_k3_gc_then_advance = true.
Proof. vm_compute. reflexivity. Qed.

Definition w_k4_cleanup_then_write : c13_case :=
  (C13Case (Cfg 11 [11; 12] 11 false [(12, (22, 1))]) true [(Entry true 12 (HUser false (hx "7531") (hx "61") (0)%Z (0)%Z) (hx "0101010000000275310200000001610300000008000000000000000004000000080000000000000000") None None); (Entry true 12 (HFence 12 0) (hx "01150100000008000000000000000c") (Some ((hx "01150100000008000000000000000c"), (DecFence 12 0))) None); (Entry true 12 (HCleanup 12 11 22 100) (hx "01170100000008000000000000000c0200000008000000000000000b0300000008000000000000001604000000080000000000000064") (Some ((hx "01170100000008000000000000000c0200000008000000000000000b0300000008000000000000001604000000080000000000000064"), (DecCleanup 12 11 22 100))) None); (Entry true 12 (HUser false (hx "7532") (hx "62") (0)%Z (0)%Z) (hx "0101010000000275320200000001620300000008000000000000000004000000080000000000000000") None None)] 1406798228487054592 [(BObs (BOk [(0, 15183413101789618141)]) 5565672845181255018 1); (BObs (BOk [(0, 15183413101789618141)]) 17197953111745008743 2); (BObs (BOk [(0, 15183413101789618141)]) 14345801168442350465 3); (BObs (BOk [(0, 15183413101789618141)]) 7940099259732584800 4)] [(Part [4] [(BObs (BOk [(0, 15183413101789618141); (0, 15183413101789618141); (0, 15183413101789618141); (0, 15183413101789618141)]) 7940099259732584800 4)] None); (Part [1; 1; 2] [(BObs (BOk [(0, 15183413101789618141)]) 5565672845181255018 1); (BObs (BOk [(0, 15183413101789618141)]) 17197953111745008743 2); (BObs (BOk [(0, 15183413101789618141); (2, 18176285294611080462)]) 14345801168442350465 4)] (Some (Dump [(URow 12 (hx "7531") (hx "61") (0)%Z (0)%Z)] [(CmObs 11 [] [] []); (CmObs 12 [] [] []); (CmObs 13 [] [] [])] [] [] [] 4)))] [(SnapObs 2 true 9474363810363000622 9474363810363000622 11472486770364345084 11472486770364345084)] (Some (Dump [(URow 12 (hx "7531") (hx "61") (0)%Z (0)%Z); (URow 12 (hx "7532") (hx "62") (0)%Z (0)%Z)] [(CmObs 11 [] [] []); (CmObs 12 [] [] []); (CmObs 13 [] [] [])] [(HsState 12 11 22 1 0 4 0)] [(Outbox 12 11 22 4 (hx "0101010000000275320200000001620300000008000000000000000004000000080000000000000000"))] [] 4))).

Lemma w_k4_cleanup_then_write_model_matches : C13_mismatch w_k4_cleanup_then_write = false.
Proof. vm_compute. reflexivity. Qed.
Lemma w_k4_cleanup_then_write_code : C13_monitor w_k4_cleanup_then_write = 5.
Proof. vm_compute. reflexivity. Qed.
Lemma w_k4_cleanup_then_write_diverges : diverges w_k4_cleanup_then_write = true.
Proof. vm_compute. reflexivity. Qed.

Definition w_k5_create_claim_complete : c13_case :=
  (C13Case (Cfg 11 [11; 12] 11 false []) true [(Entry true 11 (HCM (CCreate (Task (hx "7441") 1 1 1 (hx "6731") (2)%Z 1 2 2 0 0 [] 0 (0)%Z false 0 0 (0)%Z proof_zero 0 (0)%Z [] [] [] (10)%Z (10)%Z (0)%Z progress_zero))) [] None None); (Entry true 11 (HCM (CClaim (TGuard (hx "6731") (2)%Z (hx "7441") 1 1 0 (0)%Z (10)%Z) 2 1 7 (500)%Z (12)%Z (15)%Z)) [] None None); (Entry true 11 (HCM (CAdvance (TGuard (hx "6731") (2)%Z (hx "7441") 2 1 7 (500)%Z (15)%Z) 4 1 0 (0)%Z [] [] [] (20)%Z (20)%Z progress_zero proof_zero 0)) [] None None)] 1406798228487054592 [(BObs (BOk [(0, 15183413101789618141)]) 16631123309888254723 1); (BObs (BOk [(0, 15183413101789618141)]) 17624981202538831081 2); (BObs (BOk [(0, 15183413101789618141)]) 11623327525298207664 3)] [(Part [3] [(BObs (BOk [(0, 15183413101789618141); (0, 15183413101789618141); (0, 15183413101789618141)]) 13326193666947027838 3)] (Some (Dump [] [(CmObs 11 [(Task (hx "7441") 1 4 1 (hx "6731") (2)%Z 1 2 2 0 0 [] 0 (0)%Z false 0 7 (500)%Z proof_zero 0 (0)%Z [] [] [] (10)%Z (20)%Z (20)%Z progress_zero)] [((ChanKey (hx "6731") (2)%Z), (Some (hx "7441")))] [((ChanKey (hx "6731") (2)%Z), None)]); (CmObs 12 [] [((ChanKey (hx "6731") (2)%Z), None)] [((ChanKey (hx "6731") (2)%Z), None)]); (CmObs 13 [] [((ChanKey (hx "6731") (2)%Z), None)] [((ChanKey (hx "6731") (2)%Z), None)])] [] [] [] 3)))] [(SnapObs 3 true 16815204713595391086 16815204713595391086 16815204713595391086 16815204713595391086)] (Some (Dump [] [(CmObs 11 [(Task (hx "7441") 1 4 1 (hx "6731") (2)%Z 1 2 2 0 0 [] 0 (0)%Z false 0 7 (500)%Z proof_zero 0 (0)%Z [] [] [] (10)%Z (20)%Z (20)%Z progress_zero)] [((ChanKey (hx "6731") (2)%Z), None)] [((ChanKey (hx "6731") (2)%Z), None)]); (CmObs 12 [] [((ChanKey (hx "6731") (2)%Z), None)] [((ChanKey (hx "6731") (2)%Z), None)]); (CmObs 13 [] [((ChanKey (hx "6731") (2)%Z), None)] [((ChanKey (hx "6731") (2)%Z), None)])] [] [] [] 3))).

Lemma w_k5_create_claim_complete_model_matches : C13_mismatch w_k5_create_claim_complete = false.
Proof. vm_compute. reflexivity. Qed.
Lemma w_k5_create_claim_complete_code : C13_monitor w_k5_create_claim_complete = 6.
Proof. vm_compute. reflexivity. Qed.
Lemma w_k5_create_claim_complete_diverges : diverges w_k5_create_claim_complete = true.
Proof. vm_compute. reflexivity. Qed.

Definition w_k5_two_terminal_writes : c13_case :=
  (C13Case (Cfg 11 [11; 12] 11 false []) true [(Entry true 11 (HCM (CCreate (Task (hx "7441") 1 1 1 (hx "6731") (2)%Z 1 2 2 0 0 [] 0 (0)%Z false 0 0 (0)%Z proof_zero 0 (0)%Z [] [] [] (10)%Z (10)%Z (0)%Z progress_zero))) [] None None); (Entry true 11 (HCM (CAdvance (TGuard (hx "6731") (2)%Z (hx "7441") 1 1 0 (0)%Z (10)%Z) 5 1 0 (0)%Z [] [] [] (20)%Z (20)%Z progress_zero proof_zero 0)) [] None None); (Entry true 11 (HCM (CAdvance (TGuard (hx "6731") (2)%Z (hx "7441") 5 1 0 (0)%Z (20)%Z) 4 1 0 (0)%Z [] [] [] (30)%Z (30)%Z progress_zero proof_zero 0)) [] None None)] 1406798228487054592 [(BObs (BOk [(0, 15183413101789618141)]) 16631123309888254723 1); (BObs (BOk [(0, 15183413101789618141)]) 8925514104101585836 2); (BObs (BOk [(0, 15183413101789618141)]) 13218228474143211260 3)] [(Part [3] [(BObs (BOk [(0, 15183413101789618141); (0, 15183413101789618141); (0, 15183413101789618141)]) 6784371398711375101 3)] (Some (Dump [] [(CmObs 11 [(Task (hx "7441") 1 4 1 (hx "6731") (2)%Z 1 2 2 0 0 [] 0 (0)%Z false 0 0 (0)%Z proof_zero 0 (0)%Z [] [] [] (10)%Z (30)%Z (30)%Z progress_zero)] [((ChanKey (hx "6731") (2)%Z), (Some (hx "7441")))] [((ChanKey (hx "6731") (2)%Z), None)]); (CmObs 12 [] [((ChanKey (hx "6731") (2)%Z), None)] [((ChanKey (hx "6731") (2)%Z), None)]); (CmObs 13 [] [((ChanKey (hx "6731") (2)%Z), None)] [((ChanKey (hx "6731") (2)%Z), None)])] [] [] [] 3))); (Part [1; 2] [(BObs (BOk [(0, 15183413101789618141)]) 16631123309888254723 1); (BObs (BOk [(0, 15183413101789618141); (0, 15183413101789618141)]) 10546497243442891279 3)] None)] [] (Some (Dump [] [(CmObs 11 [(Task (hx "7441") 1 4 1 (hx "6731") (2)%Z 1 2 2 0 0 [] 0 (0)%Z false 0 0 (0)%Z proof_zero 0 (0)%Z [] [] [] (10)%Z (30)%Z (30)%Z progress_zero)] [((ChanKey (hx "6731") (2)%Z), None)] [((ChanKey (hx "6731") (2)%Z), None)]); (CmObs 12 [] [((ChanKey (hx "6731") (2)%Z), None)] [((ChanKey (hx "6731") (2)%Z), None)]); (CmObs 13 [] [((ChanKey (hx "6731") (2)%Z), None)] [((ChanKey (hx "6731") (2)%Z), None)])] [] [] [] 3))).

Lemma w_k5_two_terminal_writes_model_matches : C13_mismatch w_k5_two_terminal_writes = false.
Proof. vm_compute. reflexivity. Qed.
Lemma w_k5_two_terminal_writes_code : C13_monitor w_k5_two_terminal_writes = 6.
Proof. vm_compute. reflexivity. Qed.
Lemma w_k5_two_terminal_writes_diverges : diverges w_k5_two_terminal_writes = true.
Proof. vm_compute. reflexivity. Qed.

Definition w_k6_add_delete_readd_in_one_batch : c13_case :=
  (C13Case (Cfg 11 [11; 12] 11 false []) false [(Entry true 11 (HOpaque 2) [] None (Some (ChanOp 4 (hx "67") (2)%Z []))); (Entry true 11 (HOpaque 9) [] None (Some (ChanOp 2 (hx "67") (2)%Z [(hx "7531")]))); (Entry true 11 (HOpaque 5) [] None (Some (ChanOp 1 (hx "67") (2)%Z []))); (Entry true 11 (HOpaque 9) [] None (Some (ChanOp 2 (hx "67") (2)%Z [(hx "7531")])))] 1406798228487054592 [(BObs (BOk [(0, 15183413101789618141)]) 16568571487092839883 1); (BObs (BOk [(3, 5896569759203478943)]) 13742047209723214281 2); (BObs (BOk [(0, 15183413101789618141)]) 1406798228487054592 3); (BObs (BOk [(3, 5896569759203478943)]) 8873752714600405864 4)] [(Part [4] [(BObs (BOk [(0, 15183413101789618141); (3, 5896569759203478943); (0, 15183413101789618141); (3, 14660443511710416116)]) 3160656719828075624 4)] None); (Part [1; 3] [(BObs (BOk [(0, 15183413101789618141)]) 16568571487092839883 1); (BObs (BOk [(3, 5896569759203478943); (0, 15183413101789618141); (3, 14660443511710416116)]) 3160656719828075624 4)] None)] [] None).

Lemma w_k6_add_delete_readd_in_one_batch_model_matches : C13_mismatch w_k6_add_delete_readd_in_one_batch = false.
Proof. vm_compute. reflexivity. Qed.
Lemma w_k6_add_delete_readd_in_one_batch_code : C13_monitor w_k6_add_delete_readd_in_one_batch = 7.
Proof. vm_compute. reflexivity. Qed.

Definition w_k6_delete_then_readd_subscriber : c13_case :=
  (C13Case (Cfg 11 [11; 12] 11 false []) false [(Entry true 11 (HOpaque 2) [] None (Some (ChanOp 4 (hx "67") (2)%Z []))); (Entry true 11 (HOpaque 9) [] None (Some (ChanOp 2 (hx "67") (2)%Z [(hx "7531")]))); (Entry true 11 (HOpaque 5) [] None (Some (ChanOp 1 (hx "67") (2)%Z []))); (Entry true 11 (HOpaque 9) [] None (Some (ChanOp 2 (hx "67") (2)%Z [(hx "7531")])))] 1406798228487054592 [(BObs (BOk [(0, 15183413101789618141)]) 16568571487092839883 1); (BObs (BOk [(3, 5896569759203478943)]) 13742047209723214281 2); (BObs (BOk [(0, 15183413101789618141)]) 1406798228487054592 3); (BObs (BOk [(3, 5896569759203478943)]) 8873752714600405864 4)] [(Part [4] [(BObs (BOk [(0, 15183413101789618141); (3, 5896569759203478943); (0, 15183413101789618141); (3, 14660443511710416116)]) 3160656719828075624 4)] None); (Part [1; 1; 2] [(BObs (BOk [(0, 15183413101789618141)]) 16568571487092839883 1); (BObs (BOk [(3, 5896569759203478943)]) 13742047209723214281 2); (BObs (BOk [(0, 15183413101789618141); (3, 14660443511710416116)]) 3160656719828075624 4)] None)] [(SnapObs 2 true 1577867352504805789 1577867352504805789 3330332381092544620 3330332381092544620)] None).

Lemma w_k6_delete_then_readd_subscriber_model_matches : C13_mismatch w_k6_delete_then_readd_subscriber = false.
Proof. vm_compute. reflexivity. Qed.
Lemma w_k6_delete_then_readd_subscriber_code : C13_monitor w_k6_delete_then_readd_subscriber = 7.
Proof. vm_compute. reflexivity. Qed.
