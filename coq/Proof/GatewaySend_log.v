(* Proof/GatewaySend_log.v — invariants about the stamped history of the
   sendExecutor transition system: transport order = write-lock order (Wire), the
   DrainSends admission fence in real time (Fence), and "DrainSends returned nil => every
   accepted SEND has been handled" (Done).  Wire stands alone ([wire_run]); Fence and Done are
   inductive only together with Acct and Order; [Inv] holds all five, [inv_run]. *)
From Coq Require Import Sorting.Sorted.
From WK Require Import Base.Base Base.Lists Model.GatewaySend Proof.GatewaySend_lib Proof.GatewaySend_split
  Proof.GatewaySend_acct Proof.GatewaySend_order.
Open Scope N_scope.

Definition issue_count (w : list hwire) (i : hissue) : nat := length (filter (issue_matches i) w).

Record Wire (b : N) (st : state) : Prop := {
  w_wire : forall e, In e (wire st) -> hw_t e <= b;
  w_issues : forall i, In i (issues st) -> hi_t1 i <= b;
  w_sorted : StronglySorted N.lt (map hw_t (wire st));
  w_issue_ok : forall i, In i (issues st) -> issue_count (wire st) i = if hi_ok i then 1%nat else 0%nat;
  w_src : forall e, In e (wire st) ->
          hw_w e = 0 \/ exists i, In i (issues st) /\ hi_ok i = true /\ issue_matches i e = true }.

Lemma wire_init : Wire 0 init.
Proof. constructor; cbn; intros; try contradiction. constructor. Qed.

Lemma wire_weaken b b' st : b <= b' -> Wire b st -> Wire b' st.
Proof.
  intros Hb [? ? ? ? ?]. constructor; try assumption.
  - intros e He. specialize (w_wire0 e He). lia.
  - intros i Hi. specialize (w_issues0 i Hi). lia.
Qed.

Lemma wire_frame b st st' : Wire b st -> wire st' = wire st -> issues st' = issues st -> Wire b st'.
Proof. intros [? ? ? ? ?] Hw Hi. constructor; rewrite ?Hw, ?Hi; assumption. Qed.

Lemma issue_count_app w1 w2 i : issue_count (w1 ++ w2) i = (issue_count w1 i + issue_count w2 i)%nat.
Proof. unfold issue_count. rewrite filter_app, app_length. reflexivity. Qed.

Lemma issue_count_none w i : (forall e, In e w -> issue_matches i e = false) -> issue_count w i = 0%nat.
Proof. intro H. unfold issue_count. rewrite filter_none by exact H. reflexivity. Qed.

Lemma issue_nomatch_late i e : hi_t1 i < hw_t e -> issue_matches i e = false.
Proof.
  intro H. unfold issue_matches. apply andb_false_iff. right. apply N.leb_gt. exact H.
Qed.

Lemma issue_nomatch_early i e : hw_t e < hi_t0 i -> issue_matches i e = false.
Proof.
  intro H. unfold issue_matches. apply andb_false_iff. left. apply andb_false_iff. right. apply N.leb_gt. exact H.
Qed.

Lemma issue_match_self s w tag t ok : issue_matches (HIssue s w tag t t ok) (HWire s w tag t) = true.
Proof. unfold issue_matches. cbn. rewrite Nat.eqb_refl, !N.eqb_refl, N.leb_refl. reflexivity. Qed.

(* at time t > b the wire grows by lw, at most one frame, and the issues by li, all stamped t:
   old calls and new frames, new calls and old frames cannot match; each new call counts
   its frames in lw, each new frame is a SENDACK or belongs to a new call *)
Lemma wire_grow b st st' lw li t :
  Wire b st -> b < t -> wire st' = wire st ++ lw -> issues st' = issues st ++ li ->
  (length lw <= 1)%nat -> (forall e, In e lw -> hw_t e = t) ->
  (forall i, In i li -> hi_t0 i = t /\ hi_t1 i = t /\ issue_count lw i = if hi_ok i then 1%nat else 0%nat) ->
  (forall e, In e lw -> hw_w e = 0 \/ exists i, In i li /\ hi_ok i = true /\ issue_matches i e = true) ->
  Wire t st'.
Proof.
  intros [? ? ? ? ?] Hb Hw Hi Hlen Hlw Hli Hsrc. constructor; rewrite ?Hw, ?Hi.
  - intros e He. apply in_app_or in He. destruct He as [He|He]; [specialize (w_wire0 e He); lia | rewrite (Hlw e He); lia].
  - intros i Hin. apply in_app_or in Hin.
    destruct Hin as [Hin|Hin]; [specialize (w_issues0 i Hin); lia | destruct (Hli i Hin) as (_ & -> & _); lia].
  - rewrite map_app. destruct lw as [|e [|e' lw']]; [rewrite app_nil_r; exact w_sorted0 | | cbn in Hlen; lia].
    apply sorted_snoc; [exact w_sorted0|]. intros y Hy. apply in_map_iff in Hy. destruct Hy as [e0 [<- He0]].
    specialize (w_wire0 e0 He0). rewrite (Hlw e (or_introl eq_refl)). lia.
  - intros i Hin. rewrite issue_count_app. apply in_app_or in Hin. destruct Hin as [Hin|Hin].
    + rewrite (issue_count_none lw), Nat.add_0_r; [exact (w_issue_ok0 i Hin)|].
      intros e He. apply issue_nomatch_late. rewrite (Hlw e He). specialize (w_issues0 i Hin). lia.
    + destruct (Hli i Hin) as (H0 & _ & ->). rewrite issue_count_none; [reflexivity|].
      intros e He. apply issue_nomatch_early. specialize (w_wire0 e He). lia.
  - intros e He. apply in_app_or in He. destruct He as [He|He].
    + destruct (w_src0 e He) as [H|[i [H1 H23]]]; [left; exact H|]. right. exists i.
      split; [apply in_or_app; left; exact H1 | exact H23].
    + destruct (Hsrc e He) as [H|[i [H1 H23]]]; [left; exact H|]. right. exists i.
      split; [apply in_or_app; right; exact H1 | exact H23].
Qed.

Lemma wire_stepT c b st e : Wire b st -> b < now st -> Wire (now st) (stepT c st e).
Proof.
  intros W Hb. assert (Wn : Wire (now st) st) by (apply (wire_weaken b); [lia|exact W]).
  assert (Fr : forall st', wire st' = wire st -> issues st' = issues st -> Wire (now st) st')
    by (intro st'; apply (wire_frame _ st _ Wn)).
  destruct e as [s b0|s|k ch|d stop|d timeout| | |s|s w tag]; cbn [stepT].
  - destruct (spcs st s); try exact Wn. destruct (_ && _); [apply Fr; reflexivity | exact Wn].
  - destruct (s <? c_nsess c)%nat; [|exact Wn].
    destruct (sub_step_frame c s st) as (_ & (_ & _ & H1 & H2) & _). apply Fr; assumption.
  - (* EWork: at most a SENDACK is written *) destruct (k <? c_shards c)%nat; [|exact Wn].
    destruct (work_step_frame c k ch st) as (_ & (_ & _ & _ & H1) & _ & _ & [H2|[x H2]]); [apply Fr; assumption|].
    apply (wire_grow b st _ [HWire (t_s x) 0 (t_q x) (now st)] [] (now st) W Hb H2);
      [rewrite H1; symmetry; apply app_nil_r | reflexivity | intros e [<-|[]]; reflexivity | intros i []
      | intros e [<-|[]]; left; reflexivity].
  - destruct (dpcs st d); try exact Wn. apply Fr; reflexivity.
  - 
    destruct (drain_step_cases d timeout st) as [->|[(t0 & stp & _ & ->)|[(t0 & stp & _ & ->)|(t0 & stp & ok & _ & _ & ->)]]];
      [exact Wn | apply Fr; reflexivity..].
  - destruct (_ && _); [apply Fr; reflexivity | exact Wn].
  - destruct (_ && _); [apply Fr; reflexivity | exact Wn].
  - destruct (s <? c_nsess c)%nat; [apply Fr; reflexivity | exact Wn].
  - (* EPush: the call is logged, with its frame unless the session is closed *)
    destruct ((s <? c_nsess c)%nat && negb (w =? 0)); [|exact Wn]. destruct (sclosed st s).
    + apply (wire_grow b st _ [] [HIssue s w tag (now st) (now st) false] (now st) W Hb);
        [symmetry; apply app_nil_r | reflexivity | apply Nat.le_0_l | intros e [] | | intros e []].
      intros i [<-|[]]. repeat split; reflexivity.
    + apply (wire_grow b st _ [HWire s w tag (now st)] [HIssue s w tag (now st) (now st) true] (now st) W Hb);
        [reflexivity | reflexivity | reflexivity | intros e [<-|[]]; reflexivity | |].
      * intros i [<-|[]]. repeat split; try reflexivity. unfold issue_count. cbn [filter]. rewrite issue_match_self. reflexivity.
      * intros e [<-|[]]. right. eexists. split; [left; reflexivity|]. split; [reflexivity | apply issue_match_self].
Qed.

Lemma wire_run c evs : Wire (now (run c evs)) (run c evs).
Proof.
  apply run_inv; [apply wire_init|]. intros st e W. rewrite step_now, step_eq.
  apply (wire_stepT c (now st) (tick st)); [apply (wire_frame _ _ _ W); reflexivity | cbn; lia].
Qed.

Definition spc_t0 (p : spc) : option N :=
  match p with
  | SIdle => None
  | SGate _ _ t | SReserve _ _ t | SReserveShard _ _ t | SEnqueue _ _ t
  | SUndoShard _ _ t | SUndoQueue _ _ t | SUndoAdm _ _ t | SReject _ _ t => Some t
  end.

Record Fence (b : N) (st : state) : Prop := {
  f_sends : forall x, In x (sends st) -> hs_t0 x <= b;
  f_spc : forall s t0, spc_t0 (spcs st s) = Some t0 -> t0 <= b;
  (* used at the gate: while admission is open no drain call has returned *)
  f_nodrain : closed st = false -> drains st = [];
  f_fence : forall x d, In x (sends st) -> hs_acc x = true -> In d (drains st) -> hs_t0 x <= hr_t1 d;
  (* what makes [f_fence] inductive: a submitter holding an admission started before every
     drain call returned *)
  f_inflight : forall s t0 d, spc_t0 (spcs st s) = Some t0 -> shold (spcs st s) = 1 ->
               In d (drains st) -> t0 <= hr_t1 d }.

Lemma fence_init : Fence 0 init.
Proof. constructor; cbn; intros; try contradiction; try discriminate; reflexivity. Qed.

Lemma fence_weaken b b' st : b <= b' -> Fence b st -> Fence b' st.
Proof.
  intros Hb [? ? ? ? ?]. constructor; try assumption.
  - intros x Hx. specialize (f_sends0 x Hx). lia.
  - intros s t0 H. specialize (f_spc0 s t0 H). lia.
Qed.

Lemma fence_frame b st st' :
  Fence b st -> sends st' = sends st -> spcs st' = spcs st -> closed st' = closed st -> drains st' = drains st ->
  Fence b st'.
Proof. intros [? ? ? ? ?] H1 H2 H3 H4. constructor; rewrite ?H1, ?H2, ?H3, ?H4; assumption. Qed.

(* the submitter of session s moves on with the same SEND; it can come to hold an
   admission only while admission is open, that is, before any drain has returned *)
Lemma fence_sub_pc b st st' s p :
  Fence b st -> spcs st' = upd (spcs st) s p -> spc_t0 p = spc_t0 (spcs st s) ->
  (shold p = 1 -> shold (spcs st s) = 1 \/ closed st = false) ->
  sends st' = sends st -> closed st' = closed st -> drains st' = drains st -> Fence b st'.
Proof.
  intros [? ? ? ? ?] Hsp Ht Hh Hs Hc Hd. constructor; rewrite ?Hs, ?Hc, ?Hd, ?Hsp; try assumption.
  - intros s0 t0. by_idx s0 s; [rewrite Ht|]; apply f_spc0.
  - intros s0 t0 d. by_idx s0 s; [|apply f_inflight0]. rewrite Ht. intros H1 H2 Hin.
    destruct (Hh H2) as [H|H]; [exact (f_inflight0 s t0 d H1 H Hin) | rewrite (f_nodrain0 H) in Hin; destruct Hin].
Qed.

(* ... is done with its SEND, accepted only if it held an admission *)
Lemma fence_finish b st st' s q bb t0 t1 acc :
  Fence b st -> spc_t0 (spcs st s) = Some t0 -> (acc = true -> shold (spcs st s) = 1) ->
  spcs st' = upd (spcs st) s SIdle -> sends st' = sends st ++ [HSend s q bb t0 t1 acc] ->
  closed st' = closed st -> drains st' = drains st -> Fence b st'.
Proof.
  intros [? ? ? ? ?] Ht Ha Hsp Hs Hc Hd. constructor; rewrite ?Hs, ?Hc, ?Hd, ?Hsp; try assumption.
  - intros x Hx. in_snoc Hx; [auto | subst x; exact (f_spc0 s t0 Ht)].
  - intros s0 t. by_idx s0 s; [discriminate | apply f_spc0].
  - intros x d Hx Hacc Hin. in_snoc Hx; [eauto | subst x].
    exact (f_inflight0 s t0 d Ht (Ha Hacc) Hin).
  - intros s0 t d. by_idx s0 s; [discriminate | apply f_inflight0].
Qed.

Lemma spc_t0_send p p' : spc_send p = spc_send p' -> spc_t0 p = spc_t0 p'.
Proof. destruct p, p'; cbn; intro H; inversion H; reflexivity. Qed.

Lemma fence_sub c b st s : Fence b st -> Fence b (sub_step c s st).
Proof.
  intro F. destruct (sub_step_cases c s st) as [-> | p a q0 f -> Hp _ Ha | q b0 t0 -> Hpc | q b0 t0 -> Hpc].
  - exact F.
  - apply (fence_sub_pc b st _ s p F); try reflexivity; [apply spc_t0_send, Hp|].
    intro H1. destruct Ha as [[_ Ha]|[[Hcl _]|(_ & _ & Ha)]]; [left; congruence | right; exact Hcl | congruence].
  - apply (fence_finish b st _ s q b0 t0 (now st) true F); try reflexivity; rewrite Hpc; reflexivity.
  - apply (fence_finish b st _ s q b0 t0 (now st) false F); try reflexivity; [rewrite Hpc; reflexivity | discriminate].
Qed.

Lemma fence_return c b st d t0 stop ok :
  Acct c st -> Fence b st -> b < now st -> (exists x y, dpcs st d = DWait x y) ->
  Fence (now st) (drain_return d t0 stop ok st).
Proof.
  intros A F Hb [x [y Hd]].
  assert (Hcl : closed st = true) by (apply (acct_caller_closed c st d A); rewrite Hd; discriminate).
  unfold drain_return. destruct F. constructor; sp.
  - intros x0 Hx. specialize (f_sends0 x0 Hx). lia.
  - intros s t1 H. specialize (f_spc0 s t1 H). lia.
  - rewrite Hcl. discriminate.
  - intros x0 d0 Hx Ha Hd0. in_snoc Hd0; [eauto | subst d0]. cbn [hr_t1].
    specialize (f_sends0 x0 Hx). lia.
  - intros s t1 d0 H Hh Hd0. in_snoc Hd0; [eauto | subst d0]. cbn [hr_t1].
    specialize (f_spc0 s t1 H). lia.
Qed.

Lemma fence_stepT c b st e : Acct c st -> Fence b st -> b < now st -> Fence (now st) (stepT c st e).
Proof.
  intros A F Hb. assert (Fn : Fence (now st) st) by (apply (fence_weaken b); [lia|exact F]).
  assert (Fr : forall st', sends st' = sends st -> spcs st' = spcs st -> closed st' = closed st ->
                 drains st' = drains st -> Fence (now st) st') by (intro st'; apply (fence_frame _ st _ Fn)).
  destruct e as [s b0|s|k ch|d stop|d timeout| | |s|s w tag]; cbn [stepT].
  - (* ESend: the new SEND is stamped now and holds no admission yet *)
    destruct (spcs st s) eqn:Hpc; try exact Fn. destruct (_ && _); [|exact Fn].
    destruct Fn; constructor; sp; try assumption.
    + intros s0 t1 H. by_idx s0 s; [cbn [spc_t0] in H; inversion H; lia | eauto].
    + intros s0 t1 d H Hh Hd. by_idx s0 s; [discriminate Hh | eauto].
  - destruct (s <? c_nsess c)%nat; [apply fence_sub|]; exact Fn.
  - destruct (k <? c_shards c)%nat; [|exact Fn].
    destruct (work_step_frame c k ch st) as ((_ & H3 & _) & (H1 & H2 & H4 & _) & _). apply Fr; assumption.
  - destruct (dpcs st d); try exact Fn. apply Fr; reflexivity.
  - 
    destruct (drain_step_cases d timeout st) as [->|[(t0 & stp & _ & ->)|[(t0 & stp & _ & ->)|(t0 & stp & ok & Hd & _ & ->)]]].
    + exact Fn.
    + (* DSet closes admission *) destruct Fn; constructor; sp; try assumption. discriminate.
    + apply Fr; reflexivity.
    + apply (fence_return c b); eauto.
  - destruct (_ && _); [apply Fr; reflexivity | exact Fn].
  - destruct (_ && _); [apply Fr; reflexivity | exact Fn].
  - destruct (s <? c_nsess c)%nat; [apply Fr; reflexivity | exact Fn].
  - destruct (_ && _); [|exact Fn]. destruct (sclosed st s); apply Fr; reflexivity.
Qed.

Record Done (b : N) (st : state) : Prop := {
  d_disps : forall e, In e (disps st) -> hd_t e <= b;
  d_okdrain : forall d, In d (drains st) -> hr_ok d = true -> drained st = true;
  d_done : forall d x, In d (drains st) -> hr_ok d = true -> In x (sends st) -> hs_acc x = true ->
           exists e, In e (disps st) /\ hd_s e = hs_s x /\ hd_q e = hs_q x /\ hd_t e < hr_t1 d }.

Lemma done_init : Done 0 init.
Proof. constructor; cbn; intros; contradiction. Qed.

Lemma done_weaken b b' st : b <= b' -> Done b st -> Done b' st.
Proof. intros Hb [? ? ?]. constructor; try assumption. intros e He. specialize (d_disps0 e He). lia. Qed.

Lemma done_frame b st st' :
  Done b st -> disps st' = disps st -> drains st' = drains st -> sends st' = sends st ->
  (drained st = true -> drained st' = true) -> Done b st'.
Proof.
  intros [? ? ?] H1 H2 H3 H4. constructor; rewrite ?H1, ?H2, ?H3; try assumption.
  intros d Hd Hok. apply H4. eauto.
Qed.

Lemma zero_all_handled c st x :
  Acct c st -> Order c st -> admitted st = 0 -> In x (sends st) -> hs_acc x = true ->
  exists e, In e (disps st) /\ hd_s e = hs_s x /\ hd_q e = hs_q x.
Proof.
  intros A O H0 Hx Ha. destruct (acct_zero c st (shard_of c (hs_s x)) A H0) as [Hm Hw].
  pose proof (o_acc c st O (hs_s x)) as Hacc. unfold pipe in Hacc. rewrite Hm, Hw, app_nil_r in Hacc.
  apply finq_in. rewrite <- Hacc. apply in_accq; assumption.
Qed.

Lemma done_grow b st st' l :
  Done b st -> b < now st -> disps st' = disps st ++ l -> (forall e, In e l -> hd_t e = now st) ->
  drains st' = drains st -> sends st' = sends st -> drained st' = drained st -> Done (now st) st'.
Proof.
  intros [? ? ?] Hb H1 Hl H2 H3 H4. constructor; rewrite ?H1, ?H2, ?H3, ?H4; try assumption.
  - intros e He. apply in_app_or in He. destruct He as [He|He]; [specialize (d_disps0 e He); lia | rewrite (Hl e He); lia].
  - intros d x Hd Hok Hx Ha. destruct (d_done0 d x Hd Hok Hx Ha) as [e [H5 H6]]. exists e. split; [apply in_or_app; left; exact H5|exact H6].
Qed.

Lemma done_sub c b st s : Acct c st -> Done b st -> Done b (sub_step c s st).
Proof.
  intros A D. destruct (sub_step_frame c s st) as ((_ & _ & _ & H3) & (H1 & H2 & _) & _ & Hs).
  destruct D. constructor; rewrite ?H1, ?H2, ?H3; try assumption.
  intros d x Hd Hok. destruct Hs as [-> | [y [-> Hy]]]; [eauto|].
  intros Hx Ha. in_snoc Hx; [eauto | subst x].
  (* a SEND accepted after a successful drain: its submitter would hold an admission *)
  destruct (a_drained c st A (d_okdrain0 d Hd Hok)) as [_ H0].
  pose proof (acct_shold_le c st s A) as Hle. rewrite (Hy Ha) in Hle. lia.
Qed.

Lemma done_return c b st d t0 stop ok :
  Acct c st -> Order c st -> Done b st -> b < now st -> (ok = true -> drained st = true) ->
  Done (now st) (drain_return d t0 stop ok st).
Proof.
  intros A O D Hb Hok. unfold drain_return. destruct D. constructor; sp.
  - intros e He. specialize (d_disps0 e He). lia.
  - intros d0 Hd0 Hk. in_snoc Hd0; [eauto | subst d0]. apply Hok. exact Hk.
  - intros d0 x Hd0 Hk Hx Ha. in_snoc Hd0; [eauto | subst d0].
    cbn [hr_ok hr_t1] in *. destruct (a_drained c st A (Hok Hk)) as [_ H0].
    destruct (zero_all_handled c st x A O H0 Hx Ha) as [e [He Hsq]]. exists e.
    specialize (d_disps0 e He). repeat split; try apply Hsq; try assumption. lia.
Qed.

Lemma done_stepT c b st e :
  Acct c st -> Order c st -> Done b st -> b < now st -> Done (now st) (stepT c st e).
Proof.
  intros A O D Hb. assert (Dn : Done (now st) st) by (apply (done_weaken b); [lia|exact D]).
  assert (Fr : forall st', disps st' = disps st -> drains st' = drains st -> sends st' = sends st ->
                 (drained st = true -> drained st' = true) -> Done (now st) st') by (intro st'; apply (done_frame _ st _ Dn)).
  destruct e as [s b0|s|k ch|d stop|d timeout| | |s|s w tag]; cbn [stepT].
  - destruct (spcs st s); try exact Dn. destruct (_ && _); [apply Fr; auto | exact Dn].
  - destruct (s <? c_nsess c)%nat; [apply (done_sub c); assumption | exact Dn].
  - (* EWork: handled items are logged, stamped now *) destruct (k <? c_shards c)%nat; [|exact Dn].
    destruct (work_step_frame c k ch st) as ((_ & _ & _ & H3) & (H4 & _ & H5 & _) & _ & [items H1] & _).
    apply (done_grow b st _ _ D Hb H1); try assumption.
    intros e He. apply in_map_iff in He. destruct He as [x [<- _]]. reflexivity.
  - destruct (dpcs st d); try exact Dn. apply Fr; auto.
  - 
    destruct (drain_step_cases d timeout st) as [->|[(t0 & stp & _ & ->)|[(t0 & stp & _ & ->)|(t0 & stp & ok & _ & Hok & ->)]]];
      [exact Dn | apply Fr; auto | apply Fr; auto | apply (done_return c b); assumption].
  - destruct (_ && _); [apply Fr; auto | exact Dn].
  - destruct (_ && _); [apply Fr; auto | exact Dn].
  - destruct (s <? c_nsess c)%nat; [apply Fr; auto | exact Dn].
  - destruct (_ && _); [|exact Dn]. destruct (sclosed st s); apply Fr; auto.
Qed.

(* what holds of every reachable state, whatever the handler does *)
Record Inv (c : cfg) (st : state) : Prop := {
  v_acct : Acct c st; v_order : Order c st; v_wire : Wire (now st) st;
  v_fence : Fence (now st) st; v_done : Done (now st) st }.

Lemma inv_run c evs : cfg_ok c -> Inv c (run c evs).
Proof.
  intro Hc. apply run_inv; [split; [apply acct_init | apply order_init | apply wire_init | apply fence_init | apply done_init]|].
  intros st e [A O W F D].
  pose proof (acct_tick c st A) as AT. pose proof (order_tick c st O) as OT.
  assert (Hb : now st < now (tick st)) by (cbn; lia).
  split; rewrite ?step_now, step_eq.
  - apply acct_stepT; assumption.
  - apply order_stepT. exact OT.
  - apply (wire_stepT c (now st) (tick st)); [apply (wire_frame _ _ _ W); reflexivity | exact Hb].
  - apply (fence_stepT c (now st) (tick st)); [exact AT | apply (fence_frame _ _ _ F); reflexivity | exact Hb].
  - apply (done_stepT c (now st) (tick st)); try assumption. apply (done_frame _ _ _ D); auto.
Qed.
