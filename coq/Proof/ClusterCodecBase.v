(* Proof/ClusterCodecBase.v — the codec combinators, each lemma proved once by induction on the
   format: decode_encode (round trip), decode_extends, allocs_bounded, decode_wf, veqb_sound /
   veqb_refl; whole-input corollaries; [decode_*_inv] open a decode one combinator at a time;
   [fmt_ok] (end of file) discharges [capped] and [wfmt] of a concrete format. *)
From WK Require Import Base.Base Base.Bytes Model.ClusterCodecBase.
From Coq Require Import ZifyBool ZifyN ZifyNat.
Open Scope N_scope.

(* the leftover is no longer than the input; extending the input leaves the result unchanged *)
Definition extends {A} (p : parser A) : Prop :=
  forall a v r, p a = Some (v, r) ->
    (length r <= length a)%nat /\ forall b, p (a ++ b) = Some (v, r ++ b).


(* values encodable in [fuel] bytes under Go's overflow rule; [ulimit 10 = 2^64] *)
Fixpoint ulimit (fuel : nat) : N :=
  match fuel with
  | O => 0
  | S f => match f with O => 2 | S _ => 128 * ulimit f end
  end.

Lemma ulimit_S f : ulimit (S (S f)) = 128 * ulimit (S f).
Proof. reflexivity. Qed.

Lemma ulimit_ge2 : forall f, 2 <= ulimit (S f).
Proof.
  induction f as [|f IH]; [cbn; lia|]. rewrite ulimit_S. lia.
Qed.

Lemma uvar_loop_enc : forall fuel x mul acc rest,
  x < ulimit fuel ->
  uvar_loop fuel mul acc (uvar_enc fuel x ++ rest) = Some (acc + x * mul, rest).
Proof.
  induction fuel as [|f IH]; intros x mul acc rest Hx.
  - cbn in Hx. lia.
  - cbn [uvar_enc uvar_loop]. destruct (x <? 128) eqn:Hs.
    + cbn [app]. rewrite Hs. destruct f as [|f'].
      * cbn in Hx. assert (E : (1 <? x) = false) by lia. rewrite E. reflexivity.
      * reflexivity.
    + cbn [app].
      assert (Hb : (x mod 128 + 128 <? 128) = false) by lia. rewrite Hb.
      destruct f as [|f'].
      * cbn in Hx. lia.
      * rewrite ulimit_S in Hx. rewrite IH.
        -- f_equal. f_equal. pose proof (N.div_mod x 128).
           replace (x mod 128 + 128 - 128) with (x mod 128) by lia. nia.
        -- apply N.div_lt_upper_bound; [discriminate|exact Hx].
Qed.

Lemma p_uvarint_put x rest : x < two64 -> p_uvarint (put_uvarint x ++ rest) = Some (x, rest).
Proof.
  intro H. unfold p_uvarint, put_uvarint. rewrite uvar_loop_enc by exact H.
  f_equal. f_equal. lia.
Qed.

Lemma uvar_loop_extends : forall fuel mul acc, extends (uvar_loop fuel mul acc).
Proof.
  induction fuel as [|f IH]; intros mul acc a v r H; [discriminate|].
  destruct a as [|x a]; [discriminate|]. cbn [uvar_loop app length] in *. destruct (x <? 128).
  - destruct f; [destruct (1 <? x); [discriminate|]|]; injection H as <- <-; (split; [lia|reflexivity]).
  - destruct (IH _ _ _ _ _ H) as [L S]. split; [lia|exact S].
Qed.

Lemma p_uvarint_extends : extends p_uvarint.
Proof. apply uvar_loop_extends. Qed.

Lemma uvar_loop_value : forall fuel mul acc a v r,
  uvar_loop fuel mul acc a = Some (v, r) -> all_bytes a = true ->
  (exists x, v = acc + mul * x /\ x < ulimit fuel) /\ all_bytes r = true.
Proof.
  induction fuel as [|f IH]; intros mul acc a v r H B; [discriminate|].
  destruct a as [|b a]; [discriminate|].
  cbn [all_bytes forallb] in B. apply andb_true_iff in B. destruct B as [Bb Ba].
  unfold is_byte in Bb. cbn [uvar_loop] in H. destruct (b <? 128) eqn:Hb.
  - destruct f as [|f'].
    + destruct (1 <? b) eqn:H1; [discriminate|]. inversion H; subst. split; [|exact Ba].
      exists b. split; [lia|cbn; lia].
    + inversion H; subst. split; [|exact Ba]. exists b. split; [lia|].
      rewrite ulimit_S. pose proof (ulimit_ge2 f'). lia.
  - apply IH in H; [|exact Ba]. destruct H as [(x & Ev & Hx) Br]. split; [|exact Br].
    exists ((b - 128) + 128 * x). split; [subst v; lia|].
    destruct f as [|f']; [cbn in Hx; lia|]. rewrite ulimit_S. lia.
Qed.

Lemma p_uvarint_value a v r :
  p_uvarint a = Some (v, r) -> all_bytes a = true -> v < two64 /\ all_bytes r = true.
Proof.
  intros H B. unfold p_uvarint in H. apply uvar_loop_value in H; [|exact B].
  destruct H as [(x & -> & Hx) Br]. change (ulimit 10) with two64 in Hx. split; [lia|exact Br].
Qed.


Lemma zigzag_range z : (- two63 <= z < two63)%Z -> zigzag z < two64.
Proof. unfold zigzag, two63, two64. intro H. destruct (z <? 0)%Z eqn:E; lia. Qed.

Lemma unzigzag_zigzag z : (- two63 <= z < two63)%Z -> unzigzag (zigzag z) = z.
Proof.
  unfold zigzag, unzigzag, two63. intro H.
  destruct (z <? 0)%Z eqn:E.
  - assert (Ho : N.even (Z.to_N (-2 * z - 1)) = false).
    { replace (Z.to_N (-2 * z - 1)) with (1 + 2 * Z.to_N (- z - 1)) by lia.
      rewrite N.even_add_mul_2. reflexivity. }
    rewrite Ho.
    replace (Z.to_N (-2 * z - 1)) with (1 + Z.to_N (- z - 1) * 2) by lia.
    rewrite N.div_add by discriminate. cbn. lia.
  - assert (He : N.even (Z.to_N (2 * z)) = true).
    { replace (Z.to_N (2 * z)) with (0 + 2 * Z.to_N z) by lia.
      rewrite N.even_add_mul_2. reflexivity. }
    rewrite He.
    replace (Z.to_N (2 * z)) with (Z.to_N z * 2) by lia.
    rewrite N.div_mul by discriminate. lia.
Qed.

Lemma unzigzag_range u : u < two64 -> (- two63 <=? unzigzag u)%Z && (unzigzag u <? two63)%Z = true.
Proof.
  unfold unzigzag, two64, two63. intro H.
  assert (u / 2 < 9223372036854775808) by (apply N.div_lt_upper_bound; lia).
  destruct (N.even u); lia.
Qed.


Lemma take_extends n : extends (take n).
Proof.
  intros a h r H. apply take_spec in H. destruct H as [-> Hl]. split; [rewrite app_length; lia|].
  intro b. rewrite <- app_assoc. apply take_app. exact Hl.
Qed.

Lemma take_all_bytes n a h r :
  take n a = Some (h, r) -> all_bytes a = true -> all_bytes h = true /\ all_bytes r = true /\ length h = n.
Proof.
  intros H B. apply take_spec in H. destruct H as [-> L]. rewrite all_bytes_app in B.
  apply andb_true_iff in B. destruct B as [B1 B2]. repeat split; assumption.
Qed.

Lemma be_get_bound h : all_bytes h = true -> be_get h < 256 ^ N.of_nat (length h).
Proof.
  intro B. rewrite be_get_le_get, <- rev_length. apply le_get_bound. rewrite all_bytes_rev. exact B.
Qed.

Lemma blen_app {A} (a b : list A) : blen (a ++ b) = blen a + blen b.
Proof. unfold blen. rewrite app_length. lia. Qed.

Lemma to_nat_blen {A} (l : list A) : N.to_nat (blen l) = length l.
Proof. unfold blen. apply Nnat.Nat2N.id. Qed.

Lemma blen_le {A} (r a : list A) : (length r <= length a)%nat -> blen r <= blen a.
Proof. unfold blen. lia. Qed.


Lemma put_u16_shape x : x < 65536 -> exists a b, put_u16 x = [a; b] /\ be_get [a; b] = x.
Proof.
  intro H. pose proof (be_get_put 2 x H) as G. pose proof (be_put_length 2 x) as L. unfold put_u16.
  destruct (be_put 2 x) as [|a [|b [|c l]]]; try discriminate L. exists a, b. split; [reflexivity|exact G].
Qed.

Lemma put_u32_shape x : x < 4294967296 -> exists a b c d, put_u32 x = [a; b; c; d] /\ be_get [a; b; c; d] = x.
Proof.
  intro H. pose proof (be_get_put 4 x H) as G. pose proof (be_put_length 4 x) as L. unfold put_u32.
  destruct (be_put 4 x) as [|a [|b [|c [|d [|e l]]]]]; try discriminate L. exists a, b, c, d. split; [reflexivity|exact G].
Qed.


Lemma ctake_eq : forall n bs, ctake n bs = take n bs.
Proof.
  induction n as [|n IH]; intro bs.
  - unfold take. cbn. reflexivity.
  - destruct bs as [|b r]; [reflexivity|].
    cbn [ctake]. rewrite IH. unfold take. cbn [length Nat.leb firstn skipn].
    destruct (Nat.leb n (length r)); reflexivity.
Qed.

Lemma cget_be_eq w bs : cget_be w bs = get_be w bs.
Proof. unfold cget_be, get_be. rewrite ctake_eq. reflexivity. Qed.

Lemma has_len_eq {A} : forall (bs : list A) n, has_len bs n = (n <=? blen bs).
Proof.
  induction bs as [|b r IH]; intro n; cbn [has_len].
  - unfold blen. cbn. destruct (n =? 0) eqn:E; lia.
  - destruct (n =? 0) eqn:E.
    + unfold blen. lia.
    + rewrite IH. unfold blen. cbn [length]. lia.
Qed.

Lemma ntake_eq : forall bs n,
  ntake bs n = if n <=? blen bs then take (N.to_nat n) bs else None.
Proof.
  induction bs as [|b r IH]; intro n; cbn [ntake].
  - destruct (n =? 0) eqn:E.
    + apply N.eqb_eq in E. subst. reflexivity.
    + unfold blen. cbn [length]. assert (L : (n <=? N.of_nat 0) = false) by lia. rewrite L. reflexivity.
  - destruct (n =? 0) eqn:E.
    + apply N.eqb_eq in E. subst. reflexivity.
    + rewrite IH. unfold blen. cbn [length].
      replace (N.to_nat n) with (S (N.to_nat (n - 1))) by lia.
      destruct (n - 1 <=? N.of_nat (length r)) eqn:L.
      * assert (L' : (n <=? N.of_nat (S (length r))) = true) by lia. rewrite L'.
        unfold take. cbn [length Nat.leb firstn skipn].
        destruct (Nat.leb (N.to_nat (n - 1)) (length r)); reflexivity.
      * assert (L' : (n <=? N.of_nat (S (length r))) = false) by lia. rewrite L'. reflexivity.
Qed.

Lemma has_len_app {A} (r b : list A) n : has_len r n = true -> has_len (r ++ b) n = true.
Proof. rewrite !has_len_eq, blen_app. lia. Qed.

Lemma ntake_app h r : ntake (h ++ r) (blen h) = Some (h, r).
Proof.
  rewrite ntake_eq, blen_app, to_nat_blen. replace (blen h <=? blen h + blen r) with true by lia.
  apply take_app. reflexivity.
Qed.


Lemma p_bytes_inv max a v r : p_bytes max a = Some (v, r) ->
  exists n t, p_uvarint a = Some (n, t) /\ (n <=? max) = true /\ n <= blen t /\ take (N.to_nat n) t = Some (v, r).
Proof.
  unfold p_bytes. destruct (p_uvarint a) as [[n t]|]; [|discriminate].
  destruct (n <=? max) eqn:C; [|discriminate]. rewrite ntake_eq.
  destruct (n <=? blen t) eqn:L; [|discriminate]. intro H. exists n, t. repeat split; [exact C|lia|exact H].
Qed.

Lemma p_bytes_extends max : extends (p_bytes max).
Proof.
  intros a v r H. apply p_bytes_inv in H. destruct H as (n & t & E & C & L & H).
  destruct (p_uvarint_extends _ _ _ E) as [L1 S1], (take_extends _ _ _ _ H) as [L2 S2].
  split; [lia|]. intro b. unfold p_bytes. rewrite S1, C, ntake_eq, blen_app.
  replace (n <=? blen t + blen b) with true by lia. apply S2.
Qed.


(* per kind: the count was checked (against the constant or what is left) before any allocation *)
Lemma p_count_spec ck max a c r : p_count ck max a = Some (c, r) ->
  ((length r <= length a)%nat /\ forall b, p_count ck max (a ++ b) = Some (c, r ++ b))
  /\ match c with None => ck_nilable ck = true | Some n => if ck_rem ck then n <= blen r else n <= max end
  /\ (all_bytes a = true -> all_bytes r = true).
Proof.
  intro H. unfold p_count in *. destruct ck; cbn [ck_rem ck_nilable].
  - destruct (p_uvarint a) as [[n t]|] eqn:E; [|discriminate]. destruct (p_uvarint_extends _ _ _ E) as [L S].
    destruct (n <=? max) eqn:C; [|discriminate]. injection H as <- <-.
    split; [split; [exact L|intro b; rewrite S, C; reflexivity]|].
    split; [lia|intro B; apply (p_uvarint_value _ _ _ E B)].
  - destruct (p_uvarint a) as [[n t]|] eqn:E; [|discriminate]. destruct (p_uvarint_extends _ _ _ E) as [L S].
    destruct (n =? 0) eqn:Z; [|destruct (n - 1 <=? max) eqn:C; [|discriminate]]; injection H as <- <-;
      (split; [split; [exact L|intro b; rewrite S, Z, ?C; reflexivity]|]);
      (split; [reflexivity || lia|intro B; apply (p_uvarint_value _ _ _ E B)]).
  - destruct (p_uvarint a) as [[n t]|] eqn:E; [|discriminate]. destruct (p_uvarint_extends _ _ _ E) as [L S].
    destruct (has_len t n) eqn:C; [|discriminate]. injection H as <- <-.
    split; [split; [exact L|intro b; rewrite S, (has_len_app _ b _ C); reflexivity]|].
    split; [rewrite has_len_eq in C; lia|intro B; apply (p_uvarint_value _ _ _ E B)].
  - destruct a as [|x a]; [discriminate|]. cbn [app length].
    assert (Bx : all_bytes (x :: a) = true -> all_bytes a = true) by (intro B; apply andb_true_iff in B; apply B).
    destruct (x =? 0); [injection H as <- <-; split; [split; [lia|reflexivity]|split; [reflexivity|exact Bx]]|].
    destruct (x =? 1); [|discriminate].
    destruct (p_uvarint a) as [[n t]|] eqn:E; [|discriminate]. destruct (p_uvarint_extends _ _ _ E) as [L S].
    destruct (has_len t n) eqn:C; [|discriminate]. injection H as <- <-.
    split; [split; [lia|intro b; rewrite S, (has_len_app _ b _ C); reflexivity]|].
    split; [rewrite has_len_eq in C; lia|intro B; apply (p_uvarint_value _ _ _ E (Bx B))].
Qed.

Lemma p_count_extends ck max : extends (p_count ck max).
Proof. intros a c r H. apply (p_count_spec _ _ _ _ _ H). Qed.

Lemma p_count_bounded ck max a n r :
  p_count ck max a = Some (Some n, r) ->
  (ck_rem ck = false -> n <= max) /\ (ck_rem ck = true -> n <= blen r).
Proof.
  intro H. destruct (p_count_spec _ _ _ _ _ H) as (_ & B & _).
  split; intro K; rewrite K in B; exact B.
Qed.

(* counts checked against the remaining input need that input long enough *)
Lemma p_count_put ck max c rest :
  match c with
  | None => ck_nilable ck = true
  | Some n => n < two64 - 1 /\ (if ck_rem ck then n <= blen rest else n <= max)
  end ->
  p_count ck max (put_count ck c ++ rest) = Some (c, rest).
Proof.
  unfold two64, p_count. destruct c as [n|], ck; cbn [ck_rem ck_nilable put_count app N.eqb Pos.eqb];
    try discriminate; try reflexivity; intro H;
    rewrite p_uvarint_put by (unfold two64; lia); rewrite ?has_len_eq.
  - replace (n <=? max) with true by lia. reflexivity.
  - replace (n + 1 =? 0) with false by lia. replace (n + 1 - 1) with n by lia.
    replace (n <=? max) with true by lia. reflexivity.
  - replace (n <=? blen rest) with true by lia. reflexivity.
  - replace (n <=? blen rest) with true by lia. reflexivity.
Qed.

Lemma p_count_value ck max a c r :
  ck_rem ck = false -> max < two64 - 1 ->
  p_count ck max a = Some (c, r) -> all_bytes a = true ->
  all_bytes r = true /\ match c with None => ck_nilable ck = true | Some n => n < two64 - 1 /\ n <= max end.
Proof.
  intros K M H B. destruct (p_count_spec _ _ _ _ _ H) as (_ & Hc & Hb). rewrite K in Hc.
  split; [exact (Hb B)|]. destruct c as [n|]; [lia|exact Hc].
Qed.

Lemma rep_dec_enc {A} (dec : nat -> parser A) (enc : nat -> A -> bytes) (ok : nat -> A -> bool) :
  (forall i a rest, ok i a = true -> dec i (enc i a ++ rest) = Some (a, rest)) ->
  forall l i rest, rep_all ok i l = true ->
    rep_dec dec i (length l) (rep_enc enc i l ++ rest) = Some (l, rest).
Proof.
  intros Hd. induction l as [|a l IH]; intros i rest H; [reflexivity|].
  cbn [rep_all] in H. apply andb_true_iff in H. destruct H as [H1 H2].
  cbn [length rep_enc rep_dec]. rewrite <- app_assoc, (Hd _ _ _ H1), (IH _ _ H2). reflexivity.
Qed.

Lemma rep_dec_extends {A} (dec : nat -> parser A) :
  (forall i, extends (dec i)) -> forall n i, extends (rep_dec dec i n).
Proof.
  intros Hs. induction n as [|n IH]; intros i a l r H; cbn [rep_dec] in *.
  - injection H as <- <-. split; [lia|reflexivity].
  - destruct (dec i a) as [[x t]|] eqn:E; [|discriminate].
    destruct (rep_dec dec (S i) n t) as [[l0 t0]|] eqn:E2; [|discriminate]. injection H as <- <-.
    destruct (Hs _ _ _ _ E) as [L1 S1], (IH _ _ _ _ E2) as [L2 S2].
    split; [lia|]. intro b. rewrite S1, S2. reflexivity.
Qed.

Lemma rep_dec_length {A} (dec : nat -> parser A) : forall n i a l r, rep_dec dec i n a = Some (l, r) -> length l = n.
Proof.
  induction n as [|n IH]; intros i a l r H.
  - cbn in H. inversion H; subst. reflexivity.
  - cbn [rep_dec] in H. destruct (dec i a) as [[x r0]|]; [|discriminate].
    destruct (rep_dec dec (S i) n r0) as [[l0 r1]|] eqn:E2; [|discriminate].
    inversion H; subst. cbn. f_equal. eapply IH. exact E2.
Qed.

Lemma rep_enc_length_ge {A} (enc : nat -> A -> bytes) :
  forall l i, (forall j a, In a l -> (1 <= length (enc j a))%nat) ->
    (length l <= length (rep_enc enc i l))%nat.
Proof.
  induction l as [|a l IH]; intros i H; [cbn; lia|].
  cbn [rep_enc length]. rewrite app_length.
  specialize (H i a (or_introl eq_refl)) as H1.
  specialize (IH (S i) (fun j x Hx => H j x (or_intror Hx))). lia.
Qed.

Lemma rep_eqb_sound {A} (e : nat -> A -> A -> bool) :
  (forall i x y, e i x y = true -> x = y) ->
  forall l l' i, rep_eqb e i l l' = true -> l = l'.
Proof.
  intros He. induction l as [|a l IH]; intros [|b l'] i H; try discriminate; [reflexivity|].
  cbn [rep_eqb] in H. apply andb_true_iff in H. destruct H as [H1 H2].
  apply He in H1. apply IH in H2. subst. reflexivity.
Qed.

Lemma rep_eqb_refl {A} (e : nat -> A -> A -> bool) (ok : nat -> A -> bool) :
  (forall i x, ok i x = true -> e i x x = true) ->
  forall l i, rep_all ok i l = true -> rep_eqb e i l l = true.
Proof.
  intros He. induction l as [|a l IH]; intros i H; [reflexivity|].
  cbn [rep_all] in H. apply andb_true_iff in H. destruct H as [H1 H2].
  cbn [rep_eqb]. rewrite (He _ _ H1), (IH _ H2). reflexivity.
Qed.

Lemma rep_dec_wf {A} (dec : nat -> parser A) (ok : nat -> A -> bool) :
  (forall i a v r, dec i a = Some (v, r) -> all_bytes a = true -> ok i v = true /\ all_bytes r = true) ->
  forall n i a l r, rep_dec dec i n a = Some (l, r) -> all_bytes a = true ->
    rep_all ok i l = true /\ all_bytes r = true.
Proof.
  intro Hd. induction n as [|n IH]; intros i a l r H B.
  - cbn in H. inversion H; subst. split; [reflexivity|exact B].
  - cbn [rep_dec] in H. destruct (dec i a) as [[x t]|] eqn:E; [|discriminate].
    destruct (rep_dec dec (S i) n t) as [[l0 t0]|] eqn:E2; [|discriminate].
    inversion H; subst. apply Hd in E; [|exact B]. destruct E as [Ox Bt].
    apply IH in E2; [|exact Bt]. destruct E2 as [Ol Br]. split; [|exact Br].
    cbn [rep_all]. rewrite Ox, Ol. reflexivity.
Qed.


Theorem decode_encode : forall A (f : fmt A) v rest,
  wf f v = true -> decode f (encode f v ++ rest) = Some (v, rest).
Proof.
  induction f; intros v0 rest Hwf; cbn [wf encode decode] in *.
  - reflexivity.
  - destruct v0; reflexivity.
  - rewrite cget_be_eq. apply get_be_put. apply N.ltb_lt. exact Hwf.
  - apply p_uvarint_put. apply N.ltb_lt. exact Hwf.
  - apply andb_true_iff in Hwf. destruct Hwf as [H1 H2].
    apply Z.leb_le in H1. apply Z.ltb_lt in H2.
    unfold p_varint, put_varint. rewrite p_uvarint_put by (apply zigzag_range; lia).
    rewrite unzigzag_zigzag by lia. reflexivity.
  - rewrite ctake_eq. apply take_app. apply Nat.eqb_eq. exact Hwf.
  - apply andb_true_iff in Hwf. destruct Hwf as [H1 H2].
    unfold p_bytes, put_bytes. rewrite <- app_assoc, p_uvarint_put, H1 by (apply N.ltb_lt; exact H2).
    apply ntake_app.
  - apply H in Hwf. subst. reflexivity.
  - destruct v0 as [a b]. cbn [fst snd] in *. apply andb_true_iff in Hwf. destruct Hwf as [H1 H2].
    rewrite <- app_assoc, (IHf1 _ _ H1), (IHf2 _ _ H2). reflexivity.
  - destruct v0 as [a b]. cbn [fst snd] in *. apply andb_true_iff in Hwf. destruct Hwf as [H1 H2].
    rewrite <- app_assoc, (IHf _ _ H1), (H _ _ _ H2). reflexivity.
  - apply andb_true_iff in Hwf. destruct Hwf as [Hdom Hwf].
    destruct (from v0) as [a|] eqn:E; [|discriminate].
    rewrite (IHf _ _ Hwf). rewrite (H _ _ E Hdom). reflexivity.
  - apply andb_true_iff in Hwf. destruct Hwf as [H1 H2].
    rewrite (IHf _ _ H1), H2. reflexivity.
  - destruct v0 as [a|]; cbn [app]; [|reflexivity].
    cbn. rewrite (IHf _ _ Hwf). reflexivity.
  - destruct v0 as [l|]; [|rewrite p_count_put by exact Hwf; reflexivity].
    apply andb_true_iff in Hwf. destruct Hwf as [Hwf Hall].
    apply andb_true_iff in Hwf. destruct Hwf as [Hlen Hcnt].
    rewrite <- app_assoc, p_count_put, to_nat_blen.
    + rewrite (rep_dec_enc (fun i => decode (f i)) _ (fun i => wf (f i))); [reflexivity| |exact Hall].
      intros i a r. apply H.
    + split; [lia|]. rewrite blen_app. destruct (ck_rem ck); lia.
Qed.

Theorem decode_extends : forall A (f : fmt A), extends (decode f).
Proof.
  induction f; intros a0 v0 r Hd; cbn [decode] in *.
  - destruct a0; [discriminate|]. injection Hd as <- <-. split; [cbn; lia|reflexivity].
  - destruct a0 as [|x a0]; [discriminate|]. cbn [p_bool app length] in *.
    destruct (x =? 0); [|destruct (x =? 1); [|discriminate]]; injection Hd as <- <-; (split; [lia|reflexivity]).
  - rewrite cget_be_eq in Hd. unfold get_be in Hd. destruct (take w a0) as [[h t]|] eqn:E; [|discriminate].
    injection Hd as <- <-. destruct (take_extends _ _ _ _ E) as [L S].
    split; [exact L|]. intro b. rewrite cget_be_eq. unfold get_be. rewrite S. reflexivity.
  - apply p_uvarint_extends. exact Hd.
  - unfold p_varint in *. destruct (p_uvarint a0) as [[u t]|] eqn:E; [|discriminate].
    injection Hd as <- <-. destruct (p_uvarint_extends _ _ _ E) as [L S].
    split; [exact L|]. intro b. rewrite S. reflexivity.
  - rewrite ctake_eq in Hd. destruct (take_extends _ _ _ _ Hd) as [L S].
    split; [exact L|]. intro b. rewrite ctake_eq. apply S.
  - apply p_bytes_extends. exact Hd.
  - injection Hd as <- <-. split; [lia|reflexivity].
  - destruct (decode f1 a0) as [[x t]|] eqn:E1; [|discriminate].
    destruct (decode f2 t) as [[y t']|] eqn:E2; [|discriminate]. injection Hd as <- <-.
    destruct (IHf1 _ _ _ E1) as [L1 S1], (IHf2 _ _ _ E2) as [L2 S2].
    split; [lia|]. intro b. rewrite S1, S2. reflexivity.
  - destruct (decode f a0) as [[x t]|] eqn:E1; [|discriminate].
    destruct (decode (k x) t) as [[y t']|] eqn:E2; [|discriminate]. injection Hd as <- <-.
    destruct (IHf _ _ _ E1) as [L1 S1], (H _ _ _ _ E2) as [L2 S2].
    split; [lia|]. intro b. rewrite S1, S2. reflexivity.
  - destruct (decode f a0) as [[x t]|] eqn:E1; [|discriminate]. injection Hd as <- <-.
    destruct (IHf _ _ _ E1) as [L1 S1]. split; [exact L1|]. intro b. rewrite S1. reflexivity.
  - destruct (decode f a0) as [[x t]|] eqn:E1; [|discriminate].
    destruct (ok x) eqn:O; [|discriminate]. injection Hd as <- <-.
    destruct (IHf _ _ _ E1) as [L1 S1]. split; [exact L1|]. intro b. rewrite S1, O. reflexivity.
  - destruct a0 as [|x a0]; [discriminate|]. cbn [app length].
    destruct (x =? 0); [injection Hd as <- <-; split; [lia|reflexivity]|].
    destruct (x =? 1); [|discriminate].
    destruct (decode f a0) as [[y t]|] eqn:E1; [|discriminate]. injection Hd as <- <-.
    destruct (IHf _ _ _ E1) as [L1 S1]. split; [lia|]. intro b. rewrite S1. reflexivity.
  - destruct (p_count ck max a0) as [[c t]|] eqn:E; [|discriminate].
    destruct (p_count_extends _ _ _ _ _ E) as [L1 S1].
    destruct c as [n|]; [|injection Hd as <- <-; split; [exact L1|]; intro b; rewrite S1; reflexivity].
    destruct (rep_dec (fun i => decode (f i)) 0 (N.to_nat n) t) as [[l t']|] eqn:E2; [|discriminate].
    injection Hd as <- <-. destruct (rep_dec_extends _ H _ _ _ _ _ E2) as [L2 S2].
    split; [lia|]. intro b. rewrite S1, S2. reflexivity.
Qed.

Theorem decode_stable : forall A (f : fmt A) a v r b,
  decode f a = Some (v, r) -> decode f (a ++ b) = Some (v, r ++ b).
Proof. intros A f a v r b H. apply decode_extends. exact H. Qed.

Theorem decode_shrinks : forall A (f : fmt A) a v r,
  decode f a = Some (v, r) -> (length r <= length a)%nat.
Proof. intros A f a v r H. apply (decode_extends A f a v r H). Qed.

Lemma decode_FMapD_inv {A B} (f : fmt A) (to : A -> B) from dom H data b r :
  decode (FMapD f to from dom H) data = Some (b, r) -> exists a, decode f data = Some (a, r) /\ b = to a.
Proof.
  cbn [decode]. destruct (decode f data) as [[a t]|]; [|discriminate].
  intro E. injection E as <- <-. exists a. split; reflexivity.
Qed.

Lemma decode_FGuard_inv {A} (f : fmt A) ok a v r :
  decode (FGuard f ok) a = Some (v, r) -> decode f a = Some (v, r) /\ ok v = true.
Proof.
  cbn [decode]. destruct (decode f a) as [[x t]|]; [|discriminate].
  destruct (ok x) eqn:O; [|discriminate]. intro E. injection E as <- <-. split; [reflexivity|exact O].
Qed.

Lemma decode_FSeq_inv {A B} (fa : fmt A) (fb : fmt B) a x y r :
  decode (FSeq fa fb) a = Some ((x, y), r) -> exists t, decode fa a = Some (x, t) /\ decode fb t = Some (y, r).
Proof.
  cbn [decode]. destruct (decode fa a) as [[x' t]|]; [|discriminate].
  destruct (decode fb t) as [[y' r']|] eqn:E2; [|discriminate].
  intro E. injection E as <- <- <-. exists t. split; [reflexivity|exact E2].
Qed.

Lemma decode_FBind_inv {A B} (fa : fmt A) (k : A -> fmt B) a x y r :
  decode (FBind fa k) a = Some ((x, y), r) -> exists t, decode fa a = Some (x, t) /\ decode (k x) t = Some (y, r).
Proof.
  cbn [decode]. destruct (decode fa a) as [[x' t]|]; [|discriminate].
  destruct (decode (k x') t) as [[y' r']|] eqn:E2; [|discriminate].
  intro E. injection E as <- <- <-. exists t. split; [reflexivity|exact E2].
Qed.

Lemma decode_FList_inv {A} ck max (f : nat -> fmt A) a l r :
  decode (FList ck max f) a = Some (Some l, r) ->
  exists n t, p_count ck max a = Some (Some n, t) /\ rep_dec (fun i => decode (f i)) 0 (N.to_nat n) t = Some (l, r).
Proof.
  cbn [decode]. destruct (p_count ck max a) as [[[n|] t]|]; try discriminate.
  destruct (rep_dec _ 0 (N.to_nat n) t) as [[l' r']|] eqn:E2; [|discriminate].
  intro E. injection E as <- <-. exists n, t. split; [reflexivity|exact E2].
Qed.

Lemma decode_full_inv {A} (f : fmt A) a v : decode_full f a = Some v <-> decode f a = Some (v, []).
Proof.
  unfold decode_full. destruct (decode f a) as [[v' [|x r]]|]; split; intro H; try discriminate H;
    injection H as <-; reflexivity.
Qed.

Theorem decode_full_encode : forall A (f : fmt A) v,
  wf f v = true -> decode_full f (encode f v) = Some v.
Proof.
  intros A f v H. unfold decode_full.
  pose proof (decode_encode A f v [] H) as E. rewrite app_nil_r in E. rewrite E. reflexivity.
Qed.

(* in the boolean form of the Decode functions' size test; for a concrete format the second
   premise is closed by [eq_refl] *)
Lemma encode_nonempty {A} (f : fmt A) v :
  wf f v = true -> decode_full f [] = None -> blen (encode f v) =? 0 = false.
Proof.
  intros W D. destruct (encode f v) eqn:E; [|reflexivity].
  rewrite <- E, decode_full_encode in D by exact W. discriminate D.
Qed.

Theorem truncation_rejected : forall A (f : fmt A) v p s,
  wf f v = true -> encode f v = p ++ s -> s <> [] -> decode_full f p = None.
Proof.
  intros A f v p s Hwf He Hs. unfold decode_full.
  destruct (decode f p) as [[v' r]|] eqn:E; [|reflexivity].
  destruct r as [|x r]; [|reflexivity]. exfalso.
  apply (decode_stable _ _ _ _ _ s) in E. rewrite <- He in E.
  pose proof (decode_encode A f v [] Hwf) as E2. rewrite app_nil_r in E2.
  rewrite E2 in E. inversion E; subst. apply Hs. reflexivity.
Qed.

Theorem trailing_rejected : forall A (f : fmt A) v s,
  wf f v = true -> s <> [] -> decode_full f (encode f v ++ s) = None.
Proof.
  intros A f v s Hwf Hs. unfold decode_full. rewrite (decode_encode A f v s Hwf).
  destruct s; [contradiction|reflexivity].
Qed.


Lemma Forall_alloc_mono r c len len' l :
  len <= len' -> Forall (alloc_ok r c len) l -> Forall (alloc_ok r c len') l.
Proof.
  intros Hl H. eapply Forall_impl; [|exact H]. unfold alloc_ok. intros [n|n]; destruct r; lia.
Qed.

Lemma rep_allocs_bounded {A} (dec : nat -> parser A) (al : nat -> bytes -> list alloc_req) r c :
  (forall i, extends (dec i)) ->
  (forall i bs, Forall (alloc_ok r c (blen bs)) (al i bs)) ->
  forall n i bs, Forall (alloc_ok r c (blen bs)) (rep_allocs dec al i n bs).
Proof.
  intros Hs Ha. induction n as [|n IH]; intros i bs; [constructor|].
  cbn [rep_allocs]. apply Forall_app. split; [apply Ha|].
  destruct (dec i bs) as [[x t]|] eqn:E; [|constructor].
  apply Hs in E. eapply Forall_alloc_mono; [apply blen_le, E|apply IH].
Qed.

(* Every allocation request issued while decoding ANY input is bounded before
   it is made: a list whose count is checked against a constant has at most c
   elements, a list whose count is checked against the remaining input has at
   most that many, and a byte copy is never longer than the input. *)
Theorem allocs_bounded : forall A (f : fmt A) r c bs,
  capped r c f -> Forall (alloc_ok r c (blen bs)) (allocs f bs).
Proof.
  induction f; intros r c bs Hc; cbn [allocs capped] in *;
    try constructor. (* leaves the formats that allocate: FBytes and the combinators *)
  - unfold p_bytes_len. destruct (p_uvarint bs) as [[m t]|] eqn:E; [|constructor].
    destruct ((m <=? max) && has_len t m) eqn:L; constructor; [|constructor].
    apply andb_true_iff in L. destruct L as [_ L]. rewrite has_len_eq in L.
    apply p_uvarint_extends in E. destruct E as [E _]. apply blen_le in E. cbn. lia.
  - destruct Hc as [H1 H2]. apply Forall_app. split; [apply IHf1; exact H1|].
    destruct (decode f1 bs) as [[x t]|] eqn:E; [|constructor].
    apply decode_shrinks in E. eapply Forall_alloc_mono; [apply blen_le; exact E|apply IHf2; exact H2].
  - destruct Hc as [H1 H2]. apply Forall_app. split; [apply IHf; exact H1|].
    destruct (decode f bs) as [[x t]|] eqn:E; [|constructor].
    apply decode_shrinks in E. eapply Forall_alloc_mono; [apply blen_le; exact E|apply H; apply H2].
  - apply IHf. exact Hc.
  - apply IHf. exact Hc.
  - destruct bs as [|x t]; [constructor|]. destruct (x =? 1); [|constructor].
    eapply Forall_alloc_mono; [|apply IHf; exact Hc]. unfold blen. cbn [length]. lia.
  - destruct Hc as [Hmax Hel].
    destruct (p_count ck max bs) as [[[n|] t]|] eqn:E; try constructor.
    + pose proof (p_count_bounded _ _ _ _ _ E) as [B1 B2].
      apply p_count_extends in E. destruct E as [Sh _]. apply blen_le in Sh.
      cbn. destruct (ck_rem ck) eqn:R.
      * specialize (B2 eq_refl). subst r. lia.
      * specialize (B1 eq_refl). destruct r; lia.
    + apply p_count_extends in E. destruct E as [Sh _].
      eapply Forall_alloc_mono; [apply blen_le; exact Sh|].
      apply rep_allocs_bounded.
      * intro i. apply decode_extends.
      * intros i bs0. apply H. apply Hel.
Qed.


Theorem veqb_sound : forall A (f : fmt A) x y, veqb f x y = true -> x = y.
Proof.
  induction f; intros x y E; cbn [veqb] in *.
  - apply N.eqb_eq. exact E.
  - apply Bool.eqb_prop. exact E.
  - apply N.eqb_eq. exact E.
  - apply N.eqb_eq. exact E.
  - apply Z.eqb_eq. exact E.
  - apply bytes_eqb_eq. exact E.
  - apply bytes_eqb_eq. exact E.
  - apply andb_true_iff in E. destruct E as [E1 E2]. apply H in E1. apply H in E2. congruence.
  - destruct x as [a b], y as [a' b']. cbn [fst snd] in *.
    apply andb_true_iff in E. destruct E as [E1 E2].
    apply IHf1 in E1. apply IHf2 in E2. subst. reflexivity.
  - destruct x as [a b], y as [a' b']. cbn [fst snd] in *.
    apply andb_true_iff in E. destruct E as [E1 E2].
    apply IHf in E1. subst. apply H in E2. subst. reflexivity.
  - apply andb_true_iff in E. destruct E as [E0 E]. apply andb_true_iff in E0. destruct E0 as [Dx Dy].
    destruct (from x) as [a|] eqn:Ex; [|discriminate].
    destruct (from y) as [b|] eqn:Ey; [|discriminate].
    apply IHf in E. subst. rewrite <- (H _ _ Ex Dx), <- (H _ _ Ey Dy). reflexivity.
  - apply IHf. exact E.
  - destruct x as [a|], y as [b|]; try discriminate; [|reflexivity].
    f_equal. apply IHf. exact E.
  - destruct x as [l|], y as [l'|]; try discriminate; [|reflexivity].
    f_equal. eapply rep_eqb_sound; [|exact E]. intros i a b. apply H.
Qed.

Theorem veqb_refl : forall A (f : fmt A) x, wf f x = true -> veqb f x x = true.
Proof.
  induction f; intros x W; cbn [veqb wf] in *.
  - apply N.eqb_refl.
  - destruct x; reflexivity.
  - apply N.eqb_refl.
  - apply N.eqb_refl.
  - apply Z.eqb_refl.
  - apply bytes_eqb_eq. reflexivity.
  - apply bytes_eqb_eq. reflexivity.
  - rewrite W. reflexivity.
  - apply andb_true_iff in W. destruct W as [W1 W2]. rewrite (IHf1 _ W1), (IHf2 _ W2). reflexivity.
  - apply andb_true_iff in W. destruct W as [W1 W2]. rewrite (IHf _ W1), (H _ _ W2). reflexivity.
  - apply andb_true_iff in W. destruct W as [D W]. rewrite D. cbn [andb].
    destruct (from x) as [a|]; [|discriminate]. apply IHf. exact W.
  - apply andb_true_iff in W. destruct W as [W1 _]. apply IHf. exact W1.
  - destruct x as [a|]; [|reflexivity]. apply IHf. exact W.
  - destruct x as [l|]; [|reflexivity].
    apply andb_true_iff in W. destruct W as [_ W2].
    eapply rep_eqb_refl; [|exact W2]. intros i a. apply H.
Qed.

Lemma option_veqb_sound {A} (f : fmt A) (x y : option A) :
  option_eqb (veqb f) x y = true -> x = y.
Proof.
  destruct x, y; cbn; try discriminate; [|reflexivity].
  intro E. f_equal. apply veqb_sound with (f := f). exact E.
Qed.

(* [wfmt f]: what [decode f] accepts is in the encoder's domain ([decode_wf]).  It asks:
   FConst: the constant passes its own test; FMapD: packing lands in [dom] and is undone by
   unpacking on [wf] values (the constructor carries the other inverse law); FGuard: the guarded
   format is [wfmt], or the guard rejects everything ([f_fail]); FList: the count is checked
   against a constant below 2^64 - 1; elsewhere: the parts are [wfmt]. *)

Fixpoint wfmt {A} (f : fmt A) : Prop :=
  match f with
  | FConst v is_v _ => is_v v = true
  | FSeq fa fb => wfmt fa /\ wfmt fb
  | FBind fa k => wfmt fa /\ forall a, wfmt (k a)
  | FMapD f to from dom _ => wfmt f /\ forall a, wf f a = true -> dom (to a) = true /\ from (to a) = Some a
  | FGuard f ok => (forall v, ok v = false) \/ wfmt f
  | FOpt f => wfmt f
  | FList ck max f => ck_rem ck = false /\ max < two64 - 1 /\ forall i, wfmt (f i)
  | _ => True
  end.

Theorem decode_wf : forall A (f : fmt A) a v r,
  wfmt f -> all_bytes a = true -> decode f a = Some (v, r) ->
  wf f v = true /\ all_bytes r = true.
Proof.
  induction f; intros a0 v0 r W HB Hd; cbn [decode wf wfmt] in *.
  - destruct a0 as [|x t]; [discriminate|]. injection Hd as <- <-. apply andb_true_iff. exact HB.
  - destruct a0 as [|x t]; [discriminate|]. cbn [p_bool] in Hd. apply andb_true_iff in HB. destruct HB as [_ HB].
    destruct (x =? 0); [|destruct (x =? 1); [|discriminate]]; injection Hd as <- <-; (split; [reflexivity|exact HB]).
  - rewrite cget_be_eq in Hd. unfold get_be in Hd.
    destruct (take w a0) as [[h t]|] eqn:E; [|discriminate]. injection Hd as <- <-.
    destruct (take_all_bytes _ _ _ _ E HB) as (Bh & Bt & L).
    split; [|exact Bt]. apply N.ltb_lt. rewrite <- L. apply be_get_bound. exact Bh.
  - destruct (p_uvarint_value _ _ _ Hd HB) as [Hv Br]. split; [apply N.ltb_lt; exact Hv|exact Br].
  - unfold p_varint in Hd. destruct (p_uvarint a0) as [[u t]|] eqn:E; [|discriminate]. injection Hd as <- <-.
    destruct (p_uvarint_value _ _ _ E HB) as [Hu Bt]. split; [apply unzigzag_range; exact Hu|exact Bt].
  - rewrite ctake_eq in Hd. destruct (take_all_bytes _ _ _ _ Hd HB) as (_ & Bt & L).
    split; [apply Nat.eqb_eq; exact L|exact Bt].
  - apply p_bytes_inv in Hd. destruct Hd as (m & t & E & L1 & _ & Hd).
    destruct (p_uvarint_value _ _ _ E HB) as [Hm Bt], (take_all_bytes _ _ _ _ Hd Bt) as (_ & Br & Lh).
    split; [|exact Br]. unfold blen. rewrite Lh, Nnat.N2Nat.id, L1. apply N.ltb_lt. exact Hm.
  - injection Hd as <- <-. split; [exact W|exact HB].
  - destruct W as [W1 W2].
    destruct (decode f1 a0) as [[x t]|] eqn:E1; [|discriminate].
    destruct (decode f2 t) as [[y t']|] eqn:E2; [|discriminate]. injection Hd as <- <-.
    destruct (IHf1 _ _ _ W1 HB E1) as [Wx Bt], (IHf2 _ _ _ W2 Bt E2) as [Wy Br].
    cbn [fst snd]. rewrite Wx, Wy. split; [reflexivity|exact Br].
  - destruct W as [W1 W2].
    destruct (decode f a0) as [[x t]|] eqn:E1; [|discriminate].
    destruct (decode (k x) t) as [[y t']|] eqn:E2; [|discriminate]. injection Hd as <- <-.
    destruct (IHf _ _ _ W1 HB E1) as [Wx Bt], (H _ _ _ _ (W2 x) Bt E2) as [Wy Br].
    cbn [fst snd]. rewrite Wx, Wy. split; [reflexivity|exact Br].
  - destruct W as [W1 W2].
    destruct (decode f a0) as [[x t]|] eqn:E1; [|discriminate]. injection Hd as <- <-.
    destruct (IHf _ _ _ W1 HB E1) as [Wx Bt], (W2 x Wx) as [D F].
    rewrite D, F, Wx. split; [reflexivity|exact Bt].
  - destruct (decode f a0) as [[x t]|] eqn:E1; [|discriminate].
    destruct (ok x) eqn:O; [|discriminate]. injection Hd as <- <-.
    destruct W as [W|W]; [rewrite W in O; discriminate|].
    destruct (IHf _ _ _ W HB E1) as [Wx Bt]. rewrite Wx, O. split; [reflexivity|exact Bt].
  - destruct a0 as [|x t]; [discriminate|]. apply andb_true_iff in HB. destruct HB as [_ HB].
    destruct (x =? 0); [injection Hd as <- <-; split; [reflexivity|exact HB]|].
    destruct (x =? 1); [|discriminate].
    destruct (decode f t) as [[y t']|] eqn:E1; [|discriminate]. injection Hd as <- <-.
    exact (IHf _ _ _ W HB E1).
  - destruct W as (Wk & Wm & Wf).
    destruct (p_count ck max a0) as [[c t]|] eqn:E; [|discriminate].
    destruct (p_count_value _ _ _ _ _ Wk Wm E HB) as [Bt Hc].
    destruct c as [n|]; [|injection Hd as <- <-; split; [exact Hc|exact Bt]].
    destruct (rep_dec (fun i => decode (f i)) 0 (N.to_nat n) t) as [[l t']|] eqn:E2; [|discriminate].
    injection Hd as <- <-. pose proof (rep_dec_length _ _ _ _ _ _ E2) as Ll.
    destruct (rep_dec_wf _ (fun i => wf (f i)) (fun i a v t0 E Ba => H i a v t0 (Wf i) Ba E) _ _ _ _ _ E2 Bt) as [Al Br].
    split; [|exact Br]. unfold blen. rewrite Ll, Nnat.N2Nat.id, Al, Wk. destruct Hc as [Hn Hm].
    apply N.ltb_lt in Hn. apply N.leb_le in Hm. rewrite Hn, Hm. reflexivity.
Qed.

Theorem decode_full_wf : forall A (f : fmt A) a v,
  wfmt f -> all_bytes a = true -> decode_full f a = Some v -> wf f v = true.
Proof.
  intros A f a v W B H. apply decode_full_inv in H. eapply decode_wf; eassumption.
Qed.

(* [capped] and [wfmt] of a concrete format are conjunctions over its syntax.  [fmt_ok] is [auto]
   with these hints only: [cbn] replaces a combinator by its clause and stops at named sub-formats;
   a conditional is checked in both branches; list bounds are comparisons of closed numerals
   ([N.lt], [N.le] compute); a record format needs packing undone by unpacking (split the tuple,
   compute); a named format is unfolded last, unless a lemma about it is registered — so a format
   shared by several others is checked once.  Depth: one unit per field along a path through the
   nested records; if [fmt_ok] fails on a deeper format, register lemmas for its sub-formats. *)

Lemma wfmt_FMap_on {A B} (f : fmt A) (to : A -> B) from H :
  wfmt f -> (forall a, wf f a = true -> from (to a) = Some a) -> wfmt (FMap f to from H).
Proof. intros W E. split; [exact W|]. intros a Wa. split; [reflexivity|exact (E a Wa)]. Qed.

Lemma wfmt_FMap {A B} (f : fmt A) (to : A -> B) from H :
  wfmt f -> (forall a, from (to a) = Some a) -> wfmt (FMap f to from H).
Proof. intros W E. apply wfmt_FMap_on; [exact W|]. intros a _. apply E. Qed.

Ltac fmt_split_tuple a :=
  lazymatch type of a with
  | (_ * _)%type => let x := fresh in let y := fresh in destruct a as [x y]; fmt_split_tuple x; fmt_split_tuple y
  | _ => idtac
  end.
Ltac fmt_head t := lazymatch t with ?f _ => fmt_head f | _ => t end.

Create HintDb fmt.
#[export] Hint Resolve wfmt_FMap : fmt.
#[export] Hint Extern 1 (_ = Some ?a) => fmt_split_tuple a; reflexivity : fmt.
#[export] Hint Extern 1 (_ < _) => reflexivity : fmt.
#[export] Hint Extern 1 (_ <= _) => discriminate : fmt.
#[export] Hint Extern 2 (wfmt _) => progress cbn [wfmt ck_rem] : fmt.
#[export] Hint Extern 2 (capped _ _ _) => progress cbn [capped ck_rem] : fmt.
#[export] Hint Extern 3 (wfmt (if ?b then _ else _)) => destruct b : fmt.
#[export] Hint Extern 3 (capped _ _ (if ?b then _ else _)) => destruct b : fmt.
#[export] Hint Extern 5 (wfmt ?f) => let h := fmt_head f in unfold h : fmt.
#[export] Hint Extern 5 (capped _ _ ?f) => let h := fmt_head f in unfold h : fmt.

Ltac fmt_ok := solve [auto 40 with fmt].
