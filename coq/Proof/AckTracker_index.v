(* Proof/AckTracker_index.v — the bySession index is the projection of byMessage *)
From WK Require Import Base.Base Model.AckTracker Proof.AckTracker_map.
From Coq Require Import Permutation.
Open Scope N_scope.

Notation kget := (al_get key_eqb).
Notation sget := (al_get skey_eqb).

Definition has_key {V} (bm : list (key * V)) (k : key) : Prop := al_get key_eqb k bm <> None.

Record session_index_ok (bm : list (key * entry)) (bs : list (skey * list N)) : Prop := {
  si_nodup : NoDup (al_keys bs);
  si_rows : forall sk ms, sget sk bs = Some ms -> ms <> [] /\ NoDup ms;
  si_proj : forall u s m, (exists ms, sget (u, s) bs = Some ms /\ In m ms) <-> has_key bm (u, s, m) }.

Lemma key_neq_cases (u s m u' s' m' : N) :
  (u, s, m) <> (u', s', m') -> (u, s) <> (u', s') \/ ((u, s) = (u', s') /\ m <> m').
Proof.
  intro H. destruct (N.eq_dec u u') as [E1|E1]; [|left; congruence].
  destruct (N.eq_dec s s') as [E2|E2]; [|left; congruence].
  right. split; [congruence|]. intro. subst. apply H. reflexivity.
Qed.

Lemma skey_eq_dec (a b : skey) : {a = b} + {a <> b}.
Proof. decide equality; apply N.eq_dec. Qed.
Lemma key_eq_dec (a b : key) : {a = b} + {a <> b}.
Proof. decide equality; [apply N.eq_dec|apply skey_eq_dec]. Qed.

Lemma si_dom bm bm' bs :
  (forall k, has_key bm k <-> has_key bm' k) -> session_index_ok bm bs -> session_index_ok bm' bs.
Proof.
  intros D [H1 H2 H3]. constructor; [exact H1|exact H2|].
  intros u s m. rewrite H3. apply D.
Qed.

Lemma has_key_in {V} (bm : list (key * V)) k : has_key bm k <-> In k (al_keys bm).
Proof. apply (al_get_key_iff key_eqb key_eqb_spec). Qed.

Lemma has_key_set {V} k (v : V) bm k' : has_key (al_set key_eqb k v bm) k' <-> k' = k \/ has_key bm k'.
Proof. rewrite !has_key_in. apply k_keys_set. Qed.

Lemma has_key_del {V} k (bm : list (key * V)) k' : has_key (al_del key_eqb k bm) k' <-> k' <> k /\ has_key bm k'.
Proof. rewrite !has_key_in. apply k_keys_del. Qed.

Definition mem_mid_in : forall m ms, mem_mid m ms = true <-> In m ms := set_mem_in N.eqb N.eqb_eq.
Definition add_mid_in : forall m ms x, In x (add_mid m ms) <-> x = m \/ In x ms := set_add_in N.eqb N.eqb_eq.
Definition add_mid_nodup : forall m ms, NoDup ms -> NoDup (add_mid m ms) := set_add_nodup N.eqb N.eqb_eq.
Definition del_mid_in : forall m ms x, In x (del_mid m ms) <-> x <> m /\ In x ms := set_del_in N.eqb N.eqb_eq.

Lemma add_mid_length m ms :
  length (add_mid m ms) = if mem_mid m ms then length ms else S (length ms).
Proof.
  unfold add_mid. destruct (mem_mid m ms); [reflexivity|]. rewrite app_length. simpl. lia.
Qed.

Lemma del_mid_length m ms : (length (del_mid m ms) <= length ms)%nat.
Proof. unfold del_mid. induction ms as [|x ms IH]; simpl; [lia|]. destruct (negb (x =? m)); simpl; lia. Qed.

Lemma si_add bm bs u s m (e : entry) :
  session_index_ok bm bs ->
  session_index_ok (al_set key_eqb (u, s, m) e bm)
    (al_set skey_eqb (u, s) (add_mid m (match sget (u, s) bs with Some ms => ms | None => [] end)) bs).
Proof.
  intros [H1 H2 H3]. constructor.
  - apply s_set_nodup. exact H1.
  - intros sk ms. destruct (skey_eq_dec (u, s) sk) as [E|E].
    + subst sk. rewrite s_get_set_same. intro H. inversion H. subst ms. clear H. split.
      * intro H. assert (X : In m (add_mid m match sget (u, s) bs with Some ms => ms | None => [] end)).
        { apply add_mid_in. left. reflexivity. }
        rewrite H in X. destruct X.
      * apply add_mid_nodup. destruct (sget (u, s) bs) eqn:G; [apply (H2 _ _ G)|constructor].
    + rewrite s_get_set_other by exact E. apply H2.
  - intros u' s' m'. rewrite has_key_set. destruct (skey_eq_dec (u, s) (u', s')) as [E|E].
    + inversion E. subst u' s'. rewrite s_get_set_same. split.
      * intros [ms [G1 G2]]. inversion G1. subst ms. apply add_mid_in in G2. destruct G2 as [G2|G2].
        -- left. subst. reflexivity.
        -- right. apply H3. destruct (sget (u, s) bs) eqn:G; [|destruct G2]. exists l. split; [reflexivity|exact G2].
      * intros [G|G].
        -- inversion G. subst m'. eexists. split; [reflexivity|]. apply add_mid_in. left. reflexivity.
        -- apply H3 in G. destruct G as [ms [G1 G2]]. rewrite G1. eexists. split; [reflexivity|].
           apply add_mid_in. right. exact G2.
    + rewrite s_get_set_other by exact E. rewrite H3. split.
      * intro G. right. exact G.
      * intros [G|G]; [inversion G; subst; contradiction|exact G].
Qed.

Lemma deleteSession_get bs sk m sk' :
  sget sk' (deleteSessionMessageLocked bs sk m) =
  if skey_eqb sk' sk
  then match sget sk bs with
       | Some ms => match del_mid m ms with [] => None | ms' => Some ms' end
       | None => None
       end
  else sget sk' bs.
Proof. apply (al_get_shrink skey_eqb skey_eqb_spec). Qed.

Lemma si_del bm bs u s m :
  session_index_ok bm bs ->
  session_index_ok (al_del key_eqb (u, s, m) bm) (deleteSessionMessageLocked bs (u, s) m).
Proof.
  intros [H1 H2 H3]. constructor.
  - unfold deleteSessionMessageLocked. destruct (sget (u, s) bs) as [ms|]; [|exact H1].
    destruct (del_mid m ms); [apply s_del_nodup|apply s_set_nodup]; exact H1.
  - intros sk ms'. rewrite deleteSession_get. destruct (skey_eqb sk (u, s)); [|apply H2].
    destruct (sget (u, s) bs) as [ms|] eqn:G; [|discriminate].
    pose proof (NoDup_filter (fun x => negb (x =? m)) (proj2 (H2 _ _ G))) as ND. fold (del_mid m ms) in ND.
    destruct (del_mid m ms); [discriminate|]. intro X. inversion X. subst ms'. split; [discriminate|exact ND].
  - intros u' s' m'. rewrite has_key_del, deleteSession_get, <- H3.
    destruct (skey_eqb (u', s') (u, s)) eqn:E.
    2:{ split; [|tauto]. intro K. split; [|exact K]. intro X. inversion X. subst. rewrite skey_eqb_refl in E. discriminate. }
    apply skey_eqb_spec in E. inversion E. subst u' s'.
    destruct (sget (u, s) bs) as [ms|].
    2:{ split; [intros [ms0 [X _]]|intros [_ [ms0 [X _]]]]; discriminate. }
    pose proof (del_mid_in m ms m') as D. split.
    + intros [ms0 [X Y]]. destruct (del_mid m ms); [discriminate|]. inversion X. subst ms0. apply D in Y.
      split; [intro Z; inversion Z; tauto|exists ms; tauto].
    + intros [N1 [ms0 [X Y]]]. inversion X. subst ms0.
      assert (Z : In m' (del_mid m ms)) by (apply D; split; [congruence|exact Y]).
      destruct (del_mid m ms); [contradiction|]. eexists. split; [reflexivity|exact Z].
Qed.

Lemma si_drop_session (bm bm' : list (key * entry)) bs u sid :
  session_index_ok bm bs ->
  (forall k, kget k bm' = if skey_eqb (key_skey k) (u, sid) then None else kget k bm) ->
  session_index_ok bm' (al_del skey_eqb (u, sid) bs).
Proof.
  intros [H1 H2 H3] GET. constructor.
  - apply s_del_nodup, H1.
  - intros sk ms. destruct (skey_eq_dec (u, sid) sk) as [E|E].
    + subst sk. rewrite s_get_del_same. discriminate.
    + rewrite s_get_del_other by exact E. apply H2.
  - intros u' s' m'. unfold has_key. rewrite GET. cbn [key_skey].
    destruct (skey_eq_dec (u, sid) (u', s')) as [E|E].
    + inversion E. subst u' s'. rewrite s_get_del_same, skey_eqb_refl. split; [intros [ms [X _]]; discriminate|contradiction].
    + rewrite s_get_del_other by exact E.
      destruct (skey_eqb (u', s') (u, sid)) eqn:F; [apply skey_eqb_spec in F; congruence|]. apply H3.
Qed.

Lemma deleteSession_rows bs sk m sk' ms' :
  sget sk' (deleteSessionMessageLocked bs sk m) = Some ms' ->
  exists ms, sget sk' bs = Some ms /\ (length ms' <= length ms)%nat.
Proof.
  rewrite deleteSession_get. destruct (skey_eqb sk' sk) eqn:E; [|intro H; exists ms'; split; [exact H|lia]].
  apply skey_eqb_spec in E. subst sk'. destruct (sget sk bs) as [ms|]; [|discriminate].
  pose proof (del_mid_length m ms) as L. destruct (del_mid m ms); [discriminate|].
  intro H. inversion H. subst ms'. exists ms. split; [reflexivity|exact L].
Qed.
