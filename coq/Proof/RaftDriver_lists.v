(* Proof/RaftDriver_lists.v — C12: list lemmas about the committed log seen as a
   function of the index, and about slot.applyCommittedEntries (which state-machine
   calls are made for a contiguous range of committed entries). *)
From WK Require Import Base.Base Base.Lists Base.Bytes Model.RaftDriver.
From Coq Require Import Sorted ZifyBool ZifyN ZifyNat.
Open Scope N_scope.

Lemma log_get_app a b i :
  log_get (a ++ b) i = match log_get a i with Some v => Some v | None => log_get b i end.
Proof.
  induction a as [|x a IH]; cbn [app log_get]; [reflexivity|].
  destruct (e_idx x =? i); [reflexivity | exact IH].
Qed.

Lemma log_get_filter_lt log f i :
  i < f -> log_get (filter (fun x => e_idx x <? f) log) i = log_get log i.
Proof.
  intro H. induction log as [|x log IH]; cbn [filter log_get]; [reflexivity|].
  destruct (e_idx x <? f) eqn:E; cbn [log_get].
  - destruct (e_idx x =? i); [reflexivity | exact IH].
  - destruct (e_idx x =? i) eqn:E2; [|exact IH]. apply N.eqb_eq in E2. apply N.ltb_ge in E. lia.
Qed.

Lemma log_get_none_gt b i : (forall x, In x b -> i < e_idx x) -> log_get b i = None.
Proof.
  induction b as [|x b IH]; intro H; cbn [log_get]; [reflexivity|].
  destruct (e_idx x =? i) eqn:E.
  - apply N.eqb_eq in E. specialize (H x (or_introl eq_refl)). lia.
  - apply IH. intros y Hy. apply H. right. exact Hy.
Qed.

Lemma log_get_put log ents i :
  (forall x, In x ents -> i < e_idx x) -> log_get (log_put log ents) i = log_get log i.
Proof.
  intro H. unfold log_put. destruct ents as [|e0 r]; [reflexivity|].
  rewrite log_get_app, log_get_filter_lt by (apply H; left; reflexivity).
  destruct (log_get log i); [reflexivity|]. apply log_get_none_gt. exact H.
Qed.

Section CLog.

(* SMS, first half: one committed log for everybody.  Every replica that learns
   a committed entry at index i learns [clog i]. *)
Variable clog : N -> entry.
Hypothesis clog_idx : forall i, e_idx (clog i) = i.

(* the committed entries a+1 .. a+n *)
Definition centries (a : N) (n : nat) : list entry :=
  map (fun j => clog (a + N.of_nat j)) (seq 1 n).

(* no command strictly after p up to q *)
Definition clean (p q : N) : Prop :=
  forall i, p < i <= q -> is_normal (clog i) = false.

Definition sorted (h : list entry) : Prop := StronglySorted (fun a b => e_idx a < e_idx b) h.

(* every element is THE committed entry of its index, is a command, and lies in (lo, hi] *)
Definition sound (h : list entry) (lo hi : N) : Prop :=
  forall e, In e h -> e = clog (e_idx e) /\ is_normal e = true /\ lo < e_idx e <= hi.

(* every command of (lo, hi] is there *)
Definition complete (h : list entry) (lo hi : N) : Prop :=
  forall i, lo < i <= hi -> is_normal (clog i) = true -> In (clog i) h.

Lemma centries_length a n : length (centries a n) = n.
Proof. unfold centries. rewrite map_length, seq_length. reflexivity. Qed.

Lemma centries_0 a : centries a 0 = [].
Proof. reflexivity. Qed.

Lemma centries_S a n : centries a (S n) = clog (a + 1) :: centries (a + 1) n.
Proof. clear clog_idx.
  unfold centries. cbn [seq map]. f_equal.
  rewrite <- seq_shift, map_map. apply map_ext. intro j.
  f_equal. lia.
Qed.

Lemma centries_app a n m :
  centries a (n + m) = centries a n ++ centries (a + N.of_nat n) m.
Proof. clear clog_idx.
  revert a. induction n as [|n IH]; intro a.
  - cbn [Nat.add]. rewrite centries_0. cbn [app]. replace (a + N.of_nat 0) with a by lia. reflexivity.
  - cbn [Nat.add]. rewrite !centries_S, IH. cbn [app]. f_equal. f_equal.
    replace (a + 1 + N.of_nat n) with (a + N.of_nat (S n)) by lia. reflexivity.
Qed.

Lemma centries_snoc a n : centries a (S n) = centries a n ++ [clog (a + N.of_nat (S n))].
Proof. clear clog_idx.
  replace (S n) with (n + 1)%nat at 1 by lia. rewrite centries_app.
  rewrite centries_S, centries_0. replace (a + N.of_nat n + 1) with (a + N.of_nat (S n)) by lia. reflexivity.
Qed.

Lemma In_centries a n e :
  In e (centries a n) <-> exists i, a < i <= a + N.of_nat n /\ e = clog i.
Proof. clear clog_idx.
  unfold centries. rewrite in_map_iff. split.
  - intros (j & <- & Hj). apply in_seq in Hj. exists (a + N.of_nat j). split; [lia | reflexivity].
  - intros (i & Hi & ->). exists (N.to_nat (i - a)). split.
    + f_equal. lia.
    + apply in_seq. lia.
Qed.

Lemma centries_split l1 l2 a n :
  l1 ++ l2 = centries a n ->
  l1 = centries a (length l1) /\ l2 = centries (a + N.of_nat (length l1)) (n - length l1).
Proof. clear clog_idx.
  intro H.
  assert (Hl : (length l1 <= n)%nat).
  { apply (f_equal (@length _)) in H. rewrite app_length, centries_length in H. lia. }
  replace n with (length l1 + (n - length l1))%nat in H by lia.
  rewrite centries_app in H.
  apply app_inv_length in H; [exact H|]. rewrite centries_length. reflexivity.
Qed.

Lemma lastApplied_nil d : lastApplied [] d = d.
Proof. reflexivity. Qed.

Lemma lastApplied_snoc l e d : lastApplied (l ++ [e]) d = e_idx e.
Proof. unfold lastApplied. rewrite map_app. cbn [map]. apply last_last. Qed.

Lemma lastApplied_cons_ne e l d : l <> [] -> lastApplied (e :: l) d = lastApplied l d.
Proof.
  unfold lastApplied. destruct l as [|x l]; [congruence|]. intros _. reflexivity.
Qed.

Lemma lastApplied_default l d d' : l <> [] -> lastApplied l d = lastApplied l d'.
Proof.
  intro H. destruct (exists_last H) as (l' & e & ->). rewrite !lastApplied_snoc. reflexivity.
Qed.

Lemma lastApplied_centries a n d : (0 < n)%nat -> lastApplied (centries a n) d = a + N.of_nat n.
Proof.
  destruct n as [|n]; [lia|]. intros _. rewrite centries_snoc, lastApplied_snoc. apply clog_idx.
Qed.

Lemma lastApplied_centries_le a n d : d <= a -> lastApplied (centries a n) d <= a + N.of_nat n.
Proof.
  destruct n as [|n]; intro H.
  - rewrite centries_0, lastApplied_nil. lia.
  - rewrite lastApplied_centries by lia. lia.
Qed.

Lemma sorted_le_last l d e : sorted l -> In e l -> e_idx e <= lastApplied l d.
Proof. clear clog_idx.
  unfold sorted. revert e. induction l as [|x l IH]; intros e Hs Hin; [destruct Hin|].
  inversion Hs as [|? ? Hs' Hf]; subst.
  destruct l as [|y l].
  - destruct Hin as [->|[]]. unfold lastApplied. cbn [map last]. lia.
  - rewrite lastApplied_cons_ne by congruence. destruct Hin as [->|Hin].
    + assert (e_idx e < e_idx y) by (rewrite Forall_forall in Hf; apply Hf; left; reflexivity).
      specialize (IH y Hs' (or_introl eq_refl)). lia.
    + apply IH; assumption.
Qed.

Lemma sorted_app_inv l1 l2 : sorted (l1 ++ l2) -> sorted l1 /\ sorted l2.
Proof. intro H. destruct (Lists.sorted_app_inv _ _ _ H) as (A & B & _). split; assumption. Qed.

Lemma sound_weaken h lo hi lo' hi' : sound h lo hi -> lo' <= lo -> hi <= hi' -> sound h lo' hi'.
Proof. clear clog_idx. intros H A B e He. destruct (H e He) as (X & Y & Z). split; [exact X|]. split; [exact Y | lia]. Qed.

Lemma sound_app h1 h2 lo hi : sound h1 lo hi -> sound h2 lo hi -> sound (h1 ++ h2) lo hi.
Proof. intros A B e He. apply in_app_or in He. destruct He as [He|He]; [apply A | apply B]; exact He. Qed.

Lemma complete_weaken h lo hi lo' hi' : complete h lo hi -> lo <= lo' -> hi' <= hi -> complete h lo' hi'.
Proof. clear clog_idx. intros Hc A B i Hi Hn. apply Hc; [lia | exact Hn]. Qed.

Lemma complete_app h1 h2 lo mid hi : complete h1 lo mid -> complete h2 mid hi -> complete (h1 ++ h2) lo hi.
Proof. clear clog_idx.
  intros A B i Hi Hn. apply in_or_app.
  destruct (N.le_gt_cases i mid); [left; apply A | right; apply B]; try exact Hn; lia.
Qed.

Lemma complete_extend h lo p q : complete h lo p -> clean p q -> complete h lo q.
Proof. clear clog_idx.
  intros Hc Hcl i Hi Hn. destruct (N.le_gt_cases i p).
  - apply Hc; [lia | exact Hn].
  - rewrite Hcl in Hn; [discriminate | lia].
Qed.

Lemma complete_nil p q : complete [] p q <-> clean p q.
Proof.
  split; intros H i Hi; [|intro Hn; rewrite (H i Hi) in Hn; discriminate].
  destruct (is_normal (clog i)) eqn:Hn; [destruct (H i Hi Hn) | reflexivity].
Qed.

Lemma clean_empty p q : q <= p -> clean p q.
Proof. clear clog_idx. intros H i Hi. lia. Qed.

Lemma clean_one a : is_normal (clog (a + 1)) = false -> clean a (a + 1).
Proof. clear clog_idx. intros H i Hi. replace i with (a + 1) by lia. exact H. Qed.

Lemma clean_trans p q r : clean p q -> clean q r -> clean p r.
Proof.
  intros A B i Hi. destruct (N.le_gt_cases i q); [apply A | apply B]; lia.
Qed.

Definition call_ok (p : N) (c : list entry) : Prop :=
  c <> [] /\ sorted c /\ sound c p (lastApplied c p) /\ complete c p (lastApplied c p).

Fixpoint calls_ok (p : N) (calls : list (list entry)) : Prop :=
  match calls with
  | [] => True
  | c :: r => call_ok p c /\ calls_ok (lastApplied c p) r
  end.

Fixpoint calls_end (p : N) (calls : list (list entry)) : N :=
  match calls with
  | [] => p
  | c :: r => calls_end (lastApplied c p) r
  end.

Lemma calls_ok_app p c1 c2 :
  calls_ok p (c1 ++ c2) <-> calls_ok p c1 /\ calls_ok (calls_end p c1) c2.
Proof.
  revert p. induction c1 as [|c c1 IH]; intro p; cbn [app calls_ok calls_end].
  - tauto.
  - rewrite IH. tauto.
Qed.

Lemma calls_end_app p c1 c2 : calls_end p (c1 ++ c2) = calls_end (calls_end p c1) c2.
Proof. revert p. induction c1 as [|c c1 IH]; intro p; cbn [app calls_end]; [reflexivity | apply IH]. Qed.

Lemma call_ok_last_gt p c : call_ok p c -> p < lastApplied c p.
Proof. clear clog_idx.
  intros (Hne & Hs & Hsd & _). destruct (exists_last Hne) as (l & e & ->).
  rewrite lastApplied_snoc. destruct (Hsd e) as (_ & _ & H); [apply in_or_app; right; left; reflexivity|].
  lia.
Qed.

(* the accumulator holds exactly the commands of (p, a] *)
Definition acc_ok (p a : N) (acc : list entry) : Prop :=
  p <= a /\ sorted acc /\ sound acc p a /\ complete acc p a.

Lemma acc_ok_flush p a acc :
  acc_ok p a acc ->
  calls_ok p (flushBatch acc)
  /\ p <= calls_end p (flushBatch acc) <= a
  /\ clean (calls_end p (flushBatch acc)) a.
Proof.
  intros (Hpa & Hs & Hsd & Hc). destruct acc as [|x acc'] eqn:E.
  - cbn. split; [exact I|]. split; [lia | apply complete_nil, Hc].
  - rewrite <- E in *. assert (Hne : acc <> []) by (rewrite E; congruence).
    replace (flushBatch acc) with [acc] by (rewrite E; reflexivity).
    cbn [calls_ok calls_end].
    assert (Hle : forall e, In e acc -> e_idx e <= lastApplied acc p) by (intros; apply sorted_le_last; assumption).
    assert (Hlast : p < lastApplied acc p <= a).
    { destruct (exists_last Hne) as (l & e & El). rewrite El, lastApplied_snoc.
      destruct (Hsd e) as (_ & _ & H); [rewrite El; apply in_or_app; right; left; reflexivity|]. lia. }
    split; [split; [|exact I]|split; [lia|]].
    + split; [exact Hne|]. split; [exact Hs|]. split.
      * intros e He. destruct (Hsd e He) as (A & B & C). split; [exact A|]. split; [exact B|].
        specialize (Hle e He). lia.
      * intros i Hi Hn. apply Hc; [lia | exact Hn].
    + intros i Hi. destruct (is_normal (clog i)) eqn:Hn; [|reflexivity].
      assert (In (clog i) acc) by (apply Hc; [lia | exact Hn]).
      specialize (Hle _ H). rewrite clog_idx in Hle. lia.
Qed.

Lemma ace_from_ok n : forall a acc p,
  acc_ok p a acc ->
  let calls := applyCommittedEntries_from (centries a n) acc in
  calls_ok p calls
  /\ p <= calls_end p calls <= a + N.of_nat n
  /\ clean (calls_end p calls) (a + N.of_nat n).
Proof.
  induction n as [|n IH]; intros a acc p Hacc; cbn zeta.
  - rewrite centries_0. cbn [applyCommittedEntries_from].
    replace (a + N.of_nat 0) with a by lia. apply acc_ok_flush. exact Hacc.
  - rewrite centries_S. cbn [applyCommittedEntries_from].
    replace (a + N.of_nat (S n)) with ((a + 1) + N.of_nat n) by lia.
    destruct Hacc as (Hpa & Hs & Hsd & Hc).
    destruct (e_kind (clog (a + 1))) eqn:K.
    + (* a command: joins the batch *)
      assert (Hn : is_normal (clog (a + 1)) = true) by (unfold is_normal; rewrite K; reflexivity).
      apply IH. split; [lia|]. split; [|split].
      * apply sorted_snoc; [exact Hs|].
        intros x Hx. destruct (Hsd x Hx) as (_ & _ & H). rewrite clog_idx. lia.
      * apply sound_app; [apply (sound_weaken _ _ _ _ _ Hsd); lia|].
        intros e [<-|[]]. rewrite clog_idx. split; [reflexivity|]. split; [exact Hn | lia].
      * apply (complete_app _ _ _ a); [exact Hc|]. intros i Hi _. replace i with (a + 1) by lia. left. reflexivity.
    + (* an empty entry: skipped, the batch stays open *)
      assert (Hn : is_normal (clog (a + 1)) = false) by (unfold is_normal; rewrite K; reflexivity).
      apply IH. split; [lia|]. split; [exact Hs|]. split; [apply (sound_weaken _ _ _ _ _ Hsd); lia|].
      apply (complete_extend _ _ a); [exact Hc | apply clean_one, Hn].
    + (* a configuration change: flush, then start again *)
      assert (Hn : is_normal (clog (a + 1)) = false) by (unfold is_normal; rewrite K; reflexivity).
      destruct (acc_ok_flush p a acc) as (F1 & F2 & F3); [exact (conj Hpa (conj Hs (conj Hsd Hc)))|].
      set (q := calls_end p (flushBatch acc)) in *.
      destruct (IH (a + 1) [] q) as (G1 & G2 & G3).
      { split; [lia|]. split; [constructor|]. split; [intros e []|].
        apply complete_nil, (clean_trans _ a); [exact F3 | apply clean_one, Hn]. }
      rewrite calls_ok_app, calls_end_app. fold q.
      split; [split; assumption|]. split; [lia | exact G3].
Qed.

Lemma ace_ok a n p :
  p <= a -> clean p a ->
  let calls := applyCommittedEntries (centries a n) in
  calls_ok p calls
  /\ p <= calls_end p calls <= a + N.of_nat n
  /\ clean (calls_end p calls) (a + N.of_nat n).
Proof.
  intros Hpa Hcl. unfold applyCommittedEntries. apply ace_from_ok.
  split; [exact Hpa|]. split; [constructor|]. split; [intros e [] | apply complete_nil, Hcl].
Qed.

Lemma ace_from_concat l : forall acc,
  concat (applyCommittedEntries_from l acc) = acc ++ filter is_normal l.
Proof.
  induction l as [|e l IH]; intro acc; cbn [applyCommittedEntries_from filter].
  - destruct acc; cbn; [reflexivity | rewrite !app_nil_r; reflexivity].
  - unfold is_normal at 1. destruct (e_kind e).
    + rewrite IH, <- app_assoc. reflexivity.
    + apply IH.
    + rewrite concat_app, IH. destruct acc; cbn; [reflexivity | rewrite app_nil_r; reflexivity].
Qed.

Lemma ace_concat l : concat (applyCommittedEntries l) = filter is_normal l.
Proof. unfold applyCommittedEntries. rewrite ace_from_concat. reflexivity. Qed.

Lemma clean_weaken p q p' q' : clean p q -> p <= p' -> q' <= q -> clean p' q'.
Proof. intros H A B i Hi. apply H. lia. Qed.

(* a complete, sound history with bound b has no command in (b, p] *)
Lemma sound_complete_clean h b p : sound h 0 b -> complete h 0 p -> clean b p.
Proof.
  intros Hs Hc i Hi. destruct (is_normal (clog i)) eqn:Hn; [|reflexivity].
  assert (In (clog i) h) by (apply Hc; [lia | exact Hn]).
  destruct (Hs _ H) as (_ & _ & B). rewrite clog_idx in B. lia.
Qed.

End CLog.

Lemma lastApplied_app l1 l2 d : lastApplied (l1 ++ l2) d = lastApplied l2 (lastApplied l1 d).
Proof.
  destruct l2 as [|x l2]; [rewrite app_nil_r; reflexivity|].
  assert (Hne : x :: l2 <> []) by congruence.
  destruct (exists_last Hne) as (l' & e & ->). rewrite app_assoc, !lastApplied_snoc. reflexivity.
Qed.

Lemma applied_after_concat q a : applied_after q a = lastApplied (concat (map t_ents q)) a.
Proof.
  unfold applied_after. revert a. induction q as [|t q IH]; intro a; cbn [fold_left map concat]; [reflexivity|].
  rewrite IH, lastApplied_app. reflexivity.
Qed.
