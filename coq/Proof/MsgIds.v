(* Proof/MsgIds.v — invariant of the allocator transition system over ALL
   interleavings of its atomic steps and ALL generator outputs ([inv_run]), and
   what it gives on the log of completed calls: [all_pairs_ok_run] / [pair_ok_run]
   (the monitor's pair check), [completion_order], [floor_step]. *)
From WK Require Import Base.Base Model.MsgIds.
Open Scope N_scope.

(* the value a completed call pins below later ids; a rejected SetFloor pins nothing *)
Definition ret_val (r : ret) : N :=
  match r with RNext id => id | RSetOk f => f | RSetErr _ => 0 end.

Fixpoint bound (l : list done) : N :=
  match l with [] => 0 | d :: r => N.max (ret_val (d_ret d)) (bound r) end.

(* newest first: an id exceeds the value of everything completed before it; end stamps
   do not increase towards the tail *)
Fixpoint log_wf (l : list done) : Prop :=
  match l with
  | [] => True
  | d :: r =>
      (match d_ret d with RNext id => bound r < id | _ => True end)
      /\ (forall d', In d' r -> d_end d' <= d_end d)
      /\ d_start d <= d_end d
      /\ log_wf r
  end.

(* a thread between Load and CAS holds a loaded floor value ([f0], [cur]) that is <= the
   current floor, which only grows, and a generated candidate above it; so a CAS that
   succeeds ([floor = f0]) raises the floor strictly, and the new id exceeds
   [bound log <= floor] *)
Definition pc_ok (fl nw : N) (gs : list N) (p : pc) : Prop :=
  match p with
  | Idle => True
  | NextGen st => st <= nw
  | NextLoad st raw => st <= nw /\ In raw gs
  | NextCas st raw f0 => st <= nw /\ In raw gs /\ f0 < raw /\ f0 <= fl
  | SfLoad0 st f => st <= nw
  | SfGen st f => st <= nw
  | SfLoad st f probe => st <= nw /\ In probe gs /\ f < probe
  | SfCas st f probe cur => st <= nw /\ In probe gs /\ f < probe /\ cur < probe /\ cur <= fl
  end.

Record Inv (s : state) : Prop := {
  inv_wf : log_wf (log s);
  inv_bound : bound (log s) <= floor s;
  inv_end : forall d, In d (log s) -> d_end d <= now s;
  inv_pcs : Forall (pc_ok (floor s) (now s) (gens s)) (pcs s);
  inv_stored : incl (stored s) (gens s);
  inv_floor_gen : floor s = 0 \/ In (floor s) (gens s) }.

Lemma Forall_pc_mono fl fl' nw nw' gs gs' l :
  fl <= fl' -> nw <= nw' -> incl gs gs' ->
  Forall (pc_ok fl nw gs) l -> Forall (pc_ok fl' nw' gs') l.
Proof.
  intros Hf Hn Hg. apply Forall_impl. intros p. destruct p; cbn [pc_ok]; intros H;
    repeat match goal with H : _ /\ _ |- _ => destruct H end;
    repeat split; try (apply Hg; assumption); try lia.
Qed.

Lemma Forall_set_nth {A} (P : A -> Prop) d x : P d -> P x ->
  forall t l, Forall P l -> Forall P (set_nth t x d l).
Proof.
  intros Hd Hx. induction t as [|t IH]; intros [|y r] H; cbn [set_nth].
  - constructor; [exact Hx|constructor].
  - inversion H; subst. constructor; assumption.
  - constructor; [exact Hd|]. apply IH. constructor.
  - inversion H; subst. constructor; [assumption|]. apply IH. assumption.
Qed.

Lemma get_pc_ok s t : Forall (pc_ok (floor s) (now s) (gens s)) (pcs s) ->
  pc_ok (floor s) (now s) (gens s) (get_pc s t).
Proof.
  intro H. unfold get_pc. destruct (nth_in_or_default t (pcs s) Idle) as [Hin | ->].
  - rewrite Forall_forall in H. apply H. exact Hin.
  - exact I.
Qed.

Lemma bound_ge l d : In d l -> ret_val (d_ret d) <= bound l.
Proof.
  induction l as [|x r IH]; intros Hin; [destruct Hin|].
  cbn [bound]. destruct Hin as [-> | Hin]; [lia|]. specialize (IH Hin). lia.
Qed.

Lemma inv_init : Inv init.
Proof.
  constructor; cbn; auto; try lia; try (intros ? []).
Qed.

Lemma inv_tick s : Inv s -> Inv (tick s).
Proof.
  intros [H1 H2 H3 H4 H5 H6]. constructor; cbn; auto.
  - intros d Hd. specialize (H3 d Hd). lia.
  - eapply Forall_pc_mono; [| | |exact H4]; try lia. apply incl_refl.
Qed.

Lemma inv_with_pc s t p : Inv s -> pc_ok (floor s) (now s) (gens s) p -> Inv (with_pc s t p).
Proof.
  intros [H1 H2 H3 H4 H5 H6] Hp. constructor; cbn; auto.
  apply Forall_set_nth; [exact I|exact Hp|exact H4].
Qed.

Lemma inv_finish s t st r :
  Inv s -> st <= now s ->
  (match r with RNext id => bound (log s) < id | _ => True end) ->
  ret_val r <= floor s ->
  Inv (finish s t st r).
Proof.
  intros [H1 H2 H3 H4 H5 H6] Hst Hr Hv.
  constructor; cbn [finish log floor now pcs gens stored]; auto.
  - (* the new head ends now, and [inv_end] puts every earlier end at or before now *)
    cbn [log_wf d_ret d_end d_start]. repeat split; auto.
  - cbn [bound d_ret]. lia.
  - intros d [<- | Hd]; cbn [d_end]; [lia|apply H3; exact Hd].
  - apply Forall_set_nth; [exact I|exact I|exact H4].
Qed.

Lemma inv_gen s g : Inv s -> Inv (St (floor s) (now s) (pcs s) (log s) (g :: gens s) (stored s)).
Proof.
  intros [H1 H2 H3 H4 H5 H6]. constructor; cbn; auto.
  - eapply Forall_pc_mono; [| | |exact H4]; try lia. apply incl_tl, incl_refl.
  - apply incl_tl. exact H5.
  - destruct H6 as [H6|H6]; [left|right; right]; exact H6.
Qed.

(* a successful CAS: floor := v where v was generated and v > floor *)
Lemma inv_cas s v : Inv s -> floor s < v -> In v (gens s) ->
  Inv (St v (now s) (pcs s) (log s) (gens s) (v :: stored s)).
Proof.
  intros [H1 H2 H3 H4 H5 H6] Hv Hg. constructor; cbn; auto.
  - lia.
  - eapply Forall_pc_mono; [| | |exact H4]; try lia. apply incl_refl.
  - intros x [<- | Hx]; [exact Hg|apply H5; exact Hx].
Qed.

Lemma inv_thread_step s t g : Inv s -> Inv (thread_step s t g).
Proof.
  intros HI. pose proof (get_pc_ok s t (inv_pcs s HI)) as Hp.
  unfold thread_step. destruct (get_pc s t) as [|st|st raw|st raw f0|st f|st f|st f probe|st f probe cur];
    cbn [pc_ok] in Hp.
  - exact HI.
  - (* NextGen: the generated value enters gens *)
    apply inv_with_pc; [apply inv_gen; exact HI|]. cbn. split; [exact Hp|left; reflexivity].
  - (* NextLoad: retry, or keep the floor just read, which is below raw *)
    destruct Hp as [Hst Hin]. destruct (N.leb_spec raw (floor s)) as [Hle|Hgt].
    + apply inv_with_pc; [exact HI|]. cbn. exact Hst.
    + apply inv_with_pc; [exact HI|]. cbn. repeat split; try assumption; lia.
  - (* NextCas: on success the floor rises to raw, above bound log *)
    destruct Hp as (Hst & Hin & Hlt & Hle). destruct (N.eqb_spec (floor s) f0) as [He|Hne].
    + assert (HI' : Inv (St raw (now s) (pcs s) (log s) (gens s) (raw :: stored s))).
      { apply inv_cas; [exact HI| lia |exact Hin]. }
      apply inv_finish; [exact HI'| exact Hst | | ].
      * cbn [log]. pose proof (inv_bound s HI). lia.
      * cbn. lia.
    + apply inv_with_pc; [exact HI|]. cbn. exact Hst.
  - (* SfLoad0: f is covered already, or a probe is needed *)
    destruct (N.leb_spec f (floor s)) as [Hle|Hgt].
    + apply inv_finish; [exact HI|exact Hp|exact I|cbn; exact Hle].
    + apply inv_with_pc; [exact HI|]. cbn. exact Hp.
  - (* SfGen: the probe enters gens; rejected if not above f *)
    pose proof (inv_gen s g HI) as HI'.
    destruct (N.leb_spec g f) as [Hle|Hgt].
    + apply inv_finish; [exact HI'|exact Hp|exact I|cbn; lia].
    + apply inv_with_pc; [exact HI'|]. cbn. repeat split; [exact Hp|left; reflexivity|exact Hgt].
  - (* SfLoad: the floor has passed the probe, or keep the floor just read *)
    destruct Hp as (Hst & Hin & Hlt). destruct (N.leb_spec probe (floor s)) as [Hle|Hgt].
    + apply inv_finish; [exact HI|exact Hst|exact I|cbn; lia].
    + apply inv_with_pc; [exact HI|]. cbn. repeat split; try assumption; lia.
  - (* SfCas: on success the floor rises to the probe, above f *)
    destruct Hp as (Hst & Hin & Hf & Hc & Hle). destruct (N.eqb_spec (floor s) cur) as [He|Hne].
    + assert (HI' : Inv (St probe (now s) (pcs s) (log s) (gens s) (probe :: stored s))).
      { apply inv_cas; [exact HI|lia|exact Hin]. }
      apply inv_finish; [exact HI'|exact Hst|exact I|cbn; lia].
    + apply inv_with_pc; [exact HI|]. cbn. repeat split; assumption.
Qed.

Lemma inv_step s e : Inv s -> Inv (step s e).
Proof.
  intro HI. unfold step. pose proof (inv_tick s HI) as HT.
  destruct e as [t|t f|t g]; [| |apply inv_thread_step; exact HT].
  (* a call is accepted by an idle thread only, which starts at the current time *)
  all: destruct (get_pc (tick s) t); try exact HT; apply inv_with_pc; [exact HT|]; cbn; lia.
Qed.

Lemma inv_fold evs : forall s, Inv s -> Inv (fold_left step evs s).
Proof.
  induction evs as [|e evs IH]; intros s HI; [exact HI|].
  cbn [fold_left]. apply IH. apply inv_step. exact HI.
Qed.

Theorem inv_run evs : Inv (run evs).
Proof. apply inv_fold. exact inv_init. Qed.

Lemma floor_with_pc s t p : floor (with_pc s t p) = floor s.  Proof. reflexivity. Qed.
Lemma floor_finish s t st r : floor (finish s t st r) = floor s.  Proof. reflexivity. Qed.

Lemma floor_thread_step s t g : Inv s ->
  floor (thread_step s t g) = floor s \/ floor s < floor (thread_step s t g).
Proof.
  intros HI. pose proof (get_pc_ok s t (inv_pcs s HI)) as Hp.
  unfold thread_step. destruct (get_pc s t) as [|st|st raw|st raw f0|st f|st f|st f probe|st f probe cur];
    cbn [pc_ok] in Hp; try (left; reflexivity).
  - destruct (raw <=? floor s); left; reflexivity.
  - destruct Hp as (_ & _ & Hlt & _). destruct (N.eqb_spec (floor s) f0) as [He|Hne];
      [right; cbn; lia|left; reflexivity].
  - destruct (f <=? floor s); left; reflexivity.
  - destruct (g <=? f); left; reflexivity.
  - destruct (probe <=? floor s); left; reflexivity.
  - destruct Hp as (_ & _ & _ & Hc & _). destruct (N.eqb_spec (floor s) cur) as [He|Hne];
      [right; cbn; lia|left; reflexivity].
Qed.

Lemma floor_step s e : Inv s -> floor (step s e) = floor s \/ floor s < floor (step s e).
Proof.
  intro HI. unfold step. destruct e as [t|t f|t g]; try (destruct (get_pc (tick s) t); left; reflexivity).
  change (floor s) with (floor (tick s)). apply floor_thread_step. apply inv_tick. exact HI.
Qed.

Lemma log_wf_start_end l b : log_wf l -> In b l -> d_start b <= d_end b.
Proof.
  induction l as [|x r IH]; intros H Hb; [destruct Hb|].
  destruct H as (_ & _ & Hx & Hr). destruct Hb as [-> | Hb]; [exact Hx | exact (IH Hr Hb)].
Qed.

Lemma log_wf_pairs l : log_wf l -> all_pairs_ok l = true.
Proof.
  induction l as [|d r IH]; intro H; [reflexivity|].
  cbn [log_wf] in H. destruct H as (Hnew & Hends & Hse & Hr).
  cbn [all_pairs_ok]. rewrite (IH Hr), andb_true_r. apply forallb_forall. intros b Hb.
  pose proof (bound_ge r b Hb) as Hbb. pose proof (log_wf_start_end r b Hr Hb) as Hsb. specialize (Hends b Hb).
  (* d returned last: it is not before b, and an id it returns is above b's value *)
  unfold pair_ok, before. replace (d_end d <? d_start b) with false by (symmetry; apply N.ltb_ge; lia).
  destruct (d_ret d) as [idd|f|f], (d_ret b) as [idb|f'|f']; cbn [ret_val] in Hbb; try reflexivity.
  - rewrite !(proj2 (N.eqb_neq _ _)) by lia. cbn [negb andb].
    destruct (d_end b <? d_start d); [apply N.ltb_lt; lia | reflexivity].
  - cbn [andb]. destruct (d_end b <? d_start d); [apply N.ltb_lt; lia | reflexivity].
Qed.

Theorem all_pairs_ok_run evs : all_pairs_ok (log (run evs)) = true.
Proof. apply log_wf_pairs. apply inv_wf. apply inv_run. Qed.

(* completion order: the value of every completed call (an id, an accepted floor) is below
   every id issued after it *)
Lemma log_wf_order l1 b l2 a idb :
  log_wf (l1 ++ b :: l2) -> In a l2 -> d_ret b = RNext idb -> ret_val (d_ret a) < idb.
Proof.
  induction l1 as [|x l1 IH]; cbn [app log_wf]; intros H Ha Eb; [|apply IH; tauto].
  destruct H as (Hnew & _). rewrite Eb in Hnew. pose proof (bound_ge l2 a Ha). lia.
Qed.

(* [all_pairs_ok] is [pair_ok] for every ordered pair of distinct positions *)
Lemma pairs_ok_spec l : all_pairs_ok l = true ->
  forall i j a b, i <> j -> nth_error l i = Some a -> nth_error l j = Some b -> pair_ok a b = true.
Proof.
  induction l as [|x r IH]; intros H i j a b Hij Hi Hj.
  - destruct i; discriminate.
  - cbn [all_pairs_ok] in H. apply andb_true_iff in H. destruct H as [Hx Hr].
    rewrite forallb_forall in Hx.
    destruct i as [|i], j as [|j]; cbn [nth_error] in Hi, Hj.
    + congruence.
    + inversion Hi; subst. apply nth_error_In in Hj. specialize (Hx b Hj).
      apply andb_true_iff in Hx. apply Hx.
    + inversion Hj; subst. apply nth_error_In in Hi. specialize (Hx a Hi).
      apply andb_true_iff in Hx. apply Hx.
    + apply (IH Hr i j a b); [intro E; apply Hij; rewrite E; reflexivity|exact Hi|exact Hj].
Qed.

Lemma model_satisfies_monitor evs sq fls : C30_monitor (C30Case sq (log (run evs)) fls) = 0.
Proof. unfold C30_monitor. cbn [c30_ops]. rewrite all_pairs_ok_run. reflexivity. Qed.

Lemma completion_order evs l1 b l2 a idb :
  log (run evs) = l1 ++ b :: l2 -> In a l2 -> d_ret b = RNext idb -> ret_val (d_ret a) < idb.
Proof. intro E. pose proof (inv_wf _ (inv_run evs)) as H. rewrite E in H. exact (log_wf_order l1 b l2 a idb H). Qed.

Lemma pair_ok_run evs i j a b :
  i <> j -> nth_error (log (run evs)) i = Some a -> nth_error (log (run evs)) j = Some b ->
  pair_ok a b = true.
Proof. exact (pairs_ok_spec _ (all_pairs_ok_run evs) i j a b). Qed.

Lemma run_snoc evs e : run (evs ++ [e]) = step (run evs) e.
Proof. unfold run. rewrite fold_left_app. reflexivity. Qed.
