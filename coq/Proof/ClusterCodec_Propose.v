(* Proof/ClusterCodec_Propose.v — the fixed-width envelopes of pkg/cluster/propose/codec.go
   and pkg/cluster/net/codec.go (direct Gallina, direct proofs): DecodePayload / CheckHeader
   invert their encoders and reject short input; a payload envelope cut after 3 bytes or more
   is again an envelope; the version 3 forward frame round-trips and every strict prefix of
   it is rejected; a version 1 example. *)
From WK Require Import Base.Base Base.Bytes Gen.Consts_C27 Model.ClusterCodec_Propose Proof.ClusterCodecBase.
From Coq Require Import ZifyBool ZifyN ZifyNat.
Open Scope N_scope.

Theorem payload_roundtrip : forall slot cmd,
  slot < 65536 -> DecodePayload (EncodePayload slot cmd) = Some (slot, cmd).
Proof.
  intros slot cmd H. destruct (put_u16_shape slot H) as (a & b & E & G).
  unfold EncodePayload, DecodePayload. rewrite E. cbn [app length Nat.ltb Nat.leb at_ nth].
  rewrite N.eqb_refl. cbn [negb orb sl skipn firstn Nat.sub]. rewrite G. reflexivity.
Qed.

Theorem payload_short_rejected : forall p, (length p < 3)%nat -> DecodePayload p = None.
Proof.
  intros p H. unfold DecodePayload. assert (E : Nat.ltb (length p) 3 = true) by (apply Nat.ltb_lt; exact H).
  rewrite E. reflexivity.
Qed.

(* a prefix of at least 3 bytes of an envelope is the envelope of a prefix of the command:
   the envelope carries its command to the end of the input, no decoder could tell *)
Theorem payload_prefix : forall slot cmd k,
  firstn (3 + k) (EncodePayload slot cmd) = EncodePayload slot (firstn k cmd).
Proof.
  intros slot cmd k. unfold EncodePayload, put_u16. pose proof (be_put_length 2 slot) as L.
  destruct (be_put 2 slot) as [|a [|b [|c l]]]; try discriminate L. reflexivity.
Qed.

Lemma forward_encoding r :
  forward_wf r = true ->
  exists a b c d e f g h i j,
    EncodeForwardRequest r =
      Some ([forwardVersion; fw_class r; if fw_want_result r then forwardFlagWantResult else 0;
             a; b; c; d; e; f; g; h; i; j] ++ fw_payload r)
    /\ be_get [a; b; c; d] = fw_slot_id r /\ be_get [e; f] = fw_hash_slot r
    /\ be_get [g; h; i; j] = N.of_nat (length (fw_payload r)).
Proof.
  unfold forward_wf, u32max1. intro W.
  repeat (apply andb_true_iff in W; destruct W as [W ?]).
  destruct (put_u32_shape (fw_slot_id r)) as (a & b & c & d & E1 & G1); [lia|].
  destruct (put_u16_shape (fw_hash_slot r)) as (e & f & E2 & G2); [lia|].
  destruct (put_u32_shape (N.of_nat (length (fw_payload r)))) as (g & h & i & j & E3 & G3); [lia|].
  exists a, b, c, d, e, f, g, h, i, j. unfold EncodeForwardRequest, u32max1.
  assert (Z1 : (fw_slot_id r =? 0) = false) by lia.
  assert (Z2 : (N.of_nat (length (fw_payload r)) =? 0) = false) by lia.
  rewrite Z1, Z2. cbn [orb].
  rewrite N.mod_small by lia. rewrite E1, E2, E3.
  assert (Ec : normalizeProposalClass (fw_class r) = fw_class r) by (apply N.eqb_eq; assumption).
  rewrite Ec. repeat split; assumption.
Qed.

(* the decoder on a version 3 frame: thirteen header bytes, then the payload *)
Lemma decode_forward_v3 cl fl a b c d e f g h i j rest :
  DecodeForwardRequest ([forwardVersion; cl; fl; a; b; c; d; e; f; g; h; i; j] ++ rest) =
  if negb (be_get [g; h; i; j] =? N.of_nat (length rest)) then None
  else Some (ForwardRequest (be_get [a; b; c; d]) (be_get [e; f]) (normalizeProposalClass cl)
                            (flag_set fl forwardFlagWantResult) rest).
Proof. unfold DecodeForwardRequest. cbn [app length Nat.sub]. rewrite Nat.sub_0_r. reflexivity. Qed.

Theorem forward_roundtrip : forall r,
  forward_wf r = true ->
  exists e, EncodeForwardRequest r = Some e /\ DecodeForwardRequest e = Some r.
Proof.
  intros r W. destruct (forward_encoding r W) as (a & b & c & d & e & f & g & h & i & j & E & G1 & G2 & G3).
  eexists. split; [exact E|]. rewrite decode_forward_v3, G1, G2, G3, N.eqb_refl.
  unfold forward_wf in W. repeat (apply andb_true_iff in W; destruct W as [W ?]).
  replace (normalizeProposalClass (fw_class r)) with (fw_class r) by (symmetry; apply N.eqb_eq; assumption).
  destruct r as [? ? ? [] ?]; reflexivity.
Qed.

(* every strict prefix of an encoded forward request is rejected: it stops inside the
   header, or the declared payload length no longer matches what is left *)
Theorem forward_truncation_rejected : forall r e p s,
  forward_wf r = true -> EncodeForwardRequest r = Some e ->
  e = p ++ s -> s <> [] -> DecodeForwardRequest p = None.
Proof.
  intros r e p s W He Hp Hs.
  destruct (forward_encoding r W) as (a & b & c & d & e1 & f & g & h & i & j & E & _ & _ & G3).
  rewrite E in He. injection He as <-.
  assert (Cut : forall l, fw_payload r = l ++ s ->
                  (be_get [g; h; i; j] =? N.of_nat (length l)) = false).
  { intros l Hl. rewrite G3, Hl, app_length. destruct s; [contradiction|]. cbn [length]. lia. }
  symmetry in Hp.
  apply (app_eq_app p s [forwardVersion; fw_class r; if fw_want_result r then forwardFlagWantResult else 0;
                         a; b; c; d; e1; f; g; h; i; j]) in Hp.
  destruct Hp as (l & [[-> Hl]|[Hh ->]]).
  - rewrite decode_forward_v3, (Cut l Hl). reflexivity.
  - destruct p as [|v p]; [reflexivity|]. injection Hh as <- Hh.
    do 12 (destruct p as [|? p]; [reflexivity|injection Hh as <- Hh]).
    symmetry in Hh. apply app_eq_nil in Hh. destruct Hh as [-> ->].
    apply (eq_trans (decode_forward_v3 _ _ _ _ _ _ _ _ _ _ _ _ [])). rewrite (Cut [] eq_refl). reflexivity.
Qed.

Theorem header_roundtrip : forall version kind payload,
  CheckHeader (PutHeader [] version kind ++ payload) version kind = Some payload.
Proof.
  intros. unfold CheckHeader, PutHeader. cbn [app length Nat.ltb Nat.leb at_ nth].
  rewrite !N.eqb_refl. reflexivity.
Qed.

Theorem header_short_rejected : forall p v k, (length p < 2)%nat -> CheckHeader p v k = None.
Proof.
  intros p v k H. unfold CheckHeader. assert (E : Nat.ltb (length p) 2 = true) by (apply Nat.ltb_lt; exact H).
  rewrite E. reflexivity.
Qed.

Theorem header_mismatch_rejected : forall v k v' k' payload,
  (v =? v') && (k =? k') = false -> CheckHeader (PutHeader [] v k ++ payload) v' k' = None.
Proof.
  intros v k v' k' payload H. unfold CheckHeader, PutHeader. cbn [app length Nat.ltb Nat.leb at_ nth].
  destruct (v =? v'); [|reflexivity]. destruct (k =? k'); [discriminate|reflexivity].
Qed.

(* a legacy (version 1) frame whose declared length exceeds what follows is rejected;
   complete, it decodes with the foreground class *)
Example forward_legacy_example :
  DecodeForwardRequest (hx "010000000700090000000268") = None
  /\ DecodeForwardRequest (hx "01000000070009000000026869")
     = Some (ForwardRequest 7 9 ProposalClassForeground false (hx "6869")).
Proof. split; vm_compute; reflexivity. Qed.
