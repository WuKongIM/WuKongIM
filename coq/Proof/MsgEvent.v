(* Proof/MsgEvent.v — the durable message event projection: reducer and tables.
   The three tables are maps keyed by (hash slot, message[, lane | event id]):
   [get_*_put] reads them back after a write.  One append is one of four cases
   ([append_cases]); the statements about single appends and about histories
   ([run_appends]) follow from these two.  What an append does to a payload is
   not in [append_cases]: such facts go back to the reducer. *)
From WK Require Import Base.Base Base.Lists.
From WK Require Import Gen.Consts_C40 Model.MsgEvent.
Open Scope N_scope.

(* facts about today's constants, re-checked when Gen/Consts_C40.v changes *)

Lemma terminal_open : isMessageEventTerminal EventStatusOpen = false.
Proof. vm_compute. reflexivity. Qed.
Lemma terminal_closed : isMessageEventTerminal EventStatusClosed = true.
Proof. vm_compute. reflexivity. Qed.
Lemma terminal_error : isMessageEventTerminal EventStatusError = true.
Proof. vm_compute. reflexivity. Qed.
Lemma terminal_cancelled : isMessageEventTerminal EventStatusCancelled = true.
Proof. vm_compute. reflexivity. Qed.

Lemma kind_finish : event_kind EventTypeStreamFinish = Some KFinish.
Proof. vm_compute. reflexivity. Qed.

Lemma kind_close : event_kind EventTypeStreamClose = Some KClose.
Proof. vm_compute. reflexivity. Qed.

(* [event_kind] tests the finish string last: by [kind_finish] none of the six strings before it equals it *)
Lemma finish_eqb_kind et : bytes_eqb et EventTypeStreamFinish = true -> event_kind et = Some KFinish.
Proof. intro H. apply bytes_eqb_eq in H. subst. exact kind_finish. Qed.

Lemma kind_finish_eqb et : event_kind et = Some KFinish -> bytes_eqb et EventTypeStreamFinish = true.
Proof.
  unfold event_kind.
  destruct (bytes_eqb et EventTypeStreamOpen); [discriminate|].
  destruct (bytes_eqb et EventTypeStreamDelta); [discriminate|].
  destruct (bytes_eqb et EventTypeStreamClose); [discriminate|].
  destruct (bytes_eqb et EventTypeStreamError); [discriminate|].
  destruct (bytes_eqb et EventTypeStreamCancel); [discriminate|].
  destruct (bytes_eqb et EventTypeStreamSnapshot); [discriminate|].
  destruct (bytes_eqb et EventTypeStreamFinish); [reflexivity|discriminate].
Qed.

Lemma bytes_eqb_neq a b : bytes_eqb a b = false -> a <> b.
Proof. apply Base.Lists.bytes_eqb_neq. Qed.

Definition msg_of (e : Event) := (e_channel e, e_ctype e, e_msgno e).

Definition lane_of (s : State) := (st_channel s, st_ctype s, st_msgno s, st_key s).
Definition cursor_msg (c : Cursor) := (cu_channel c, cu_ctype c, cu_msgno c).

Definition reduce_noop_cond (state : State) (stateExists : bool) (e : Event) : bool :=
  stateExists && (bytes_eqb (st_last_id state) (e_id e) || isMessageEventTerminal (st_status state)).

Lemma reduce_noop state ex cursor cex e :
  reduce_noop_cond state ex e = true ->
  reduceMessageEventAppend state ex cursor cex e = (state, cursor, false, messageEventAppendResult e state).
Proof. unfold reduce_noop_cond, reduceMessageEventAppend. intro H. rewrite H. reflexivity. Qed.

(* what an applying call returns: the row keys are those of the rows passed in
   (of the event, for a row that did not exist) *)
Record applied_shape (state : State) (ex : bool) (cursor : Cursor) (cex : bool) (e : Event)
       (st' : State) (cu' : Cursor) (res : Result) : Prop := {
  as_res : res = messageEventAppendResult e st';
  as_cursor : cu_seq cu' = wrap_succ (if cex then cu_seq cursor else 0);
  as_seq : st_seq st' = cu_seq cu';
  as_last_id : st_last_id st' = e_id e;
  as_lane : lane_of st' = (if ex then lane_of state else (msg_of e, e_key e));
  as_cursor_msg : cursor_msg cu' = (if cex then cursor_msg cursor else msg_of e);
  as_terminal : isMessageEventTerminal (st_status st') = isMessageEventTerminalEvent (e_etype e)
}.

Lemma reduce_apply state ex cursor cex e :
  reduce_noop_cond state ex e = false ->
  exists st' cu' res,
    reduceMessageEventAppend state ex cursor cex e = (st', cu', true, res)
    /\ applied_shape state ex cursor cex e st' cu' res.
Proof.
  unfold reduce_noop_cond, reduceMessageEventAppend. intro H. rewrite H.
  assert (Hnt : isMessageEventTerminal
                  (st_status (if ex then state
                              else mkState (e_channel e) (e_ctype e) (e_msgno e) (e_key e) EventStatusOpen 0 [] [] [] 0%Z snap_empty 0 [] 0%Z)) = false).
  { destruct ex; [cbn [andb] in H; apply orb_false_iff in H; apply H | exact terminal_open]. }
  destruct (match event_kind (e_etype e) with Some k => _ | None => _ end) as [[[status snap] reason] errtext] eqn:M.
  do 3 eexists. split; [reflexivity|].
  constructor; cbn [st_seq st_last_id st_status cu_seq];
    [reflexivity | destruct cex; reflexivity | reflexivity | reflexivity
     | destruct ex; reflexivity | destruct cex; reflexivity |].
  (* only the new status depends on the kind of event *)
  unfold isMessageEventTerminalEvent.
  destruct (event_kind (e_etype e)) as [[]|]; injection M as <- _ _ _;
    first [exact Hnt | exact terminal_open | exact terminal_closed | exact terminal_error | exact terminal_cancelled].
Qed.

Lemma wrap_succ_lt x : x < u64max -> wrap_succ x = x + 1.
Proof. unfold wrap_succ, wrap64, u64max. intro H. apply N.mod_small. lia. Qed.

(* [find], [filter] and [upsert] on any list; in [find_upsert], [P] selects the rows with the
   key of [x], [Q] those with key [k] *)
Lemma find_upsert {A K} (key : A -> K) (P Q : A -> bool) k x l :
  (forall y, P y = true <-> key y = key x) -> (forall y, Q y = true <-> key y = k) ->
  find Q (upsert P x l) = if Q x then Some x else find Q l.
Proof.
  intros HP HQ. induction l as [|y l IH]; cbn [upsert find]; [reflexivity|].
  destruct (P y) eqn:Py; cbn [find].
  - apply HP in Py. replace (Q y) with (Q x); [destruct (Q x); reflexivity|].
    apply eq_true_iff_eq. rewrite !HQ, Py. reflexivity.
  - rewrite IH. destruct (Q y) eqn:Qy, (Q x) eqn:Qx; try reflexivity.
    apply HQ in Qy, Qx. rewrite <- Qx in Qy. apply HP in Qy. congruence.
Qed.

(* looking a key up in a table whose rows went through [f], when the key test does not see [f] *)
Lemma find_mapped {A} (f : A -> A) (P : N * A -> bool) l :
  (forall x, P (fst x, f (snd x)) = P x) ->
  option_map snd (find P (map (fun x => (fst x, f (snd x))) l)) = option_map f (option_map snd (find P l)).
Proof.
  intro H. induction l as [|x l IH]; cbn [map find]; [reflexivity|]. rewrite H. destruct (P x); [reflexivity|exact IH].
Qed.

Lemma upsert_map {A B} (f : A -> B) (P : A -> bool) (P' : B -> bool) x l :
  (forall y, P' (f y) = P y) -> map f (upsert P x l) = upsert P' (f x) (map f l).
Proof.
  intro H. induction l as [|y l IH]; cbn; [reflexivity|]. rewrite H. destruct (P y); cbn; [reflexivity|].
  rewrite IH. reflexivity.
Qed.

Lemma find_filter_none {A} (P Q : A -> bool) l : (forall x, P x = true -> Q x = false) -> find P (filter Q l) = None.
Proof.
  intro H. induction l as [|x l IH]; cbn; [reflexivity|]. destruct (Q x) eqn:Qx; [|exact IH].
  cbn. destruct (P x) eqn:Px; [rewrite (H x Px) in Qx; discriminate | exact IH].
Qed.

Definition state_key (x : N * State) := (fst x, lane_of (snd x)).
Definition cursor_key (x : N * Cursor) := (fst x, cursor_msg (snd x)).
Definition applied_key (x : N * Applied) := (fst x, (ap_channel (snd x), ap_ctype (snd x), ap_msgno (snd x), ap_id (snd x))).

Lemma msg_eqb_iff c1 t1 m1 c2 t2 m2 : msg_eqb c1 t1 m1 c2 t2 m2 = true <-> c1 = c2 /\ t1 = t2 /\ m1 = m2.
Proof.
  unfold msg_eqb. rewrite !andb_true_iff, !bytes_eqb_eq, Z.eqb_eq. tauto.
Qed.

Lemma state_at_iff hs c t m key x : state_at hs c t m key x = true <-> state_key x = (hs, (c, t, m, key)).
Proof.
  unfold state_at, state_key, lane_of. rewrite !andb_true_iff, msg_eqb_iff, bytes_eqb_eq, N.eqb_eq.
  split; [intros ((? & ? & ? & ?) & ?); congruence | intros [= ]; tauto].
Qed.

Lemma cursor_at_iff hs c t m x : cursor_at hs c t m x = true <-> cursor_key x = (hs, (c, t, m)).
Proof.
  unfold cursor_at, cursor_key, cursor_msg. rewrite !andb_true_iff, msg_eqb_iff, N.eqb_eq.
  split; [intros (? & ? & ? & ?); congruence | intros [= ]; tauto].
Qed.

Lemma applied_at_iff hs c t m id x : applied_at hs c t m id x = true <-> applied_key x = (hs, (c, t, m, id)).
Proof.
  unfold applied_at, applied_key. rewrite !andb_true_iff, msg_eqb_iff, bytes_eqb_eq, N.eqb_eq.
  split; [intros ((? & ? & ? & ?) & ?); congruence | intros [= ]; tauto].
Qed.

Lemma get_state_key db hs c t m key s : get_state db hs c t m key = Some s -> lane_of s = (c, t, m, key).
Proof.
  unfold get_state. destruct (find _ _) as [x|] eqn:F; [|discriminate]. intros [= <-].
  apply find_some, proj2, state_at_iff in F. exact (f_equal snd F).
Qed.

Lemma get_cursor_key db hs c t m cu : get_cursor db hs c t m = Some cu -> cursor_msg cu = (c, t, m).
Proof.
  unfold get_cursor. destruct (find _ _) as [x|] eqn:F; [|discriminate]. intros [= <-].
  apply find_some, proj2, cursor_at_iff in F. exact (f_equal snd F).
Qed.

Lemma get_applied_key db hs c t m id a :
  get_applied db hs c t m id = Some a ->
  ap_channel a = c /\ ap_ctype a = t /\ ap_msgno a = m /\ ap_id a = id.
Proof.
  unfold get_applied. destruct (find _ _) as [x|] eqn:F; [|discriminate]. intros [= <-].
  apply find_some, proj2, applied_at_iff in F. injection F. tauto.
Qed.

Lemma get_state_put db hs s cu a hs' c t m key :
  get_state (put_rows db hs s cu a) hs' c t m key =
  if state_at hs' c t m key (hs, s) then Some s else get_state db hs' c t m key.
Proof.
  unfold get_state, put_rows. cbn [db_states].
  rewrite (find_upsert state_key _ _ (hs', (c, t, m, key))) by (intro; apply state_at_iff).
  destruct (state_at hs' c t m key (hs, s)); reflexivity.
Qed.

Lemma get_cursor_put db hs s cu a hs' c t m :
  get_cursor (put_rows db hs s cu a) hs' c t m =
  if cursor_at hs' c t m (hs, cu) then Some cu else get_cursor db hs' c t m.
Proof.
  unfold get_cursor, put_rows. cbn [db_cursors].
  rewrite (find_upsert cursor_key _ _ (hs', (c, t, m))) by (intro; apply cursor_at_iff).
  destruct (cursor_at hs' c t m (hs, cu)); reflexivity.
Qed.

Lemma get_applied_put db hs s cu a hs' c t m id :
  get_applied (put_rows db hs s cu a) hs' c t m id =
  if applied_at hs' c t m id (hs, a) then Some a else get_applied db hs' c t m id.
Proof.
  unfold get_applied, put_rows. cbn [db_applied].
  rewrite (find_upsert applied_key _ _ (hs', (c, t, m, id))) by (intro; apply applied_at_iff).
  destruct (applied_at hs' c t m id (hs, a)); reflexivity.
Qed.

Lemma state_at_row hs s c t m key : lane_of s = (c, t, m, key) -> state_at hs c t m key (hs, s) = true.
Proof. intro H. apply state_at_iff. unfold state_key. cbn [fst snd]. rewrite H. reflexivity. Qed.

Lemma cursor_at_row hs cu c t m : cursor_msg cu = (c, t, m) -> cursor_at hs c t m (hs, cu) = true.
Proof. intro H. apply cursor_at_iff. unfold cursor_key. cbn [fst snd]. rewrite H. reflexivity. Qed.

Definition cursor_seq (db : DB) hs c t m : N :=
  match get_cursor db hs c t m with Some cu => cu_seq cu | None => 0 end.

(* what an applied event finds and the rows it writes *)
Record applied_rows (db : DB) (hs : N) (ne : Event) (st' : State) (cu' : Cursor) : Prop := {
  ar_fresh_id : get_applied db hs (e_channel ne) (e_ctype ne) (e_msgno ne) (e_id ne) = None;
  ar_lane_open :
    match get_state db hs (e_channel ne) (e_ctype ne) (e_msgno ne) (e_key ne) with
    | Some s => (bytes_eqb (st_last_id s) (e_id ne) || isMessageEventTerminal (st_status s)) = false
    | None => True end;
  ar_lane : lane_of st' = (msg_of ne, e_key ne);
  ar_cursor_msg : cursor_msg cu' = msg_of ne;
  ar_last_id : st_last_id st' = e_id ne;
  ar_cursor : cu_seq cu' = wrap_succ (cursor_seq db hs (e_channel ne) (e_ctype ne) (e_msgno ne));
  ar_seq : st_seq st' = cu_seq cu';
  ar_terminal : isMessageEventTerminal (st_status st') = isMessageEventTerminalEvent (e_etype ne)
}.

Inductive append_case (db : DB) (hs : N) (e : Event) : (Err * option Result) * DB -> Prop :=
| AcInvalid :
    normalizeMessageEventAppend e = None ->
    append_case db hs e ((EInvalidArgument, None), db)
| AcReplay ne a :
    normalizeMessageEventAppend e = Some ne ->
    get_applied db hs (e_channel ne) (e_ctype ne) (e_msgno ne) (e_id ne) = Some a ->
    append_case db hs e
      ((ENone, Some (messageEventAppendResultFromApplied ne a
                      (opt_or (get_state db hs (e_channel ne) (e_ctype ne) (e_msgno ne) (ap_key a)) state_zero)
                      (is_some (get_state db hs (e_channel ne) (e_ctype ne) (e_msgno ne) (ap_key a))))), db)
| AcFinalized ne s :
    normalizeMessageEventAppend e = Some ne ->
    get_applied db hs (e_channel ne) (e_ctype ne) (e_msgno ne) (e_id ne) = None ->
    get_state db hs (e_channel ne) (e_ctype ne) (e_msgno ne) (e_key ne) = Some s ->
    (bytes_eqb (st_last_id s) (e_id ne) || isMessageEventTerminal (st_status s)) = true ->
    append_case db hs e ((ENone, Some (messageEventAppendResult ne s)), db)
| AcApplied ne st' cu' :
    normalizeMessageEventAppend e = Some ne -> applied_rows db hs ne st' cu' ->
    append_case db hs e
      ((ENone, Some (messageEventAppendResult ne st')),
       put_rows db hs st' cu' (messageEventAppliedFromResult ne (messageEventAppendResult ne st'))).

(* the rows read carry the key they were read under, so the reducer's rows carry the event's keys *)
Lemma reduce_apply_rows db hs ne :
  get_applied db hs (e_channel ne) (e_ctype ne) (e_msgno ne) (e_id ne) = None ->
  let st := get_state db hs (e_channel ne) (e_ctype ne) (e_msgno ne) (e_key ne) in
  let cu := get_cursor db hs (e_channel ne) (e_ctype ne) (e_msgno ne) in
  reduce_noop_cond (opt_or st state_zero) (is_some st) ne = false ->
  exists st' cu',
    reduceMessageEventAppend (opt_or st state_zero) (is_some st) (opt_or cu cursor_zero) (is_some cu) ne
    = (st', cu', true, messageEventAppendResult ne st')
    /\ applied_rows db hs ne st' cu'.
Proof.
  intros Ga st cu C.
  destruct (reduce_apply _ _ (opt_or cu cursor_zero) (is_some cu) _ C) as (st' & cu' & res & E & [-> Hq Hs Hi Hl Hc Ht]).
  exists st', cu'. split; [exact E|]. constructor; try assumption.
  - fold st. destruct st; [exact C | exact I].
  - rewrite Hl. destruct st as [s|] eqn:Gs; [exact (get_state_key _ _ _ _ _ _ _ Gs) | reflexivity].
  - rewrite Hc. destruct cu as [c|] eqn:Gc; [exact (get_cursor_key _ _ _ _ _ _ Gc) | reflexivity].
  - rewrite Hq. unfold cursor_seq. fold cu. destruct cu; reflexivity.
Qed.

Lemma append_cases db hs e : append_case db hs e (AppendMessageEvent db hs e).
Proof.
  unfold AppendMessageEvent.
  destruct (normalizeMessageEventAppend e) as [ne|] eqn:Nm; [|apply AcInvalid; assumption].
  destruct (get_applied db hs (e_channel ne) (e_ctype ne) (e_msgno ne) (e_id ne)) as [a|] eqn:Ga.
  { eapply AcReplay; eassumption. }
  destruct (reduce_noop_cond (opt_or (get_state db hs (e_channel ne) (e_ctype ne) (e_msgno ne) (e_key ne)) state_zero)
                             (is_some (get_state db hs (e_channel ne) (e_ctype ne) (e_msgno ne) (e_key ne))) ne) eqn:C.
  - rewrite reduce_noop by exact C.
    destruct (get_state db hs _ _ _ _) as [s|] eqn:Gs; [|discriminate C]. exact (AcFinalized _ _ _ ne s Nm Ga Gs C).
  - destruct (reduce_apply_rows db hs ne Ga C) as (st' & cu' & E & R). rewrite E. exact (AcApplied _ _ _ ne st' cu' Nm R).
Qed.

(* an append changes nothing, or is applied *)
Lemma append_unchanged_or_applied db hs e :
  snd (AppendMessageEvent db hs e) = db
  \/ exists ne st' cu',
       normalizeMessageEventAppend e = Some ne /\ applied_rows db hs ne st' cu'
       /\ snd (AppendMessageEvent db hs e)
          = put_rows db hs st' cu' (messageEventAppliedFromResult ne (messageEventAppendResult ne st')).
Proof.
  pose proof (append_cases db hs e) as C. destruct (AppendMessageEvent db hs e) as [out db']. cbn [snd].
  inversion C as [ | | | ne st' cu' Nm R]; subst; [left; reflexivity .. |]. right. exists ne, st', cu'. auto.
Qed.

Lemma cursor_seq_put db hs s cu a hs' c t m :
  cursor_seq (put_rows db hs s cu a) hs' c t m =
  if cursor_at hs' c t m (hs, cu) then cu_seq cu else cursor_seq db hs' c t m.
Proof. unfold cursor_seq. rewrite get_cursor_put. destruct (cursor_at hs' c t m (hs, cu)); reflexivity. Qed.

(* c40_seq_strict: one append either changes nothing, or advances exactly the cursor of the
   event's message to its successor, which is also the sequence of the result
   and of the lane; every other cursor is untouched (the cursor row with two zeros in the last
   clause only carries the message key for [cursor_at]) *)
Lemma append_seq_strict db hs e out db' :
  AppendMessageEvent db hs e = (out, db') ->
  db' = db
  \/ exists ne r st',
      normalizeMessageEventAppend e = Some ne /\ out = (ENone, Some r)
      /\ get_applied db hs (e_channel ne) (e_ctype ne) (e_msgno ne) (e_id ne) = None
      /\ cursor_seq db' hs (e_channel ne) (e_ctype ne) (e_msgno ne)
         = wrap_succ (cursor_seq db hs (e_channel ne) (e_ctype ne) (e_msgno ne))
      /\ r_seq r = cursor_seq db' hs (e_channel ne) (e_ctype ne) (e_msgno ne)
      /\ get_state db' hs (e_channel ne) (e_ctype ne) (e_msgno ne) (e_key ne) = Some st'
      /\ st_seq st' = r_seq r /\ r_key r = e_key ne
      /\ (forall hs' c t m, cursor_at hs' c t m (hs, mkCursor (e_channel ne) (e_ctype ne) (e_msgno ne) 0 0%Z) = false ->
                            cursor_seq db' hs' c t m = cursor_seq db hs' c t m).
Proof.
  intro E. pose proof (append_cases db hs e) as C. rewrite E in C.
  inversion C as [ | | | ne st' cu' Nm [Ga Gc Sl Cm Si Cs Ss Tm]]; subst; try (left; reflexivity).
  right. exists ne, (messageEventAppendResult ne st'), st'.
  pose proof (cursor_at_row hs cu' _ _ _ Cm) as Hat.
  repeat split; try assumption.
  - rewrite cursor_seq_put, Hat. exact Cs.
  - cbn [r_seq messageEventAppendResult]. rewrite cursor_seq_put, Hat. exact Ss.
  - rewrite get_state_put, (state_at_row hs st' _ _ _ _ Sl). reflexivity.
  - exact (f_equal snd Sl).
  - intros hs' c t m Hne. rewrite cursor_seq_put.
    replace (cursor_at hs' c t m (hs, cu')) with false; [reflexivity|].
    rewrite <- Hne. unfold cursor_at. cbn [fst snd cu_channel cu_ctype cu_msgno]. injection Cm as -> -> ->. reflexivity.
Qed.

Fixpoint run_appends (db : DB) (evs : list (N * Event)) : DB :=
  match evs with
  | [] => db
  | (hs, e) :: r => run_appends (snd (AppendMessageEvent db hs e)) r
  end.

Lemma batch_appends_run db evs : snd (batch_appends db evs) = run_appends db evs.
Proof.
  revert db. induction evs as [|[hs e] r IH]; intro db; cbn [batch_appends run_appends]; [reflexivity|].
  destruct (AppendMessageEvent db hs e) as [o db1]. cbn [snd].
  specialize (IH db1). destruct (batch_appends db1 r) as [os db2]. cbn [snd] in *. exact IH.
Qed.

Lemma run_appends_app a b db : run_appends db (a ++ b) = run_appends (run_appends db a) b.
Proof. revert db. induction a as [|[hs e] a IH]; intro db; cbn [app run_appends]; [reflexivity|apply IH]. Qed.

Lemma run_appends_invariant (P : DB -> Prop) :
  (forall db hs e, P db -> P (snd (AppendMessageEvent db hs e))) ->
  forall evs db, P db -> P (run_appends db evs).
Proof.
  intro Step. induction evs as [|[hs e] r IH]; intros db H; cbn [run_appends]; [exact H|]. apply IH, Step, H.
Qed.

(* one append moves a cursor to its successor or leaves it *)
Lemma append_cursor_step db hs0 e hs c t m :
  cursor_seq db hs c t m < u64max ->
  cursor_seq (snd (AppendMessageEvent db hs0 e)) hs c t m = cursor_seq db hs c t m
  \/ cursor_seq (snd (AppendMessageEvent db hs0 e)) hs c t m = cursor_seq db hs c t m + 1.
Proof.
  intro B. destruct (AppendMessageEvent db hs0 e) as [out db1] eqn:E. cbn [snd].
  destruct (append_seq_strict _ _ _ _ _ E) as [-> | (ne & _ & _ & _ & _ & _ & Hc & _ & _ & _ & _ & Ho)]; [left; reflexivity|].
  destruct (cursor_at hs c t m (hs0, mkCursor (e_channel ne) (e_ctype ne) (e_msgno ne) 0 0%Z)) eqn:Q; [|left; exact (Ho _ _ _ _ Q)].
  apply cursor_at_iff in Q. injection Q as <- <- <- <-. right. rewrite Hc. apply wrap_succ_lt, B.
Qed.

(* c40_seq_strict over histories: below 2^64-1 events, a message's cursor never decreases
   and grows by at most one per event *)
Lemma run_cursor_monotone evs : forall db hs c t m,
  cursor_seq db hs c t m + N.of_nat (length evs) <= u64max ->
  cursor_seq db hs c t m <= cursor_seq (run_appends db evs) hs c t m
  /\ cursor_seq (run_appends db evs) hs c t m <= cursor_seq db hs c t m + N.of_nat (length evs).
Proof.
  induction evs as [|[hs0 e] r IH]; intros db hs c t m B; cbn [run_appends length] in *; [lia|].
  pose proof (append_cursor_step db hs0 e hs c t m ltac:(lia)) as Hs.
  assert (B1 : cursor_seq (snd (AppendMessageEvent db hs0 e)) hs c t m + N.of_nat (length r) <= u64max) by lia.
  specialize (IH _ hs c t m B1). lia.
Qed.

Lemma append_preserves_terminal db hs' e hs c t m key s :
  get_state db hs c t m key = Some s -> isMessageEventTerminal (st_status s) = true ->
  get_state (snd (AppendMessageEvent db hs' e)) hs c t m key = Some s.
Proof.
  intros G T. destruct (append_unchanged_or_applied db hs' e) as [-> | (ne & st' & cu' & _ & R & ->)]; [exact G|].
  rewrite get_state_put. destruct (state_at hs c t m key (hs', st')) eqn:Q; [|exact G].
  (* the only lane an applied event writes is its own, which was not terminal *)
  exfalso. apply state_at_iff in Q. unfold state_key in Q. cbn [fst snd] in Q. rewrite (ar_lane _ _ _ _ _ R) in Q.
  injection Q as -> <- <- <- <-. pose proof (ar_lane_open _ _ _ _ _ R) as Gc. rewrite G, T, orb_true_r in Gc. discriminate.
Qed.

Lemma run_preserves_terminal evs : forall db hs c t m key s,
  get_state db hs c t m key = Some s -> isMessageEventTerminal (st_status s) = true ->
  get_state (run_appends db evs) hs c t m key = Some s.
Proof.
  intros db hs c t m key s G T. revert evs db G.
  apply (run_appends_invariant (fun db => get_state db hs c t m key = Some s)).
  intros. apply append_preserves_terminal; assumption.
Qed.

(* an event addressed to a finalized lane, or repeating the lane's last id, and not itself
   a recorded id, is a no-op that returns the stored lane *)
Lemma append_finalized db hs e ne s :
  normalizeMessageEventAppend e = Some ne ->
  get_applied db hs (e_channel ne) (e_ctype ne) (e_msgno ne) (e_id ne) = None ->
  get_state db hs (e_channel ne) (e_ctype ne) (e_msgno ne) (e_key ne) = Some s ->
  (bytes_eqb (st_last_id s) (e_id ne) || isMessageEventTerminal (st_status s)) = true ->
  AppendMessageEvent db hs e = ((ENone, Some (messageEventAppendResult ne s)), db).
Proof.
  intros Nm Ga Gs C. unfold AppendMessageEvent. rewrite Nm, Ga, Gs. cbn [opt_or is_some].
  rewrite reduce_noop; [reflexivity | exact C].
Qed.

Lemma append_replay db hs e ne a :
  normalizeMessageEventAppend e = Some ne ->
  get_applied db hs (e_channel ne) (e_ctype ne) (e_msgno ne) (e_id ne) = Some a ->
  exists r, AppendMessageEvent db hs e = ((ENone, Some r), db)
            /\ r_key r = ap_key a /\ r_seq r = ap_seq a /\ r_status r = ap_status a /\ r_id r = e_id ne.
Proof.
  intros Nm Ga. unfold AppendMessageEvent. rewrite Nm, Ga. eexists. split; [reflexivity|].
  cbn. repeat split.
Qed.

Lemma applied_row_recorded db hs ne st' cu' :
  get_applied (put_rows db hs st' cu' (messageEventAppliedFromResult ne (messageEventAppendResult ne st')))
              hs (e_channel ne) (e_ctype ne) (e_msgno ne) (e_id ne)
  = Some (messageEventAppliedFromResult ne (messageEventAppendResult ne st')).
Proof.
  rewrite get_applied_put. replace (applied_at _ _ _ _ _ _) with true; [reflexivity|].
  symmetry. apply applied_at_iff. reflexivity.
Qed.

Lemma append_preserves_applied db hs' e hs c t m id a :
  get_applied db hs c t m id = Some a ->
  get_applied (snd (AppendMessageEvent db hs' e)) hs c t m id = Some a.
Proof.
  intro G. destruct (append_unchanged_or_applied db hs' e) as [-> | (ne & st' & cu' & _ & R & ->)]; [exact G|].
  pose proof (ar_fresh_id _ _ _ _ _ R) as Ga. rewrite get_applied_put.
  destruct (applied_at hs c t m id (hs', messageEventAppliedFromResult ne (messageEventAppendResult ne st'))) eqn:Q; [|exact G].
  (* the id an applied event records had no row *)
  exfalso. apply applied_at_iff in Q. injection Q as -> <- <- <- <-. congruence.
Qed.

Lemma run_preserves_applied evs : forall db hs c t m id a,
  get_applied db hs c t m id = Some a -> get_applied (run_appends db evs) hs c t m id = Some a.
Proof.
  intros db hs c t m id a G. revert evs db G.
  apply (run_appends_invariant (fun db => get_applied db hs c t m id = Some a)).
  intros. apply append_preserves_applied. assumption.
Qed.

Lemma append_idempotent db hs e out db' :
  AppendMessageEvent db hs e = (out, db') -> AppendMessageEvent db' hs e = (out, db').
Proof.
  intro E. pose proof (append_cases db hs e) as C. rewrite E in C.
  inversion C as [ | | | ne st' cu' Nm [Ga Gc Sl Cm Si Cs Ss Tm]]; subst; try exact E.
  (* the second call finds the applied row and, under its lane key, the lane just written *)
  unfold AppendMessageEvent. rewrite Nm, applied_row_recorded, get_state_put.
  injection Sl as S1 S2 S3 S4.
  rewrite state_at_row by (cbn [ap_key messageEventAppliedFromResult messageEventAppendResult r_key]; unfold lane_of; congruence).
  cbn [opt_or is_some]. do 3 f_equal.
  unfold messageEventAppendResultFromApplied.
  cbn [messageEventAppliedFromResult messageEventAppendResult ap_seq ap_key ap_status r_seq r_key r_status].
  rewrite Si, bytes_eqb_refl, N.eqb_refl. reflexivity.
Qed.

(* a recorded id replayed after any further history returns the recorded lane, sequence and status *)
Lemma replay_recorded db hs e ne a evs :
  normalizeMessageEventAppend e = Some ne ->
  get_applied db hs (e_channel ne) (e_ctype ne) (e_msgno ne) (e_id ne) = Some a ->
  exists r', AppendMessageEvent (run_appends db evs) hs e = ((ENone, Some r'), run_appends db evs)
             /\ r_key r' = ap_key a /\ r_seq r' = ap_seq a /\ r_status r' = ap_status a.
Proof.
  intros Nm Ga.
  destruct (append_replay _ hs e ne a Nm (run_preserves_applied evs _ _ _ _ _ _ _ Ga)) as (r' & E & K1 & K2 & K3 & _).
  exists r'. auto.
Qed.

Lemma replay_after_history db hs e out db1 evs ne r :
  AppendMessageEvent db hs e = (out, db1) -> db1 <> db ->
  normalizeMessageEventAppend e = Some ne -> out = (ENone, Some r) ->
  let db2 := run_appends db1 evs in
  exists r', AppendMessageEvent db2 hs e = ((ENone, Some r'), db2)
             /\ r_key r' = r_key r /\ r_seq r' = r_seq r /\ r_status r' = r_status r.
Proof.
  intros E Hne Nm0 Ho db2. subst out. pose proof (append_cases db hs e) as C. rewrite E in C.
  (* [db1 <> db] selects the applied case *)
  inversion C as [ | | | ne1 st' cu' Nm R]; subst; try congruence.
  assert (ne1 = ne) by congruence. subst ne1.
  destruct (replay_recorded _ hs e ne _ evs Nm0 (applied_row_recorded db hs ne st' cu')) as (r' & E' & K1 & K2 & K3).
  exists r'. split; [exact E'|]. rewrite K1, K2, K3. cbn. tauto.
Qed.

Definition lanes_below_cursor (db : DB) : Prop :=
  forall hs c t m key s, get_state db hs c t m key = Some s -> st_seq s <= cursor_seq db hs c t m.

Lemma lanes_below_empty : lanes_below_cursor db_empty.
Proof. intros hs c t m key s G. discriminate. Qed.

Lemma append_lanes_below db hs e :
  lanes_below_cursor db ->
  (forall ne, normalizeMessageEventAppend e = Some ne ->
              cursor_seq db hs (e_channel ne) (e_ctype ne) (e_msgno ne) < u64max) ->
  lanes_below_cursor (snd (AppendMessageEvent db hs e)).
Proof.
  intros I B. destruct (append_unchanged_or_applied db hs e) as [-> | (ne & st' & cu' & Nm & R & ->)]; [exact I|].
  destruct R as [_ _ Sl Cm _ Cs Ss _]. intros hs' c t m key s G. rewrite get_state_put in G. rewrite cursor_seq_put.
  specialize (B ne Nm). rewrite (wrap_succ_lt _ B) in Cs.
  destruct (state_at hs' c t m key (hs, st')) eqn:Q.
  - (* the lane just written carries the new cursor value *)
    injection G as <-. apply state_at_iff in Q. unfold state_key in Q. cbn [fst snd] in Q. rewrite Sl in Q.
    injection Q as <- <- <- <- _. rewrite cursor_at_row by exact Cm. lia.
  - (* another lane: its bound held before, and the cursor only grew *)
    specialize (I _ _ _ _ _ _ G).
    destruct (cursor_at hs' c t m (hs, cu')) eqn:Qc; [|exact I].
    apply cursor_at_iff in Qc. unfold cursor_key in Qc. cbn [fst snd] in Qc. rewrite Cm in Qc.
    injection Qc as <- <- <- <-. lia.
Qed.
