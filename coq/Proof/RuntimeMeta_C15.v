(* Proof/RuntimeMeta_C15.v — the operations of Model/RuntimeMeta_C15.v keep every
   stored row normalized, replace a row only by one that advances it (unless the
   op deletes the key), leave the store untouched when they report a rejection,
   and never accept a regressing candidate; hence the model's traces satisfy
   C15_monitor and the advance relation holds between any two points of a
   history without a delete of the row. *)
From WK Require Import Base.Base.
From WK Require Import Gen.Consts_C15 Model.RuntimeMeta Model.RuntimeMeta_C15 Proof.RuntimeMeta.
Open Scope N_scope.

Definition store_normalized (s : rm_store) : Prop :=
  forall k m, store_get s k = Some m -> rm_normalized m.

Lemma store_normalized_nil : store_normalized [].
Proof. intros k m H. discriminate. Qed.

Lemma store_normalized_put s k m :
  store_normalized s -> rm_normalized m -> store_normalized (store_put s k m).
Proof.
  intros Hs Hm k' m' H. rewrite store_get_put in H.
  destruct (rm_key_eqb k k'); [inversion H; subst; exact Hm|exact (Hs _ _ H)].
Qed.

Lemma store_normalized_del s k : store_normalized s -> store_normalized (store_del s k).
Proof.
  intros Hs k' m' H. rewrite store_get_del in H.
  destruct (rm_key_eqb k k'); [discriminate|exact (Hs _ _ H)].
Qed.

Definition row_rel (a b : option runtime_meta) : Prop :=
  match a, b with
  | Some a, Some b => advances a b
  | Some _, None => False
  | None, _ => True
  end.

Lemma row_step_ok_iff a b : row_step_ok false a b = true <-> row_rel a b.
Proof.
  unfold row_step_ok, row_rel. destruct a as [a|], b as [b|]; try tauto.
  - apply runtime_meta_advances_iff.
  - split; [discriminate|contradiction].
Qed.

Lemma row_rel_refl a : row_rel a a.
Proof. destruct a as [a|]; cbn; [apply advances_refl|exact I]. Qed.

Lemma row_rel_trans a b c : row_rel a b -> row_rel b c -> row_rel a c.
Proof.
  destruct a as [a|], b as [b|], c as [c|]; cbn; try tauto.
  apply advances_trans.
Qed.

Lemma row_rel_put s k0 next :
  row_rel (store_get s k0) (Some next) ->
  forall k, row_rel (store_get s k) (store_get (store_put s k0 next) k).
Proof.
  intros H k. rewrite store_get_put. destruct (rm_key_eqb k0 k) eqn:E.
  - apply rm_key_eqb_eq in E. subst k. exact H.
  - apply row_rel_refl.
Qed.

(* the [match] shared by shard_upsert and bop_apply; brought in by [fold] *)
Definition resolve_at (w : rm_store) (k : rm_key) (m : runtime_meta) : runtime_meta * N :=
  match store_get w k with
  | Some existing => resolveMonotonicChannelRuntimeMeta existing true m
  | None => resolveMonotonicChannelRuntimeMeta runtime_meta_zero false m
  end.

Lemma resolve_at_accept w k m next result :
  store_normalized w ->
  resolve_at w k m = (next, result) ->
  (result =? MonotonicIgnoredStale) = false -> (result =? MonotonicConflict) = false ->
  rm_normalized next /\ row_rel (store_get w k) (Some next)
  /\ (forall stored, store_get w k = Some stored -> candidate_not_regressing stored m = true).
Proof.
  intros Hw Hres Hs Hc. unfold resolve_at in Hres.
  apply N.eqb_neq in Hs. apply N.eqb_neq in Hc.
  destruct (store_get w k) as [ex|] eqn:Hget.
  - destruct (resolve_result_cases _ _ _ _ Hres) as [-> | [[-> | ->] _]]; try contradiction.
    destruct (resolve_applied ex m next (Hw _ _ Hget) Hres) as (Hadv & Hcnr & Hn & _).
    split; [exact Hn|]. split; [exact Hadv|].
    intros stored E. inversion E; subst. exact Hcnr.
  - rewrite resolve_absent in Hres. inversion Hres; subst.
    split; [apply normalize_normalized|]. split; [exact I|]. intros stored E. discriminate.
Qed.

Lemma advance_retention_facts w hash_slot req e w' :
  advance_retention w hash_slot req = (e, w') ->
  (e <> ENone -> w' = w)
  /\ (store_normalized w ->
      store_normalized w' /\ (forall k, row_rel (store_get w k) (store_get w' k))).
Proof.
  unfold advance_retention.
  assert (Same : (e <> ENone -> w = w)
                 /\ (store_normalized w -> store_normalized w /\ (forall k, row_rel (store_get w k) (store_get w k))))
    by (split; [reflexivity|intro Hw; split; [exact Hw|intro k; apply row_rel_refl]]).
  destruct (store_get w (advance_key hash_slot req)) as [ex|] eqn:Hget; [|intro H; inversion H; subst; exact Same].
  destruct (negb (retentionAdvanceMatches ex req)); [intro H; inversion H; subst; exact Same|].
  destruct (ra_retention_through_seq req <=? rm_retention_through_seq ex) eqn:Hle;
    [intro H; inversion H; subst; exact Same|].
  apply N.leb_gt in Hle. intro H. inversion H; subst. split; [intro C; contradiction|]. intro Hw.
  split; [apply store_normalized_put; [exact Hw|exact (advanceRetentionRow_normalized ex req (Hw _ _ Hget))]|].
  apply row_rel_put. rewrite Hget. apply advanceRetentionRow_advances. lia.
Qed.

Lemma bop_apply_facts w b w1 created :
  store_normalized w -> bop_apply w b = (ENone, w1, created) ->
  store_normalized w1 /\ (forall k, bop_deletes k b = false -> row_rel (store_get w k) (store_get w1 k)).
Proof.
  intros Hw. destruct b as [hs m|hs m|k0|hs req]; cbn [bop_apply bop_deletes].
  - fold (resolve_at w (meta_key hs m) m).
    destruct (resolve_at w (meta_key hs m) m) as [next result] eqn:Hres.
    destruct (result =? MonotonicIgnoredStale) eqn:Hs.
    { intro H. inversion H; subst. split; [exact Hw|]. intros k _. apply row_rel_refl. }
    destruct (result =? MonotonicConflict) eqn:Hc; [discriminate|].
    intro H. inversion H; subst.
    destruct (resolve_at_accept _ _ _ _ _ Hw Hres Hs Hc) as (Hn & Hrel & _).
    split; [apply store_normalized_put; assumption|]. intros k _. apply row_rel_put. exact Hrel.
  - destruct (store_get w (meta_key hs (normalizeChannelRuntimeMeta m))) eqn:Hget.
    { intro H. inversion H; subst. split; [exact Hw|]. intros k _. apply row_rel_refl. }
    intro H. inversion H; subst.
    split; [apply store_normalized_put; [exact Hw|apply normalize_normalized]|].
    intros k _. apply row_rel_put. rewrite Hget. exact I.
  - intro H. inversion H; subst. split; [apply store_normalized_del; exact Hw|].
    intros k Hk. rewrite store_get_del, Hk. apply row_rel_refl.
  - destruct (advance_retention w hs req) as [e w'] eqn:Hadv.
    intro H. inversion H; subst.
    destruct (proj2 (advance_retention_facts _ _ _ _ _ Hadv) Hw) as (Hn & Hrel).
    split; [exact Hn|]. intros k _. apply Hrel.
Qed.

Lemma batch_build_facts : forall ops w w' cs,
  store_normalized w -> batch_build w ops = (ENone, w', cs) ->
  store_normalized w'
  /\ (forall k, existsb (bop_deletes k) ops = false -> row_rel (store_get w k) (store_get w' k)).
Proof.
  induction ops as [|b r IH]; intros w w' cs Hw.
  - cbn [batch_build]. intro H. inversion H; subst. split; [exact Hw|]. intros k _. apply row_rel_refl.
  - cbn [batch_build existsb].
    destruct (negb (db_err_eqb (bop_stage_err b) ENone)).
    + destruct (batch_build w r) as [[e w2] cs2] eqn:Hr. intro H. inversion H; subst.
      destruct (IH _ _ _ Hw Hr) as [Hn Hrel]. split; [exact Hn|].
      intros k Hk. apply orb_false_iff in Hk. destruct Hk as [_ Hk]. apply Hrel. exact Hk.
    + destruct (bop_apply w b) as [[e w1] created] eqn:Hb.
      destruct e; cbn [db_err_eqb negb]; try (intro H; inversion H; fail).
      destruct (batch_build w1 r) as [[e' w2] cs2] eqn:Hr. intro H. inversion H; subst.
      destruct (bop_apply_facts _ _ _ _ Hw Hb) as [Hn1 Hrel1].
      destruct (IH _ _ _ Hn1 Hr) as [Hn2 Hrel2]. split; [exact Hn2|].
      intros k Hk. apply orb_false_iff in Hk. destruct Hk as [Hk1 Hk2].
      eapply row_rel_trans; [apply Hrel1; exact Hk1|apply Hrel2; exact Hk2].
Qed.

Record op_facts (s : rm_store) (op : c15_op) (o : c15_obs) (s' : rm_store) : Prop := OpFacts {
  of_rejected : obs_rejected o = true -> s' = s;
  of_normalized : store_normalized s -> store_normalized s';
  of_rows : store_normalized s ->
            forall k, op_deletes op k = false -> row_rel (store_get s k) (store_get s' k);
  of_applied : store_normalized s -> forall hash_slot m stored,
      op = OpUpsert hash_slot m -> o = ObsUpsert MonotonicApplied ENone ->
      store_get s (meta_key hash_slot m) = Some stored -> candidate_not_regressing stored m = true }.

Lemma op_facts_unchanged s op o :
  (forall hash_slot m, op = OpUpsert hash_slot m -> o <> ObsUpsert MonotonicApplied ENone) ->
  op_facts s op o s.
Proof.
  intros Hno. constructor; auto.
  - intros _ k _. apply row_rel_refl.
  - intros _ hs m stored E1 E2. exfalso. exact (Hno _ _ E1 E2).
Qed.

(* the first field needs nothing of the store; the others hold of a store of normalized rows *)
Lemma c15_step_facts s op o s' : c15_step s op = (o, s') -> op_facts s op o s'.
Proof.
  pose proof monotonic_results_distinct as (D1 & D2 & D3 & D4).
  destruct op as [hs m|k0|hs req|ops]; cbn [c15_step].
  - unfold shard_upsert.
    destruct (negb (validateChannelRuntimeMeta m)).
    { intro H. inversion H; subst. apply op_facts_unchanged. intros ? ? _ C; inversion C; congruence. }
    fold (resolve_at s (meta_key hs m) m).
    destruct (resolve_at s (meta_key hs m) m) as [next result] eqn:Hres.
    destruct (result =? MonotonicIgnoredStale) eqn:Hst.
    { apply N.eqb_eq in Hst. intro H. inversion H; subst. apply op_facts_unchanged.
      intros ? ? _ C; inversion C; congruence. }
    destruct (result =? MonotonicConflict) eqn:Hc.
    { intro H. inversion H; subst. apply op_facts_unchanged. intros ? ? _ C; inversion C. }
    intro H. inversion H; subst.
    constructor; [cbn [obs_rejected db_err_eqb negb]; rewrite N.eqb_refl; discriminate|intro Hs..];
      destruct (resolve_at_accept _ _ _ _ _ Hs Hres Hst Hc) as (Hn & Hrel & Hcnr).
    + apply store_normalized_put; assumption.
    + intros k _. apply row_rel_put. exact Hrel.
    + intros hs' m' stored E _ Hget. inversion E; subst. apply Hcnr. exact Hget.
  - unfold shard_delete.
    destruct (negb (validateKeyString (k_channel_id k0))).
    { intro H. inversion H; subst. apply op_facts_unchanged. intros; discriminate. }
    destruct (store_get s k0) eqn:Hget.
    2:{ intro H. inversion H; subst. apply op_facts_unchanged. intros; discriminate. }
    intro H. inversion H; subst. constructor.
    + cbn. discriminate.
    + apply store_normalized_del.
    + cbn [op_deletes]. intros _ k Hk. rewrite store_get_del, Hk. apply row_rel_refl.
    + intros; discriminate.
  - unfold shard_advance.
    destruct (negb (validateKeyString (ra_channel_id req))).
    { intro H. inversion H; subst. apply op_facts_unchanged. intros; discriminate. }
    destruct (advance_retention s hs req) as [e w'] eqn:Hadv.
    intro H. inversion H; subst.
    destruct (advance_retention_facts _ _ _ _ _ Hadv) as (Hrej & Hfacts).
    constructor.
    + cbn [obs_rejected]. intro C. apply Hrej. intro E. subst e. discriminate.
    + intro Hs. exact (proj1 (Hfacts Hs)).
    + intros Hs k _. exact (proj2 (Hfacts Hs) k).
    + intros; discriminate.
  - unfold write_batch.
    destruct (batch_build s ops) as [[e w] created] eqn:Hb.
    destruct e; cbn [db_err_eqb];
      try (intro H; inversion H; subst; apply op_facts_unchanged; intros; discriminate).
    intro H. inversion H; subst.
    constructor; [cbn; discriminate|intro Hs..]; try (intros; discriminate);
      destruct (batch_build_facts _ _ _ _ Hs Hb) as [Hn Hrel]; assumption.
Qed.

Lemma snapshot_get_snapshot keys s k stored :
  snapshot_get keys (snapshot keys s) k = Some stored -> store_get s k = Some stored.
Proof.
  induction keys as [|k' r IH]; cbn [snapshot snapshot_get map]; [discriminate|].
  destruct (rm_key_eqb k' k) eqn:E.
  - apply rm_key_eqb_eq in E. subst k'. auto.
  - exact IH.
Qed.

Lemma snapshot_eqb_refl l : snapshot_eqb l l = true.
Proof.
  induction l as [|a r IH]; [reflexivity|].
  unfold snapshot_eqb in *. cbn [list_eqb]. rewrite IH.
  destruct a as [a|]; cbn [option_eqb]; [rewrite runtime_meta_eqb_refl|]; reflexivity.
Qed.

Lemma rows_step_ok_snapshot op s s' :
  (forall k, op_deletes op k = false -> row_rel (store_get s k) (store_get s' k)) ->
  forall keys, rows_step_ok op keys (snapshot keys s) (snapshot keys s') = true.
Proof.
  intros Hrel. induction keys as [|k r IH]; [reflexivity|].
  cbn [snapshot map rows_step_ok]. fold (snapshot r s). fold (snapshot r s'). rewrite IH.
  rewrite andb_true_r. unfold row_step_ok at 1.
  destruct (op_deletes op k) eqn:Hd; [reflexivity|].
  apply (row_step_ok_iff (store_get s k) (store_get s' k)). apply Hrel. exact Hd.
Qed.

Lemma step_ok_model keys s op o s' :
  store_normalized s -> op_facts s op o s' ->
  step_ok keys (snapshot keys s) (op, o, snapshot keys s') = true.
Proof.
  intros Hs [Hrej _ Hrows Happ]. specialize (Hrows Hs). specialize (Happ Hs). unfold step_ok.
  apply andb_true_iff. split; [apply andb_true_iff; split|].
  - apply rows_step_ok_snapshot. exact Hrows.
  - destruct (obs_rejected o) eqn:Hr; [|reflexivity].
    cbn [negb orb]. rewrite (Hrej eq_refl). apply snapshot_eqb_refl.
  - unfold applied_upsert_ok. destruct op as [hs m| | |]; try reflexivity.
    destruct o as [r e| |]; try reflexivity.
    destruct ((r =? MonotonicApplied) && db_err_eqb e ENone) eqn:Hok; [|reflexivity].
    apply andb_true_iff in Hok. destruct Hok as [Hr He]. apply N.eqb_eq in Hr. subst r.
    destruct e; try discriminate.
    destruct (snapshot_get keys (snapshot keys s) (meta_key hs m)) as [stored|] eqn:Hg; [|reflexivity].
    apply snapshot_get_snapshot in Hg. apply (Happ hs m stored eq_refl eq_refl Hg).
Qed.

Lemma history_ok_model keys : forall ops s,
  store_normalized s -> history_ok keys (snapshot keys s) (c15_run keys s ops) = true.
Proof.
  induction ops as [|op r IH]; intros s Hs; [reflexivity|].
  cbn [c15_run]. destruct (c15_step s op) as [o s'] eqn:Hstep.
  pose proof (c15_step_facts _ _ _ _ Hstep) as Hf.
  cbn [history_ok snd]. rewrite (step_ok_model keys _ _ _ _ Hs Hf). cbn [andb].
  apply IH. exact (of_normalized _ _ _ _ Hf Hs).
Qed.

Lemma snapshot_nil keys : snapshot keys [] = map (fun _ => None) keys.
Proof. unfold snapshot. apply map_ext. intro k. reflexivity. Qed.

Lemma resolve_normalizes_existing ex c :
  resolveMonotonicChannelRuntimeMeta ex true c
  = resolveMonotonicChannelRuntimeMeta (normalizeChannelRuntimeMeta ex) true c.
Proof. unfold resolveMonotonicChannelRuntimeMeta. rewrite normalize_idem. reflexivity. Qed.

Lemma resolve_model_satisfies_monitor ex exists_ c :
  C15_monitor (C15Resolve ex exists_ c (normalizeChannelRuntimeMeta ex) (normalizeChannelRuntimeMeta c)
                 (fst (resolveMonotonicChannelRuntimeMeta ex exists_ c))
                 (snd (resolveMonotonicChannelRuntimeMeta ex exists_ c))
                 (validateChannelRuntimeMeta c)) = 0.
Proof.
  pose proof monotonic_results_distinct as (D1 & D2 & D3 & D4).
  cbn [C15_monitor]. unfold resolve_ok.
  destruct exists_; cbn [negb].
  2:{ rewrite resolve_absent. cbn [snd]. rewrite N.eqb_refl. reflexivity. }
  rewrite resolve_normalizes_existing.
  destruct (resolveMonotonicChannelRuntimeMeta (normalizeChannelRuntimeMeta ex) true c)
    as [next result] eqn:Hres.
  cbn [fst snd].
  destruct (resolve_result_cases _ _ _ _ Hres) as [-> | [Hr Hnext]].
  - rewrite N.eqb_refl.
    destruct (resolve_applied _ c next (normalize_normalized ex) Hres) as (Hadv & Hcnr & _).
    apply runtime_meta_advances_iff in Hadv. rewrite Hadv, Hcnr. reflexivity.
  - rewrite normalize_idem in Hnext. subst next.
    assert (E : (result =? MonotonicApplied) = false).
    { apply N.eqb_neq. destruct Hr as [-> | ->]; congruence. }
    rewrite E.
    assert (E2 : (result =? MonotonicIgnoredStale) || (result =? MonotonicConflict) = true).
    { destruct Hr as [-> | ->]; rewrite N.eqb_refl; [reflexivity|apply orb_true_r]. }
    rewrite E2, runtime_meta_eqb_refl. reflexivity.
Qed.

Lemma c15_exec_normalized : forall ops s, store_normalized s -> store_normalized (c15_exec s ops).
Proof.
  induction ops as [|op r IH]; intros s Hs; [exact Hs|].
  cbn [c15_exec]. destruct (c15_step s op) as [o s'] eqn:Hstep. cbn [snd].
  apply IH. exact (of_normalized _ _ _ _ (c15_step_facts _ _ _ _ Hstep) Hs).
Qed.

Lemma c15_exec_app : forall a b s, c15_exec s (a ++ b) = c15_exec (c15_exec s a) b.
Proof. induction a as [|op r IH]; intros b s; [reflexivity|]. cbn [app c15_exec]. apply IH. Qed.

(* between two points of a history that does not delete key k in between, the
   row of k stays present and advances *)
Lemma history_advances_from : forall ops s k a,
  store_normalized s -> store_get s k = Some a ->
  (forall op, In op ops -> op_deletes op k = false) ->
  exists b, store_get (c15_exec s ops) k = Some b /\ advances a b.
Proof.
  induction ops as [|op r IH]; intros s k a Hs Hget Hnd.
  - exists a. split; [exact Hget|apply advances_refl].
  - cbn [c15_exec]. destruct (c15_step s op) as [o s'] eqn:Hstep. cbn [snd].
    pose proof (c15_step_facts _ _ _ _ Hstep) as Hf.
    pose proof (of_rows _ _ _ _ Hf Hs k (Hnd op (or_introl eq_refl))) as Hrel.
    rewrite Hget in Hrel. destruct (store_get s' k) as [b1|] eqn:Hget'; [|contradiction].
    cbn [row_rel] in Hrel.
    destruct (IH s' k b1 (of_normalized _ _ _ _ Hf Hs) Hget'
                 (fun op' Hin => Hnd op' (or_intror Hin))) as (b & Hb & Hadv).
    exists b. split; [exact Hb|]. eapply advances_trans; eassumption.
Qed.

Lemma history_advances pre ops k a b :
  store_get (c15_exec [] pre) k = Some a ->
  (forall op, In op ops -> op_deletes op k = false) ->
  store_get (c15_exec [] (pre ++ ops)) k = Some b ->
  advances a b.
Proof.
  intros Ha Hnd Hb. rewrite c15_exec_app in Hb.
  destruct (history_advances_from ops (c15_exec [] pre) k a
              (c15_exec_normalized pre [] store_normalized_nil) Ha Hnd) as (b' & Hb' & Hadv).
  rewrite Hb' in Hb. inversion Hb; subst. exact Hadv.
Qed.

Lemma regressing_upsert_rejected s hash_slot m stored :
  store_normalized s ->
  store_get s (meta_key hash_slot m) = Some stored ->
  candidate_not_regressing stored m = false ->
  obs_rejected (fst (shard_upsert s hash_slot m)) = true /\ snd (shard_upsert s hash_slot m) = s.
Proof.
  intros Hs Hget Hreg. pose proof monotonic_results_distinct as (D1 & _).
  unfold shard_upsert.
  destruct (negb (validateChannelRuntimeMeta m)); [split; [apply orb_true_r|reflexivity]|].
  fold (resolve_at s (meta_key hash_slot m) m).
  destruct (resolve_at s (meta_key hash_slot m) m) as [next result] eqn:Hres.
  destruct (result =? MonotonicIgnoredStale) eqn:Hst.
  { apply N.eqb_eq in Hst. subst result. cbn [fst snd obs_rejected]. split; [|reflexivity].
    rewrite (proj2 (N.eqb_neq _ _)) by congruence. reflexivity. }
  destruct (result =? MonotonicConflict) eqn:Hc; [split; [apply orb_true_r|reflexivity]|].
  destruct (resolve_at_accept _ _ _ _ _ Hs Hres Hst Hc) as (_ & _ & Hcnr).
  rewrite (Hcnr _ Hget) in Hreg. discriminate.
Qed.

(* channel "g1" type 2, epochs (ce, le), route generation rg, leader ldr, lease *)
Definition example_row (ce le rg ldr : N) (lease : Z) : runtime_meta :=
  RuntimeMeta (hx "6731") 2%Z ce le rg [1; 2; 3] [1; 2] ldr 1%Z 0 0 lease 5 0%Z [] 0 0 0%Z 0.
Definition example_key : rm_key := RmKey 3 (hx "6731") 2%Z.
