(* Proof/Delivery_monitor.v — run_owners: for every owner the monitor's walk accepts its
   attempts and returns the first attempt of each batch (run_owners_facts); under the
   remote-port contract every attempt stays inside its owner's group (run_owners_incl). *)
From WK Require Import Base.Base Gen.Consts_C31 Model.Delivery Model.Delivery_C31
     Proof.Delivery_local Proof.Delivery_retry Proof.Delivery_cover.
From Coq Require Import Permutation.
Open Scope N_scope.

Lemma by_owner_app o a b : by_owner o (a ++ b) = by_owner o a ++ by_owner o b.
Proof. unfold by_owner. apply filter_app. Qed.

Lemma by_owner_all o l : Forall (fun a => a_owner a = o) l -> by_owner o l = l.
Proof.
  induction 1 as [|a l Ha _ IH]; simpl; [reflexivity|].
  rewrite Ha, N.eqb_refl, IH. reflexivity.
Qed.

Lemma by_owner_none o l : Forall (fun a => a_owner a <> o) l -> by_owner o l = [].
Proof.
  induction 1 as [|a l Ha _ IH]; simpl; [reflexivity|].
  apply N.eqb_neq in Ha. rewrite Ha. exact IH.
Qed.

Lemma walk_firsts_incl maxa : forall l k prev ok f,
  walk maxa k prev l = (ok, f) -> incl f l.
Proof.
  induction l as [|a l IH]; intros k prev ok f E; cbn [walk] in E.
  - inversion E. intros x [].
  - destruct prev as [p|].
    + destruct (att_more p && (k <? maxa)%nat).
      * destruct (walk maxa (S k) (Some a) l) as [ok' f'] eqn:E'. inversion E; subst.
        intros x Hx. right. exact (IH _ _ _ _ E' x Hx).
      * destruct (walk maxa 1 (Some a) l) as [ok' f'] eqn:E'. inversion E; subst.
        intros x [<-|Hx]; [left; reflexivity| right; exact (IH _ _ _ _ E' x Hx)].
    + destruct (walk maxa 1 (Some a) l) as [ok' f'] eqn:E'. inversion E; subst.
      intros x [<-|Hx]; [left; reflexivity| right; exact (IH _ _ _ _ E' x Hx)].
Qed.

(* R: the routes the owner may be handed, in the end its whole group of the plan *)
Definition remote_contract (R : list route) (orc : list oout) : Prop :=
  forall acc retry drop err, In (ORemote acc retry drop err) orc -> incl retry R.

Lemma remote_contract_tl R orc : remote_contract R orc -> remote_contract R (orc_tl orc).
Proof.
  destruct orc; simpl; [auto|]. unfold remote_contract. simpl.
  intros H acc retry drop err Hin. eapply H. right. exact Hin.
Qed.

Lemma remote_contract_hd R orc acc retry drop err :
  remote_contract R orc -> orc_hd orc = ORemote acc retry drop err -> incl retry R.
Proof.
  intros RC Hh. destruct orc as [|oo t]; [discriminate|]. simpl in Hh. subst oo.
  eapply RC. left. reflexivity.
Qed.

Section Incl.
Variables (c : cfg) (ev : event) (o : N) (R : list route).
Hypothesis Ho : o <> 0.

Lemma attempt_incl rs oo a cx1 :
  do_attempt c ev o rs oo false = (a, cx1) ->
  no_reject (oracle_local oo) ->
  (forall acc retry drop err, oo = ORemote acc retry drop err -> incl retry R) ->
  incl rs R ->
  incl (att_routes a) R /\ incl (next_routes a rs) R.
Proof.
  intros E NR HC Hin.
  pose proof (do_attempt_facts E Ho NR) as F.
  destruct (a_local a) eqn:Hl.
  - destruct (af_loc F Hl) as (He & Hw & Hr & _). split.
    + unfold att_routes. rewrite Hl, Hw. intros x Hx. apply in_map_iff in Hx.
      destruct Hx as (w & <- & Hw0). apply Hin. exact (proj1 (lspec_writes _ _ _ _ _ _ _ Hw0)).
    + unfold next_routes. rewrite He. cbn [N.eqb]. rewrite Hr. intros x Hx. apply Hin.
      eapply lspec_retry_in. exact Hx.
  - split.
    + unfold att_routes. rewrite Hl, (af_routes F). exact Hin.
    + unfold next_routes. destruct (N.eqb_spec (a_err a) 0) as [He|_]; [|exact Hin].
      destruct (af_rem F Hl He) as [H|(acc & drop & Eo)]; [exact (incl_tran H Hin)| exact (HC _ _ _ _ Eo)].
Qed.

Lemma pushWithRetry_incl n rs orc cx l st orc' cx' :
  pushWithRetry c ev o n rs orc cx = (l, st, orc', cx') ->
  orc_ok orc -> remote_contract R orc -> incl rs R ->
  Forall (fun a => incl (att_routes a) R /\ a_owner a = o) l /\ remote_contract R orc'.
Proof.
  intros E. destruct (pwr_cases _ _ _ _ _ _ _ _ _ _ _ E) as [(-> & -> & _)|[_ Rn]]; [split; [constructor| assumption]|].
  clear E. induction Rn as [n rs orc a cx1 Ea _ | n rs orc a l orc' cx' Ea _ _ IH]; intros OK RC Hin;
    destruct (attempt_incl _ _ _ _ Ea (orc_ok_hd _ OK) (fun acc retry drop err => remote_contract_hd _ _ acc retry drop err RC) Hin)
      as [Ia In'];
    pose proof (af_owner (do_attempt_facts Ea Ho (orc_ok_hd _ OK))) as Hown.
  - split; [constructor; [split; assumption| constructor]| apply remote_contract_tl; exact RC].
  - destruct (IH (orc_ok_tl _ OK) (remote_contract_tl _ _ RC) In') as [A B].
    split; [constructor; [split; assumption| exact A]| exact B].
Qed.

Lemma run_batches_incl : forall bs orc cx l st cxf,
  run_batches c ev o bs orc cx = (l, st, cxf) ->
  orc_ok orc -> remote_contract R orc -> (forall b, In b bs -> incl b R) ->
  Forall (fun a => incl (att_routes a) R /\ a_owner a = o) l.
Proof.
  induction bs as [|b bs IH]; intros orc cx l st cxf E OK RC Hb; cbn [run_batches] in E.
  { inversion E; subst. constructor. }
  destruct (pushWithRetry c ev o (c_retry c) b orc cx) as [[[l1 st1] orc1] cx1] eqn:E1.
  destruct (pushWithRetry_incl _ _ _ _ _ _ _ _ E1 OK RC (Hb b (or_introl eq_refl))) as [A B].
  destruct (negb (st1 =? 0) && cx1); [inversion E; subst; exact A|].
  destruct (run_batches c ev o bs orc1 cx1) as [[l2 st2] cx2] eqn:E2.
  inversion E; subst. apply Forall_app. split; [exact A|].
  eapply IH; [exact E2| eapply pushWithRetry_orc_ok; eauto| exact B| intros b0 Hb0; apply Hb; right; exact Hb0].
Qed.

End Incl.

Section Owners.
Variables (c : cfg) (ev : event).

Lemma run_owners_cancelled g orc :
  exists st, run_owners c ev g orc true = ([], st, true).
Proof.
  induction g as [|[o rs] g IH]; cbn [run_owners]; [eexists; reflexivity|].
  rewrite run_batches_cancelled.
  destruct IH as [st2 ->]. eexists. reflexivity.
Qed.

Definition keys_ok (g : groups) : Prop :=
  NoDup (g_keys g) /\ forall o, In o (g_keys g) -> o <> 0 /\ g_get o g <> [].

Lemma keys_ok_tail o rs g : keys_ok ((o, rs) :: g) -> keys_ok g /\ ~ In o (g_keys g) /\ o <> 0 /\ rs <> [].
Proof.
  intros [ND H]. simpl in ND. inversion ND as [|? ? Hn ND']; subst.
  split; [|split; [exact Hn|]].
  - split; [exact ND'|]. intros o' Ho'. destruct (H o' (or_intror Ho')) as [A B]. split; [exact A|].
    simpl in B. destruct (o =? o') eqn:E; [|exact B].
    apply N.eqb_eq in E. subst. contradiction.
  - destruct (H o (or_introl eq_refl)) as [A B]. simpl in B. rewrite N.eqb_refl in B. auto.
Qed.

(* every group is non-empty and owned by a node: suppressed and ownerless routes were filtered out *)
Lemma g_inv_keys_ok g pairs : g_inv g (expected_routes ev pairs) -> keys_ok g.
Proof.
  intros GI. split; [exact (gi_nodup _ _ GI)|]. intros o Ho.
  pose proof (gi_keys _ _ GI o Ho) as Hne. split; [|exact Hne].
  destruct (g_get o g) as [|r l] eqn:Ef; [congruence|].
  assert (Hr : In r (g_get o g)) by (rewrite Ef; left; reflexivity).
  rewrite (gi_get _ _ GI) in Hr. apply filter_In in Hr. destruct Hr as [Hr Eo].
  apply filter_In in Hr. destruct Hr as [_ Hk]. unfold keep_route in Hk.
  apply N.eqb_eq in Eo. destruct (N.eqb_spec (r_owner r) 0); [discriminate| congruence].
Qed.

Lemma by_owner_head o o1 l l2 :
  Forall (fun a => a_owner a = o1) l ->
  by_owner o (l ++ l2) = (if o1 =? o then l else []) ++ by_owner o l2.
Proof.
  intros H. rewrite by_owner_app. f_equal.
  destruct (N.eqb_spec o1 o) as [<-|Hne]; [exact (by_owner_all _ _ H)|].
  apply by_owner_none. eapply Forall_impl; [|exact H]. intros a Ha. congruence.
Qed.

Lemma run_owners_facts : forall g orc cx atts st cxf,
  run_owners c ev g orc cx = (atts, st, cxf) ->
  keys_ok g -> (forall o, orc_ok (orc o)) ->
  cxf = cx || existsb att_cancel atts
  /\ Forall (fun a => In (a_owner a) (g_keys g)) atts
  /\ forall o, exists firsts,
       walk (c_retry c) 0 None (by_owner o atts) = (true, firsts)
       /\ (cxf = false -> Forall2 (first_of c ev o) (chunks (c_batch c) (g_get o g)) firsts).
Proof.
  induction g as [|[o1 rs1] g IH]; intros orc cx atts st cxf E KO OK.
  { injection E as <- _ <-. rewrite orb_false_r. split; [reflexivity|]. split; [constructor|].
    intros o. exists []. split; [reflexivity|]. intros _. constructor. }
  destruct cx.
  { (* the context is done: nothing is attempted *)
    destruct (run_owners_cancelled ((o1, rs1) :: g) orc) as [st' E']. rewrite E' in E.
    injection E as <- _ <-. split; [reflexivity|]. split; [constructor|].
    intros o. exists []. split; [reflexivity| discriminate]. }
  destruct (keys_ok_tail _ _ _ KO) as (KO' & Hn1 & Ho1 & Hrs1).
  cbn [run_owners] in E.
  destruct (run_batches c ev o1 (chunks (c_batch c) rs1) (orc o1) false) as [[l st1] cx1] eqn:E1.
  destruct (run_batches_walk c ev o1 Ho1 _ _ 0%nat None _ _ _ E1 (OK o1)
              (fun b Hb => proj1 (chunks_bounds _ _ _ (c_batch_pos c) Hb)) (fun _ => I))
    as (f1 & W1 & Wcx1 & Wown1 & Wf1).
  destruct (run_owners c ev g orc cx1) as [[l2 st2] cx2] eqn:E2. injection E as <- _ <-.
  destruct (IH orc cx1 l2 st2 cx2 E2 KO' OK) as (C2 & O2 & F2).
  split; [cbn [orb]; rewrite existsb_app, <- Wcx1; exact C2|]. split.
  - apply Forall_app. split.
    + eapply Forall_impl; [|exact Wown1]. intros a Ha. left. symmetry. exact Ha.
    + eapply Forall_impl; [|exact O2]. intros a Ha. right. exact Ha.
  - intros o. rewrite (by_owner_head o o1 l l2 Wown1). cbn [g_get].
    destruct (N.eqb_spec o1 o) as [<-|Hne]; [|exact (F2 o)].
    rewrite by_owner_none, app_nil_r.
    + exists f1. split; [exact W1|]. intros Hc. apply Wf1.
      rewrite C2 in Hc. exact (proj1 (proj1 (orb_false_iff _ _) Hc)).
    + eapply Forall_impl; [|exact O2]. intros a Ha E. apply Hn1. rewrite <- E. exact Ha.
Qed.

Lemma run_owners_incl : forall g orc cx atts st cxf,
  run_owners c ev g orc cx = (atts, st, cxf) ->
  keys_ok g -> (forall o, orc_ok (orc o)) ->
  (forall o, In o (g_keys g) -> remote_contract (g_get o g) (orc o)) ->
  Forall (fun a => incl (att_routes a) (g_get (a_owner a) g)) atts.
Proof.
  induction g as [|[o1 rs1] g IH]; intros orc cx atts st cxf E KO OK RC; cbn [run_owners] in E.
  { inversion E; subst. constructor. }
  destruct (keys_ok_tail _ _ _ KO) as (KO' & Hn1 & Ho1 & Hrs1).
  destruct (run_batches c ev o1 (chunks (c_batch c) rs1) (orc o1) cx) as [[l st1] cx1] eqn:E1.
  destruct (run_owners c ev g orc cx1) as [[l2 st2] cx2] eqn:E2.
  inversion E; subst atts st cxf. clear E.
  apply Forall_app. split.
  - (* the attempts of o1 stay inside its batches, which make up rs1 *)
    pose proof (RC o1 (or_introl eq_refl)) as RC1. cbn [g_get] in RC1. rewrite N.eqb_refl in RC1.
    assert (Hb : forall b, In b (chunks (c_batch c) rs1) -> incl b rs1).
    { intros b Hb x Hx. rewrite <- (chunks_concat (c_batch c) rs1 (c_batch_pos c)).
      apply in_concat. exists b. auto. }
    eapply Forall_impl; [|exact (run_batches_incl c ev o1 rs1 Ho1 _ _ _ _ _ _ E1 (OK o1) RC1 Hb)].
    intros a [Ia ->]. cbn [g_get]. rewrite N.eqb_refl. exact Ia.
  - (* the later owners are not o1 *)
    destruct (run_owners_facts _ _ _ _ _ _ E2 KO' OK) as (_ & O2 & _).
    assert (Hne : forall o, In o (g_keys g) -> o1 =? o = false).
    { intros o Hin. apply N.eqb_neq. intros ->. exact (Hn1 Hin). }
    assert (A := IH orc cx1 l2 st2 cx2 E2 KO' OK).
    rewrite Forall_forall in *. intros a Ha. cbn [g_get]. rewrite (Hne _ (O2 a Ha)). apply A; [|exact Ha].
    intros o Hin. pose proof (RC o (or_intror Hin)) as R0. cbn [g_get] in R0.
    rewrite (Hne o Hin) in R0. exact R0.
Qed.

End Owners.
