(* Proof/CtrlFSM_handlers.v — the handler contract of Proof/CtrlFSM_frame.v discharged for the
   transcribed applyMutation (Model/CtrlFSM.v).

   Good s := Validate s /\ Normalize s = s /\ s_rev s < 2^64.
   For every handler and every command:
     - on a state with revision 0 it returns the state unchanged with a Noop/Rejected result
       (applyInit excepted: it may return the validated, normalized initial state, Changed);
     - on a Good state the outcome is Noop/Rejected with the state untouched, or Changed
       through validateChanged (revision + 1, validated, normalized), or Updated
       (applyReportNodeHealth: same revision, validated, only the health reports differ);
     - it never reads the checksum field ([*_ck] lemmas). *)
From WK Require Import Base.Base Base.Lists.
From WK Require Import Gen.Consts_C18 Model.CtrlFSM Proof.CtrlFSM_norm Proof.CtrlFSM_getset.
From Coq Require Import ZifyBool ZifyN ZifyNat.
Open Scope N_scope.

Definition two64 : N := 18446744073709551616.

Definition Good (s : CState) : Prop := Validate s = true /\ Normalize s = s /\ s_rev s < two64.

(* equal but for applied index and checksum; equal but for those and the health reports *)
Definition body_eq (a b : CState) : bool := CState_body_eqb (set_applied a 0) (set_applied b 0).
Definition logical_eq (a b : CState) : bool :=
  CState_body_eqb (set_health (set_applied a 0) []) (set_health (set_applied b 0) []).

Lemma Good_rev s : Good s -> s_rev s <> 0.
Proof. intros (V & _ & _). apply Validate_rev. exact V. Qed.

Definition good_ok (s s' : CState) (r : Result) : Prop :=
  Good s' /\ s_applied s' = s_applied s
  /\ (((r_class r = cNoop \/ r_class r = cRejected) /\ s' = s)
      \/ (r_class r = cChanged /\ s_rev s' = s_rev s + 1)
      \/ (r_class r = cUpdated /\ s_rev s' = s_rev s /\ logical_eq s' s = true)).

Definition uninit_ok (s s' : CState) (r : Result) : Prop :=
  s' = s /\ (r_class r = cNoop \/ r_class r = cRejected).

Definition handler_ok (s : CState) (p : CState * Result) : Prop :=
  (s_rev s = 0 -> uninit_ok s (fst p) (snd p)) /\ (Good s -> good_ok s (fst p) (snd p)).

Lemma ok_same s r : r_class r = cNoop \/ r_class r = cRejected -> handler_ok s (s, r).
Proof.
  intro Hc. split; intro H; cbn [fst snd].
  - split; [reflexivity|exact Hc].
  - split; [exact H|]. split; [reflexivity|]. left. split; [exact Hc|reflexivity].
Qed.

Lemma ok_reject s x : handler_ok s (s, reject x).
Proof. apply ok_same. right. reflexivity. Qed.

Lemma ok_noop s x : handler_ok s (s, noop x).
Proof. apply ok_same. left. reflexivity. Qed.

Lemma ok_post s p : s_rev s <> 0 -> (Good s -> good_ok s (fst p) (snd p)) -> handler_ok s p.
Proof. intros Hr H. split; [intro E; contradiction|exact H]. Qed.

Lemma wrap64_succ_lt x : wrap64_succ x < two64.
Proof. unfold wrap64_succ, wrap64, two64. apply N.mod_lt. discriminate. Qed.

Lemma wrap64_succ_no_wrap x : x < two64 -> wrap64_succ x <> 0 -> wrap64_succ x = x + 1.
Proof.
  unfold wrap64_succ, wrap64, two64. intros Hx Hnz.
  destruct (N.eq_dec (x + 1) 18446744073709551616) as [E|E].
  - exfalso. apply Hnz. rewrite E. apply N.mod_same. discriminate.
  - apply N.mod_small. lia.
Qed.

Lemma ok_changed s m cmd :
  s_rev s <> 0 -> s_rev m = s_rev s -> s_applied m = s_applied s -> handler_ok s (validateChanged (Normalize m) s cmd).
Proof.
  intros E Hr Ha. apply ok_post; [exact E|]. intro Hg. unfold validateChanged.
  set (n' := set_updated (set_rev (Normalize m) _) _).
  destruct (Validate n') eqn:V; [|exact (proj2 (ok_reject s _) Hg)].
  assert (Hrev : s_rev n' = wrap64_succ (s_rev s)) by (rewrite <- Hr; reflexivity).
  destruct Hg as (_ & _ & Hlt). cbn [fst snd]. split; [split; [exact V|split]|split].
  - subst n'. rewrite Normalize_set_updated, Normalize_set_rev, Normalize_idem. reflexivity.
  - rewrite Hrev. apply wrap64_succ_lt.
  - exact Ha.
  - right; left. split; [reflexivity|]. rewrite Hrev. apply wrap64_succ_no_wrap; [exact Hlt|].
    rewrite <- Hrev. apply Validate_rev, V.
Qed.

(* the shape shared by the upsert / replace handlers: the candidate is normalized; if the
   fields it touched are unchanged it is the state itself, a no-op, else validateChanged *)
Lemma ok_upsert s m cmd (same : bool) :
  s_rev s <> 0 -> s_rev m = s_rev s -> s_applied m = s_applied s ->
  (Normalize s = s -> same = true -> Normalize m = s) ->
  handler_ok s (if same then (Normalize m, noop ReasonNoChange) else validateChanged (Normalize m) s cmd).
Proof.
  intros E Hr Ha Hs. destruct same; [|apply ok_changed; assumption].
  apply ok_post; [exact E|]. intro Hg. rewrite (Hs (proj1 (proj2 Hg)) eq_refl). exact (proj2 (ok_noop s _) Hg).
Qed.

(* writing field [get] of a state whose normal form is s, and finding the field of s again
   after Normalize, gives s *)
Lemma set_noop {A} (get : CState -> A) (set : CState -> A -> CState) (nf : A -> A)
      (Hc : forall s v, Normalize (set s v) = set (Normalize s) (nf v))
      (Hg : forall s v, get (set s v) = v) (Hi : forall s, set s (get s) = s) s0 s v :
  Normalize s0 = s -> get s = get (Normalize (set s0 v)) -> Normalize (set s0 v) = s.
Proof. intros Hn E. rewrite Hc, Hn in *. rewrite Hg in E. rewrite <- E. apply Hi. Qed.

Definition controllers_noop := set_noop s_controllers set_controllers _ Normalize_set_controllers s_controllers_set_controllers set_controllers_id.
Definition nodes_noop := set_noop s_nodes set_nodes _ Normalize_set_nodes s_nodes_set_nodes set_nodes_id.
Definition slots_noop := set_noop s_slots set_slots _ Normalize_set_slots s_slots_set_slots set_slots_id.
Definition hashslots_noop := set_noop s_hashslots set_hashslots _ Normalize_set_hashslots s_hashslots_set_hashslots set_hashslots_id.
Definition tasks_noop := set_noop s_tasks set_tasks _ Normalize_set_tasks s_tasks_set_tasks set_tasks_id.
Definition sb_noop := set_noop s_sb set_sb _ Normalize_set_sb s_sb_set_sb set_sb_id.
Definition ops_noop := set_noop s_ops set_ops _ Normalize_set_ops s_ops_set_ops set_ops_id.

Lemma taskResultGuard_class t tr :
  hasApplyOutcome (taskResultGuard t tr) = true ->
  r_class (taskResultGuard t tr) = cNoop \/ r_class (taskResultGuard t tr) = cRejected.
Proof.
  unfold taskResultGuard.
  repeat match goal with |- context [if ?c then _ else _] => destruct c end;
    cbn; intro H; auto; discriminate.
Qed.

Lemma taskProgressGuard_class t tp :
  hasApplyOutcome (taskProgressGuard t tp) = true ->
  r_class (taskProgressGuard t tp) = cNoop \/ r_class (taskProgressGuard t tp) = cRejected.
Proof.
  unfold taskProgressGuard.
  repeat match goal with |- context [if ?c then _ else _] => destruct c end;
    cbn; intro H; auto; discriminate.
Qed.

(* Walks the guards of a handler body, remembering each test.  It first decides whether the
   revision is 0, stops at the no-op-or-validateChanged shape of [ok_upsert], and closes the
   leaves that return the state untouched or hand a candidate to validateChanged. *)
Ltac ok_walk s :=
  destruct (N.eqb_spec (s_rev s) 0);
  repeat (cbn [orb]; cbv beta iota zeta;
          lazymatch goal with
          | |- handler_ok _ (if _ then (Normalize ?m, noop _) else validateChanged (Normalize ?m) _ _) => fail
          | |- handler_ok _ (if ?c then _ else _) => destruct c eqn:?
          | |- handler_ok _ (match ?x with Some _ => _ | None => _ end) => destruct x eqn:?
          end);
  try apply ok_reject; try apply ok_noop; try (apply ok_changed; [assumption|reflexivity|reflexivity]).

Lemma applyUpsertNode_ok s cmd : handler_ok s (applyUpsertNode s cmd).
Proof.
  unfold applyUpsertNode. ok_walk s.
  apply ok_upsert; [assumption|reflexivity|reflexivity|]. intros Hn Heq.
  apply nodes_noop; [exact Hn|]. apply (list_eqb_spec Node_eqb Node_eqb_eq), Heq.
Qed.

Lemma applyUpdateControllerVoters_ok s cmd : handler_ok s (applyUpdateControllerVoters s cmd).
Proof.
  unfold applyUpdateControllerVoters. ok_walk s.
  apply ok_upsert; [assumption|reflexivity|reflexivity|]. intros Hn Heq.
  apply controllers_noop; [exact Hn|]. apply (list_eqb_spec Voter_eqb Voter_eqb_eq), Heq.
Qed.

Lemma applyReplaceHashSlotTable_ok s cmd : handler_ok s (applyReplaceHashSlotTable s cmd).
Proof.
  unfold applyReplaceHashSlotTable. ok_walk s.
  apply ok_upsert; [assumption|reflexivity|reflexivity|]. intros Hn Heq.
  apply hashslots_noop; [exact Hn|]. apply HTable_eqb_eq, Heq.
Qed.

Lemma applyReplaceScheduledBackupState_ok s cmd : handler_ok s (applyReplaceScheduledBackupState s cmd).
Proof.
  unfold applyReplaceScheduledBackupState. ok_walk s.
  apply ok_upsert; [assumption|reflexivity|reflexivity|]. intros Hn Heq.
  apply sb_noop; [exact Hn|]. apply (option_eqb_spec SBlob_eqb SBlob_eqb_eq), Heq.
Qed.

Lemma applyReplaceOpsMCPState_ok s cmd : handler_ok s (applyReplaceOpsMCPState s cmd).
Proof.
  unfold applyReplaceOpsMCPState. ok_walk s.
  apply ok_upsert; [assumption|reflexivity|reflexivity|]. intros Hn Heq.
  apply ops_noop; [exact Hn|]. apply (option_eqb_spec OBlob_eqb OBlob_eqb_eq), Heq.
Qed.

Lemma applyUpsertSlotAssignmentAndTask_ok s cmd : handler_ok s (applyUpsertSlotAssignmentAndTask s cmd).
Proof.
  unfold applyUpsertSlotAssignmentAndTask. ok_walk s.
  apply ok_upsert; [assumption|reflexivity|reflexivity|]. intros Hn Heq.
  apply andb_true_iff in Heq. destruct Heq as [H1 H2].
  apply tasks_noop; [apply slots_noop; [exact Hn|]; apply (list_eqb_spec Assign_eqb Assign_eqb_eq), H1|].
  apply (list_eqb_spec Task_eqb Task_eqb_eq), H2.
Qed.

Lemma applyUpsertSlotReplicaMoveTask_ok s cmd : handler_ok s (applyUpsertSlotReplicaMoveTask s cmd).
Proof.
  unfold applyUpsertSlotReplicaMoveTask. ok_walk s.
  apply ok_upsert; [assumption|reflexivity|reflexivity|]. intros Hn Heq.
  apply tasks_noop; [exact Hn|]. apply (list_eqb_spec Task_eqb Task_eqb_eq), Heq.
Qed.

(* handlers with fences: every guard returns the state untouched *)

Lemma applyAdvanceSlotReplicaMovePhase_ok s cmd : handler_ok s (applyAdvanceSlotReplicaMovePhase s cmd).
Proof. unfold applyAdvanceSlotReplicaMovePhase. ok_walk s. Qed.

Lemma applyCommitSlotReplicaMove_ok s cmd : handler_ok s (applyCommitSlotReplicaMove s cmd).
Proof. unfold applyCommitSlotReplicaMove. ok_walk s. Qed.

Lemma applyCompleteTask_ok s cmd : handler_ok s (applyCompleteTask s cmd).
Proof. unfold applyCompleteTask. ok_walk s. apply ok_same, taskResultGuard_class. assumption. Qed.

Lemma applyFailTask_ok s cmd : handler_ok s (applyFailTask s cmd).
Proof. unfold applyFailTask. ok_walk s. apply ok_same, taskResultGuard_class. assumption. Qed.

Lemma applyReportTaskProgress_ok s cmd : handler_ok s (applyReportTaskProgress s cmd).
Proof.
  unfold applyReportTaskProgress. ok_walk s.
  - apply ok_same, taskProgressGuard_class. assumption.
  - apply ok_upsert; [assumption|reflexivity|reflexivity|]. intros Hn Heq.
    apply tasks_noop; [exact Hn|]. apply (list_eqb_spec Task_eqb Task_eqb_eq), Heq.
Qed.

Lemma applyPromoteControllerVoter_ok s cmd : handler_ok s (applyPromoteControllerVoter s cmd).
Proof.
  unfold applyPromoteControllerVoter. ok_walk s.
  apply ok_upsert; [assumption|reflexivity|reflexivity|]. intros Hn Heq.
  apply andb_true_iff in Heq. destruct Heq as [H1 H2].
  apply nodes_noop; [apply controllers_noop; [exact Hn|]; apply (list_eqb_spec Voter_eqb Voter_eqb_eq), H1|].
  apply (list_eqb_spec Node_eqb Node_eqb_eq), H2.
Qed.

Lemma applyReportNodeHealth_ok s i cmd : handler_ok s (applyReportNodeHealth s i cmd).
Proof.
  unfold applyReportNodeHealth, upsertNodeHealthReport. ok_walk s; (apply ok_post; [assumption|]); intro Hg; cbn [fst snd].
  - (* no-op: the stored reports are put back *)
    replace (set_health _ (s_health s)) with s; [exact (proj2 (ok_noop s _) Hg)|].
    destruct Hg as (_ & Hn & _). rewrite Normalize_set_health, Hn. symmetry. exact (set_health_id s).
  - destruct Hg as (Hv & Hn & Hlt). split; [split; [|split; [apply Normalize_idem|exact Hlt]]|].
    + match goal with H : negb (Validate ?n) = false |- _ => destruct (Validate n); [reflexivity|discriminate H] end.
    + split; [reflexivity|]. right; right. split; [reflexivity|]. split; [reflexivity|].
      unfold logical_eq. rewrite Normalize_set_health, Hn. apply CState_body_eqb_refl.
Qed.

Lemma initialStateFromCommand_Good i issued idx st :
  initialStateFromCommand i issued idx = Some st ->
  Good st /\ s_rev st = 1 /\ s_applied st = idx.
Proof.
  unfold initialStateFromCommand.
  destruct (BuildInitialHashSlotTable _ _) as [table|]; [|discriminate].
  match goal with |- context [Validate ?x] => destruct (Validate x) eqn:V; [|discriminate] end.
  intro H. inversion H; subst st; clear H.
  split; [|split; reflexivity].
  split; [exact V|]. split; [apply Normalize_idem|].
  rewrite s_rev_Normalize. cbn [s_rev]. reflexivity.
Qed.

(* on a state with revision <> 0 applyInit never changes anything *)
Lemma applyInit_post s idx cmd : Good s -> good_ok s (fst (applyInit s idx cmd)) (snd (applyInit s idx cmd)).
Proof.
  intro Hg. pose proof (Good_rev _ Hg) as Hr. unfold applyInit.
  destruct (k_init cmd) as [i|]; [|apply (proj2 (ok_reject s _) Hg)].
  destruct (initialStateFromCommand i (k_issued cmd) idx) as [initial|]; [|apply (proj2 (ok_reject s _) Hg)].
  rewrite (proj2 (N.eqb_neq _ _) Hr).
  destruct (equivalentInit s initial); [apply (proj2 (ok_noop s _) Hg)|apply (proj2 (ok_reject s _) Hg)].
Qed.

(* before init it either installs the validated initial state or rejects *)
Lemma applyInit_pre s idx cmd : s_rev s = 0 ->
  let s' := fst (applyInit s idx cmd) in
  let r := snd (applyInit s idx cmd) in
  (s_rev s' = 0 -> s' = s /\ (r_class r = cNoop \/ r_class r = cRejected))
  /\ (s_rev s' <> 0 -> r_class r = cChanged /\ s_rev s' = 1 /\ s_applied s' = idx /\ Good s').
Proof.
  intro E. cbv zeta. unfold applyInit.
  assert (Hsame : forall x, (s_rev s = 0 -> s = s /\ (r_class (reject x) = cNoop \/ r_class (reject x) = cRejected))
                            /\ (s_rev s <> 0 -> r_class (reject x) = cChanged /\ s_rev s = 1 /\ s_applied s = idx /\ Good s))
    by (intro x; split; [intros _; split; [reflexivity|right; reflexivity]|intro H; contradiction]).
  destruct (k_init cmd) as [i|]; [|apply Hsame].
  destruct (initialStateFromCommand i (k_issued cmd) idx) as [initial|] eqn:Ei; [|apply Hsame].
  destruct (initialStateFromCommand_Good _ _ _ _ Ei) as (Hg & Hr & Ha).
  rewrite (proj2 (N.eqb_eq _ _) E). cbn [fst snd].
  split; [intro H; rewrite Hr in H; discriminate H|].
  intros _. split; [reflexivity|]. split; [exact Hr|]. split; [exact Ha|exact Hg].
Qed.

Lemma dispatch_ok s idx cmd : handler_ok s (dispatch s idx cmd).
Proof.
  unfold dispatch.
  destruct (bytes_eqb _ KindUpsertNode); [apply applyUpsertNode_ok|].
  destruct (bytes_eqb _ KindUpdateControllerVoters); [apply applyUpdateControllerVoters_ok|].
  destruct (bytes_eqb _ KindPromoteControllerVoter); [apply applyPromoteControllerVoter_ok|].
  destruct (bytes_eqb _ KindReplaceHashSlotTable); [apply applyReplaceHashSlotTable_ok|].
  destruct (bytes_eqb _ KindReplaceScheduledBackupState); [apply applyReplaceScheduledBackupState_ok|].
  destruct (bytes_eqb _ KindReplaceOpsMCPState); [apply applyReplaceOpsMCPState_ok|].
  destruct (bytes_eqb _ KindUpsertSlotAssignmentAndTask); [apply applyUpsertSlotAssignmentAndTask_ok|].
  destruct (bytes_eqb _ KindUpsertSlotReplicaMoveTask); [apply applyUpsertSlotReplicaMoveTask_ok|].
  destruct (bytes_eqb _ KindAdvanceSlotReplicaMovePhase); [apply applyAdvanceSlotReplicaMovePhase_ok|].
  destruct (bytes_eqb _ KindCommitSlotReplicaMove); [apply applyCommitSlotReplicaMove_ok|].
  destruct (bytes_eqb _ KindCompleteTask); [apply applyCompleteTask_ok|].
  destruct (bytes_eqb _ KindFailTask); [apply applyFailTask_ok|].
  destruct (bytes_eqb _ KindReportTaskProgress); [apply applyReportTaskProgress_ok|].
  destruct (bytes_eqb _ KindReportNodeHealth); [apply applyReportNodeHealth_ok|apply ok_reject].
Qed.

Lemma guarded_ok s idx cmd : handler_ok s (guarded s idx cmd).
Proof.
  unfold guarded. pose proof (dispatch_ok s idx cmd) as H.
  (* with_trans keeps the state and the class, which is all handler_ok looks at *)
  destruct (dispatch s idx cmd) as [n r]. destruct (r_class r =? cChanged); exact H.
Qed.

Lemma option_result_class (o : option Result) (P : Result -> Prop) :
  (forall r, o = Some r -> P r) -> forall r, o = Some r -> P r.
Proof. auto. Qed.

Ltac guard_classes f :=
  unfold f, revision_mismatch;
  repeat match goal with
         | |- context [if ?c then _ else _] => destruct c
         | |- context [match ?x with Some _ => _ | None => _ end] => destruct x
         end;
  intros r H; inversion H; subst; cbn; auto.

Lemma handleBootstrap_class cur cmd r :
  handleBootstrapRevisionMismatch cur cmd = Some r -> r_class r = cNoop \/ r_class r = cRejected.
Proof. revert r. guard_classes handleBootstrapRevisionMismatch. Qed.
Lemma handleLeaderTransfer_class cur cmd r :
  handleLeaderTransferRevisionMismatch cur cmd = Some r -> r_class r = cNoop \/ r_class r = cRejected.
Proof. revert r. guard_classes handleLeaderTransferRevisionMismatch. Qed.
Lemma handleFailTask_class cur cmd r :
  handleFailTaskRevisionMismatch cur cmd = Some r -> r_class r = cNoop \/ r_class r = cRejected.
Proof. revert r. guard_classes handleFailTaskRevisionMismatch. Qed.
Lemma handleTaskProgress_class cur cmd r :
  handleTaskProgressRevisionMismatch cur cmd = Some r -> r_class r = cNoop \/ r_class r = cRejected.
Proof. revert r. guard_classes handleTaskProgressRevisionMismatch. Qed.

Lemma opt_res_ok s (o : option Result) k :
  (forall r, o = Some r -> r_class r = cNoop \/ r_class r = cRejected) ->
  handler_ok s (k tt) -> handler_ok s (opt_res o s k).
Proof.
  intros Hc Hk. unfold opt_res. destruct o as [r|]; [|exact Hk]. apply ok_same. apply Hc. reflexivity.
Qed.

Lemma applyMutation_ok s idx term cmd :
  bytes_eqb (k_kind cmd) KindInitClusterState = false -> handler_ok s (applyMutation s idx term cmd).
Proof.
  intro Hk. unfold applyMutation. rewrite Hk.
  repeat match goal with
         | |- handler_ok _ (if ?c then _ else _) => destruct c
         | |- handler_ok _ (match ?x with Some _ => _ | None => _ end) => destruct x
         end;
    try apply ok_reject; try apply ok_noop; try apply guarded_ok;
    apply opt_res_ok; try apply guarded_ok.
  - intros r. apply handleBootstrap_class.
  - intros r. apply handleLeaderTransfer_class.
  - intros r. apply handleFailTask_class.
  - intros r. apply handleTaskProgress_class.
Qed.

(* the outcome with the checksum field of the returned state set to x *)
Definition ckmap (x : bytes) (p : CState * Result) : CState * Result := (set_checksum (fst p) x, snd p).

Lemma validateChanged_ck n b x cmd :
  validateChanged (set_checksum n x) (set_checksum b x) cmd = ckmap x (validateChanged n b cmd).
Proof.
  unfold validateChanged, ckmap.
  match goal with |- (if ?cl then _ else _) = (_ (fst (if ?cr then _ else _)) _, _) => change cl with cr; destruct cr end;
    reflexivity.
Qed.

(* [h (set_checksum s x) = ckmap x (h s)]: both sides branch on the same tests (a test reads
   getters other than s_checksum, so the left test converts to the right one); at a leaf the
   state is the input or a candidate built with setters, which commute with set_checksum by
   computation, possibly handed to validateChanged. *)
Ltac ck_walk x :=
  repeat (cbv beta iota zeta;
          lazymatch goal with
          | |- (if ?cl then _ else _) = ckmap x (if ?cr then _ else _) => change cl with cr; destruct cr
          | |- match ?ol with Some _ => _ | None => _ end = ckmap x (match ?or with Some _ => _ | None => _ end) =>
            change ol with or; destruct or
          end);
  lazymatch goal with
  | |- _ = ckmap x (validateChanged ?n ?b ?c) => exact (validateChanged_ck n b x c)
  | |- _ => reflexivity
  end.

Lemma applyUpsertNode_ck s x cmd : applyUpsertNode (set_checksum s x) cmd = ckmap x (applyUpsertNode s cmd).
Proof. unfold applyUpsertNode. ck_walk x. Qed.
Lemma applyUpdateControllerVoters_ck s x cmd : applyUpdateControllerVoters (set_checksum s x) cmd = ckmap x (applyUpdateControllerVoters s cmd).
Proof. unfold applyUpdateControllerVoters. ck_walk x. Qed.
Lemma applyPromoteControllerVoter_ck s x cmd : applyPromoteControllerVoter (set_checksum s x) cmd = ckmap x (applyPromoteControllerVoter s cmd).
Proof. unfold applyPromoteControllerVoter. ck_walk x. Qed.
Lemma applyReplaceHashSlotTable_ck s x cmd : applyReplaceHashSlotTable (set_checksum s x) cmd = ckmap x (applyReplaceHashSlotTable s cmd).
Proof. unfold applyReplaceHashSlotTable. ck_walk x. Qed.
Lemma applyReplaceScheduledBackupState_ck s x cmd : applyReplaceScheduledBackupState (set_checksum s x) cmd = ckmap x (applyReplaceScheduledBackupState s cmd).
Proof. unfold applyReplaceScheduledBackupState. ck_walk x. Qed.
Lemma applyReplaceOpsMCPState_ck s x cmd : applyReplaceOpsMCPState (set_checksum s x) cmd = ckmap x (applyReplaceOpsMCPState s cmd).
Proof. unfold applyReplaceOpsMCPState. ck_walk x. Qed.
Lemma applyUpsertSlotAssignmentAndTask_ck s x cmd : applyUpsertSlotAssignmentAndTask (set_checksum s x) cmd = ckmap x (applyUpsertSlotAssignmentAndTask s cmd).
Proof. unfold applyUpsertSlotAssignmentAndTask. ck_walk x. Qed.
Lemma applyUpsertSlotReplicaMoveTask_ck s x cmd : applyUpsertSlotReplicaMoveTask (set_checksum s x) cmd = ckmap x (applyUpsertSlotReplicaMoveTask s cmd).
Proof. unfold applyUpsertSlotReplicaMoveTask. ck_walk x. Qed.
Lemma applyAdvanceSlotReplicaMovePhase_ck s x cmd : applyAdvanceSlotReplicaMovePhase (set_checksum s x) cmd = ckmap x (applyAdvanceSlotReplicaMovePhase s cmd).
Proof. unfold applyAdvanceSlotReplicaMovePhase. ck_walk x. Qed.
Lemma applyCommitSlotReplicaMove_ck s x cmd : applyCommitSlotReplicaMove (set_checksum s x) cmd = ckmap x (applyCommitSlotReplicaMove s cmd).
Proof. unfold applyCommitSlotReplicaMove. ck_walk x. Qed.
Lemma applyCompleteTask_ck s x cmd : applyCompleteTask (set_checksum s x) cmd = ckmap x (applyCompleteTask s cmd).
Proof. unfold applyCompleteTask. ck_walk x. Qed.
Lemma applyFailTask_ck s x cmd : applyFailTask (set_checksum s x) cmd = ckmap x (applyFailTask s cmd).
Proof. unfold applyFailTask. ck_walk x. Qed.
Lemma applyReportTaskProgress_ck s x cmd : applyReportTaskProgress (set_checksum s x) cmd = ckmap x (applyReportTaskProgress s cmd).
Proof. unfold applyReportTaskProgress. ck_walk x. Qed.
Lemma applyReportNodeHealth_ck s x i cmd : applyReportNodeHealth (set_checksum s x) i cmd = ckmap x (applyReportNodeHealth s i cmd).
Proof. unfold applyReportNodeHealth. ck_walk x. Qed.

Lemma dispatch_ck s x i cmd : dispatch (set_checksum s x) i cmd = ckmap x (dispatch s i cmd).
Proof.
  unfold dispatch.
  rewrite applyUpsertNode_ck, applyUpdateControllerVoters_ck, applyPromoteControllerVoter_ck,
    applyReplaceHashSlotTable_ck, applyReplaceScheduledBackupState_ck, applyReplaceOpsMCPState_ck,
    applyUpsertSlotAssignmentAndTask_ck, applyUpsertSlotReplicaMoveTask_ck, applyAdvanceSlotReplicaMovePhase_ck,
    applyCommitSlotReplicaMove_ck, applyCompleteTask_ck, applyFailTask_ck, applyReportTaskProgress_ck,
    applyReportNodeHealth_ck.
  ck_walk x.
Qed.

Lemma guarded_ck s x i cmd : guarded (set_checksum s x) i cmd = ckmap x (guarded s i cmd).
Proof.
  unfold guarded. rewrite dispatch_ck. destruct (dispatch s i cmd) as [n r].
  unfold ckmap. cbn [fst snd]. destruct (r_class r =? cChanged); reflexivity.
Qed.

(* equal but for the checksum field.  applyInit returns the input state or a state built from
   the command alone; every other kind is a handler body over pre-guards and [guarded]. *)
Lemma applyMutation_ck s x i t cmd :
  set_checksum (fst (applyMutation (set_checksum s x) i t cmd)) [] = set_checksum (fst (applyMutation s i t cmd)) []
  /\ snd (applyMutation (set_checksum s x) i t cmd) = snd (applyMutation s i t cmd).
Proof.
  unfold applyMutation. destruct (bytes_eqb (k_kind cmd) KindInitClusterState).
  - unfold applyInit.
    destruct (k_init cmd) as [ic|]; [|split; reflexivity].
    destruct (initialStateFromCommand ic (k_issued cmd) i) as [initial|]; [|split; reflexivity].
    change (s_rev (set_checksum s x)) with (s_rev s).
    change (equivalentInit (set_checksum s x) initial) with (equivalentInit s initial).
    destruct (s_rev s =? 0); [|destruct (equivalentInit s initial)]; split; reflexivity.
  - match goal with |- _ (fst ?p) _ = _ (fst ?q) _ /\ _ => enough (E : p = ckmap x q) by (rewrite E; split; reflexivity) end.
    unfold opt_res. rewrite guarded_ck. ck_walk x.
Qed.

Lemma applyMutation_blind s1 s2 i t cmd :
  set_checksum s1 [] = set_checksum s2 [] ->
  set_checksum (fst (applyMutation s1 i t cmd)) [] = set_checksum (fst (applyMutation s2 i t cmd)) []
  /\ snd (applyMutation s1 i t cmd) = snd (applyMutation s2 i t cmd).
Proof.
  intro H.
  rewrite <- (set_checksum_id s1), <- (set_checksum_id s2).
  rewrite <- (set_checksum_set_checksum s1 [] (s_checksum s1)), <- (set_checksum_set_checksum s2 [] (s_checksum s2)).
  rewrite H.
  destruct (applyMutation_ck (set_checksum s2 []) (s_checksum s1) i t cmd) as [A1 A2].
  destruct (applyMutation_ck (set_checksum s2 []) (s_checksum s2) i t cmd) as [B1 B2].
  split; congruence.
Qed.
