(* Proof/MsgStore_step.v — groundwork of the forward simulation between
   Model/MsgStore.v and the C07 specification, for an arbitrary membership filter:
   the outcomes of validateAppendRow, rows built from records, commits, dumps, and
   the moves through which every API call changes the state ([moves], [step_moves]):
   C08 ([moves_Inv]) and C09 ([moves_effect]) prove their invariants by induction on
   [moves] and transfer them to every call through [step_moves]. *)
From WK Require Import Base.Base Base.Lists Model.KV Gen.Consts_C07 Model.MsgStore Model.MsgStore_C07
     Proof.KV Proof.MsgStore_base Proof.MsgStore_rel Proof.MsgStore_reads Proof.MsgStore_frame Proof.MsgStore_mut.
From Coq Require Import Sorting.Permutation Sorting.Sorted.

Lemma getRowBySeq_err_nonzero kv c q e : getRowBySeq kv c q = inr e -> e <> 0.
Proof.
  unfold getRowBySeq. destruct (q =? 0); [intro H; injection H as <-; discriminate|].
  destruct (kget (KyRow c q) kv) as [v|]; [|discriminate]. destruct v; try discriminate.
  unfold validateMaterializedMessageRow, bind. destruct (r_id r =? 0); [intro H; injection H as <-; discriminate|].
  destruct (negb _); [intro H; injection H as <-; discriminate|discriminate].
Qed.

Lemma lookupIdem_err_nonzero kv c u n e : lookupIdempotencyByKey kv c u n = inr e -> e <> 0.
Proof.
  unfold lookupIdempotencyByKey. destruct (kget (KyIdem c n u) kv) as [v|]; [|discriminate]. destruct v; try discriminate.
  destruct (getRowBySeq kv c seq) as [[r|]|e0] eqn:Eg; cbn [bind].
  - destruct (_ && _ && _ && _); [discriminate|intro H; injection H as <-; discriminate].
  - intro H; injection H as <-; discriminate.
  - intro H. injection H as <-. eapply getRowBySeq_err_nonzero. exact Eg.
Qed.

Lemma compat_err_nonzero c l : forall q e, compatibilityRowsFromRecords c q l = inr e -> e <> 0.
Proof.
  induction l as [|y l IH]; intros q e H; cbn [compatibilityRowsFromRecords] in H; [discriminate H|].
  destruct (negb (i_ridx y =? 0) && negb (i_ridx y =? q)); [injection H as <-; discriminate|].
  destruct (i_id y =? 0); [injection H as <-; discriminate|].
  destruct (negb (i_rid y =? 0) && negb (i_rid y =? i_id y)); [injection H as <-; discriminate|].
  destruct (compatibilityRowsFromRecords c (q + 1) l) as [rs|e0] eqn:E0; [discriminate H|].
  cbn [bind] in H. injection H as <-. eapply IH. exact E0.
Qed.

Lemma both_nonempty_nil u n : both_nonempty u n = negb (is_nil u || is_nil n).
Proof. unfold both_nonempty. destruct (is_nil u), (is_nil n); reflexivity. Qed.

Section Step.
  Variable F : Type.
  Variable f_empty : F.
  Variable f_may : F -> bytes * bytes -> bool.
  Variable f_add : F -> bytes * bytes -> F.

  Notation mstate := (mstate F).
  Notation R := (R F).
  Notation st_kv := (st_kv F).
  Notation st_log := (st_log F).
  Notation st_cache := (st_cache F).
  Notation loadLEOLocked := (loadLEOLocked F).
  Notation validateAppendRow := (validateAppendRow F f_may f_add).
  Notation validate_rows := (validate_rows F f_may f_add).

  Definition same_leo (st st' : mstate) : Prop :=
    forall c, cc_leo F (st_cache st' c) = cc_leo F (st_cache st c)
              /\ cc_loaded F (st_cache st' c) = cc_loaded F (st_cache st c).

  Definition volatile_only (st st' : mstate) : Prop :=
    st_kv st' = st_kv st /\ st_log st' = st_log st /\ same_leo st st'.

  Lemma volatile_refl st : volatile_only st st.
  Proof. split; [reflexivity|]. split; [reflexivity|]. intro c. split; reflexivity. Qed.

  Lemma volatile_trans a b c : volatile_only a b -> volatile_only b c -> volatile_only a c.
  Proof.
    intros [H1 [H2 H3]] [H4 [H5 H6]]. split; [congruence|]. split; [congruence|].
    intro x. destruct (H3 x), (H6 x). split; congruence.
  Qed.

  Lemma volatile_R st st' s : volatile_only st st' -> R st s -> R st' s.
  Proof.
    intros [Hk [_ Hl]] [HR Hc]. split; [rewrite Hk; exact HR|].
    intros c Hld. destruct (Hl c) as [E1 E2]. rewrite E1. apply Hc. rewrite <- E2. exact Hld.
  Qed.

  Lemma set_filter_volatile st c f b : volatile_only st (set_filter F st c f b).
  Proof.
    unfold set_filter, set_cache. split; [reflexivity|]. split; [reflexivity|].
    intro c'. cbn [MsgStore.st_cache]. destruct (c' =? c) eqn:E; [|split; reflexivity].
    apply N.eqb_eq in E. subst. split; reflexivity.
  Qed.

  Lemma ensure_volatile st c : volatile_only st (ensureIdempotencyMembershipLoaded F f_add st c).
  Proof.
    unfold ensureIdempotencyMembershipLoaded. destruct (cc_floaded F (st_cache st c)); [apply volatile_refl|].
    apply set_filter_volatile.
  Qed.

  Definition add_key (st : mstate) (c : N) (k : bytes * bytes) : mstate :=
    set_filter F st c (f_add (cc_filter F (st_cache st c)) k) true.

  (* A row is rejected before the membership filter is consulted, or after it was
     loaded; accepted without a (sender, client msg no) pair; accepted with one by a
     trusted append (the key goes into the filter only if that is loaded) or after the
     check (filter loaded, key added).  Everything else about the function is in
     [validateAppendRow_must] (Proof/MsgStore_C08.v). *)
  Inductive validated (st : mstate) (c : N) (r : row) (sn : seen) (mode : N) : mstate * res seen -> Prop :=
  | V_reject e : e <> 0 -> validated st c r sn mode (st, inr e)
  | V_reject_loaded e :
      (mode =? AppendTrustedContiguous) = false -> e <> 0 ->
      validated st c r sn mode (ensureIdempotencyMembershipLoaded F f_add st c, inr e)
  | V_no_pair :
      r_id r <> 0 -> mem_N (r_id r) (sn_ids sn) = false -> both_nonempty (r_uid r) (r_cno r) = false ->
      validated st c r sn mode (st, inl (Seen (r_id r :: sn_ids sn) (sn_keys sn)))
  | V_trusted :
      r_id r <> 0 -> mem_N (r_id r) (sn_ids sn) = false -> both_nonempty (r_uid r) (r_cno r) = true ->
      mem_pair (r_uid r, r_cno r) (sn_keys sn) = false -> (mode =? AppendTrustedContiguous) = true ->
      validated st c r sn mode
        (if cc_floaded F (st_cache st c) then add_key st c (r_cno r, r_uid r) else st,
         inl (Seen (r_id r :: sn_ids sn) ((r_uid r, r_cno r) :: sn_keys sn)))
  | V_checked :
      r_id r <> 0 -> mem_N (r_id r) (sn_ids sn) = false -> both_nonempty (r_uid r) (r_cno r) = true ->
      mem_pair (r_uid r, r_cno r) (sn_keys sn) = false -> (mode =? AppendTrustedContiguous) = false ->
      validated st c r sn mode
        (add_key (ensureIdempotencyMembershipLoaded F f_add st c) c (r_cno r, r_uid r),
         inl (Seen (r_id r :: sn_ids sn) ((r_uid r, r_cno r) :: sn_keys sn))).

  Lemma validateAppendRow_validated st c r sn mode : validated st c r sn mode (validateAppendRow st c r sn mode).
  Proof.
    unfold MsgStore.validateAppendRow.
    destruct (r_id r =? 0) eqn:Ei; [apply V_reject; discriminate|]. apply N.eqb_neq in Ei.
    destruct (mem_N (r_id r) (sn_ids sn)) eqn:Em; [apply V_reject; discriminate|].
    destruct (if mode =? AppendStrict then _ else false); [apply V_reject; discriminate|].
    pose proof (both_nonempty_nil (r_uid r) (r_cno r)) as Eb.
    destruct (is_nil (r_uid r) || is_nil (r_cno r)); cbn [negb] in Eb; [apply V_no_pair; assumption|].
    cbn [sn_ids sn_keys]. destruct (mem_pair (r_uid r, r_cno r) (sn_keys sn)) eqn:Ep; [apply V_reject; discriminate|].
    destruct (mode =? AppendTrustedContiguous) eqn:Et; [apply V_trusted; assumption|].
    destruct (negb (f_may _ _)); [apply V_checked; assumption|].
    destruct (lookupIdempotencyByKey _ c (r_uid r) (r_cno r)) as [[[[q i] h]|]|e] eqn:El.
    - destruct (negb (q =? r_seq r)); [apply V_reject_loaded; [exact Et|discriminate]|apply V_checked; assumption].
    - apply V_checked; assumption.
    - apply V_reject_loaded; [exact Et|eapply lookupIdem_err_nonzero; exact El].
  Qed.

  Lemma validateAppendRow_volatile st c r sn mode :
    volatile_only st (fst (validateAppendRow st c r sn mode)).
  Proof.
    destruct (validateAppendRow_validated st c r sn mode); cbn [fst].
    - apply volatile_refl.
    - apply ensure_volatile.
    - apply volatile_refl.
    - destruct (cc_floaded F (st_cache st c)); [apply set_filter_volatile|apply volatile_refl].
    - eapply volatile_trans; [apply ensure_volatile|apply set_filter_volatile].
  Qed.

  Lemma validate_rows_volatile rows : forall st c sn mode,
    volatile_only st (fst (validate_rows st c rows sn mode)).
  Proof.
    induction rows as [|r rows IH]; intros st c sn mode; cbn [MsgStore.validate_rows fst]; [apply volatile_refl|].
    pose proof (validateAppendRow_volatile st c r sn mode) as H1.
    destruct (validateAppendRow st c r sn mode) as [st1 [sn1|e]]; cbn [fst] in H1 |- *; [|exact H1].
    eapply volatile_trans; [exact H1|apply IH].
  Qed.

  Lemma validateAppendRow_id st c r sn mode st' sn' :
    validateAppendRow st c r sn mode = (st', inl sn') -> r_id r <> 0.
  Proof.
    intro E. pose proof (validateAppendRow_validated st c r sn mode) as V. rewrite E in V. inversion V; assumption.
  Qed.

  Lemma validate_rows_ids rows : forall st c sn mode st' sn',
    validate_rows st c rows sn mode = (st', inl sn') -> Forall (fun r => r_id r <> 0) rows.
  Proof.
    induction rows as [|r rows IH]; intros st c sn mode st' sn' H; [constructor|].
    cbn [MsgStore.validate_rows] in H.
    destruct (validateAppendRow st c r sn mode) as [st1 [sn1|e]] eqn:E; [|discriminate].
    constructor; [eapply validateAppendRow_id; exact E|eapply IH; exact H].
  Qed.

  Lemma validateAppendRow_err_nonzero st c r sn mode st' e :
    validateAppendRow st c r sn mode = (st', inr e) -> e <> 0.
  Proof.
    intro E. pose proof (validateAppendRow_validated st c r sn mode) as V. rewrite E in V. inversion V; assumption.
  Qed.

  Lemma validate_err_nonzero rows : forall st c sn mode st' e,
    validate_rows st c rows sn mode = (st', inr e) -> e <> 0.
  Proof.
    induction rows as [|r rows IH]; intros st c sn mode st' e H; cbn [MsgStore.validate_rows] in H; [discriminate H|].
    destruct (validateAppendRow st c r sn mode) as [st1 [sn1|e1]] eqn:Er.
    - eapply IH. exact H.
    - injection H as _ <-. eapply validateAppendRow_err_nonzero. exact Er.
  Qed.

  Lemma rows_from_consec c recs : forall q, consec q (rows_from c q recs).
  Proof. induction recs as [|x recs IH]; intro q; cbn [rows_from consec]; [exact I|]. split; [reflexivity|apply IH]. Qed.

  Lemma rows_from_arows c recs : forall q, map arow_of (rows_from c q recs) = msgs_from c q (map typed recs).
  Proof.
    induction recs as [|x recs IH]; intro q; cbn [rows_from map msgs_from]; [reflexivity|].
    rewrite IH. f_equal.
  Qed.

  Lemma rows_from_ok c recs : forall q, 1 <= q ->
    Forall (fun r => r_id r <> 0) (rows_from c q recs) -> Forall (row_ok c) (rows_from c q recs).
  Proof.
    induction recs as [|x recs IH]; intros q Hq H; cbn [rows_from] in *; [constructor|].
    inversion H as [|? ? H1 H2]; subst. constructor; [|apply IH; [lia|exact H2]].
    unfold row_ok, recordToRow. cbn. repeat split; [exact H1|lia].
  Qed.

  Lemma rows_from_length c recs : forall q, length (rows_from c q recs) = length recs.
  Proof. induction recs as [|x recs IH]; intro q; cbn [rows_from length]; [reflexivity|]. rewrite IH. reflexivity. Qed.

  Lemma consec_last q rows : consec q rows -> rows <> [] -> last_seq rows + 1 = q + N.of_nat (length rows).
  Proof.
    revert q. induction rows as [|r rows IH]; intros q Hc Hne; [contradiction|].
    destruct Hc as [Hs Hc]. destruct rows as [|r2 rows].
    - unfold last_seq. cbn. lia.
    - assert (E : last_seq (r :: r2 :: rows) = last_seq (r2 :: rows)).
      { unfold last_seq. cbn [rev]. destruct (rev rows ++ [r2]) eqn:E2; [destruct (rev rows); discriminate|reflexivity]. }
      rewrite E, (IH (q + 1) Hc) by discriminate. cbn [length]. lia.
  Qed.

  Lemma consec_first q rows : consec q rows -> rows <> [] -> first_seq rows = q.
  Proof. destruct rows as [|r rows]; [contradiction|]. intros [H _] _. exact H. Qed.

  Lemma compat_rows c recs : forall q rows, compatibilityRowsFromRecords c q recs = ok rows ->
    consec q rows /\ map arow_of rows = msgs_from c q recs /\ length rows = length recs
    /\ Forall (fun r => r_ch r = c /\ r_id r <> 0 /\ r_hash r = hashPayload (r_payload r)) rows.
  Proof.
    induction recs as [|x recs IH]; intros q rows H; cbn [compatibilityRowsFromRecords] in H.
    - injection H as <-. repeat split; constructor.
    - destruct (negb (i_ridx x =? 0) && negb (i_ridx x =? q)); [discriminate|].
      destruct (i_id x =? 0) eqn:Ei; [discriminate|].
      destruct (negb (i_rid x =? 0) && negb (i_rid x =? i_id x)); [discriminate|].
      destruct (compatibilityRowsFromRecords c (q + 1) recs) as [rs|e] eqn:E; [|discriminate].
      cbn [bind ok] in H. injection H as <-. destruct (IH _ _ E) as [H1 [H2 [H3 H4]]].
      split; [split; [reflexivity|exact H1]|]. split; [cbn [map msgs_from]; rewrite H2; reflexivity|].
      split; [cbn [length]; rewrite H3; reflexivity|].
      constructor; [|exact H4]. cbn. repeat split. apply N.eqb_neq. exact Ei.
  Qed.

  Lemma consec_ok c q rows : 1 <= q -> consec q rows ->
    Forall (fun r => r_ch r = c /\ r_id r <> 0 /\ r_hash r = hashPayload (r_payload r)) rows -> Forall (row_ok c) rows.
  Proof.
    revert q. induction rows as [|r rows IH]; intros q Hq Hc H; [constructor|].
    destruct Hc as [Hs Hc]. inversion H as [|? ? [H1 [H2 H3]] H4]; subst.
    constructor; [repeat split; try assumption; lia|apply (IH (r_seq r + 1)); [lia|exact Hc|exact H4]].
  Qed.

  Lemma commit_kv st b : st_kv (commit F st b) = kapply (st_kv st) b.
  Proof. reflexivity. Qed.

  Lemma commit_cache st b : st_cache (commit F st b) = st_cache st.
  Proof. reflexivity. Qed.

  Lemma R_commit_set_leo st s s' c b leo :
    R st s -> Rkv (kapply (st_kv st) b) s' ->
    al_leo (as_log s' c) = leo ->
    (forall c', c' <> c -> al_leo (as_log s' c') = al_leo (as_log s c')) ->
    R (set_leo F (commit F st b) c leo) s'.
  Proof.
    intros [_ Hc] Hk Hl Ho. split; [exact Hk|].
    intros c' Hld. unfold set_leo, set_cache in *. cbn [MsgStore.st_cache] in *.
    destruct (c' =? c) eqn:E.
    - apply N.eqb_eq in E. subst c'. cbn [cc_leo]. symmetry. exact Hl.
    - apply N.eqb_neq in E. rewrite (Ho _ E). apply Hc. exact Hld.
  Qed.

  Lemma R_commit_same_leo st s s' b :
    R st s -> Rkv (kapply (st_kv st) b) s' ->
    (forall c', al_leo (as_log s' c') = al_leo (as_log s c')) ->
    R (commit F st b) s'.
  Proof.
    intros [_ Hc] Hk Ho. split; [exact Hk|]. intros c' Hld. rewrite Ho. apply Hc. exact Hld.
  Qed.

  (* the observations the harness takes after a step, as [step_dump] computes them *)
  Definition dumps_of (compact : bool) (o : op) (x : out) (st1 : mstate) : mstate * list dump :=
    match o with
    | OReopen => dump_chans F st1 all_chans
    | OCBatch _ => if compact then (st1, []) else dump_chans F st1 all_chans
    | _ => if is_mutation o && negb compact
           then let '(st2, d) := dump_chan F st1 (op_chan o) (new_range o x) in (st2, [d])
           else (st1, [])
    end.

  Lemma step_dump_eq compact st o :
    step_dump F f_empty f_may f_add compact st o
    = let '(st1, x) := step F f_empty f_may f_add st o in
      let '(st2, ds) := dumps_of compact o x st1 in (st2, x, ds).
  Proof. reflexivity. Qed.

  Lemma dumps_of_cases compact o x st1 :
    dumps_of compact o x st1 = (st1, [])
    \/ (dumps_of compact o x st1 = dump_chans F st1 all_chans /\ new_range o x = None)
    \/ dumps_of compact o x st1 = (let '(st2, d) := dump_chan F st1 (op_chan o) (new_range o x) in (st2, [d])).
  Proof.
    destruct o; cbn [dumps_of is_mutation andb]; destruct compact; cbn [negb andb];
      try (left; reflexivity); try (right; right; reflexivity); right; left; (split; [reflexivity|]);
      try reflexivity; destruct x; reflexivity.
  Qed.

  Lemma dumps_of_read compact o x st1 : is_read o = true -> dumps_of compact o x st1 = (st1, []).
  Proof. destruct o; try discriminate; intros _; reflexivity. Qed.

  Lemma Read_all st s c rows : R st s -> Rchan (st_kv st) s c rows -> Read F st c 1 0 0 = ok rows.
  Proof.
    intros [Hk _] Rc. unfold Read. cbn [N.eqb]. rewrite (readForward_all _ _ _ _ 1 0 (rk_wf _ _ Hk) Rc).
    f_equal. apply filter_all. intros r Hr.
    assert (Hok : row_ok c r) by (eapply Forall_forall; [apply Rc|exact Hr]).
    destruct Hok as [_ [_ [_ H1]]]. apply N.leb_le in H1. rewrite H1. reflexivity.
  Qed.

  Lemma dump_chan_ok st s c nr : R st s ->
    R (fst (dump_chan F st c nr)) s
    /\ st_kv (fst (dump_chan F st c nr)) = st_kv st /\ st_log (fst (dump_chan F st c nr)) = st_log st
    /\ spec_check_dump s nr (snd (dump_chan F st c nr)) = true.
  Proof.
    intro HR. unfold dump_chan.
    destruct (loadLEO_R F st s c HR) as [H1 [H2 [H3 H4]]].
    destruct (loadLEOLocked st c) as [st' leo]. cbn [fst snd] in *.
    split; [exact H2|]. split; [exact H3|]. split; [exact H4|].
    destruct H2 as [Hk Hc]. destruct (rk_chan _ _ Hk c) as [rows Rc].
    rewrite (Read_all st' s c rows (conj Hk Hc) Rc).
    assert (Hnews : match nr with
                    | None => inl []
                    | Some (f, n) => match Read F st' c f n 0 with inl rs => inl (map messageFromRow rs) | inr e => inr e end
                    end = inl (match nr with None => [] | Some (f, n) => spec_read (as_log s c) f n 0 end)).
    { destruct nr as [[f n]|]; [|reflexivity]. unfold Read.
      destruct (readForward_spec_read _ _ _ _ f n 0 (rk_wf _ _ Hk) Rc) as [X [E HX]].
      rewrite E, <- HX. reflexivity. }
    rewrite Hnews. cbn [spec_check_dump]. rewrite H1, N.eqb_refl. cbn [andb].
    rewrite (Rchan_amsgs _ _ _ _ Rc), !map_map. cbn [compact mcompact m_seq m_id m_hash messageFromRow].
    unfold ok. cbv iota beta.
    change (map (fun x : row => mcompact (messageFromRow x)) rows) with (map compact rows).
    rewrite (list_eqb_refl triple_eqb triple_eqb_refl). cbn [andb]. apply msgs_eqb_refl.
  Qed.

  Definition no_idem_put (b : kbatch) : Prop :=
    Forall (fun o => match o with Put (KyIdem _ _ _) _ => False | _ => True end) b.

  Lemma no_idem_put_app b1 b2 : no_idem_put b1 -> no_idem_put b2 -> no_idem_put (b1 ++ b2).
  Proof. intros. apply Forall_app. split; assumption. Qed.
  Lemma no_idem_catalog c : no_idem_put (stageCatalog c).
  Proof. repeat constructor. Qed.
  Lemma no_idem_catalog_for_append c b : no_idem_put (stageCatalogForAppend c b).
  Proof. unfold stageCatalogForAppend. destruct (1 <? b); [constructor|apply no_idem_catalog]. Qed.
  Lemma no_idem_ckpt c ck : no_idem_put (ckpt_put c ck).
  Proof. destruct ck as [[e l] h]. repeat constructor. Qed.
  Lemma no_idem_deletes c rows : no_idem_put (flat_map (stageDeleteMessage c) rows).
  Proof.
    induction rows as [|r rows IH]; cbn [flat_map]; [constructor|]. apply no_idem_put_app; [|exact IH].
    unfold stageDeleteMessage. repeat (apply no_idem_put_app);
      repeat match goal with |- context [if ?b then _ else _] => destruct b end; repeat constructor.
  Qed.
  Lemma no_idem_truncate kv c to retb msgs :
    retentionStateAfterTruncate kv c to = ok retb ->
    no_idem_put (stageTruncateDurableProposals c to ++ flat_map (stageDeleteMessage c) msgs ++ retb ++ stageCatalog c).
  Proof.
    intro Er. apply no_idem_put_app; [repeat constructor|]. apply no_idem_put_app; [apply no_idem_deletes|].
    apply no_idem_put_app; [|apply no_idem_catalog].
    unfold retentionStateAfterTruncate in Er. destruct (loadRetentionState kv c) as [[[l p] rm]|]; [|injection Er as <-; constructor].
    destruct (to <? l); [discriminate|]. destruct (to <? rm); injection Er as <-; repeat constructor.
  Qed.

  (* Every API call changes the state through these moves only; the index lists the
     batches committed on the way.  Idempotency entries are committed for rows that
     [validate_rows] has just accepted ([M_append]); only StoreAppendBatch commits
     them otherwise ([free], finding C08-K1). *)
  Inductive moves (free : bool) : mstate -> mstate -> list kbatch -> Prop :=
  | M_refl st : moves free st st []
  | M_seq st1 st2 st3 bs1 bs2 : moves free st1 st2 bs1 -> moves free st2 st3 bs2 -> moves free st1 st3 (bs1 ++ bs2)
  | M_cache st c leo loaded :   (* log end published, loaded or dropped; the filter stays *)
      moves free st (set_cache F st c (CC F leo loaded (cc_filter F (st_cache st c)) (cc_floaded F (st_cache st c)))) []
  | M_validate st c rows sn mode : moves free st (fst (validate_rows st c rows sn mode)) []
  | M_reopen st : moves free st (reopen F f_empty st) []
  | M_commit st b : no_idem_put b -> moves free st (commit F st b) [b]
  | M_append st c rows sn mode st2 sn' rest :
      validate_rows st c rows sn mode = (st2, inl sn') -> no_idem_put rest ->
      moves free st (commit F st2 (stageMessageRows c rows ++ rest)) [stageMessageRows c rows ++ rest]
  | M_commit_free st b : free = true -> moves free st (commit F st b) [b].

  Lemma M_set_leo free st c leo : moves free st (set_leo F st c leo) [].
  Proof. exact (M_cache free st c leo true). Qed.

  Lemma M_leo free st c : moves free st (fst (loadLEOLocked st c)) [].
  Proof. unfold MsgStore.loadLEOLocked. destruct (cc_loaded F (st_cache st c)); [apply M_refl|apply M_cache]. Qed.

  Lemma moves_then free st1 st2 st3 bs : moves free st1 st2 [] -> moves free st2 st3 bs -> moves free st1 st3 bs.
  Proof. intros H1 H2. exact (M_seq free _ _ _ _ _ H1 H2). Qed.

  Lemma moves_finally free st1 st2 st3 bs : moves free st1 st2 bs -> moves free st2 st3 [] -> moves free st1 st3 bs.
  Proof. intros H1 H2. rewrite <- (app_nil_r bs). exact (M_seq free _ _ _ _ _ H1 H2). Qed.

  (* all calls but the paged DiscardForRestore commit at most one batch *)
  Definition bounded (o : op) (bs : list kbatch) : Prop :=
    match o with ODiscard _ => False | _ => True end -> (length bs <= 1)%nat.

  Definition moves1 free st st' : Prop := exists bs, moves free st st' bs /\ (length bs <= 1)%nat.

  Lemma moves1_quiet free st st' : moves free st st' [] -> moves1 free st st'.
  Proof. intro H. exists []. split; [exact H|cbn; lia]. Qed.

  Lemma moves1_commit free st st1 st2 st3 b :
    moves free st st1 [] -> moves free st1 st2 [b] -> moves free st2 st3 [] -> moves1 free st st3.
  Proof. intros H1 H2 H3. exists [b]. split; [|cbn; lia]. eapply moves_then; [exact H1|]. eapply moves_finally; eassumption. Qed.

  Lemma walk_moves free st c recs mode base :
    match walkAppendRowsLocked F f_may f_add st c recs mode base with
    | (st1, inr _) => moves free st st1 []
    | (st1, inl rows) =>
      moves free st st1 []
      /\ forall rest, no_idem_put rest ->
           exists st0, moves free st st0 []
             /\ moves free st0 (commit F st1 (stageMessageRows c rows ++ rest)) [stageMessageRows c rows ++ rest]
    end.
  Proof.
    unfold walkAppendRowsLocked. destruct (negb (valid_mode mode)); [apply M_refl|].
    pose proof (M_leo free st c) as H1. destruct (loadLEOLocked st c) as [st1 leo]. cbn [fst] in H1.
    destruct (_ && _); [exact H1|].
    destruct recs as [|x recs].
    - split; [exact H1|]. intros rest Hr. exists st1. split; [exact H1|]. exact (M_commit free st1 rest Hr).
    - pose proof (M_validate free st1 c (rows_from c (leo + 1) (x :: recs)) (Seen [] []) mode) as H2.
      destruct (validate_rows st1 c _ _ mode) as [st2 [sn|e]] eqn:Ev; cbn [fst] in H2.
      + split; [eapply moves_then; eassumption|]. intros rest Hr. exists st1. split; [exact H1|]. eapply M_append; eassumption.
      + eapply moves_then; eassumption.
  Qed.

  Lemma cbatch_items_moves all items : forall st, moves true st (fst (fst (fst (cbatch_items F f_may f_add st all items)))) [].
  Proof.
    induction items as [|[[c m] recs] items IH]; intro st; cbn [cbatch_items fst]; [apply M_refl|].
    assert (Hrest : forall st1, moves true st st1 [] ->
              forall r, moves true st (fst (fst (fst (let '(st', rs, bs, ls) := cbatch_items F f_may f_add st1 all items in (st', r :: rs, bs, ls))))) []).
    { intros st1 H1 r. specialize (IH st1). destruct (cbatch_items F f_may f_add st1 all items) as [[[st' rs] bs] ls].
      cbn [fst] in *. eapply moves_then; eassumption. }
    destruct (1 <? count_chan all c)%nat; [apply Hrest, M_refl|].
    pose proof (M_leo true st c) as H1. destruct (loadLEOLocked st c) as [st1 base]. cbn [fst] in H1.
    destruct recs as [|x recs]; [apply Hrest, H1|].
    destruct (compatibilityRowsFromRecords c (base + 1) (x :: recs)) as [rows|e]; [|apply Hrest, H1].
    pose proof (M_validate true st1 c rows (Seen [] []) (if m =? 1 then AppendServerAllocatedMessageID else AppendStrict)) as H2.
    destruct (validate_rows st1 c rows (Seen [] []) _) as [st2 [sn|e]]; cbn [fst] in H2.
    - specialize (IH st2). destruct (cbatch_items F f_may f_add st2 all items) as [[[st' rs] bs] ls]. cbn [fst] in *.
      eapply moves_then; [exact H1|]. eapply moves_then; eassumption.
    - apply Hrest. eapply moves_then; eassumption.
  Qed.

  Lemma fold_set_leo_moves free ls : forall st, moves free st (fold_left (fun s cl => set_leo F s (fst cl) (snd cl)) ls st) [].
  Proof.
    induction ls as [|x ls IH]; intro st; cbn [fold_left]; [apply M_refl|].
    eapply moves_then; [apply M_set_leo|apply IH].
  Qed.

  Lemma discard_pages_moves fuel : forall st c next, exists bs, moves false st (fst (discard_pages F fuel st c next)) bs.
  Proof.
    induction fuel as [|fuel IH]; intros st c next; cbn [discard_pages]; [exists []; apply M_refl|].
    destruct (readForward (st_kv st) c next 0 _ _) as [[|r rows]|e]; try (exists []; apply M_refl).
    pose proof (M_commit false st _ (no_idem_deletes c (r :: rows))) as H1.
    destruct (last_seq (r :: rows) <? next); [eexists; exact H1|].
    destruct (IH (commit F st (flat_map (stageDeleteMessage c) (r :: rows))) c (last_seq (r :: rows) + 1)) as [bs H2].
    eexists. eapply M_seq; eassumption.
  Qed.

  Definition is_batch (o : op) : bool := match o with OCBatch _ => true | _ => false end.

  Theorem step_moves st o :
    exists bs, moves (is_batch o) st (fst (step F f_empty f_may f_add st o)) bs /\ bounded o bs.
  Proof.
    assert (Hb : forall free st', moves1 free st st' -> exists bs, moves free st st' bs /\ bounded o bs).
    { intros free st' [bs [H1 H2]]. exists bs. split; [exact H1|intros _; exact H2]. }
    destruct o; cbn [MsgStore.step is_batch];
      try (apply Hb, moves1_quiet, M_refl).
    - apply Hb. unfold Append. pose proof (walk_moves false st c recs mode base) as H.
      destruct (walkAppendRowsLocked F f_may f_add st c recs mode base) as [st1 [[|r rows]|e]]; cbn [fst];
        try (apply moves1_quiet, H).
      destruct H as [_ H]. destruct (H _ (no_idem_catalog_for_append c (first_seq (r :: rows)))) as [st0 [H1 H2]].
      eapply moves1_commit; [exact H1|exact H2|apply M_set_leo].
    - apply Hb. unfold ApplyFetch. pose proof (walk_moves false st c recs AppendTrustedContiguous base) as H.
      destruct (walkAppendRowsLocked F f_may f_add st c recs AppendTrustedContiguous base) as [st1 [rows|e]]; cbn [fst];
        [|apply moves1_quiet, H].
      destruct H as [Hq H].
      destruct (match ck with Some k => _ | None => ok tt end); [|apply moves1_quiet, Hq].
      destruct (match ep with Some (epoch, off) => _ | None => ok false end) as [we|e]; [|apply moves1_quiet, Hq].
      assert (Hrest : no_idem_put ((match ck with Some k => ckpt_put c k | None => [] end)
                        ++ (match ep with Some (epoch, off) => if we then [Put (KyHist c off epoch) VUnit] else [] | None => [] end)
                        ++ (match rows with [] => stageCatalog c | _ => stageCatalogForAppend c (first_seq rows) end))).
      { apply no_idem_put_app; [destruct ck; [apply no_idem_ckpt|constructor]|].
        apply no_idem_put_app; [destruct ep as [[? ?]|]; [destruct we; repeat constructor|constructor]|].
        destruct rows; [apply no_idem_catalog|apply no_idem_catalog_for_append]. }
      destruct (H _ Hrest) as [st0 [H1 H2]].
      destruct rows as [|r rows]; [destruct ck; [|destruct we]|destruct ck; [|destruct we]]; cbn [fst];
        try (apply moves1_quiet, Hq);
        try (eapply moves1_commit; [exact H1|exact H2|apply M_refl]);
        (eapply moves1_commit; [exact H1|exact H2|apply M_set_leo]).
    - apply Hb. unfold CAppend. pose proof (M_leo false st c) as H1. destruct (loadLEOLocked st c) as [st1 base]. cbn [fst] in H1.
      destruct recs as [|x recs]; [apply moves1_quiet, H1|].
      destruct (compatibilityRowsFromRecords c (base + 1) (x :: recs)) as [rows|e]; [|apply moves1_quiet, H1].
      pose proof (M_validate false st1 c rows (Seen [] []) mode) as H2.
      destruct (validate_rows st1 c rows (Seen [] []) mode) as [st2 [sn|e]] eqn:Ev; cbn [fst] in *.
      + eapply moves1_commit; [exact H1|eapply M_append; [exact Ev|apply no_idem_catalog_for_append]|apply M_set_leo].
      + apply moves1_quiet. eapply moves_then; eassumption.
    - apply Hb. unfold CBatch. pose proof (cbatch_items_moves items items st) as H.
      destruct (cbatch_items F f_may f_add st items items) as [[[st1 rs] bs] ls]. cbn [fst] in H.
      destruct bs as [|b bs]; cbn [fst]; [apply moves1_quiet, H|].
      eapply moves1_commit; [exact H|apply M_commit_free; reflexivity|apply fold_set_leo_moves].
    - apply Hb. unfold TruncateFrom. pose proof (M_leo false st c) as H. destruct (loadLEOLocked st c) as [st1 leo]. cbn [fst] in H.
      destruct (leo <? _); [apply moves1_quiet, H|].
      destruct (retentionStateAfterTruncate _ c _) as [retb|e] eqn:Er; [|apply moves1_quiet, H].
      destruct (readForward _ c _ 0 0 0) as [msgs|e]; [|apply moves1_quiet, H]. cbn [fst].
      eapply moves1_commit; [exact H|apply M_commit; eapply no_idem_truncate, Er|apply M_set_leo].
    - apply Hb. unfold CTruncate. pose proof (M_leo false st c) as H. destruct (loadLEOLocked st c) as [st1 leo]. cbn [fst] in H.
      destruct (leo <? to); [apply moves1_quiet, H|]. destruct (to =? leo); [apply moves1_quiet, H|].
      destruct (retentionStateAfterTruncate _ c to) as [retb|e] eqn:Er; [|apply moves1_quiet, H].
      destruct (readForward _ c _ 0 0 0) as [msgs|e]; [|apply moves1_quiet, H]. cbn [fst].
      eapply moves1_commit; [exact H|apply M_commit; eapply no_idem_truncate, Er|apply M_set_leo].
    - apply Hb. unfold TrimPrefixThroughLimit. destruct (through =? 0); [apply moves1_quiet, M_refl|].
      pose proof (M_leo false st c) as H. destruct (loadLEOLocked st c) as [st1 leo]. cbn [fst] in H.
      destruct (match loadRetentionState _ c with Some x => x | None => (0, 0, 0) end) as [[l0 p0] r0].
      destruct (readForward _ c _ through _ _) as [rows|e]; [|apply moves1_quiet, H]. cbn [fst].
      eapply moves1_commit; [exact H| |apply M_set_leo]. apply M_commit.
      apply no_idem_put_app; [apply no_idem_deletes|]. apply no_idem_put_app; [repeat constructor|apply no_idem_catalog].
    - apply Hb. unfold StoreCheckpoint. destruct (validateCheckpoint _); [|apply moves1_quiet, M_refl]. cbn [fst].
      eapply moves1_commit; [apply M_refl| |apply M_refl]. apply M_commit, no_idem_put_app; [apply no_idem_ckpt|apply no_idem_catalog].
    - apply Hb. unfold StoreCheckpointMonotonic. destruct (validateCheckpointMonotonicLocked _ c _ _ _); [|apply moves1_quiet, M_refl].
      unfold StoreCheckpoint. destruct (validateCheckpoint _); [|apply moves1_quiet, M_refl]. cbn [fst].
      eapply moves1_commit; [apply M_refl| |apply M_refl]. apply M_commit, no_idem_put_app; [apply no_idem_ckpt|apply no_idem_catalog].
    - apply Hb, moves1_quiet, M_reopen.
    - apply Hb, moves1_quiet. unfold ReadReverse. destruct (fromSeq =? 0).
      + pose proof (M_leo false st c) as H. destruct (loadLEOLocked st c) as [st1 leo]. cbn [fst] in H.
        destruct (readForward _ c 1 leo 0 0); exact H.
      + destruct (readForward _ c 1 fromSeq 0 0); apply M_refl.
    - apply Hb, moves1_quiet. pose proof (M_leo false st c) as H. destruct (loadLEOLocked st c) as [st1 leo]. exact H.
    - (* DiscardForRestore: the pages, then the terminal batch *)
      unfold DiscardForRestore.
      destruct (discard_pages_moves (S (length (rows_unsorted (st_kv st) c))) st c 1) as [bs H1].
      destruct (discard_pages F _ st c 1) as [st1 [u|e]]; cbn [fst] in *; [|exists bs; split; [exact H1|intros []]].
      eexists. split; [|intros []].
      eapply M_seq; [exact H1|].
      eapply moves_finally; [apply (M_commit false st1 [DelRange (in_partition c); Del (KyCat c)]); repeat constructor|apply M_cache].
  Qed.

  Lemma dump_chans_moves free cs : forall st, moves free st (fst (dump_chans F st cs)) [].
  Proof.
    induction cs as [|c cs IH]; intro st; cbn [dump_chans fst]; [apply M_refl|].
    unfold dump_chan. pose proof (M_leo free st c) as H1. destruct (loadLEOLocked st c) as [st1 leo]. cbn [fst] in H1.
    pose proof (IH st1) as H2. destruct (dump_chans F st1 cs) as [st2 ds]. cbn [fst] in *. eapply moves_then; eassumption.
  Qed.

  (* the harness' observations after a step only load log ends *)
  Theorem step_dump_moves compact st o :
    exists bs, moves (is_batch o) st (fst (fst (step_dump F f_empty f_may f_add compact st o))) bs /\ bounded o bs.
  Proof.
    destruct (step_moves st o) as [bs [H Hb]]. exists bs. split; [|exact Hb].
    rewrite step_dump_eq. destruct (step F f_empty f_may f_add st o) as [st1 x]. cbn [fst] in H.
    eapply moves_finally; [exact H|].
    destruct (dumps_of_cases compact o x st1) as [E|[[E _]|E]]; rewrite E.
    - apply M_refl.
    - pose proof (dump_chans_moves (is_batch o) all_chans st1) as H2. destruct (dump_chans F st1 all_chans). exact H2.
    - unfold dump_chan. pose proof (M_leo (is_batch o) st1 (op_chan o)) as H2. destruct (loadLEOLocked st1 (op_chan o)). exact H2.
  Qed.
End Step.
