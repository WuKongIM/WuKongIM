(* Proof/MsgStore_C09.v — C09: storage mutations are crash-atomic (on the model).

   1. every API call but the paged DiscardForRestore commits AT MOST ONE batch,
      which carries all its rows, secondary indexes, checkpoint, epoch point and
      retention state; the store is the fold of the committed batches (all calls);
   2. with Pebble's contract (a synced batch is atomic and durable at return,
      batches become durable in commit order = Model/KV.v crash_states) a crash
      while a call is in flight recovers the store before or after that call, and
      after the call has returned it recovers the store after it;
   3. every such state is related to the plain sequential logs by [Rkv], so it
      has consistent indexes, a log end equal to the last row (or the retained
      maximum) and passes the monitor's [recovered_is] / [kv_inv]. *)
From WK Require Import Base.Base Base.Lists Model.KV Gen.Consts_C07 Model.MsgStore Model.MsgStore_C07 Model.MsgStore_C09
     Proof.KV Proof.MsgStore_base Proof.MsgStore_rel Proof.MsgStore_reads Proof.MsgStore_frame
     Proof.MsgStore_mut Proof.MsgStore_step Proof.MsgStore_ops Proof.MsgStore_C07 Proof.MsgStore_discard.
From Coq Require Import Sorting.Permutation Sorting.Sorted.

Section OneBatch.
  Variable F : Type.
  Variable f_empty : F.
  Variable f_may : F -> bytes * bytes -> bool.
  Variable f_add : F -> bytes * bytes -> F.

  Notation mstate := (mstate F).
  Notation st_kv := (st_kv F).
  Notation st_log := (st_log F).
  Notation step := (MsgStore.step F f_empty f_may f_add).
  Notation step_dump := (MsgStore.step_dump F f_empty f_may f_add).

  (* nothing committed, or exactly one batch *)
  Definition at_most_one (st st' : mstate) : Prop :=
    (st_kv st' = st_kv st /\ st_log st' = st_log st)
    \/ exists b, st_kv st' = kapply (st_kv st) b /\ st_log st' = st_log st ++ [b].

  (* every op but the paged DiscardForRestore *)
  Definition not_paged (o : op) : Prop := match o with ODiscard _ => False | _ => True end.

  (* EVERY call (the paged one included) changes the store only through the list
     of batches it commits, in order *)
  Definition many (st st' : mstate) : Prop :=
    exists bs, st_log st' = st_log st ++ bs /\ st_kv st' = run_batches key_eqb (st_kv st) bs.

  Lemma moves_effect free st st' bs : moves F f_empty f_may f_add free st st' bs ->
    st_log st' = st_log st ++ bs /\ st_kv st' = run_batches key_eqb (st_kv st) bs.
  Proof.
    assert (Q : forall a b : mstate, st_kv b = st_kv a -> st_log b = st_log a ->
                st_log b = st_log a ++ [] /\ st_kv b = run_batches key_eqb (st_kv a) []).
    { intros a b H1 H2. split; [rewrite H2; symmetry; apply app_nil_r|exact H1]. }
    induction 1 as [st|st1 st2 st3 bs1 bs2 _ [L1 K1] _ [L2 K2]|st c leo loaded|st c rows sn mode|st|st b Hb
                   |st c rows sn mode st2 sn' rest Ev Hr|st b Hf].
    - apply Q; reflexivity.
    - split; [rewrite L2, L1; symmetry; apply app_assoc|rewrite K2, K1; symmetry; apply run_batches_app].
    - apply Q; reflexivity.
    - destruct (validate_rows_volatile F f_may f_add rows st c sn mode) as [H1 [H2 _]]. apply Q; assumption.
    - apply Q; reflexivity.
    - split; reflexivity.
    - destruct (validate_rows_volatile F f_may f_add rows st c sn mode) as [H1 [H2 _]]. rewrite Ev in H1, H2. cbn [fst] in H1, H2.
      split; cbn [commit MsgStore.st_log MsgStore.st_kv]; [rewrite H2; reflexivity|rewrite H1; reflexivity].
    - split; reflexivity.
  Qed.

  Lemma one_batch st st' bs :
    st_log st' = st_log st ++ bs /\ st_kv st' = run_batches key_eqb (st_kv st) bs -> (length bs <= 1)%nat -> at_most_one st st'.
  Proof.
    intros [L K] Hb. destruct bs as [|b [|b' bs]]; [left|right; exists b|cbn in Hb; lia].
    - split; [exact K|rewrite L; apply app_nil_r].
    - split; [exact K|exact L].
  Qed.

  (* one API call = at most one committed batch *)
  Theorem step_one_batch st o : not_paged o -> at_most_one st (fst (step st o)).
  Proof.
    intro Hnp. destruct (step_moves F f_empty f_may f_add st o) as [bs [H Hb]].
    exact (one_batch _ _ _ (moves_effect _ _ _ _ H) (Hb Hnp)).
  Qed.

  Theorem step_dump_one_batch compact st o : not_paged o -> at_most_one st (fst (fst (step_dump compact st o))).
  Proof.
    intro Hnp. destruct (step_dump_moves F f_empty f_may f_add compact st o) as [bs [H Hb]].
    exact (one_batch _ _ _ (moves_effect _ _ _ _ H) (Hb Hnp)).
  Qed.

  Theorem step_batches st o : many st (fst (step st o)).
  Proof. destruct (step_moves F f_empty f_may f_add st o) as [bs [H _]]. exists bs. exact (moves_effect _ _ _ _ H). Qed.

  (* the store is the fold of the committed batches *)
  Definition kv_is_log (st : mstate) : Prop := st_kv st = run_batches key_eqb [] (st_log st).

  Lemma kv_is_log_init : kv_is_log (st_init F f_empty).
  Proof. reflexivity. Qed.

  Lemma kv_is_log_step st st' : at_most_one st st' -> kv_is_log st -> kv_is_log st'.
  Proof.
    unfold kv_is_log. intros [[H1 H2]|[b [H1 H2]]] H; [congruence|].
    rewrite H1, H2, H. unfold kapply, run_batches. rewrite fold_left_app. reflexivity.
  Qed.

  Lemma kv_is_log_many st st' : many st st' -> kv_is_log st -> kv_is_log st'.
  Proof.
    unfold kv_is_log. intros [bs [H1 H2]] H. rewrite H1, H2, H. symmetry. apply run_batches_app.
  Qed.

  (* a stop while ANY call is in flight recovers the store after some prefix of the
     batches of that call (for a one-batch call: before or after it) *)
  Theorem crash_in_flight_many st o s :
    kv_is_log st ->
    crash_states key_eqb [] (st_log (fst (step st o))) (length (st_log st)) s ->
    exists bs k, st_log (fst (step st o)) = st_log st ++ bs /\ (k <= length bs)%nat
                 /\ s = run_batches key_eqb (st_kv st) (firstn k bs).
  Proof.
    intros Hk [k [Hk1 ->]]. destruct (step_batches st o) as [bs [H1 H2]]. exists bs, (k - length (st_log st))%nat.
    split; [exact H1|]. rewrite H1, app_length in Hk1. split; [lia|].
    rewrite H1. unfold kbatch in *. rewrite (crash_state_app key_eqb) by lia. rewrite <- Hk. reflexivity.
  Qed.

  (* Pebble's contract (trusted, Model/KV.v): after a stop the store recovers to
     [crash_state [] log k] for some k between the number of batches whose Commit
     had returned and the number of batches issued. *)

  (* a crash while call [o] is in flight (everything before it has returned)
     recovers the store before the call or the store after it: the call is
     entirely present or entirely absent *)
  Theorem crash_in_flight st o s :
    not_paged o ->
    kv_is_log st ->
    crash_states key_eqb [] (st_log (fst (step st o))) (length (st_log st)) s ->
    s = st_kv st \/ s = st_kv (fst (step st o)).
  Proof.
    intros Hnp Hk [k [Hk1 ->]]. unfold crash_state.
    destruct (step_one_batch st o Hnp) as [[H1 H2]|[b [H1 H2]]]; rewrite H2 in Hk1 |- *.
    - left. assert (E : k = length (st_log st)) by (destruct Hk1 as [A B]; apply Nat.le_antisymm; assumption). rewrite E, firstn_all. symmetry. exact Hk.
    - rewrite app_length in Hk1. cbn [length] in Hk1.
      assert (Hc : k = length (st_log st) \/ k = (length (st_log st) + 1)%nat).
      { destruct Hk1 as [A B]. apply Nat.le_lteq in A. destruct A as [A|A]; [right; apply Nat.le_antisymm; [exact B|rewrite Nat.add_1_r; exact A]|left; symmetry; exact A]. }
      destruct Hc as [E|E]; rewrite E.
      + left. rewrite firstn_app, Nat.sub_diag, firstn_all. cbn [firstn]. rewrite app_nil_r. symmetry. exact Hk.
      + right. rewrite firstn_all2 by (rewrite app_length; cbn [length]; lia).
        rewrite H1, Hk. unfold kapply, run_batches. rewrite fold_left_app. reflexivity.
  Qed.

  (* a crash after the call has returned recovers the store after it: what was
     reported durable is present *)
  Theorem crash_after_return st o s :
    kv_is_log st ->
    crash_states key_eqb [] (st_log (fst (step st o))) (length (st_log (fst (step st o)))) s ->
    s = st_kv (fst (step st o)).
  Proof.
    intros Hk [k [Hk1 ->]]. assert (k = length (st_log (fst (step st o)))) by (destruct Hk1 as [A B]; apply Nat.le_antisymm; assumption). subst.
    unfold crash_state. rewrite firstn_all. symmetry. apply (kv_is_log_many st); [apply step_batches|exact Hk].
  Qed.

  (* whatever the recovered store is, reopening on it gives a state related to the
     plain logs whenever the store was: all C07 consequences (consistent indexes,
     log end = last row or retained maximum, reads total) hold after recovery *)
  Theorem recovered_related kv s log :
    Rkv kv s -> R F (MS F kv (fun _ => cc_init F f_empty) log) s.
  Proof. intro H. split; [exact H|]. intros c Hl. discriminate Hl. Qed.
End OneBatch.

Definition leos_of (kv : kvs) : list N := map (recoverLEO kv) all_chans.

Lemma nth_leos kv c : In c all_chans -> nth_or 0 (N.to_nat c) (leos_of kv) = recoverLEO kv c.
Proof. intros [<-|[<-|[<-|[]]]]; reflexivity. Qed.

Lemma recovered_is_ok kv s : Rkv kv s -> recovered_is kv (leos_of kv) s = true.
Proof.
  intro HR. unfold recovered_is. apply forallb_forall. intros c Hc.
  destruct (rk_chan _ _ HR c) as [rows Rc].
  rewrite (Rchan_rows_of _ _ _ _ (rk_wf _ _ HR) Rc), (Rchan_amsgs _ _ _ _ Rc), msgs_eqb_refl.
  rewrite (nth_leos kv c Hc), (rc_leo _ _ _ _ Rc), N.eqb_refl.
  rewrite (rc_ck _ _ _ _ Rc), (option_eqb_refl triple_eqb triple_eqb_refl).
  rewrite (rc_hist _ _ _ _ Rc), (list_eqb_refl npair_eqb npair_eqb_refl). reflexivity.
Qed.

Lemma has_key_true kv k : has kv k -> has_key kv k = true.
Proof. unfold has, has_key. destruct (kget k kv); [reflexivity|intro H; contradiction]. Qed.

Lemma chk_entry_ok kv s k v : Rkv kv s -> kget k kv = Some v -> chk_entry kv s (k, v) = true.
Proof.
  intros HR G. destruct k as [c q|i|c n q|c n u|c u q|c|c|c o e|c|c i]; cbn [chk_entry]; try reflexivity.
  - destruct v as [r| | | | |]; try reflexivity.
    destruct (rk_chan _ _ HR c) as [rows Rc]. pose proof G as G0. apply Rc in G. destruct G as [Hin Hs].
    assert (Hok : row_ok c r) by (eapply Forall_forall; [apply Rc|exact Hin]). destruct Hok as [Hch [Hid [Hh Hpos]]].
    apply row_chk_iff. constructor.
    + exact Hs.
    + exact Hch.
    + exact Hid.
    + rewrite Hh, N.eqb_refl, (proj2 (mem_N_in c all_chans) (rk_co _ _ HR _ _ _ G0)), andb_true_r. apply N.leb_le. lia.
    + destruct (in_dec N.eq_dec (r_id r) (as_tids s)) as [T|T]; [left; apply mem_N_in, T|right; apply (rk_gc _ _ HR _ _ _ G0 T)].
    + intro E. apply andb_true_iff in E. destruct E as [E1 E2]. apply negb_true_iff, is_nil_false in E1. apply is_nil_true in E2.
      apply has_key_true, (rc_cidx _ _ _ _ Rc). exists r. repeat split; assumption.
    + intros E T. apply andb_true_iff in E. destruct E as [E1 E2]. apply negb_true_iff, is_nil_false in E1, E2.
      eexists _, _. split; [rewrite <- Hs; apply (rc_idem_complete _ _ _ _ Rc r Hin E1 E2 T)|split; reflexivity].
    + intro E. apply andb_true_iff in E. destruct E as [E1 E2]. apply negb_true_iff, is_nil_false in E1. apply N.eqb_eq in E2.
      apply has_key_true, (rc_sseq _ _ _ _ Rc). exists r. repeat split; assumption.
    + pose proof (rc_ret _ _ _ _ Rc) as Hrt. destruct (loadRetentionState kv c) as [[[l p] rm]|]; [|reflexivity].
      destruct Hrt as [_ [_ [_ [_ Hp]]]]. eapply Forall_forall in Hp; [|exact Hin]. apply N.ltb_lt. lia.
  - destruct v as [|c q| | | |]; try reflexivity.
    destruct (rk_gs _ _ HR _ _ _ G) as [r [Gr Hi]]. rewrite Gr. apply N.eqb_eq. exact Hi.
  - destruct (rk_chan _ _ HR c) as [rows Rc].
    assert (Hh : has kv (KyCidx c n q)) by (unfold has; rewrite G; discriminate).
    apply (rc_cidx _ _ _ _ Rc) in Hh. destruct Hh as [r [Hin [Hs [Hn [Hne Hu]]]]].
    assert (Gr : kget (KyRow c q) kv = Some (VRow r)) by (apply Rc; split; assumption). rewrite Gr.
    rewrite Hn, bytes_eqb_refl, Hu. apply is_nil_false in Hne. rewrite Hne. reflexivity.
  - destruct v as [| | |q i h| |]; try reflexivity.
    destruct (rk_chan _ _ HR c) as [rows Rc].
    destruct (rc_idem_sound _ _ _ _ Rc _ _ _ _ _ G) as [r [Hin [Hs [Hn [Hu [Hi [Hh [Hne Hue]]]]]]]].
    assert (Gr : kget (KyRow c q) kv = Some (VRow r)) by (apply Rc; split; assumption). rewrite Gr.
    rewrite Hn, Hu, Hi, Hh, !bytes_eqb_refl, !N.eqb_refl. apply is_nil_false in Hne, Hue. rewrite Hne, Hue. reflexivity.
  - destruct (rk_chan _ _ HR c) as [rows Rc].
    assert (Hh : has kv (KySseq c u q)) by (unfold has; rewrite G; discriminate).
    apply (rc_sseq _ _ _ _ Rc) in Hh. destruct Hh as [r [Hin [Hs [Hu [Hne Hf]]]]].
    assert (Gr : kget (KyRow c q) kv = Some (VRow r)) by (apply Rc; split; assumption). rewrite Gr.
    rewrite Hu, bytes_eqb_refl, Hf, N.eqb_refl. apply is_nil_false in Hne. rewrite Hne. reflexivity.
  - destruct v as [| | | |l p rm|]; try reflexivity.
    destruct (rk_chan _ _ HR c) as [rows Rc]. pose proof (rc_ret _ _ _ _ Rc) as Hrt.
    unfold loadRetentionState in Hrt. rewrite G in Hrt. destruct Hrt as [H1 [H2 [_ [H4 _]]]].
    apply N.leb_le in H1, H2. rewrite H1, H2. apply N.eqb_neq in H4. rewrite H4. reflexivity.
Qed.

Lemma kv_inv_ok kv s : Rkv kv s -> kv_inv kv (leos_of kv) s = true.
Proof.
  intro HR. unfold kv_inv. apply andb_true_iff. split.
  - apply forallb_forall. intros [k v] Hin. apply chk_entry_ok; [exact HR|]. apply (kin_iff_get _ _ _ (rk_wf _ _ HR)). exact Hin.
  - apply forallb_forall. intros c Hc. rewrite (nth_leos kv c Hc). apply N.eqb_refl.
Qed.

(* the plain logs after every prefix of a model run *)
Lemma run_states ops : forall (st : xstate) s,
  R xfilter st s -> Forall op_okb ops ->
  exists states, spec_states s (entries ops (snd (run xfilter [] x_may x_add true st ops))) = Some states
    /\ length states = length (run_kvs st ops)
    /\ forall j, (j < length states)%nat -> Rkv (nth_or [] j (run_kvs st ops)) (nth_or as_init j states).
Proof.
  induction ops as [|o ops IH]; intros st s HR Hok; cbn [MsgStore.run entries snd spec_states run_kvs].
  - exists [s]. split; [reflexivity|]. split; [reflexivity|]. intros [|j] Hj; [apply HR|cbn in Hj; lia].
  - inversion Hok as [|? ? Ho Hrest]; subst.
    pose proof (step_sim xfilter [] x_may x_add true st s o HR Ho) as Hs.
    destruct (step_dump xfilter [] x_may x_add true st o) as [[st1 x] ds]. destruct Hs as [s' [H1 H2]].
    destruct (IH st1 s' H2 Hrest) as [states [E1 [E2 E3]]].
    destruct (run xfilter [] x_may x_add true st1 ops) as [st2 tr]. cbn [fst snd entries spec_states] in *.
    rewrite H1, E1. exists (s :: states). split; [reflexivity|]. split; [cbn [length]; rewrite E2; reflexivity|].
    intros [|j] Hj; [apply HR|]. cbn [nth_or]. apply E3. cbn [length] in Hj. lia.
Qed.

Lemma exists_between_true (p : nat -> bool) j : forall len lo, (lo <= j <= lo + len)%nat -> p j = true -> exists_between p lo len = true.
Proof.
  induction len as [|len IH]; intros lo Hj Hp; cbn [exists_between].
  - assert (j = lo) by lia. subst. exact Hp.
  - destruct (Nat.eq_dec j lo) as [->|Hne]; [rewrite Hp; reflexivity|].
    rewrite (IH (S lo)); [apply orb_true_r|lia|exact Hp].
Qed.

(* a crash observation the model can produce: the recovered keys are the store
   after j ops for a j inside every label's window, the log ends are the recovered ones *)
Definition model_crash (kvss : list kvs) (c : crash) : Prop :=
  match c with
  | Cr labels leos ents =>
    exists j kv, (j < length kvss)%nat /\ nth_or [] j kvss = kv /\ kvs_of_ents ents = Some kv /\ leos = leos_of kv
                 /\ Forall (fun l : N * N * N => let '(lo, hi, _) := l in (N.to_nat lo <= j <= N.to_nat hi)%nat) labels
  end.

Theorem c09_monitor_zero_on_model ops crashes kvfinal :
  Forall op_okb ops -> Forall (model_crash (run_kvs xinit ops)) crashes ->
  C09_monitor (C09Case (C07Case true (entries ops (snd (xrun true ops))) kvfinal) crashes) = 0.
Proof.
  intros Hok Hcr. unfold C09_monitor. cbn [c9_hist c_steps c9_crashes]. unfold xrun, xinit in *.
  destruct (run_states ops (st_init xfilter []) as_init (R_init xfilter []) Hok) as [states [E1 [E2 E3]]].
  rewrite E1.
  assert (Hall : forallb (crash_ok states (entries ops (snd (run xfilter [] x_may x_add true (st_init xfilter []) ops)))) crashes = true).
  { apply forallb_forall. intros [labels leos ents] Hin. eapply Forall_forall in Hcr; [|exact Hin].
    destruct Hcr as [j [kv [Hj [Hkv [Hents [Hleos Hlab]]]]]]. cbn [crash_ok]. rewrite Hents.
    apply forallb_forall. intros [[lo hi] pct] Hl. eapply Forall_forall in Hlab; [|exact Hl]. cbn beta iota in Hlab.
    unfold label_ok2, label_ok. apply orb_true_iff. left.
    assert (Ele : (lo <=? hi) = true) by (apply N.leb_le; lia). rewrite Ele. cbn [andb].
    apply (exists_between_true _ j); [rewrite N2Nat.inj_sub; lia|].
    rewrite E2. assert (Ej : (j <? length (run_kvs (st_init xfilter []) ops))%nat = true) by (apply Nat.ltb_lt; exact Hj).
    rewrite Ej. cbn [andb].
    assert (HR : Rkv kv (nth_or as_init j states)) by (rewrite <- Hkv; apply E3; rewrite E2; exact Hj).
    rewrite Hleos, (recovered_is_ok _ _ HR), (kv_inv_ok _ _ HR). reflexivity. }
  rewrite Hall. reflexivity.
Qed.

Lemma swf_run_batches bs : forall kv : kvs, swf kv -> swf (run_batches key_eqb kv bs).
Proof.
  induction bs as [|b bs IH]; intros kv W; cbn [run_batches fold_left]; [exact W|].
  apply IH. apply (swf_apply b kv W).
Qed.

(* Started on a store related to the plain logs, a stop anywhere inside the call
   (before the first page, between two pages, before or after the terminal batch)
   recovers a store on which the monitor's index check [chk_entry] holds for
   every binding: each message is there with all its index entries or not at all. *)
Theorem discard_crash_inv (F : Type) (st : mstate F) (s : aspec) (c : N) (x : kvs) :
  Rkv (st_kv F st) s -> kv_is_log F st ->
  crash_states key_eqb [] (st_log F (fst (DiscardForRestore F st c))) (length (st_log F st)) x ->
  forallb (chk_entry x s) x = true.
Proof.
  intros HR Hk [k [Hk1 ->]].
  assert (W : swf (st_kv F st)) by apply (rk_wf _ _ HR).
  assert (HI : IdxInv (st_kv F st) s) by (intros key v G; apply (chk_entry_ok _ _ _ _ HR G)).
  destruct (discard_batches F s st c W HI) as [bs [L1 [L2 [L3 _]]]].
  rewrite L1, app_length in Hk1.
  rewrite L1. unfold kbatch in *. rewrite (crash_state_app key_eqb) by lia. unfold kv_is_log in Hk. rewrite <- Hk.
  apply IdxInv_forallb; [apply swf_run_batches; exact W|apply L3].
Qed.
