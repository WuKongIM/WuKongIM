(* Proof/Wire.v — header codec round trips, rejection of malformed headers,
   validation before allocation, frame write/read round trip. *)
From WK Require Import Base.Base Base.Bytes Base.Lists Gen.Consts_C26 Model.Wire.
Open Scope N_scope.

Lemma slice_length n w (l : bytes) : (n + w <= length l)%nat -> length (slice n w l) = w.
Proof. intro H. unfold slice. rewrite firstn_length, skipn_length. lia. Qed.

Lemma all_bytes_firstn n (l : bytes) : all_bytes l = true -> all_bytes (firstn n l) = true.
Proof. intro H. rewrite <- (firstn_skipn n l), all_bytes_app in H. apply andb_true_iff in H. apply H. Qed.

Lemma all_bytes_skipn n (l : bytes) : all_bytes l = true -> all_bytes (skipn n l) = true.
Proof. intro H. rewrite <- (firstn_skipn n l), all_bytes_app in H. apply andb_true_iff in H. apply H. Qed.

Lemma all_bytes_slice n w (l : bytes) : all_bytes l = true -> all_bytes (slice n w l) = true.
Proof. intro H. unfold slice. apply all_bytes_firstn, all_bytes_skipn, H. Qed.

Lemma firstn_slice a b (l : bytes) : firstn (a + b) l = firstn a l ++ slice a b l.
Proof.
  unfold slice. revert l. induction a as [|a IH]; intro l; [reflexivity|].
  destruct l as [|x l]; cbn [Nat.add firstn skipn app].
  - rewrite firstn_nil. reflexivity.
  - rewrite IH. reflexivity.
Qed.

Lemma slice_one n (l : bytes) : (n < length l)%nat -> slice n 1 l = [nth n l 0].
Proof.
  unfold slice. revert n. induction l as [|x l IH]; intros n H; [cbn in H; lia|].
  destruct n as [|n]; [reflexivity|]. cbn [skipn nth]. apply IH. cbn in H. lia.
Qed.

Lemma byte_at_slice i (l : bytes) : (N.to_nat i < length l)%nat -> be_get (slice (N.to_nat i) 1 l) = byte_at i l.
Proof. intro H. rewrite (slice_one _ _ H). unfold be_get, byte_at. cbn [fold_left]. lia. Qed.

(* the header as the concatenation of its big-endian fields *)
Definition encode_flat (h : header) : bytes :=
  put_u16 Magic ++ put_u8 Version ++ put_u8 0 ++ put_u8 (h_kind h) ++ put_u8 (h_prio h)
  ++ put_u16 (h_service h) ++ put_u64 (h_reqid h) ++ put_u32 (h_bodylen h) ++ put_u32 0.

(* by evaluation: the writes at the regenerated offsets fill the 24 bytes exactly this way; a
   changed layout makes this fail *)
Lemma encode_header_eq h : encode_header h = encode_flat h.
Proof. reflexivity. Qed.

Lemma encode_header_length h : length (encode_header h) = header_size.
Proof. reflexivity. Qed.

Lemma encode_header_all_bytes h : all_bytes (encode_header h) = true.
Proof.
  rewrite encode_header_eq. unfold encode_flat, put_u8, put_u16, put_u32, put_u64.
  rewrite !all_bytes_app, !be_put_all_bytes. reflexivity.
Qed.

(* the field slices of an encoded header (followed by anything), by evaluation: the lists have
   fixed lengths.  The numerals here and in [layout] below are [N.to_nat] of the offsets in
   Gen/Consts_C26.v and change with the layout *)
Section Slices.
  Variable h : header.
  Variable x : bytes.
  Let e := encode_flat h ++ x.

  Lemma sl_magic : slice 0 2 e = be_put 2 Magic. Proof. reflexivity. Qed.
  Lemma sl_version : slice 2 1 e = be_put 1 Version. Proof. reflexivity. Qed.
  Lemma sl_flags : slice 3 1 e = be_put 1 0. Proof. reflexivity. Qed.
  Lemma sl_kind : slice 4 1 e = be_put 1 (h_kind h). Proof. reflexivity. Qed.
  Lemma sl_prio : slice 5 1 e = be_put 1 (h_prio h). Proof. reflexivity. Qed.
  Lemma sl_service : slice 6 2 e = be_put 2 (h_service h). Proof. reflexivity. Qed.
  Lemma sl_reqid : slice 8 8 e = be_put 8 (h_reqid h). Proof. reflexivity. Qed.
  Lemma sl_bodylen : slice 16 4 e = be_put 4 (h_bodylen h). Proof. reflexivity. Qed.
  Lemma sl_reserved : slice 20 4 e = be_put 4 0. Proof. reflexivity. Qed.
End Slices.

Lemma in_domain_inv h : header_in_domain h = true ->
  h_kind h < 256 /\ h_prio h < 256 /\ h_service h < 65536
  /\ h_reqid h < 18446744073709551616 /\ h_bodylen h < 4294967296.
Proof.
  unfold header_in_domain. rewrite !andb_true_iff, !N.ltb_lt. tauto.
Qed.

(* the wire layout as numbers *)
Ltac layout :=
  unfold off in *; change header_size with 24%nat in *;
  change (N.to_nat headerMagicOffset) with 0%nat in *; change (N.to_nat headerVersionOffset) with 2%nat in *;
  change (N.to_nat headerFlagsOffset) with 3%nat in *; change (N.to_nat headerKindOffset) with 4%nat in *;
  change (N.to_nat headerPriorityOffset) with 5%nat in *; change (N.to_nat headerServiceIDOffset) with 6%nat in *;
  change (N.to_nat headerRequestIDOffset) with 8%nat in *; change (N.to_nat headerBodyLenOffset) with 16%nat in *;
  change (N.to_nat headerReservedOffset) with 20%nat in *.

(* DecodeHeader(EncodeHeader(h) ‖ anything) performs exactly the outbound validation *)
Lemma decode_encode h x max : header_in_domain h = true ->
  decode_header (encode_header h ++ x) max =
  match validate_outbound_header h max with Some e => WErr e | None => WOk h end.
Proof.
  intro D. apply in_domain_inv in D. destruct D as (Dk & Dp & Ds & Dr & Db).
  unfold decode_header.
  assert (L : Nat.ltb (length (encode_header h ++ x)) header_size = false).
  { apply Nat.ltb_ge. rewrite app_length, encode_header_length. lia. }
  rewrite L. rewrite encode_header_eq. layout.
  rewrite sl_magic, sl_version, sl_flags, sl_reserved, sl_kind, sl_prio, sl_service, sl_reqid, sl_bodylen.
  rewrite !be_get_put by first [assumption | reflexivity].
  rewrite !N.eqb_refl. cbn [negb h_kind h_prio h_bodylen].
  unfold validate_outbound_header.
  destruct (kind_valid (h_kind h)); cbn [negb]; [|reflexivity].
  destruct (prio_valid (h_prio h)); cbn [negb]; [|reflexivity].
  destruct (body_exceeds_max (h_bodylen h) max); [reflexivity|].
  destruct h; reflexivity.
Qed.

Lemma header_ok_validate h max : header_ok h max = true ->
  header_in_domain h = true /\ validate_outbound_header h max = None.
Proof.
  unfold header_ok, validate_outbound_header. rewrite !andb_true_iff.
  intros [[[D K] P] B]. rewrite K, P. cbn [negb].
  apply negb_true_iff in B. rewrite B. split; [exact D|reflexivity].
Qed.

Lemma validate_not_ok h max : header_in_domain h = true -> header_ok h max = false ->
  exists e, validate_outbound_header h max = Some e /\ validation_error e = true.
Proof.
  unfold header_ok, validate_outbound_header. intros D H. rewrite D in H. cbn [andb] in H.
  destruct (kind_valid (h_kind h)); cbn [negb andb] in *; [|eexists; split; reflexivity].
  destruct (prio_valid (h_prio h)); cbn [negb andb] in *; [|eexists; split; reflexivity].
  destruct (body_exceeds_max (h_bodylen h) max); cbn [negb] in *; [eexists; split; reflexivity|discriminate].
Qed.

(* C26 (a) round trip *)
Lemma header_roundtrip h x max : header_ok h max = true ->
  decode_header (encode_header h ++ x) max = WOk h.
Proof.
  intro H. apply header_ok_validate in H. destruct H as [D V].
  rewrite decode_encode by exact D. rewrite V. reflexivity.
Qed.

Lemma header_not_ok_rejected h x max : header_in_domain h = true -> header_ok h max = false ->
  exists e, decode_header (encode_header h ++ x) max = WErr e /\ validation_error e = true.
Proof.
  intros D H. destruct (validate_not_ok h max D H) as (e & V & E).
  exists e. rewrite decode_encode by exact D. rewrite V. split; [reflexivity|exact E].
Qed.

Lemma offsets_below : forall enc : bytes, Nat.ltb (length enc) header_size = false ->
  (N.to_nat headerVersionOffset < length enc)%nat /\ (N.to_nat headerFlagsOffset < length enc)%nat
  /\ (N.to_nat headerKindOffset < length enc)%nat /\ (N.to_nat headerPriorityOffset < length enc)%nat.
Proof.
  intros enc L. apply Nat.ltb_ge in L. layout. lia.
Qed.

(* the header read off the fixed positions *)
Definition fields_at (enc : bytes) : header :=
  Header (byte_at headerKindOffset enc) (byte_at headerPriorityOffset enc)
         (be_at headerServiceIDOffset 2 enc) (be_at headerRequestIDOffset 8 enc)
         (be_at headerBodyLenOffset 4 enc).

(* DecodeHeader check by check: every failing check yields a validation error, and a header
   that passes them all is the one at the fixed positions *)
Lemma decode_spec enc max :
  if hdr_malformed enc max
  then exists e, decode_header enc max = WErr e /\ validation_error e = true
  else decode_header enc max = WOk (fields_at enc).
Proof.
  unfold decode_header, hdr_malformed, fields_at.
  destruct (Nat.ltb (length enc) header_size) eqn:L; [eexists; split; reflexivity|].
  destruct (offsets_below enc L) as (Ov & Of & Ok & Op).
  unfold off, be_at. rewrite !byte_at_slice by assumption. cbn [orb h_kind h_prio h_bodylen].
  destruct (be_get (slice (N.to_nat headerMagicOffset) 2 enc) =? Magic); cbn [negb orb]; [|eexists; split; reflexivity].
  destruct (byte_at headerVersionOffset enc =? Version); cbn [negb orb]; [|eexists; split; reflexivity].
  destruct (byte_at headerFlagsOffset enc =? 0); cbn [negb orb]; [|eexists; split; reflexivity].
  destruct (be_get (slice (N.to_nat headerReservedOffset) 4 enc) =? 0); cbn [negb orb]; [|eexists; split; reflexivity].
  destruct (kind_valid (byte_at headerKindOffset enc)); cbn [negb orb]; [|eexists; split; reflexivity].
  destruct (prio_valid (byte_at headerPriorityOffset enc)); cbn [negb orb]; [|eexists; split; reflexivity].
  destruct (body_exceeds_max (be_get (slice (N.to_nat headerBodyLenOffset) 4 enc)) max);
    [eexists; split; reflexivity|reflexivity].
Qed.

(* C26 (a) reject: malformed (bad magic / version / flags / reserved / kind /
   priority / oversize body / short) headers are rejected with a validation error *)
Lemma malformed_rejected enc max : hdr_malformed enc max = true ->
  exists e, decode_header enc max = WErr e /\ validation_error e = true.
Proof. intro M. pose proof (decode_spec enc max) as S. rewrite M in S. exact S. Qed.

Lemma wellformed_accepted enc max : hdr_malformed enc max = false ->
  exists h, decode_header enc max = WOk h.
Proof. intro M. pose proof (decode_spec enc max) as S. rewrite M in S. eexists. exact S. Qed.

Lemma decode_ok_fields enc max h : decode_header enc max = WOk h ->
  hdr_malformed enc max = false /\ h = fields_at enc.
Proof.
  intro D. pose proof (decode_spec enc max) as S. destruct (hdr_malformed enc max).
  - destruct S as (e & E & _). congruence.
  - split; [reflexivity|congruence].
Qed.

Lemma decode_ok_wellformed enc max h : decode_header enc max = WOk h -> hdr_malformed enc max = false.
Proof. intro D. exact (proj1 (decode_ok_fields _ _ _ D)). Qed.

Lemma decode_ok_bodylen enc max h : decode_header enc max = WOk h -> body_exceeds_max (h_bodylen h) max = false.
Proof.
  intro D. destruct (decode_ok_fields _ _ _ D) as [M ->].
  unfold hdr_malformed in M. rewrite !orb_false_iff in M. exact (proj2 M).
Qed.

Lemma be_put_get_slice n w (enc : bytes) : all_bytes enc = true -> (n + w <= length enc)%nat ->
  be_put w (be_get (slice n w enc)) = slice n w enc.
Proof.
  intros A L. pose proof (slice_length n w enc L) as SL.
  rewrite <- SL at 1. apply be_put_get. apply all_bytes_slice, A.
Qed.

(* for byte-valued input, the first 24 bytes of an accepted header are the encoding of the
   returned Header: the decoder is injective on 24-byte inputs *)
Lemma decode_ok_is_encoding enc max h : all_bytes enc = true ->
  decode_header enc max = WOk h -> firstn header_size enc = encode_header h.
Proof.
  intros A D. destruct (decode_ok_fields _ _ _ D) as [M ->]. unfold fields_at.
  unfold hdr_malformed in M. rewrite !orb_false_iff, !negb_false_iff, !N.eqb_eq in M.
  destruct M as [[[[[[[L E1] E2] E3] E4] _] _] _].
  destruct (offsets_below enc L) as (Ov & Of & Ok & Op). apply Nat.ltb_ge in L.
  rewrite encode_header_eq. unfold encode_flat, put_u8, put_u16, put_u32, put_u64.
  cbn [h_kind h_prio h_service h_reqid h_bodylen].
  rewrite <- E1, <- E2, <- E3 at 1. rewrite <- E4 at 1.
  rewrite <- !byte_at_slice by assumption. unfold be_at. layout.
  rewrite !be_put_get_slice by (try exact A; lia).
  change 24%nat with (0 + 2 + 1 + 1 + 1 + 1 + 2 + 8 + 4 + 4)%nat at 1.
  rewrite !firstn_slice. cbn [Nat.add firstn app]. rewrite <- !app_assoc. reflexivity.
Qed.

(* ReadFrame on a stream that holds a whole header; the empty body is the case n = 0 *)
Lemma read_frame_eq stream max : (header_size <= length stream)%nat ->
  read_frame stream max =
  match decode_header (firstn header_size stream) max with
  | WErr e => ReadOut (WErr e) HeaderSize None
  | WOk h =>
    let n := h_bodylen h in
    let rest := skipn header_size stream in
    if IntMax <? n then ReadOut (WErr ETooLarge) HeaderSize None
    else if Nat.ltb (length rest) (N.to_nat n)
    then ReadOut (WErr (match rest with [] => EEOF | _ => EUnexpectedEOF end)) (N.of_nat (length stream)) (Some n)
    else ReadOut (WOk (h, firstn (N.to_nat n) rest)) (HeaderSize + n) (Some n)
  end.
Proof.
  intro L. unfold read_frame.
  destruct stream as [|b0 s]; [cbn in L; change header_size with 24%nat in L; lia|].
  apply Nat.ltb_ge in L. rewrite L. destruct (decode_header _ max) as [h|e]; [|reflexivity].
  unfold body_len_to_int. cbv zeta. destruct (IntMax <? h_bodylen h); [reflexivity|].
  destruct (h_bodylen h =? 0) eqn:Z; [|reflexivity]. apply N.eqb_eq in Z. rewrite Z. reflexivity.
Qed.

Lemma read_frame_short stream max : (length stream < header_size)%nat ->
  ro_alloc (read_frame stream max) = None
  /\ exists e, ro_res (read_frame stream max) = WErr e /\ validation_error e = false.
Proof.
  intro L. unfold read_frame. destruct stream; [split; [|eexists; split]; reflexivity|].
  apply Nat.ltb_lt in L. rewrite L. split; [|eexists; split]; reflexivity.
Qed.

(* validate-before-allocate: the allocator is only ever reached with the BodyLen
   of a header that passed every check, in particular BodyLen <= max *)
Lemma read_alloc_validated stream max n : ro_alloc (read_frame stream max) = Some n ->
  exists h, decode_header (firstn header_size stream) max = WOk h /\ n = h_bodylen h
            /\ body_exceeds_max n max = false /\ (0 <= max)%Z /\ (Z.of_N n <= max)%Z.
Proof.
  intro A. destruct (Nat.lt_ge_cases (length stream) header_size) as [S|L];
    [rewrite (proj1 (read_frame_short _ max S)) in A; discriminate|].
  rewrite (read_frame_eq _ _ L) in A.
  destruct (decode_header (firstn header_size stream) max) as [h|e] eqn:D; [|discriminate].
  pose proof (decode_ok_bodylen _ _ _ D) as B. cbv zeta in A.
  destruct (IntMax <? h_bodylen h); [discriminate|].
  assert (E : n = h_bodylen h) by (destruct (Nat.ltb _ _); inversion A; reflexivity).
  subst n. exists h. split; [reflexivity|]. split; [reflexivity|]. split; [exact B|].
  unfold body_exceeds_max in B. destruct (max <? 0)%Z eqn:N0; [discriminate|].
  apply Z.ltb_ge in N0, B. split; assumption.
Qed.

(* a rejected header stops the reader at the header: nothing allocated, nothing read past it *)
Lemma read_rejected stream max e : (header_size <= length stream)%nat ->
  decode_header (firstn header_size stream) max = WErr e ->
  read_frame stream max = ReadOut (WErr e) HeaderSize None.
Proof. intros L D. rewrite (read_frame_eq _ _ L), D. reflexivity. Qed.

Lemma validation_error_stops_at_header stream max e : ro_res (read_frame stream max) = WErr e ->
  validation_error e = true ->
  ro_alloc (read_frame stream max) = None /\ ro_consumed (read_frame stream max) = HeaderSize.
Proof.
  destruct (Nat.lt_ge_cases (length stream) header_size) as [S|L].
  - destruct (read_frame_short _ max S) as [_ [e' [E' V']]]. rewrite E'. intros E V. inversion E; subst. congruence.
  - rewrite (read_frame_eq _ _ L).
    destruct (decode_header _ max) as [h|e']; [|intros; split; reflexivity].
    cbv zeta. destruct (IntMax <? h_bodylen h); [intros; split; reflexivity|].
    destruct (Nat.ltb _ _); cbn [ro_res]; [|discriminate].
    intros E V. destruct (skipn _ _); inversion E; subst e; discriminate V.
Qed.

Lemma append_frame_ok f max b : append_frame f max = WOk b ->
  let h := with_bodylen (f_hdr f) (N.of_nat (length (f_body f))) in
  b = encode_header h ++ f_body f /\ validate_outbound_header h max = None
  /\ N.of_nat (length (f_body f)) <= u32max.
Proof.
  unfold append_frame.
  destruct (max <? Z.of_nat (length (f_body f)))%Z; [discriminate|].
  destruct (u32max <? N.of_nat (length (f_body f))) eqn:U; [discriminate|].
  destruct (validate_outbound_header _ max) eqn:V; [discriminate|].
  intro E; inversion E. cbv zeta. repeat split. apply N.ltb_ge in U. exact U.
Qed.

Definition frame_in_domain (f : frame) : bool :=
  (h_kind (f_hdr f) <? 256) && (h_prio (f_hdr f) <? 256) && (h_service (f_hdr f) <? 65536)
  && (h_reqid (f_hdr f) <? 18446744073709551616).

Lemma frame_hdr_domain f : frame_in_domain f = true -> N.of_nat (length (f_body f)) <= u32max ->
  header_in_domain (with_bodylen (f_hdr f) (N.of_nat (length (f_body f)))) = true.
Proof.
  unfold frame_in_domain, header_in_domain, with_bodylen. cbn [h_kind h_prio h_service h_reqid h_bodylen].
  intros D U. rewrite D. cbn [andb]. apply N.ltb_lt. unfold u32max in U. lia.
Qed.

Lemma validate_none_not_exceeds h max : validate_outbound_header h max = None ->
  body_exceeds_max (h_bodylen h) max = false.
Proof.
  unfold validate_outbound_header.
  destruct (kind_valid (h_kind h)); cbn [negb]; [|discriminate].
  destruct (prio_valid (h_prio h)); cbn [negb]; [|discriminate].
  destruct (body_exceeds_max (h_bodylen h) max); [discriminate|reflexivity].
Qed.

(* Go's int is 64 bits here: IntMax >= 2^32 - 1 *)
Lemma u32_le_intmax n : n <= u32max -> (IntMax <? n) = false.
Proof. intro H. apply N.ltb_ge. unfold u32max in H. unfold IntMax. lia. Qed.

Lemma read_written_frame f max b rest : frame_in_domain f = true ->
  append_frame f max = WOk b ->
  read_frame (b ++ rest) max =
    ReadOut (WOk (with_bodylen (f_hdr f) (N.of_nat (length (f_body f))), f_body f))
            (N.of_nat (length b)) (Some (N.of_nat (length (f_body f)))).
Proof.
  intros D A. destruct (append_frame_ok f max b A) as (Eb & V & U). cbv zeta in Eb, V.
  set (h := with_bodylen (f_hdr f) (N.of_nat (length (f_body f)))) in *.
  pose proof (frame_hdr_domain f D U) as HD. fold h in HD.
  pose proof (encode_header_length h) as Lh.
  assert (Lb : length b = (header_size + length (f_body f))%nat) by (rewrite Eb, app_length, Lh; reflexivity).
  assert (F : firstn header_size (b ++ rest) = encode_header h)
    by (rewrite Eb, <- app_assoc, <- Lh; apply firstn_app_exact).
  assert (S : skipn header_size (b ++ rest) = f_body f ++ rest)
    by (rewrite Eb, <- app_assoc, <- Lh; apply skipn_app_exact).
  rewrite read_frame_eq by (rewrite app_length, Lb; lia).
  rewrite F, S, <- (app_nil_r (encode_header h)), decode_encode by exact HD. rewrite V. cbv zeta.
  subst h. cbn [h_bodylen with_bodylen]. rewrite (u32_le_intmax _ U), Nnat.Nat2N.id.
  assert (L2 : Nat.ltb (length (f_body f ++ rest)) (length (f_body f)) = false)
    by (apply Nat.ltb_ge; rewrite app_length; lia).
  rewrite L2, firstn_app_exact, Lb, Nnat.Nat2N.inj_add. reflexivity.
Qed.

(* C26 (a): every written batch of frames reads back as exactly those frames, in order *)
Lemma write_read_roundtrip fs : forall max b rest, forallb frame_in_domain fs = true ->
  write_frames fs max = WOk b ->
  read_frames (length fs) (b ++ rest) max = written_frames fs.
Proof.
  induction fs as [|f fs IH]; intros max b rest D W; [reflexivity|].
  cbn [forallb] in D. apply andb_true_iff in D. destruct D as [Df Dfs].
  cbn [write_frames] in W.
  destruct (append_frame f max) as [bf|] eqn:A; [|discriminate].
  destruct (write_frames fs max) as [br|] eqn:Wr; [|discriminate].
  inversion W; subst b. clear W.
  cbn [length read_frames written_frames map]. rewrite <- app_assoc.
  rewrite (read_written_frame f max bf (br ++ rest) Df A).
  cbn [ro_res ro_consumed]. rewrite Nnat.Nat2N.id, skipn_app_exact.
  f_equal. apply IH; assumption.
Qed.
