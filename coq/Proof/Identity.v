(* Proof/Identity.v — the entry pre-image is injective in every semantic field;
   hence equal digests mean equal content or an explicit hash collision;
   VerifyEntry accepts a pair exactly when its guards hold and the digest is that of the pair. *)
From WK Require Import Base.Base Base.Lists Base.Bytes Gen.Consts_C05 Model.Identity.
Open Scope N_scope.

Lemma be_put_inj_app w x y (r r' : bytes) : x < 256 ^ N.of_nat w -> y < 256 ^ N.of_nat w ->
  be_put w x ++ r = be_put w y ++ r' -> x = y /\ r = r'.
Proof.
  intros Hx Hy E. apply app_inv_length in E; [|rewrite !be_put_length; reflexivity].
  destruct E as [E ->]. split; [exact (be_put_inj w x y Hx Hy E)|reflexivity].
Qed.

Lemma fixed_inj_app n (a b r r' : bytes) : length a = n -> length b = n ->
  a ++ r = b ++ r' -> a = b /\ r = r'.
Proof. intros La Lb E. apply app_inv_length in E; [exact E|congruence]. Qed.

Lemma u64_of_i64_lt z : u64_of_i64 z < 18446744073709551616.
Proof.
  unfold u64_of_i64.
  pose proof (Z.mod_pos_bound z 18446744073709551616 eq_refl) as B.
  apply N2Z.inj_lt. rewrite Z2N.id by lia. change (Z.of_N 18446744073709551616) with 18446744073709551616%Z. lia.
Qed.

Lemma u64_of_i64_inj a b : i64 a = true -> i64 b = true -> u64_of_i64 a = u64_of_i64 b -> a = b.
Proof.
  unfold i64, u64_of_i64. rewrite !andb_true_iff, !Z.leb_le, !Z.ltb_lt. intros [A1 A2] [B1 B2] E.
  pose proof (Z.mod_pos_bound a 18446744073709551616 eq_refl) as Ma.
  pose proof (Z.mod_pos_bound b 18446744073709551616 eq_refl) as Mb.
  apply (f_equal Z.of_N) in E. rewrite !Z2N.id in E by lia.
  pose proof (Z.div_mod a 18446744073709551616 ltac:(lia)) as Da.
  pose proof (Z.div_mod b 18446744073709551616 ltac:(lia)) as Db.
  assert (Qa : (a / 18446744073709551616 = 0 \/ a / 18446744073709551616 = -1)%Z) by lia.
  assert (Qb : (b / 18446744073709551616 = 0 \/ b / 18446744073709551616 = -1)%Z) by lia.
  lia.
Qed.

Lemma sync_byte_lt b : sync_byte b < 256. Proof. destruct b; cbn; lia. Qed.
Lemma sync_byte_inj a b : sync_byte a = sync_byte b -> a = b.
Proof. destruct a, b; cbn; intro E; try reflexivity; discriminate. Qed.

(* the digest field of the identity is not part of the pre-image *)
Lemma preimage_with_digest e d r : preimage (with_digest e d) r = preimage e r.
Proof. reflexivity. Qed.

Record content_eq (e : entry) (r : record) (e' : entry) (r' : record) : Prop := ContentEq {
  ce_epoch : e_epoch e = e_epoch e'; ce_term : e_term e = e_term e'; ce_fence : e_fence e = e_fence e';
  ce_index : e_index e = e_index e'; ce_prev_term : e_prev_term e = e_prev_term e';
  ce_prev_index : e_prev_index e = e_prev_index e'; ce_cmd : e_cmd e = e_cmd e';
  ce_prev_digest : e_prev_digest e = e_prev_digest e';
  ce_id : r_id r = r_id r'; ce_setting : r_setting r = r_setting r'; ce_sync : r_sync r = r_sync r';
  ce_ts : r_ts r = r_ts r'; ce_uid : r_uid r = r_uid r'; ce_clientno : r_clientno r = r_clientno r';
  ce_payload : r_payload r = r_payload r' }.

Lemma content_eqb_iff e r e' r' : content_eqb e r e' r' = true <-> content_eq e r e' r'.
Proof.
  unfold content_eqb. rewrite !andb_true_iff, !N.eqb_eq, !bytes_eqb_eq, Z.eqb_eq, Bool.eqb_true_iff.
  split.
  - intros [[[[[[[[[[[[[[A1 A2] A3] A4] A5] A6] A7] A8] A9] A10] A11] A12] A13] A14] A15].
    constructor; assumption.
  - intros [A1 A2 A3 A4 A5 A6 A7 A8 A9 A10 A11 A12 A13 A14 A15]. tauto.
Qed.

Lemma entry_domain_inv e : entry_in_domain e = true ->
  e_epoch e < 18446744073709551616 /\ e_term e < 18446744073709551616
  /\ e_fence e < 18446744073709551616 /\ e_index e < 18446744073709551616
  /\ e_prev_term e < 18446744073709551616 /\ e_prev_index e < 18446744073709551616
  /\ length (e_cmd e) = 32%nat /\ length (e_prev_digest e) = 32%nat.
Proof.
  unfold entry_in_domain, u64, len32. intro H. repeat (apply andb_prop in H; destruct H as [H ?]).
  repeat split; first [apply N.ltb_lt|apply Nat.eqb_eq]; assumption.
Qed.

Lemma record_domain_inv r : record_in_domain r = true ->
  r_id r < 18446744073709551616 /\ r_setting r < 256 /\ i64 (r_ts r) = true
  /\ N.of_nat (length (r_uid r)) < 18446744073709551616
  /\ N.of_nat (length (r_clientno r)) < 18446744073709551616
  /\ N.of_nat (length (r_payload r)) < 18446744073709551616.
Proof.
  unfold record_in_domain, u64, len_u64. intro H. repeat (apply andb_prop in H; destruct H as [H ?]).
  repeat split; try apply N.ltb_lt; assumption.
Qed.

(* the pre-image is a concatenation of self-delimiting fields: [peel L Q] splits the first field
   off both sides of [E] by the injectivity lemma [L], naming the field's equation [Q] *)
Ltac peel L Q :=
  match goal with E : _ ++ _ = _ ++ _ |- _ =>
    apply L in E; [destruct E as [Q E]|first [assumption|apply sync_byte_lt|apply u64_of_i64_lt]..]
  end.

(* C05: equal pre-images => every semantic field equal (field domains = the Go types) *)
Lemma preimage_inj e r e' r' :
  entry_in_domain e = true -> record_in_domain r = true ->
  entry_in_domain e' = true -> record_in_domain r' = true ->
  preimage e r = preimage e' r' -> content_eq e r e' r'.
Proof.
  intros De Dr De' Dr' E.
  apply entry_domain_inv in De, De'. apply record_domain_inv in Dr, Dr'.
  destruct De as (E1 & E2 & E3 & E4 & E5 & E6 & E7 & E8).
  destruct De' as (E1' & E2' & E3' & E4' & E5' & E6' & E7' & E8').
  destruct Dr as (R1 & R2 & R3 & R4 & R5 & R6).
  destruct Dr' as (R1' & R2' & R3' & R4' & R5' & R6').
  unfold preimage in E. apply app_inv_head in E.
  peel (be_put_inj_app 8) Q1. peel (be_put_inj_app 8) Q2. peel (be_put_inj_app 8) Q3.
  peel (be_put_inj_app 8) Q4. peel (be_put_inj_app 8) Q5. peel (be_put_inj_app 8) Q6.
  peel (fixed_inj_app 32%nat) Q7. peel (fixed_inj_app 32%nat) Q8.
  peel (be_put_inj_app 8) Q9. peel (be_put_inj_app 1) Q10. peel (be_put_inj_app 1) Q11. peel (be_put_inj_app 8) Q12.
  peel put_bytes64_inj_app Q13. peel put_bytes64_inj_app Q14.
  rewrite <- (app_nil_r (put_bytes64 (r_payload r))), <- (app_nil_r (put_bytes64 (r_payload r'))) in E.
  peel put_bytes64_inj_app Q15.
  constructor; try assumption.
  - apply sync_byte_inj. exact Q11.
  - apply u64_of_i64_inj; assumption.
Qed.

(* the converse: the pre-image depends on nothing else (not on Version, not on
   the identity's own Digest, not on the record's Index/Epoch copies) *)
Lemma content_eq_preimage e r e' r' : content_eq e r e' r' -> preimage e r = preimage e' r'.
Proof. intros [A1 A2 A3 A4 A5 A6 A7 A8 A9 A10 A11 A12 A13 A14 A15]. unfold preimage. congruence. Qed.

Definition collision (H : bytes -> bytes) : Prop := exists p1 p2, p1 <> p2 /\ H p1 = H p2.
Definition zero_image (H : bytes -> bytes) : Prop := exists p, H p = zero32.

Section WithHash.
  Variable H : bytes -> bytes.

  (* C05: equal digests => equal content, or an explicit collision of H *)
  Lemma digest_binds e r e' r' :
    entry_in_domain e = true -> record_in_domain r = true ->
    entry_in_domain e' = true -> record_in_domain r' = true ->
    digest_proposal_entry H e r = digest_proposal_entry H e' r' ->
    content_eq e r e' r' \/ collision H.
  Proof.
    intros De Dr De' Dr' E. unfold digest_proposal_entry in E.
    destruct (bytes_eq_dec (preimage e r) (preimage e' r')) as [P|P].
    - left. apply preimage_inj; assumption.
    - right. exists (preimage e r), (preimage e' r'). split; assumption.
  Qed.

  Lemma verify_entry_iff e r :
    verify_entry H e r = true <->
    verify_guards e r = true /\ H (preimage e r) = e_digest e.
  Proof.
    unfold verify_entry, digest_proposal_entry. rewrite andb_true_iff, bytes_eqb_eq. tauto.
  Qed.

  (* verify only looks at H on this one pre-image: this is what makes the shortcut of
     Model/C05Case.v probe_mismatch, [verify_entry (fun _ => d)] with d the digest already computed,
     equal to [verify_entry sha256] *)
  Lemma verify_entry_ext (H2 : bytes -> bytes) e r :
    H (preimage e r) = H2 (preimage e r) -> verify_entry H e r = verify_entry H2 e r.
  Proof. intro E. unfold verify_entry, digest_proposal_entry. rewrite E. reflexivity. Qed.
End WithHash.
