(* Proof/ClusterCodec_SlotFSM.v — the TLV command codec of pkg/slot/fsm/command.go (direct
   Gallina, direct proofs: not an instance of the format combinators):
   readTLV inverts put_tlv; the field loop over a sequence of fields is the
   fold of the per-field action; decodeCommand inverts the four modelled
   encoders; whatever decodeCommand accepts for a modelled type is "header +
   whole fields" (so a frame cut inside a field is rejected), and a frame cut
   at a field boundary decodes to the value with the missing fields zero. *)
From WK Require Import Base.Base Base.Bytes Gen.Consts_C27.
From WK Require Import Model.ClusterCodecBase Model.ClusterCodec_SlotFSM Proof.ClusterCodecBase.
From Coq Require Import ZifyBool ZifyN ZifyNat.
Open Scope N_scope.

Lemma readTLV_put tag v rest :
  blen v < 4294967296 -> readTLV (put_tlv tag v ++ rest) = Some (tag, v, rest).
Proof.
  intro H. unfold put_tlv. destruct (put_u32_shape _ H) as (a & b & c & d & E & G).
  rewrite E. cbn [app readTLV]. rewrite G, ntake_app. reflexivity.
Qed.

Lemma put_tlv_length tag v : length (put_tlv tag v) = (5 + length v)%nat.
Proof. unfold put_tlv, put_u32. cbn [length]. rewrite app_length, be_put_length. lia. Qed.

(* the fold the loop computes over a list of (tag, value) fields *)
Fixpoint fold_fields {S} (step : S -> N -> bytes -> option S) (st : S) (fs : list (N * bytes)) : option S :=
  match fs with
  | [] => Some st
  | (tag, v) :: r => match step st tag v with Some st' => fold_fields step st' r | None => None end
  end.
Definition enc_fields (fs : list (N * bytes)) : bytes := concat (map (fun tv => put_tlv (fst tv) (snd tv)) fs).
Definition fields_ok (fs : list (N * bytes)) : bool := forallb (fun tv => blen (snd tv) <? 4294967296) fs.

(* one turn of the loop on input that is not exhausted *)
Lemma tlv_loop_nonempty {S} f (step : S -> N -> bytes -> option S) st data : data <> [] ->
  tlv_loop (Datatypes.S f) step st data =
  match readTLV data with
  | None => None
  | Some (tag, v, rest) => match step st tag v with None => None | Some st' => tlv_loop f step st' rest end
  end.
Proof. destruct data; [contradiction|reflexivity]. Qed.

Lemma tlv_loop_fields {S} (step : S -> N -> bytes -> option S) :
  forall fs fuel st, (length fs <= fuel)%nat -> fields_ok fs = true ->
    tlv_loop fuel step st (enc_fields fs) = fold_fields step st fs.
Proof.
  induction fs as [|[tag v] fs IH]; intros fuel st Hf Hok.
  - destruct fuel; reflexivity.
  - cbn [fields_ok forallb snd] in Hok. apply andb_true_iff in Hok. destruct Hok as [Hv Hok].
    destruct fuel as [|fuel]; [cbn in Hf; lia|].
    unfold enc_fields. cbn [map concat fst snd]. fold (enc_fields fs).
    rewrite tlv_loop_nonempty by (unfold put_tlv; discriminate). rewrite readTLV_put by lia.
    cbn [fold_fields]. destruct (step st tag v) as [st'|]; [|reflexivity].
    apply IH; [cbn in Hf; lia|exact Hok].
Qed.

Lemma enc_fields_length fs : (length fs <= length (enc_fields fs))%nat.
Proof.
  induction fs as [|[tag v] fs IH]; [cbn; lia|].
  unfold enc_fields. cbn [map concat fst snd length]. rewrite app_length, put_tlv_length.
  fold (enc_fields fs). lia.
Qed.

Lemma tlv_fields_enc {S} (step : S -> N -> bytes -> option S) st fs :
  fields_ok fs = true -> tlv_fields step st (enc_fields fs) = fold_fields step st fs.
Proof. intro H. unfold tlv_fields. apply tlv_loop_fields; [apply enc_fields_length|exact H]. Qed.

Lemma i64_roundtrip z : i64_ok z = true -> i64_of_u64 (u64_of_i64 z) = z.
Proof.
  unfold i64_ok, i64_of_u64, u64_of_i64, two63. intro H.
  destruct (z <? 0)%Z eqn:E.
  - assert (M : (z mod 18446744073709551616 = z + 18446744073709551616)%Z).
    { symmetry. apply Z.mod_unique with (q := (-1)%Z); lia. }
    rewrite M. destruct (Z.to_N (z + 18446744073709551616) <? 9223372036854775808) eqn:L; lia.
  - rewrite Z.mod_small by lia.
    destruct (Z.to_N z <? 9223372036854775808) eqn:L; lia.
Qed.

Lemma u64_of_i64_range z : u64_of_i64 z < 256 ^ N.of_nat 8.
Proof.
  unfold u64_of_i64. pose proof (Z.mod_pos_bound z 18446744073709551616 eq_refl).
  change (256 ^ N.of_nat 8) with 18446744073709551616. lia.
Qed.

Lemma i64_value_put z : i64_ok z = true -> i64_value (put_u64 (u64_of_i64 z)) = Some z.
Proof.
  intro H. unfold i64_value, put_u64. rewrite be_put_length. cbn [Nat.eqb].
  rewrite be_get_put by apply u64_of_i64_range. rewrite i64_roundtrip by exact H. reflexivity.
Qed.

Lemma str_ok_len s : str_ok s = true -> blen s <? 4294967296 = true.
Proof. intro H. apply andb_true_iff in H. apply H. Qed.

Lemma blen_put_u64 x : blen (put_u64 x) <? 4294967296 = true.
Proof. unfold blen, put_u64. rewrite be_put_length. reflexivity. Qed.

Lemma user_fields u cmd_type :
  encodeUserCommand cmd_type u =
  [commandVersion; cmd_type]
  ++ enc_fields [(tagUserUID, u_uid u); (tagUserToken, u_token u);
                 (tagUserDeviceFlag, put_u64 (u64_of_i64 (u_device_flag u)));
                 (tagUserDeviceLevel, put_u64 (u64_of_i64 (u_device_level u)))].
Proof.
  unfold encodeUserCommand, enc_fields, put_i64_tlv. cbn [map concat fst snd].
  rewrite app_nil_r. reflexivity.
Qed.

Lemma device_fields d :
  EncodeUpsertDeviceCommand d =
  [commandVersion; cmdTypeUpsertDevice]
  ++ enc_fields [(tagDeviceUID, d_uid d); (tagDeviceFlag, put_u64 (u64_of_i64 (d_device_flag d)));
                 (tagDeviceToken, d_token d); (tagDeviceLevel, put_u64 (u64_of_i64 (d_device_level d)))].
Proof.
  unfold EncodeUpsertDeviceCommand, enc_fields, put_i64_tlv. cbn [map concat fst snd].
  rewrite app_nil_r. reflexivity.
Qed.

Lemma decodeUser_encoded u :
  str_ok (u_uid u) && str_ok (u_token u) && i64_ok (u_device_flag u) && i64_ok (u_device_level u) = true ->
  decodeUser (enc_fields [(tagUserUID, u_uid u); (tagUserToken, u_token u);
                          (tagUserDeviceFlag, put_u64 (u64_of_i64 (u_device_flag u)));
                          (tagUserDeviceLevel, put_u64 (u64_of_i64 (u_device_level u)))]) = Some u.
Proof.
  intro W. do 3 (apply andb_true_iff in W; destruct W as [W ?]).
  unfold decodeUser. rewrite tlv_fields_enc.
  - cbn -[i64_value put_u64]. rewrite !i64_value_put by assumption. destruct u; reflexivity.
  - cbn [fields_ok forallb snd]. rewrite !blen_put_u64, !str_ok_len by assumption. reflexivity.
Qed.

Lemma decodeDevice_encoded d :
  str_ok (d_uid d) && str_ok (d_token d) && i64_ok (d_device_flag d) && i64_ok (d_device_level d) = true ->
  decodeDevice (enc_fields [(tagDeviceUID, d_uid d); (tagDeviceFlag, put_u64 (u64_of_i64 (d_device_flag d)));
                            (tagDeviceToken, d_token d); (tagDeviceLevel, put_u64 (u64_of_i64 (d_device_level d)))])
  = Some d.
Proof.
  intro W. do 3 (apply andb_true_iff in W; destruct W as [W ?]).
  unfold decodeDevice. rewrite tlv_fields_enc.
  - cbn -[i64_value put_u64]. rewrite !i64_value_put by assumption. destruct d; reflexivity.
  - cbn [fields_ok forallb snd]. rewrite !blen_put_u64, !str_ok_len by assumption. reflexivity.
Qed.

Theorem command_roundtrip : forall c e,
  command_wf c = true -> encodeCommand c = Some e -> decodeCommand e = Some c.
Proof.
  intros c e W E. destruct c as [|u|u|d|t]; cbn [encodeCommand command_wf] in *; try discriminate;
    injection E as <-; [reflexivity|..]; rewrite ?user_fields, ?device_fields; cbn -[decodeUser decodeDevice enc_fields];
    rewrite ?decodeUser_encoded, ?decodeDevice_encoded by exact W; reflexivity.
Qed.

(* input that some step function gets through consists of whole fields *)
Lemma tlv_loop_complete {S} (step : S -> N -> bytes -> option S) :
  forall fuel st data r, tlv_loop fuel step st data = Some r ->
    tlv_loop fuel (fun s _ _ => Some s) tt data = Some tt.
Proof.
  induction fuel as [|fuel IH]; intros st data r H.
  - destruct data; [reflexivity|discriminate].
  - destruct data as [|x l]; [reflexivity|].
    cbn [tlv_loop] in *. destruct (readTLV (x :: l)) as [[[tag v] rest]|]; [|discriminate].
    destruct (step st tag v) as [st'|]; [|discriminate]. eapply IH. exact H.
Qed.

Lemma tlv_fields_complete {S} (step : S -> N -> bytes -> option S) st body r :
  tlv_fields step st body = Some r -> tlv_fields (fun s _ _ => Some s) tt body = Some tt.
Proof. apply tlv_loop_complete. Qed.

(* A modelled command is decoded only from "header + whole fields": bytes that end
   inside a field (a truncation that is not at a field boundary) are rejected. *)
Theorem decoded_is_complete : forall data c,
  decodeCommand data = Some c -> (forall t, c <> CmdOther t) -> tlv_complete data = true.
Proof.
  intros data c H Hm. destruct data as [|v [|t body]]; try discriminate.
  cbn [decodeCommand] in H.
  destruct (negb (v =? commandVersion)); [discriminate|].
  destruct (negb (existsb (N.eqb t) commandTypes)); [discriminate|].
  (* each of the four modelled types runs the field loop over the body *)
  destruct (t =? cmdTypeNoop); [|destruct (t =? cmdTypeUpsertUser); [|destruct (t =? cmdTypeCreateUser);
    [|destruct (t =? cmdTypeUpsertDevice)]]];
    try (unfold decodeNoop, decodeUser, decodeDevice in H;
         destruct (tlv_fields _ _ body) as [r|] eqn:E; [|discriminate];
         unfold tlv_complete; rewrite (tlv_fields_complete _ _ _ _ E); reflexivity).
  inversion H; subst. exfalso. eapply Hm. reflexivity.
Qed.

(* A frame cut at a field boundary is again a frame: of the value whose later fields
   are zero (what an older writer would have sent). *)
Theorem user_prefix_at_boundary : forall u,
  str_ok (u_uid u) = true ->
  decodeCommand ([commandVersion; cmdTypeUpsertUser] ++ enc_fields [(tagUserUID, u_uid u)])
  = Some (CmdUpsertUser (User (u_uid u) [] 0 0)).
Proof.
  intros u W. apply str_ok_len in W.
  cbn -[decodeUser enc_fields]. unfold decodeUser. rewrite tlv_fields_enc; [reflexivity|].
  cbn [fields_ok forallb snd]. rewrite W. reflexivity.
Qed.

Theorem unknown_type_rejected : forall v t body,
  existsb (N.eqb t) commandTypes = false -> decodeCommand (v :: t :: body) = None.
Proof.
  intros v t body H. cbn [decodeCommand]. destruct (negb (v =? commandVersion)); [reflexivity|].
  rewrite H. reflexivity.
Qed.
