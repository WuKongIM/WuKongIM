(* Proof/Machine_steps.v — specifications of the loops of Model/Machine.v and the per-transition
   facts (invariant preservation, monotonicity, reply facts, admission facts) for C06. *)
From WK Require Import Base.Base Gen.Consts_C06 Model.Machine Proof.Machine.
Open Scope N_scope.

Ltac st := cbn [s_key s_local s_gen s_id s_epoch s_lepoch s_role s_status s_leader s_replicas s_isr
                s_minisr s_leo s_hw s_cp s_ready s_progress s_pending s_order s_infl
                set_hw set_leo set_progress set_app] in *.

(* waiter target invariant: once Target is set it is the index of the last record *)
Definition tgt_ok (w : waiter) : Prop :=
  w_target w <> 0 -> forall q, last_idx (w_recs w) = Some q -> q = w_target w.

Definition TG (s : state) : Prop := Forall tgt_ok (s_pending s).

Definition Inv (s : state) : Prop := WM s /\ TG s.

Lemma Forall_del_ids (P : waiter -> Prop) cs l : Forall P l -> Forall P (del_ids cs l).
Proof.
  rewrite !Forall_forall. intros H w Hw. apply del_ids_In in Hw. apply H. tauto.
Qed.

Lemma Forall_del_w (P : waiter -> Prop) op l : Forall P l -> Forall P (del_w op l).
Proof.
  rewrite !Forall_forall. intros H w Hw. apply del_w_In in Hw. apply H. tauto.
Qed.

Lemma complete_loop_spec hw : forall order pend rs cs p',
  complete_loop hw order pend = (rs, cs, p') ->
  map r_op rs = cs /\ p' = del_ids cs pend /\ NoDup cs /\
  (forall r, In r rs -> exists w, find_w (r_op r) pend = Some w /\ r = mk_reply w
                                  /\ w_target w <> 0
                                  /\ (w_mode w = CommitModeQuorum -> w_target w <= hw)).
Proof.
  induction order as [|op rest IH]; intros pend rs cs p' H; cbn [complete_loop] in H.
  - inversion H; subst. split; [reflexivity|]. split; [symmetry; apply del_ids_nil|].
    split; [constructor|]. intros r [].
  - destruct (find_w op pend) as [w|] eqn:F; [|apply IH; exact H].
    destruct (w_target w =? 0) eqn:T; [apply IH; exact H|].
    destruct ((w_mode w =? CommitModeQuorum) && (hw <? w_target w)) eqn:Q; [apply IH; exact H|].
    destruct (complete_loop hw rest (del_w op pend)) as [[rs1 cs1] p1] eqn:R.
    inversion H; subst rs cs p'. clear H.
    destruct (IH _ _ _ _ R) as [A [B [D C]]].
    pose proof (find_w_op _ _ _ F) as Hop.
    split; [cbn [map mk_reply r_op]; rewrite Hop, A; reflexivity|].
    split; [rewrite del_ids_cons; exact B|].
    split.
    + constructor; [|exact D]. intro Hin. rewrite <- A in Hin. apply in_map_iff in Hin.
      destruct Hin as [r [E Hr]]. destruct (C r Hr) as [w' [F' _]].
      rewrite find_del, E, N.eqb_refl in F'. discriminate.
    + intros r [Hr|Hr].
      * subst r. exists w. cbn [mk_reply r_op]. rewrite Hop. split; [exact F|].
        split; [reflexivity|]. split; [apply N.eqb_neq; exact T|].
        intro M. apply andb_false_iff in Q. destruct Q as [Q|Q].
        -- rewrite M, N.eqb_refl in Q. discriminate.
        -- apply N.ltb_ge in Q. exact Q.
      * destruct (C r Hr) as [w' [F' G]]. exists w'. split; [|exact G].
        rewrite find_del in F'. destruct (r_op r =? op); [discriminate|exact F'].
Qed.

Lemma complete_waiters_spec s order s' rs :
  complete_waiters s order = (s', rs) ->
  same_but_app s s' /\ s_infl s' = s_infl s
  /\ s_pending s' = del_ids (map r_op rs) (s_pending s) /\ NoDup (map r_op rs) /\
  (forall r, In r rs -> exists w, find_w (r_op r) (s_pending s) = Some w /\ r = mk_reply w
                                  /\ w_target w <> 0
                                  /\ (w_mode w = CommitModeQuorum -> w_target w <= s_hw s)).
Proof.
  unfold complete_waiters. destruct (s_pending s) as [|w0 p0] eqn:P.
  - intro H. inversion H; subst. split; [apply same_but_app_refl|]. split; [reflexivity|].
    rewrite P. split; [reflexivity|]. split; [constructor|]. intros r [].
  - match goal with |- context [complete_loop ?h ?o ?p] =>
      destruct (complete_loop h o p) as [[rs1 cs1] p1] eqn:R end.
    intro H. inversion H; subst s' rs. clear H.
    destruct (complete_loop_spec _ _ _ _ _ _ R) as [A [B [D C]]]. subst cs1.
    split; [apply same_but_app_set_app|]. split; [reflexivity|]. st.
    split; [exact B|]. split; [exact D|exact C].
Qed.

Lemma fail_loop_spec err : forall ids pend rs cs p',
  fail_loop err ids pend = (rs, cs, p') ->
  map r_op rs = cs /\ p' = del_ids cs pend /\ NoDup cs /\
  (forall r, In r rs -> (exists w, find_w (r_op r) pend = Some w) /\ r_err r = err /\ r_items r = []).
Proof.
  induction ids as [|op rest IH]; intros pend rs cs p' H; cbn [fail_loop] in H.
  - inversion H; subst. split; [reflexivity|]. split; [symmetry; apply del_ids_nil|].
    split; [constructor|]. intros r [].
  - destruct (find_w op pend) as [w|] eqn:F; [|apply IH; exact H].
    destruct (fail_loop err rest (del_w op pend)) as [[rs1 cs1] p1] eqn:R.
    inversion H; subst rs cs p'. clear H.
    destruct (IH _ _ _ _ R) as [A [B [D C]]].
    split; [cbn [map r_op]; rewrite A; reflexivity|].
    split; [rewrite del_ids_cons; exact B|].
    split.
    + constructor; [|exact D]. intro Hin. rewrite <- A in Hin. apply in_map_iff in Hin.
      destruct Hin as [r [E Hr]]. destruct (C r Hr) as [[w' F'] _].
      rewrite find_del, E, N.eqb_refl in F'. discriminate.
    + intros r [Hr|Hr].
      * subst r. cbn [r_op r_err r_items]. split; [exists w; exact F|]. split; reflexivity.
      * destruct (C r Hr) as [[w' F'] G]. split; [|exact G]. exists w'.
        rewrite find_del in F'. destruct (r_op r =? op); [discriminate|exact F'].
Qed.

Lemma fail_inflight_spec s err s' d :
  fail_inflight s err = (s', d) ->
  same_but_app s s'
  /\ s_pending s' = del_ids (map r_op (d_replies d)) (s_pending s) /\ NoDup (map r_op (d_replies d)) /\
  (forall r, In r (d_replies d) ->
     (exists w, find_w (r_op r) (s_pending s) = Some w) /\ r_err r = err /\ r_items r = []).
Proof.
  unfold fail_inflight. destruct (s_infl s) as [f|].
  - destruct (fail_loop err (f_ids f) (s_pending s)) as [[rs1 cs1] p1] eqn:R.
    intro H. inversion H; subst s' d. clear H.
    destruct (fail_loop_spec _ _ _ _ _ _ R) as [A [B [D C]]]. subst cs1.
    split; [apply same_but_app_set_app|]. st. cbn [dec_replies d_replies].
    split; [exact B|]. split; [exact D|exact C].
  - intro H. inversion H; subst s' d. split; [apply same_but_app_refl|].
    cbn [dec_empty d_replies map]. split; [symmetry; apply del_ids_nil|]. split; [constructor|]. intros r [].
Qed.

Lemma assign_loop_spec recs : forall ids next counts pend,
  pend_ids (assign_loop recs next ids counts pend) = pend_ids pend /\
  (forall a w', find_w a (assign_loop recs next ids counts pend) = Some w' ->
                exists w, find_w a pend = Some w /\ w_mode w' = w_mode w) /\
  (Forall tgt_ok pend -> Forall tgt_ok (assign_loop recs next ids counts pend)).
Proof.
  induction ids as [|op ids IH]; intros next counts pend; cbn [assign_loop].
  - split; [reflexivity|]. split; [|auto]. intros a w' H. exists w'. split; [exact H|reflexivity].
  - destruct (find_w op pend) as [w|] eqn:F; [|apply IH].
    match goal with |- context [assign_loop recs ?n ids ?c (upd_w ?W pend)] =>
      destruct (IH n c (upd_w W pend)) as [A [B C]]; set (W0 := W) in * end.
    split; [rewrite A; apply ids_upd_w|]. split.
    + intros a w' H. destruct (B a w' H) as [w1 [F1 M1]].
      rewrite find_upd_w in F1. destruct (find_w a pend) as [x|] eqn:Fa; [|discriminate].
      destruct (a =? w_op W0) eqn:E.
      * inversion F1; subst w1. apply N.eqb_eq in E. unfold W0 in E. cbn [w_op] in E. subst a.
        rewrite F in Fa. inversion Fa; subst x. exists w. split; [reflexivity|].
        rewrite M1. reflexivity.
      * inversion F1; subst w1. exists x. split; [reflexivity|exact M1].
    + intro H. apply C. apply Forall_forall. intros v Hv. apply In_upd_w in Hv.
      destruct Hv as [Hv|Hv]; [|rewrite Forall_forall in H; apply H; exact Hv].
      subst v. unfold W0, tgt_ok. cbn [w_target w_recs].
      intros _ q Hq. rewrite Hq. reflexivity.
Qed.

Lemma propose_check_ok pend : forall ws seen,
  propose_check pend seen ws = 0 ->
  NoDup (map b_op ws) /\
  (forall b, In b ws -> ~ In (b_op b) seen /\ ~ In (b_op b) (pend_ids pend) /\ b_ids b <> []).
Proof.
  induction ws as [|b r IH]; intros seen H; cbn [propose_check] in H.
  - split; [constructor|]. intros b [].
  - destruct (b_ids b) as [|i0 ir] eqn:Ib; [discriminate|].
    destruct (mem (b_op b) seen) eqn:M; [discriminate|].
    destruct (find_w (b_op b) pend) as [w|] eqn:F; [discriminate|].
    destruct (IH _ H) as [A B]. cbn [map]. split.
    + constructor; [|exact A]. intro Hin. apply in_map_iff in Hin. destruct Hin as [b' [E Hb']].
      destruct (B b' Hb') as [B1 _]. apply B1. left. symmetry. exact E.
    + intros b' [Hb'|Hb'].
      * subst b'. rewrite Ib. split; [apply mem_false; exact M|]. split; [apply find_w_none; exact F|discriminate].
      * destruct (B b' Hb') as [B1 B2]. split; [|exact B2]. intro H1. apply B1. right. exact H1.
Qed.

Lemma propose_admit_spec : forall ws pend ord pend' ord',
  propose_admit pend ord ws = (pend', ord') ->
  (forall x, In x (pend_ids pend') -> In x (pend_ids pend) \/ In x (map b_op ws)) /\
  (Forall tgt_ok pend -> Forall tgt_ok pend').
Proof.
  induction ws as [|b r IH]; intros pend ord pend' ord' H; cbn [propose_admit] in H.
  - inversion H; subst. split; [|auto]. intros x Hx. left. exact Hx.
  - destruct (IH _ _ _ _ H) as [A B]. split.
    + intros x Hx. destruct (A x Hx) as [H1|H1].
      * apply ids_ins_w in H1. destruct H1 as [H1|H1]; [|left; exact H1].
        right. cbn [map w_op] in *. left. symmetry. exact H1.
      * right. cbn [map]. right. exact H1.
    + intro T. apply B. apply Forall_forall. intros v Hv. apply In_ins_w in Hv.
      destruct Hv as [Hv|Hv]; [|rewrite Forall_forall in T; apply T; exact Hv].
      subst v. unfold tgt_ok. cbn [w_target]. intro H0. exfalso. apply H0. reflexivity.
Qed.

(* ProposeAppendBatch either changes nothing and hands out no task, or admits the whole batch *)
Lemma propose_cases s batch ws :
  (exists d, propose_batch s batch ws = (s, d) /\ d_task d = None /\ d_replies d = [])
  \/ (exists pend' ord' t,
        propose_check (s_pending s) [] ws = 0 /\ propose_admit (s_pending s) (s_order s) ws = (pend', ord')
        /\ propose_batch s batch ws =
           (set_app s pend' ord'
                    (Some (Inflight batch (concat (map (fun b => new_recs (b_ids b)) ws)) (map b_op ws)
                                    (map (fun b => N.of_nat (length (b_ids b))) ws))),
            Decision 0 false (Some t) [] 0)).
Proof.
  unfold propose_batch.
  destruct ((s_status s =? StatusDeleted) || (s_status s =? StatusDeleting)); [left; eexists; repeat split|].
  destruct (negb (s_role s =? RoleLeader)); [left; eexists; repeat split|].
  destruct (negb (s_ready s)); [left; eexists; repeat split|].
  destruct (s_infl s); [left; eexists; repeat split|].
  destruct (propose_check (s_pending s) [] ws) eqn:C; [|left; eexists; repeat split].
  destruct ws as [|b0 ws0]; [left; eexists; repeat split|].
  destruct (propose_admit (s_pending s) (s_order s) (b0 :: ws0)) as [pend' ord'].
  right. do 3 eexists. repeat split.
Qed.

(* a reply goes to an op that was waiting, the op is gone afterwards, and a successful reply carries
   the waiter's target (index of its last record), covered by HW for quorum-mode waiters *)
Definition reply_fact (pre post : state) (r : reply) : Prop :=
  exists w, find_w (r_op r) (s_pending pre) = Some w
  /\ ~ In (r_op r) (pend_ids (s_pending post))
  /\ (r_err r = 0 ->
      exists w', w_op w' = r_op r /\ w_mode w' = w_mode w /\ r_items r = w_recs w'
                 /\ w_target w' <> 0
                 /\ (forall q, last_idx (r_items r) = Some q -> q = w_target w')
                 /\ (w_mode w = CommitModeQuorum -> w_target w' <= s_hw post)).

Record step_facts (s : state) (e : event) (s' : state) (d : decision) : Prop := {
  sf_inv : Inv s';
  sf_hw : s_hw s <= s_hw s';
  sf_leo : s_leo s <= s_leo s';
  sf_cp : s_cp s' = s_cp s;
  sf_replies : forall r, In r (d_replies d) -> reply_fact s s' r;
  sf_nodup : NoDup (map r_op (d_replies d));
  sf_pend : forall x, In x (pend_ids (s_pending s')) ->
                      In x (pend_ids (s_pending s)) \/ In x (admitted_ids e d);
  sf_fresh : forall x, In x (admitted_ids e d) -> ~ In x (pend_ids (s_pending s));
  sf_adm_nodup : NoDup (admitted_ids e d) }.

(* a transition that answers nobody, admits nobody and only shrinks PendingAppends *)
Lemma quiet_facts s e s' d :
  Inv s' -> s_hw s <= s_hw s' -> s_leo s <= s_leo s' -> s_cp s' = s_cp s ->
  d_replies d = [] -> admitted_ids e d = [] ->
  (forall x, In x (pend_ids (s_pending s')) -> In x (pend_ids (s_pending s))) ->
  step_facts s e s' d.
Proof.
  intros H1 H2 H3 H4 H5 H6 H7. constructor; try assumption.
  - rewrite H5. intros r [].
  - rewrite H5. constructor.
  - intros x Hx. left. apply H7. exact Hx.
  - rewrite H6. intros x [].
  - rewrite H6. constructor.
Qed.

Lemma Inv_same s s' :
  same_but_app s s' -> (forall w, In w (s_pending s') -> In w (s_pending s)) -> Inv s -> Inv s'.
Proof.
  intros H1 H2 [W T]. split; [eapply WM_same; eassumption|].
  unfold TG in *. rewrite Forall_forall in *. intros w Hw. apply T. apply H2. exact Hw.
Qed.

Lemma same_watermarks s s' : same_but_app s s' -> s_hw s' = s_hw s /\ s_leo s' = s_leo s /\ s_cp s' = s_cp s.
Proof.
  unfold same_but_app. intro H. repeat match goal with H : _ /\ _ |- _ => destruct H end.
  repeat split; assumption.
Qed.

Lemma unchanged_facts s e d :
  Inv s -> d_replies d = [] -> admitted_ids e d = [] -> step_facts s e s d.
Proof.
  intros H1 H2 H3. apply quiet_facts; try assumption; try apply N.le_refl; try reflexivity.
  intros x Hx. exact Hx.
Qed.
