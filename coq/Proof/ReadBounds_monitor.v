(* Proof/ReadBounds_monitor.v — C10, part 3: the monitor is 0 on every trace the
   model produces ([model_satisfies_monitor], under [leo_bounded]; from any state
   satisfying [Inv]: [monitor_trace]) and such a trace replays without mismatch
   ([trace_replays]); so a non-zero monitor on an implementation trace is a
   mismatch or a property failure.  Also the inputs [ex_ops], [ex_snap] of the
   Examples of Properties/C10.v. *)
From WK Require Import Base.Base Base.Lists Gen.Consts_C10 Model.ReadBounds Proof.ReadBounds Proof.ReadBounds_trim.
Open Scope N_scope.

Fixpoint trace (y : sys) (ops : list op) : list step_obs :=
  match ops with
  | [] => []
  | o :: rest => let '(y1, r) := step y o in mkStep o r (snap_of y1) :: trace y1 rest
  end.

(* the log never reaches the uint64 ceiling during the run *)
Fixpoint leo_bounded (y : sys) (ops : list op) : bool :=
  match ops with
  | [] => true
  | o :: rest => let y1 := fst (step y o) in
                 (s_leo (y_store y1) <? MaxUint64) && leo_bounded y1 rest
  end.

Record Inv (y : sys) (syncs : list N) : Prop := {
  inv_le : forall r, In r (s_rows (y_store y)) -> row_seq r <= s_leo (y_store y);
  inv_sync : forall r, In r (s_rows (y_store y)) -> In (row_seq r) syncs -> row_sync r = true;
  inv_syncs_le : forall x, In x syncs -> x <= s_leo (y_store y) }.

Lemma memN_true x l : memN x l = true <-> In x l.
Proof.
  unfold memN. split.
  - intro H. apply existsb_exists in H. destruct H as (z & Hz & E). apply N.eqb_eq in E. subst. exact Hz.
  - intro H. apply existsb_exists. exists x. split; [exact H | apply N.eqb_refl].
Qed.

Lemma deleted_rows_spec y y1 d :
  In d (deleted_rows (snap_of y) (snap_of y1)) ->
  exists r, In r (s_rows (y_store y)) /\ row_seq r = d /\ ~ In r (s_rows (y_store y1)).
Proof.
  unfold deleted_rows, snap_of. cbn [n_rows]. intro H. apply filter_In in H. destruct H as [H1 H2].
  apply in_map_iff in H1. destruct H1 as (r & E & Hr). exists r. repeat split; auto.
  intro Hin. apply negb_true_iff in H2.
  assert (memN d (map row_seq (s_rows (y_store y1))) = true).
  { apply memN_true. apply in_map_iff. exists r. auto. }
  congruence.
Qed.

Lemma new_rows_range : forall sizes b flags r,
  In r (new_rows b sizes flags) -> b < row_seq r /\ row_seq r <= b + N.of_nat (length sizes).
Proof.
  induction sizes as [|sz sizes IH]; intros b flags r H; cbn [new_rows] in H; [contradiction|].
  cbn [length]. rewrite Nat2N.inj_succ.
  destruct H as [H|H].
  - subst r. cbn [row_seq]. lia.
  - apply IH in H. lia.
Qed.

Lemma new_rows_inj : forall sizes b flags r r',
  In r (new_rows b sizes flags) -> In r' (new_rows b sizes flags) -> row_seq r = row_seq r' -> r = r'.
Proof.
  induction sizes as [|sz sizes IH]; intros b flags r r' H H' E; cbn [new_rows] in H, H'; [contradiction|].
  destruct H as [H|H]; destruct H' as [H'|H'].
  - congruence.
  - subst r. cbn [row_seq] in E. apply new_rows_range in H'. lia.
  - subst r'. cbn [row_seq] in E. apply new_rows_range in H. lia.
  - eapply IH; eassumption.
Qed.

(* a step that adds no row, does not lower LEO and leaves [syncs] alone *)
Lemma Inv_shrink y y1 syncs :
  Inv y syncs -> s_leo (y_store y) <= s_leo (y_store y1) ->
  (forall r, In r (s_rows (y_store y1)) -> In r (s_rows (y_store y))) -> Inv y1 syncs.
Proof.
  intros [I1 I2 I3] Hleo Hr. constructor.
  - intros r Hin. apply Hr, I1 in Hin. lia.
  - intros r Hin. apply I2, Hr, Hin.
  - intros x Hx. apply I3 in Hx. lia.
Qed.

(* an append adds rows in (leo, leo + n], apart from the old rows and the old syncs *)
Lemma Inv_append y y1 syncs sizes flags :
  Inv y syncs ->
  s_rows (y_store y1) = s_rows (y_store y) ++ new_rows (s_leo (y_store y)) sizes flags ->
  s_leo (y_store y1) = s_leo (y_store y) + N.of_nat (length sizes) ->
  Inv y1 (sync_seqs (s_leo (y_store y) + 1) sizes flags ++ syncs).
Proof.
  intros [I1 I2 I3] Hrows Hl. unfold sync_seqs.
  replace (s_leo (y_store y) + 1 - 1) with (s_leo (y_store y)) by lia.
  set (nw := new_rows (s_leo (y_store y)) sizes flags) in *.
  assert (Hnew : forall x, In x (map row_seq (filter row_sync nw)) ->
                           exists r', In r' nw /\ row_seq r' = x /\ row_sync r' = true).
  { intros x Hx. apply in_map_iff in Hx. destruct Hx as (r' & E & Hr'). apply filter_In in Hr'. exists r'. tauto. }
  constructor.
  - intros r Hin. rewrite Hrows in Hin. apply in_app_or in Hin. destruct Hin as [Hin|Hin].
    + apply I1 in Hin. lia.
    + apply new_rows_range in Hin. lia.
  - intros r Hin Hx. rewrite Hrows in Hin. apply in_app_or in Hin. apply in_app_or in Hx.
    destruct Hin as [Hin|Hin]; destruct Hx as [Hx|Hx].
    + destruct (Hnew _ Hx) as (r' & Hr' & E & _). apply new_rows_range in Hr'. apply I1 in Hin. lia.
    + eapply I2; eassumption.
    + destruct (Hnew _ Hx) as (r' & Hr' & E & Hs'). rewrite <- (new_rows_inj _ _ _ _ _ Hr' Hin E). exact Hs'.
    + apply I3 in Hx. apply new_rows_range in Hin. lia.
  - intros x Hx. apply in_app_or in Hx. destruct Hx as [Hx|Hx].
    + destruct (Hnew _ Hx) as (r' & Hr' & E & _). apply new_rows_range in Hr'. lia.
    + apply I3 in Hx. lia.
Qed.

Lemma Inv_step y syncs o y1 res :
  Inv y syncs -> step y o = (y1, res) ->
  Inv y1 (syncs_after syncs (mkStep o res (snap_of y1))).
Proof.
  intros HI Hs. pose proof (step_spec _ _ _ _ Hs) as (_ & Hleo & _ & Hr).
  destruct o; try exact (Inv_shrink _ _ _ HI Hleo Hr).
  destruct Hr as (Hrows & Hl & ->). exact (Inv_append _ _ _ _ _ HI Hrows Hl).
Qed.

Lemma monotone_ok_of y y1 : boundaries_le y y1 -> monotone_ok (snap_of y) (snap_of y1) = true.
Proof.
  unfold boundaries_le, monotone_ok, snap_of. cbn. intros (A & B & C & D & E).
  repeat (apply andb_true_iff; split); apply N.leb_le; assumption.
Qed.

Lemma window_ok y retention minISR x :
  N.max retention (s_local (y_store y)) < x -> x <= committed_of (y_store y) minISR ->
  in_window (boundary_of (snap_of y) retention) (committed_snap (snap_of y) minISR) x = true.
Proof. intros A B. apply andb_true_iff. split; [apply N.ltb_lt; exact A | apply N.leb_le; exact B]. Qed.

Lemma step_code_ok y syncs o y1 res :
  Inv y syncs -> s_leo (y_store y) < MaxUint64 -> step y o = (y1, res) ->
  step_code (snap_of y) syncs (mkStep o res (snap_of y1)) = 0.
Proof.
  intros [I1 I2 I3] Hmax Hs.
  pose proof (step_spec _ _ _ _ Hs) as (Hb & _ & Hdel & _).
  assert (Hwf : rows_below_max (y_store y)) by (intros r Hr; apply I1 in Hr; lia).
  unfold step_code. cbn [o_snap o_op o_res]. rewrite (monotone_ok_of _ _ Hb). cbn [negb].
  assert (Hd : forall x, In x (deleted_rows (snap_of y) (snap_of y1)) -> exists r, row_seq r = x /\ deletion_ok y o r).
  { intros x Hx. apply deleted_rows_spec in Hx. destruct Hx as (r & Hr & E & Hn). exists r. auto. }
  assert (Hnil : (forall r, ~ deletion_ok y o r) -> deleted_rows (snap_of y) (snap_of y1) = []).
  { intro Hno. destruct (deleted_rows (snap_of y) (snap_of y1)) as [|x l]; [reflexivity|].
    destruct (Hd x (or_introl eq_refl)) as (r & _ & F). destruct (Hno r F). }
  (* only Apply and Trim steps delete *)
  destruct o; cbn [step] in Hs; try (rewrite Hnil by (intros r []); cbn [negb]); try reflexivity.
  - (* apply: every deleted row passed the gate *)
    destruct (apply_retention_spec _ _ _ _ _ _ Hs) as (_ & _ & _ & _ & R & _). destruct res; try discriminate R.
    rewrite (proj2 (forallb_forall _ _)); [reflexivity|].
    intros x Hx. destruct (Hd x Hx) as (r & <- & F).
    destruct (deletion_ok_decision _ _ _ _ _ F) as (v & c' & Hdec & Hle). exact (trim_gated_gate_ok _ _ _ _ _ Hdec Hle).
  - (* trim: only below the adopted boundary *)
    destruct (TrimMessagesThrough (y_store y) through maxMessages maxBytes) as [[s1 e] tr]. injection Hs as <- <-.
    rewrite (proj2 (forallb_forall _ _)); [reflexivity|].
    intros x Hx. destruct (Hd x Hx) as (r & <- & F & G). apply N.leb_le. cbn [snap_of n_local]. lia.
  - (* read: every returned row lies in the window *)
    destruct (readLocalCommitted (y_store y) q retention minISR) as [msgs nx] eqn:Er. injection Hs as <- <-.
    rewrite (proj2 (forallb_forall _ _)); [reflexivity|].
    intros x Hx. apply in_map_iff in Hx. destruct Hx as (m & <- & Hm). cbn [fst].
    destruct (readLocalCommitted_window (y_store y) q retention minISR m Hwf) as (_ & A & B); [rewrite Er; exact Hm|].
    apply window_ok; assumption.
  - (* sync: in the window, and never a SyncOnce row *)
    destruct (SyncMessages (y_store y) (mkQuery start endSeq minSeq limit mode) retention minISR) as [seqs more] eqn:Er.
    injection Hs as <- <-.
    rewrite (proj2 (forallb_forall _ _)); [reflexivity|].
    intros x Hx.
    destruct (SyncMessages_window (y_store y) (mkQuery start endSeq minSeq limit mode) retention minISR x Hwf) as (m & Hm & E & Hsy & A & B); [rewrite Er; exact Hx|].
    rewrite window_ok by assumption. apply negb_true_iff, not_true_iff_false. intro Em.
    apply memN_true in Em. subst x. rewrite (I2 m Hm Em) in Hsy. discriminate.
Qed.

Theorem monitor_trace : forall ops y syncs,
  Inv y syncs -> s_leo (y_store y) < MaxUint64 -> leo_bounded y ops = true ->
  monitor_steps (snap_of y) syncs (trace y ops) = 0.
Proof.
  induction ops as [|o ops IH]; intros y syncs HI Hmax Hb; cbn [trace leo_bounded] in *.
  - reflexivity.
  - destruct (step y o) as [y1 res] eqn:Es. cbn [fst] in Hb.
    apply andb_true_iff in Hb. destruct Hb as [Hb1 Hb2]. apply N.ltb_lt in Hb1.
    cbn [monitor_steps]. rewrite (step_code_ok _ _ _ _ _ HI Hmax Es). cbn [o_snap].
    apply IH; [eapply Inv_step; eassumption | exact Hb1 | exact Hb2].
Qed.

Theorem model_satisfies_monitor ops :
  leo_bounded init_sys ops = true -> C10_monitor (C10Hist (trace init_sys ops)) = 0.
Proof.
  intro Hb. cbn [C10_monitor]. apply monitor_trace; [constructor; cbn; intros; contradiction | cbn; reflexivity | exact Hb].
Qed.

Lemma rstate_eqb_refl st : rstate_eqb st st = true.
Proof.
  unfold rstate_eqb, nlist_eqb. rewrite !N.eqb_refl, !list_eqb_refl; [reflexivity| |apply N.eqb_refl].
  intro p. unfold pair_eqb. rewrite !N.eqb_refl. reflexivity.
Qed.

Lemma res_eqb_refl r : res_eqb r r = true.
Proof.
  destruct r; cbn [res_eqb]; unfold nlist_eqb; rewrite ?N.eqb_refl, ?eqb_reflx, ?list_eqb_refl; try reflexivity;
    try apply N.eqb_refl.
  intro p. unfold msg_eqb. rewrite N.eqb_refl, eqb_reflx. reflexivity.
Qed.

Lemma trace_replays : forall ops y, replay_mismatch y (trace y ops) = false.
Proof.
  induction ops as [|o ops IH]; intro y; cbn [trace replay_mismatch]; [reflexivity|].
  destruct (step y o) as [y1 r] eqn:E. cbn [replay_mismatch o_op o_res o_snap]. rewrite E, res_eqb_refl.
  unfold snap_eqb, nlist_eqb. rewrite !N.eqb_refl, rstate_eqb_refl, list_eqb_refl by apply N.eqb_refl. apply IH.
Qed.

Theorem pure_model_satisfies_monitor st through :
  let '(a, r) := retentionTrimDecision st through in
  C10_monitor (C10Pure st through a r (minISRMatchOffset st)) = 0.
Proof.
  destruct (retentionTrimDecision st through) as [a r] eqn:E. cbn [C10_monitor].
  destruct a; [|reflexivity].
  apply trim_gated in E. destruct E as (E0 & _ & E1 & E2 & E3 & E4).
  assert (H : pure_gate_ok st through = true).
  { unfold pure_gate_ok. repeat (apply andb_true_iff; split); try (apply N.leb_le; assumption).
    - apply negb_true_iff. apply N.eqb_neq. exact E0.
    - destruct (r_role st =? RoleLeader) eqn:Er; [|reflexivity]. cbn [negb orb].
      apply N.eqb_eq in Er. apply forallb_forall. intros n Hn. apply N.leb_le. apply E4; assumption. }
  rewrite H. reflexivity.
Qed.

(* concrete inputs used by the Examples of Properties/C10.v *)

Definition ex_ops : list op :=
  [ OMeta RoleLeader 1 [1; 2] [(2, 3)];
    OAppend [1; 2; 3; 0] [false; true; false; false];
    OHW 4; OCkpt 3;
    ORead (mkReq 0 0 0 10 0 false) 0 2;          (* returns 1,2,3 (4 is above the checkpointed HW) *)
    OSync 0 0 0 10 PullModeUp 0 2;               (* returns 1,3: 2 is SyncOnce *)
    OApply 2 0 0;                                (* allowed: deletes 1,2 *)
    ORead (mkReq MaxUint64 0 0 10 0 true) 0 1;   (* latest first, MinISR 1: 4,3 *)
    OApply 1 0 0;                                (* regressing boundary: no-op *)
    OApply 4 0 0 ].                              (* blocked: checkpoint lag, submits a checkpoint *)

(* a snapshot of a 3-row log with nothing trimmed physically *)
Definition ex_snap (rows : list N) (hw local : N) (st : rstate) : snap := mkSnap rows 3 hw local 0 3 st.
