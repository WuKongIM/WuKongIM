(* Proof/WorkQueue.v — shared by the three work queues: [set_nth], counting, [producers],
   [conserved], and the monitor / acceptance check reduced to first-order facts. *)
From Coq Require Import Sorted.
From WK Require Import Base.Base Base.Lists Model.WorkQueue.
Open Scope N_scope.

Lemma nth_set_nth_eq {A} (t : nat) (x d : A) : forall l, nth t (set_nth t x d l) d = x.
Proof.
  induction t as [|t IH]; intros [|y r]; cbn [set_nth nth]; auto.
Qed.

Lemma nth_set_nth_not_nilq {A} (t t' : nat) (x d : A) : t <> t' ->
  forall l, nth t' (set_nth t x d l) d = nth t' l d.
Proof.
  revert t'. induction t as [|t IH]; intros [|t'] Hne [|y r]; cbn [set_nth nth]; try congruence; auto.
  - destruct t'; reflexivity.
  - rewrite IH by congruence. destruct t'; reflexivity.
Qed.

Lemma nth_set_nth {A} (t t' : nat) (x d : A) l :
  nth t' (set_nth t x d l) d = if Nat.eqb t t' then x else nth t' l d.
Proof.
  destruct (Nat.eqb_spec t t') as [->|Hne]; [apply nth_set_nth_eq|apply nth_set_nth_not_nilq; exact Hne].
Qed.

Lemma set_nth_forall_other {A} (P : nat -> A -> Prop) (i : nat) (x d : A) l :
  P i x -> (forall t, t <> i -> P t (nth t l d)) -> forall t, P t (nth t (set_nth i x d l) d).
Proof.
  intros Hx H t. rewrite nth_set_nth. destruct (Nat.eqb_spec i t) as [<-|Hne]; [exact Hx|apply H; congruence].
Qed.

Lemma set_nth_forall {A} (P : nat -> A -> Prop) (i : nat) (x d : A) l :
  P i x -> (forall t, P t (nth t l d)) -> forall t, P t (nth t (set_nth i x d l) d).
Proof. intros Hx H. apply set_nth_forall_other; auto. Qed.

Lemma set_nth_length {A} i (x d : A) : forall l, (i < length l)%nat -> length (set_nth i x d l) = length l.
Proof.
  induction i as [|i IH]; intros [|y r] Hi; cbn [length] in Hi; try lia; cbn [set_nth length]; [reflexivity|].
  rewrite IH by lia. reflexivity.
Qed.

Lemma set_nth_not_nil {A} i (x d : A) l : set_nth i x d l <> [].
Proof. destruct i, l; cbn [set_nth]; discriminate. Qed.

Lemma In_set_nth {A} (t : nat) (x d y : A) : forall l,
  In y (set_nth t x d l) -> y = x \/ y = d \/ In y l.
Proof.
  induction t as [|t IH]; intros [|z r] H; cbn [set_nth] in H.
  - destruct H as [<-|[]]. left; reflexivity.
  - destruct H as [<-|H]; [left; reflexivity|right; right; right; exact H].
  - destruct H as [<-|H]; [right; left; reflexivity|].
    destruct (IH [] H) as [E|[E|[]]]; auto.
  - destruct H as [<-|H]; [right; right; left; reflexivity|].
    destruct (IH r H) as [E|[E|E]]; auto. right; right; right; exact E.
Qed.

Lemma nth_In_or_default {A} (t : nat) (l : list A) d : In (nth t l d) l \/ nth t l d = d.
Proof. destruct (nth_in_or_default t l d); auto. Qed.

Lemma In_nth_ex {A} (x : A) l d : In x l -> exists t, nth t l d = x.
Proof. intro H. destruct (In_nth l x d H) as (t & _ & E). exists t. exact E. Qed.

Lemma NoDup_app_l {A} (l1 l2 : list A) : NoDup (l1 ++ l2) -> NoDup l1.
Proof. apply Base.Lists.NoDup_app_l. Qed.

Lemma existsb_eqb_In x l : existsb (N.eqb x) l = true <-> In x l.
Proof.
  rewrite existsb_exists. split.
  - intros (y & Hy & E). apply N.eqb_eq in E. subst. exact Hy.
  - intro H. exists x. split; [exact H|apply N.eqb_refl].
Qed.

Lemma existsb_eqb_notIn x l : existsb (N.eqb x) l = false <-> ~ In x l.
Proof.
  rewrite <- existsb_eqb_In. destruct (existsb (N.eqb x) l); split; intro H; try reflexivity; try discriminate.
  exfalso. apply H. reflexivity.
Qed.

Lemma nodupb_NoDup l : nodupb l = true <-> NoDup l.
Proof.
  induction l as [|x r IH]; cbn [nodupb].
  - split; [constructor|reflexivity].
  - rewrite andb_true_iff, negb_true_iff, existsb_eqb_notIn, IH. split.
    + intros [H1 H2]. constructor; assumption.
    + intro H. inversion H; subst. split; assumption.
Qed.

Lemma all_pairs_intro {A} (f : A -> A -> bool) l :
  (forall l1 a l2 b l3, l = l1 ++ a :: l2 ++ b :: l3 -> f a b = true /\ f b a = true) ->
  all_pairs f l = true.
Proof.
  induction l as [|a r IH]; intro H; [reflexivity|].
  cbn [all_pairs]. apply andb_true_iff. split.
  - apply forallb_forall. intros b Hb. apply in_split in Hb. destruct Hb as (l2 & l3 & ->).
    apply andb_true_iff. apply (H [] a l2 b l3). reflexivity.
  - apply IH. intros l1 a' l2 b l3 E. apply (H (a :: l1) a' l2 b l3). rewrite E. reflexivity.
Qed.

(* equalities of lists up to order become equations for lia *)

Definition cnt (x : N) (l : list N) : nat := count_occ N.eq_dec l x.

Lemma cnt_nil x : cnt x [] = 0%nat.
Proof. reflexivity. Qed.

Lemma cnt_app x l1 l2 : cnt x (l1 ++ l2) = (cnt x l1 + cnt x l2)%nat.
Proof. apply count_occ_app. Qed.

Lemma cnt_cons x y l : cnt x (y :: l) = ((if N.eqb y x then 1 else 0) + cnt x l)%nat.
Proof.
  unfold cnt. cbn [count_occ]. destruct (N.eq_dec y x) as [E|E].
  - subst. rewrite N.eqb_refl. reflexivity.
  - destruct (N.eqb_spec y x); [contradiction|reflexivity].
Qed.

Lemma cnt_In x l : In x l <-> (cnt x l >= 1)%nat.
Proof. unfold cnt. rewrite (count_occ_In N.eq_dec). lia. Qed.

Lemma cnt_notIn x l : ~ In x l <-> cnt x l = 0%nat.
Proof. rewrite cnt_In. lia. Qed.

Lemma NoDup_cnt l : NoDup l <-> forall x, (cnt x l <= 1)%nat.
Proof. apply (NoDup_count_occ N.eq_dec). Qed.

Lemma incl_cnt l1 l2 : (forall x, (cnt x l1 <= cnt x l2)%nat) -> incl l1 l2.
Proof. intros H x Hx. apply cnt_In. apply cnt_In in Hx. specialize (H x). lia. Qed.

Lemma sorted_split {A} (R : A -> A -> Prop) l : StronglySorted R l ->
  forall l1 a l2, l = l1 ++ a :: l2 -> forall c, In c l2 -> R a c.
Proof.
  intros S l1 a l2 ->. destruct (sorted_app_inv R l1 (a :: l2) S) as (_ & S2 & _).
  inversion S2 as [|? ? _ F]; subst. intros c Hc. rewrite Forall_forall in F. exact (F c Hc).
Qed.

Lemma flat_map_repeat_nil {A B} (f : A -> list B) a n : f a = [] -> flat_map f (repeat a n) = [].
Proof. intro E. induction n; cbn [repeat flat_map]; [reflexivity|]. rewrite E. exact IHn. Qed.

Lemma forallb_nth {A} (f : A -> bool) l i d : forallb f l = true -> f d = true -> f (nth i l d) = true.
Proof.
  intros H Hd. destruct (nth_in_or_default i l d) as [Hin|E]; [|rewrite E; exact Hd].
  rewrite forallb_forall in H. exact (H _ Hin).
Qed.

Lemma fold_left_inv {S E} (P : S -> Prop) (step : S -> E -> S) :
  (forall s e, P s -> P (step s e)) -> forall evs s, P s -> P (fold_left step evs s).
Proof. intros H evs. induction evs as [|e evs IH]; intros s Hs; [exact Hs|]. apply IH, H, Hs. Qed.

Lemma cnt_flat_map_set_nth {A} (f : A -> list N) x i a d : forall l, (i < length l)%nat ->
  (cnt x (flat_map f (set_nth i a d l)) + cnt x (f (nth i l d)) = cnt x (flat_map f l) + cnt x (f a))%nat.
Proof.
  induction i as [|i IH]; intros [|y r] Hi; cbn [length] in Hi; try lia; cbn [set_nth nth flat_map]; rewrite !cnt_app.
  - lia.
  - specialize (IH r ltac:(lia)). lia.
Qed.


Definition okset (subs : list sub) (x : N) : Prop :=
  exists sb, In sb subs /\ s_task sb = x /\ s_res sb = ROk.

Lemma okset_cons_notok sb subs x : s_res sb <> ROk -> (okset (sb :: subs) x <-> okset subs x).
Proof.
  intro H. split.
  - intros (s0 & [<-|Hin] & E1 & E2); [contradiction|]. exists s0. auto.
  - intros (s0 & Hin & E). exists s0. split; [right; exact Hin|exact E].
Qed.

Lemma okset_cons_ok x0 sh st e subs x :
  okset (Sub x0 sh st e ROk :: subs) x <-> x = x0 \/ okset subs x.
Proof.
  split.
  - intros (s0 & [<-|Hin] & E1 & E2); [left; symmetry; exact E1|right; exists s0; auto].
  - intros [->|(s0 & Hin & E)].
    + eexists. split; [left; reflexivity|split; reflexivity].
    + exists s0. split; [right; exact Hin|exact E].
Qed.

Lemma okset_in subs x : okset subs x -> In x (map s_task subs).
Proof. intros (s0 & Hin & E & _). rewrite <- E. apply in_map. exact Hin. Qed.

Definition conserved (subs : list sub) (places : list N) : Prop :=
  (forall x, (cnt x places <= 1)%nat) /\ (forall x, In x places <-> okset subs x).

Lemma conserved_same subs pl pl' : (forall y, cnt y pl' = cnt y pl) -> conserved subs pl -> conserved subs pl'.
Proof. intros E [H1 H2]. split; intro x; [rewrite E; apply H1|]. rewrite <- H2, !cnt_In, E. reflexivity. Qed.

Lemma conserved_fresh subs pl x : conserved subs pl -> ~ In x (map s_task subs) -> ~ In x pl.
Proof. intros [_ H] Hf Hin. apply Hf, okset_in, H, Hin. Qed.

Lemma conserved_rej sb subs pl : s_res sb <> ROk -> conserved subs pl -> conserved (sb :: subs) pl.
Proof. intros Hr [H1 H2]. split; [exact H1|]. intro x. rewrite H2. symmetry. apply okset_cons_notok. exact Hr. Qed.

Lemma conserved_ok x sh st e subs pl pl' : ~ In x (map s_task subs) ->
  (forall y, cnt y pl' = ((if N.eqb x y then 1 else 0) + cnt y pl)%nat) ->
  conserved subs pl -> conserved (Sub x sh st e ROk :: subs) pl'.
Proof.
  intros Hf E HC. pose proof (conserved_fresh _ _ _ HC Hf) as Hn. apply cnt_notIn in Hn.
  destruct HC as [H1 H2]. split; intro y.
  - rewrite E. destruct (N.eqb_spec x y) as [<-|_]; [rewrite Hn; lia|apply H1].
  - rewrite okset_cons_ok, <- H2, !cnt_In, E. destruct (N.eqb_spec x y) as [<-|Hne].
    + split; [auto|lia].
    + split; [intro; right; lia|intros [->|H]; [congruence|lia]].
Qed.

(* Task ids are call stamps: fresh against everything recorded so far, which [b] bounds;
   a step happens at a stamp above [b]. *)

Section Producers.
Context {pc : Type} (idle : pc) (task : pc -> option (N * N)) (shard_ok : N -> Prop).

Record producers (b : N) (subs : list sub) (pcs : list pc) : Prop := {
  p_subs : forall sb, In sb subs -> s_task sb <= b /\ s_b sb < s_e sb /\ s_e sb <= b /\ shard_ok (s_shard sb);
  p_nd : NoDup (map s_task subs);
  p_pcs : forall t x st, task (nth t pcs idle) = Some (x, st) -> x <= b /\ st <= b /\ ~ In x (map s_task subs);
  p_pcs_d : forall t t' x st x' st', t <> t' -> task (nth t pcs idle) = Some (x, st) ->
            task (nth t' pcs idle) = Some (x', st') -> x <> x' }.

Lemma producers_init : task idle = None -> producers 0 [] [].
Proof.
  intro Hi. assert (E : forall t, task (nth t [] idle) = None) by (intros [|t]; exact Hi).
  constructor; [intros sb []|constructor| |]; intros t; intros; rewrite E in *; discriminate.
Qed.

Lemma producers_mono b b' subs pcs : b <= b' -> producers b subs pcs -> producers b' subs pcs.
Proof.
  intros Hb [H1 H2 H3 H4]. constructor; auto.
  - intros sb Hsb. destruct (H1 sb Hsb) as (A & B & C & D). repeat split; auto; lia.
  - intros t x st E. destruct (H3 t x st E) as (A & B & C). repeat split; auto; lia.
Qed.

Lemma producers_call b now subs pcs t p : producers b subs pcs -> b < now -> task p = Some (now, now) ->
  producers now subs (set_nth t p idle pcs).
Proof.
  intros HP Hb Hp. pose proof (p_pcs _ _ _ HP) as Hold. pose proof (p_subs _ _ _ HP) as Hsubs.
  destruct (producers_mono b now subs pcs ltac:(lia) HP) as [H1 H2 H3 H4].
  assert (E : forall t0 x st, task (nth t0 (set_nth t p idle pcs) idle) = Some (x, st) ->
              (t0 = t /\ x = now /\ st = now) \/ (t0 <> t /\ x < now /\ task (nth t0 pcs idle) = Some (x, st))).
  { intros t0 x st. rewrite nth_set_nth. destruct (Nat.eqb_spec t t0) as [<-|Hne]; intro E.
    - left. rewrite Hp in E. inversion E. auto.
    - right. destruct (Hold _ _ _ E) as (A & _). repeat split; [congruence|lia|exact E]. }
  constructor; auto.
  - intros t0 x st E0. destruct (E _ _ _ E0) as [(_ & -> & ->)|(_ & _ & E1)]; [|apply (H3 _ _ _ E1)].
    repeat split; try lia. intro Hin. apply in_map_iff in Hin. destruct Hin as (sb & Es & Hin).
    destruct (Hsubs sb Hin) as (A & _). lia.
  - intros t0 t' x st x' st' Hne E0 E1.
    destruct (E _ _ _ E0) as [(-> & -> & _)|(N0 & L0 & F0)], (E _ _ _ E1) as [(-> & -> & _)|(N1 & L1 & F1)];
      try lia; try congruence.
    apply (H4 t0 t' x st x' st'); assumption.
Qed.

Lemma producers_move b subs pcs t p : producers b subs pcs -> task p = task (nth t pcs idle) ->
  producers b subs (set_nth t p idle pcs).
Proof.
  intros [H1 H2 H3 H4] Hp.
  assert (E : forall t0, task (nth t0 (set_nth t p idle pcs) idle) = task (nth t0 pcs idle)).
  { intro t0. rewrite nth_set_nth. destruct (Nat.eqb_spec t t0) as [<-|_]; [exact Hp|reflexivity]. }
  constructor; auto.
  - intros t0 x st. rewrite E. apply H3.
  - intros t0 t' x st x' st' Hne. rewrite !E. apply H4. exact Hne.
Qed.

Lemma producers_ret b now subs pcs t p x st sh r : producers b subs pcs -> b < now ->
  task (nth t pcs idle) = Some (x, st) -> task p = None -> shard_ok sh ->
  producers now (Sub x sh st now r :: subs) (set_nth t p idle pcs).
Proof.
  intros HP Hb Ht Hp Hsh. destruct (p_pcs _ _ _ HP _ _ _ Ht) as (Hx & Hst & Hfresh).
  pose proof (p_pcs_d _ _ _ HP) as Hd.
  destruct (producers_mono b now subs pcs ltac:(lia) HP) as [H1 H2 H3 H4].
  assert (E : forall t0 x0 st0, task (nth t0 (set_nth t p idle pcs) idle) = Some (x0, st0) ->
              t <> t0 /\ task (nth t0 pcs idle) = Some (x0, st0)).
  { intros t0 x0 st0. rewrite nth_set_nth. destruct (Nat.eqb_spec t t0) as [<-|Hne]; [rewrite Hp; discriminate|auto]. }
  constructor.
  - intros sb [<-|Hin]; [|apply H1; exact Hin]. cbn [s_task s_b s_e s_shard]. repeat split; try lia. exact Hsh.
  - cbn [map s_task]. constructor; [exact Hfresh|exact H2].
  - intros t0 x0 st0 E0. destruct (E _ _ _ E0) as (Hne & E1). destruct (H3 _ _ _ E1) as (A & B & C).
    repeat split; auto. cbn [map s_task]. intros [<-|Hin]; [|exact (C Hin)].
    exact (Hd t t0 x st x st0 Hne Ht E1 eq_refl).
  - intros t0 t' x0 st0 x' st' Hne E0 E1.
    apply (H4 t0 t' x0 st0 x' st' Hne); [apply (E _ _ _ E0)|apply (E _ _ _ E1)].
Qed.

Lemma producers_sub_unique b subs pcs sa sb : producers b subs pcs ->
  In sa subs -> In sb subs -> s_task sa = s_task sb -> sa = sb.
Proof. intros HP. apply NoDup_map_inj. exact (p_nd _ _ _ HP). Qed.

End Producers.

Definition allowed (k c : N) : Prop := c = 0 \/ c = k.

Lemma run_before_spec a b :
  run_before a b = true <-> r_b a < r_b b \/ (r_b a = r_b b /\ r_pos a < r_pos b).
Proof. unfold run_before. rewrite orb_true_iff, andb_true_iff, !N.ltb_lt, N.eqb_eq. reflexivity. Qed.

Lemma allowed_0 c : allowed 0 c -> c = 0.
Proof. intros [H|H]; exact H. Qed.

Lemma comb_allowed k a b : k <> 1 -> allowed k a -> allowed k b -> allowed k (comb a b).
Proof.
  intros Hk [-> | ->] [-> | ->]; unfold comb, allowed;
    change (0 =? 1) with false; change (0 =? 0) with true;
    try (destruct (N.eqb_spec k 1) as [E|_]; [contradiction|]); cbn [orb];
    try (destruct (N.eqb_spec k 0) as [E0|_]); auto.
Qed.

Lemma close_code_allowed h c k : k <> 1 ->
  (l_ok c = true -> forall s, In s (h_subs h) -> is_ok (s_res s) = true -> allowed k (task_code h c s)) ->
  allowed k (close_code h c).
Proof.
  intros Hk H. unfold close_code. destruct (l_ok c); [|left; reflexivity].
  specialize (H eq_refl). induction (h_subs h) as [|s r IH]; cbn [fold_right]; [left; reflexivity|].
  destruct (is_ok (s_res s)) eqn:E.
  - apply comb_allowed; [exact Hk|apply H; [left; reflexivity|exact E]|].
    apply IH. intros s' Hs'. apply H. right; exact Hs'.
  - apply IH. intros s' Hs'. apply H. right; exact Hs'.
Qed.

Lemma closes_code_allowed h k : k <> 1 ->
  (forall c, In c (h_clos h) -> l_ok c = true ->
     forall s, In s (h_subs h) -> is_ok (s_res s) = true -> allowed k (task_code h c s)) ->
  allowed k (closes_code h).
Proof.
  intros Hk H. unfold closes_code. induction (h_clos h) as [|c r IH]; cbn [fold_right]; [left; reflexivity|].
  apply comb_allowed; [exact Hk| |].
  - apply close_code_allowed; [exact Hk|]. intros Hok s Hs Es. apply (H c); auto. left; reflexivity.
  - apply IH. intros c' Hc'. apply H. right; exact Hc'.
Qed.

Lemma ok_once_intro h : NoDup (terminal_ids h) -> ok_once h = true.
Proof. intro H. unfold ok_once. apply nodupb_NoDup. exact H. Qed.

Lemma ok_rejected_intro h :
  (forall s, In s (h_subs h) -> is_ok (s_res s) = false -> ~ In (s_task s) (terminal_ids h)) ->
  ok_rejected h = true.
Proof.
  intro H. unfold ok_rejected. apply forallb_forall. intros s Hs.
  destruct (is_ok (s_res s)) eqn:E; [reflexivity|]. cbn [orb]. apply negb_true_iff.
  unfold has_terminal. apply existsb_eqb_notIn. apply H; assumption.
Qed.

Lemma monitor_allowed h k : k <> 1 ->
  ok_once h = true -> ok_rejected h = true -> ok_cancel_cfg h = true -> ok_mailbox h = true ->
  (forall c, In c (h_clos h) -> l_ok c = true ->
     forall s, In s (h_subs h) -> is_ok (s_res s) = true -> allowed k (task_code h c s)) ->
  allowed k (C37_monitor h).
Proof.
  intros Hk H1 H2 H3 H4 H5. unfold C37_monitor. rewrite H1, H2, H3, H4. cbn [andb].
  apply closes_code_allowed; assumption.
Qed.

Lemma terminal_before_run h x ce r :
  In r (h_runs h) -> r_task r = x -> r_e r < ce -> terminal_before h x ce = true.
Proof.
  intros Hin E Hlt. unfold terminal_before. apply orb_true_iff. left.
  apply existsb_exists. exists r. split; [exact Hin|].
  apply andb_true_iff. split; [apply N.eqb_eq; exact E|apply N.ltb_lt; exact Hlt].
Qed.

Lemma terminal_before_can h x ce r :
  In r (h_cans h) -> k_task r = x -> k_at r < ce -> terminal_before h x ce = true.
Proof.
  intros Hin E Hlt. unfold terminal_before. apply orb_true_iff. right.
  apply existsb_exists. exists r. split; [exact Hin|].
  apply andb_true_iff. split; [apply N.eqb_eq; exact E|apply N.ltb_lt; exact Hlt].
Qed.

Lemma task_code_zero h c s : terminal_before h (s_task s) (l_e c) = true -> task_code h c s = 0.
Proof. intro H. unfold task_code. rewrite H. reflexivity. Qed.

Lemma has_terminal_false h x : ~ In x (terminal_ids h) -> has_terminal h x = false.
Proof. intro H. unfold has_terminal. apply existsb_eqb_notIn. exact H. Qed.

Lemma terminal_before_false h x ce : ~ In x (terminal_ids h) -> terminal_before h x ce = false.
Proof.
  intro H. unfold terminal_before. apply orb_false_iff. split.
  - apply not_true_is_false. intro E. apply existsb_exists in E. destruct E as (r & Hr & E).
    apply andb_true_iff in E. destruct E as [E _]. apply N.eqb_eq in E. apply H.
    unfold terminal_ids. apply in_or_app. left. rewrite <- E. apply in_map. exact Hr.
  - apply not_true_is_false. intro E. apply existsb_exists in E. destruct E as (r & Hr & E).
    apply andb_true_iff in E. destruct E as [E _]. apply N.eqb_eq in E. apply H.
    unfold terminal_ids. apply in_or_app. right. rewrite <- E. apply in_map. exact Hr.
Qed.

Lemma accepts_intro h :
  NoDup (map s_task (h_subs h)) ->
  (forall sb, In sb (h_subs h) -> s_b sb < s_e sb /\ s_shard sb < N.max 1 (c_shards (h_cfg h))) ->
  (forall r, In r (h_runs h) -> r_b r < r_e r /\ r_pos r < N.max 1 (c_batch (h_cfg h))) ->
  (forall c, In c (h_clos h) -> l_b c < l_e c) ->
  (forall d, In d (h_drains h) -> d_b d < d_e d) ->
  C37_mismatch h = false.
Proof.
  intros Hnd Hs Hr Hc Hd. unfold C37_mismatch, stamps_ok, batch_size_ok, shards_ok. apply negb_false_iff.
  repeat (apply andb_true_iff; split); try (apply nodupb_NoDup; exact Hnd);
    apply forallb_forall; intros y Hy; apply N.ltb_lt.
  - apply (Hs y Hy).
  - apply (Hr y Hy).
  - apply (Hc y Hy).
  - apply (Hd y Hy).
  - apply (Hr y Hy).
  - apply (Hs y Hy).
Qed.
