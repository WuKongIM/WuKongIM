(* Proof/Permission_monitor.v — (1) the read-through permission cache is transparent over a
   fixed store, for every history of reads, resets and racing resets; (2) the case monitor
   C36_monitor accepts every trace the model produces outside C36-K1/K2/K3. *)
From WK Require Import Base.Base Base.Lists Model.ChannelId Model.Permission Proof.Permission Proof.Permission_batch.
From WK Require Import Gen.Consts_C36.
Open Scope N_scope.

Section CacheProof.
  Context {K V : Type}.
  Variable keqb : K -> K -> bool.
  Variable cacheable : V -> bool.
  Hypothesis keqb_eq : forall a b, keqb a b = true -> a = b.
  Variable store : K -> V.
  Variable ttl : N.

  Notation cstate := (@cstate K V).

  (* every cached value is the store's answer for its key *)
  Definition cache_inv (c : cstate) : Prop :=
    forall e, In e (cs_entries c) -> ce_value e = store (ce_key e).

  Lemma cache_inv_empty : cache_inv cache_empty.
  Proof. intros e H. destruct H. Qed.

  Lemma cache_inv_reset c : cache_inv (resetAfterRestore c).
  Proof. intros e H. destruct H. Qed.

  Lemma cache_inv_delete c k g : cache_inv c -> cache_inv (CState g (cache_delete keqb k (cs_entries c))).
  Proof. intros H e He. cbn in He. apply filter_In in He. apply H, He. Qed.

  Lemma get_hit c k now v c' : cache_inv c ->
    permissionCacheGet keqb c k now = (Some v, c') -> v = store k /\ c' = c.
  Proof.
    intros Hinv. unfold permissionCacheGet, cache_find.
    destruct (find (fun e => keqb (ce_key e) k) (cs_entries c)) as [e|] eqn:E; [|discriminate].
    apply find_some in E. destruct E as [Hin Hk]. apply keqb_eq in Hk.
    destruct (now <? ce_expires e); intro H; inversion H; subst.
    split; [apply Hinv; exact Hin|reflexivity].
  Qed.

  Lemma get_miss c k now c' : cache_inv c ->
    permissionCacheGet keqb c k now = (None, c') -> cache_inv c'.
  Proof.
    intros Hinv. unfold permissionCacheGet.
    destruct (cache_find keqb k (cs_entries c)) as [e|].
    - destruct (now <? ce_expires e); intro H; inversion H; subst. apply cache_inv_delete. exact Hinv.
    - intro H. inversion H. subst. exact Hinv.
  Qed.

  Lemma put_inv c k expires g : cache_inv c ->
    cache_inv (permissionCachePut keqb c k (store k) expires g).
  Proof.
    intros Hinv. unfold permissionCachePut. destruct (negb (cs_generation c =? g)); [exact Hinv|].
    intros e He. cbn in He. destruct He as [<-|He]; [reflexivity|].
    apply filter_In in He. destruct He as [He _].
    destruct (permissionCacheMaxEntries <=? N.of_nat (length (cs_entries c))); [destruct He|].
    apply Hinv, He.
  Qed.

  Lemma cache_read_transparent c k now v c' : cache_inv c ->
    cache_read keqb cacheable store ttl c k now = (v, c') -> v = store k /\ cache_inv c'.
  Proof.
    intros Hinv. unfold cache_read.
    destruct (permissionCacheGet keqb c k now) as [[hit|] c1] eqn:E.
    - destruct (get_hit _ _ _ _ _ Hinv E) as [-> ->]. intro H. inversion H. subst. split; [reflexivity|exact Hinv].
    - pose proof (get_miss _ _ _ _ Hinv E) as Hinv1.
      destruct (cacheable (store k)); intro H; inversion H; subst; split; try reflexivity.
      + apply put_inv. exact Hinv1.
      + exact Hinv1.
  Qed.

  Lemma cache_read_racing_transparent c k now v c' : cache_inv c ->
    cache_read_racing keqb cacheable store ttl c k now = (v, c') -> v = store k /\ cache_inv c'.
  Proof.
    intros Hinv. unfold cache_read_racing.
    destruct (permissionCacheGet keqb c k now) as [[hit|] c1] eqn:E.
    - destruct (get_hit _ _ _ _ _ Hinv E) as [-> ->]. intro H. inversion H. subst.
      split; [reflexivity|apply cache_inv_reset].
    - destruct (cacheable (store k)); intro H; inversion H; subst; split; try reflexivity.
      + apply put_inv. apply cache_inv_reset.
      + apply cache_inv_reset.
  Qed.

  (* the put of a racing read is dropped: the reset cache stays empty *)
  Lemma racing_put_dropped c k now v c' :
    cache_read_racing keqb cacheable store ttl c k now = (v, c') -> cs_entries c' = [].
  Proof.
    unfold cache_read_racing.
    destruct (permissionCacheGet keqb c k now) as [[hit|] c1] eqn:E.
    - intro H. inversion H. reflexivity.
    - destruct (cacheable (store k)); intro H; inversion H; subst; [|reflexivity].
      unfold permissionCachePut, resetAfterRestore. cbn [cs_generation cs_entries].
      replace (cs_generation c1 + 1 =? cs_generation c1) with false; [reflexivity|].
      symmetry. apply N.eqb_neq. lia.
  Qed.

  Fixpoint read_keys (ops : list (@cache_op K)) : list K :=
    match ops with
    | [] => []
    | CRead k _ :: rest => k :: read_keys rest
    | CReadRacing k _ :: rest => k :: read_keys rest
    | CReset :: rest => read_keys rest
    end.

  Lemma cache_run_transparent : forall ops c, cache_inv c ->
    cache_run keqb cacheable store ttl c ops = map store (read_keys ops).
  Proof.
    induction ops as [|op rest IH]; intros c Hinv; [reflexivity|].
    destruct op as [k now|k now|]; cbn [cache_run read_keys map].
    - destruct (cache_read keqb cacheable store ttl c k now) as [v c'] eqn:E.
      destruct (cache_read_transparent _ _ _ _ _ Hinv E) as [-> Hinv']. f_equal. apply IH. exact Hinv'.
    - destruct (cache_read_racing keqb cacheable store ttl c k now) as [v c'] eqn:E.
      destruct (cache_read_racing_transparent _ _ _ _ _ Hinv E) as [-> Hinv']. f_equal. apply IH. exact Hinv'.
    - apply IH. apply cache_inv_reset.
  Qed.
End CacheProof.

Lemma obs_eqb_refl o : obs_eqb o o = true.
Proof. unfold obs_eqb. rewrite !N.eqb_refl. apply option_eqb_refl, bytes_eqb_refl. Qed.

Lemma path_obs_tabulate cfg tbl items (g : N -> list obs) p : In p path_ids ->
  path_obs (C36Case cfg tbl items (map (fun p => (p, g p)) path_ids)) p = Some (g p).
Proof.
  unfold path_ids. cbn [In]. intro H.
  repeat (destruct H as [<-|H]; [reflexivity|]). destruct H.
Qed.

(* the case in which all eight paths report the same list [S] *)
Definition uniform_case (cfg : pcfg) (tbl : list (pread * rresult)) (items : list pcmd) (S : list obs) : c36_case :=
  C36Case cfg tbl items (map (fun p => (p, S)) path_ids).

Lemma path_obs_uniform cfg tbl items S p : In p path_ids ->
  path_obs (uniform_case cfg tbl items S) p = Some S.
Proof. exact (path_obs_tabulate cfg tbl items (fun _ => S) p). Qed.

Definition no_k1_k2_P (cfg : pcfg) (tbl : list (pread * rresult)) (items : list pcmd) : Prop :=
  forall c, In c items -> sig_k1 c = false /\ k2_cond (facts_single (table_reader tbl) cfg c) = false.

Definition no_k3_P (cfg : pcfg) (tbl : list (pread * rresult)) (items : list pcmd) : Prop :=
  forall c, In c items -> k3_cond (facts_single (table_reader tbl) cfg c) = false.

Lemma no_divergence_true_inv cfg tbl items : no_divergence cfg tbl items = true ->
  no_k1_k2_P cfg tbl items /\ no_k3_P cfg tbl items.
Proof.
  unfold no_divergence, no_k1_k2_P, no_k3_P. intros H. rewrite forallb_forall in H.
  split; intros c Hc; specialize (H c Hc); cbv zeta in H;
    apply andb_true_iff in H; destruct H as [H H3]; apply andb_true_iff in H; destruct H as [H1 H2];
    apply negb_true_iff in H1; apply negb_true_iff in H2; apply negb_true_iff in H3; [split|]; assumption.
Qed.

(* SendBatch on the items one by one reports what SendBatch on all of them reports *)
Lemma batch_each_is_all rd cfg items :
  flat_map (fun c => map obs_of (batch_outcomes rd cfg [c])) items = map obs_of (batch_outcomes rd cfg items).
Proof.
  rewrite batch_outcomes_itemwise. induction items as [|c rest IH]; [reflexivity|].
  cbn [flat_map map]. rewrite IH, batch_outcomes_itemwise. reflexivity.
Qed.

Lemma model_case_uniform cfg tbl items : no_k1_k2_P cfg tbl items ->
  model_case cfg tbl items = uniform_case cfg tbl items (single_obs cfg tbl items).
Proof.
  intro H. unfold model_case, uniform_case. f_equal.
  assert (Hall : model_batch_all (C36Case cfg tbl items []) = single_obs cfg tbl items).
  { unfold model_batch_all, single_obs. cbn [k_table k_cfg k_items]. apply batch_agrees_single. exact H. }
  assert (Heach : model_batch_each (C36Case cfg tbl items []) = single_obs cfg tbl items).
  { unfold model_batch_each, single_obs. cbn [k_table k_cfg k_items]. rewrite batch_each_is_all. apply batch_agrees_single. exact H. }
  unfold path_ids. cbn [map]. unfold model_path.
  change (4 =? 4) with true. change (5 =? 5) with true. cbv iota.
  rewrite Hall, Heach. reflexivity.
Qed.

Lemma spec_obs_is_single rd cfg cmd : spec_obs rd cfg cmd = obs_of (single_outcome rd cfg cmd).
Proof.
  unfold spec_obs, single_outcome. rewrite <- single_is_first_failing. reflexivity.
Qed.

Lemma item_code_uniform cfg tbl items pre cmd rest :
  items = pre ++ cmd :: rest ->
  k3_cond (facts_single (table_reader tbl) cfg cmd) = false ->
  item_code (uniform_case cfg tbl items (single_obs cfg tbl items)) (table_reader tbl) (length pre) cmd = 0.
Proof.
  intros Hitems Hk3. unfold item_code.
  rewrite !path_obs_uniform by (cbv; tauto).
  assert (Hn : nth_obs (single_obs cfg tbl items) (length pre)
               = Some (obs_of (single_outcome (table_reader tbl) cfg cmd))).
  { unfold nth_obs, single_obs. rewrite Hitems, map_app. rewrite nth_error_app2 by (rewrite map_length; lia).
    rewrite map_length, Nat.sub_diag. reflexivity. }
  rewrite Hn. cbn [forallb]. rewrite !path_obs_uniform by (cbv; tauto). rewrite Hn.
  rewrite obs_eqb_refl. cbn [andb negb].
  cbn [k_cfg uniform_case]. rewrite spec_obs_is_single, obs_eqb_refl. cbn [negb].
  change (0 =? 1) with false. cbn [orb]. change (0 <? N.max 0 0) with false. cbv iota.
  unfold single_outcome.
  cbn [obs_of o_reason o_err].
  unfold k3_cond, decide_single in Hk3. rewrite Hk3. reflexivity.
Qed.

Lemma item_codes_uniform cfg tbl items : no_k3_P cfg tbl items -> forall rest pre,
  items = pre ++ rest ->
  Forall (fun x => x = 0)
         (item_codes (uniform_case cfg tbl items (single_obs cfg tbl items)) (table_reader tbl) (length pre) rest).
Proof.
  intro Hk3. induction rest as [|cmd rest IH]; intros pre H; [constructor|].
  cbn [item_codes]. constructor.
  - apply (item_code_uniform cfg tbl items pre cmd rest H).
    apply Hk3. rewrite H. apply in_or_app. right. left. reflexivity.
  - specialize (IH (pre ++ [cmd])). rewrite app_length in IH. cbn [length] in IH.
    replace (length pre + 1)%nat with (S (length pre)) in IH by lia.
    apply IH. rewrite <- app_assoc. exact H.
Qed.

Lemma existsb_zeros v l : v <> 0 -> Forall (fun x => x = 0) l -> existsb (N.eqb v) l = false.
Proof.
  intros Hv H. induction H as [|x l Hx _ IH]; [reflexivity|]. cbn. subst x.
  rewrite IH, orb_false_r. apply N.eqb_neq. exact Hv.
Qed.

Lemma monitor_uniform cfg tbl items : no_k3_P cfg tbl items ->
  C36_monitor (uniform_case cfg tbl items (single_obs cfg tbl items)) = 0.
Proof.
  intro Hk3. unfold C36_monitor.
  assert (Hl : lengths_ok (uniform_case cfg tbl items (single_obs cfg tbl items)) = true).
  { unfold lengths_ok. apply forallb_forall. intros p Hp. rewrite path_obs_uniform by exact Hp.
    cbn [k_items uniform_case]. unfold single_obs. rewrite map_length. apply Nat.eqb_refl. }
  rewrite Hl. cbn [negb].
  cbn [k_table k_items uniform_case].
  pose proof (item_codes_uniform cfg tbl items Hk3 items [] eq_refl) as Hz. cbn [length] in Hz.
  rewrite (existsb_zeros 1 _ ltac:(discriminate) Hz), (existsb_zeros 2 _ ltac:(discriminate) Hz),
    (existsb_zeros 3 _ ltac:(discriminate) Hz), (existsb_zeros 4 _ ltac:(discriminate) Hz). reflexivity.
Qed.

Lemma model_case_no_mismatch cfg tbl items : C36_mismatch (model_case cfg tbl items) = false.
Proof.
  unfold C36_mismatch. apply negb_false_iff. apply forallb_forall. intros p Hp. unfold model_case at 1.
  rewrite (path_obs_tabulate _ _ _ (model_path (C36Case cfg tbl items [])) p Hp).
  apply list_eqb_refl, obs_eqb_refl.
Qed.

Lemma model_satisfies_monitor cfg tbl items : no_divergence cfg tbl items = true ->
  C36_monitor (model_case cfg tbl items) = 0 /\ C36_mismatch (model_case cfg tbl items) = false.
Proof.
  intro H. apply no_divergence_true_inv in H. destruct H as [H Hk3]. split.
  - rewrite (model_case_uniform cfg tbl items H). apply monitor_uniform. exact Hk3.
  - apply model_case_no_mismatch.
Qed.

(* the monitor flags C36-K1 with its own code, on the model's trace *)
Lemma monitor_k1_example :
  C36_monitor (model_case k1_cfg [(containsRead 1 channelTypePerson (hs "b") channelTypePerson (hs "a"),
                                   RR false false false false false true false);
                                  (containsRead 1 channelTypePerson (hs "b____cmd") channelTypePerson (hs "a"), zero_result);
                                  (chanRead (hs "a") channelTypePerson, zero_result);
                                  (chanRead (hs "a@b") channelTypePerson, zero_result);
                                  (chanRead (hs "a@b____cmd") channelTypePerson, zero_result)]
                         [k1_cmd]) = 2.
Proof. vm_compute. reflexivity. Qed.
