(* Proof/MsgStore_mut.v — the relation [Rkv] is preserved by the staged writes of
   the mutations: framing, appending one row, deleting a set of rows. *)
From WK Require Import Base.Base Base.Lists Model.KV Gen.Consts_C07 Model.MsgStore Model.MsgStore_C07
     Proof.KV Proof.MsgStore_base Proof.MsgStore_rel Proof.MsgStore_reads Proof.MsgStore_frame.
From Coq Require Import Sorting.Permutation Sorting.Sorted.

(* the keys of channel [c] the relation reads: all of them, the index part, ... *)
Definition key_of_chan (k : key) (c : N) : bool :=
  match k with
  | KyRow c' _ | KyCidx c' _ _ | KyIdem c' _ _ | KySseq c' _ _ | KyCkpt c' | KyRet c' | KyHist c' _ _ => c' =? c
  | _ => false
  end.

Definition idx_key (k : key) (c : N) : bool :=
  match k with
  | KyRow c' _ | KyCidx c' _ _ | KyIdem c' _ _ | KySseq c' _ _ | KyRet c' => c' =? c
  | _ => false
  end.

(* ... the keys only the checkpoint and history clauses read (or none), and the keys no clause reads *)
Definition sys_key (k : key) : bool :=
  match k with KyCkpt _ | KyHist _ _ _ | KyCat _ | KyIdent _ _ => true | _ => false end.
Definition irrelevant (k : key) : bool := match k with KyCat _ | KyIdent _ _ => true | _ => false end.

Lemma loadRet_ext (kv kv' : kvs) c : kget (KyRet c) kv' = kget (KyRet c) kv ->
  loadRetentionState kv' c = loadRetentionState kv c.
Proof. intro H. unfold loadRetentionState. rewrite H. reflexivity. Qed.

Lemma loadCk_ext (kv kv' : kvs) c : kget (KyCkpt c) kv' = kget (KyCkpt c) kv ->
  loadCheckpoint kv' c = loadCheckpoint kv c.
Proof. intro H. unfold loadCheckpoint. rewrite H. reflexivity. Qed.

(* One channel keeps its rows when its index keys keep their bindings and the plain
   log keeps rows, log end and taints; checkpoint and history may change together. *)
Lemma Rchan_frame_gen kv kv' s s' c rows :
  swf kv -> swf kv' ->
  (forall k, idx_key k c = true -> kget k kv' = kget k kv) ->
  al_rows (as_log s' c) = al_rows (as_log s c) ->
  al_leo (as_log s' c) = al_leo (as_log s c) ->
  al_tpairs (as_log s' c) = al_tpairs (as_log s c) ->
  loadCheckpoint kv' c = al_ck (as_log s' c) ->
  loadHistory kv' c = al_hist (as_log s' c) ->
  Rchan kv s c rows -> Rchan kv' s' c rows.
Proof.
  intros W W' Hk Hr Hl Ht Hck Hh Rc.
  assert (Hrow : forall q, kget (KyRow c q) kv' = kget (KyRow c q) kv) by (intro; apply Hk; cbn; apply N.eqb_refl).
  assert (Hret : loadRetentionState kv' c = loadRetentionState kv c) by (apply loadRet_ext; apply Hk; cbn; apply N.eqb_refl).
  assert (Hget : forall q r, kget (KyRow c q) kv' = Some (VRow r) <-> In r rows /\ r_seq r = q)
    by (intros; rewrite Hrow; apply Rc).
  constructor; rewrite ?Hr, ?Hl.
  - apply Rc.
  - apply Rc.
  - exact Hget.
  - apply Rc.
  - rewrite (recoverLEO_char _ _ _ W' Hget), Hret, <- (recoverLEO_char _ _ _ W (rc_get _ _ _ _ Rc)). apply Rc.
  - apply Rc.
  - rewrite Hret. apply Rc.
  - unfold local_of. rewrite Hret. apply Rc.
  - intros n q. unfold has. rewrite Hk by (cbn; apply N.eqb_refl). apply Rc.
  - intros u q. unfold has. rewrite Hk by (cbn; apply N.eqb_refl). apply Rc.
  - intros n u q i h. rewrite Hk by (cbn; apply N.eqb_refl). apply Rc.
  - intros r Hin Hu Hn Htt. rewrite Hk by (cbn; apply N.eqb_refl). apply Rc; try assumption.
    unfold pair_tainted in *. rewrite <- Ht. exact Htt.
  - exact Hck.
  - exact Hh.
Qed.

Lemma Rchan_frame kv kv' s s' c rows :
  swf kv -> swf kv' ->
  (forall k, key_of_chan k c = true -> kget k kv' = kget k kv) ->
  as_log s' c = as_log s c ->
  Rchan kv s c rows -> Rchan kv' s' c rows.
Proof.
  intros W W' Hk Hl Rc. apply (Rchan_frame_gen kv kv' s s'); try assumption; rewrite ?Hl; try reflexivity.
  - intros k H. apply Hk. destruct k; try discriminate H; exact H.
  - rewrite (loadCk_ext kv kv') by (apply Hk; cbn; apply N.eqb_refl). apply Rc.
  - rewrite (loadHistory_ext kv kv' c W W') by (intros; apply Hk; cbn; apply N.eqb_refl). apply Rc.
Qed.

(* The whole relation: outside the system keys nothing changes, no taint is forgotten,
   every plain log keeps rows, log end and taints and shows the new checkpoint / history. *)
Lemma Rkv_transfer kv kv' s s' :
  Rkv kv s -> swf kv' ->
  (forall k, sys_key k = false -> kget k kv' = kget k kv) ->
  (forall i, In i (as_tids s) -> In i (as_tids s')) ->
  (forall c, al_rows (as_log s' c) = al_rows (as_log s c) /\ al_leo (as_log s' c) = al_leo (as_log s c)
             /\ al_tpairs (as_log s' c) = al_tpairs (as_log s c)
             /\ loadCheckpoint kv' c = al_ck (as_log s' c) /\ loadHistory kv' c = al_hist (as_log s' c)) ->
  Rkv kv' s'.
Proof.
  intros R W' Hk Ht Hc. constructor.
  - exact W'.
  - intro c. destruct (rk_chan _ _ R c) as [rows Rc]. exists rows. destruct (Hc c) as (H1 & H2 & H3 & H4 & H5).
    apply (Rchan_frame_gen kv kv' s s' c rows (rk_wf _ _ R) W'); try assumption.
    intros k Hi. apply Hk. destruct k; try discriminate Hi; reflexivity.
  - intros i c q G. rewrite Hk in G by reflexivity. destruct (rk_gs _ _ R _ _ _ G) as [r [Gr Hi]].
    exists r. split; [rewrite Hk by reflexivity; exact Gr|exact Hi].
  - intros c q r G Hn. rewrite Hk in G by reflexivity. rewrite Hk by reflexivity.
    apply (rk_gc _ _ R _ _ _ G). intro Hin. apply Hn, Ht, Hin.
  - intros c q v G. rewrite Hk in G by reflexivity. eapply (rk_co _ _ R), G.
Qed.

(* the same store and logs; the id taints of [s'] include those of [s] (more taints only weaken [gid_complete]) *)
Lemma Rkv_same_logs kv s s' :
  (forall c, as_log s' c = as_log s c) -> (forall i, In i (as_tids s) -> In i (as_tids s')) -> Rkv kv s -> Rkv kv s'.
Proof.
  intros Hl Ht R. apply (Rkv_transfer kv kv s s' R (rk_wf _ _ R)); [reflexivity|exact Ht|].
  intro c. rewrite Hl. destruct (rk_chan _ _ R c) as [rows Rc]. repeat split; apply Rc.
Qed.

Definition untouched (p : key -> bool) (b : kbatch) : Prop :=
  forall k, p k = false -> forallb (fun o => negb (op_touches key_eqb k o)) b = true.

Lemma keff_untouched p k b cur : untouched p b -> p k = false -> keff k b cur = cur.
Proof. intros Hb Hk. apply batch_effect_untouched. apply Hb. exact Hk. Qed.

Definition irrelevant_batch := untouched irrelevant.
Definition sys_batch := untouched sys_key.

Lemma irrelevant_catalog c : irrelevant_batch (stageCatalog c).
Proof. intros k Hk. destruct k; cbn in Hk |- *; try reflexivity; discriminate. Qed.

Lemma irrelevant_catalog_for_append c b : irrelevant_batch (stageCatalogForAppend c b).
Proof. unfold stageCatalogForAppend. destruct (1 <? b); [intros k _; reflexivity|apply irrelevant_catalog]. Qed.

Lemma irrelevant_proposals c t : irrelevant_batch (stageTruncateDurableProposals c t).
Proof. intros k Hk. destruct k; cbn in Hk |- *; try reflexivity; discriminate. Qed.

Lemma Rkv_sys kv s s' b :
  sys_batch b -> Rkv kv s ->
  as_tids s' = as_tids s ->
  (forall c, al_rows (as_log s' c) = al_rows (as_log s c) /\ al_leo (as_log s' c) = al_leo (as_log s c)
             /\ al_tpairs (as_log s' c) = al_tpairs (as_log s c)
             /\ loadCheckpoint (kapply kv b) c = al_ck (as_log s' c)
             /\ loadHistory (kapply kv b) c = al_hist (as_log s' c)) ->
  Rkv (kapply kv b) s'.
Proof.
  intros Hb R Ht Hc. apply (Rkv_transfer kv _ s s' R (swf_apply b kv (rk_wf _ _ R))); [|rewrite Ht; auto|exact Hc].
  intros k Hk. rewrite kget_apply. apply (keff_untouched sys_key); assumption.
Qed.

Lemma Rkv_irrelevant kv s b : irrelevant_batch b -> Rkv kv s -> Rkv (kapply kv b) s.
Proof.
  intros Hb R. assert (W' := swf_apply b kv (rk_wf _ _ R)).
  assert (G : forall k, irrelevant k = false -> kget k (kapply kv b) = kget k kv)
    by (intros k Hk; rewrite kget_apply; apply (keff_untouched irrelevant); assumption).
  apply (Rkv_transfer kv _ s s R W'); [intros k Hk; apply G; destruct k; try reflexivity; discriminate Hk|auto|].
  intro c. destruct (rk_chan _ _ R c) as [rows Rc]. repeat split.
  - rewrite (loadCk_ext kv) by (apply G; reflexivity). apply Rc.
  - rewrite (loadHistory_ext kv _ c (rk_wf _ _ R) W') by (intros; apply G; reflexivity). apply Rc.
Qed.

Lemma spec_append_one s c a :
  spec_append s c [a] =
  AS (fun c' => if c' =? c
                then AL (al_rows (as_log s c) ++ [a]) (m_seq (a_msg a)) (al_ck (as_log s c)) (al_hist (as_log s c))
                        (if both_nonempty (m_uid (a_msg a)) (m_cno (a_msg a))
                            && pair_stored (as_log s c) (m_uid (a_msg a)) (m_cno (a_msg a))
                         then (m_uid (a_msg a), m_cno (a_msg a)) :: al_tpairs (as_log s c) else al_tpairs (as_log s c))
                else as_log s c')
     (if id_stored s (m_id (a_msg a)) then m_id (a_msg a) :: as_tids s else as_tids s).
Proof. reflexivity. Qed.

Lemma spec_append_cons s c a rest :
  spec_append s c (a :: rest) = spec_append (spec_append s c [a]) c rest.
Proof. reflexivity. Qed.

Lemma id_stored_one s c a i : In c all_chans ->
  id_stored (spec_append s c [a]) i = id_stored s i || (m_id (a_msg a) =? i).
Proof.
  intro Hc. rewrite spec_append_one. unfold id_stored. cbn [as_log].
  unfold all_chans in *. cbn [existsb In] in *.
  destruct Hc as [<-|[<-|[<-|[]]]]; cbn [N.eqb Pos.eqb existsb al_rows]; rewrite ?existsb_app; cbn [existsb];
    rewrite ?orb_false_r; destruct (existsb _ (al_rows (as_log s 0))), (existsb _ (al_rows (as_log s 1))), (existsb _ (al_rows (as_log s 2))),
      (m_id (a_msg a) =? i); reflexivity.
Qed.

Lemma id_stored_row kv s c q r :
  Rkv kv s -> kget (KyRow c q) kv = Some (VRow r) -> id_stored s (r_id r) = true.
Proof.
  intros R G. unfold id_stored. apply existsb_exists. exists c. split; [eapply (rk_co _ _ R); exact G|].
  destruct (rk_chan _ _ R c) as [rows Rc]. apply Rc in G. destruct G as [Hin _].
  apply existsb_exists. exists (arow_of r). split; [rewrite (rc_rows _ _ _ _ Rc); apply in_map; exact Hin|].
  cbn. apply N.eqb_refl.
Qed.

Lemma pair_stored_row kv s c rows r :
  Rchan kv s c rows -> In r rows -> pair_stored (as_log s c) (r_uid r) (r_cno r) = true.
Proof.
  intros Rc Hin. unfold pair_stored. apply existsb_exists. exists (arow_of r).
  split; [rewrite (rc_rows _ _ _ _ Rc); apply in_map; exact Hin|]. cbn. rewrite !bytes_eqb_refl. reflexivity.
Qed.

Lemma pair_tainted_mono l (x : bytes * bytes) u n :
  pair_tainted (AL (al_rows l) (al_leo l) (al_ck l) (al_hist l) (x :: al_tpairs l)) u n = false ->
  pair_tainted l u n = false.
Proof.
  unfold pair_tainted. cbn [al_tpairs existsb]. intro H. apply orb_false_iff in H. apply H.
Qed.

(* the effect of the staged writes of [r] on the channel it is appended to ... *)
Lemma add_row_Rchan kv s c rows r :
  Rkv kv s -> Rchan kv s c rows -> row_ok c r -> r_seq r = al_leo (as_log s c) + 1 ->
  Rchan (kapply kv (stageMessageRow c r)) (spec_append s c [arow_of r]) c (rows ++ [r]).
Proof.
  intros R Rc Hok Hseq.
  set (kv' := kapply kv (stageMessageRow c r)).
  assert (W' : swf kv') by (apply swf_apply; apply R).
  assert (G : forall k, kget k kv' = keff k (stageMessageRow c r) (kget k kv)) by (intro; apply kget_apply).
  assert (Hlt : Forall (fun r0 => r_seq r0 < r_seq r) rows).
  { eapply Forall_impl; [|apply (rc_le_leo _ _ _ _ Rc)]. cbn. intros; lia. }
  assert (Hnew : forall q r0, kget (KyRow c q) kv' = Some (VRow r0) <-> In r0 (rows ++ [r]) /\ r_seq r0 = q).
  { intros q r0. rewrite G, keff_stage_row, N.eqb_refl. cbn [andb]. rewrite in_app_iff. cbn [In].
    destruct (q =? r_seq r) eqn:Eq.
    - apply N.eqb_eq in Eq. subst q. split.
      + intro H. injection H as <-. split; [right; left; reflexivity|reflexivity].
      + intros [[Hin|[<-|[]]] Hs]; [|reflexivity].
        eapply Forall_forall in Hlt; [|exact Hin]. lia.
    - apply N.eqb_neq in Eq. rewrite (rc_get _ _ _ _ Rc). split.
      + intros [H1 H2]. split; [left; exact H1|exact H2].
      + intros [[Hin|[<-|[]]] Hs]; [split; assumption|congruence]. }
  rewrite spec_append_one. cbn [arow_of a_msg m_seq m_uid m_cno m_id messageFromRow].
  set (tp' := if both_nonempty (r_uid r) (r_cno r) && pair_stored (as_log s c) (r_uid r) (r_cno r)
              then (r_uid r, r_cno r) :: al_tpairs (as_log s c) else al_tpairs (as_log s c)).
  assert (Hret : loadRetentionState kv' c = loadRetentionState kv c).
  { apply loadRet_ext. rewrite G, keff_stage_row. reflexivity. }
  constructor; cbn [as_log al_rows al_leo al_ck al_hist al_tpairs]; rewrite ?N.eqb_refl;
    cbn [al_rows al_leo al_ck al_hist al_tpairs].
  * rewrite map_app, (rc_rows _ _ _ _ Rc). reflexivity.
  * (* rc_sorted: [r] lies above every row *)
    apply (sorted_snoc (fun a b => r_seq a < r_seq b)); [apply Rc|apply Forall_forall, Hlt].
  * exact Hnew.
  * apply Forall_app. split; [apply Rc|constructor; [exact Hok|constructor]].
  * rewrite (recoverLEO_char _ _ _ W' Hnew), Hret, max_seq_app.
    assert (Hm : max_seq rows <= al_leo (as_log s c)) by (apply max_seq_le; apply Rc).
    assert (Hr : max_seq [r] = r_seq r) by (cbn; lia). rewrite Hr.
    pose proof (rc_ret _ _ _ _ Rc) as Hrt.
    destruct (loadRetentionState kv c) as [[[l p] rm]|].
    -- destruct Hrt as [_ [_ [Hrm _]]].
       destruct (N.max (max_seq rows) (r_seq r) <? rm) eqn:E; [apply N.ltb_lt in E; lia|lia].
    -- lia.
  * apply Forall_app. split; [|constructor; [lia|constructor]].
    eapply Forall_impl; [|apply (rc_le_leo _ _ _ _ Rc)]. cbn. intros; lia.
  * rewrite Hret. pose proof (rc_ret _ _ _ _ Rc) as Hrt.
    destruct (loadRetentionState kv c) as [[[l p] rm]|]; [|exact I].
    destruct Hrt as [H1 [H2 [H3 [H4 H5]]]]. repeat split; try assumption; try lia.
    apply Forall_app. split; [exact H5|constructor; [lia|constructor]].
  * unfold local_of. rewrite Hret. intros q Hq.
    destruct (N.eq_dec q (r_seq r)) as [->|Hne].
    -- exists r. split; [apply in_or_app; right; left; reflexivity|reflexivity].
    -- destruct (rc_contig _ _ _ _ Rc q) as [r0 [Hin Hs]]; [unfold local_of; lia|].
       exists r0. split; [apply in_or_app; left; exact Hin|exact Hs].
  * (* rc_cidx: the old entries and, if [cidx_cond r], the entry of [r] *)
    intros n q. unfold has. rewrite G, keff_stage_row, N.eqb_refl. cbn [andb].
    destruct (cidx_cond r && (bytes_eqb n (r_cno r) && (q =? r_seq r))) eqn:E.
    -- apply andb_true_iff in E. destruct E as [E1 E2]. beq. subst n q.
       unfold cidx_cond in E1. apply andb_true_iff in E1. destruct E1 as [E1 E3].
       apply negb_true_iff, is_nil_false in E1. apply is_nil_true in E3.
       split; [intros _|discriminate].
       exists r. split; [apply in_or_app; right; left; reflexivity|]. repeat split; assumption.
    -- change (kget (KyCidx c n q) kv <> None) with (has kv (KyCidx c n q)). rewrite (rc_cidx _ _ _ _ Rc). split.
       ++ intros [r0 [Hin H]]. exists r0. split; [apply in_or_app; left; exact Hin|exact H].
       ++ intros [r0 [Hin [Hs [Hn [Hne Hu]]]]]. apply in_app_or in Hin. destruct Hin as [Hin|[<-|[]]].
          ** exists r0. repeat split; assumption.
          ** exfalso. subst n q. unfold cidx_cond in E.
             rewrite bytes_eqb_refl, N.eqb_refl, Hu in E. cbn [is_nil andb] in E.
             apply is_nil_false in Hne. rewrite Hne in E. discriminate.
  * (* rc_sseq: the old entries and, if [sseq_cond r], the entry of [r] *)
    intros u q. unfold has. rewrite G, keff_stage_row, N.eqb_refl. cbn [andb].
    destruct (sseq_cond r && (bytes_eqb u (r_uid r) && (q =? r_seq r))) eqn:E.
    -- apply andb_true_iff in E. destruct E as [E1 E2]. beq. subst u q.
       unfold sseq_cond in E1. apply andb_true_iff in E1. destruct E1 as [E1 E3].
       apply negb_true_iff, is_nil_false in E1. apply N.eqb_eq in E3.
       split; [intros _|discriminate].
       exists r. split; [apply in_or_app; right; left; reflexivity|]. repeat split; assumption.
    -- change (kget (KySseq c u q) kv <> None) with (has kv (KySseq c u q)). rewrite (rc_sseq _ _ _ _ Rc). split.
       ++ intros [r0 [Hin H]]. exists r0. split; [apply in_or_app; left; exact Hin|exact H].
       ++ intros [r0 [Hin [Hs [Hu [Hne Hf]]]]]. apply in_app_or in Hin. destruct Hin as [Hin|[<-|[]]].
          ** exists r0. repeat split; assumption.
          ** exfalso. subst u q. unfold sseq_cond in E.
             rewrite bytes_eqb_refl, N.eqb_refl, Hf in E. cbn [andb] in E.
             apply is_nil_false in Hne. rewrite Hne in E. discriminate.
  * (* rc_idem_sound: an entry is an old one or the entry of [r] *)
    intros n u q i h. rewrite G, keff_stage_row, N.eqb_refl. cbn [andb].
    destruct (idem_cond r && (bytes_eqb n (r_cno r) && bytes_eqb u (r_uid r))) eqn:E.
    -- intro H. injection H as <- <- <-. apply andb_true_iff in E. destruct E as [E1 E2]. beq. subst n u.
       unfold idem_cond in E1. apply andb_true_iff in E1. destruct E1 as [E1 E3].
       apply negb_true_iff, is_nil_false in E1, E3.
       exists r. split; [apply in_or_app; right; left; reflexivity|]. repeat split; assumption.
    -- intro H. destruct (rc_idem_sound _ _ _ _ Rc _ _ _ _ _ H) as [r0 [Hin H0]].
       exists r0. split; [apply in_or_app; left; exact Hin|exact H0].
  * (* rc_idem_complete: an old row whose pair [r] repeats is tainted now *)
    intros r0 Hin Hu Hn Ht. rewrite G, keff_stage_row, N.eqb_refl. cbn [andb].
    apply in_app_or in Hin. destruct Hin as [Hin|[<-|[]]].
    -- destruct (idem_cond r && (bytes_eqb (r_cno r0) (r_cno r) && bytes_eqb (r_uid r0) (r_uid r))) eqn:E.
       ++ exfalso. apply andb_true_iff in E. destruct E as [E1 E2]. beq.
          unfold tp' in Ht. unfold both_nonempty in Ht.
          unfold idem_cond in E1. rewrite E1 in Ht. cbn [andb] in Ht.
          rewrite <- H, <- H0, (pair_stored_row _ _ _ _ _ Rc Hin) in Ht.
          unfold pair_tainted in Ht. cbn [al_tpairs existsb fst snd] in Ht.
          rewrite !bytes_eqb_refl in Ht. discriminate.
       ++ apply (rc_idem_complete _ _ _ _ Rc r0 Hin Hu Hn).
          unfold tp' in Ht. destruct (_ && _) in Ht; [|exact Ht].
          unfold pair_tainted in Ht |- *. cbn [al_tpairs existsb] in Ht. apply orb_false_iff in Ht. apply Ht.
    -- unfold idem_cond. apply is_nil_false in Hu, Hn. rewrite Hu, Hn, !bytes_eqb_refl. reflexivity.
  * rewrite (loadCk_ext kv kv') by (rewrite G, keff_stage_row; reflexivity). apply Rc.
  * rewrite (loadHistory_ext kv kv' c (rk_wf _ _ R) W') by (intros; rewrite G, keff_stage_row; reflexivity). apply Rc.
Qed.

(* ... and on the whole relation: the other channels are framed, the global id index
   gains the entry of [r] *)
Lemma add_row_Rkv kv s c r :
  Rkv kv s -> In c all_chans -> row_ok c r -> r_seq r = al_leo (as_log s c) + 1 ->
  Rkv (kapply kv (stageMessageRow c r)) (spec_append s c [arow_of r]).
Proof.
  intros R Hc Hok Hseq.
  destruct (rk_chan _ _ R c) as [rows Rc].
  pose proof (add_row_Rchan kv s c rows r R Rc Hok Hseq) as Rc'.
  set (kv' := kapply kv (stageMessageRow c r)) in *.
  rewrite spec_append_one in Rc' |- *. cbn [arow_of a_msg m_seq m_uid m_cno m_id messageFromRow] in Rc' |- *.
  set (tids' := if id_stored s (r_id r) then r_id r :: as_tids s else as_tids s) in *.
  assert (W' : swf kv') by (apply swf_apply; apply R).
  assert (G : forall k, kget k kv' = keff k (stageMessageRow c r) (kget k kv)) by (intro; apply kget_apply).
  assert (Hlt : Forall (fun r0 => r_seq r0 < r_seq r) rows).
  { eapply Forall_impl; [|apply (rc_le_leo _ _ _ _ Rc)]. cbn. intros; lia. }
  constructor.
  - exact W'.
  - intro c0. destruct (N.eq_dec c0 c) as [->|Ec]; [exists (rows ++ [r]); exact Rc'|].
    destruct (rk_chan _ _ R c0) as [rows0 Rc0]. exists rows0.
    apply (Rchan_frame kv kv' s _ c0 rows0 (rk_wf _ _ R) W'); [| |exact Rc0].
    + intros k Hk. rewrite G, keff_stage_row.
      destruct k; cbn [key_of_chan] in Hk; try discriminate; apply N.eqb_eq in Hk; subst;
        try reflexivity;
        (assert (Ef : (c0 =? c) = false) by (apply N.eqb_neq; exact Ec)); rewrite Ef; cbn [andb];
        rewrite ?andb_false_r; reflexivity.
    + cbn [as_log]. apply N.eqb_neq in Ec. rewrite Ec. reflexivity.
  - (* rk_gs: the entry of [r] points at [r]; no old entry points at the key of [r] *)
    intros i c0 q0. rewrite G, keff_stage_row. destruct (i =? r_id r) eqn:Ei.
    + intro H. injection H as <- <-. apply N.eqb_eq in Ei. exists r. split; [|symmetry; exact Ei].
      apply (rc_get _ _ _ _ Rc'). split; [apply in_or_app; right; left; reflexivity|reflexivity].
    + intro H. destruct (rk_gs _ _ R _ _ _ H) as [r0 [Gr Hi]]. exists r0. split; [|exact Hi].
      rewrite G, keff_stage_row.
      destruct ((c0 =? c) && (q0 =? r_seq r)) eqn:E; [|exact Gr].
      exfalso. beq. subst. apply Rc in Gr. destruct Gr as [Hin Hs].
      eapply Forall_forall in Hlt; [|exact Hin]. lia.
  - (* rk_gc: an old row with the id of [r] is tainted now *)
    intros c0 q0 r0. cbn [as_tids]. rewrite G, keff_stage_row. intros Hrow Ht.
    rewrite G, keff_stage_row.
    destruct ((c0 =? c) && (q0 =? r_seq r)) eqn:E.
    + injection Hrow as <-. beq. subst. rewrite N.eqb_refl. reflexivity.
    + destruct (r_id r0 =? r_id r) eqn:Ei.
      * exfalso. apply N.eqb_eq in Ei. apply Ht. unfold tids'.
        rewrite <- Ei, (id_stored_row _ _ _ _ _ R Hrow). left. reflexivity.
      * apply (rk_gc _ _ R); [exact Hrow|]. intro Hin. apply Ht. unfold tids'.
        destruct (id_stored s (r_id r)); [right; exact Hin|exact Hin].
  - intros c0 q0 v. rewrite G, keff_stage_row.
    destruct ((c0 =? c) && (q0 =? r_seq r)) eqn:E.
    + intros _. beq. subst. exact Hc.
    + intro H. eapply (rk_co _ _ R). exact H.
Qed.

(* the rows carry the sequences start, start + 1, ... *)
Fixpoint consec (start : N) (rows : list row) : Prop :=
  match rows with
  | [] => True
  | r :: rest => r_seq r = start /\ consec (start + 1) rest
  end.

Lemma spec_append_other s c l c' : c' <> c -> as_log (spec_append s c l) c' = as_log s c'.
Proof.
  revert s. induction l as [|a l IH]; intros s Hne; [reflexivity|].
  rewrite spec_append_cons, IH by exact Hne. rewrite spec_append_one. cbn [as_log].
  apply N.eqb_neq in Hne. rewrite Hne. reflexivity.
Qed.

Lemma spec_append_leo s c rows : rows <> [] ->
  al_leo (as_log (spec_append s c (map arow_of rows)) c) = last_seq rows.
Proof.
  revert s. induction rows as [|r rows IH]; intros s Hne; [contradiction|].
  cbn [map]. rewrite spec_append_cons. destruct rows as [|r2 rows].
  - cbn [map]. change (spec_append (spec_append s c [arow_of r]) c []) with (spec_append s c [arow_of r]).
    rewrite spec_append_one. cbn [as_log]. rewrite N.eqb_refl. reflexivity.
  - rewrite IH by discriminate. unfold last_seq. cbn [rev]. 
    destruct (rev rows ++ [r2]) eqn:E; [destruct (rev rows); discriminate|].
    cbn [app]. reflexivity.
Qed.

Lemma kapply_app (kv : kvs) b1 b2 : kapply kv (b1 ++ b2) = kapply (kapply kv b1) b2.
Proof. unfold kapply. apply apply_batch_app. Qed.

Lemma add_rows_Rkv c rows : forall kv s,
  Rkv kv s -> In c all_chans -> Forall (row_ok c) rows -> consec (al_leo (as_log s c) + 1) rows ->
  Rkv (kapply kv (stageMessageRows c rows)) (spec_append s c (map arow_of rows)).
Proof.
  induction rows as [|r rows IH]; intros kv s R Hc Hok Hcs.
  - exact R.
  - unfold stageMessageRows. cbn [flat_map map]. fold (stageMessageRows c rows).
    rewrite kapply_app, spec_append_cons.
    inversion Hok as [|? ? Hr Hrest]; subst. destruct Hcs as [Hs Hcs].
    apply IH; [apply add_row_Rkv; assumption|exact Hc|exact Hrest|].
    rewrite spec_append_one. cbn [as_log]. rewrite N.eqb_refl. cbn [al_leo arow_of a_msg m_seq messageFromRow].
    rewrite Hs. exact Hcs.
Qed.

Section DeleteRows.
  Variables (kv : kvs) (s s1 : aspec) (c : N) (rows : list row) (keep : row -> bool).
  Hypothesis R : Rkv kv s.
  Hypothesis Rc : Rchan kv s c rows.
  Let D := filter (fun r => negb (keep r)) rows.
  Let rows' := filter keep rows.
  Let kv1 := kapply kv (flat_map (stageDeleteMessage c) D).
  Hypothesis Hs1_tids : as_tids s1 = as_tids s.
  Hypothesis Hs1_other : forall c', c' <> c -> as_log s1 c' = as_log s c'.
  Hypothesis Hs1_tp : al_tpairs (as_log s1 c) = al_tpairs (as_log s c).

  Lemma kget_after_delete k : kget k kv1 = if existsb (key_eqb k) (deleted_keys c D) then None else kget k kv.
  Proof. apply kget_delete_rows. Qed.

  Lemma swf_after_delete : swf kv1.
  Proof. apply swf_apply. apply R. Qed.

  Lemma in_deleted_rows r : In r D <-> In r rows /\ keep r = false.
  Proof. unfold D. rewrite filter_In, negb_true_iff. tauto. Qed.

  Lemma in_kept_rows r : In r rows' <-> In r rows /\ keep r = true.
  Proof. unfold rows'. apply filter_In. Qed.

  Lemma Rchan_row_inj r r' : In r rows -> In r' rows -> r_seq r = r_seq r' -> r = r'.
  Proof. apply sorted_lt_inj. apply Rc. Qed.

  Lemma kget_kept k : ~ In k (deleted_keys c D) -> kget k kv1 = kget k kv.
  Proof. intro H. rewrite kget_after_delete. apply existsb_key_notin in H. rewrite H. reflexivity. Qed.

  Lemma kget_deleted k : In k (deleted_keys c D) -> kget k kv1 = None.
  Proof. intro H. rewrite kget_after_delete. apply existsb_key_in in H. rewrite H. reflexivity. Qed.

  Lemma deleted_key_dec k : In k (deleted_keys c D) \/ ~ In k (deleted_keys c D).
  Proof. destruct (existsb (key_eqb k) (deleted_keys c D)) eqn:E; [left; apply existsb_key_in; exact E|right; apply existsb_key_notin; exact E]. Qed.

  Lemma del_rc_get q r : kget (KyRow c q) kv1 = Some (VRow r) <-> In r rows' /\ r_seq r = q.
  Proof.
    destruct (deleted_key_dec (KyRow c q)) as [Hd|Hd].
    - rewrite (kget_deleted _ Hd). apply in_deleted_keys in Hd. destruct Hd as [d [HdD Hk]].
      apply in_row_del_keys in Hk. destruct Hk as [_ Hq]. apply in_deleted_rows in HdD. destruct HdD as [Hdr Hdk].
      split; [discriminate|]. intros [Hr Hs]. apply in_kept_rows in Hr. destruct Hr as [Hr Hk].
      assert (r = d) by (apply Rchan_row_inj; [assumption|assumption|congruence]). subst. congruence.
    - rewrite (kget_kept _ Hd), (rc_get _ _ _ _ Rc), in_kept_rows. split; [|tauto].
      intros [Hr Hs]. split; [|exact Hs]. split; [exact Hr|].
      destruct (keep r) eqn:Ek; [reflexivity|]. exfalso. apply Hd. apply in_deleted_keys.
      exists r. split; [apply in_deleted_rows; split; assumption|]. apply in_row_del_keys. split; [reflexivity|symmetry; exact Hs].
  Qed.

  Lemma del_cidx n q : has kv1 (KyCidx c n q) <-> exists r, In r rows' /\ r_seq r = q /\ r_cno r = n /\ n <> [] /\ r_uid r = [].
  Proof.
    unfold has. destruct (deleted_key_dec (KyCidx c n q)) as [Hd|Hd].
    - rewrite (kget_deleted _ Hd). apply in_deleted_keys in Hd. destruct Hd as [d [HdD Hk]].
      apply in_row_del_keys in Hk. destruct Hk as [_ [Hn [Hq _]]]. apply in_deleted_rows in HdD. destruct HdD as [Hdr Hdk].
      split; [intro X; contradiction|]. intros [r [Hr [Hs _]]]. apply in_kept_rows in Hr. destruct Hr as [Hr Hk].
      assert (r = d) by (apply Rchan_row_inj; [assumption|assumption|congruence]). subst. congruence.
    - rewrite (kget_kept _ Hd). change (kget (KyCidx c n q) kv <> None) with (has kv (KyCidx c n q)).
      rewrite (rc_cidx _ _ _ _ Rc). split.
      + intros [r [Hr [Hs [Hn [Hne Hu]]]]]. exists r. split; [|repeat split; assumption].
        apply in_kept_rows. split; [exact Hr|]. destruct (keep r) eqn:Ek; [reflexivity|]. exfalso. apply Hd.
        apply in_deleted_keys. exists r. split; [apply in_deleted_rows; split; assumption|]. apply in_row_del_keys.
        subst. repeat split; try reflexivity; assumption.
      + intros [r [Hr H]]. exists r. split; [apply in_kept_rows in Hr; apply Hr|exact H].
  Qed.

  Lemma del_sseq u q : has kv1 (KySseq c u q) <-> exists r, In r rows' /\ r_seq r = q /\ r_uid r = u /\ u <> []
                                                        /\ N.land (r_flags r) syncOnceFlag = 0.
  Proof.
    unfold has. destruct (deleted_key_dec (KySseq c u q)) as [Hd|Hd].
    - rewrite (kget_deleted _ Hd). apply in_deleted_keys in Hd. destruct Hd as [d [HdD Hk]].
      apply in_row_del_keys in Hk. destruct Hk as [_ [Hu [Hq _]]]. apply in_deleted_rows in HdD. destruct HdD as [Hdr Hdk].
      split; [intro X; contradiction|]. intros [r [Hr [Hs _]]]. apply in_kept_rows in Hr. destruct Hr as [Hr Hk].
      assert (r = d) by (apply Rchan_row_inj; [assumption|assumption|congruence]). subst. congruence.
    - rewrite (kget_kept _ Hd). change (kget (KySseq c u q) kv <> None) with (has kv (KySseq c u q)).
      rewrite (rc_sseq _ _ _ _ Rc). split.
      + intros [r [Hr [Hs [Hu [Hne Hf]]]]]. exists r. split; [|repeat split; assumption].
        apply in_kept_rows. split; [exact Hr|]. destruct (keep r) eqn:Ek; [reflexivity|]. exfalso. apply Hd.
        apply in_deleted_keys. exists r. split; [apply in_deleted_rows; split; assumption|]. apply in_row_del_keys.
        subst. repeat split; try reflexivity; assumption.
      + intros [r [Hr H]]. exists r. split; [apply in_kept_rows in Hr; apply Hr|exact H].
  Qed.

  Lemma del_idem_sound n u q i h : kget (KyIdem c n u) kv1 = Some (VIdem q i h) ->
    exists r, In r rows' /\ r_seq r = q /\ r_cno r = n /\ r_uid r = u /\ r_id r = i /\ r_hash r = h /\ n <> [] /\ u <> [].
  Proof.
    destruct (deleted_key_dec (KyIdem c n u)) as [Hd|Hd]; [rewrite (kget_deleted _ Hd); discriminate|].
    rewrite (kget_kept _ Hd). intro G. destruct (rc_idem_sound _ _ _ _ Rc _ _ _ _ _ G) as [r [Hr H]].
    exists r. split; [|exact H]. apply in_kept_rows. split; [exact Hr|].
    destruct (keep r) eqn:Ek; [reflexivity|]. exfalso. apply Hd. apply in_deleted_keys.
    exists r. split; [apply in_deleted_rows; split; assumption|]. apply in_row_del_keys.
    destruct H as [_ [Hn [Hu [_ [_ [Hne Hue]]]]]]. subst. repeat split; try reflexivity; assumption.
  Qed.

  Lemma del_idem_complete r : In r rows' -> r_uid r <> [] -> r_cno r <> [] ->
    pair_tainted (as_log s1 c) (r_uid r) (r_cno r) = false ->
    kget (KyIdem c (r_cno r) (r_uid r)) kv1 = Some (VIdem (r_seq r) (r_id r) (r_hash r)).
  Proof.
    intros Hr Hu Hn Ht. apply in_kept_rows in Hr. destruct Hr as [Hr Hk].
    assert (Ht0 : pair_tainted (as_log s c) (r_uid r) (r_cno r) = false).
    { unfold pair_tainted in *. rewrite <- Hs1_tp. exact Ht. }
    pose proof (rc_idem_complete _ _ _ _ Rc r Hr Hu Hn Ht0) as G.
    destruct (deleted_key_dec (KyIdem c (r_cno r) (r_uid r))) as [Hd|Hd]; [|rewrite (kget_kept _ Hd); exact G].
    exfalso. apply in_deleted_keys in Hd. destruct Hd as [d [HdD Hkd]].
    apply in_row_del_keys in Hkd. destruct Hkd as [_ [Hn2 [Hu2 _]]]. apply in_deleted_rows in HdD. destruct HdD as [Hdr Hdk].
    assert (Gd : kget (KyIdem c (r_cno d) (r_uid d)) kv = Some (VIdem (r_seq d) (r_id d) (r_hash d))).
    { apply (rc_idem_complete _ _ _ _ Rc d Hdr); rewrite <- ?Hu2, <- ?Hn2; assumption. }
    rewrite <- Hn2, <- Hu2, G in Gd. injection Gd as Hq _ _.
    assert (r = d) by (apply Rchan_row_inj; assumption). subst. congruence.
  Qed.

  Lemma del_gid_sound : gid_sound kv1.
  Proof.
    intros i c0 q0 G.
    destruct (deleted_key_dec (KyGid i)) as [Hd|Hd]; [rewrite (kget_deleted _ Hd) in G; discriminate|].
    rewrite (kget_kept _ Hd) in G. destruct (rk_gs _ _ R _ _ _ G) as [r0 [Gr Hi]].
    exists r0. split; [|exact Hi].
    destruct (deleted_key_dec (KyRow c0 q0)) as [Hd2|Hd2]; [|rewrite (kget_kept _ Hd2); exact Gr].
    exfalso. apply in_deleted_keys in Hd2. destruct Hd2 as [d [HdD Hk]].
    apply in_row_del_keys in Hk. destruct Hk as [-> ->].
    pose proof HdD as HdD'. apply in_deleted_rows in HdD. destruct HdD as [Hdr Hdk].
    apply Rc in Gr. destruct Gr as [Hr0 Hs0].
    assert (r0 = d) by (apply Rchan_row_inj; assumption). subst r0.
    apply Hd. apply in_deleted_keys. exists d. split; [exact HdD'|]. apply in_row_del_keys.
    split; [symmetry; exact Hi|].
    assert (Hok : row_ok c d) by (eapply Forall_forall; [apply Rc|exact Hdr]). apply Hok.
  Qed.

  Lemma del_gid_complete : gid_complete kv1 s1.
  Proof.
    intros c0 q0 r0 G Ht. rewrite Hs1_tids in Ht.
    destruct (deleted_key_dec (KyRow c0 q0)) as [Hd|Hd]; [rewrite (kget_deleted _ Hd) in G; discriminate|].
    rewrite (kget_kept _ Hd) in G. pose proof (rk_gc _ _ R _ _ _ G Ht) as Gg.
    destruct (deleted_key_dec (KyGid (r_id r0))) as [Hd2|Hd2]; [|rewrite (kget_kept _ Hd2); exact Gg].
    exfalso. apply in_deleted_keys in Hd2. destruct Hd2 as [d [HdD Hk]].
    apply in_row_del_keys in Hk. destruct Hk as [Hid _].
    pose proof HdD as HdD'. apply in_deleted_rows in HdD. destruct HdD as [Hdr Hdk].
    assert (Gd : kget (KyRow c (r_seq d)) kv = Some (VRow d)) by (apply Rc; split; [exact Hdr|reflexivity]).
    assert (Gg2 : kget (KyGid (r_id d)) kv = Some (VGid c (r_seq d))) by (apply (rk_gc _ _ R _ _ _ Gd); rewrite <- Hid; exact Ht).
    rewrite <- Hid, Gg in Gg2. injection Gg2 as -> ->.
    apply Hd. apply in_deleted_keys. exists d. split; [exact HdD'|]. apply in_row_del_keys. split; reflexivity.
  Qed.

  Lemma del_chans_only : chans_only kv1.
  Proof.
    intros c0 q0 v G.
    destruct (deleted_key_dec (KyRow c0 q0)) as [Hd|Hd]; [rewrite (kget_deleted _ Hd) in G; discriminate|].
    rewrite (kget_kept _ Hd) in G. eapply (rk_co _ _ R). exact G.
  Qed.

  Lemma del_other c' : c' <> c -> forall k, key_of_chan k c' = true -> kget k kv1 = kget k kv.
  Proof.
    intros Hne k Hk. apply kget_kept. intro Hd. apply in_deleted_keys in Hd. destruct Hd as [d [_ Hkd]].
    apply in_row_del_keys in Hkd.
    destruct k; cbn [key_of_chan] in Hk; try discriminate; apply N.eqb_eq in Hk; subst;
      try contradiction; destruct Hkd as [Hc _]; congruence.
  Qed.

  Lemma del_sys k : (match k with KyCkpt _ | KyRet _ | KyHist _ _ _ | KyCat _ | KyIdent _ _ => true | _ => false end) = true ->
    kget k kv1 = kget k kv.
  Proof.
    intro Hk. apply kget_kept. intro Hd. apply in_deleted_keys in Hd. destruct Hd as [d [_ Hkd]].
    apply in_row_del_keys in Hkd. destruct k; try discriminate; contradiction.
  Qed.

  Lemma del_Rchan_other c' : c' <> c -> exists rows0, Rchan kv1 s1 c' rows0.
  Proof.
    intro Hne. destruct (rk_chan _ _ R c') as [rows0 Rc0]. exists rows0.
    apply (Rchan_frame kv kv1 s s1 c' rows0 (rk_wf _ _ R) swf_after_delete); [apply del_other; exact Hne|apply Hs1_other; exact Hne|exact Rc0].
  Qed.
End DeleteRows.
