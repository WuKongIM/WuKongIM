(* Proof/ChanAppend_probe.v — hasCoalescibleIdempotentItems (append.go): the
   open-addressing pre-check over a 256-slot table answers EXACTLY "two keyed items
   of the batch are the same logical send", for ANY fingerprint function: a match is
   confirmed by sameLogicalSend, equal sends share a probe path, slots never become
   empty.  The limit of 128 items is the code's; the argument only needs a free slot.
   With it, [nb_complete]: newIdempotentAppendBatch as a whole is complete. *)
From WK Require Import Base.Base Base.Lists Gen.Consts_C29 Model.ChanAppend Proof.ChanAppend_coalesce.
From Coq Require Import ZifyN.
Open Scope N_scope.

(* arithmetic of the probe path: the only place where [mod] is reasoned about;
   below it [lia] is given back its default (cheaper) preprocessing.  Both settings are
   global: files requiring this one get the standard-library defaults. *)
Ltac Zify.zify_post_hook ::= Z.div_mod_to_equations.

Lemma tsize_val : tsize = 256%nat.
Proof. reflexivity. Qed.

Lemma mask_mod x : slot_mask x = x mod 256.
Proof. unfold slot_mask. change (c29_stack_table_size - 1) with (N.ones 8). rewrite N.land_ones. reflexivity. Qed.

Lemma mask_lt x : slot_mask x < 256.
Proof. rewrite mask_mod. lia. Qed.

Lemma limit_val : c29_stack_item_limit = 128.
Proof. reflexivity. Qed.

(* the d-th slot of the probe path starting at h *)
Definition ppos (h : N) (d : nat) : N := (h + N.of_nat d) mod 256.

Definition tget (t : tbl) (s : N) : N * N := nth (N.to_nat s) t (0, 0).
Definition occ (t : tbl) (s : N) : Prop := snd (tget t s) <> 0.

Lemma ppos_lt h d : ppos h d < 256.
Proof. unfold ppos. lia. Qed.

Lemma ppos_step h d : slot_mask (ppos h d + 1) = ppos h (S d).
Proof. rewrite mask_mod. unfold ppos. lia. Qed.

Lemma ppos_zero h : h < 256 -> ppos h 0 = h.
Proof. unfold ppos. lia. Qed.

Lemma ppos_surj h s : h < 256 -> s < 256 -> exists d, (d < 256)%nat /\ ppos h d = s.
Proof.
  intros Hh Hs. exists (N.to_nat ((s + 256 - h) mod 256)). unfold ppos. split; lia.
Qed.

Lemma ppos_inj h d1 d2 : (d1 < 256)%nat -> (d2 < 256)%nat -> ppos h d1 = ppos h d2 -> d1 = d2.
Proof. unfold ppos. lia. Qed.

Ltac Zify.zify_post_hook ::= idtac.
Ltac Zify.zify_convert_to_euclidean_division_equations_flag ::= constr:(false).

Lemma probe_S f items t slot fpv c :
  probe (S f) items t slot fpv c =
  (let e := tget t slot in
   if snd e =? 0 then PInsert slot
   else if (fst e =? fpv) && sameLogicalSend (ps_cmd (nth (N.to_nat (snd e - 1)) items dflt_psend)) c
        then PFound
        else probe f items t (slot_mask (slot + 1)) fpv c).
Proof. reflexivity. Qed.

Lemma nth_set_nth_eq {A} n (x d : A) l : (n < length l)%nat -> nth n (set_nth n x l) d = x.
Proof.
  revert n. induction l as [|y l IH]; intros n H; [cbn in H; lia|].
  destruct n; cbn [set_nth nth]; [reflexivity|]. apply IH. cbn in H. lia.
Qed.

Lemma nth_set_nth_neq {A} n m (x d : A) l : n <> m -> nth m (set_nth n x l) d = nth m l d.
Proof.
  revert n m. induction l as [|y l IH]; intros n m H; [destruct n; reflexivity|].
  destruct n; destruct m; cbn [set_nth nth]; try reflexivity; try lia. apply IH. lia.
Qed.

Section Probe.
  Variable fp : cmd -> N.
  Variable all : list psend.

  Definition home (i : nat) : N := slot_mask (fp (cmdat all i)).

  (* the table after the first k items were processed without finding a duplicate *)
  Record TInv (t : tbl) (k : nat) : Prop := {
    ti_len : length t = 256%nat;
    (* an occupied slot holds a keyed item among the first k, with its fingerprint *)
    ti_slot : forall s, s < 256 -> occ t s ->
              exists i, (i < k)%nat /\ (i < length all)%nat /\ keyed (cmdat all i) = true
                        /\ tget t s = (fp (cmdat all i), N.of_nat (S i));
    (* every keyed item among the first k sits on its own probe path, behind occupied slots only *)
    ti_item : forall i, (i < k)%nat -> (i < length all)%nat -> keyed (cmdat all i) = true ->
              exists d, (d < 256)%nat /\ tget t (ppos (home i) d) = (fp (cmdat all i), N.of_nat (S i))
                        /\ forall d', (d' < d)%nat -> occ t (ppos (home i) d');
    (* at most k slots are occupied *)
    ti_count : (length (filter (fun e => negb (snd e =? 0)%N) t) <= k)%nat;
    (* no duplicate among the first k *)
    ti_nopair : forall i j, (i < j)%nat -> (j < k)%nat -> (j < length all)%nat ->
                keyed (cmdat all i) = true -> keyed (cmdat all j) = true -> sameLogicalSend (cmdat all i) (cmdat all j) = false }.

  Lemma exists_empty (t : tbl) k : TInv t k -> (k < 256)%nat -> exists s, s < 256 /\ ~ occ t s.
  Proof.
    intros [L _ _ C _] Hk.
    assert (H : forall (l : tbl), (length (filter (fun e => negb (snd e =? 0)%N) l) < length l)%nat ->
                exists n, (n < length l)%nat /\ snd (nth n l (0, 0)) = 0).
    { induction l as [|e l IH]; cbn [filter length]; intro H; [lia|].
      destruct (snd e =? 0) eqn:E; cbn [negb] in H.
      - exists 0%nat. split; [lia|]. apply N.eqb_eq in E. exact E.
      - cbn [length] in H. destruct IH as [n [N1 N2]]; [lia|]. exists (S n). split; [lia|exact N2]. }
    destruct (H t) as [n [N1 N2]]; [lia|].
    exists (N.of_nat n). split; [lia|]. unfold occ, tget. rewrite Nnat.Nat2N.id. intro X. apply X. exact N2.
  Qed.

  Lemma probe_finds (t : tbl) k c i :
    TInv t k -> (i < k)%nat -> (i < length all)%nat -> keyed (cmdat all i) = true -> cmdat all i = c ->
    probe tsize all t (slot_mask (fp c)) (fp c) c = PFound.
  Proof.
    intros I Hi Hl Ki Ec.
    destruct (ti_item _ _ I i Hi Hl Ki) as [d0 [D1 [D2 D3]]].
    unfold home in *. rewrite Ec in *.
    set (h := slot_mask (fp c)) in *.
    assert (Hh : h < 256) by apply mask_lt.
    rewrite tsize_val.
    assert (G : forall n d, (d + n = 256)%nat -> (d <= d0)%nat ->
                probe n all t (ppos h d) (fp c) c = PFound).
    { induction n as [|n IH]; intros d Hn Hd; [lia|].
      rewrite probe_S. cbv zeta.
      destruct (Nat.eq_dec d d0) as [E|E].
      - subst d. rewrite D2. cbn [snd fst].
        replace (N.of_nat (S i) =? 0) with false by (symmetry; apply N.eqb_neq; lia).
        rewrite N.eqb_refl. replace (N.of_nat (S i) - 1) with (N.of_nat i) by lia.
        rewrite Nnat.Nat2N.id. fold (cmdat all i). rewrite Ec, sameLogicalSend_refl. reflexivity.
      - assert (Ho : occ t (ppos h d)) by (apply D3; lia). unfold occ in Ho.
        destruct (snd (tget t (ppos h d)) =? 0) eqn:E0; [apply N.eqb_eq in E0; contradiction|].
        destruct ((fst (tget t (ppos h d)) =? fp c)
                  && sameLogicalSend (ps_cmd (nth (N.to_nat (snd (tget t (ppos h d)) - 1)) all dflt_psend)) c);
          [reflexivity|].
        rewrite ppos_step. apply IH; lia. }
    rewrite <- (ppos_zero h Hh). apply G; lia.
  Qed.

  (* without a stored duplicate the probe ends at the first empty slot of the path *)
  Lemma probe_inserts (t : tbl) k c :
    TInv t k -> (k < 256)%nat ->
    (forall i, (i < k)%nat -> (i < length all)%nat -> keyed (cmdat all i) = true -> sameLogicalSend (cmdat all i) c = false) ->
    exists d, (d < 256)%nat
      /\ probe tsize all t (slot_mask (fp c)) (fp c) c = PInsert (ppos (slot_mask (fp c)) d)
      /\ ~ occ t (ppos (slot_mask (fp c)) d)
      /\ forall d', (d' < d)%nat -> occ t (ppos (slot_mask (fp c)) d').
  Proof.
    intros I Hk Hno.
    set (h := slot_mask (fp c)) in *.
    assert (Hh : h < 256) by apply mask_lt.
    destruct (exists_empty t k I Hk) as [s0 [S1 S2]].
    destruct (ppos_surj h s0 Hh S1) as [d0 [D1 D2]].
    rewrite tsize_val.
    assert (G : forall n d, (d + n = 256)%nat -> (forall d', (d' < d)%nat -> occ t (ppos h d')) ->
                exists d2, (d <= d2)%nat /\ (d2 < 256)%nat
                  /\ probe n all t (ppos h d) (fp c) c = PInsert (ppos h d2)
                  /\ ~ occ t (ppos h d2) /\ forall d', (d' < d2)%nat -> occ t (ppos h d')).
    { induction n as [|n IH]; intros d Hn Hocc.
      - exfalso. apply S2. rewrite <- D2. apply Hocc. lia.
      - rewrite probe_S. cbv zeta.
        destruct (snd (tget t (ppos h d)) =? 0) eqn:E0.
        + apply N.eqb_eq in E0. exists d. split; [lia|]. split; [lia|]. split; [reflexivity|].
          split; [unfold occ; intro X; apply X; exact E0|exact Hocc].
        + apply N.eqb_neq in E0.
          assert (Hocc' : forall d', (d' < S d)%nat -> occ t (ppos h d')).
          { intros d' Hd'. destruct (Nat.eq_dec d' d); [subst; exact E0|apply Hocc; lia]. }
          assert (Hd : (d < 256)%nat).
          { destruct (Nat.lt_ge_cases d 256) as [L|L]; [exact L|lia]. }
          destruct (ti_slot _ _ I (ppos h d) (ppos_lt h d) E0) as [i [I1 [I2 [I3 I4]]]].
          rewrite I4. cbn [fst snd].
          replace (N.of_nat (S i) - 1) with (N.of_nat i) by lia. rewrite Nnat.Nat2N.id.
          fold (cmdat all i). rewrite (Hno i I1 I2 I3), andb_false_r.
          rewrite ppos_step.
          destruct (Nat.eq_dec n 0) as [En|En].
          * exfalso. subst n. apply S2. rewrite <- D2. apply Hocc'. lia.
          * destruct (IH (S d) ltac:(lia) Hocc') as [d2 [X1 [X2 [X3 [X4 X5]]]]].
            exists d2. split; [lia|]. split; [exact X2|]. split; [exact X3|]. split; [exact X4|exact X5]. }
    destruct (G 256%nat 0%nat eq_refl ltac:(intros; lia)) as [d2 [X1 [X2 [X3 [X4 X5]]]]].
    exists d2. rewrite (ppos_zero h Hh) in X3. split; [exact X2|]. split; [exact X3|]. split; [exact X4|exact X5].
  Qed.

  Lemma tget_set_eq (t : tbl) s e : length t = 256%nat -> s < 256 -> tget (set_nth (N.to_nat s) e t) s = e.
  Proof. intros L H. unfold tget. apply nth_set_nth_eq. lia. Qed.

  Lemma tget_set_neq (t : tbl) s s' e : s <> s' -> tget (set_nth (N.to_nat s) e t) s' = tget t s'.
  Proof. intro H. unfold tget. apply nth_set_nth_neq. lia. Qed.

  Lemma filter_set_count (t : tbl) n e :
    (n < length t)%nat -> snd (nth n t (0, 0)) = 0 -> snd e <> 0 ->
    length (filter (fun x => negb (snd x =? 0)%N) (set_nth n e t))
    = S (length (filter (fun x => negb (snd x =? 0)%N) t)).
  Proof.
    revert n. induction t as [|y t IH]; intros n H E Hn; [cbn in H; lia|].
    destruct n as [|n]; cbn [set_nth nth filter length] in *.
    - rewrite E. cbn [N.eqb negb]. apply N.eqb_neq in Hn. rewrite Hn. reflexivity.
    - destruct (snd y =? 0); cbn [negb length]; rewrite IH by (try lia; assumption); reflexivity.
  Qed.

  Lemma insert_inv (t : tbl) k d :
    TInv t k -> (k < length all)%nat -> keyed (cmdat all k) = true ->
    (d < 256)%nat -> ~ occ t (ppos (home k) d) ->
    (forall d', (d' < d)%nat -> occ t (ppos (home k) d')) ->
    (forall i, (i < k)%nat -> (i < length all)%nat -> keyed (cmdat all i) = true -> sameLogicalSend (cmdat all i) (cmdat all k) = false) ->
    TInv (set_nth (N.to_nat (ppos (home k) d)) (fp (cmdat all k), N.of_nat (S k)) t) (S k).
  Proof.
    intros [L T2 T3 T4 T5] Hk Kk Hd Hemp Hpath Hno.
    set (s := ppos (home k) d) in *. set (e := (fp (cmdat all k), N.of_nat (S k))).
    assert (Hs : s < 256) by apply ppos_lt.
    assert (Hocc : forall s', occ t s' -> occ (set_nth (N.to_nat s) e t) s').
    { intros s' Ho. unfold occ in *. destruct (N.eq_dec s s') as [E|E].
      - subst s'. contradiction.
      - rewrite tget_set_neq by exact E. exact Ho. }
    constructor.
    - rewrite set_nth_length. exact L.
    - intros s' Hs' Ho. destruct (N.eq_dec s s') as [E|E].
      + subst s'. exists k. rewrite tget_set_eq by assumption. repeat split; auto.
      + unfold occ in Ho. rewrite tget_set_neq in Ho by exact E.
        destruct (T2 s' Hs' Ho) as [i [I1 [I2 [I3 I4]]]]. exists i.
        rewrite tget_set_neq by exact E. repeat split; auto.
    - intros i Hi Hl Ki. destruct (Nat.eq_dec i k) as [E|E].
      + subst i. exists d. fold s. rewrite tget_set_eq by assumption. split; [exact Hd|]. split; [reflexivity|].
        intros d' Hd'. apply Hocc. apply Hpath. exact Hd'.
      + destruct (T3 i ltac:(lia) Hl Ki) as [di [D1 [D2 D3]]]. exists di. split; [exact D1|]. split.
        * rewrite tget_set_neq; [exact D2|]. intro X. apply Hemp. fold s. rewrite X.
          unfold occ. rewrite D2. cbn [snd]. lia.
        * intros d' Hd'. apply Hocc. apply D3. exact Hd'.
    - unfold e. rewrite filter_set_count; [lia|lia| |cbn [snd]; lia].
      unfold occ, tget in Hemp. destruct (snd (nth (N.to_nat s) t (0, 0)) =? 0) eqn:E0.
      + apply N.eqb_eq in E0. exact E0.
      + exfalso. apply Hemp. apply N.eqb_neq in E0. exact E0.
    - intros i j Hij Hj Hlj Ki Kj. destruct (Nat.eq_dec j k) as [E|E].
      + subst j. apply Hno; auto; lia.
      + apply T5; auto; lia.
  Qed.

  Lemma skip_inv (t : tbl) k : TInv t k -> keyed (cmdat all k) = false -> TInv t (S k).
  Proof.
    intros [L T2 T3 T4 T5] Kk. constructor; auto.
    - intros s Hs Ho. destruct (T2 s Hs Ho) as [i [I1 I2]]. exists i. split; [lia|exact I2].
    - intros i Hi Hl Ki. assert (i <> k) by (intro; subst; congruence). apply T3; auto; lia.
    - intros i j Hij Hj Hlj Ki Kj. assert (j <> k) by (intro; subst; congruence). apply T5; auto; lia.
  Qed.

  Definition pair_upto (k : nat) : Prop :=
    exists i j, (i < j)%nat /\ (j < k)%nat /\ (j < length all)%nat /\
      keyed (cmdat all i) = true /\ keyed (cmdat all j) = true /\ sameLogicalSend (cmdat all i) (cmdat all j) = true.

  Lemma loop_exact : forall rest k t,
    (k + length rest = length all)%nat -> rest = skipn k all -> (length all <= 128)%nat -> TInv t k ->
    exists r, hasCoal_loop fp all t (N.of_nat k) rest = Some r /\ (r = true <-> pair_upto (length all)).
  Proof.
    induction rest as [|it rest IH]; intros k t Hlen Hrest Hb I; cbn [hasCoal_loop].
    - cbn in Hlen. exists false. split; [reflexivity|]. split; [discriminate|].
      intros [i [j [H1 [H2 [H3 [H4 [H5 H6]]]]]]]. rewrite (ti_nopair _ _ I i j H1 ltac:(lia) H3 H4 H5) in H6. discriminate.
    - cbn [length] in Hlen. assert (Hk : (k < length all)%nat) by lia.
      destruct (skipn_step dflt_psend _ _ _ _ Hrest) as [E1 [E2 _]].
      subst it. fold (cmdat all k).
      replace (N.of_nat k + 1) with (N.of_nat (S k)) by lia.
      destruct (keyed (cmdat all k)) eqn:Kk.
      + destruct (existsb (fun i => keyed (cmdat all i) && sameLogicalSend (cmdat all i) (cmdat all k)) (seq 0 k)) eqn:Dup.
        * apply existsb_exists in Dup. destruct Dup as [i [Hi Hd]]. apply in_seq in Hi.
          apply andb_true_iff in Hd. destruct Hd as [Ki Si].
          rewrite (probe_finds t k (cmdat all k) i I ltac:(lia) ltac:(lia) Ki (proj1 (sameLogicalSend_eq _ _) Si)).
          exists true. split; [reflexivity|]. split; [intros _|reflexivity].
          exists i, k. repeat split; auto; lia.
        * assert (Hno : forall i, (i < k)%nat -> (i < length all)%nat -> keyed (cmdat all i) = true ->
                        sameLogicalSend (cmdat all i) (cmdat all k) = false).
          { intros i Hi _ Ki. destruct (sameLogicalSend (cmdat all i) (cmdat all k)) eqn:Si; [|reflexivity].
            assert (X : existsb (fun i => keyed (cmdat all i) && sameLogicalSend (cmdat all i) (cmdat all k)) (seq 0 k) = true).
            { apply existsb_exists. exists i. split; [apply in_seq; lia|]. rewrite Ki, Si. reflexivity. }
            congruence. }
          destruct (probe_inserts t k (cmdat all k) I ltac:(lia) Hno) as [d [D1 [D2 [D3 D4]]]].
          rewrite D2. fold (home k).
          apply IH; [lia|exact E2|exact Hb|].
          apply insert_inv; auto.
      + apply IH; [lia|exact E2|exact Hb|apply skip_inv; assumption].
  Qed.
End Probe.

(* two different positions hold keyed items that are the same logical send *)
Definition coalescible_pair (items : list psend) : Prop :=
  exists i j a b, (i < j)%nat /\ nth_error items i = Some a /\ nth_error items j = Some b /\
    keyed (ps_cmd a) = true /\ keyed (ps_cmd b) = true /\
    sameLogicalSend (ps_cmd a) (ps_cmd b) = true.

Lemma nth_repeat_lt {A} (x d : A) n i : (i < n)%nat -> nth i (repeat x n) d = x.
Proof. revert i. induction n as [|n IH]; intros i H; [lia|]. destruct i; cbn [repeat nth]; [reflexivity|apply IH; lia]. Qed.

Lemma TInv_init fp all : TInv fp all tbl_init 0.
Proof.
  assert (Hn : forall s, s < 256 -> tget tbl_init s = (0, 0)).
  { intros s Hs. unfold tget, tbl_init. rewrite tsize_val. apply nth_repeat_lt. lia. }
  constructor.
  - unfold tbl_init. rewrite repeat_length. apply tsize_val.
  - intros s Hs Ho. unfold occ in Ho. rewrite (Hn s Hs) in Ho. exfalso. apply Ho. reflexivity.
  - intros i Hi. lia.
  - unfold tbl_init. rewrite filter_none by (intros y Hy; apply repeat_spec in Hy; subst y; reflexivity). cbn. lia.
  - intros i j _ Hj. lia.
Qed.

Lemma pair_upto_iff all : pair_upto all (length all) <-> coalescible_pair all.
Proof.
  unfold pair_upto, coalescible_pair, cmdat. split.
  - intros [i [j [H1 [H2 [H3 [H4 [H5 H6]]]]]]].
    exists i, j, (nth i all dflt_psend), (nth j all dflt_psend).
    split; [exact H1|]. split; [apply nth_error_nth'; lia|]. split; [apply nth_error_nth'; lia|].
    split; [exact H4|]. split; [exact H5|exact H6].
  - intros [i [j [a [b [H1 [H2 [H3 [H4 [H5 H6]]]]]]]]].
    assert (Hj : (j < length all)%nat) by (apply nth_error_Some; congruence).
    exists i, j. rewrite (nth_error_nth _ _ dflt_psend H2), (nth_error_nth _ _ dflt_psend H3).
    split; [exact H1|]. split; [exact Hj|]. split; [exact Hj|]. split; [exact H4|]. split; [exact H5|exact H6].
Qed.

Theorem hasCoalescible_exact : forall (fp : cmd -> N) (items : list psend),
  N.of_nat (length items) <= c29_stack_item_limit ->
  exists r, hasCoalescibleIdempotentItems fp items = Some r /\ (r = true <-> coalescible_pair items).
Proof.
  intros fp items Hb. rewrite limit_val in Hb. unfold hasCoalescibleIdempotentItems.
  destruct (loop_exact fp items items 0 tbl_init eq_refl eq_refl ltac:(lia) (TInv_init fp items)) as [r [R1 R2]].
  exists r. split; [exact R1|]. rewrite R2. apply pair_upto_iff.
Qed.

Corollary hasCoalescible_false : forall fp items, N.of_nat (length items) <= c29_stack_item_limit ->
  hasCoalescibleIdempotentItems fp items = Some false -> ~ coalescible_pair items.
Proof.
  intros fp items Hb H. destruct (hasCoalescible_exact fp items Hb) as [r [R1 R2]].
  rewrite H in R1. inversion R1; subst r. intro P. apply R2 in P. discriminate.
Qed.

Corollary hasCoalescible_total : forall fp items, N.of_nat (length items) <= c29_stack_item_limit ->
  hasCoalescibleIdempotentItems fp items <> None.
Proof. intros fp items Hb. destruct (hasCoalescible_exact fp items Hb) as [r [R1 _]]. congruence. Qed.

Theorem nb_complete : forall hashf fp items,
  hash_separates hashf items ->
  forall i j, (i < j)%nat -> (j < length items)%nat ->
  keyed (cmdat items i) = true -> cmdat items i = cmdat items j ->
  let b := newIdempotentAppendBatch hashf fp items in
  owner_of b i = owner_of b j.
Proof.
  intros hashf fp items HS i j Hij Hj Ki E b. unfold b, newIdempotentAppendBatch.
  destruct (length items <? 2)%nat eqn:L2; [apply Nat.ltb_lt in L2; lia|].
  destruct (N.of_nat (length items) <=? c29_stack_item_limit) eqn:Lb; cbn [andb].
  - destruct (hasCoalescibleIdempotentItems fp items) as [[|]|] eqn:H.
    + apply pass_complete; assumption.
    + exfalso. apply N.leb_le in Lb. apply (hasCoalescible_false fp items Lb H).
      exists i, j, (nth i items dflt_psend), (nth j items dflt_psend).
      split; [exact Hij|]. split; [apply nth_error_nth'; lia|]. split; [apply nth_error_nth'; lia|].
      unfold cmdat in *. split; [exact Ki|]. split; [rewrite <- E; exact Ki|]. apply sameLogicalSend_eq. exact E.
    + apply pass_complete; assumption.
  - apply pass_complete; assumption.
Qed.
