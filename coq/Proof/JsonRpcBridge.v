(* Proof/JsonRpcBridge.v — C24: the frame bridge of pkg/protocol/jsonrpc carries every
   bridged field and the request id in both directions; determineMessageType is a total
   decision table; the monitor accepts every model trace. *)
From WK Require Import Base.Base Base.Lists Gen.Consts_C24 Model.JsonRpcBridge Proof.JsonRpcBridge_num.
From Coq Require Import ZifyBool ZifyN ZifyNat.
Open Scope N_scope.

Definition i64 (z : Z) : Prop := (-9223372036854775808 <= z <= 9223372036854775807)%Z.

(* uint8 / uint64 / int64 typed fields are in range *)
Definition wf_frame (f : frame) : Prop :=
  match f with
  | FConnect _ v _ _ df _ _ _ => v < 256 /\ df < 256
  | FSend _ s _ _ _ _ _ _ ct _ _ => s < 256 /\ ct < 256
  | FRecvack _ m _ => i64 m
  | FDisconnect _ rc _ => rc < 256
  | FConnack _ v _ _ _ rc _ => v < 256 /\ rc < 256
  | FSendack _ m _ _ _ rc => i64 m /\ rc < 256
  | FRecv _ s _ _ m _ _ _ sid sf _ _ ct _ _ _ => s < 256 /\ i64 m /\ sid <= max_u64 /\ sf < 256 /\ ct < 256
  | _ => True
  end.

Lemma flags_eqb_header fr : flags_eqb fr (headerToFramer (header_of_framer fr)) = true.
Proof. destruct fr as [[] [] [] [] [] ? ? ? ?]; reflexivity. Qed.

Lemma flags_eqb_opt_header fr : flags_eqb fr (framer_of_header (fromProtoHeader fr)) = true.
Proof. destruct fr as [[] [] [] [] [] ? ? ? ?]; reflexivity. Qed.

(* CONNECT: version 0 is written as the latest version, which is what it means *)
Lemma norm_version_connect v : v < 256 ->
  norm_version (if (Z.of_N v =? 0)%Z then LatestVersion else to_u8 (Z.of_N v)) = norm_version v.
Proof.
  intro H. destruct (Z.of_N v =? 0)%Z eqn:E.
  - replace v with 0 by lia. reflexivity.
  - rewrite (to_u8_of_N v H). reflexivity.
Qed.

(* compare field by field: reduce [frame_equiv] and the record projections, keep the conversions folded *)
Ltac fields := cbn -[to_u8 norm_version setting_mask setting_to_proto setting_of_flags format_int format_uint
                        headerToFramer framer_of_header].

Ltac eqbs := rewrite ?bytes_eqb_refl, ?N.eqb_refl, ?Z.eqb_refl, ?flags_eqb_header, ?flags_eqb_opt_header; cbn [andb].

Theorem inbound_roundtrip id f : wf_frame f -> inbound_supported f = true ->
  exists m f', msg_of_frame id f = Some m /\ ToFrame m = Some (f', expected_token id f) /\ frame_equiv f f' = true.
Proof.
  intros W S. destruct f; try discriminate; cbn [msg_of_frame];
    eexists; eexists; (split; [reflexivity|]); (split; [reflexivity|]); fields.
  - (* CONNECT *) destruct W as [Wv Wd].
    rewrite (to_u8_of_N deviceFlag Wd), (norm_version_connect version Wv). eqbs. reflexivity.
  - (* SEND *) destruct W as [Ws Wc].
    rewrite (to_u8_of_N channelType Wc), (setting_flags_roundtrip setting Ws). eqbs. reflexivity.
  - (* RECVACK *) rewrite (parse_int_format messageID W). eqbs. reflexivity.
  - (* DISCONNECT *) rewrite (to_u8_of_N reasonCode W). eqbs. reflexivity.
  - (* PING *) reflexivity.
Qed.

Theorem outbound_faithful id f : wf_frame f -> outbound_supported f = true ->
  exists m f', FromFrame id f = Some m
               /\ frame_of_msg m = Some (f', if is_response_frame f then Some id else None)
               /\ frame_equiv f f' = true.
Proof.
  intros W S. destruct f; try discriminate; cbn [FromFrame];
    eexists; eexists; (split; [reflexivity|]); (split; [reflexivity|]); fields.
  - (* DISCONNECT *) rewrite (to_u8_of_N reasonCode W). eqbs. reflexivity.
  - (* CONNACK *) destruct W as [Wv Wr].
    rewrite (to_u8_of_N serverVersion Wv), (to_u8_of_N reasonCode Wr). eqbs. reflexivity.
  - (* SENDACK *) destruct W as [Wm Wr].
    rewrite (parse_int_format messageID Wm), (to_u8_of_N reasonCode Wr). eqbs. reflexivity.
  - (* RECV *) destruct W as (Ws & Wm & Wi & Wf & Wc).
    rewrite (parse_int_format messageID Wm), (parse_uint64_value_format streamId Wi), (to_u8_of_N streamFlag Wf),
      (to_u8_of_N channelType Wc), (setting_opt_roundtrip setting Ws). eqbs. reflexivity.
  - (* EVENT *) eqbs. reflexivity.
  - (* PONG *) reflexivity.
Qed.

Theorem reqid_preserved_in m f tok : ToFrame m = Some (f, tok) ->
  tok = match msg_id m with Some i => i | None => [] end.
Proof. destruct m; cbn [ToFrame msg_id]; intro E; inversion E; reflexivity. Qed.

Theorem reqid_preserved_out id f m : FromFrame id f = Some m -> is_response_frame f = true -> msg_id m = Some id.
Proof. destruct f; cbn [FromFrame is_response_frame]; intros E R; try discriminate; inversion E; reflexivity. Qed.

(* FromFrame writes the protocol version and the method name of the message type *)
Theorem from_frame_base id f m : FromFrame id f = Some m ->
  match m with
  | ConnectResponse v _ _ | SendResponse v _ _ | PongResponse v _ => v = jsonRPCVersion
  | RecvNotification v me _ => v = jsonRPCVersion /\ me = MethodRecv
  | EventNotification v me _ => v = jsonRPCVersion /\ me = MethodEvent
  | DisconnectNotification v me _ => v = jsonRPCVersion /\ me = MethodDisconnect
  | _ => False
  end.
Proof. destruct f; cbn [FromFrame]; intro E; try discriminate; inversion E; repeat split. Qed.

Definition version_ok (p : probe) : bool :=
  match pr_jsonrpc p with
  | RawAbsent => true
  | RawString v => bytes_eqb v jsonRPCVersion
  | _ => false
  end.

Definition known_notification (m : str) : bool :=
  bytes_eqb m MethodRecv || bytes_eqb m MethodDisconnect || bytes_eqb m MethodRecvAck || bytes_eqb m MethodEvent.

(* the decision table: exactly one of request / response / notification / error, for every probe *)
Theorem classify_table p :
  determineMessageType p =
  if negb (version_ok p) then inr (match pr_jsonrpc p with RawOther => EUnmarshalFieldFailed | _ => EInvalidVersion end)
  else match present (pr_id p), negb (is_nil (pr_method p)) with
       | true, true => inl msgTypeRequest                       (* id and method *)
       | true, false =>                                         (* id, no method: a response needs result xor error *)
         match present (pr_result p), present (pr_error p) with
         | true, true => inr EResponseFormat
         | false, false => inr EOther
         | _, _ => inl msgTypeResponse
         end
       | false, true => if known_notification (pr_method p) then inl msgTypeNotification else inr EOther
       | false, false => inr EOther
       end.
Proof.
  unfold determineMessageType, version_ok, known_notification.
  destruct (pr_jsonrpc p) as [| |v|]; cbn [negb]; try reflexivity.
  2: destruct (bytes_eqb v jsonRPCVersion); cbn [negb]; [|reflexivity].
  all: destruct (present (pr_id p)), (is_nil (pr_method p)), (present (pr_result p)), (present (pr_error p)); reflexivity.
Qed.

Theorem classify_total p :
  determineMessageType p = inl msgTypeRequest \/ determineMessageType p = inl msgTypeResponse
  \/ determineMessageType p = inl msgTypeNotification \/ exists e, determineMessageType p = inr e /\ 1 <= e <= 9.
Proof.
  rewrite classify_table.
  destruct (negb (version_ok p));
    [destruct (pr_jsonrpc p)
    |destruct (present (pr_id p)), (negb (is_nil (pr_method p)));
       [|destruct (present (pr_result p)), (present (pr_error p))|destruct (known_notification (pr_method p))|]];
    auto; right; right; right; eexists; (split; [reflexivity|vm_compute; split; discriminate]).
Qed.

(* the three types are pairwise distinct numbers, so the classification is unambiguous *)
Lemma msg_types_distinct : msgTypeRequest <> msgTypeResponse /\ msgTypeRequest <> msgTypeNotification
                           /\ msgTypeResponse <> msgTypeNotification.
Proof. vm_compute. repeat split; discriminate. Qed.

Lemma with_params_msg p b k i k' i' : with_params p b k i = OMsg k' i' -> k' = k /\ i' = i.
Proof. unfold with_params. destruct (pr_params p), (params_ok b); intro E; inversion E; split; reflexivity. Qed.

(* only a document without id is classified as a notification *)
Lemma notification_no_id p t : determineMessageType p = inl t ->
  (t =? msgTypeRequest) = false -> (t =? msgTypeResponse) = false -> pr_id p = RawAbsent.
Proof.
  rewrite classify_table. destruct (negb (version_ok p)); [discriminate|].
  destruct (pr_id p); [reflexivity|..]; cbn [present]; destruct (negb (is_nil (pr_method p)));
    try destruct (present (pr_result p)), (present (pr_error p));
    intros E T1 T2; inversion E; subst t; discriminate.
Qed.

(* a decoded message keeps the id of the document; notifications have none *)
Theorem decode_id p b k i : decode_dispatch p b = OMsg k i ->
  match i with
  | Some id => pr_id p = RawString id
  | None => pr_id p = RawAbsent /\ (k = KRecvNotification \/ k = KRecvAckNotification \/ k = KDisconnectNotification \/ k = KEventNotification)
  end.
Proof.
  unfold decode_dispatch. destruct (determineMessageType p) as [t|e] eqn:D; [|discriminate].
  destruct (t =? msgTypeRequest) eqn:T1; [|destruct (t =? msgTypeResponse) eqn:T2].
  - (* request: every successful branch of the method dispatch hands on the id *)
    destruct (pr_id p) as [| |id|]; try discriminate. cbv zeta.
    assert (W : forall K, with_params p b K (Some id) = OMsg k i -> i = Some id)
      by (intros K E; apply with_params_msg in E; apply E).
    destruct (bytes_eqb _ MethodConnect); [intro E; rewrite (W _ E); reflexivity|].
    destruct (bytes_eqb _ MethodSend); [intro E; rewrite (W _ E); reflexivity|].
    destruct (bytes_eqb _ MethodSubscribe); [intro E; rewrite (W _ E); reflexivity|].
    destruct (bytes_eqb _ MethodUnsubscribe); [intro E; rewrite (W _ E); reflexivity|].
    destruct (bytes_eqb _ MethodPing); [destruct (pr_params p), (params_ok b); intro E; inversion E; reflexivity|].
    destruct (bytes_eqb _ MethodDisconnect); [intro E; rewrite (W _ E); reflexivity|discriminate].
  - (* response *)
    destruct (pr_id p) as [| |id|]; try discriminate.
    destruct (_ && _); intro E; inversion E; reflexivity.
  - (* notification: no id in the document, none in any branch, and the kind is the branch's *)
    rewrite (notification_no_id p t D T1 T2). cbv zeta.
    assert (W : forall K, with_params p b K None = OMsg k i -> i = None /\ k = K)
      by (intros K E; apply with_params_msg in E; destruct E as [-> ->]; split; reflexivity).
    destruct (bytes_eqb _ MethodRecv); [intro E; apply W in E; destruct E as [-> ->]; auto 7|].
    destruct (bytes_eqb _ MethodRecvAck); [intro E; apply W in E; destruct E as [-> ->]; auto 7|].
    destruct (bytes_eqb _ MethodDisconnect); [intro E; apply W in E; destruct E as [-> ->]; auto 7|].
    destruct (bytes_eqb _ MethodEvent); [intro E; apply W in E; destruct E as [-> ->]; auto 7|discriminate].
Qed.

(* the two halves serve opposite directions: nothing FromFrame builds is accepted by ToFrame *)
Theorem directions_disjoint id f m : FromFrame id f = Some m -> ToFrame m = None.
Proof. destruct f; cbn [FromFrame]; intro E; try discriminate; inversion E; reflexivity. Qed.

(* the PONG answer has neither "result" nor "error": the package's own Decode rejects it *)
Theorem pong_response_not_decodable id fr :
  model_out_decode (FromFrame id (FPong fr)) = OErr EOther.
Proof.
  cbn [FromFrame model_out_decode probe_of_msg]. unfold decode_dispatch. rewrite classify_table.
  destruct id; reflexivity.
Qed.

(* a response for an empty request id is written without "id" and is not decodable either *)
Theorem empty_id_response_not_decodable f m : is_response_frame f = true -> FromFrame [] f = Some m ->
  model_out_decode (Some m) = OErr EOther.
Proof.
  destruct f; cbn [is_response_frame FromFrame]; intros R E; try discriminate; inversion E; reflexivity.
Qed.

(* a DISCONNECT frame comes out as a notification, which Decode accepts and ToFrame refuses *)
Theorem disconnect_echo_refused id fr rc reason :
  exists m, FromFrame id (FDisconnect fr rc reason) = Some m
            /\ model_out_decode (Some m) = OMsg KDisconnectNotification None
            /\ ToFrame m = None.
Proof. eexists. split; [reflexivity|]. split; reflexivity. Qed.

(* fields outside the bridge: ToFrame never sets them *)
Theorem to_frame_untouched m f tok : ToFrame m = Some (f, tok) ->
  match f with
  | FConnect fr _ _ _ _ _ _ _ | FRecvack fr _ _ | FDisconnect fr _ _ | FPing fr =>
    fr_hsv fr = false /\ fr_type fr = 0 /\ fr_remlen fr = 0 /\ fr_size fr = 0%Z
  | FSend fr s _ _ cs _ _ _ _ _ _ =>
    fr_hsv fr = false /\ fr_type fr = 0 /\ fr_remlen fr = 0 /\ fr_size fr = 0%Z /\ cs = 0 /\ N.land s setting_mask = s
  | _ => False
  end.
Proof.
  destruct m; cbn [ToFrame]; intro E; try discriminate; inversion E; subst; cbn; repeat split.
  apply setting_to_proto_masked.
Qed.

Definition wf_op (o : c24_op) : Prop :=
  match o with
  | OpIn _ f _ _ | OpOut _ f _ _ _ => wf_frame f
  | _ => True
  end.

(* over the wire: the client's message of a frame, with a non-empty id when it is a request, is
   decoded as the same kind of message *)
Lemma wire_transparent id f m : msg_of_frame id f = Some m ->
  id <> [] \/ is_request_frame f = false ->
  exists p i, probe_of_msg m = Some p /\ decode_dispatch p (JBits true true) = OMsg (kind_of_msg m) i.
Proof.
  intros E H. destruct f; try discriminate; cbn [msg_of_frame] in E; inversion E; subst; clear E; cbn [is_request_frame] in H.
  (* the four requests (CONNECT, SEND, DISCONNECT, PING) need the non-empty id; RECVACK, third, is a notification *)
  1,2,4,5: destruct H as [H|H]; [|discriminate]; destruct id as [|c r]; [contradiction|].
  all: eexists; eexists; split; reflexivity.
Qed.

Lemma model_in_wire id f wire : id <> [] \/ is_request_frame f = false ->
  model_in id f wire = model_in id f false.
Proof.
  intro H. destruct wire; [|reflexivity]. unfold model_in.
  destruct (msg_of_frame id f) as [m|] eqn:E; [|reflexivity].
  destruct (wire_transparent id f m E H) as (p & i & P & D).
  unfold model_through. rewrite P, D, N.eqb_refl. reflexivity.
Qed.

Theorem mon_model_op o : wf_op o -> mon_op (model_op o) = true.
Proof.
  destruct o as [id f wire res|m wire res|id f msg ws dec|p b dmt out x tok|e]; intro W; cbn [model_op mon_op wf_op] in *.
  - destruct (inbound_supported f) eqn:S; [|reflexivity]. cbn [andb].
    destruct (negb (is_nil id) || negb (is_request_frame f)) eqn:C; [|reflexivity].
    assert (H : id <> [] \/ is_request_frame f = false).
    { destruct id; [right; destruct (is_request_frame f); [discriminate|reflexivity]|left; discriminate]. }
    rewrite (model_in_wire id f wire H).
    destruct (inbound_roundtrip id f W S) as (m & f' & E1 & E2 & E3).
    unfold model_in, model_through. rewrite E1, E2, E3, bytes_eqb_refl. reflexivity.
  - destruct (model_through m wire) as [[f tok]|] eqn:E; [|reflexivity].
    assert (T : ToFrame m = Some (f, tok)).
    { unfold model_through in E. destruct wire; [|exact E].
      destruct (probe_of_msg m); [|discriminate]. destruct (decode_dispatch p (JBits true true)); [discriminate|].
      destruct (kind =? kind_of_msg m); [exact E|discriminate]. }
    rewrite (reqid_preserved_in m f tok T). apply bytes_eqb_refl.
  - destruct (outbound_supported f) eqn:S; [|reflexivity].
    destruct (outbound_faithful id f W S) as (m & f' & E1 & E2 & E3).
    rewrite E1, E2, E3. cbn [andb]. destruct (is_response_frame f); [apply bytes_eqb_refl|reflexivity].
  - cbn [andb]. destruct (decode_dispatch p b) as [e|k i]; [reflexivity|].
    cbn [to_frame_token]. destruct (kind_bridged k); [|destruct i; reflexivity].
    destruct i; [apply bytes_eqb_refl|reflexivity].
  - reflexivity.
Qed.

Theorem model_satisfies_monitor ops : Forall wf_op ops -> C24_monitor (C24Case (map model_op ops)) = 0.
Proof.
  intro W. unfold C24_monitor. cbn [c24_ops].
  induction W as [|o ops Wo _ IH]; [reflexivity|].
  cbn [map forallb]. rewrite (mon_model_op o Wo). exact IH.
Qed.

(* and a case built from the model's observations is never a mismatch *)
Lemma atom_eqb_refl a : atom_eqb a a = true.
Proof. destruct a; cbn [atom_eqb]; auto using N.eqb_refl, Z.eqb_refl, bytes_eqb_refl, Bool.eqb_reflx. Qed.

Lemma res_eqb_refl r : res_eqb r r = true.
Proof.
  destruct r as [[f i]|]; [|reflexivity]. cbn [res_eqb]. unfold frame_eqb.
  rewrite (list_eqb_refl _ atom_eqb_refl), bytes_eqb_refl. reflexivity.
Qed.

Lemma outcome_eqb_refl o : outcome_eqb o o = true.
Proof. destruct o; cbn [outcome_eqb]; rewrite ?N.eqb_refl, ?(option_eqb_refl _ bytes_eqb_refl); reflexivity. Qed.

Lemma msg_eqb_refl m : msg_eqb m m = true.
Proof. apply list_eqb_refl, atom_eqb_refl. Qed.

Lemma sum_eqb_refl s : sum_eqb s s = true.
Proof. destruct s; apply N.eqb_refl. Qed.

Theorem model_no_mismatch ops : C24_mismatch (C24Case (map model_op ops)) = false.
Proof.
  unfold C24_mismatch. cbn [c24_ops]. induction ops as [|o ops IH]; [reflexivity|].
  cbn [map existsb]. rewrite IH, orb_false_r.
  destruct o; cbn [model_op]; unfold op_mismatch;
    rewrite ?res_eqb_refl, ?outcome_eqb_refl, ?(option_eqb_refl _ bytes_eqb_refl),
      ?(option_eqb_refl _ msg_eqb_refl), ?sum_eqb_refl; reflexivity.
Qed.
