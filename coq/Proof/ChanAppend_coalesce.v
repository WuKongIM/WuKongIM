(* Proof/ChanAppend_coalesce.v — newIdempotentAppendBatch (append.go), for ARBITRARY
   payload hash and fingerprint: every item's owner slot holds the item itself or an
   EARLIER item that is the same logical send (collisions never merge different sends).
   Completeness of the map pass is [pass_complete]; of the whole function, [nb_complete]
   in ChanAppend_probe.v (it needs the exactness of the pre-check). *)
From WK Require Import Base.Base Base.Lists Gen.Consts_C29 Model.ChanAppend.
From Coq Require Import Sorted.
Local Open Scope nat_scope.

Lemma sameLogicalSend_eq a b : sameLogicalSend a b = true <-> a = b.
Proof.
  unfold sameLogicalSend. destruct a as [u1 c1 p1], b as [u2 c2 p2]. cbn [c_uid c_cno c_pay].
  rewrite !andb_true_iff, !bytes_eqb_eq. split.
  - intros [[E1 E2] E3]. subst. reflexivity.
  - intro E. inversion E. auto.
Qed.

Lemma sameLogicalSend_refl a : sameLogicalSend a a = true.
Proof. apply sameLogicalSend_eq. reflexivity. Qed.

Lemma ikey_eqb_eq (a b : ikey) : ikey_eqb a b = true <-> a = b.
Proof.
  unfold ikey_eqb. destruct a as [[u1 c1] h1], b as [[u2 c2] h2]. cbn [fst snd].
  rewrite !andb_true_iff, !bytes_eqb_eq, N.eqb_eq. split.
  - intros [[E1 E2] E3]. subst. reflexivity.
  - intro E. inversion E. auto.
Qed.

Lemma seen_get_cons k k' v s :
  seen_get k ((k', v) :: s) = if ikey_eqb k k' then Some v else seen_get k s.
Proof. reflexivity. Qed.

Lemma seen_get_cons_eq k v s : seen_get k ((k, v) :: s) = Some v.
Proof. rewrite seen_get_cons. replace (ikey_eqb k k) with true; [reflexivity|]. symmetry. apply ikey_eqb_eq. reflexivity. Qed.

Lemma seen_get_cons_neq k k' v s : k <> k' -> seen_get k ((k', v) :: s) = seen_get k s.
Proof.
  intro N. rewrite seen_get_cons. destruct (ikey_eqb k k') eqn:E; [|reflexivity].
  apply ikey_eqb_eq in E. contradiction.
Qed.

Definition cmdat (items : list psend) (i : nat) : cmd := ps_cmd (nth i items dflt_psend).

Lemma map_nth_seq (items : list psend) k :
  k <= length items -> map (fun p => nth p items dflt_psend) (seq 0 k) = firstn k items.
Proof.
  revert items. induction k as [|k IH]; intros items H; [reflexivity|].
  destruct items as [|x items]; [cbn in H; lia|].
  cbn [seq map firstn nth]. f_equal. rewrite <- seq_shift, map_map. cbn [nth].
  apply IH. cbn in H. lia.
Qed.

Lemma nth_error_seq0 k q p : nth_error (seq 0 k) q = Some p -> p = q /\ q < k.
Proof.
  intro H. assert (Hq : q < length (seq 0 k)) by (apply nth_error_Some; congruence).
  rewrite seq_length in Hq. rewrite (nth_error_nth' _ 0) in H by (rewrite seq_length; exact Hq).
  rewrite seq_nth in H by exact Hq. inversion H. lia.
Qed.

Lemma nth_error_seq0_some k q : q < k -> nth_error (seq 0 k) q = Some q.
Proof.
  intro H. rewrite (nth_error_nth' _ 0) by (rewrite seq_length; exact H). rewrite seq_nth by exact H. reflexivity.
Qed.

Lemma sorted_seq0 k : StronglySorted lt (seq 0 k).
Proof.
  generalize 0. induction k as [|k IH]; intro a; cbn [seq]; constructor; [apply IH|].
  apply Forall_forall. intros x Hx. apply in_seq in Hx. lia.
Qed.

(* one step of a left-to-right pass over [all], [it :: rest] being what is left at position k *)
Lemma skipn_step {A} (d : A) : forall (all : list A) k it rest,
  it :: rest = skipn k all ->
  it = nth k all d /\ rest = skipn (S k) all /\ firstn (S k) all = firstn k all ++ [it].
Proof.
  induction all as [|x l IH]; intros k it rest H; [destruct k; discriminate|].
  destruct k as [|k]; cbn [skipn nth firstn] in *.
  - inversion H; subst. auto.
  - destruct (IH k it rest H) as [E1 [E2 E3]]. rewrite E3. auto.
Qed.

Lemma set_nth_length {A} n (x : A) l : length (set_nth n x l) = length l.
Proof. revert n. induction l as [|y l IH]; intro n; destruct n; cbn [set_nth length]; auto. Qed.

Lemma nth_error_snoc_eq {A} (l : list A) x : nth_error (l ++ [x]) (length l) = Some x.
Proof. rewrite nth_error_app2 by lia. rewrite Nat.sub_diag. reflexivity. Qed.

Lemma nth_error_snoc_inv {A} (l : list A) x q p :
  nth_error (l ++ [x]) q = Some p -> (q < length l /\ nth_error l q = Some p) \/ (q = length l /\ p = x).
Proof.
  intro H. destruct (Nat.lt_ge_cases q (length l)) as [L|L].
  - left. split; [exact L|]. rewrite nth_error_app1 in H by exact L. exact H.
  - right. rewrite nth_error_app2 in H by exact L.
    destruct (q - length l) as [|d] eqn:E; cbn in H.
    + inversion H. split; [lia|reflexivity].
    + destruct d; discriminate.
Qed.

(* ownerByItem[i]; the identity on the nil fast path *)
Definition owner_of (b : ibatch) (i : nat) : nat :=
  match ib_owners b with Some ow => nth i ow 0 | None => i end.

(* [pos] lists, slot by slot, the position (in [items]) of the unique item the slot holds *)
Record coalesced (items : list psend) (b : ibatch) (pos : list nat) : Prop := {
  cz_sorted : StronglySorted lt pos;
  cz_bound : Forall (fun p => p < length items) pos;
  cz_items : ib_items b = map (fun p => nth p items dflt_psend) pos;
  cz_owners : forall ow, ib_owners b = Some ow -> length ow = length items /\ ib_original b = items;
  cz_none : ib_owners b = None -> pos = seq 0 (length items);
  cz_slot : forall q p, nth_error pos q = Some p -> owner_of b p = q;
  cz_owner : forall i, i < length items ->
     exists p, nth_error pos (owner_of b i) = Some p /\ p <= i /\
       (p = i \/ (keyed (cmdat items i) = true /\ sameLogicalSend (cmdat items p) (cmdat items i) = true)) }.

Lemma coalesced_trivial items : coalesced items (nb_trivial items) (seq 0 (length items)).
Proof.
  constructor; cbn [nb_trivial ib_items ib_owners ib_original].
  - apply sorted_seq0.
  - apply Forall_forall. intros x Hx. apply in_seq in Hx. lia.
  - rewrite map_nth_seq by lia. rewrite firstn_all. reflexivity.
  - intros ow H. discriminate.
  - reflexivity.
  - intros q p H. apply nth_error_seq0 in H. unfold owner_of. cbn. lia.
  - intros i Hi. exists i. unfold owner_of. cbn [ib_owners nb_trivial].
    split; [apply nth_error_seq0_some; exact Hi|]. split; [lia|left; reflexivity].
Qed.

Section Pass.
  Variable hashf : bytes -> N.
  Variable all : list psend.

  Definition key_of (c : cmd) : ikey := (c_uid c, c_cno c, hashf (c_pay c)).

  (* After k items the pass stands for owners [ow] (one per item) and the positions
     [pos] of the unique items (one per slot).  The Go code keeps them lazily: while
     no duplicate was found (nil ownerByItem) the batch is the input itself, which
     is the case ow = pos = 0..k-1. *)
  Definition rep (b : ibatch) (k : nat) (ow pos : list nat) : Prop :=
    match ib_owners b with
    | None => b = nb_trivial all /\ ow = seq 0 k /\ pos = seq 0 k
    | Some ow' => ow' = ow /\ ib_original b = all /\ ib_items b = map (fun p => nth p all dflt_psend) pos
    end.

  (* [seen] maps a key to the first slot recorded under it *)
  Record PassInv (k : nat) (seen : list (ikey * nat)) (ow pos : list nat) : Prop := {
    iv_len : length ow = k;
    iv_sorted : StronglySorted lt pos;
    iv_bound : Forall (fun p => p < k) pos;
    iv_slot : forall q p, nth_error pos q = Some p -> nth p ow 0 = q;
    iv_owner : forall i, i < k ->
       exists p, nth_error pos (nth i ow 0) = Some p /\ p <= i /\
         (p = i \/ (keyed (cmdat all i) = true /\ sameLogicalSend (cmdat all p) (cmdat all i) = true));
    iv_sound : forall key o, seen_get key seen = Some o ->
       exists p, nth_error pos o = Some p /\ keyed (cmdat all p) = true /\ key_of (cmdat all p) = key;
    iv_first : forall q p, nth_error pos q = Some p -> keyed (cmdat all p) = true ->
       exists o, seen_get (key_of (cmdat all p)) seen = Some o /\ o <= q /\
         (o = q \/ exists p0, nth_error pos o = Some p0 /\ sameLogicalSend (cmdat all p0) (cmdat all p) = false) }.

  Lemma pos_lt k seen ow pos : PassInv k seen ow pos -> forall q p, nth_error pos q = Some p -> p < k.
  Proof. intros I q p H. pose proof (iv_bound _ _ _ _ I) as B. rewrite Forall_forall in B. apply B. eapply nth_error_In; eauto. Qed.

  (* item k becomes the unique item of the new slot [length pos] *)
  Definition seen_step (k : nat) (pos : list nat) (seen seen' : list (ikey * nat)) : Prop :=
    (forall key o, seen_get key seen' = Some o ->
        (o = length pos /\ keyed (cmdat all k) = true /\ key_of (cmdat all k) = key) \/ seen_get key seen = Some o)
    /\ (forall key o, seen_get key seen = Some o -> seen_get key seen' = Some o)
    /\ (keyed (cmdat all k) = true ->
         seen_get (key_of (cmdat all k)) seen' = Some (length pos) \/
         exists o p0, seen_get (key_of (cmdat all k)) seen' = Some o /\ nth_error pos o = Some p0 /\
                      sameLogicalSend (cmdat all p0) (cmdat all k) = false).

  Lemma push_inv k seen ow pos seen' :
    PassInv k seen ow pos -> seen_step k pos seen seen' ->
    PassInv (S k) seen' (ow ++ [length pos]) (pos ++ [k]).
  Proof.
    intros I [Hnew [Hold Hfirst]]. pose proof (pos_lt _ _ _ _ I) as Hlt.
    destruct I as [Hlen Hsorted Hbound Hslot Howner Hsound Hfst]. constructor.
    - rewrite app_length. cbn. lia.
    - apply sorted_snoc; [exact Hsorted|apply Forall_forall; exact Hbound].
    - apply Forall_app. split.
      + eapply Forall_impl; [|exact Hbound]. intros a Ha. cbn in Ha. lia.
      + constructor; [lia|constructor].
    - intros q p Hq. apply nth_error_snoc_inv in Hq. destruct Hq as [[Hq1 Hq2]|[Hq1 Hq2]].
      + pose proof (Hlt _ _ Hq2). rewrite app_nth1 by lia. apply Hslot. exact Hq2.
      + subst q p. rewrite <- Hlen. apply nth_middle.
    - intros i Hi. destruct (Nat.eq_dec i k) as [E|E].
      + subst i. exists k.
        assert (En : nth k (ow ++ [length pos]) 0 = length pos) by (rewrite <- Hlen; apply nth_middle).
        rewrite En, nth_error_snoc_eq.
        split; [reflexivity|]. split; [lia|left; reflexivity].
      + assert (Hi' : i < k) by lia. destruct (Howner i Hi') as [p [P1 [P2 P3]]].
        exists p. rewrite app_nth1 by lia. split; [|split; assumption].
        rewrite nth_error_app1; [exact P1|]. apply nth_error_Some. congruence.
    - intros key o Ho. destruct (Hnew key o Ho) as [[E1 [E2 E3]]|E].
      + subst o. exists k. split; [apply nth_error_snoc_eq|]. split; assumption.
      + destruct (Hsound key o E) as [p [P1 [P2 P3]]]. exists p. split; [|split; assumption].
        rewrite nth_error_app1; [exact P1|]. apply nth_error_Some. congruence.
    - intros q p Hq Hkeyed. apply nth_error_snoc_inv in Hq. destruct Hq as [[Hq1 Hq2]|[Hq1 Hq2]].
      + destruct (Hfst q p Hq2 Hkeyed) as [o [O1 [O2 O3]]].
        exists o. split; [apply Hold; exact O1|]. split; [exact O2|].
        destruct O3 as [O3|[p0 [O3 O4]]]; [left; exact O3|right].
        exists p0. split; [|exact O4]. rewrite nth_error_app1; [exact O3|]. apply nth_error_Some. congruence.
      + subst q p. destruct (Hfirst Hkeyed) as [F|[o [p0 [F1 [F2 F3]]]]].
        * exists (length pos). split; [exact F|]. split; [lia|left; reflexivity].
        * exists o. split; [exact F1|].
          assert (Ho : o < length pos) by (apply nth_error_Some; congruence).
          split; [lia|right]. exists p0. split; [|exact F3].
          rewrite nth_error_app1; [exact F2|exact Ho].
  Qed.

  Lemma merge_inv k seen ow pos o p0 :
    PassInv k seen ow pos ->
    nth_error pos o = Some p0 -> keyed (cmdat all k) = true ->
    sameLogicalSend (cmdat all p0) (cmdat all k) = true ->
    PassInv (S k) seen (ow ++ [o]) pos.
  Proof.
    intros I Ho Hkeyed Hsame. pose proof (pos_lt _ _ _ _ I) as Hlt.
    destruct I as [Hlen Hsorted Hbound Hslot Howner Hsound Hfst]. constructor; auto.
    - rewrite app_length. cbn. lia.
    - eapply Forall_impl; [|exact Hbound]. intros a Ha. cbn in Ha. lia.
    - intros q p Hq. pose proof (Hlt _ _ Hq). rewrite app_nth1 by lia. apply Hslot. exact Hq.
    - intros i Hi. destruct (Nat.eq_dec i k) as [E|E].
      + subst i. exists p0.
        assert (En : nth k (ow ++ [o]) 0 = o) by (rewrite <- Hlen; apply nth_middle).
        rewrite En. pose proof (Hlt _ _ Ho).
        split; [exact Ho|]. split; [lia|right; split; assumption].
      + assert (Hi' : i < k) by lia. destruct (Howner i Hi') as [p [P1 [P2 P3]]].
        exists p. rewrite app_nth1 by lia. split; [exact P1|split; assumption].
  Qed.

  Lemma rep_item b k ow pos o p :
    rep b k ow pos -> nth_error pos o = Some p -> nth o (ib_items b) dflt_psend = nth p all dflt_psend.
  Proof.
    unfold rep. destruct (ib_owners b); intros R Hp.
    - destruct R as [_ [_ R]]. rewrite R.
      assert (Ho : o < length pos) by (apply nth_error_Some; congruence).
      rewrite (nth_indep _ _ (nth 0 all dflt_psend)) by (rewrite map_length; exact Ho).
      change (nth 0 all dflt_psend) with ((fun p => nth p all dflt_psend) 0).
      rewrite map_nth. f_equal. exact (nth_error_nth _ _ 0 Hp).
    - destruct R as [R1 [_ R3]]. subst b pos. apply nth_error_seq0 in Hp. destruct Hp as [-> _]. reflexivity.
  Qed.

  Lemma rep_push b k ow pos :
    rep b k ow pos -> rep (nb_push b (nth k all dflt_psend)) (S k) (ow ++ [length pos]) (pos ++ [k]).
  Proof.
    unfold rep, nb_push. destruct (ib_owners b) eqn:O; cbn [ib_owners ib_original ib_items]; [|rewrite O].
    - intros [R1 [R2 R3]]. rewrite R3, map_length, map_app, R1. auto.
    - intros [R1 [R2 R3]]. subst ow pos. rewrite seq_length, seq_S. auto.
  Qed.

  (* recording a new key: eagerly the slot is the number of unique items, lazily the index *)
  Lemma rep_record b k ow pos (key : ikey) seen :
    rep b k ow pos ->
    match ib_owners b with
    | None => (b, (key, k) :: seen)
    | Some _ => (nb_push b (nth k all dflt_psend), (key, length (ib_items b)) :: seen)
    end = (nb_push b (nth k all dflt_psend), (key, length pos) :: seen).
  Proof.
    unfold rep, nb_push. destruct (ib_owners b); intros [R1 [R2 R3]].
    - rewrite R3, map_length. reflexivity.
    - subst pos. rewrite seq_length. reflexivity.
  Qed.

  (* the first duplicate switches to the eager representation *)
  Lemma rep_merge b k ow pos o :
    rep b k ow pos -> k <= length all ->
    rep (match ib_owners b with
         | None => IB (firstn k all) all (Some (seq 0 k ++ [o]))
         | Some ow' => IB (ib_items b) (ib_original b) (Some (ow' ++ [o]))
         end) (S k) (ow ++ [o]) pos.
  Proof.
    unfold rep. destruct (ib_owners b); cbn [ib_owners ib_original ib_items]; intros [R1 [R2 R3]] Hk.
    - subst. auto.
    - subst ow pos. rewrite map_nth_seq by exact Hk. auto.
  Qed.

  Lemma step_inv k b seen ow pos :
    PassInv k seen ow pos -> rep b k ow pos -> k < length all ->
    let st' := nb_step hashf all k (nth k all dflt_psend) (b, seen) in
    exists ow' pos', PassInv (S k) (snd st') ow' pos' /\ rep (fst st') (S k) ow' pos'.
  Proof.
    intros I R Hk. unfold nb_step. fold (cmdat all k).
    assert (Hpush : forall seen', seen_step k pos seen seen' ->
      exists ow' pos', PassInv (S k) seen' ow' pos' /\ rep (nb_push b (nth k all dflt_psend)) (S k) ow' pos').
    { intros seen' Hs. exists (ow ++ [length pos]), (pos ++ [k]).
      split; [apply (push_inv k seen); assumption|apply rep_push; exact R]. }
    destruct (keyed (cmdat all k)) eqn:Kd; cbn [negb fst snd].
    2:{ apply Hpush. split; [auto|]. split; [auto|intro K; congruence]. }
    change (c_uid (cmdat all k), c_cno (cmdat all k), hashf (c_pay (cmdat all k))) with (key_of (cmdat all k)).
    destruct (seen_get (key_of (cmdat all k)) seen) as [owner|] eqn:G.
    - destruct (iv_sound _ _ _ _ I _ _ G) as [p0 [P1 [P2 P3]]].
      rewrite (rep_item _ _ _ _ _ _ R P1). fold (cmdat all p0).
      destruct (sameLogicalSend (cmdat all p0) (cmdat all k)) eqn:S.
      + exists (ow ++ [owner]), pos. split.
        * destruct (ib_owners b); apply (merge_inv k seen ow pos owner p0 I P1 Kd S).
        * pose proof (rep_merge b k ow pos owner R ltac:(lia)) as R'. destruct (ib_owners b); exact R'.
      + apply Hpush. split; [auto|]. split; [auto|]. intros _. right. exists owner, p0. auto.
    - rewrite (rep_record _ _ _ _ _ _ R). cbn [fst snd]. apply Hpush. split; [|split].
      + intros key o Ho. rewrite seen_get_cons in Ho. destruct (ikey_eqb key (key_of (cmdat all k))) eqn:E.
        * apply ikey_eqb_eq in E. inversion Ho; subst. left. auto.
        * right. exact Ho.
      + intros key o Ho. rewrite seen_get_cons_neq; [exact Ho|]. intro E. subst key. congruence.
      + intros _. left. apply seen_get_cons_eq.
  Qed.

  Lemma loop_inv : forall rest k b seen ow pos,
    k + length rest = length all -> rest = skipn k all ->
    PassInv k seen ow pos -> rep b k ow pos ->
    let st' := nb_loop hashf all k rest (b, seen) in
    exists ow' pos', PassInv (length all) (snd st') ow' pos' /\ rep (fst st') (length all) ow' pos'.
  Proof.
    induction rest as [|it rest IH]; intros k b seen ow pos Hlen Hrest I R; cbn [nb_loop].
    - cbn in Hlen. replace (length all) with k by lia. eauto.
    - cbn [length] in Hlen.
      destruct (skipn_step dflt_psend _ _ _ _ Hrest) as [E1 [E2 _]]. subst it.
      destruct (step_inv k b seen ow pos I R ltac:(lia)) as [ow' [pos' [I' R']]].
      destruct (nb_step hashf all k (nth k all dflt_psend) (b, seen)) as [b' seen'].
      apply (IH (S k) b' seen' ow' pos'); [lia|exact E2|exact I'|exact R'].
  Qed.

  Lemma pass_inv :
    let st := nb_loop hashf all 0 all (nb_trivial all, []) in
    exists ow pos, PassInv (length all) (snd st) ow pos /\ rep (fst st) (length all) ow pos.
  Proof.
    apply (loop_inv all 0 (nb_trivial all) [] [] []); [reflexivity|reflexivity| |cbn; auto].
    constructor; [reflexivity|constructor|constructor|intros [|q] p H; discriminate|intros i Hi; lia
                 |intros key o H; discriminate|intros [|q] p H; discriminate].
  Qed.

  Lemma rep_owner b ow pos : rep b (length all) ow pos -> forall i, i < length all -> owner_of b i = nth i ow 0.
  Proof.
    unfold rep, owner_of. destruct (ib_owners b); intros [R1 [R2 _]] i Hi; subst; [reflexivity|].
    rewrite seq_nth by exact Hi. reflexivity.
  Qed.

  Lemma inv_coalesced b seen ow pos :
    PassInv (length all) seen ow pos -> rep b (length all) ow pos -> coalesced all b pos.
  Proof.
    intros I R. pose proof (rep_owner _ _ _ R) as Ho. constructor.
    - exact (iv_sorted _ _ _ _ I).
    - exact (iv_bound _ _ _ _ I).
    - unfold rep in R. destruct (ib_owners b); [tauto|]. destruct R as [-> [_ ->]].
      rewrite map_nth_seq, firstn_all by lia. reflexivity.
    - intros ow' E. unfold rep in R. rewrite E in R. destruct R as [-> [R _]]. split; [exact (iv_len _ _ _ _ I)|exact R].
    - intro E. unfold rep in R. rewrite E in R. tauto.
    - intros q p Hq. rewrite Ho by exact (pos_lt _ _ _ _ I _ _ Hq). exact (iv_slot _ _ _ _ I _ _ Hq).
    - intros i Hi. rewrite Ho by exact Hi. exact (iv_owner _ _ _ _ I i Hi).
  Qed.

  Lemma pass_coalesced :
    exists pos, coalesced all (fst (nb_loop hashf all 0 all (nb_trivial all, []))) pos.
  Proof. destruct pass_inv as [ow [pos [I R]]]. exists pos. exact (inv_coalesced _ _ _ _ I R). Qed.


  Definition hash_separates : Prop :=
    forall i j, i < length all -> j < length all ->
      c_uid (cmdat all i) = c_uid (cmdat all j) -> c_cno (cmdat all i) = c_cno (cmdat all j) ->
      hashf (c_pay (cmdat all i)) = hashf (c_pay (cmdat all j)) ->
      c_pay (cmdat all i) = c_pay (cmdat all j).

  Lemma key_eq_cmd i j :
    hash_separates -> i < length all -> j < length all ->
    key_of (cmdat all i) = key_of (cmdat all j) -> cmdat all i = cmdat all j.
  Proof.
    intros HS Hi Hj E. unfold key_of in E. inversion E as [[E1 E2 E3]].
    pose proof (HS i j Hi Hj E1 E2 E3) as E4.
    destruct (cmdat all i), (cmdat all j). cbn in *. congruence.
  Qed.

  (* the slot of a keyed item is the first slot recorded under the item's key *)
  Lemma owner_is_seen seen ow pos x :
    hash_separates -> PassInv (length all) seen ow pos -> x < length all -> keyed (cmdat all x) = true ->
    seen_get (key_of (cmdat all x)) seen = Some (nth x ow 0).
  Proof.
    intros HS I Hx Kx. destruct (iv_owner _ _ _ _ I x Hx) as [p [P1 [P2 P3]]].
    assert (Ep : cmdat all p = cmdat all x).
    { destruct P3 as [P3|[_ P3]]; [subst; reflexivity|apply sameLogicalSend_eq; exact P3]. }
    assert (Kp : keyed (cmdat all p) = true) by (rewrite Ep; exact Kx).
    destruct (iv_first _ _ _ _ I _ _ P1 Kp) as [o [O1 [O2 O3]]].
    rewrite Ep in O1. rewrite O1. f_equal.
    destruct O3 as [O3|[p0 [O3 O4]]]; [exact O3|]. exfalso.
    destruct (iv_sound _ _ _ _ I _ _ O1) as [p0' [Q1 [Q2 Q3]]].
    rewrite O3 in Q1. inversion Q1; subst p0'.
    assert (E0 : cmdat all p0 = cmdat all x) by (apply key_eq_cmd; auto; exact (pos_lt _ _ _ _ I _ _ O3)).
    rewrite Ep, E0, sameLogicalSend_refl in O4. discriminate.
  Qed.

  Lemma pass_complete :
    hash_separates ->
    forall i j, i < j -> j < length all -> keyed (cmdat all i) = true -> cmdat all i = cmdat all j ->
    let b := fst (nb_loop hashf all 0 all (nb_trivial all, [])) in
    owner_of b i = owner_of b j.
  Proof.
    intros HS i j Hij Hj Ki E b. destruct pass_inv as [ow [pos [I R]]]. fold b in R.
    rewrite !(rep_owner _ _ _ R) by lia.
    pose proof (owner_is_seen _ _ _ i HS I ltac:(lia) Ki) as S1.
    pose proof (owner_is_seen _ _ _ j HS I Hj ltac:(rewrite <- E; exact Ki)) as S2.
    rewrite E in S1. rewrite S1 in S2. inversion S2. reflexivity.
  Qed.
End Pass.

Theorem nb_coalesced : forall hashf fp items,
  exists pos, coalesced items (newIdempotentAppendBatch hashf fp items) pos.
Proof.
  intros hashf fp items. unfold newIdempotentAppendBatch.
  destruct (length items <? 2).
  { exists (seq 0 (length items)). apply coalesced_trivial. }
  destruct ((N.of_nat (length items) <=? c29_stack_item_limit)%N
            && match hasCoalescibleIdempotentItems fp items with Some false => true | _ => false end).
  { exists (seq 0 (length items)). apply coalesced_trivial. }
  apply pass_coalesced.
Qed.

Theorem nb_sound : forall hashf fp items i j,
  i < j -> j < length items ->
  let b := newIdempotentAppendBatch hashf fp items in
  owner_of b i = owner_of b j ->
  cmdat items i = cmdat items j /\ keyed (cmdat items i) = true /\ keyed (cmdat items j) = true.
Proof.
  intros hashf fp items i j Hij Hj b Ho.
  destruct (nb_coalesced hashf fp items) as [pos C]. fold b in C.
  destruct (cz_owner _ _ _ C i ltac:(lia)) as [p [P1 [P2 P3]]].
  destruct (cz_owner _ _ _ C j Hj) as [p' [Q1 [Q2 Q3]]].
  rewrite Ho in P1. rewrite P1 in Q1. inversion Q1; subst p'.
  destruct Q3 as [Q3|[Q3 Q4]]; [lia|].
  apply sameLogicalSend_eq in Q4.
  destruct P3 as [P3|[P3 P4]].
  - subst p. rewrite Q4. auto.
  - apply sameLogicalSend_eq in P4. rewrite <- P4, Q4. split; [reflexivity|]. split; [|exact Q3]. rewrite <- Q4, P4. exact P3.
Qed.
