(* Proof/Cluster_C02.v — C02 witnesses and bounded checks; the unbounded per-replica invariants are in
   Proof/ReplicaLog_WF.v and Proof/Cluster_WF.v. *)
From WK Require Import Base.Base.
From WK Require Import Model.ReplicaLog Model.QuorumLog Model.Cluster Model.Monitor_C02.
From WK Require Import Proof.ReplicaLog Proof.ReplicaLog_WF Proof.Cluster_WF Proof.Sweep.
Open Scope N_scope.

Definition k1_cfg : qconfig := QCfg SMem 3 2 2 3 65536 0.
Definition k1_r1 : record := Rec (TUser 1) 1 1 11 1 false 1.
Definition k1_r2 : record := Rec (TUser 2) 1 2 22 1 false 1.
Definition k1_r3 : record := Rec (TUser 3) 1 3 33 1 false 1.

(* the F1 history extended by the deposed leader's standalone checkpoint of the acknowledged
   watermark (reactor TaskStoreCheckpoint after Receipt.HW = 1) and two commits of the new leader:
   node 1 then considers offset 1 committed with the old entry, nodes 2 and 3 with the new one *)
Definition k1_ops : list qop :=
  [ OInstall 1 (1, 1, 1) false 2 no_faults; ODown 3;
    OCommit 1 (1, 1, 1) (TUser 1) [k1_r1] false no_faults; OCheckpoint 1 1; ODown 1; OUp 3;
    OInstall 2 (1, 2, 2) false 2 no_faults;
    OCommit 2 (1, 2, 2) (TUser 2) [k1_r2] false no_faults;
    OCommit 2 (1, 2, 2) (TUser 3) [k1_r3] false no_faults ].

Definition committed_entry (c : cluster) (v idx : N) : option ident :=
  let rp := net_rep (cl_net c) v in if idx <=? rp_hw rp then ent_at rp idx else None.

Lemma k1_checkpointed_entry_replaced :
  let c := snd (run_model k1_cfg (cluster_init k1_cfg) k1_ops) in
  fst (run_model k1_cfg (cluster_init k1_cfg) k1_ops) =
    [ RInstalled (1, 1, 1) 0 0; RNone; RReceipt (1, 1, 1) (TUser 1) 1 1 1; RBool true; RNone; RNone;
      RInstalled (1, 2, 2) 0 0; RReceipt (1, 2, 2) (TUser 2) 1 1 1; RReceipt (1, 2, 2) (TUser 3) 2 2 2 ] /\
  option_map i_cmd (committed_entry c 1 1) = Some (TUser 1) /\
  option_map i_cmd (committed_entry c 2 1) = Some (TUser 2) /\
  C02_monitor (model_case k1_cfg k1_ops) = 2.
Proof. repeat split; vm_compute; reflexivity. Qed.

(* the checkpoints of that history stay within the log of their node *)
Lemma k1_ops_bounded : run_bounded k1_cfg (cluster_init k1_cfg) k1_ops.
Proof. cbn [run_bounded k1_ops]. repeat split; vm_compute; discriminate. Qed.

(* ---- the C01-K2 history extended in the same way (C02-K2) -------------------------------------------------

   leader 3 writes X at 1 locally only; leader 1 (1,2,2) commits Y at 1 on {1,2} and checkpoints watermark 1;
   (1,3,3) is installed on node 2 with node 1's identity-page reply lost: node 2 truncates Y (C01-K2); node 1
   goes down, (1,4,4) is installed on node 3 (quorum LEO 0: node 3 drops X), which commits twice on {3,2}:
   node 1 considers offset 1 committed with Y, nodes 2 and 3 with the new entry *)
Definition k1_r4 : record := Rec (TUser 4) 1 4 44 1 false 1.
Definition k2_ops : list qop :=
  [ OInstall 3 (1, 1, 1) false 2 no_faults;
    OCommit 3 (1, 1, 1) (TUser 1) [k1_r1] false (Flt [] [1; 2] None []);
    OInstall 1 (1, 2, 2) false 2 no_faults;
    OCommit 1 (1, 2, 2) (TUser 2) [k1_r2] false no_faults; OCheckpoint 1 1;
    OInstall 2 (1, 3, 3) false 2 (Flt [] [] None [1]);
    ODown 1; OInstall 3 (1, 4, 4) false 2 no_faults;
    OCommit 3 (1, 4, 4) (TUser 3) [k1_r3] false no_faults;
    OCommit 3 (1, 4, 4) (TUser 4) [k1_r4] false no_faults ].

Lemma k2_checkpointed_entry_replaced :
  let c := snd (run_model k1_cfg (cluster_init k1_cfg) k2_ops) in
  fst (run_model k1_cfg (cluster_init k1_cfg) k2_ops) =
    [ RInstalled (1, 1, 1) 0 0; RErr EQuorumUnavailable; RInstalled (1, 2, 2) 0 0;
      RReceipt (1, 2, 2) (TUser 2) 1 1 1; RBool true; RInstalled (1, 3, 3) 0 0; RNone;
      RInstalled (1, 4, 4) 0 0; RReceipt (1, 4, 4) (TUser 3) 1 1 1; RReceipt (1, 4, 4) (TUser 4) 2 2 2 ] /\
  option_map i_cmd (committed_entry c 1 1) = Some (TUser 2) /\
  option_map i_cmd (committed_entry c 2 1) = Some (TUser 3) /\
  option_map i_cmd (committed_entry c 3 1) = Some (TUser 3) /\
  C02_monitor (model_case k1_cfg k2_ops) = 3.
Proof. repeat split; vm_compute; reflexivity. Qed.

Lemma k2_ops_bounded : run_bounded k1_cfg (cluster_init k1_cfg) k2_ops.
Proof. cbn [run_bounded k2_ops]. repeat split; vm_compute; discriminate. Qed.

(* ---- bounded exhaustive checks ------------------------------------------------------------------------------ *)

Fixpoint schedules02 (alphabet : list qop) (len : nat) : list (list qop) :=
  match len with
  | O => [[]]
  | S k => [] :: flat_map (fun s => map (fun op => op :: s) alphabet) (schedules02 alphabet k)
  end.

Definition c02_alphabet (ck : bool) : list qop :=
  [ OCommit 1 (1, 1, 1) (TUser 1) [k1_r1] false (Flt [] [3] None []);
    OCommit 1 (1, 1, 1) (TUser 2) [k1_r2] false no_faults;
    ODown 1; OUp 1; ODown 3; OUp 3;
    OInstall 2 (1, 2, 2) false 2 no_faults;
    OCommit 2 (1, 2, 2) (TUser 3) [k1_r3] false no_faults;
    ORepair 2 3 1 2 ] ++ (if ck then [OCheckpoint 1 1] else []).

Definition c02_codes_in (allowed : list N) (alphabet : list qop) (len : nat) : bool :=
  forallb (fun s => existsb (N.eqb (C02_monitor (model_case k1_cfg (OInstall 1 (1, 1, 1) false 2 no_faults :: s)))) allowed)
          (schedules02 alphabet len).

Lemma c02_bounded_no_checkpoint : c02_codes_in [0] (c02_alphabet false) 4 = true.
Proof. apply (sweep_sound k1_cfg (codes_in C02_monitor [0]) [_] _ (schedules02 _) eq_refl (fun _ => eq_refl)). vm_compute. reflexivity. Qed.

Lemma c02_bounded_with_checkpoint : c02_codes_in [0; 2] (c02_alphabet true) 4 = true.
Proof. apply (sweep_sound k1_cfg (codes_in C02_monitor [0; 2]) [_] _ (schedules02 _) eq_refl (fun _ => eq_refl)). vm_compute. reflexivity. Qed.
