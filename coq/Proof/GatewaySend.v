(* Proof/GatewaySend.v — what follows from the invariants Acct (accounting), Order / Strict
   (per-session order, SENDACKs), Wire / Fence / Done (stamped history): the monitor accepts
   the history of every state that satisfies them, and facts about drain callers. *)
From Coq Require Import Sorting.Sorted.
From WK Require Import Base.Base Model.GatewaySend Proof.GatewaySend_lib Proof.GatewaySend_split
  Proof.GatewaySend_acct Proof.GatewaySend_order Proof.GatewaySend_ack Proof.GatewaySend_log.
Open Scope N_scope.

(* a state in which no thread of the pipeline has a step left *)
Definition quiescent (st : state) : Prop :=
  (forall s, spcs st s = SIdle) /\ (forall k, wpcs st k = WIdle).

Lemma quiescent_mbox c st k : Acct c st -> quiescent st -> mbox st k = [].
Proof.
  intros A [_ Hw]. destruct (mbox st k) eqn:E; [reflexivity|].
  destruct (a_sched c st A k); [rewrite E; discriminate | apply Hw].
Qed.

Lemma quiescent_pipe c st k : Acct c st -> quiescent st -> pipe st k = [].
Proof. intros A Q. unfold pipe. rewrite (quiescent_mbox c st k A Q), (proj2 Q k). reflexivity. Qed.

Lemma quiescent_admitted c st : Acct c st -> quiescent st -> admitted st = 0.
Proof.
  intros A Q. rewrite (a_adm c st A), !sumf_all_zero; [reflexivity| |].
  - intro k. unfold wload. rewrite (quiescent_mbox c st k A Q), (proj2 Q k). reflexivity.
  - intro s. rewrite (proj1 Q s). reflexivity.
Qed.

Lemma quiescent_accq c st s :
  Acct c st -> Order c st -> quiescent st -> accq (sends st) s = finq (disps st) s.
Proof. intros A O Q. rewrite (o_acc c st O s), (quiescent_pipe c st _ A Q). apply app_nil_r. Qed.

Lemma ok_acks_inv c st s :
  Order c st -> (c_closeonerr c = true -> Strict st) -> ok_acks (c_closeonerr c) (hist_of st) s = true.
Proof.
  intros O S. unfold ok_acks, hist_of. cbn [h_wire h_sends].
  destruct (c_closeonerr c).
  - destruct (acks_prefix c st s O (S eq_refl)) as [r ->]. apply prefixb_app.
  - apply (acks_subseq c), O.
Qed.

Lemma ok_fifo_inv b st s : Wire b st -> ok_fifo (hist_of st) s = true.
Proof.
  intro W. unfold ok_fifo, wire_of, hist_of. cbn [h_wire]. apply incrb_sorted, sorted_filter, (w_sorted _ _ W).
Qed.

Lemma ok_issue_inv b st i : Wire b st -> In i (issues st) -> ok_issue (hist_of st) i = true.
Proof.
  intros W Hi. unfold ok_issue, hist_of. cbn [h_wire].
  pose proof (w_issue_ok _ _ W i Hi) as H. unfold issue_count in H. rewrite H.
  destruct (hi_ok i); reflexivity.
Qed.

Lemma ok_wire_entry_inv b st e : Wire b st -> In e (wire st) -> ok_wire_entry (hist_of st) e = true.
Proof.
  intros W He. unfold ok_wire_entry, hist_of. cbn [h_issues].
  destruct (w_src _ _ W e He) as [H|[i [H1 [H2 H3]]]].
  - rewrite H. reflexivity.
  - apply orb_true_iff. right. apply existsb_exists. exists i. split; [exact H1|]. rewrite H2, H3. reflexivity.
Qed.

Lemma ok_fence_inv b st : Fence b st -> ok_fence (hist_of st) = true.
Proof.
  intro F. unfold ok_fence, hist_of. cbn [h_sends h_drains]. apply forallb_forall. intros x Hx.
  destruct (hs_acc x) eqn:Ha; [|reflexivity]. cbn [negb orb]. apply forallb_forall. intros d Hd.
  apply negb_true_iff, N.ltb_ge, (f_fence _ _ F x d Hx Ha Hd).
Qed.

Lemma ok_drained_inv b st : Done b st -> ok_drained (hist_of st) = true.
Proof.
  intro D. unfold ok_drained, hist_of. cbn [h_sends h_drains]. apply forallb_forall. intros d Hd.
  destruct (hr_ok d) eqn:Hok; [|reflexivity]. cbn [negb orb]. apply forallb_forall. intros x Hx.
  destruct (hs_acc x) eqn:Ha; [|reflexivity]. cbn [negb orb]. unfold handled_before. cbn [h_disps].
  destruct (d_done _ _ D d x Hd Hok Hx Ha) as [e [H1 [H2 [H3 H4]]]].
  apply existsb_exists. exists e. split; [exact H1|]. rewrite H2, H3, Nat.eqb_refl, N.eqb_refl.
  apply N.ltb_lt in H4. rewrite H4. reflexivity.
Qed.

Lemma ok_dispatch_inv c st : Order c st -> ok_dispatch (hist_of st) = true.
Proof.
  intro O. unfold ok_dispatch, hist_of. cbn [h_sends h_disps]. apply andb_true_iff. split.
  - apply forallb_forall. intros e He.
    assert (Hin : In (hd_q e) (accq (sends st) (hd_s e))).
    { rewrite (o_acc c _ O). apply in_or_app. left. unfold finq. apply in_map. apply filter_In.
      split; [exact He|apply Nat.eqb_refl]. }
    destruct (accq_in _ _ _ Hin) as [x [H1 [H2 [H3 H4]]]].
    apply existsb_exists. exists x. split; [exact H1|]. rewrite H2, H3, H4, Nat.eqb_refl, N.eqb_refl. reflexivity.
  - apply nodup_pairs_spec, nodup_by_session. intro s. exact (handled_nodup c _ s O).
Qed.

(* the SENDACK clause needs [Strict]: CloseOnHandlerError and a handler that does not panic *)
Theorem safety_inv c st :
  Inv c st -> (c_closeonerr c = true -> Strict st) -> safety_ok (c_closeonerr c) (c_nsess c) (hist_of st) = true.
Proof.
  intros [A O W F D] S. unfold safety_ok.
  rewrite (ok_fence_inv _ st F), (ok_drained_inv _ st D), (ok_dispatch_inv c st O), !andb_true_r.
  repeat (apply andb_true_iff; split); apply forallb_forall.
  - intros s _. rewrite (ok_acks_inv c st s O S), (ok_fifo_inv _ st s W). reflexivity.
  - intro i. apply (ok_issue_inv _ st i W).
  - intro e. apply (ok_wire_entry_inv _ st e W).
Qed.

Theorem final_inv c st :
  Inv c st -> (c_closeonerr c = true -> Strict st) -> quiescent st ->
  final_ok (c_closeonerr c) (c_nsess c) (hist_of st) = true.
Proof.
  intros [A O W F D] S Q. unfold final_ok. apply andb_true_iff. split.
  - unfold complete_ok, hist_of. cbn [h_sends h_disps]. apply forallb_forall. intros x Hx.
    destruct (hs_acc x) eqn:Ha; [|reflexivity]. cbn [negb orb].
    pose proof (in_accq _ x Hx Ha) as Hin. rewrite (quiescent_accq c st _ A O Q) in Hin.
    destruct (finq_in _ _ _ Hin) as [e [He [Hs Hq]]]. apply existsb_exists. exists e. split; [exact He|].
    rewrite Hs, Hq, Nat.eqb_refl, N.eqb_refl. reflexivity.
  - apply forallb_forall. intros s _. unfold ok_acks_final, hist_of. cbn [h_closed h_wire h_sends].
    destruct (c_closeonerr c); [|reflexivity]. cbn [negb orb].
    destruct (sclosed st s) eqn:Hcl; [reflexivity|]. cbn [orb].
    rewrite (quiescent_accq c st s A O Q), (strict_open st s (S eq_refl) Hcl). apply Nat.eqb_refl.
Qed.

Theorem monitor_inv c st final :
  Inv c st -> (c_closeonerr c = true -> Strict st) -> (final = true -> quiescent st) ->
  monitor (c_closeonerr c) (c_nsess c) final true (hist_of st) = 0.
Proof.
  intros V S Hq. unfold monitor. rewrite (safety_inv c st V S).
  destruct final; [|reflexivity]. rewrite (final_inv c st V S (Hq eq_refl)). reflexivity.
Qed.

Theorem model_satisfies_monitor c evs final :
  cfg_ok c -> (c_closeonerr c = true -> Forall nopanic evs) -> (final = true -> quiescent (run c evs)) ->
  monitor (c_closeonerr c) (c_nsess c) final true (hist_of (run c evs)) = 0.
Proof. intros Hc Hnp. apply monitor_inv; [apply inv_run, Hc | intro Hce; apply strict_run; auto]. Qed.

(* from any state in which nothing is admitted a DrainSends call without deadline returns nil *)
Theorem drain_returns c s0 d :
  admitted s0 = 0 -> dpcs s0 d = DIdle ->
  let st := fold_left (step c) [EDrainCall d false; EDrain d false; EDrain d false; EWaiter; EDrain d false] s0 in
  exists t0 t1, In (HDrain t0 t1 true) (drains st) /\ dpcs st d = DIdle.
Proof.
  intros H0 Hd. cbn [fold_left]. rewrite !step_eq.

  set (s1 := stepT c (tick s0) (EDrainCall d false)).
  assert (E1 : dpcs s1 d = DSet (now s0 + 1) false /\ admitted s1 = 0 /\ drains s1 = drains s0).
  { subst s1. cbn [stepT]. sp. rewrite Hd. sp. rewrite upd_same. auto. }
  destruct E1 as [E1 [E1a E1d]].
  set (s2 := stepT c (tick s1) (EDrain d false)).
  assert (E2 : dpcs s2 d = DOnce (now s0 + 1) false /\ admitted s2 = 0 /\ drains s2 = drains s0).
  { subst s2. cbn [stepT]. unfold drain_step. sp. rewrite E1. sp. rewrite upd_same. auto. }
  destruct E2 as [E2 [E2a E2d]].
  set (s3 := stepT c (tick s2) (EDrain d false)).
  assert (E3 : dpcs s3 d = DWait (now s0 + 1) false /\ admitted s3 = 0 /\ dstarted s3 = true /\ drains s3 = drains s0).
  { subst s3. cbn [stepT]. unfold drain_step. sp. rewrite E2. sp. rewrite upd_same. auto. }
  destruct E3 as [E3 [E3a [E3s E3d]]].
  set (s4 := stepT c (tick s3) EWaiter).
  assert (E4 : dpcs s4 d = DWait (now s0 + 1) false /\ drained s4 = true /\ drains s4 = drains s0).
  { subst s4. cbn [stepT]. sp. rewrite E3s, E3a. cbn [andb N.eqb]. destruct (drained s3) eqn:Edr; cbn [negb andb]; sp; auto. }
  destruct E4 as [E4 [E4d E4r]].
  cbn [stepT]. unfold drain_step. sp. rewrite E4, E4d. unfold drain_return. sp.
  exists (now s0 + 1), (now s4 + 1). split; [apply in_or_app; right; left; reflexivity | apply upd_same].
Qed.

(* after the drain step has closed admission the WaitGroup never grows again
   (no SEND passes the gate), and admission stays closed: from any state *)
Theorem closed_stays c more : forall st,
  closed st = true ->
  closed (fold_left (step c) more st) = true /\ admitted (fold_left (step c) more st) <= admitted st.
Proof.
  induction more as [|e l IH]; intros st H; cbn [fold_left]; [split; [exact H|lia]|].
  destruct (stepT_ctrl c (tick st) e) as (_ & Hcl & _). destruct (Hcl H) as [H1 H2]. rewrite <- step_eq in H1, H2.
  destruct (IH _ H1) as [H3 H4]. split; [exact H3|]. cbn in H2. lia.
Qed.

(* once the terminal drain has completed, every accepted SEND has been handled *)
Theorem drained_all_handled c evs x :
  cfg_ok c -> drained (run c evs) = true -> In x (sends (run c evs)) -> hs_acc x = true ->
  exists e, In e (disps (run c evs)) /\ hd_s e = hs_s x /\ hd_q e = hs_q x.
Proof.
  intros Hc Hd Hx Ha. pose proof (acct_run c evs Hc) as A.
  apply (zero_all_handled c _ x A (order_run c evs)); try assumption. apply (a_drained c _ A Hd).
Qed.

(* a caller whose deadline expires touches no thread, queue, counter or history of the
   pipeline (its own pc, the drain log and, for stop, [cstarted] do change) *)
Theorem deadline_does_not_cancel c st d :
  let st' := stepT c st (EDrain d true) in
  mbox st' = mbox st /\ wpcs st' = wpcs st /\ spcs st' = spcs st /\ admitted st' = admitted st
  /\ sends st' = sends st /\ disps st' = disps st /\ wire st' = wire st /\ mclosed st' = mclosed st
  /\ (closed st = true -> closed st' = true) /\ (drained st = true -> drained st' = true).
Proof.
  cbn [stepT]. unfold drain_step, drain_return. destruct (dpcs st d); [| | |destruct (drained st) eqn:E];
    sp; repeat split; auto; congruence.
Qed.

(* the background drain is started once and its completion is never undone *)
Theorem drain_flags_monotone c st e :
  (dstarted st = true -> dstarted (stepT c st e) = true) /\
  (drained st = true -> drained (stepT c st e) = true).
Proof.
  destruct (stepT_ctrl c st e) as (_ & _ & H). exact H.
Qed.
