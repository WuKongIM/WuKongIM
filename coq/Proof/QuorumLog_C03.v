(* Proof/QuorumLog_C03.v — receipts are exact, contiguous and retry-stable: lemmas about
   Commit (Model/QuorumLog.v) and the exact append of both stores (Model/ReplicaLog.v). *)
From WK Require Import Base.Base.
From WK Require Import Model.ReplicaLog Model.QuorumLog Model.Cluster Model.Monitor_C03.
From WK Require Import Proof.ReplicaLog Proof.QuorumLog_Commit Proof.QuorumLog_C04 Proof.Cluster_Lift Proof.Sweep.
From Coq Require Import ZifyBool ZifyN.
Open Scope N_scope.

Definition well_sealed (d : dproposal) : Prop :=
  exists es, SealProposalManifest (dp_manifest d) (dp_records d) = Some (dp_manifest d, es).

Lemma set_m_dg_twice m d d' : set_m_dg (set_m_dg m d) d' = set_m_dg m d'.
Proof. destruct m. reflexivity. Qed.

Lemma derive_set_dg m d recs : DeriveProposalEntries (set_m_dg m d) recs = DeriveProposalEntries m recs.
Proof.
  unfold DeriveProposalEntries. destruct m as [e t f c b l pt pi pd dg]. cbn.
  destruct (_ || _ || _ || _ || _ || _ || _); [reflexivity|].
  destruct (if b =? 0 then _ else _); [reflexivity|].
  apply derive_loop_ext; reflexivity.
Qed.

Lemma seal_idem m0 recs m es :
  SealProposalManifest m0 recs = Some (m, es) -> SealProposalManifest m recs = Some (m, es).
Proof.
  unfold SealProposalManifest. destruct (DeriveProposalEntries (set_m_dg m0 D0) recs) as [es0|] eqn:E; [|discriminate].
  intro H. inversion H; subst. rewrite set_m_dg_twice, E, set_m_dg_twice. reflexivity.
Qed.

Lemma seal_keeps_header m0 recs m es :
  SealProposalManifest m0 recs = Some (m, es) ->
  m_e m = m_e m0 /\ m_t m = m_t m0 /\ m_f m = m_f m0 /\ m_cmd m = m_cmd m0 /\ m_base m = m_base m0 /\
  m_last m = m_last m0 /\ lenN es = lenN recs /\ m_last m0 = m_base m0 + lenN recs.
Proof.
  unfold SealProposalManifest. destruct (DeriveProposalEntries (set_m_dg m0 D0) recs) as [es0|] eqn:E; [|discriminate].
  intro H. inversion H; subst. destruct (DeriveProposalEntries_loop _ _ _ E) as (Hloop & _ & Hlast).
  apply derive_loop_length in Hloop. destruct m0; cbn in *. unfold lenN. rewrite Hloop. auto 10.
Qed.

Lemma sealBusinessProposal_fields a frontier hw cmd recs sa d :
  sealBusinessProposal a frontier hw cmd recs sa = Some d ->
  dp_first d = rs_leo frontier + 1 /\ dp_last d = rs_leo frontier + lenN recs /\
  m_cmd (dp_manifest d) = cmd /\ m_base (dp_manifest d) = rs_leo frontier /\
  m_last (dp_manifest d) = rs_leo frontier + lenN recs /\
  dp_records d = recs /\ dp_committed d = hw /\ dp_sa d = sa /\ dp_leader d = a_leader a /\ well_sealed d.
Proof.
  unfold sealBusinessProposal.
  match goal with |- context[SealProposalManifest ?m0 recs] => destruct (SealProposalManifest m0 recs) as [[m es]|] eqn:E; [|discriminate];
    pose proof (seal_keeps_header _ _ _ _ E) as K; pose proof (seal_idem _ _ _ _ E) as I end.
  destruct (lenN es =? lenN recs); [|discriminate]. intro H. inversion H; subst. cbn in *.
  destruct K as (_ & _ & _ & Kc & Kb & Kl & _ & _).
  repeat split; try assumption; try lia. exists es. exact I.
Qed.

(* sameProposalContent on a sealed proposal holds exactly for its own records *)
Lemma sameProposalContent_records d recs :
  well_sealed d -> sameProposalContent d recs = true -> recs = dp_records d.
Proof.
  intros [es Hs]. unfold sameProposalContent. rewrite andb_true_iff. intros [Hl Hm].
  destruct (SealProposalManifest (dp_manifest d) recs) as [[m es']|] eqn:E; [|discriminate].
  apply manifest_eqb_eq in Hm. subst m.
  eapply seal_same_manifest_same_records; eauto. unfold lenN in Hl. lia.
Qed.

Lemma Commit_retained cfg n st local p a rt n' st' r :
  commit_admitted cfg st a p ->
  get_retained (qc_retained st) (pr_cmd p) = Some rt -> rt_durable rt = true ->
  Commit cfg n st local p = (n', st', r) ->
  n' = n /\ st' = st /\
  ((sameProposalContent (rt_prop rt) (pr_records p) = true /\ r = COk (rt_receipt rt)) \/
   (sameProposalContent (rt_prop rt) (pr_records p) = false /\ r = CErr EConflict)).
Proof.
  intros Hadm Hget Hd H. apply (Commit_shape _ _ _ _ _ _ _ _ _ Hadm) in H.
  destruct H as [rt' Hg | rt' Hg | | | | | | | | ]; try congruence;
    rewrite Hget in Hg; injection Hg as <-; auto.
Qed.

Lemma Commit_pending_conflict cfg n st local p a pend n' st' r :
  commit_admitted cfg st a p ->
  get_retained (qc_retained st) (pr_cmd p) = None -> qc_pending st = Some pend ->
  tag_eqb (m_cmd (dp_manifest (rt_prop pend))) (pr_cmd p) = true ->
  sameProposalContent (rt_prop pend) (pr_records p) = false ->
  Commit cfg n st local p = (n', st', r) -> n' = n /\ st' = st /\ r = CErr EConflict.
Proof.
  intros Hadm Hget Hp Ht Hs H. apply (Commit_shape _ _ _ _ _ _ _ _ _ Hadm) in H.
  destruct H; try congruence; auto.
Qed.

Lemma finishCommit_ok cfg st a r res st' rc :
  finishCommit cfg st a r res = (st', COk rc) ->
  rr_local res = true /\ a_q a <=? rr_votes res = true /\
  rc = Receipt (a_id a) (m_cmd (dp_manifest (rt_prop r))) (dp_first (rt_prop r)) (dp_last (rt_prop r)) (dp_last (rt_prop r)) /\
  rs_leo (qc_frontier st') = dp_last (rt_prop r) /\ qc_hw st' = dp_last (rt_prop r) /\ qc_pending st' = None.
Proof.
  unfold finishCommit.
  destruct (negb (rr_local res) || (rr_votes res <? a_q a) || negb (outcome_durable (rr_outcome res))) eqn:C; [discriminate|].
  destruct (SealProposalManifest _ _) as [[m es]|]; [|discriminate].
  intro H. inversion H; subst. clear H.
  match goal with |- context[remember cfg ?s ?x] => destruct (remember_fields cfg s x) as (_ & _ & Hp & Hf & Hh) end.
  rewrite Hp, Hf, Hh. cbn.
  split; [destruct (rr_local res); [reflexivity | discriminate]|].
  split; [lia|]. repeat split.
Qed.

(* the receipt of a fresh command (not retained, nothing pending) that went through the
   durability round: First is the owner's frontier + 1, the range has exactly one sequence per
   record, HW = Last, the owner's frontier moves to Last; and on the local replica the proposal
   was either appended exactly at the log end or was already present unchanged *)
Lemma Commit_fresh_exact cfg n st local p a d n1 res st2 rc :
  commit_admitted cfg st a p ->
  sealBusinessProposal a (qc_frontier st) (qc_hw st) (pr_cmd p) (pr_records p) (pr_sa p) = Some d ->
  runDurableRound n local (a_voters a) (a_q a) (cf_rot cfg) d = (n1, res) ->
  finishCommit cfg (set_pending st (Some (Retained d receipt_zero false))) a (Retained d receipt_zero false) res = (st2, COk rc) ->
  rc = Receipt (a_id a) (pr_cmd p) (rs_leo (qc_frontier st) + 1) (rs_leo (qc_frontier st) + lenN (pr_records p))
               (rs_leo (qc_frontier st) + lenN (pr_records p)) /\
  rs_leo (qc_frontier st2) = rc_last rc /\ qc_hw st2 = rc_last rc /\ qc_pending st2 = None /\
  (exists es, DeriveProposalEntries (dp_manifest d) (pr_records p) = Some es /\
     ((rp_leo (net_rep n local) = rs_leo (qc_frontier st) /\
       rp_log (net_rep n1 local) = rp_log (net_rep n local) ++ combine es (pr_records p)) \/
      (rp_log (net_rep n1 local) = rp_log (net_rep n local) /\
       by_cmd (rp_bycmd (net_rep n local)) (pr_cmd p) = Some (dp_manifest d)))).
Proof.
  intros Hadm Hseal Hround Hfin.
  destruct (sealBusinessProposal_fields _ _ _ _ _ _ _ Hseal) as (F1 & F2 & F3 & F4 & F5 & F6 & F7 & F8 & F9 & [es0 Hws]).
  destruct (finishCommit_ok _ _ _ _ _ _ _ Hfin) as (Hl & Hq & Hrc & Hfr & Hhw & Hp). cbn [rt_prop] in *.
  rewrite F1, F2, F3 in Hrc.
  split; [exact Hrc|]. subst rc. cbn [rc_last]. rewrite <- F2.
  split; [exact Hfr|]. split; [exact Hhw|]. split; [exact Hp|].
  destruct (runDurableRound_local _ _ _ _ _ _ _ _ Hround) as (n0 & o1 & Hsl & Hrep & _ & Hdur).
  specialize (Hdur Hl).
  destruct (submitLocal_effect _ _ _ _ _ Hsl) as [[_ Hnd] | (rp & o & nf & Hsync & Hrp & Ho)]; [congruence|].
  specialize (Ho Hdur). subst o1.
  pose proof (sync_effect_holds _ _ _ _ _ _ Hsync) as He. unfold sync_effect in He.
  unfold dp_mutation in He. cbn [mu_manifest mu_records] in He. rewrite F6 in He.
  rewrite Hrep, Hrp.
  destruct o; try discriminate.
  - destruct He as (Hleo & es & Hes & Hlog & _). exists es. split; [exact Hes|]. left.
    rewrite F4 in Hleo. auto.
  - destruct He as (Hlog & _ & _ & Hbc). rewrite F3 in Hbc.
    (* the derived entries exist because the proposal is well sealed *)
    unfold SealProposalManifest in Hws. rewrite F6 in Hws.
    destruct (DeriveProposalEntries (set_m_dg (dp_manifest d) D0) (pr_records p)) as [es|] eqn:E; [|discriminate].
    assert (Hd : DeriveProposalEntries (dp_manifest d) (pr_records p) = Some es)
      by (rewrite <- E; symmetry; apply derive_set_dg).
    exists es. split; [exact Hd|]. right. auto.
Qed.

(* finishCommit leaves the owner's frontier alone or moves it to the proposal's last sequence *)
Lemma finishCommit_frontier cfg st a r res st' out :
  finishCommit cfg st a r res = (st', out) ->
  qc_frontier st' = qc_frontier st \/ rs_leo (qc_frontier st') = dp_last (rt_prop r).
Proof.
  unfold finishCommit.
  destruct (negb (rr_local res) || (rr_votes res <? a_q a) || negb (outcome_durable (rr_outcome res))).
  { intro H. inversion H; subst. left. reflexivity. }
  destruct (SealProposalManifest _ _) as [[m es]|].
  2:{ intro H. inversion H; subst. left. reflexivity. }
  intro H. inversion H; subst.
  match goal with |- context[remember cfg ?s ?x] => destruct (remember_fields cfg s x) as (_ & _ & _ & Hf & _) end.
  right. rewrite Hf. reflexivity.
Qed.

(* slow path: the store consults its command index.  True for the memory store, and for the
   Pebble store unless the proposal claims server allocated ids and extends the log end *)
Definition slow_path (k : store_kind) (rp : replica) (mu : mutation) : Prop :=
  k = SMem \/ mu_sa mu = false \/ m_base (mu_manifest mu) <> rp_leo rp.

Lemma sync_known_command_rejected k rp mu m0 rp' o nf :
  by_cmd (rp_bycmd rp) (m_cmd (mu_manifest mu)) = Some m0 -> m0 <> mu_manifest mu ->
  slow_path k rp mu ->
  sync k rp mu = (rp', o, nf) -> outcome_durable o = false /\ rp' = rp.
Proof.
  intros Hbc Hne Hslow H. pose proof (sync_cases _ _ _ _ _ _ H) as Hc. cbv zeta in Hc.
  assert (Hnd : outcome_durable o = false).
  { destruct o; try reflexivity; exfalso.
    - (* Durable: the command was unknown, or the fast path skipped the index *)
      destruct Hc as (es & _ & _ & Hleo & _ & _ & [Hn | (-> & Hsa)]); [congruence|].
      destruct Hslow as [X | [X | X]]; [discriminate | congruence | congruence].
    - (* Already: the index binds this very manifest *)
      destruct Hc as (_ & _ & Hb & _). congruence. }
  split; [exact Hnd|]. eapply sync_not_durable_unchanged; eauto.
Qed.

Lemma reconcile_ok cfg n st a local p st' rc :
  reconcileCommandConflict cfg n st a local p = (st', COk rc) ->
  exists m recs, lookupCommand (nt_kind n) (net_rep n local) (pr_cmd p) (cf_maxrecs cfg) = inr (Some (m, recs)) /\
    rc = Receipt (a_id a) (pr_cmd p) (m_base m + 1) (m_last m) (m_last m) /\
    pr_records p = recs /\ m_last m <= qc_hw st.
Proof.
  unfold reconcileCommandConflict, loadRetainedProposal.
  destruct (lookupCommand (nt_kind n) (net_rep n local) (pr_cmd p) (cf_maxrecs cfg)) as [e | [[m recs] |]]; try discriminate.
  destruct (negb (StructurallyValid m) || negb (tag_eqb (m_cmd m) (pr_cmd p)) || (qc_hw st <? m_last m) ||
            negb (m_e m =? aid_e (a_id a)) || negb (m_t m =? aid_t (a_id a)) || negb (m_f m =? aid_f (a_id a))) eqn:C;
    [discriminate|].
  destruct (SealProposalManifest m recs) as [[sealed es]|] eqn:Hs; [|discriminate].
  destruct (negb (manifest_eqb sealed m) || (lenN es =? 0)) eqn:C2; [discriminate|].
  match goal with |- context[sameProposalContent ?d (pr_records p)] => destruct (sameProposalContent d (pr_records p)) eqn:Hsame end;
    cbn [negb]; [|discriminate].
  intro H. inversion H; subst. exists m, recs. split; [reflexivity|]. split; [reflexivity|].
  split; [|lia].
  apply sameProposalContent_records in Hsame; [exact Hsame|].
  exists es. cbn. apply orb_false_iff in C2. destruct C2 as [C2 _]. apply negb_false_iff in C2.
  apply manifest_eqb_eq in C2. subst sealed. exact Hs.
Qed.

(* evicted / restarted retry on the slow path: the local replica is not written; the only
   possible success is the receipt of the range stored under the command, and then the proposal's
   records are exactly the stored ones (a conflicting reuse is never acknowledged) *)
Lemma Commit_known_command_slow_path cfg n st local p a m0 n' st' r :
  commit_admitted cfg st a p ->
  get_retained (qc_retained st) (pr_cmd p) = None -> qc_pending st = None ->
  by_cmd (rp_bycmd (net_rep n local)) (pr_cmd p) = Some m0 ->
  (forall d, sealBusinessProposal a (qc_frontier st) (qc_hw st) (pr_cmd p) (pr_records p) (pr_sa p) = Some d ->
             m0 <> dp_manifest d /\ slow_path (nt_kind n) (net_rep n local) (dp_mutation d)) ->
  Commit cfg n st local p = (n', st', r) ->
  net_rep n' local = net_rep n local /\
  (forall rc, r = COk rc ->
     exists recs, lookupCommand (nt_kind n) (net_rep n local) (pr_cmd p) (cf_maxrecs cfg) = inr (Some (m0, recs)) /\
                  rc = Receipt (a_id a) (pr_cmd p) (m_base m0 + 1) (m_last m0) (m_last m0) /\ pr_records p = recs).
Proof.
  intros Hadm Hget Hp Hbc Hslow H. apply (Commit_shape _ _ _ _ _ _ _ _ _ Hadm) in H.
  assert (Hround : forall d n1 res,
            sealBusinessProposal a (qc_frontier st) (qc_hw st) (pr_cmd p) (pr_records p) (pr_sa p) = Some d ->
            runDurableRound n local (a_voters a) (a_q a) (cf_rot cfg) d = (n1, res) ->
            net_rep n1 local = net_rep n local /\ rr_ok res = false /\ nt_kind n1 = nt_kind n).
  { intros d n1 res Hseal Hr. destruct (Hslow _ Hseal) as [Hne Hsl].
    destruct (sealBusinessProposal_fields _ _ _ _ _ _ _ Hseal) as (_ & _ & F3 & _).
    destruct (runDurableRound_local _ _ _ _ _ _ _ _ Hr) as (n0 & o1 & Hsub & Hrep & Hok & Hdur).
    assert (Hloc : net_rep n0 local = net_rep n local /\ outcome_durable o1 = false).
    { destruct (submitLocal_effect _ _ _ _ _ Hsub) as [X | (rp & o & nf & Hsync & Hrp & Ho)]; [exact X|].
      assert (Hbc' : by_cmd (rp_bycmd (net_rep n local)) (m_cmd (mu_manifest (dp_mutation d))) = Some m0)
        by (cbn; rewrite F3; exact Hbc).
      destruct (sync_known_command_rejected _ _ _ _ _ _ _ Hbc' Hne Hsl Hsync) as [Hnd ->].
      split; [exact Hrp|]. destruct (outcome_durable o1) eqn:E; [|reflexivity].
      rewrite (Ho eq_refl) in E. congruence. }
    destruct Hloc as [Hl1 Hl2]. split; [rewrite Hrep; exact Hl1|]. split.
    - destruct (rr_ok res) eqn:E; [|reflexivity]. destruct (Hok eq_refl) as (X & _). rewrite (Hdur X) in Hl2. discriminate.
    - (* the store kind never changes: the trivial instance of the lifting *)
      exact (proj1 (runDurableRound_ok (fun _ _ => True) (fun _ => I) (fun _ _ _ _ _ => I)
                      (fun _ _ _ _ _ _ _ => I) _ _ _ _ _ _ _ _ Hr)). }
  destruct H as [ | | | | | | | d n1 res ? ? Hseal Hr ? ? | d n1 res st3 out ? ? Hseal Hr ? ? Hrec
                  | d n1 res st2 out ? ? Hseal Hr Hok ?]; try congruence.
  - (* seal failed *) split; [reflexivity|]. intros rc Hrc. discriminate.
  - (* round failed *)
    destruct (Hround _ _ _ Hseal Hr) as (X & _). split; [exact X|]. intros rc Hrc. discriminate.
  - (* reconcile *)
    destruct (Hround _ _ _ Hseal Hr) as (X & _ & Xk). split; [exact X|]. intros rc Hrc. subst out.
    destruct (reconcile_ok _ _ _ _ _ _ _ _ Hrec) as (m & recs & Hl & Hrc & Hrecs & _).
    rewrite X, Xk in Hl.
    assert (Hm : m = m0).
    { unfold lookupCommand in Hl. rewrite Hbc in Hl.
      destruct (cf_maxrecs cfg <? m_last m0 - m_base m0); [discriminate|].
      destruct (rows_range _ _ _); [|discriminate].
      destruct (match nt_kind n with SMem => true | SPebble => _ end); [|discriminate].
      inversion Hl. reflexivity. }
    subst m. exists recs. auto.
  - (* finish: impossible, the round cannot succeed *)
    destruct (Hround _ _ _ Hseal Hr) as (_ & X & _). congruence.
Qed.

(* ---- the F4 witnesses (DESIGN §0 F4, corpus/C03/f4_*.json) --------------------------------------------- *)

Definition f4_cfg (k : store_kind) : qconfig := QCfg k 3 2 1 3 65536 0.
Definition f4_r1 : record := Rec (TUser 1) 0 0 11 1 false 1.
Definition f4_r2 : record := Rec (TUser 2) 0 0 22 1 false 1.
Definition f4_r3 : record := Rec (TUser 3) 1 3 33 1 false 1.
(* commit 1, commit 2 (evicts 1 from the cache of capacity 1), then command 1 again *)
Definition f4_ops (again : record) : list qop :=
  [ OInstall 1 (1, 1, 1) false 2 no_faults;
    OCommit 1 (1, 1, 1) (TUser 1) [f4_r1] true no_faults;
    OCommit 1 (1, 1, 1) (TUser 2) [f4_r2] true no_faults;
    OCommit 1 (1, 1, 1) (TUser 1) [again] true no_faults ].

Lemma f4_identical_retry_stored_again :
  fst (run_model (f4_cfg SPebble) (cluster_init (f4_cfg SPebble)) (f4_ops f4_r1)) =
    [ RInstalled (1, 1, 1) 0 0; RReceipt (1, 1, 1) (TUser 1) 1 1 1; RReceipt (1, 1, 1) (TUser 2) 2 2 2;
      RReceipt (1, 1, 1) (TUser 1) 3 3 3 ] /\
  C03_monitor (model_case (f4_cfg SPebble) (f4_ops f4_r1)) = 2.
Proof. split; vm_compute; reflexivity. Qed.

Lemma f4_conflicting_reuse_accepted :
  fst (run_model (f4_cfg SPebble) (cluster_init (f4_cfg SPebble)) (f4_ops f4_r3)) =
    [ RInstalled (1, 1, 1) 0 0; RReceipt (1, 1, 1) (TUser 1) 1 1 1; RReceipt (1, 1, 1) (TUser 2) 2 2 2;
      RReceipt (1, 1, 1) (TUser 1) 3 3 3 ] /\
  C03_monitor (model_case (f4_cfg SPebble) (f4_ops f4_r3)) = 2.
Proof. split; vm_compute; reflexivity. Qed.

Lemma f4_memory_is_stable :
  fst (run_model (f4_cfg SMem) (cluster_init (f4_cfg SMem)) (f4_ops f4_r1)) =
    [ RInstalled (1, 1, 1) 0 0; RReceipt (1, 1, 1) (TUser 1) 1 1 1; RReceipt (1, 1, 1) (TUser 2) 2 2 2;
      RReceipt (1, 1, 1) (TUser 1) 1 1 1 ] /\
  fst (run_model (f4_cfg SMem) (cluster_init (f4_cfg SMem)) (f4_ops f4_r3)) =
    [ RInstalled (1, 1, 1) 0 0; RReceipt (1, 1, 1) (TUser 1) 1 1 1; RReceipt (1, 1, 1) (TUser 2) 2 2 2;
      RErr EConflict ] /\
  C03_monitor (model_case (f4_cfg SMem) (f4_ops f4_r1)) = 0 /\
  C03_monitor (model_case (f4_cfg SMem) (f4_ops f4_r3)) = 0.
Proof. repeat split; vm_compute; reflexivity. Qed.

(* ---- bounded exhaustive check of the monitor on the model's own traces ------------------------------------ *)

(* alphabet: two commands, each with two contents (with and without an idempotency key pair),
   a commit whose every response is lost, an owner restart and a reinstall *)
Definition c03_alphabet (sa : bool) : list qop :=
  [ OCommit 1 (1, 1, 1) (TUser 1) [f4_r1] sa no_faults;
    OCommit 1 (1, 1, 1) (TUser 1) [f4_r3] sa no_faults;
    OCommit 1 (1, 1, 1) (TUser 2) [f4_r2] sa no_faults;
    OCommit 1 (1, 1, 1) (TUser 2) [f4_r2; f4_r3] sa no_faults;
    OCommit 1 (1, 1, 1) (TUser 3) [Rec (TUser 9) 2 2 99 1 false 1] sa (Flt [1; 2; 3] [] None []);
    ORestart 1;
    OInstall 1 (1, 1, 1) false 2 no_faults ].

Fixpoint schedules (alphabet : list qop) (len : nat) : list (list qop) :=
  match len with
  | O => [[]]
  | S k => [] :: flat_map (fun s => map (fun op => op :: s) alphabet) (schedules alphabet k)
  end.

Definition all_codes_in (allowed : list N) (cfg : qconfig) (alphabet : list qop) (len : nat) : bool :=
  forallb (fun s => existsb (N.eqb (C03_monitor (model_case cfg (OInstall 1 (1, 1, 1) false 2 no_faults :: s)))) allowed)
          (schedules alphabet len).

Lemma c03_bounded_memory : all_codes_in [0] (f4_cfg SMem) (c03_alphabet true) 4 = true.
Proof. apply (sweep_sound (f4_cfg SMem) (codes_in C03_monitor [0]) [_] _ (schedules _) eq_refl (fun _ => eq_refl)). vm_compute. reflexivity. Qed.

Lemma c03_bounded_pebble_client_ids : all_codes_in [0] (f4_cfg SPebble) (c03_alphabet false) 4 = true.
Proof. apply (sweep_sound (f4_cfg SPebble) (codes_in C03_monitor [0]) [_] _ (schedules _) eq_refl (fun _ => eq_refl)). vm_compute. reflexivity. Qed.

Lemma c03_bounded_pebble_server_ids : all_codes_in [0; 2] (f4_cfg SPebble) (c03_alphabet true) 4 = true.
Proof. apply (sweep_sound (f4_cfg SPebble) (codes_in C03_monitor [0; 2]) [_] _ (schedules _) eq_refl (fun _ => eq_refl)). vm_compute. reflexivity. Qed.
