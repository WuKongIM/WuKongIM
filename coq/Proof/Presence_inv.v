(* Proof/Presence_inv.v — the authority-slot invariant: byUID and the expiry index are
   projections of the active routes; active routes sit above their unregister fence. *)
From WK Require Import Base.Base Gen.Consts_C33 Model.Presence Proof.AckTracker_map Proof.Presence_map.
From Coq Require Import Permutation.
Open Scope N_scope.

Notation iget := (al_get ikey_eqb).
Notation nget := (al_get N.eqb).

(* the fixed points of normalizeRouteSeen: the activity second is 0 only if connectedAt is 0 *)
Definition normalized (r : route) : Prop := r_seen r = 0%Z -> r_conn r = 0%Z.

Lemma normalize_normalized r : normalized (normalizeRouteSeen r).
Proof.
  unfold normalized, normalizeRouteSeen. destruct (r_seen r =? 0)%Z eqn:E; simpl; [auto|].
  apply Z.eqb_neq in E. intro. contradiction.
Qed.

Lemma normalize_idem r : normalized r -> normalizeRouteSeen r = r.
Proof.
  unfold normalized, normalizeRouteSeen. intro H. destruct (r_seen r =? 0)%Z eqn:E; [|reflexivity].
  apply Z.eqb_eq in E. destruct r. simpl in *. rewrite (H E), E. reflexivity.
Qed.

Lemma normalize_key r : makeRouteIdentityKey (normalizeRouteSeen r) = makeRouteIdentityKey r.
Proof. unfold normalizeRouteSeen. destruct (r_seen r =? 0)%Z; reflexivity. Qed.
Lemma normalize_oseq r : r_oseq (normalizeRouteSeen r) = r_oseq r.
Proof. unfold normalizeRouteSeen. destruct (r_seen r =? 0)%Z; reflexivity. Qed.
Lemma normalize_uid r : r_uid (normalizeRouteSeen r) = r_uid r.
Proof. unfold normalizeRouteSeen. destruct (r_seen r =? 0)%Z; reflexivity. Qed.

Lemma seen_of_normalized r : normalized r -> routeSeenUnix r = r_seen r.
Proof.
  unfold normalized, routeSeenUnix. intro H. destruct (r_seen r =? 0)%Z eqn:E; simpl; [|reflexivity].
  apply Z.eqb_eq in E. rewrite (H E), E. reflexivity.
Qed.

Definition key_uid (k : ikey) : N := let '(u, _, _, _) := k in u.

Lemma tombstoned_false_iff s k q :
  tombstoned s k q = false <-> forall t, iget k (sl_tomb s) = Some t -> t < q.
Proof.
  unfold tombstoned. destruct (iget k (sl_tomb s)) as [t|].
  - rewrite N.leb_gt. split; [intros H t' E; inversion E; subst; exact H|intro H; apply H; reflexivity].
  - split; [intros _ t E; discriminate|reflexivity].
Qed.

Lemma tombstoned_ext s s' k q : sl_tomb s' = sl_tomb s -> tombstoned s' k q = tombstoned s k q.
Proof. unfold tombstoned. intros ->. reflexivity. Qed.

Record SInv (s : slot) : Prop := {
  sv_act_nodup : NoDup (al_keys (sl_active s));
  sv_act_key : forall k r, iget k (sl_active s) = Some r -> makeRouteIdentityKey r = k /\ normalized r;
  sv_by_nodup : forall u, NoDup (uid_keys u s);
  sv_by_proj : forall u k, In k (uid_keys u s) <-> exists r, iget k (sl_active s) = Some r /\ r_uid r = u;
  sv_expiry : forall k, iget k (sl_expiry s) =
                        match iget k (sl_active s) with
                        | Some r => if (r_seen r =? 0)%Z then None else Some (r_seen r)
                        | None => None
                        end;
  sv_exp_nodup : NoDup (al_keys (sl_expiry s));
  sv_tomb : forall k r, iget k (sl_active s) = Some r -> tombstoned s k (r_oseq r) = false }.

Lemma SInv_new g : SInv (newAuthoritySlot g).
Proof.
  constructor.
  - constructor.
  - intros k r H. discriminate.
  - intro u. constructor.
  - intros u k. split; [intros []|intros [r [H _]]; discriminate].
  - reflexivity.
  - constructor.
  - intros k r H. discriminate.
Qed.

Lemma uid_keys_set s act by_ ex u ks u' :
  uid_keys u' (with_active s act (al_set N.eqb u ks by_) ex) = if u' =? u then ks else uid_keys u' (with_active s act by_ ex).
Proof.
  unfold uid_keys. cbn [sl_byUID with_active]. destruct (N.eqb_spec u' u) as [E|E].
  - subst. rewrite n_get_set_same. reflexivity.
  - rewrite n_get_set_other by congruence. reflexivity.
Qed.

Lemma removeActive_active s k r : sl_active (removeActiveLocked s k r) = al_del ikey_eqb k (sl_active s).
Proof. reflexivity. Qed.
Lemma removeActive_expiry s k r : sl_expiry (removeActiveLocked s k r) = al_del ikey_eqb k (sl_expiry s).
Proof. reflexivity. Qed.
Lemma removeActive_uid_keys s k r u :
  uid_keys u (removeActiveLocked s k r) = if u =? r_uid r then del_key k (uid_keys u s) else uid_keys u s.
Proof.
  unfold uid_keys, removeActiveLocked. cbn [sl_byUID with_active]. rewrite (al_get_shrink N.eqb Neqb_spec).
  destruct (N.eqb_spec u (r_uid r)) as [E|E]; [subst u|reflexivity].
  destruct (nget (r_uid r) (sl_byUID s)) as [ks|]; [|reflexivity]. destruct (del_key k ks); reflexivity.
Qed.

Lemma removeActive_uid_keys_in s k r u x :
  In x (uid_keys u (removeActiveLocked s k r)) <-> In x (uid_keys u s) /\ ~ (u = r_uid r /\ x = k).
Proof.
  rewrite removeActive_uid_keys. destruct (N.eqb_spec u (r_uid r)) as [E|E]; [rewrite del_key_in|]; tauto.
Qed.

Lemma removeActive_inv s k r :
  SInv s -> iget k (sl_active s) = Some r -> SInv (removeActiveLocked s k r).
Proof.
  intros I G. destruct (sv_act_key s I _ _ G) as [KR _].
  constructor.
  - rewrite removeActive_active. apply i_del_nodup. apply (sv_act_nodup s I).
  - intros k' r'. rewrite removeActive_active. destruct (ikey_eq_dec k k') as [E|E].
    + subst. rewrite i_get_del_same. discriminate.
    + rewrite i_get_del_other by exact E. apply (sv_act_key s I).
  - intro u. rewrite removeActive_uid_keys. destruct (u =? r_uid r); [apply NoDup_filter|]; apply (sv_by_nodup s I).
  - intros u k'. rewrite removeActive_uid_keys_in, (sv_by_proj s I). rewrite removeActive_active.
    destruct (ikey_eq_dec k k') as [E|E].
    + subst k'. rewrite i_get_del_same. split.
      * intros [[r' [H1 H2]] H3]. exfalso. apply H3. split; [congruence|reflexivity].
      * intros [r' [H1 _]]. discriminate.
    + rewrite i_get_del_other by exact E. split; [intros [H _]; exact H|].
      intro H. split; [exact H|]. intros [_ X]. congruence.
  - intro k'. rewrite removeActive_active, removeActive_expiry. destruct (ikey_eq_dec k k') as [E|E].
    + subst. rewrite !i_get_del_same. reflexivity.
    + rewrite !i_get_del_other by exact E. apply (sv_expiry s I).
  - rewrite removeActive_expiry. apply i_del_nodup. apply (sv_exp_nodup s I).
  - intros k' r'. rewrite removeActive_active, (tombstoned_ext s) by reflexivity. destruct (ikey_eq_dec k k') as [E|E].
    + subst. rewrite i_get_del_same. discriminate.
    + rewrite i_get_del_other by exact E. apply (sv_tomb s I).
Qed.

(* a slot operation that keeps the invariant, the fences and the target *)
Definition keeps (s s' : slot) : Prop := SInv s' /\ sl_tomb s' = sl_tomb s /\ sl_target s' = sl_target s.

Lemma keeps_refl s : SInv s -> keeps s s.
Proof. intro I. split; [exact I|split; reflexivity]. Qed.

Lemma keeps_trans s1 s2 s3 : keeps s1 s2 -> keeps s2 s3 -> keeps s1 s3.
Proof. intros [_ [T1 G1]] [I [T2 G2]]. split; [exact I|split; congruence]. Qed.

(* only the active routes, their two indexes and the fences enter the invariant *)
Lemma SInv_ext s s' :
  sl_active s' = sl_active s -> sl_byUID s' = sl_byUID s -> sl_expiry s' = sl_expiry s -> sl_tomb s' = sl_tomb s ->
  SInv s -> SInv s'.
Proof.
  destruct s, s'. simpl. intros -> -> -> -> [H1 H2 H3 H4 H5 H6 H7].
  constructor; [exact H1|exact H2|exact H3|exact H4|exact H5|exact H6|exact H7].
Qed.

Lemma keeps_ext s s' :
  sl_active s' = sl_active s -> sl_byUID s' = sl_byUID s -> sl_expiry s' = sl_expiry s -> sl_tomb s' = sl_tomb s ->
  sl_target s' = sl_target s -> SInv s -> keeps s s'.
Proof. intros A B E T G I. split; [apply (SInv_ext s); assumption|split; assumption]. Qed.

Lemma removeActive_keeps s k r : SInv s -> iget k (sl_active s) = Some r -> keeps s (removeActiveLocked s k r).
Proof. intros I G. split; [apply removeActive_inv; assumption|split; reflexivity]. Qed.

(* reduce the projections of a rebuilt slot, and nothing else *)
Ltac sproj := cbn [sl_active sl_byUID sl_expiry sl_tomb sl_target sl_pending sl_ownerSeq sl_nextID with_active].

Lemma scheduleExpiry_get ex k r k' :
  iget k' (scheduleExpiryLocked ex k r)
  = if ikey_eqb k k' then (if (routeSeenUnix r =? 0)%Z then None else Some (routeSeenUnix r)) else iget k' ex.
Proof.
  unfold scheduleExpiryLocked, unscheduleExpiryLocked. destruct (ikey_eqb k k') eqn:E.
  - apply ikey_eqb_spec in E. subst k'. destruct (routeSeenUnix r =? 0)%Z; [apply i_get_del_same|apply i_get_set_same].
  - assert (N : k <> k') by (intro; subst; rewrite ikey_eqb_refl in E; discriminate).
    destruct (routeSeenUnix r =? 0)%Z; [|rewrite i_get_set_other by exact N]; apply i_get_del_other, N.
Qed.

(* the second half of upsertActiveLocked: a route enters under a key that is not active *)
Lemma insertActive_inv s k r :
  SInv s -> iget k (sl_active s) = None -> normalized r -> makeRouteIdentityKey r = k ->
  tombstoned s k (r_oseq r) = false ->
  SInv (with_active s (al_set ikey_eqb k r (sl_active s))
                    (al_set N.eqb (r_uid r) (add_key k (uid_keys (r_uid r) s)) (sl_byUID s))
                    (scheduleExpiryLocked (sl_expiry s) k r)).
Proof.
  intros I NK RN RK T. constructor; sproj.
  - apply i_set_nodup. apply (sv_act_nodup s I).
  - intros k' r'. destruct (ikey_eq_dec k k') as [E|E].
    + subst k'. rewrite i_get_set_same. intro H. inversion H. subst r'. split; assumption.
    + rewrite i_get_set_other by exact E. apply (sv_act_key s I).
  - intro u. rewrite uid_keys_set. destruct (u =? r_uid r).
    + apply add_key_nodup. apply (sv_by_nodup s I).
    + apply (sv_by_nodup s I u).
  - intros u k'. rewrite uid_keys_set.
    change (uid_keys u (with_active s (al_set ikey_eqb k r (sl_active s)) (sl_byUID s)
                                    (scheduleExpiryLocked (sl_expiry s) k r))) with (uid_keys u s).
    destruct (N.eqb_spec u (r_uid r)) as [E|E].
    + subst u. rewrite add_key_in, (sv_by_proj s I). destruct (ikey_eq_dec k k') as [E2|E2].
      * subst k'. rewrite i_get_set_same. split; [intros _; exists r; auto|intros _; left; reflexivity].
      * rewrite i_get_set_other by exact E2. split; [intros [X|X]; [congruence|exact X]|intro X; right; exact X].
    + rewrite (sv_by_proj s I). destruct (ikey_eq_dec k k') as [E2|E2].
      * subst k'. rewrite i_get_set_same, NK. split; [intros [x [X _]]; discriminate|].
        intros [x [X1 X2]]. inversion X1. subst x. congruence.
      * rewrite i_get_set_other by exact E2. reflexivity.
  - intro k'. rewrite scheduleExpiry_get, (seen_of_normalized r RN). destruct (ikey_eqb k k') eqn:E.
    + apply ikey_eqb_spec in E. subst k'. rewrite i_get_set_same. reflexivity.
    + rewrite i_get_set_other by (intro; subst; rewrite ikey_eqb_refl in E; discriminate). apply (sv_expiry s I).
  - unfold scheduleExpiryLocked, unscheduleExpiryLocked.
    destruct (routeSeenUnix r =? 0)%Z; [|apply i_set_nodup]; apply i_del_nodup; apply (sv_exp_nodup s I).
  - intros k' r'. rewrite (tombstoned_ext s) by reflexivity. destruct (ikey_eq_dec k k') as [E|E].
    + subst k'. rewrite i_get_set_same. intro H. inversion H. subst r'. exact T.
    + rewrite i_get_set_other by exact E. apply (sv_tomb s I).
Qed.

Lemma upsert_keeps s r0 :
  SInv s -> tombstoned s (makeRouteIdentityKey r0) (r_oseq r0) = false -> keeps s (upsertActiveLocked s r0).
Proof.
  intros I T. unfold upsertActiveLocked. rewrite normalize_key.
  set (r := normalizeRouteSeen r0). set (k := makeRouteIdentityKey r0).
  set (s1 := match iget k (sl_active s) with Some existing => removeActiveLocked s k existing | None => s end).
  assert (K1 : keeps s s1 /\ iget k (sl_active s1) = None).
  { unfold s1. destruct (iget k (sl_active s)) eqn:G; [|split; [apply keeps_refl, I|exact G]].
    split; [apply removeActive_keeps; assumption|apply i_get_del_same]. }
  destruct K1 as [[I1 [O4 O1]] NK].
  split; [|sproj; split; assumption].
  apply insertActive_inv; [exact I1|exact NK|apply normalize_normalized|apply normalize_key|].
  rewrite (tombstoned_ext s s1 _ _ O4). unfold r. rewrite normalize_oseq. exact T.
Qed.
