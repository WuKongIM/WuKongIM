(* Proof/Archive_publish.v — C38 (uses Archive): PublishArchive only adds objects, under keys
   that were absent ([extends], [adds_at]); an archive it reports as published verifies, and
   VerifyPublishedArchive returns the manifest PublishArchive returned. *)
From WK Require Import Base.Base Base.Lists Gen.Consts_C38 Model.Archive Proof.Archive.
Open Scope N_scope.

Lemma prefixb_true_inv : forall p s, prefixb p s = true -> exists r, s = p ++ r.
Proof.
  induction p as [|a p IH]; intros s E; [exists s; reflexivity|].
  destruct s as [|b s]; [discriminate|]. cbn [prefixb] in E. apply andb_true_iff in E.
  destruct E as [E1 E2]. apply N.eqb_eq in E1. subst b.
  destruct (IH s E2) as (r & Er). exists r. subst s. reflexivity.
Qed.

Lemma forallb_ext_in {A} (f g : A -> bool) : forall l, (forall x, In x l -> f x = g x) -> forallb f l = forallb g l.
Proof.
  induction l as [|x l IH]; intro Hx; [reflexivity|]. cbn [forallb].
  rewrite (Hx x (or_introl eq_refl)), IH; [reflexivity|]. intros y Hy. apply Hx. right. exact Hy.
Qed.

Definition slots_shaped (k : bytes) : Prop := exists r, k = sx "slots/" ++ r.

Lemma slot_prefix_shaped hs r : slots_shaped (slot_prefix hs ++ r).
Proof. unfold slot_prefix. exists (pad0 3 (dec_N hs) ++ r). rewrite app_assoc. reflexivity. Qed.

Lemma slot_manifest_key_shaped hs key : validate_slot_manifest_key hs key = true -> slots_shaped key.
Proof.
  unfold validate_slot_manifest_key. intro E. apply andb_true_iff in E. destruct E as [E _].
  apply andb_true_iff in E. destruct E as [_ E]. apply prefixb_true_inv in E. destruct E as (r & E).
  subst key. rewrite <- app_assoc. apply slot_prefix_shaped.
Qed.

Lemma slot_chunk_key_shaped hs p c : slot_chunk_key_ok hs p c = true -> slots_shaped (cr_key c).
Proof.
  unfold slot_chunk_key_ok. intro E. apply orb_true_iff in E. destruct E as [E|E].
  - apply bytes_eqb_eq in E. rewrite E. apply slot_prefix_shaped.
  - apply andb_true_iff in E. destruct E as [E _]. apply prefixb_true_inv in E. destruct E as (r & E).
    rewrite E. rewrite <- app_assoc. apply slot_prefix_shaped.
Qed.

Lemma validate_slot_chunks_shaped : forall hs cs meta msg lo lb sb rc mx out,
  validate_slot_chunks hs cs meta msg lo lb sb rc mx = Some out ->
  Forall (fun c => slots_shaped (cr_key c)) cs.
Proof.
  induction cs as [|c rest IH]; intros meta msg lo lb sb rc mx out E; [constructor|].
  cbn [validate_slot_chunks] in E.
  destruct (negb (bytes_eqb (cr_kind c) ChunkKindMetadata || bytes_eqb (cr_kind c) ChunkKindMessages)); [discriminate|].
  destruct ((if bytes_eqb (cr_kind c) ChunkKindMetadata then 1 else 2) <? lo); [discriminate|].
  destruct (step_kst (if bytes_eqb (cr_kind c) ChunkKindMetadata then meta else msg) c) as [s'|]; [|discriminate].
  destruct (negb (slot_chunk_key_ok hs (if bytes_eqb (cr_kind c) ChunkKindMetadata then sx "meta" else sx "messages") c)) eqn:Ek;
    [discriminate|].
  destruct (negb (validate_chunk_descriptor (cr_desc c))); [discriminate|].
  destruct (bytes_eqb (cr_kind c) ChunkKindMetadata && negb (cr_max_id c =? 0)); [discriminate|].
  apply negb_false_iff in Ek. constructor; [eapply slot_chunk_key_shaped; exact Ek|].
  eapply IH. exact E.
Qed.

Lemma validate_slot_manifest_shaped m :
  validate_slot_manifest m = None -> Forall (fun c => slots_shaped (cr_key c)) (sm_chunks m).
Proof.
  unfold validate_slot_manifest. intro V.
  repeat match type of V with
         | (if ?c then Some _ else _) = None => destruct c; [discriminate|]
         end.
  destruct (validate_slot_chunks (sm_hash_slot m) (sm_chunks m) (KST 1 0 0 false) (KST 1 1 0 false) 0 0 0 0 0)
    as [out|] eqn:E; [|discriminate].
  eapply validate_slot_chunks_shaped. exact E.
Qed.

Lemma sx_slots_head r : sx "slots/" ++ r = 115 :: (sx "lots/" ++ r).
Proof. reflexivity. Qed.

Lemma root_slots_neq_manifest id r : root_of id ++ sx "slots/" ++ r <> manifest_key id.
Proof. unfold manifest_key. intro E. apply app_inv_head in E. vm_compute in E. discriminate. Qed.
Lemma root_slots_neq_complete id r : root_of id ++ sx "slots/" ++ r <> complete_key id.
Proof. unfold complete_key. intro E. apply app_inv_head in E. vm_compute in E. discriminate. Qed.
Lemma root_neq_catalog id id' r : root_of id ++ r <> catalog_key id'.
Proof. unfold root_of, catalog_key. intro E. vm_compute in E. discriminate. Qed.
Lemma root_neq_repo id r : root_of id ++ r <> RepositoryMarkerKey.
Proof. unfold root_of. intro E. vm_compute in E. discriminate. Qed.
Lemma corrupt_neq_manifest id : corrupt_key id <> manifest_key id.
Proof. unfold manifest_key, corrupt_key. intro E. apply app_inv_head in E. vm_compute in E. discriminate. Qed.
Lemma corrupt_neq_complete id : corrupt_key id <> complete_key id.
Proof. unfold complete_key, corrupt_key. intro E. apply app_inv_head in E. vm_compute in E. discriminate. Qed.

Lemma max_archive_le_stored : maxArchiveManifestBytes <= maxStoredManifestBytes.
Proof. vm_compute. discriminate. Qed.

Section Publish.
  Variable body : Type.
  Variable blen : body -> N.
  Variable H : body -> bytes.
  Variable unz : body -> option (N * bytes).
  Variable json_archive : body -> option archive_manifest.
  Variable json_slot : body -> option slot_manifest.
  Variable json_marker : body -> option complete_marker.
  Variable json_repo : body -> option repo_marker.
  Variable canon_archive : archive_manifest -> body -> bool.
  Variable canon_slot : slot_manifest -> body -> bool.
  Variable canon_marker : complete_marker -> body -> bool.
  Variable canon_repo : repo_marker -> body -> bool.
  Variable enc_archive : archive_manifest -> body.
  Variable enc_marker : complete_marker -> body.
  Variable enc_repo : repo_marker -> body.
  Variable body_eqb : body -> body -> bool.

  (* what the proof needs from the JSON layer and bytes.Equal *)
  Hypothesis body_eqb_eq : forall a b, body_eqb a b = true -> a = b.
  (* decoding an encoding canonically can only give the encoded manifest back *)
  Hypothesis json_enc_archive_inv : forall m m',
    json_archive (enc_archive m) = Some m' -> canon_archive m' (enc_archive m) = true -> m' = m.
  (* the COMPLETE marker is written without being read back: its encoding must decode to it,
     canonically, and be a non-empty object within the manifest cap *)
  Definition marker_faithful (k : complete_marker) : Prop :=
    json_marker (enc_marker k) = Some k /\ canon_marker k (enc_marker k) = true
    /\ 0 < blen (enc_marker k) /\ blen (enc_marker k) <= maxStoredManifestBytes.

  Local Notation store := (store body).
  Local Notation get := (get body).
  Local Notation put := (put body).
  Local Notation read := (read_stored_object body blen).
  Local Notation honest := (honest_object body blen).
  Local Notation load_archive := (load_archive_manifest body json_archive canon_archive).
  Local Notation load_slot := (load_slot_manifest body json_slot canon_slot).
  Local Notation slotref := (load_stored_slot_reference body blen H unz json_slot canon_slot).
  Local Notation verify := (verify_published_archive body blen H unz json_archive json_slot json_marker
                              canon_archive canon_slot canon_marker).
  Local Notation chunk_ok := (chunk_consistentb body blen H unz).
  Local Notation slot_ok := (slot_consistentb body blen H unz json_slot canon_slot).
  Local Notation consistent := (consistentb body blen H unz json_archive json_slot json_marker
                                  canon_archive canon_slot canon_marker).
  Local Notation put_imm := (put_immutable_object body blen body_eqb).
  Local Notation ensure := (ensure_repository body blen json_repo canon_repo enc_repo).
  Local Notation pslots := (publish_slots body blen H unz json_slot canon_slot).
  Local Notation publish := (publish_archive body blen H unz json_archive json_slot json_marker json_repo
                               canon_archive canon_slot canon_marker canon_repo
                               enc_archive enc_marker enc_repo body_eqb).

  (* putImmutableObject and EnsureRepository add at most one object, under a key that was absent *)
  Definition adds_at (st st' : store) (key : bytes) : Prop :=
    st' = st \/ (get st key = None /\ exists b, st' = put key b (blen b) st).

  Lemma adds_frame st st' key : adds_at st st' key -> forall k, k <> key -> get st' k = get st k.
  Proof. intros [->|(_ & b & ->)] k Hne; [reflexivity|]. apply get_put_other. auto. Qed.

  Lemma put_imm_adds st key b st' r :
    put_imm st key b = (st', r) -> adds_at st st' key /\ (r = Ok tt -> get st' key = Some (b, blen b)).
  Proof.
    unfold put_immutable_object, store_put.
    destruct (get st key) as [[b0 sz]|] eqn:G.
    - destruct (read st key maxArchiveManifestBytes) as [ex|e] eqn:R; [|intros [= <- <-]; split; [left; reflexivity|discriminate]].
      destruct (body_eqb ex b) eqn:Eb; intros [= <- <-]; (split; [left; reflexivity|]); [|discriminate].
      intros _. apply body_eqb_eq in Eb. subst ex. apply read_ok_iff, honest_get in R. exact (proj1 R).
    - intros [= <- <-]. split; [right; eauto|intros _; apply get_put_same].
  Qed.

  Lemma ensure_adds st cluster now st' r : ensure st cluster now = (st', r) -> adds_at st st' RepositoryMarkerKey.
  Proof.
    unfold ensure_repository.
    destruct (bytes_eqb cluster [] || (now <=? 0)%Z); [intros [= <- _]; left; reflexivity|].
    destruct (get st RepositoryMarkerKey) as [[b sz]|] eqn:G.
    - destruct ((sz =? 0) || (repo_marker_max <? sz)); [intros [= <- _]; left; reflexivity|].
      destruct (negb (blen b =? sz)); [intros [= <- _]; left; reflexivity|].
      destruct (load_repository_marker body json_repo canon_repo b) as [m|e]; [|intros [= <- _]; left; reflexivity].
      destruct (bytes_eqb (rm_cluster m) cluster); intros [= <- _]; left; reflexivity.
    - destruct (marshal_repository_marker body enc_repo _) as [b|e]; [|intros [= <- _]; left; reflexivity].
      unfold store_put. rewrite G. intros [= <- _]. right. eauto.
  Qed.

  Lemma put_imm_spec st key b st' :
    put_imm st key b = (st', Ok tt) ->
    get st' key = Some (b, blen b) /\ (forall k, k <> key -> get st' k = get st k).
  Proof. intros [A G]%put_imm_adds. split; [exact (G eq_refl)|exact (adds_frame _ _ _ A)]. Qed.

  Lemma chunk_ok_ext st st' root c :
    get st' (root ++ cr_key c) = get st (root ++ cr_key c) -> chunk_ok st' root c = chunk_ok st root c.
  Proof. intro E. unfold chunk_consistentb. rewrite E. reflexivity. Qed.

  Lemma slot_ok_ext st st' id i r :
    slots_shaped (sr_key r) ->
    (forall k, get st' (root_of id ++ sx "slots/" ++ k) = get st (root_of id ++ sx "slots/" ++ k)) ->
    slot_ok st id i r = true -> slot_ok st' id i r = true.
  Proof.
    intros (kr & Ekr) Hag. unfold slot_consistentb, honest_object. rewrite Ekr, Hag.
    intro C. apply andb_true_iff in C. destruct C as [C0 C]. rewrite C0. cbn [andb].
    destruct (get st (root_of id ++ sx "slots/" ++ kr)) as [[b sz]|]; [|discriminate].
    destruct ((sz =? blen b) && (0 <? sz) && (sz <=? maxStoredManifestBytes)); [|discriminate].
    destruct (load_slot b) as [sm|e] eqn:L; [|discriminate].
    apply andb_true_iff in C. destruct C as [C1 C2]. rewrite C1. cbn [andb].
    pose proof (validate_slot_manifest_shaped sm (proj1 (proj2 (proj1 (load_slot_iff _ _ _ _ _) L)))) as Hsh.
    rewrite <- C2. apply forallb_ext_in.
    intros c Hin. rewrite Forall_forall in Hsh. destruct (Hsh c Hin) as (kc & Ekc).
    apply chunk_ok_ext. rewrite Ekc. apply Hag.
  Qed.

  Lemma slots_ok_ext st st' id : forall slots i,
    Forall (fun r => slots_shaped (sr_key r)) slots ->
    (forall k, get st' (root_of id ++ sx "slots/" ++ k) = get st (root_of id ++ sx "slots/" ++ k)) ->
    forallb_idx (slot_ok st id) i slots = true -> forallb_idx (slot_ok st' id) i slots = true.
  Proof.
    induction slots as [|r rest IH]; intros i Hsh Hag C; [reflexivity|].
    cbn [forallb_idx] in *. inversion Hsh; subst. apply andb_true_iff in C. destruct C as [C1 C2].
    rewrite (slot_ok_ext st st' id i r); auto. cbn [andb]. apply IH; auto.
  Qed.

  Lemma consistent_ext st st' id m :
    (forall k, get st' (root_of id ++ k) = get st (root_of id ++ k)) ->
    consistent st id m = true -> consistent st' id m = true.
  Proof.
    intros Hag. rewrite !consistent_iff. unfold honest_object, manifest_key, complete_key, corrupt_key.
    rewrite !Hag. intros (Hid & Hc & mb & kb & k & Hm & Hk & La & Ei & Jk & Vk & Ck & Eb & Es & S).
    split; [exact Hid|]. split; [exact Hc|]. exists mb, kb, k. repeat split; try assumption.
    destruct (load_archive_slots _ _ _ _ _ La) as (_ & Hwf).
    apply (slots_ok_ext st st' id); [|intro k0; apply Hag|exact S].
    rewrite Forall_forall in *. intros r Hin. destruct (Hwf r Hin) as (_ & Hkey & _).
    exact (slot_manifest_key_shaped _ _ Hkey).
  Qed.

  Lemma slotref_inv st id r a sm :
    slotref st id r true = Ok (a, sm) ->
    a = r /\ slots_shaped (sr_key r) /\ slot_ok st id (sr_hash_slot r) r = true.
  Proof.
    intro E. pose proof (is_ok_slotref body blen H unz json_slot canon_slot st id r) as Ok'. rewrite E in Ok'.
    symmetry in Ok'. apply andb_true_iff in Ok' as [Wf Hok]. apply negb_true_iff, orb_false_iff in Wf as [Wf _].
    apply orb_false_iff in Wf as [_ Hk%negb_false_iff].
    split; [exact (slotref_returns_expected _ _ _ _ _ _ _ _ _ _ _ _ E)|]. split; [exact (slot_manifest_key_shaped _ _ Hk)|exact Hok].
  Qed.

  Lemma publish_slots_spec st id : forall slots i refs lb sb rc mx cs ce out tot cut,
    pslots st id i slots refs lb sb rc mx cs ce = Ok (out, tot, cut) ->
    out = rev refs ++ slots
    /\ Forall (fun r => slots_shaped (sr_key r)) slots
    /\ forallb_idx (slot_ok st id) i slots = true.
  Proof.
    induction slots as [|r rest IH]; intros i refs lb sb rc mx cs ce out tot cut E.
    - cbn [publish_slots] in E. inversion E. rewrite app_nil_r. repeat split; constructor.
    - cbn [publish_slots] in E.
      destruct (negb (sr_hash_slot r =? i)) eqn:Ei; [discriminate|].
      apply negb_false_iff in Ei. apply N.eqb_eq in Ei.
      destruct (slotref st id r true) as [[a sm]|e] eqn:Er; [|discriminate].
      apply slotref_inv in Er. destruct Er as (Ea & Hsh & Hok). subst a.
      apply IH in E. destruct E as (Eo & Hshs & Hoks).
      split; [rewrite Eo; cbn [rev]; rewrite <- app_assoc; reflexivity|].
      split; [constructor; assumption|].
      cbn [forallb_idx]. rewrite <- Ei at 1. rewrite Hok. exact Hoks.
  Qed.

  Inductive extends (st : store) : store -> Prop :=
  | ext_refl : extends st st
  | ext_put st' k b : extends st st' -> get st' k = None -> extends st (put k b (blen b) st').

  Lemma extends_news st st' : extends st st' ->
    exists news, st' = news ++ st
                 /\ Forall (fun e => get st (fst e) = None /\ snd e <> None) news
                 /\ (forall k, get st' k = None -> get st k = None).
  Proof.
    induction 1 as [|st' k b Hex IH Hk].
    - exists []. repeat split; auto.
    - destruct IH as (news & E & Hall & Hnone).
      exists ((k, Some (b, blen b)) :: news). subst st'. repeat split.
      + constructor; [|exact Hall]. cbn [fst snd]. split; [apply Hnone; exact Hk|discriminate].
      + intros k0 G. unfold Archive.put in G. cbn [Archive.get] in G.
        destruct (bytes_eqb k k0); [discriminate|]. apply Hnone. exact G.
  Qed.

  Lemma adds_extends st0 st st' key : extends st0 st -> adds_at st st' key -> extends st0 st'.
  Proof. intros Hex [->|(G & b & ->)]; [exact Hex|apply ext_put; assumption]. Qed.

  Lemma put_imm_extends st0 st key b st' r :
    extends st0 st -> put_imm st key b = (st', r) -> extends st0 st'.
  Proof. intros Hex [A _]%put_imm_adds. exact (adds_extends _ _ _ _ Hex A). Qed.

  (* PublishArchive only adds objects under absent keys, and what it reports as published is a
     complete, bound archive.  Faithfulness of the marker encoding is asked only of the marker this
     run wrote (fresh publication): the table instance of the case monitor knows [enc_marker k] only
     when it is one of the observed writes; [published_verifies] asks it of every valid marker. *)
  Lemma publish_spec st rq st' r :
    publish st rq = (st', r) ->
    extends st st'
    /\ match r with
       | Ok m =>
         get st (corrupt_key (pr_id rq)) = None ->
         (forall k, get st (complete_key (pr_id rq)) = None ->
                    get st' (complete_key (pr_id rq)) = Some (enc_marker k, blen (enc_marker k)) ->
                    validate_complete_marker k = None -> cm_bytes k <= maxArchiveManifestBytes -> marker_faithful k) ->
         consistent st' (pr_id rq) m = true
       | Err _ => True
       end.
  Proof.
    unfold publish_archive. set (id := pr_id rq). intro P. pose proof (ext_refl st) as X0.
    destruct (read st (complete_key id) maxArchiveManifestBytes) as [existing|e] eqn:Rc.
    - (* COMPLETE already there: verify, then (re)write the catalog entry *)
      destruct (verify st id) as [m0|e] eqn:V; [|injection P as <- <-; exact (conj X0 I)].
      destruct (negb (bytes_eqb (am_trigger m0) (pr_trigger rq)) || negb (bytes_eqb (am_cluster m0) (pr_cluster rq))
                || negb (bytes_eqb (am_app m0) (pr_app rq)) || negb (am_started m0 =? pr_started rq)%Z
                || negb (am_completed m0 =? pr_completed rq)%Z); [injection P as <- <-; exact (conj X0 I)|].
      destruct (put_imm st (catalog_key id) existing) as [st1 [[]|e]] eqn:Pc; injection P as <- <-;
        (split; [exact (put_imm_extends _ _ _ _ _ _ X0 Pc)|]); [|exact I].
      intros _ _. apply put_imm_spec in Pc as (_ & Hfr).
      apply (consistent_ext st st1 id m0); [|apply verify_sound; exact V].
      intro k. apply Hfr, root_neq_catalog.
    - destruct e; try (injection P as <- <-; exact (conj X0 I)).
      (* fresh publication *)
      apply read_not_found in Rc as Gc.
      destruct (ensure st (pr_cluster rq) (pr_completed rq)) as [st1 [rm|e]] eqn:En;
        pose proof (adds_extends _ _ _ _ X0 (ensure_adds _ _ _ _ _ En)) as X1; [|injection P as <- <-; exact (conj X1 I)].
      pose proof (adds_frame _ _ _ (ensure_adds _ _ _ _ _ En)) as F1.
      destruct (negb (N.of_nat (length (pr_slots rq)) =? DefaultHashSlotCount)); [injection P as <- <-; exact (conj X1 I)|].
      destruct (pslots st1 id 0 (pr_slots rq) [] 0 0 0 0 0%Z 0%Z) as [[[refs [[[lb sb] rc] mx]] [cs ce]]|e] eqn:Ps;
        [|injection P as <- <-; exact (conj X1 I)].
      apply publish_slots_spec in Ps as (Erefs & Hsh & Hoks). cbn [rev app] in Erefs. subst refs.
      set (m1 := AM ArchiveFormat ArchiveVersion id (pr_trigger rq) (pr_cluster rq) (pr_app rq)
                    (Z.of_N DefaultHashSlotCount) (pr_started rq) (pr_completed rq) cs ce
                    CompressionZstd ChecksumSHA256 lb sb rc mx (pr_slots rq)) in *.
      unfold marshal_archive_manifest in P.
      destruct (validate_archive_manifest m1) eqn:Vm; [injection P as <- <-; exact (conj X1 I)|].
      destruct (put_imm st1 (manifest_key id) (enc_archive m1)) as [st2 [[]|e]] eqn:P2;
        pose proof (put_imm_extends _ _ _ _ _ _ X1 P2) as X2; [|injection P as <- <-; exact (conj X2 I)].
      apply put_imm_spec in P2 as (G2 & F2).
      destruct (read st2 (manifest_key id) maxArchiveManifestBytes) as [loaded|e] eqn:R2;
        [|injection P as <- <-; exact (conj X2 I)].
      apply read_ok_iff, honest_get in R2 as (G2' & Hpos & Hle).
      rewrite G2 in G2'. injection G2' as Eloaded. rewrite <- Eloaded in *. clear Eloaded loaded.
      destruct (load_archive (enc_archive m1)) as [m2|e] eqn:La; [|injection P as <- <-; exact (conj X2 I)].
      unfold new_complete_marker in P. rewrite La in P.
      set (k := CM CompleteMarkerFormat CompleteMarkerVersion (H (enc_archive m1)) (blen (enc_archive m1))) in *.
      unfold marshal_complete_marker in P.
      destruct (validate_complete_marker k) eqn:Vk; [injection P as <- <-; exact (conj X2 I)|].
      destruct (put_imm st2 (complete_key id) (enc_marker k)) as [st3 [[]|e]] eqn:P3;
        pose proof (put_imm_extends _ _ _ _ _ _ X2 P3) as X3; [|injection P as <- <-; exact (conj X3 I)].
      apply put_imm_spec in P3 as (G3 & F3).
      destruct (put_imm st3 (catalog_key id) (enc_marker k)) as [st4 [[]|e]] eqn:P4;
        pose proof (put_imm_extends _ _ _ _ _ _ X3 P4) as X4; injection P as <- <-; (split; [exact X4|]); [|exact I].
      apply put_imm_spec in P4 as (_ & F4). intros Hnc Hmk.
      (* the later puts go to other keys, so each object of the archive is still as written *)
      assert (Gm : get st4 (manifest_key id) = Some (enc_archive m1, blen (enc_archive m1))).
      { rewrite F4 by (unfold manifest_key; apply root_neq_catalog).
        rewrite F3 by apply manifest_neq_complete. exact G2. }
      assert (Gk : get st4 (complete_key id) = Some (enc_marker k, blen (enc_marker k))).
      { rewrite F4 by (unfold complete_key; apply root_neq_catalog). exact G3. }
      assert (Gx : get st4 (corrupt_key id) = None).
      { rewrite F4 by (unfold corrupt_key; apply root_neq_catalog).
        rewrite F3 by apply corrupt_neq_complete. rewrite F2 by apply corrupt_neq_manifest.
        rewrite F1 by (unfold corrupt_key; apply root_neq_repo). exact Hnc. }
      assert (Gs : forall x, get st4 (root_of id ++ sx "slots/" ++ x) = get st1 (root_of id ++ sx "slots/" ++ x)).
      { intro x. rewrite F4 by apply root_neq_catalog. rewrite F3 by apply root_slots_neq_complete.
        rewrite F2 by apply root_slots_neq_manifest. reflexivity. }
      assert (Ja : json_archive (enc_archive m1) = Some m1 /\ canon_archive m1 (enc_archive m1) = true).
      { apply load_archive_iff in La as (J3 & _ & C3).
        assert (m2 = m1) by (apply json_enc_archive_inv; assumption). subst m2. split; assumption. }
      destruct Ja as (Ja & Ca).
      destruct (Hmk k Gc Gk Vk Hle) as (Jk & Ck & Kpos & Kle).
      apply consistent_iff. split; [exact (valid_archive_id m1 Vm)|]. split; [exact Gx|].
      exists (enc_archive m1), (enc_marker k), k. pose proof max_archive_le_stored.
      split; [apply honest_intro; [exact Gm|exact Hpos|lia]|]. split; [apply honest_intro; assumption|].
      split; [apply load_archive_iff; auto|]. cbn [am_slots m1].
      repeat split; try assumption. apply (slots_ok_ext st1 st4 id); assumption.
  Qed.

  Theorem published_verifies st rq st' m :
    publish st rq = (st', Ok m) -> get st (corrupt_key (pr_id rq)) = None ->
    (forall k, validate_complete_marker k = None -> cm_bytes k <= maxArchiveManifestBytes -> marker_faithful k) ->
    verify st' (pr_id rq) = Ok m.
  Proof.
    intros P Hnc Hmk. apply verify_complete, (proj2 (publish_spec _ _ _ _ P)); [exact Hnc|].
    intros k _ _ Vk Hle. apply Hmk; assumption.
  Qed.
End Publish.
