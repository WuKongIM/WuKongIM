(* Proof/SlotFSM_monitor.v — the monitor of C13 accepts every trace of the model on logs of good
   commands whose one-command-per-batch run meets no error: C13_monitor = 0 on the case built
   from the model's own runs (any digest function that ignores the applied index, any hash of
   the result bytes, any batch partitions; no snapshot observations).  Each batch is compared with
   its segment of the reference run by overlay_batch.  Read on an implementation trace this needs
   the assumption that the snapshot digest and the result bytes are functions of the modelled
   tables and results; the snapshot clause of the monitor is not covered. *)
From WK Require Import Base.Base Base.Lists.
From WK Require Import Gen.Consts_C15 Gen.Consts_C17 Gen.Consts_C13.
From WK Require Import Model.RuntimeMeta Model.ChanMigration Model.SlotFSM Model.SlotFSM_tlv Model.SlotFSM_C13.
From WK Require Import Proof.SlotFSM_machine Proof.SlotFSM_inst Proof.SlotFSM_props.
Open Scope N_scope.

Lemma stage_all_good_ops cfg d : forall cs b ops rs,
    Forall good_cmd cs -> stage_all (fsm_stage cfg) d b cs = inr (ops, rs) -> Forall good_wop ops.
Proof.
  induction cs as [|c cs IH]; intros b ops rs Hg H; cbn [stage_all] in H.
  - inversion H. constructor.
  - inversion Hg as [|? ? Hc Hcs]; subst.
    rewrite (stage_good_view cfg d b c Hc) in H.
    destruct (stage_view cfg (load_state d b) (delta_seen d b) c) as [e|key upd ops_c r] eqn:S; cbn [lift_view] in H; [discriminate|].
    set (b' := upd_b _ _ _) in H. destruct (stage_all (fsm_stage cfg) d b' cs) as [e|[ops_r rs']] eqn:Sr; [discriminate|].
    inversion H; subst. apply Forall_app. split; [exact (stage_view_ops_good _ _ _ _ _ _ _ _ S)|exact (IH _ _ _ Hcs Sr)].
Qed.

Lemma max_code_zero l : Forall (fun x => x = 0) l -> max_code l = 0.
Proof. induction 1 as [|x l -> _ IH]; cbn [max_code]; [reflexivity|]. rewrite IH. reflexivity. Qed.

Definition last_index (cs : list fcmd) : N := match rev cs with c :: _ => fc_index c | [] => 0 end.

(* a good batch that returns results committed in one piece: the watermark is the last index *)
Lemma good_batch_applied cfg d cs d' rs :
  Forall good_cmd cs -> last_index cs <> 0 ->
  fsm_apply_batch cfg d cs = (d', BRes rs) -> st_applied_index d' = last_index cs.
Proof.
  intros Hg Hl H. unfold fsm_apply_batch, ApplyBatch, apply_core in H.
  destruct (stage_all (fsm_stage cfg) d bstate0 cs) as [e|[ops rs0]] eqn:St; [discriminate|].
  pose proof (stage_all_good_ops cfg d cs bstate0 ops rs0 Hg St) as G.
  assert (Gf : Forall good_wop (ops ++ fsm_finish cs)).
  { apply Forall_app. split; [exact G|]. unfold fsm_finish. destruct (rev cs) as [|c r]; [constructor|].
    destruct (fc_index c =? 0); repeat constructor. }
  rewrite (run_ops_good _ d (fsm_v0 d) Gf) in H. inversion H; subst. clear H.
  cbn [fsm_flush ca_pend fsm_v0]. rewrite fold_left_app. unfold fsm_finish, last_index in *.
  destruct (rev cs) as [|c r]; [contradiction|].
  assert (E : (fc_index c =? 0) = false) by (apply N.eqb_neq; exact Hl). rewrite E. reflexivity.
Qed.

Lemma to_fcmds_app a : forall i b, to_fcmds i (a ++ b) = to_fcmds i a ++ to_fcmds (i + N.of_nat (length a)) b.
Proof.
  induction a as [|e a IH]; intros i b; cbn [app to_fcmds length].
  - rewrite N.add_0_r. reflexivity.
  - rewrite IH. do 3 f_equal. lia.
Qed.

Lemma to_fcmds_length i es : length (to_fcmds i es) = length es.
Proof. revert i. induction es as [|e es IH]; intro i; cbn [to_fcmds length]; [reflexivity|]. rewrite IH. reflexivity. Qed.

Lemma to_fcmds_last es i : es <> [] -> last_index (to_fcmds i es) = i + N.of_nat (length es) - 1.
Proof.
  intro Hne. destruct (exists_last Hne) as (l & a & ->). unfold last_index.
  rewrite to_fcmds_app. cbn [to_fcmds]. rewrite rev_unit, app_length. cbn [fc_index length]. lia.
Qed.

Lemma res_eqb_refl x : res_eqb x x = true.
Proof. unfold res_eqb. rewrite !N.eqb_refl. reflexivity. Qed.

(* the monitor alone: a batch that returns the results of its reference segment, reaches the
   segment's digest and has its applied index inside the allowed window advances the walk *)
Lemma walk_step st done ref_b ref_r eb er s sizes o orest rs :
  length ref_b = N.to_nat s -> length eb = N.to_nat s ->
  seg_results ref_b = Some rs -> bo_out o = BOk rs ->
  let st' := fold_left seg_step ref_b st in
  bo_digest o = w_digest st' ->
  (w_floor st' <= N.to_nat (bo_applied o) <= w_pos st')%nat ->
  walk st done (ref_b ++ ref_r) (eb ++ er) (s :: sizes) (o :: orest) = walk st' (done ++ eb) ref_r er sizes orest.
Proof.
  intros Hrl Hel Hseg Hout st' Hdg (A1 & A2). apply Nat.leb_le in A1, A2.
  assert (E : length ref_b = length eb) by congruence.
  cbn [walk]. rewrite <- Hrl. cbv zeta.
  rewrite !firstn_app_exact, !skipn_app_exact, E, firstn_app_exact, skipn_app_exact.
  rewrite Hseg, Nat.eqb_refl, Hout, (list_eqb_refl _ res_eqb_refl). fold st'.
  rewrite Hdg, N.eqb_refl, A1, A2. reflexivity.
Qed.

Section ModelCase.
  Variable cfg : fsm_cfg.
  Variable dg : store -> N.                       (* digest of the tables *)
  Hypothesis dg_eqv : forall a b, store_eqv a b -> dg a = dg b.
  Variable hr : fres -> N.                        (* hash of the result bytes *)

  Notation singles := (fsm_apply_individually cfg).
  Notation one := (fsm_apply_one cfg).

  Definition robs (r : fres) : N * N := (fst r, hr r).

  Definition obs_of (s : store) (out : @bres fres) : bobs :=
    BObs (match out with BErr e => BFatal e | BRes rs => BOk (map robs rs) end) (dg s) (st_applied_index s).

  Fixpoint ref_run (s : store) (cs : list fcmd) : list bobs :=
    match cs with
    | [] => []
    | c :: r => let '(s', out) := fsm_apply_batch cfg s [c] in
                obs_of s' out :: match out with BErr _ => [] | BRes _ => ref_run s' r end
    end.

  Fixpoint part_run (s : store) (bs : list (list fcmd)) : list bobs :=
    match bs with
    | [] => []
    | b :: r => let '(s', out) := fsm_apply_batch cfg s b in
                obs_of s' out :: match out with BErr _ => [] | BRes _ => part_run s' r end
    end.

  Definition model_case (es : list entry) (szs : list (list N)) : c13_case :=
    let cs := to_fcmds 1 es in
    C13Case cfg true es (dg store_empty) (ref_run store_empty cs)
            (map (fun sz => Part sz (part_run store_empty (split_sizes sz cs)) None) szs) [] None.

  Lemma singles_cons s c r s' rs :
    singles s (c :: r) = (s', BRes rs) ->
    exists s1 x rs', one s c = (s1, inr x) /\ singles s1 r = (s', BRes rs') /\ rs = x :: rs'.
  Proof.
    unfold fsm_apply_individually. cbn [apply_individually].
    destruct (one s c) as [s1 [e|x]] eqn:O; [discriminate|].
    destruct (apply_individually _ _ _ _ _ _ _ s1 r) as [s2 [e|rs']] eqn:R; [discriminate|].
    intro H. inversion H; subst. exists s1, x, rs'. auto.
  Qed.

  Lemma ref_run_cons s c r s1 x :
    one s c = (s1, inr x) -> ref_run s (c :: r) = obs_of s1 (BRes [x]) :: ref_run s1 r.
  Proof. intro H. cbn [ref_run]. rewrite batch_single, H. reflexivity. Qed.

  Lemma ref_run_length cs : forall s sfin rs, singles s cs = (sfin, BRes rs) -> length (ref_run s cs) = length cs.
  Proof.
    induction cs as [|c cs IH]; intros s sfin rs H; [reflexivity|].
    destruct (singles_cons _ _ _ _ _ H) as (s1 & x & rs' & H1 & Hr & _).
    rewrite (ref_run_cons _ _ _ _ _ H1). cbn [length]. rewrite (IH _ _ _ Hr). reflexivity.
  Qed.

  Lemma ref_run_app a : forall s b s' rs,
      singles s (a ++ b) = (s', BRes rs) ->
      exists sa ra rb, singles s a = (sa, BRes ra) /\ singles sa b = (s', BRes rb) /\ rs = ra ++ rb
                       /\ ref_run s (a ++ b) = ref_run s a ++ ref_run sa b.
  Proof.
    induction a as [|c a IH]; intros s b s' rs H.
    - exists s, [], rs. cbn. auto.
    - cbn [app] in H. destruct (singles_cons _ _ _ _ _ H) as (s1 & x & rs' & H1 & Hr & ->).
      destruct (IH s1 b s' rs' Hr) as (sa & ra & rb & Ha & Hb & -> & Happ).
      exists sa, (x :: ra), rb. split.
      + unfold fsm_apply_individually in *. cbn [apply_individually]. rewrite H1, Ha. reflexivity.
      + split; [exact Hb|]. split; [reflexivity|].
        cbn [app]. rewrite !(ref_run_cons _ _ _ _ _ H1), Happ. reflexivity.
  Qed.

  Lemma ref_segment a : forall s sa ra,
      singles s a = (sa, BRes ra) ->
      seg_results (ref_run s a) = Some (map robs ra)
      /\ forall pos dgst floor, (floor <= pos)%nat ->
         exists floor',
           fold_left seg_step (ref_run s a) (WSt pos dgst floor)
           = WSt (pos + length a) (match a with [] => dgst | _ => dg sa end) floor'
           /\ (floor' <= pos + length a)%nat.
  Proof.
    induction a as [|c a IH]; intros s sa ra H.
    - cbn in H. inversion H; subst. split; [reflexivity|]. intros pos dgst floor Hf.
      exists floor. cbn. rewrite Nat.add_0_r. auto.
    - destruct (singles_cons _ _ _ _ _ H) as (s1 & x & rs' & H1 & Hr & ->).
      destruct (IH _ _ _ Hr) as (Hseg & Hfold). rewrite (ref_run_cons _ _ _ _ _ H1). split.
      + cbn [seg_results obs_of bo_out map]. rewrite Hseg. reflexivity.
      + intros pos dgst floor Hf. cbn [fold_left].
        (* a stale_meta result leaves the floor where it was, any other moves it to this command *)
        assert (Hstep : exists f1, seg_step (WSt pos dgst floor) (obs_of s1 (BRes [x])) = WSt (S pos) (dg s1) f1 /\ (f1 <= S pos)%nat).
        { unfold seg_step, obs_of. cbn [bo_out map robs bo_digest w_pos w_floor].
          destruct (fst x =? R_STALE); eexists; split; try reflexivity; lia. }
        destruct Hstep as (f1 & -> & Hf1). destruct (Hfold (S pos) (dg s1) f1 Hf1) as (floor' & -> & Hfl).
        exists floor'. cbn [length]. split; [|lia].
        f_equal; [lia|]. destruct a; [|reflexivity]. cbn in Hr. inversion Hr. reflexivity.
  Qed.

  Lemma split_sizes_concat sizes : forall (l : list fcmd),
      fold_right (fun s acc => (N.to_nat s + acc)%nat) 0%nat sizes = length l ->
      concat (split_sizes sizes l) = l.
  Proof.
    induction sizes as [|s sizes IH]; intros l H; cbn [split_sizes concat fold_right] in *.
    - destruct l; [reflexivity|discriminate].
    - rewrite IH; [apply firstn_skipn|]. rewrite skipn_length. lia.
  Qed.

  Lemma walk_model sizes : forall es pos sr sp floor sfin rs done,
      let i := N.of_nat pos + 1 in
      let cs := to_fcmds i es in
      Forall good_cmd cs ->
      store_eqv sp sr ->
      (floor <= pos)%nat ->
      singles sr cs = (sfin, BRes rs) ->
      Forall (fun s => 1 <= s) sizes ->
      fold_right (fun s acc => (N.to_nat s + acc)%nat) 0%nat sizes = length es ->
      walk (WSt pos (dg sr) floor) done (ref_run sr cs) es sizes (part_run sp (split_sizes sizes cs)) = 0.
  Proof.
    induction sizes as [|s sizes IH]; intros es pos sr sp floor sfin rs done i cs Hg E Hfl Hs Hsz Hsum; [reflexivity|].
    inversion Hsz as [|? ? Hs1 Hszr]; subst. cbn [fold_right] in Hsum.
    set (len := N.to_nat s) in *. set (eb := firstn len es). set (er := skipn len es).
    assert (Hel : length eb = len) by (apply firstn_length_le; lia).
    assert (Hne : eb <> []) by (intro X; rewrite X in Hel; cbn in Hel; lia).
    assert (Hcs : cs = to_fcmds i eb ++ to_fcmds (N.of_nat (pos + len) + 1) er).
    { subst cs. rewrite <- (firstn_skipn len es) at 1. fold eb er. rewrite to_fcmds_app, Hel. do 2 f_equal. subst i. lia. }
    set (b := to_fcmds i eb) in *. set (rest := to_fcmds (N.of_nat (pos + len) + 1) er) in *.
    assert (Hbl : length b = len) by (subst b; rewrite to_fcmds_length; exact Hel).
    clearbody cs. subst cs. apply Forall_app in Hg. destruct Hg as (Hgb & Hgr).
    destruct (ref_run_app b sr rest sfin rs Hs) as (sb & rb & rr & Hsb & Hsr & -> & Happ).
    pose proof (ref_run_length b sr sb rb Hsb) as Hrl.
    destruct (overlay_batch (R:=fres) _ _ _ _ _ _ (R_STALE, []) _ _ _ _ _ (fsm_overlay_machine cfg) sr sp b sb rb Hgb E Hsb)
      as (sp' & HB & E'). change (fsm_apply_batch cfg sp b = (sp', BRes rb)) in HB.
    destruct (ref_segment b sr sb rb Hsb) as (Hseg & Hst).
    destruct (Hst pos (dg sr) floor Hfl) as (floor' & Hfold & Hfl').
    rewrite Hbl in Hfold, Hfl', Hrl.
    assert (Hfold' : fold_left seg_step (ref_run sr b) (WSt pos (dg sr) floor) = WSt (pos + len) (dg sb) floor').
    { rewrite Hfold. destruct b; [cbn in Hbl; lia|reflexivity]. }
    assert (Hap : st_applied_index sp' = N.of_nat (pos + len)).
    { rewrite (good_batch_applied cfg sp b sp' rb Hgb); [| |exact HB]; unfold b at 1;
        rewrite (to_fcmds_last _ _ Hne), Hel; subst i; lia. }
    cbn [split_sizes part_run]. fold len. rewrite <- Hbl, firstn_app_exact, skipn_app_exact, HB, Happ.
    rewrite <- (firstn_skipn len es) at 1. fold eb er.
    rewrite (walk_step _ _ _ _ _ _ _ _ (obs_of sp' (BRes rb)) _ (map robs rb) Hrl Hel Hseg eq_refl);
      rewrite Hfold'; cbn [obs_of bo_digest bo_applied w_digest w_floor w_pos].
    - apply (IH er (pos + len)%nat sb sp' floor' sfin rr (done ++ eb)); auto.
      subst er. rewrite skipn_length. lia.
    - apply dg_eqv. exact E'.
    - rewrite Hap, Nat2N.id. lia.
  Qed.

  (* an accepted command is for an owned hash slot or is migration maintenance (resolve_unowned) *)
  Lemma accepted_not_refused c s1 x s e :
    one s c = (s1, inr x) ->
    fc_slot_ok c = e_slot_ok e -> fc_hs c = e_hs e -> fc_cmd c = e_cmd e ->
    must_be_refused cfg e = false.
  Proof.
    intros H Hso Hhs Hcmd. destruct (accepted_resolves cfg s c s1 x H) as (So & hs & R).
    unfold must_be_refused, type_byte. rewrite <- Hso, So, <- Hhs, <- Hcmd. cbn [negb orb].
    destruct (memN (if (fc_hs c =? 0) && cfg_allow_legacy cfg then cfg_legacy cfg else fc_hs c) (cfg_owned cfg)) eqn:Ow;
      [reflexivity|].
    destruct (isMigrationMaintenanceCommand (fc_cmd c)) eqn:Mt; [|rewrite (resolve_unowned cfg c Mt Ow) in R; discriminate].
    destruct (fc_cmd c); try discriminate Mt; reflexivity.
  Qed.

  Lemma ref_ok_model es : forall pos sr sfin rs c0,
      let i := N.of_nat pos + 1 in
      let cs := to_fcmds i es in
      Forall good_cmd cs ->
      singles sr cs = (sfin, BRes rs) ->
      c_cfg c0 = cfg ->
      ref_ok c0 pos es (ref_run sr cs) (dg sr) (st_applied_index sr) = true.
  Proof.
    induction es as [|e es IH]; intros pos sr sfin rs c0 i cs Hg Hs Hcfg.
    - reflexivity.
    - cbn [to_fcmds] in cs. subst cs. inversion Hg as [|? ? Hc Hcs]; subst.
      destruct (singles_cons _ _ _ _ _ Hs) as (s1 & x & rs' & H1 & Hr & ->).
      rewrite (ref_run_cons _ _ _ _ _ H1). cbn [ref_ok obs_of bo_out map bo_applied bo_digest].
      rewrite Hcfg.
      rewrite (accepted_not_refused _ s1 x sr e H1) by reflexivity. cbn [negb andb].
      assert (Hap : st_applied_index s1 = N.of_nat (S pos)).
      { pose proof (batch_single cfg sr (FCmd (e_slot_ok e) (e_hs e) i (e_cmd e) (e_data e))) as Hb. rewrite H1 in Hb.
        rewrite (good_batch_applied cfg sr [FCmd (e_slot_ok e) (e_hs e) i (e_cmd e) (e_data e)] s1 [x]); auto;
          unfold last_index; cbn; subst i; lia. }
      rewrite Hap, N.eqb_refl. cbn [orb andb].
      replace (i + 1) with (N.of_nat (S pos) + 1) in * by (subst i; lia).
      rewrite <- Hap at 2.
      apply (IH (S pos) s1 sfin rs' c0); auto.
  Qed.

  Theorem model_satisfies_monitor es szs sfin rs :
    Forall good_cmd (to_fcmds 1 es) ->
    singles store_empty (to_fcmds 1 es) = (sfin, BRes rs) ->
    Forall (fun sizes => Forall (fun s => 1 <= s) sizes
                         /\ fold_right (fun s acc => (N.to_nat s + acc)%nat) 0%nat sizes = length es) szs ->
    C13_monitor (model_case es szs) = 0.
  Proof.
    intros Hg Hs Hszs. unfold C13_monitor.
    set (c := model_case es szs).
    assert (Hr : ref_ok c 0 (c_log c) (c_ref c) (c_d0 c) 0 = true).
    { exact (ref_ok_model es 0 store_empty sfin rs c Hg Hs eq_refl). }
    assert (Hc : ref_complete c = true).
    { unfold ref_complete. subst c. cbn [model_case c_ref c_log].
      rewrite (ref_run_length _ _ _ _ Hs), to_fcmds_length, Nat.eqb_refl. reflexivity. }
    rewrite Hr, Hc. cbn [andb negb]. subst c. cbn [model_case c_snaps forallb negb c_parts c_ref c_log c_d0].
    rewrite map_map. cbn [p_sizes p_obs].
    assert (Hall : forall sz, In sz szs ->
               walk (WSt 0 (dg store_empty) 0) [] (ref_run store_empty (to_fcmds 1 es)) es sz
                    (part_run store_empty (split_sizes sz (to_fcmds 1 es))) = 0).
    { intros sz Hin. rewrite Forall_forall in Hszs. destruct (Hszs sz Hin) as (H1 & H2).
      apply (walk_model sz es 0 store_empty store_empty 0 sfin rs []); auto.
      apply store_eqv_refl. }
    apply max_code_zero, Forall_map, Forall_forall. exact Hall.
  Qed.
End ModelCase.
