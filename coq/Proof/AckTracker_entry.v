(* Proof/AckTracker_entry.v — ackTrackerEntry: the primary/extra-attempt
   representation with swap-remove refines "committed flag + set of live
   reservations". *)
From WK Require Import Base.Base Model.AckTracker Proof.AckTracker_map.
From Coq Require Import Permutation.
Open Scope N_scope.

Definition ext_live (l : list attempt) : list (N * Z) :=
  map (fun a => (a_token a, p_at (a_pending a))) l.
Definition prim_live (e : entry) : list (N * Z) :=
  if e_primary e =? 0 then [] else [(e_primary e, p_at (e_pending e))].
Definition abs_live (e : entry) : list (N * Z) := prim_live e ++ ext_live (e_extra e).
Definition abs_committed (e : entry) : option Z :=
  if e_committed e then Some (p_at (e_pending e)) else None.
Definition abs_entry (e : entry) : sentry := SEnt (abs_committed e) (abs_live e).

(* committed entries have no primary; an uncommitted entry without primary has
   no reservation at all; tokens are non-zero and pairwise distinct *)
Record entry_wf (e : entry) : Prop := {
  wf_committed : e_committed e = true -> e_primary e = 0;
  wf_noprimary : e_committed e = false -> e_primary e = 0 -> e_extra e = [];
  wf_nodup : NoDup (map fst (abs_live e));
  wf_nonzero : ~ In 0 (map fst (abs_live e)) }.

(* with wf_noprimary: something is left of the row; CancelBind keeps it exactly then *)
Definition entry_alive (e : entry) : Prop := e_committed e = true \/ e_primary e <> 0.

Definition entry_pendings (e : entry) : list pending := e_pending e :: map a_pending (e_extra e).
Definition entry_keyed (k : key) (e : entry) : Prop := forall p, In p (entry_pendings e) -> key_of p = k.

(* the primary, if any, before the extra attempts *)
Definition attempts (e : entry) : list attempt :=
  (if e_primary e =? 0 then [] else [Att (e_primary e) (e_pending e)]) ++ e_extra e.

Lemma zero_entry_wf : entry_wf zero_entry.
Proof. constructor; simpl; [discriminate|reflexivity|constructor|intros []]. Qed.

Lemma live_mem_in tok l : live_mem tok l = true <-> In tok (map fst l).
Proof.
  unfold live_mem. rewrite existsb_exists. split.
  - intros [a [H1 H2]]. apply N.eqb_eq in H2. subst. apply in_map. exact H1.
  - intro H. apply in_map_iff in H. destruct H as [a [H1 H2]]. exists a. split; [exact H2|].
    apply N.eqb_eq. exact H1.
Qed.

Lemma live_mem_perm tok l l' : Permutation l l' -> live_mem tok l = live_mem tok l'.
Proof.
  intro P. apply eq_true_iff_eq. rewrite !live_mem_in. split; intro H.
  - exact (Permutation_in _ (Permutation_map fst P) H).
  - exact (Permutation_in _ (Permutation_map fst (Permutation_sym P)) H).
Qed.

Lemma live_del_perm tok l l' : Permutation l l' -> Permutation (live_del tok l) (live_del tok l').
Proof.
  unfold live_del. induction 1; simpl.
  - constructor.
  - destruct (negb (fst x =? tok)); [constructor|]; assumption.
  - destruct (negb (fst x =? tok)); destruct (negb (fst y =? tok)); try apply perm_swap; apply Permutation_refl.
  - eapply Permutation_trans; eassumption.
Qed.

Lemma live_del_al tok l : live_del tok l = al_del N.eqb tok l.
Proof.
  unfold live_del. induction l as [|[t z] l IH]; simpl; [reflexivity|].
  rewrite N.eqb_sym. destruct (tok =? t); simpl; rewrite IH; reflexivity.
Qed.

Lemma live_del_notin tok l : ~ In tok (map fst l) -> live_del tok l = l.
Proof. intro H. rewrite live_del_al. apply al_del_notin, (al_get_none_iff N.eqb N.eqb_eq), H. Qed.

Lemma live_del_fst tok l x : In x (map fst (live_del tok l)) <-> x <> tok /\ In x (map fst l).
Proof. rewrite live_del_al. apply (al_keys_del N.eqb N.eqb_eq). Qed.

Lemma live_del_nodup tok l : NoDup (map fst l) -> NoDup (map fst (live_del tok l)).
Proof. rewrite live_del_al. apply (al_del_nodup N.eqb N.eqb_eq). Qed.

Lemma live_del_unique tok z r l :
  Permutation ((tok, z) :: r) l -> NoDup (map fst l) -> Permutation r (live_del tok l).
Proof.
  intros P ND.
  assert (ND' : NoDup (map fst ((tok, z) :: r))).
  { eapply Permutation_NoDup; [apply Permutation_map; apply Permutation_sym; exact P|exact ND]. }
  simpl in ND'. inversion ND' as [|? ? Hn _]. subst.
  pose proof (live_del_perm tok _ _ P) as Q.
  unfold live_del in Q at 1. simpl in Q. rewrite N.eqb_refl in Q. simpl in Q.
  fold (live_del tok r) in Q. rewrite (live_del_notin tok r Hn) in Q. exact Q.
Qed.

Lemma live_at_al tok l : live_at tok l = match al_get N.eqb tok l with Some z => z | None => 0%Z end.
Proof.
  induction l as [|[t z] l IH]; simpl; [reflexivity|]. rewrite N.eqb_sym. destruct (tok =? t); [reflexivity|exact IH].
Qed.

Lemma live_at_unique tok z r l :
  Permutation ((tok, z) :: r) l -> NoDup (map fst l) -> live_at tok l = z.
Proof.
  intros P ND. rewrite live_at_al, (al_in_get N.eqb N.eqb_eq tok z l ND); [reflexivity|].
  apply (Permutation_in _ P). left. reflexivity.
Qed.

Lemma live_at_perm tok l l' : Permutation l l' -> NoDup (map fst l) -> live_at tok l = live_at tok l'.
Proof. intros P ND. rewrite !live_at_al, (al_get_perm N.eqb N.eqb_eq tok l l' P ND). reflexivity. Qed.

Lemma forallb_perm {A} (f : A -> bool) l l' : Permutation l l' -> forallb f l = forallb f l'.
Proof.
  induction 1; simpl; try congruence.
  - destruct (f x); destruct (f y); reflexivity.
Qed.

Lemma set_nth_app {A} i (x : A) l r : (i < length l)%nat -> set_nth i x (l ++ r) = set_nth i x l ++ r.
Proof.
  revert i. induction l as [|y l IH]; simpl; intros i H; [lia|].
  destruct i; [reflexivity|]. simpl. rewrite IH by lia. reflexivity.
Qed.

Lemma set_nth_perm {A} i (x d : A) l :
  (i < length l)%nat -> Permutation (nth i l d :: set_nth i x l) (x :: l).
Proof.
  revert i. induction l as [|y l IH]; simpl; intros i H; [lia|].
  destruct i; [apply perm_swap|].
  simpl. eapply Permutation_trans; [apply perm_swap|].
  eapply Permutation_trans; [apply perm_skip; apply IH; lia|]. apply perm_swap.
Qed.

Lemma removeExtraAttempt_snoc l z i :
  (i <= length l)%nat ->
  Permutation (nth i (l ++ [z]) zero_attempt :: removeExtraAttempt (l ++ [z]) i) (l ++ [z]).
Proof.
  intro H. unfold removeExtraAttempt. rewrite app_length. simpl length.
  replace (pred (length l + 1)) with (length l) by lia.
  rewrite nth_middle.
  destruct (Nat.eqb i (length l)) eqn:Ei.
  - apply Nat.eqb_eq in Ei. rewrite Ei. rewrite removelast_last, nth_middle.
    apply Permutation_cons_append.
  - apply Nat.eqb_neq in Ei. assert (Hi : (i < length l)%nat) by lia.
    rewrite (set_nth_app i z l [z] Hi). rewrite removelast_last.
    rewrite (app_nth1 l [z] zero_attempt Hi).
    eapply Permutation_trans; [apply set_nth_perm; exact Hi|]. apply Permutation_cons_append.
Qed.

Lemma removeExtraAttempt_perm l i :
  (i < length l)%nat -> Permutation (nth i l zero_attempt :: removeExtraAttempt l i) l.
Proof.
  intro H. destruct l as [|a0 l0]; [simpl in H; lia|].
  destruct (exists_last (l := a0 :: l0)) as [l' [z E]]; [discriminate|].
  rewrite E in *. apply removeExtraAttempt_snoc.
  rewrite app_length in H. simpl in H. lia.
Qed.

Lemma find_token_from_spec tok l j i :
  find_token_from tok l j = Some i ->
  (j <= i)%nat /\ (i - j < length l)%nat /\ a_token (nth (i - j) l zero_attempt) = tok.
Proof.
  revert j. induction l as [|a l IH]; simpl; intros j H; [discriminate|].
  destruct (a_token a =? tok) eqn:E.
  - inversion H. subst. rewrite Nat.sub_diag. apply N.eqb_eq in E. repeat split; [lia|lia|exact E].
  - apply IH in H. destruct H as [H1 [H2 H3]]. repeat split; [lia|lia|].
    replace (i - j)%nat with (S (i - S j)) by lia. exact H3.
Qed.

Lemma find_token_spec tok l i :
  find_token tok l = Some i -> (i < length l)%nat /\ a_token (nth i l zero_attempt) = tok.
Proof.
  intro H. apply find_token_from_spec in H. rewrite Nat.sub_0_r in H. tauto.
Qed.

Lemma find_token_from_none tok l j :
  find_token_from tok l j = None <-> ~ In tok (map a_token l).
Proof.
  revert j. induction l as [|a l IH]; simpl; intro j.
  - split; [intros _ []|reflexivity].
  - destruct (a_token a =? tok) eqn:E.
    + apply N.eqb_eq in E. split; [discriminate|]. intro H. exfalso. apply H. left. exact E.
    + apply N.eqb_neq in E. rewrite IH. split.
      * intros H [H1|H1]; contradiction.
      * intros H H1. apply H. right. exact H1.
Qed.

Lemma find_token_none tok l : find_token tok l = None <-> ~ In tok (map a_token l).
Proof. apply find_token_from_none. Qed.

Lemma ext_live_fst l : map fst (ext_live l) = map a_token l.
Proof. unfold ext_live. rewrite map_map. reflexivity. Qed.

Lemma ext_live_nth l i :
  (i < length l)%nat ->
  nth i (ext_live l) (0, 0%Z) = (a_token (nth i l zero_attempt), p_at (a_pending (nth i l zero_attempt))).
Proof.
  intro H. unfold ext_live.
  change (0, 0%Z) with ((fun a => (a_token a, p_at (a_pending a))) zero_attempt).
  apply map_nth.
Qed.

Lemma abs_live_attempts e : abs_live e = ext_live (attempts e).
Proof. unfold abs_live, prim_live, attempts. destruct (e_primary e =? 0); reflexivity. Qed.

Lemma attempts_primary e : e_primary e <> 0 -> attempts e = Att (e_primary e) (e_pending e) :: e_extra e.
Proof. intro H. apply N.eqb_neq in H. unfold attempts. rewrite H. reflexivity. Qed.

Lemma attempts_noprimary e : e_primary e = 0 -> attempts e = e_extra e.
Proof. intro H. unfold attempts. rewrite H. reflexivity. Qed.

Lemma attempts_keyed k e a : entry_keyed k e -> In a (attempts e) -> key_of (a_pending a) = k.
Proof.
  intros K H. apply in_app_or in H. destruct H as [H|H].
  - destruct (e_primary e =? 0); [destruct H|]. destruct H as [<-|[]]. apply K. left. reflexivity.
  - apply K. right. apply in_map, H.
Qed.

Lemma abs_live_fst e :
  map fst (abs_live e) = (if e_primary e =? 0 then [] else [e_primary e]) ++ map a_token (e_extra e).
Proof. unfold abs_live, prim_live. rewrite map_app, ext_live_fst. destruct (e_primary e =? 0); reflexivity. Qed.

Lemma abs_live_mem e tok :
  tok <> 0 ->
  live_mem tok (abs_live e) = (e_primary e =? tok) || match find_token tok (e_extra e) with Some _ => true | None => false end.
Proof.
  intro Hz. apply eq_true_iff_eq. rewrite live_mem_in, abs_live_fst, in_app_iff, orb_true_iff, N.eqb_eq.
  assert (A : In tok (if e_primary e =? 0 then [] else [e_primary e]) <-> e_primary e = tok).
  { destruct (N.eqb_spec (e_primary e) 0) as [E|E]; simpl; [rewrite E|]; intuition congruence. }
  assert (B : In tok (map a_token (e_extra e))
              <-> match find_token tok (e_extra e) with Some _ => true | None => false end = true).
  { destruct (find_token tok (e_extra e)) as [i|] eqn:F; simpl.
    - apply find_token_spec in F. destruct F as [F1 F2]. split; [reflexivity|]. intros _.
      rewrite <- F2. apply in_map, nth_In, F1.
    - apply find_token_none in F. split; [contradiction|discriminate]. }
  rewrite A, B. reflexivity.
Qed.

(* what finish and cancel leave behind *)
Lemma entry_minus_attempt e e' a :
  entry_wf e ->
  (e_committed e' = true -> e_primary e' = 0) ->
  (e_committed e' = false -> e_primary e' = 0 -> e_extra e' = []) ->
  Permutation (a :: attempts e') (attempts e) ->
  Permutation (abs_live e') (live_del (a_token a) (abs_live e))
  /\ live_at (a_token a) (abs_live e) = p_at (a_pending a)
  /\ entry_wf e'
  /\ forall k, entry_keyed k e -> key_of (e_pending e') = k -> entry_keyed k e'.
Proof.
  intros W W1 W2 PA.
  assert (PP : Permutation ((a_token a, p_at (a_pending a)) :: abs_live e') (abs_live e)).
  { rewrite !abs_live_attempts. exact (Permutation_map _ PA). }
  pose proof (live_del_unique _ _ _ _ PP (wf_nodup e W)) as Q.
  split; [exact Q|]. split; [exact (live_at_unique _ _ _ _ PP (wf_nodup e W))|]. split.
  - constructor; [exact W1|exact W2| |].
    + eapply Permutation_NoDup; [apply Permutation_map, Permutation_sym, Q|].
      apply live_del_nodup, (wf_nodup e W).
    + intro H. eapply Permutation_in in H; [|apply Permutation_map, Q].
      apply live_del_fst in H. apply (wf_nonzero e W), H.
  - intros k K KP p [H|H]; [subst p; exact KP|]. apply in_map_iff in H. destruct H as [x [<- Hx]].
    apply (attempts_keyed k e x K), (Permutation_in _ PA). right. apply in_or_app. right. exact Hx.
Qed.

Lemma addAttempt_abs e p tok :
  entry_wf e -> tok <> 0 -> ~ In tok (map fst (abs_live e)) ->
  let e' := addAttempt e p tok in
  abs_committed e' = abs_committed e
  /\ Permutation (abs_live e') (abs_live e ++ [(tok, p_at p)])
  /\ entry_wf e' /\ entry_alive e'.
Proof.
  intros W Hz Hn. unfold addAttempt.
  destruct (negb (e_committed e) && (e_primary e =? 0)) eqn:C; cbn zeta.
  - apply andb_true_iff in C. destruct C as [C1 C2]. apply negb_true_iff in C1. apply N.eqb_eq in C2.
    pose proof (wf_noprimary e W C1 C2) as Hx.
    rewrite !abs_live_attempts, (attempts_noprimary e C2), (attempts_primary (Ent p (e_committed e) tok (e_extra e)) Hz).
    unfold abs_committed. cbn [e_committed e_primary e_pending e_extra]. rewrite Hx, C1.
    split; [reflexivity|]. split; [apply Permutation_refl|]. split; [|right; exact Hz].
    constructor; cbn [e_committed e_primary e_extra]; [discriminate|reflexivity| |];
      rewrite abs_live_attempts, (attempts_primary (Ent p false tok [])) by exact Hz; simpl.
    + constructor; [intros []|constructor].
    + intros [H|[]]. congruence.
  - assert (AL' : abs_live (Ent (e_pending e) (e_committed e) (e_primary e) (e_extra e ++ [Att tok p]))
                  = abs_live e ++ [(tok, p_at p)]).
    { unfold abs_live, prim_live, ext_live. simpl. rewrite map_app, app_assoc. reflexivity. }
    rewrite AL'. split; [reflexivity|]. split; [apply Permutation_refl|]. split.
    + constructor; cbn [e_committed e_primary e_extra].
      * apply (wf_committed e W).
      * intros H1 H2. rewrite H1, H2 in C. discriminate.
      * rewrite AL', map_app. eapply Permutation_NoDup; [apply Permutation_cons_append|].
        constructor; [exact Hn|apply (wf_nodup e W)].
      * rewrite AL', map_app, in_app_iff. intros [H|[H|[]]]; [exact (wf_nonzero e W H)|exact (Hz H)].
    + unfold entry_alive. cbn [e_committed e_primary]. destruct (e_committed e); [left; reflexivity|].
      right. apply N.eqb_neq. exact C.
Qed.

Lemma addAttempt_keyed k e p tok :
  key_of p = k -> entry_wf e -> (entry_keyed k e \/ e = zero_entry) -> entry_keyed k (addAttempt e p tok).
Proof.
  intros Hk W He. unfold addAttempt.
  destruct (negb (e_committed e) && (e_primary e =? 0)) eqn:C.
  - apply andb_true_iff in C. destruct C as [C1 C2]. apply negb_true_iff in C1. apply N.eqb_eq in C2.
    rewrite (wf_noprimary e W C1 C2). intros q [H|[]]. subst q. exact Hk.
  - destruct He as [He|He]; [|subst e; simpl in C; discriminate].
    intros q H. unfold entry_pendings in H. simpl in H. rewrite map_app in H. simpl in H.
    destruct H as [H|H]; [apply He; left; exact H|].
    apply in_app_or in H. destruct H as [H|[H|[]]]; [apply He; right; exact H|subst q; exact Hk].
Qed.

Lemma finishAttempt_abs e tok :
  entry_wf e -> tok <> 0 ->
  let '(e', ok) := finishAttempt e tok in
  ok = live_mem tok (abs_live e)
  /\ (ok = true ->
      abs_committed e' = Some (live_at tok (abs_live e))
      /\ Permutation (abs_live e') (live_del tok (abs_live e))
      /\ entry_wf e' /\ entry_alive e'
      /\ forall k, entry_keyed k e -> entry_keyed k e').
Proof.
  intros W Hz. pose proof (abs_live_mem e tok Hz) as M.
  (* every successful branch: committed, no primary, the other attempts as extras *)
  assert (DONE : forall a l, a_token a = tok -> Permutation (a :: l) (attempts e) ->
            abs_committed (Ent (a_pending a) true 0 l) = Some (live_at tok (abs_live e))
            /\ Permutation (abs_live (Ent (a_pending a) true 0 l)) (live_del tok (abs_live e))
            /\ entry_wf (Ent (a_pending a) true 0 l) /\ entry_alive (Ent (a_pending a) true 0 l)
            /\ forall k, entry_keyed k e -> entry_keyed k (Ent (a_pending a) true 0 l)).
  { intros a l T PA.
    destruct (entry_minus_attempt e (Ent (a_pending a) true 0 l) a W) as [Q [L [W' K']]];
      [reflexivity|discriminate|exact PA|].
    rewrite T in Q, L. rewrite L. split; [reflexivity|]. split; [exact Q|]. split; [exact W'|]. split; [left; reflexivity|].
    intros k K. apply (K' k K), (attempts_keyed k e a K), (Permutation_in _ PA). left. reflexivity. }
  unfold finishAttempt. destruct (e_primary e =? tok) eqn:P.
  - apply N.eqb_eq in P. rewrite M. split; [reflexivity|]. intros _.
    apply (DONE (Att (e_primary e) (e_pending e)) (e_extra e) P).
    rewrite attempts_primary by congruence. apply Permutation_refl.
  - simpl in M. destruct (find_token tok (e_extra e)) as [n|] eqn:F.
    2:{ rewrite M. split; [reflexivity|discriminate]. }
    apply find_token_spec in F. destruct F as [F1 F2].
    destruct (negb (e_committed e) && negb (e_primary e =? 0)) eqn:C;
      (rewrite M; split; [reflexivity|]; intros _).
    + (* the live primary moves into the freed slot *)
      apply andb_true_iff in C. destruct C as [_ C]. apply negb_true_iff, N.eqb_neq in C.
      apply (DONE _ _ F2). rewrite (attempts_primary e C). apply set_nth_perm, F1.
    + (* plain swap-remove: there is no primary *)
      assert (P0 : e_primary e = 0).
      { destruct (e_committed e) eqn:C1; [apply (wf_committed e W C1)|].
        simpl in C. apply negb_false_iff, N.eqb_eq in C. exact C. }
      rewrite P0. apply (DONE _ _ F2). rewrite (attempts_noprimary e P0). apply removeExtraAttempt_perm, F1.
Qed.

Lemma cancelAttempt_abs e tok :
  entry_wf e -> tok <> 0 ->
  let '(e', ok) := cancelAttempt e tok in
  ok = live_mem tok (abs_live e)
  /\ (ok = true ->
      abs_committed e' = abs_committed e
      /\ Permutation (abs_live e') (live_del tok (abs_live e))
      /\ entry_wf e'
      /\ forall k, entry_keyed k e -> entry_keyed k e').
Proof.
  intros W Hz. pose proof (abs_live_mem e tok Hz) as M.
  assert (GONE : forall e' a, a_token a = tok ->
            (e_committed e' = true -> e_primary e' = 0) ->
            (e_committed e' = false -> e_primary e' = 0 -> e_extra e' = []) ->
            Permutation (a :: attempts e') (attempts e) -> In (e_pending e') (entry_pendings e) ->
            Permutation (abs_live e') (live_del tok (abs_live e)) /\ entry_wf e'
            /\ forall k, entry_keyed k e -> entry_keyed k e').
  { intros e' a T W1 W2 PA HP. destruct (entry_minus_attempt e e' a W W1 W2 PA) as [Q [_ [W' K']]].
    rewrite T in Q. split; [exact Q|]. split; [exact W'|].
    intros k K. apply (K' k K), K, HP. }
  unfold cancelAttempt. destruct (e_primary e =? tok) eqn:P.
  - (* the primary is rolled back; the last extra attempt, if any, is promoted *)
    apply N.eqb_eq in P.
    assert (C0 : e_committed e = false).
    { destruct (e_committed e) eqn:C1; [|reflexivity]. rewrite (wf_committed e W C1) in P. congruence. }
    assert (AT : attempts e = Att (e_primary e) (e_pending e) :: e_extra e) by (apply attempts_primary; congruence).
    destruct (e_extra e) as [|a0 l0] eqn:X.
    + rewrite M. split; [reflexivity|]. intros _.
      split; [reflexivity|].
      apply (GONE (Ent (e_pending e) (e_committed e) 0 []) (Att (e_primary e) (e_pending e)) P); try reflexivity.
      * rewrite AT. apply Permutation_refl.
      * left. reflexivity.
    + rewrite C0. cbn [negb]. rewrite M. cbn [orb].
      split; [reflexivity|]. intros _. rewrite <- X in *.
      set (lastn := pred (length (e_extra e))).
      assert (HL : (lastn < length (e_extra e))%nat) by (unfold lastn; rewrite X; simpl; lia).
      set (pro := nth lastn (e_extra e) zero_attempt).
      assert (TP : a_token pro <> 0).
      { intro H. apply (wf_nonzero e W). rewrite abs_live_fst. apply in_or_app. right.
        rewrite <- H. apply in_map, nth_In, HL. }
      split; [unfold abs_committed; cbn [e_committed]; rewrite C0; reflexivity|].
      apply (GONE (Ent (a_pending pro) false (a_token pro) (removeExtraAttempt (e_extra e) lastn))
                  (Att (e_primary e) (e_pending e)) P).
      * discriminate.
      * intros _ H. contradiction.
      * rewrite AT, attempts_primary by exact TP. cbn [e_primary e_pending e_extra].
        apply perm_skip. replace (Att (a_token pro) (a_pending pro)) with pro by (destruct pro; reflexivity).
        apply removeExtraAttempt_perm, HL.
      * right. exact (in_map a_pending _ _ (nth_In _ _ HL)).
  - simpl in M. destruct (find_token tok (e_extra e)) as [n|] eqn:F;
      (rewrite M; split; [reflexivity|]); [intros _|discriminate].
    apply find_token_spec in F. destruct F as [F1 F2].
    split; [reflexivity|].
    apply (GONE (Ent (e_pending e) (e_committed e) (e_primary e) (removeExtraAttempt (e_extra e) n)) _ F2).
    + apply (wf_committed e W).
    + cbn [e_committed e_primary]. intros H1 H2. rewrite (wf_noprimary e W H1 H2) in F1. simpl in F1. lia.
    + unfold attempts. cbn [e_primary e_pending e_extra].
      eapply Permutation_trans; [apply Permutation_middle|]. apply Permutation_app_head, removeExtraAttempt_perm, F1.
    + left. reflexivity.
Qed.

Lemma entry_gone_iff e :
  entry_wf e -> (e_committed e || hasAttempts e = false <-> abs_committed e = None /\ abs_live e = []).
Proof.
  intro W. unfold hasAttempts, abs_committed, abs_live, prim_live.
  destruct (e_committed e) eqn:C1; simpl; [split; [discriminate|intros [H _]; discriminate]|].
  destruct (e_primary e =? 0) eqn:P1; simpl; [|split; [discriminate|intros [_ H]; discriminate]].
  apply N.eqb_eq in P1. rewrite (wf_noprimary e W C1 P1). simpl. split; auto.
Qed.

Lemma entry_kept_alive e : entry_wf e -> e_committed e || hasAttempts e = true -> entry_alive e.
Proof.
  intros W. unfold entry_alive, hasAttempts. destruct (e_committed e) eqn:C1; [left; reflexivity|].
  simpl. destruct (e_primary e =? 0) eqn:P1; simpl.
  - apply N.eqb_eq in P1. rewrite (wf_noprimary e W C1 P1). discriminate.
  - intros _. right. apply N.eqb_neq. exact P1.
Qed.

Lemma hasDeliveryAfter_abs e cutoff :
  entry_wf e -> entry_alive e ->
  hasDeliveryAfter e cutoff =
  negb (match abs_committed e with Some c => (c <=? cutoff)%Z | None => true end
        && forallb (fun a => (snd a <=? cutoff)%Z) (abs_live e)).
Proof.
  intros W A. unfold hasDeliveryAfter, abs_committed, abs_live, prim_live.
  assert (EX : existsb (fun a => (cutoff <? p_at (a_pending a))%Z) (e_extra e)
               = negb (forallb (fun a : N * Z => (snd a <=? cutoff)%Z) (ext_live (e_extra e)))).
  { induction (e_extra e) as [|a l IH]; simpl; [reflexivity|].
    rewrite IH, negb_andb. f_equal. rewrite Z.leb_antisym, negb_involutive. reflexivity. }
  rewrite EX. rewrite Z.ltb_antisym.
  destruct A as [A|A].
  - rewrite A, (wf_committed e W A). simpl. rewrite negb_andb. reflexivity.
  - destruct (e_committed e) eqn:C; [rewrite (wf_committed e W C) in A; congruence|].
    apply N.eqb_neq in A. rewrite A. simpl. rewrite negb_andb. reflexivity.
Qed.
