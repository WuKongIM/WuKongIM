(* Proof/MsgStore_discard.v — the paged compat DiscardForRestore (C09).

   The call commits SEVERAL batches: one per page (the rows of the page with all
   their secondary index entries, stageDeleteMessage) and a terminal one (range
   delete of the channel partition + catalog row).  Each of them preserves the
   index invariant [IdxInv] = the monitor's per-binding check [chk_entry]: no
   index entry dangles, every stored row has its index entries (ids / pairs
   tainted by a trusted duplicate excepted).  Hence every store a crash inside
   the call can recover to satisfies it, and after the call no key of the
   channel is left. *)
From WK Require Import Base.Base Base.Lists Model.KV Gen.Consts_C07 Model.MsgStore Model.MsgStore_C07 Model.MsgStore_C09
     Proof.KV Proof.MsgStore_base Proof.MsgStore_rel Proof.MsgStore_reads Proof.MsgStore_frame.
From Coq Require Import Sorting.Permutation Sorting.Sorted.

Definition IdxInv (kv : kvs) (t : aspec) : Prop :=
  forall k v, kget k kv = Some v -> chk_entry kv t (k, v) = true.

Lemma IdxInv_forallb kv t : swf kv -> (IdxInv kv t <-> forallb (chk_entry kv t) kv = true).
Proof.
  intro W. rewrite forallb_forall. split.
  - intros H [k v] Hin. apply H. apply (kin_iff_get _ _ _ W). exact Hin.
  - intros H k v G. apply H. apply (kin_iff_get _ _ _ W). exact G.
Qed.

(* what the check of a stored row says *)
Record row_chk (kv : kvs) (t : aspec) (c q : N) (r : row) : Prop := {
  rchk_seq : r_seq r = q;
  rchk_ch : r_ch r = c;
  rchk_id : r_id r <> 0;
  rchk_static : (r_hash r =? hashPayload (r_payload r)) && (1 <=? q) && mem_N c all_chans = true;
  rchk_gid : mem_N (r_id r) (as_tids t) = true \/ kget (KyGid (r_id r)) kv = Some (VGid c q);
  rchk_cidx : (negb (is_nil (r_cno r)) && is_nil (r_uid r)) = true -> has_key kv (KyCidx c (r_cno r) q) = true;
  rchk_idem : both_nonempty (r_uid r) (r_cno r) = true -> pair_tainted (as_log t c) (r_uid r) (r_cno r) = false ->
            exists i h, kget (KyIdem c (r_cno r) (r_uid r)) kv = Some (VIdem q i h) /\ i = r_id r /\ h = r_hash r;
  rchk_sseq : (negb (is_nil (r_uid r)) && (N.land (r_flags r) syncOnceFlag =? 0)) = true -> has_key kv (KySseq c (r_uid r) q) = true;
  rchk_ret : match loadRetentionState kv c with Some (_, p, _) => p <? q | None => true end = true }.

Lemma row_chk_iff kv t c q r : chk_entry kv t (KyRow c q, VRow r) = true <-> row_chk kv t c q r.
Proof.
  cbn [chk_entry]. split.
  - intro H.
    apply andb_true_iff in H. destruct H as [H Hret].
    apply andb_true_iff in H. destruct H as [H Hsseq].
    apply andb_true_iff in H. destruct H as [H Hidem].
    apply andb_true_iff in H. destruct H as [H Hcidx].
    apply andb_true_iff in H. destruct H as [H Hgid].
    apply andb_true_iff in H. destruct H as [H Hmem].
    apply andb_true_iff in H. destruct H as [H Hone].
    apply andb_true_iff in H. destruct H as [H Hhash].
    apply andb_true_iff in H. destruct H as [H Hid].
    apply andb_true_iff in H. destruct H as [Hseq Hch].
    constructor.
    + apply N.eqb_eq. exact Hseq.
    + apply N.eqb_eq. exact Hch.
    + apply negb_true_iff, N.eqb_neq in Hid. exact Hid.
    + rewrite Hhash, Hone, Hmem. reflexivity.
    + apply orb_true_iff in Hgid. destruct Hgid as [X|X]; [left; exact X|right].
      destruct (kget (KyGid (r_id r)) kv) as [[| c' q' | | | |]|]; try discriminate.
      apply andb_true_iff in X. destruct X as [A B]. apply N.eqb_eq in A, B. subst. reflexivity.
    + intro E. rewrite E in Hcidx. exact Hcidx.
    + intros E1 E2. rewrite E1, E2 in Hidem. cbn [negb orb] in Hidem.
      destruct (kget (KyIdem c (r_cno r) (r_uid r)) kv) as [[| | | q' i' h' | |]|]; try discriminate.
      apply andb_true_iff in Hidem. destruct Hidem as [X X3]. apply andb_true_iff in X. destruct X as [X1 X2].
      apply N.eqb_eq in X1, X2, X3. subst. eexists _, _. split; [reflexivity|split; reflexivity].
    + intro E. rewrite E in Hsseq. exact Hsseq.
    + exact Hret.
  - intros [H1 H2 H3 H4 H5 H6 H7 H8 H9].
    apply andb_true_iff in H4. destruct H4 as [H4 Hmem]. apply andb_true_iff in H4. destruct H4 as [Hhash Hone].
    rewrite (proj2 (N.eqb_eq _ _) H1), (proj2 (N.eqb_eq _ _) H2), (proj2 (N.eqb_neq _ _) H3), Hhash, Hone, Hmem, H9.
    cbn [negb andb]. rewrite !andb_true_r.
    repeat (apply andb_true_iff; split).
    + apply orb_true_iff. destruct H5 as [H5|H5]; [left; exact H5|right]. rewrite H5, !N.eqb_refl. reflexivity.
    + destruct (negb (is_nil (r_cno r)) && is_nil (r_uid r)); [cbn [negb orb]; apply H6; reflexivity|reflexivity].
    + destruct (both_nonempty (r_uid r) (r_cno r)); [cbn [negb orb]|reflexivity].
      destruct (pair_tainted (as_log t c) (r_uid r) (r_cno r)); [reflexivity|cbn [orb]].
      destruct (H7 eq_refl eq_refl) as [i [h [G [-> ->]]]]. rewrite G, !N.eqb_refl. reflexivity.
    + destruct (negb (is_nil (r_uid r)) && _); [cbn [negb orb]; apply H8; reflexivity|reflexivity].
Qed.

(* the row an index entry points at *)
Definition entry_row (k : key) (v : value) : option (N * N) :=
  match k with
  | KyGid _ => match v with VGid c q => Some (c, q) | _ => None end
  | KyCidx c _ q | KySseq c _ q => Some (c, q)
  | KyIdem c _ _ => match v with VIdem q _ _ => Some (c, q) | _ => None end
  | _ => None
  end.

(* an entry that passes the check points at a stored row and is one of the entries
   [stageDeleteMessage] removes together with that row *)
Lemma entry_row_exists kv t k v c q :
  chk_entry kv t (k, v) = true -> entry_row k v = Some (c, q) -> exists r, kget (KyRow c q) kv = Some (VRow r).
Proof.
  intros Hk He. destruct k; try discriminate He; try (destruct v; try discriminate He);
    cbn [entry_row] in He; injection He as -> ->; cbn [chk_entry] in Hk;
    destruct (kget (KyRow c q) kv) as [[r0| | | | |]|]; try discriminate Hk; exists r0; reflexivity.
Qed.

Lemma entry_owned kv t k v c q r :
  chk_entry kv t (k, v) = true -> entry_row k v = Some (c, q) ->
  kget (KyRow c q) kv = Some (VRow r) -> r_seq r = q -> r_id r <> 0 -> In k (row_del_keys c r).
Proof.
  intros Hk He G Hs Hid. apply in_row_del_keys.
  destruct k; try discriminate He; try (destruct v; try discriminate He);
    cbn [entry_row] in He; injection He as -> ->; cbn [chk_entry] in Hk; rewrite G in Hk;
    repeat match goal with H : _ && _ = true |- _ => apply andb_true_iff in H; destruct H end;
    repeat match goal with
           | H : bytes_eqb _ _ = true |- _ => apply bytes_eqb_eq in H
           | H : (_ =? _) = true |- _ => apply N.eqb_eq in H
           | H : negb (is_nil _) = true |- _ => apply negb_true_iff, is_nil_false in H
           | H : is_nil _ = true |- _ => apply is_nil_true in H
           end; subst; repeat split; auto.
Qed.

Lemma IdxInv_shrink kv kv' t :
  (forall k v, kget k kv' = Some v -> kget k kv = Some v) ->
  (forall k v c q, kget k kv' = Some v -> entry_row k v = Some (c, q) -> kget (KyRow c q) kv' = kget (KyRow c q) kv) ->
  (forall c q r, kget (KyRow c q) kv' = Some (VRow r) ->
     (mem_N (r_id r) (as_tids t) = true \/ kget (KyGid (r_id r)) kv' = kget (KyGid (r_id r)) kv)
     /\ kget (KyCidx c (r_cno r) q) kv' = kget (KyCidx c (r_cno r) q) kv
     /\ (pair_tainted (as_log t c) (r_uid r) (r_cno r) = true
         \/ kget (KyIdem c (r_cno r) (r_uid r)) kv' = kget (KyIdem c (r_cno r) (r_uid r)) kv)
     /\ kget (KySseq c (r_uid r) q) kv' = kget (KySseq c (r_uid r) q) kv
     /\ kget (KyRet c) kv' = kget (KyRet c) kv) ->
  IdxInv kv t -> IdxInv kv' t.
Proof.
  intros Hsub He Hr HI k v G'.
  pose proof (HI k v (Hsub k v G')) as Hk.
  destruct k as [c q|i|c n q|c n u|c u q|c|c|c o e|c|c x]; try exact Hk.
  - destruct v as [r| | | | |]; try exact Hk.
    apply row_chk_iff. apply row_chk_iff in Hk. destruct Hk as [K1 K2 K3 K4 K5 K6 K7 K8 K9].
    destruct (Hr c q r G') as [Eg [Ec [Ei [Es Er]]]].
    constructor; try assumption.
    + destruct K5 as [K5|K5]; [left; exact K5|]. destruct Eg as [Eg|Eg]; [left; exact Eg|right]. rewrite Eg. exact K5.
    + intro E. unfold has_key. rewrite Ec. apply K6. exact E.
    + intros E1 E2. destruct Ei as [Ei|Ei]; [congruence|]. rewrite Ei. apply K7; assumption.
    + intro E. unfold has_key. rewrite Es. apply K8. exact E.
    + unfold loadRetentionState. rewrite Er. exact K9.
  - destruct v as [|c q| | | |]; try exact Hk. cbn [chk_entry] in *. rewrite (He _ _ c q G' eq_refl). exact Hk.
  - cbn [chk_entry] in *. rewrite (He _ _ c q G' eq_refl). exact Hk.
  - destruct v as [| | |q i h| |]; try exact Hk. cbn [chk_entry] in *. rewrite (He _ _ c q G' eq_refl). exact Hk.
  - cbn [chk_entry] in *. rewrite (He _ _ c q G' eq_refl). exact Hk.
Qed.

Lemma IdxInv_row kv t c q r :
  IdxInv kv t -> kget (KyRow c q) kv = Some (VRow r) -> row_chk kv t c q r.
Proof. intros HI G. apply row_chk_iff. apply HI. exact G. Qed.

Lemma kget_delete_row_other (kv : kvs) k c r :
  ~ In k (row_del_keys c r) -> kget k (kapply kv (stageDeleteMessage c r)) = kget k kv.
Proof. intro Hn. rewrite kget_delete_row. apply existsb_key_notin in Hn. rewrite Hn. reflexivity. Qed.

Lemma del_row_IdxInv kv t c q r :
  IdxInv kv t -> kget (KyRow c q) kv = Some (VRow r) ->
  IdxInv (kapply kv (stageDeleteMessage c r)) t.
Proof.
  intros HI G0. pose proof (IdxInv_row _ _ _ _ _ HI G0) as K0.
  assert (Eq : r_seq r = q) by apply K0.
  set (kv' := kapply kv (stageDeleteMessage c r)).
  pose proof (fun k => kget_delete_row_other kv k c r) as keep. fold kv' in keep.
  assert (Hsub : forall k v, kget k kv' = Some v -> ~ In k (row_del_keys c r) /\ kget k kv = Some v).
  { intros k v G. unfold kv' in G. rewrite kget_delete_row in G.
    destruct (existsb (key_eqb k) (row_del_keys c r)) eqn:X; [discriminate|]. split; [apply existsb_key_notin, X|exact G]. }
  (* the only row key removed is (c, q) *)
  assert (Hrowkeep : forall c' q', (c', q') <> (c, q) -> kget (KyRow c' q') kv' = kget (KyRow c' q') kv).
  { intros c' q' Hne. apply keep. intro Hin. apply in_row_del_keys in Hin. destruct Hin as [-> ->]. apply Hne. rewrite Eq. reflexivity. }
  apply (IdxInv_shrink kv); [| | |exact HI].
  - intros k v G. apply (Hsub k v G).
  - (* a surviving index entry does not point at the deleted row: it would be one of its entries *)
    intros k v c' q' G He. destruct (Hsub _ _ G) as [Hn G1]. apply Hrowkeep. intros [= -> ->].
    apply Hn. apply (entry_owned kv t k v c q r (HI _ _ G1) He G0 Eq). apply K0.
  - (* a surviving row keeps its entries: none of them is an entry of the deleted row *)
    intros c' q' r' G. destruct (Hsub _ _ G) as [Hn G1].
    pose proof (IdxInv_row _ _ _ _ _ HI G1) as K1.
    assert (Hne : (c', q') <> (c, q)).
    { intros [= -> ->]. apply Hn. apply in_row_del_keys. split; [reflexivity|symmetry; exact Eq]. }
    split; [|split; [|split; [|split]]].
    + destruct (rchk_gid _ _ _ _ _ K1) as [T|Gg]; [left; exact T|].
      destruct (N.eq_dec (r_id r') (r_id r)) as [E|E].
      * destruct (rchk_gid _ _ _ _ _ K0) as [T|Gg0]; [left; rewrite E; exact T|].
        exfalso. rewrite E, Gg0 in Gg. injection Gg as -> ->. apply Hne. reflexivity.
      * right. apply keep. intro Hin. apply in_row_del_keys in Hin. exact (E (proj1 Hin)).
    + apply keep. intro Hin. apply in_row_del_keys in Hin. destruct Hin as (-> & _ & -> & _). apply Hne. rewrite Eq. reflexivity.
    + destruct (pair_tainted (as_log t c') (r_uid r') (r_cno r')) eqn:T; [left; reflexivity|right].
      apply keep. intro Hin. apply in_row_del_keys in Hin. destruct Hin as (-> & Ec & Eu & Hu & Hc).
      assert (B : both_nonempty (r_uid r) (r_cno r) = true).
      { unfold both_nonempty. apply is_nil_false in Hu, Hc. rewrite Hu, Hc. reflexivity. }
      assert (B' : both_nonempty (r_uid r') (r_cno r') = true) by (rewrite Ec, Eu; exact B).
      destruct (rchk_idem _ _ _ _ _ K1 B' T) as [i1 [h1 [G3 _]]].
      rewrite Ec, Eu in T. destruct (rchk_idem _ _ _ _ _ K0 B T) as [i0 [h0 [G2 _]]].
      rewrite Ec, Eu, G2 in G3. injection G3 as -> _ _. apply Hne. reflexivity.
    + apply keep. intro Hin. apply in_row_del_keys in Hin. destruct Hin as (-> & _ & -> & _). apply Hne. rewrite Eq. reflexivity.
    + apply keep. intro Hin. apply in_row_del_keys in Hin. exact Hin.
Qed.

Lemma del_rows_IdxInv t c : forall rows kv,
  IdxInv kv t -> NoDup (map r_seq rows) ->
  (forall r, In r rows -> kget (KyRow c (r_seq r)) kv = Some (VRow r)) ->
  IdxInv (kapply kv (flat_map (stageDeleteMessage c) rows)) t.
Proof.
  induction rows as [|r rows IH]; intros kv HI Hn Hst; [exact HI|].
  cbn [flat_map]. unfold kapply. rewrite apply_batch_app. fold (kapply kv (stageDeleteMessage c r)).
  fold (kapply (kapply kv (stageDeleteMessage c r)) (flat_map (stageDeleteMessage c) rows)).
  cbn [map] in Hn. inversion Hn as [|? ? Hnr Hn']; subst.
  apply IH; [|exact Hn'|].
  - apply (del_row_IdxInv kv t c (r_seq r) r HI). apply Hst. left. reflexivity.
  - intros r' Hr'. rewrite kget_delete_row_other; [apply Hst; right; exact Hr'|].
    intro Hin. apply in_row_del_keys in Hin. destruct Hin as [_ X].
    apply Hnr. rewrite <- X. apply in_map. exact Hr'.
Qed.

(* what a page read returns: a non-empty prefix of the stored rows from [next] on *)
Lemma page_read kv t c next lim mb rows :
  swf kv -> IdxInv kv t -> readForward kv c next 0 lim mb = ok rows ->
  exists rest,
    filter (fun r => next <=? r_seq r) (rows_of kv c) = rows ++ rest
    /\ (filter (fun r => next <=? r_seq r) (rows_of kv c) <> [] -> rows <> [])
    /\ NoDup (map r_seq (rows ++ rest))
    /\ (forall r, In r (rows ++ rest) -> kget (KyRow c (r_seq r)) kv = Some (VRow r) /\ next <= r_seq r)
    /\ (forall x y, In x rows -> In y rest -> r_seq x < r_seq y).
Proof.
  intros W HI H. rewrite readForward_from in H.
  destruct (read_loop_prefix _ _ _ _ _ _ H) as [taken [rest [E2 [E1 E3]]]]. cbn [rev app] in E2. subst taken.
  assert (Hst : forall r, In r (rows_of kv c) -> kget (KyRow c (r_seq r)) kv = Some (VRow r)).
  { intros r Hr. apply (in_rows_of _ _ _ W) in Hr. destruct Hr as [q G].
    pose proof (IdxInv_row _ _ _ _ _ HI G) as K. rewrite (rchk_seq _ _ _ _ _ K). exact G. }
  assert (Hnd : NoDup (map r_seq (rows_of kv c))).
  { unfold rows_of. eapply Permutation_NoDup; [apply Permutation_map; apply Permutation_sym; apply sort_by_perm|].
    apply rows_unsorted_nodup; [exact W|]. intros q r Hin. apply (kin_iff_get _ _ _ W) in Hin.
    apply (IdxInv_row _ _ _ _ _ HI Hin). }
  assert (Hnd2 : NoDup (map r_seq (rows ++ rest))) by (rewrite <- E1; apply NoDup_map_filter; exact Hnd).
  exists rest. split; [exact E1|]. split; [|split; [exact Hnd2|split]].
  { (* with an empty accumulator no budget stops the loop before the first row *)
    intros X ->. cbn [app] in E1. rewrite E1 in X.
    destruct (E3 X) as [[A B]|[_ [B|B]]]; [cbn in B; lia|apply B; reflexivity|apply B; reflexivity]. }
  - intros r Hr. rewrite <- E1 in Hr. apply filter_In in Hr. destruct Hr as [Hr Hf]. split; [apply Hst; exact Hr|].
    apply N.leb_le. exact Hf.
  - intros x y Hx Hy.
    assert (Hle : r_seq x <= r_seq y).
    { assert (Hs : sorted_le r_seq (rows ++ rest)) by (rewrite <- E1; apply StronglySorted_filter, rows_of_sorted).
      destruct (sorted_app_inv _ _ _ Hs) as (_ & _ & Hc). exact (Hc x y Hx Hy). }
    assert (Hne : r_seq x <> r_seq y).
    { intro E. rewrite map_app in Hnd2. revert Hnd2. apply in_split in Hx. destruct Hx as [l1 [l2 ->]].
      rewrite map_app. cbn [map]. rewrite <- !app_assoc. cbn [app]. intro Hnd2. apply NoDup_remove_2 in Hnd2.
      apply Hnd2. apply in_or_app. right. apply in_or_app. right. rewrite E. apply in_map. exact Hy. }
    lia.
Qed.

Definition terminal_batch (c : N) : kbatch := [DelRange (in_partition c); Del (KyCat c)].

Lemma kget_terminal (kv : kvs) c k :
  kget k (kapply kv (terminal_batch c)) =
  if in_partition c k then None else if key_eqb k (KyCat c) then None else kget k kv.
Proof.
  rewrite kget_apply. unfold terminal_batch. rewrite !keff_cons, keff_nil. cbn [op_effect].
  destruct (in_partition c k); destruct (key_eqb k (KyCat c)); reflexivity.
Qed.

Lemma terminal_IdxInv kv t c :
  IdxInv kv t -> (forall q r, kget (KyRow c q) kv <> Some (VRow r)) ->
  IdxInv (kapply kv (terminal_batch c)) t.
Proof.
  intros HI Hno.
  assert (Hsub : forall k v, kget k (kapply kv (terminal_batch c)) = Some v ->
                             in_partition c k = false /\ kget k kv = Some v).
  { intros k v G. rewrite kget_terminal in G. destruct (in_partition c k); [discriminate|].
    destruct (key_eqb k (KyCat c)); [discriminate|]. split; [reflexivity|exact G]. }
  assert (Hkeep : forall k, in_partition c k = false -> (forall c', k <> KyCat c') ->
                            kget k (kapply kv (terminal_batch c)) = kget k kv).
  { intros k Hp Hc. rewrite kget_terminal, Hp. destruct (key_eqb k (KyCat c)) eqn:E; [|reflexivity].
    apply key_eqb_eq in E. exfalso. eapply Hc. exact E. }
  (* a row some surviving index entry points at is a row of another channel *)
  assert (Hrow : forall c' q' (r' : row), kget (KyRow c' q') kv = Some (VRow r') ->
                   kget (KyRow c' q') (kapply kv (terminal_batch c)) = kget (KyRow c' q') kv).
  { intros c' q' r' G. apply Hkeep; [|intros; discriminate]. cbn [in_partition].
    apply N.eqb_neq. intro E. subst c'. exact (Hno _ _ G). }
  apply (IdxInv_shrink kv); [| | |exact HI].
  - intros k v G. apply (Hsub k v G).
  - intros k v c' q' G He. destruct (Hsub _ _ G) as [_ G1].
    destruct (entry_row_exists kv t k v c' q' (HI _ _ G1) He) as [r' Gr]. apply (Hrow c' q' r' Gr).
  - intros c' q' r' G. destruct (Hsub _ _ G) as [Hp _]. cbn [in_partition] in Hp.
    split; [right; apply Hkeep; [reflexivity|intros; discriminate]|].
    split; [apply Hkeep; [exact Hp|intros; discriminate]|].
    split; [right; apply Hkeep; [exact Hp|intros; discriminate]|].
    split; apply Hkeep; try exact Hp; intros; discriminate.
Qed.

Lemma terminal_wipes kv c k : in_partition c k = true \/ k = KyCat c -> kget k (kapply kv (terminal_batch c)) = None.
Proof.
  intros [H| ->]; rewrite kget_terminal; [rewrite H; reflexivity|].
  cbn [in_partition]. rewrite key_eqb_refl. reflexivity.
Qed.

Section Discard.
  Variable F : Type.

  Notation mstate := (mstate F).
  Notation st_kv := (st_kv F).
  Notation st_log := (st_log F).

  (* every stored row of [c] has a sequence >= [next]; channel [c] has no row *)
  Definition LowBound (kv : kvs) (c next : N) : Prop :=
    forall q r, kget (KyRow c q) kv = Some (VRow r) -> next <= q.

  Definition NoRows (kv : kvs) (c : N) : Prop := forall q r, kget (KyRow c q) kv <> Some (VRow r).

  Lemma discard_pages_inv t c fuel : forall (st : mstate) next,
    swf (st_kv st) -> IdxInv (st_kv st) t -> LowBound (st_kv st) c next ->
    exists bs,
      st_log (fst (discard_pages F fuel st c next)) = st_log st ++ bs
      /\ st_kv (fst (discard_pages F fuel st c next)) = run_batches key_eqb (st_kv st) bs
      /\ (forall k, IdxInv (run_batches key_eqb (st_kv st) (firstn k bs)) t
                    /\ swf (run_batches key_eqb (st_kv st) (firstn k bs)))
      /\ (snd (discard_pages F fuel st c next) = ok tt -> NoRows (st_kv (fst (discard_pages F fuel st c next))) c).
  Proof.
    induction fuel as [|fuel IH]; intros st next W HI HL; cbn [discard_pages].
    - exists []. rewrite app_nil_r. cbn [fst snd]. repeat split; try (destruct k; assumption). discriminate.
    - destruct (readForward (st_kv st) c next 0 restoreDiscardBatchMessages restoreDiscardBatchBytes) as [rows|e] eqn:Er.
      2:{ exists []. rewrite app_nil_r. cbn [fst snd]. repeat split; try (destruct k; assumption). discriminate. }
      destruct (page_read _ t _ _ _ _ _ W HI Er) as [rest [E1 [E2 [Hnd [Hst Hlt]]]]].
      destruct rows as [|r0 rows'].
      + exists []. rewrite app_nil_r. cbn [fst snd]. repeat split; try (destruct k; assumption).
        intros _ q r G.
        assert (Hin : In r (filter (fun r => next <=? r_seq r) (rows_of (st_kv st) c))).
        { pose proof (IdxInv_row _ _ _ _ _ HI G) as K. apply filter_In. split.
          - apply (in_rows_of _ _ _ W). exists q. exact G.
          - rewrite (rchk_seq _ _ _ _ _ K). apply N.leb_le. apply (HL q r G). }
        destruct (filter (fun r => next <=? r_seq r) (rows_of (st_kv st) c)) as [|x l] eqn:Ef; [destruct Hin|].
        apply E2; [discriminate|reflexivity].
      + set (rows := r0 :: rows') in *. set (b := flat_map (stageDeleteMessage c) rows).
        assert (Hnd1 : NoDup (map r_seq rows)) by (rewrite map_app in Hnd; apply NoDup_app_l in Hnd; exact Hnd).
        assert (HI1 : IdxInv (kapply (st_kv st) b) t).
        { apply del_rows_IdxInv; [exact HI|exact Hnd1|]. intros r Hr. apply Hst. apply in_or_app. left. exact Hr. }
        assert (W1 : swf (kapply (st_kv st) b)) by (apply swf_apply; exact W).
        assert (Hdel : forall r, In r rows -> In (KyRow c (r_seq r)) (deleted_keys c rows)).
        { intros r Hr. apply in_deleted_keys. exists r. split; [exact Hr|]. apply in_row_del_keys. split; reflexivity. }
        destruct (last_seq rows <? next) eqn:Elt.
        * exists [b]. cbn [fst snd commit MsgStore.st_log MsgStore.st_kv]. split; [reflexivity|]. split; [reflexivity|].
          split; [|discriminate].
          intros [|k]; cbn [firstn]; [split; assumption|]. destruct k; cbn [firstn run_batches fold_left]; split; assumption.
        * assert (HL1 : LowBound (kapply (st_kv st) b) c (last_seq rows + 1)).
          { intros q r G. unfold b in G. rewrite kget_delete_rows in G.
            destruct (existsb (key_eqb (KyRow c q)) (deleted_keys c rows)) eqn:X; [discriminate|].
            apply existsb_key_notin in X.
            pose proof (IdxInv_row _ _ _ _ _ HI G) as K. pose proof (rchk_seq _ _ _ _ _ K) as Eq.
            assert (Hin : In r (rows ++ rest)).
            { rewrite <- E1. apply filter_In. split; [apply (in_rows_of _ _ _ W); exists q; exact G|].
              rewrite Eq. apply N.leb_le. apply (HL q r G). }
            apply in_app_or in Hin. destruct Hin as [Hin|Hin].
            - exfalso. apply X. rewrite <- Eq. apply Hdel. exact Hin.
            - destruct (last_seq_in rows ltac:(discriminate)) as [rl [Hrl El]]. rewrite <- El.
              pose proof (Hlt rl r Hrl Hin). lia. }
          destruct (IH (commit F st b) (last_seq rows + 1) W1 HI1 HL1) as [bs [L1 [L2 [L4 L5]]]].
          exists (b :: bs). split; [rewrite L1; cbn [commit MsgStore.st_log]; rewrite <- app_assoc; reflexivity|].
          split; [rewrite L2; reflexivity|]. split; [|exact L5].
          intros [|k]; cbn [firstn]; [split; assumption|]. apply (L4 k).
  Qed.

  (* DiscardForRestore = pages, then the terminal batch; every store a stop inside
     the call can leave satisfies the index invariant, and after the call no key
     of the channel is left *)
  Theorem discard_batches t (st : mstate) c :
    swf (st_kv st) -> IdxInv (st_kv st) t ->
    exists bs,
      st_log (fst (DiscardForRestore F st c)) = st_log st ++ bs
      /\ st_kv (fst (DiscardForRestore F st c)) = run_batches key_eqb (st_kv st) bs
      /\ (forall k, IdxInv (run_batches key_eqb (st_kv st) (firstn k bs)) t)
      /\ (snd (DiscardForRestore F st c) = ok tt ->
          forall k, in_partition c k = true \/ k = KyCat c -> kget k (st_kv (fst (DiscardForRestore F st c))) = None).
  Proof.
    intros W HI. unfold DiscardForRestore.
    assert (HL : LowBound (st_kv st) c 1).
    { intros q r G. pose proof (IdxInv_row _ _ _ _ _ HI G) as K. destruct K as [_ _ _ K _ _ _ _ _].
      apply andb_true_iff in K. destruct K as [K _]. apply andb_true_iff in K. destruct K as [_ K]. apply N.leb_le. exact K. }
    destruct (discard_pages_inv t c (S (length (rows_unsorted (st_kv st) c))) st 1 W HI HL) as [bs [L1 [L2 [L4 L5]]]].
    destruct (discard_pages F (S (length (rows_unsorted (st_kv st) c))) st c 1) as [st1 [u|e]]; cbn [fst snd] in *.
    - exists (bs ++ [terminal_batch c]).
      cbn [fst snd set_cache commit MsgStore.st_log MsgStore.st_kv]. fold (terminal_batch c).
      split; [rewrite L1, <- app_assoc; reflexivity|].
      split; [rewrite L2; transitivity (run_batches key_eqb (run_batches key_eqb (st_kv st) bs) [terminal_batch c]); [reflexivity|symmetry; apply run_batches_app]|].
      assert (Hfin : IdxInv (run_batches key_eqb (st_kv st) (bs ++ [terminal_batch c])) t).
      { unfold kbatch. rewrite run_batches_app. cbn [run_batches fold_left]. rewrite <- L2.
        apply terminal_IdxInv; [|destruct u; apply L5; reflexivity].
        rewrite L2. rewrite <- (firstn_all bs). apply (L4 (length bs)). }
      split.
      + intro k. destruct (Nat.le_gt_cases k (length bs)) as [Hk|Hk].
        * rewrite firstn_app. replace (k - length bs)%nat with 0%nat by lia. cbn [firstn]. rewrite app_nil_r. apply (L4 k).
        * rewrite firstn_all2 by (rewrite app_length; cbn [length]; lia). exact Hfin.
      + intros _ k Hk. apply terminal_wipes. exact Hk.
    - exists bs. split; [exact L1|]. split; [exact L2|]. split; [intro k; apply (L4 k)|discriminate].
  Qed.

End Discard.
