(* Proof/MsgEvent_node.v — the leader node: stream cache, finish path, and the
   durable tables behind the slot FSM.  [durable_step]: what every node step does
   to the tables; [node_trace], [node_clauses] and [node_monitor_is_clauses]: on
   the model's own trace the table part of the monitor never fires
   (c40_model_satisfies_monitor_node).  The finish path: fail-closed (F1),
   [flush_run] under [views_coherent] (F2, c40_finish_persists_cached_partial),
   cache-only events, cache loss. *)
From WK Require Import Base.Base.
From WK Require Import Gen.Consts_C40 Model.MsgEvent Model.MsgEvent_C40 Proof.MsgEvent Proof.MsgEvent_monitor.
Open Scope N_scope.

(* the calls of an accepted slot command as [spec_appends] reads them *)
Definition ok_calls (hs : N) (evs : list Event) (rs : list Result) : list (N * Event * (Err * option Result)) :=
  map (fun er => (hs, fst er, (ENone, Some (snd er)))) (combine evs rs).

Lemma fsm_apply_refines evs : forall db hs rs db',
  fsm_apply_events db hs evs = Some (rs, db') ->
  spec_appends (abs_db db) (ok_calls hs evs rs) = Some (abs_db db')
  /\ db' = run_appends db (map (fun e => (hs, e)) evs).
Proof.
  induction evs as [|e r IH]; intros db hs rs db' E; cbn [fsm_apply_events] in E.
  - injection E as <- <-. split; reflexivity.
  - destruct (AppendMessageEvent db hs e) as [[[] [res|]] db1] eqn:Ea; try discriminate.
    destruct (fsm_apply_events db1 hs r) as [[rs1 db2]|] eqn:Er; [|discriminate].
    injection E as <- <-. destruct (IH _ _ _ _ Er) as (Sp & Rn).
    cbn [map run_appends]. rewrite Ea. split; [|exact Rn].
    unfold ok_calls. cbn [combine map spec_appends fst snd].
    rewrite (spec_append_refines db hs e res db1 Ea). exact Sp.
Qed.

Lemma fsm_apply_unfold_none evs db hs : fsm_apply_events db hs evs = None -> True.
Proof. trivial. Qed.

Definition same_channel (c : bytes) (evs : list Event) : Prop := forall e, In e evs -> e_channel e = c.

Lemma proposal_calls_ok chan c evs rs :
  same_channel c evs ->
  proposal_calls chan [with_results evs (Some rs)] = ok_calls (opt_or (assoc c chan) 0) evs rs.
Proof.
  intros Hc. unfold proposal_calls, with_results, ok_calls. cbn [flat_map]. rewrite app_nil_r.
  revert rs. induction evs as [|e r IH]; intros rs; [reflexivity|].
  destruct rs as [|x rs]; [reflexivity|]. cbn [map combine fst snd].
  rewrite (Hc e) by (left; reflexivity). f_equal. apply IH. intros e' He'. apply Hc. right. exact He'.
Qed.

Lemma spec_appends_rejected g chan evs : spec_appends g (proposal_calls chan [with_results evs None]) = Some g.
Proof.
  unfold proposal_calls, with_results. cbn [flat_map]. rewrite app_nil_r.
  induction evs as [|e r IH]; [reflexivity|]. cbn [map fst snd spec_appends]. exact IH.
Qed.

Lemma atomic_some evs rs : proposal_atomic (with_results evs (Some rs)) = true.
Proof.
  unfold proposal_atomic, with_results. apply orb_true_iff. left. apply forallb_forall.
  intros [e o] Hin. apply in_combine_r in Hin. apply in_map_iff in Hin. destruct Hin as (r & <- & _). reflexivity.
Qed.

Lemma atomic_none evs : proposal_atomic (with_results evs None) = true.
Proof.
  unfold proposal_atomic, with_results. apply orb_true_iff. right. apply forallb_forall.
  intros [e o] Hin. apply in_map_iff in Hin. destruct Hin as (e' & E & _). inversion E. reflexivity.
Qed.

(* the proposals of the step are atomic and, fed to [spec_appends], take the abstract
   tables of [st] to those of [st']; the channel -> hash slot map is unchanged *)
Record durable_step (st : NodeSt) (out : AppendOut) (st' : NodeSt) : Prop := {
  ds_chan : n_chan_hs st' = n_chan_hs st;
  ds_atomic : forallb proposal_atomic (ao_proposals out) = true;
  ds_spec : spec_appends (abs_db (n_db st)) (proposal_calls (n_chan_hs st) (ao_proposals out)) = Some (abs_db (n_db st'))
}.

Lemma durable_nothing st st' err res :
  n_chan_hs st' = n_chan_hs st -> n_db st' = n_db st -> durable_step st (mkAppendOut err res []) st'.
Proof. intros H1 H2. split; [exact H1 | reflexivity | cbn; rewrite H2; reflexivity]. Qed.

Lemma propose_events_durable st evs fail c :
  same_channel c evs -> evs <> [] ->
  match propose_events st evs fail with
  | (Some rs, st') =>
    n_chan_hs st' = n_chan_hs st
    /\ spec_appends (abs_db (n_db st)) (proposal_calls (n_chan_hs st) [with_results evs (Some rs)]) = Some (abs_db (n_db st'))
    /\ fsm_apply_events (n_db st) (hash_slot_of st c) evs = Some (rs, n_db st')
  | (None, st') => st' = st
  end.
Proof.
  intros Hc Hne. unfold propose_events. destruct fail; [reflexivity|].
  destruct (validateMessageEventAppendBatch evs); cbn [negb]; [|reflexivity].
  destruct evs as [|first r]; [congruence|].
  rewrite (Hc first) by (left; reflexivity).
  destruct (fsm_apply_events (n_db st) (hash_slot_of st c) (first :: r)) as [[rs db']|] eqn:E; [|reflexivity].
  destruct (fsm_apply_refines _ _ _ _ _ E) as (Sp & _).
  cbn [set_db n_chan_hs n_db]. rewrite (proposal_calls_ok _ c) by assumption. auto.
Qed.

(* a proposal, accepted or rejected, is a durable step, whatever the caller then does to the cache *)
Lemma proposal_durable st evs fail c o st1 err res st2 :
  same_channel c evs -> evs <> [] -> propose_events st evs fail = (o, st1) ->
  n_chan_hs st2 = n_chan_hs st1 -> n_db st2 = n_db st1 ->
  durable_step st (mkAppendOut err res [with_results evs o]) st2.
Proof.
  intros Hc Hne E H1 H2. pose proof (propose_events_durable st evs fail c Hc Hne) as P. rewrite E in P.
  destruct o as [rs|].
  - destruct P as (Ph & Sp & _).
    split; [congruence | cbn [ao_proposals forallb]; rewrite atomic_some; reflexivity | rewrite H2; exact Sp].
  - subst st1. split; [exact H1 | cbn [ao_proposals forallb]; rewrite atomic_none; reflexivity | rewrite H2; apply spec_appends_rejected].
Qed.

Lemma flush_channel fin s : e_channel (finishFlushMessageEvent fin s) = e_channel fin.
Proof. reflexivity. Qed.

Lemma finish_events_channel fin opens :
  same_channel (e_channel fin) (map (finishFlushMessageEvent fin) opens ++ [fin]).
Proof.
  intros e He. apply in_app_or in He. destruct He as [He|[<-|[]]]; [|reflexivity].
  apply in_map_iff in He. destruct He as (s & <- & _). apply flush_channel.
Qed.

Lemma mergeTerminalPayload_channel ca e : e_channel (mergeTerminalPayload ca e) = e_channel e.
Proof.
  unfold mergeTerminalPayload. destruct (negb _); [reflexivity|].
  destruct (find_session _ _ _ _); [|reflexivity]. destruct (assoc _ _); [|reflexivity].
  destruct (_ || _); reflexivity.
Qed.

(* a terminal event on a cached lane with a non-empty snapshot carries the merged payload *)
Lemma mergeTerminalPayload_hit ca e session state :
  isMessageEventTerminalEvent (e_etype e) = true ->
  find_session ca (e_channel e) (e_ctype e) (e_msgno e) = Some session ->
  assoc (e_key e) (ss_states session) = Some state ->
  is_empty (st_key state) = false -> is_empty (s_raw (st_snap state)) = false ->
  mergeTerminalPayload ca e = with_payload e (mergeMessageEventTerminalPayload (e_payload e) (st_snap state)).
Proof. intros Te Fs As Ke Sn. unfold mergeTerminalPayload. rewrite Te, Fs, As, Ke, Sn. reflexivity. Qed.

Lemma single_channel e : same_channel (e_channel e) [e].
Proof. intros x [<-|[]]. reflexivity. Qed.

Lemma finish_local_durable st e fail :
  let '(out, st') := appendMessageEventFinishLocal st e fail in durable_step st out st'.
Proof.
  unfold appendMessageEventFinishLocal.
  destruct (nil_b _ && negb _); [apply durable_nothing; reflexivity|].
  destruct (propose_events st _ fail) as [[rs|] st1] eqn:P; [destruct (last_result rs)|];
    (eapply proposal_durable;
     [apply finish_events_channel | exact (not_eq_sym (app_cons_not_nil _ _ _)) | exact P | reflexivity | reflexivity]).
Qed.

Lemma append_local_durable st e fail :
  let '(out, st') := appendMessageEventLocal st e fail in durable_step st out st'.
Proof.
  unfold appendMessageEventLocal.
  destruct (normalizeMessageEventAppend e) as [ne|]; [|apply durable_nothing; reflexivity].
  destruct (negb (slot_local _ _)); [apply durable_nothing; reflexivity|].
  destruct (isMessageEventCacheOnlyEvent (e_etype ne)).
  { destruct (appendCachedObserved (n_cache st) ne) as [[err res] ca]. apply durable_nothing; reflexivity. }
  destruct (bytes_eqb (e_etype ne) EventTypeStreamFinish); [apply finish_local_durable|].
  (* close / error / cancel with the merged payload; the last branch is the model's unreachable one *)
  destruct (isMessageEventTerminalEvent (e_etype ne));
    (destruct (propose_events st _ fail) as [[rs|] st1] eqn:P; [destruct (last_result rs)|];
     (eapply proposal_durable; [apply single_channel | discriminate | exact P | reflexivity | reflexivity])).
Qed.

Lemma node_step_durable st op : let '(out, st') := node_step st op in durable_step st out st'.
Proof. destruct op; cbn [node_step]; try (apply durable_nothing; reflexivity). apply append_local_durable. Qed.

Definition cache_dumps_for (ca : Cache) (ks : list dump_key) : list CacheDump :=
  map (fun k => match k with (_, c, t, m) => mkCacheDump c t m (cache_dump_of ca c t m) end) ks.

Definition obs_of (ks : list dump_key) (out : AppendOut) (st' : NodeSt) : NodeObs :=
  mkNodeObs (ao_err out) (ao_result out) (ao_proposals out) (cache_dumps_for (n_cache st') ks)
            (N.of_nat (length (c_sessions (n_cache st')))) (dumps_for (n_db st') ks).

(* the trace the model produces for a node history: what the harness would observe *)
Fixpoint node_trace (ks : list dump_key) (st : NodeSt) (ops : list NodeOp) : list (NodeOp * NodeObs) :=
  match ops with
  | [] => []
  | op :: r => let '(out, st') := node_step st op in (op, obs_of ks out st') :: node_trace ks st' r
  end.

(* the clause part of the monitor along the model's own run *)
Fixpoint node_clauses (ks : list dump_key) (st : NodeSt) (cache : list CacheDump) (ops : list NodeOp) : N :=
  match ops with
  | [] => 0
  | op :: r =>
    let '(out, st') := node_step st op in
    let obs := obs_of ks out st' in
    max_code (clause_monitor (abs_db (n_db st)) (n_chan_hs st) cache op obs) (node_clauses ks st' (no_cache obs) r)
  end.

Lemma node_monitor_is_clauses ops : forall ks st cache,
  node_monitor (abs_db (n_db st)) (n_chan_hs st) cache (node_trace ks st ops) = node_clauses ks st cache ops.
Proof.
  induction ops as [|op r IH]; intros ks st cache; cbn [node_trace node_clauses node_monitor]; [reflexivity|].
  pose proof (node_step_durable st op) as D. destruct (node_step st op) as [out st']. cbn [node_monitor].
  destruct D as [Hc Ha Hs].
  unfold node_calls. cbn [obs_of no_proposals no_dumps no_cache]. rewrite Ha, Hs. cbn [negb].
  rewrite dumps_are_model. cbn [negb]. rewrite <- Hc. rewrite IH. reflexivity.
Qed.

Lemma cache_only_not_durable st e fail ne :
  normalizeMessageEventAppend e = Some ne -> isMessageEventCacheOnlyEvent (e_etype ne) = true ->
  let '(out, st') := appendMessageEventLocal st e fail in
  ao_proposals out = [] /\ n_db st' = n_db st.
Proof.
  intros Nm Co. unfold appendMessageEventLocal. rewrite Nm.
  destruct (negb (slot_local _ _)); [split; reflexivity|]. rewrite Co.
  destruct (appendCachedObserved (n_cache st) ne) as [[err res] ca]. split; reflexivity.
Qed.

(* a finish event on the leader of its slot goes to the finish path *)
Lemma append_local_finish st e fail fin :
  normalizeMessageEventAppend e = Some fin ->
  bytes_eqb (e_etype fin) EventTypeStreamFinish = true ->
  slot_local (n_local st) (hash_slot_of st (e_channel fin) + 1) = true ->
  appendMessageEventLocal st e fail = appendMessageEventFinishLocal st fin fail.
Proof.
  intros Nm Fi Lo. unfold appendMessageEventLocal. rewrite Nm, Lo. cbn [negb].
  unfold isMessageEventCacheOnlyEvent. rewrite (finish_eqb_kind _ Fi), Fi. reflexivity.
Qed.

(* clause F1 of the monitor *)
Lemma finish_local_cache_miss st fin fail :
  openStatesForFinish (n_cache st) fin = [] -> p_hassnap (e_payload fin) = false ->
  appendMessageEventFinishLocal st fin fail = (mkAppendOut ECacheMiss None [], st).
Proof. intros Op Hs. unfold appendMessageEventFinishLocal. rewrite Op, Hs. reflexivity. Qed.

Lemma open_states_no_session ca e :
  find_session ca (e_channel e) (e_ctype e) (e_msgno e) = None -> openStatesForFinish ca e = [].
Proof. intro H. unfold openStatesForFinish. destruct (negb _); [reflexivity|]. rewrite H. reflexivity. Qed.

Lemma cache_loss_leaves_no_open_lane ca e :
  openStatesForFinish (resetAfterRestore ca) e = []
  /\ openStatesForFinish (pauseForRestore ca) e = []
  /\ openStatesForFinish (resumeAfterRestore ca) e = []
  /\ (forall hash_slot_of lost, existsb (N.eqb (hash_slot_of (e_channel e))) lost = true ->
        openStatesForFinish (removeHashSlotsObserved ca hash_slot_of lost) e = []).
Proof.
  repeat split; try (apply open_states_no_session; reflexivity).
  intros hash_slot_of lost H. apply open_states_no_session. unfold find_session, removeHashSlotsObserved. cbn [c_sessions].
  apply find_filter_none. intros s Hs. apply msg_eqb_iff in Hs. destruct Hs as (-> & _ & _). rewrite H. reflexivity.
Qed.

Lemma finish_local_proposal st fin fail :
  (nil_b (openStatesForFinish (n_cache st) fin) && negb (p_hassnap (e_payload fin))) = false ->
  exists rs, ao_proposals (fst (appendMessageEventFinishLocal st fin fail))
             = [with_results (map (finishFlushMessageEvent fin) (openStatesForFinish (n_cache st) fin) ++ [fin]) rs].
Proof.
  intros Op. unfold appendMessageEventFinishLocal. rewrite Op.
  destruct (propose_events st _ fail) as [[rs|] st1].
  - exists (Some rs). destruct (last_result rs); reflexivity.
  - exists None. reflexivity.
Qed.

Lemma append_keeps_absent db hs ev hs' c t m key id :
  normalizeMessageEventAppend ev = Some ev -> e_key ev <> key -> e_id ev <> id ->
  get_state db hs' c t m key = None -> get_applied db hs' c t m id = None ->
  get_state (snd (AppendMessageEvent db hs ev)) hs' c t m key = None
  /\ get_applied (snd (AppendMessageEvent db hs ev)) hs' c t m id = None.
Proof.
  intros Nm Hk Hi Gs Ga.
  destruct (append_unchanged_or_applied db hs ev) as [-> | (ne & st' & cu' & Nm' & R & ->)]; [split; assumption|].
  pose proof (ar_lane _ _ _ _ _ R) as Sl. rewrite get_state_put, get_applied_put. split.
  - destruct (state_at hs' c t m key (hs, st')) eqn:Q; [|exact Gs].
    apply state_at_iff in Q. unfold state_key in Q. cbn [fst snd] in Q. rewrite Sl in Q. congruence.
  - destruct (applied_at hs' c t m id _) eqn:Q; [|exact Ga].
    apply applied_at_iff in Q. unfold applied_key in Q. cbn in Q. congruence.
Qed.

Lemma run_keeps_absent evs : forall db hs hs' c t m key id,
  (forall ev, In ev evs -> normalizeMessageEventAppend ev = Some ev /\ e_key ev <> key /\ e_id ev <> id) ->
  get_state db hs' c t m key = None -> get_applied db hs' c t m id = None ->
  get_state (run_appends db (map (fun e => (hs, e)) evs)) hs' c t m key = None
  /\ get_applied (run_appends db (map (fun e => (hs, e)) evs)) hs' c t m id = None.
Proof.
  induction evs as [|ev r IH]; intros db hs hs' c t m key id H Gs Ga; cbn [map run_appends]; [split; assumption|].
  destruct (H ev (or_introl eq_refl)) as (Nm & Hk & Hi).
  destruct (append_keeps_absent db hs ev hs' c t m key id Nm Hk Hi Gs Ga) as (Gs' & Ga').
  apply IH; [intros x Hx; apply H; right; exact Hx | exact Gs' | exact Ga'].
Qed.

Lemma append_fresh_close db hs ev :
  normalizeMessageEventAppend ev = Some ev ->
  event_kind (e_etype ev) = Some KClose ->
  get_applied db hs (e_channel ev) (e_ctype ev) (e_msgno ev) (e_id ev) = None ->
  get_state db hs (e_channel ev) (e_ctype ev) (e_msgno ev) (e_key ev) = None ->
  exists st',
    get_state (snd (AppendMessageEvent db hs ev)) hs (e_channel ev) (e_ctype ev) (e_msgno ev) (e_key ev) = Some st'
    /\ st_status st' = EventStatusClosed
    /\ st_snap st' = opt_or (terminal_snapshot (e_payload ev)) snap_empty.
Proof.
  intros Nm K Ga Gs. unfold AppendMessageEvent. rewrite Nm, Ga, Gs. cbn [opt_or is_some].
  unfold reduceMessageEventAppend. cbn [andb]. rewrite K.
  destruct (get_cursor db hs (e_channel ev) (e_ctype ev) (e_msgno ev)) as [cu|]; cbn [opt_or is_some snd];
    (eexists; split; [rewrite get_state_put, state_at_row by reflexivity; reflexivity|]);
    cbn [st_status st_snap]; (split; [reflexivity|]); destruct (terminal_snapshot (e_payload ev)); reflexivity.
Qed.

(* Relations between the views of one payload that encoding/json guarantees for
   every byte string: an object with a non-null "snapshot" member is a non-empty
   JSON object and, when it decodes into the terminal struct ([p_tok]), the
   struct's snapshot ([p_tsnap], None on a decode error) is that member.
   Assumed, not checked in Coq: the harness computes all views of a payload from
   the same bytes ([viewsOf] in harness/cmd/C40/main.go). *)
Definition views_coherent (p : Payload) : Prop :=
  p_hassnap p = true ->
  p_obj p = true /\ is_empty (p_raw p) = false /\ (p_tok p = true -> p_tsnap p <> None).

Lemma tsnap_of_canon_some c c' : tsnap_of_canon c = Some c' -> c' = c.
Proof. unfold tsnap_of_canon. destruct (bytes_eqb c _); [discriminate|]. intro H. inversion H. reflexivity. Qed.

Lemma merged_snapshot p s :
  views_coherent p ->
  (p_obj p = true -> merge_decodes p = true) ->      (* not the undecodable-object defect *)
  is_empty (s_raw s) = false -> tsnap_of_canon (s_canon s) <> None ->
  exists raw, terminal_snapshot (mergeMessageEventTerminalPayload p s) = Some raw
              /\ s_raw raw = (if p_hassnap p then p_tsnap_canon p else s_canon s).
Proof.
  intros Vc Hd Hs Hsome. unfold mergeMessageEventTerminalPayload. rewrite Hs.
  assert (Hc : tsnap_of_canon (s_canon s) = Some (s_canon s)).
  { destruct (tsnap_of_canon (s_canon s)) as [c|] eqn:E; [|congruence]. rewrite (tsnap_of_canon_some _ _ E). reflexivity. }
  destruct (p_obj p) eqn:Ho.
  - specialize (Hd eq_refl). destruct (p_hassnap p) eqn:Hh.
    + destruct (Vc Hh) as (_ & Hne & Ht).
      unfold merge_decodes in Hd. rewrite Hne in Hd. cbn [orb] in Hd. rewrite Hd. specialize (Ht Hd).
      destruct (p_tsnap p) as [x|]; [|congruence].
      unfold terminal_snapshot. cbn [p_tsnap p_tsnap_canon option_map]. eexists. split; reflexivity.
    + rewrite Hd. unfold terminal_snapshot. cbn [p_tsnap p_tsnap_canon]. rewrite Hc.
      eexists. split; reflexivity.
  - assert (Hh : p_hassnap p = false).
    { destruct (p_hassnap p) eqn:Hh; [|reflexivity]. destruct (Vc Hh) as (X & _). congruence. }
    rewrite Hh. unfold terminal_snapshot. cbn [p_tsnap p_tsnap_canon]. rewrite Hc.
    eexists. split; reflexivity.
Qed.

Lemma flush_id_injective fid k1 k2 : finishFlushMessageEventID fid k1 = finishFlushMessageEventID fid k2 -> k1 = k2.
Proof. unfold finishFlushMessageEventID. intro H. apply app_inv_head in H. apply app_inv_head in H. exact H. Qed.

Lemma finish_local_db st fin fail out st' :
  appendMessageEventFinishLocal st fin fail = (out, st') -> ao_err out = ENone ->
  n_db st' = run_appends (n_db st)
               (map (fun e => (hash_slot_of st (e_channel fin), e))
                    (map (finishFlushMessageEvent fin) (openStatesForFinish (n_cache st) fin) ++ [fin])).
Proof.
  intros E Ok. unfold appendMessageEventFinishLocal in E.
  destruct (nil_b _ && negb _); [injection E as <- _; discriminate|].
  pose proof (propose_events_durable st _ fail _ (finish_events_channel fin (openStatesForFinish (n_cache st) fin))
                                     (not_eq_sym (app_cons_not_nil _ _ _))) as P.
  destruct (propose_events st _ fail) as [[rs|] st1]; [|injection E as <- _; discriminate].
  destruct P as (_ & _ & Hf). destruct (fsm_apply_refines _ _ _ _ _ Hf) as (_ & Hrun).
  destruct (last_result rs); injection E as _ <-; exact Hrun.
Qed.

(* Clause F2 of the monitor: flushing the open lanes.  In a run of one flush close per lane, followed by
   anything, a lane that was not durable and whose flush id was unused ends
   durable and terminal with the merged snapshot.  Hypotheses:
     the flush events are their own normal forms (the cache only holds lanes
       of normalized events; flush ids and lane keys contain no surrounding
       white space),
     the lanes have distinct keys (they are the entries of a map),
     the finish payload is not an undecodable JSON object (the signature of
       known finding 2) *)
Lemma flush_run db hs fin opens rest lane :
  (forall ev, In ev (map (finishFlushMessageEvent fin) opens) -> normalizeMessageEventAppend ev = Some ev) ->
  NoDup (map st_key opens) ->
  views_coherent (e_payload fin) ->
  (p_obj (e_payload fin) = true -> merge_decodes (e_payload fin) = true) ->
  In lane opens ->
  is_empty (s_raw (st_snap lane)) = false -> tsnap_of_canon (s_canon (st_snap lane)) <> None ->
  get_state db hs (e_channel fin) (e_ctype fin) (e_msgno fin) (st_key lane) = None ->
  get_applied db hs (e_channel fin) (e_ctype fin) (e_msgno fin) (finishFlushMessageEventID (e_id fin) (st_key lane)) = None ->
  exists s', get_state (run_appends db (map (fun e => (hs, e)) (map (finishFlushMessageEvent fin) opens ++ rest)))
                       hs (e_channel fin) (e_ctype fin) (e_msgno fin) (st_key lane) = Some s'
             /\ isMessageEventTerminal (st_status s') = true
             /\ s_raw (st_snap s') = (if p_hassnap (e_payload fin) then p_tsnap_canon (e_payload fin) else s_canon (st_snap lane)).
Proof.
  intros Hnorm Hnodup Vc Hdec Hin Hsn Hc0 Gs Ga.
  destruct (in_split _ _ Hin) as (before & after & ->).
  set (fl := finishFlushMessageEvent fin) in *.
  rewrite map_app in Hnodup, Hnorm. rewrite !map_app. cbn [map] in Hnodup, Hnorm |- *.
  rewrite <- app_assoc, run_appends_app. cbn [app run_appends].
  (* the lanes before do not touch this lane *)
  assert (Hkeys : forall x, In x before -> st_key x <> st_key lane).
  { intros x Hx Heq. apply NoDup_remove_2 in Hnodup. apply Hnodup, in_or_app. left. rewrite <- Heq. apply in_map, Hx. }
  destruct (run_keeps_absent (map fl before) db hs hs (e_channel fin) (e_ctype fin) (e_msgno fin) (st_key lane)
                             (finishFlushMessageEventID (e_id fin) (st_key lane))) as (Gs1 & Ga1); try assumption.
  { intros ev Hev. split; [apply Hnorm, in_or_app; left; exact Hev|].
    apply in_map_iff in Hev. destruct Hev as (x & <- & Hx). split; cbn; [exact (Hkeys x Hx)|].
    intro Heq. apply flush_id_injective in Heq. exact (Hkeys x Hx Heq). }
  (* its own flush event creates it, closed, with the merged snapshot *)
  assert (Nl : normalizeMessageEventAppend (fl lane) = Some (fl lane)).
  { apply Hnorm, in_or_app. right. left. reflexivity. }
  destruct (append_fresh_close _ hs (fl lane) Nl kind_close Ga1 Gs1) as (s' & Gs2 & St2 & Sn2).
  cbn [fl finishFlushMessageEvent e_channel e_ctype e_msgno e_key e_payload] in Gs2, Sn2.
  destruct (merged_snapshot (e_payload fin) (st_snap lane) Vc Hdec Hsn Hc0) as (raw & Tr & Rr).
  rewrite Tr in Sn2. cbn [opt_or] in Sn2.
  (* whatever follows leaves a terminal lane alone *)
  assert (Tm : isMessageEventTerminal (st_status s') = true) by (rewrite St2; exact terminal_closed).
  exists s'. split; [|split; [exact Tm|rewrite Sn2; exact Rr]].
  apply run_preserves_terminal; assumption.
Qed.

Lemma reduce_terminal_snapshot state ex cursor cex e raw k :
  reduce_noop_cond state ex e = false ->
  event_kind (e_etype e) = Some k -> (k = KClose \/ k = KError \/ k = KCancel) ->
  terminal_snapshot (e_payload e) = Some raw ->
  let '(st', _, _, _) := reduceMessageEventAppend state ex cursor cex e in st_snap st' = raw.
Proof.
  intros C K Hk Tr. unfold reduceMessageEventAppend. unfold reduce_noop_cond in C. rewrite C, K.
  destruct Hk as [-> | [-> | ->]]; rewrite Tr; reflexivity.
Qed.
