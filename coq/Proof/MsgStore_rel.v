(* Proof/MsgStore_rel.v — the simulation relation between the durable store of
   the model and the plain sequential logs of the C07 specification, and what it
   gives for the scans and reads. *)
From WK Require Import Base.Base Base.Lists Model.KV Gen.Consts_C07 Model.MsgStore Model.MsgStore_C07
     Proof.KV Proof.MsgStore_base.
From Coq Require Import Sorting.Permutation Sorting.Sorted.

Definition arow_of (r : row) : arow :=
  AR (messageFromRow r) (negb (N.land (r_flags r) syncOnceFlag =? 0)).

Definition row_ok (c : N) (r : row) : Prop :=
  r_ch r = c /\ r_id r <> 0 /\ r_hash r = hashPayload (r_payload r) /\ 1 <= r_seq r.

(* the logical retention boundary (0 if no retention state is stored) *)
Definition local_of (kv : kvs) (c : N) : N :=
  match loadRetentionState kv c with Some (l, _, _) => l | None => 0 end.

Definition has (kv : kvs) (k : key) : Prop := kget k kv <> None.

(* one channel: the store holds exactly the rows [rows] of the plain log, with
   exact per-sequence indexes, a sound (and, for untainted pairs, complete)
   idempotency index, and a recoverable log end *)
Record Rchan (kv : kvs) (s : aspec) (c : N) (rows : list row) : Prop := {
  rc_rows : al_rows (as_log s c) = map arow_of rows;
  rc_sorted : sorted_lt r_seq rows;
  rc_get : forall q r, kget (KyRow c q) kv = Some (VRow r) <-> (In r rows /\ r_seq r = q);
  rc_ok : Forall (row_ok c) rows;
  rc_leo : recoverLEO kv c = al_leo (as_log s c);
  rc_le_leo : Forall (fun r => r_seq r <= al_leo (as_log s c)) rows;
  (* retention state (logical boundary, physical boundary, retained maximum): no row at or below the
     physical boundary; [rc_contig]: no hole above the LOGICAL boundary (between the two, rows may or may not exist) *)
  rc_ret : match loadRetentionState kv c with
           | Some (l, p, rm) => p <= l /\ l <= rm /\ rm <= al_leo (as_log s c) /\ l <> 0
                                /\ Forall (fun r => p < r_seq r) rows
           | None => True
           end;
  rc_contig : forall q, local_of kv c < q <= al_leo (as_log s c) -> exists r, In r rows /\ r_seq r = q;
  rc_cidx : forall n q, has kv (KyCidx c n q)
                        <-> exists r, In r rows /\ r_seq r = q /\ r_cno r = n /\ n <> [] /\ r_uid r = [];
  rc_sseq : forall u q, has kv (KySseq c u q)
                        <-> exists r, In r rows /\ r_seq r = q /\ r_uid r = u /\ u <> []
                                      /\ N.land (r_flags r) syncOnceFlag = 0;
  rc_idem_sound : forall n u q i h, kget (KyIdem c n u) kv = Some (VIdem q i h) ->
                    exists r, In r rows /\ r_seq r = q /\ r_cno r = n /\ r_uid r = u /\ r_id r = i /\ r_hash r = h
                              /\ n <> [] /\ u <> [];
  rc_idem_complete : forall r, In r rows -> r_uid r <> [] -> r_cno r <> [] ->
                    pair_tainted (as_log s c) (r_uid r) (r_cno r) = false ->
                    kget (KyIdem c (r_cno r) (r_uid r)) kv = Some (VIdem (r_seq r) (r_id r) (r_hash r));
  rc_ck : loadCheckpoint kv c = al_ck (as_log s c);
  rc_hist : loadHistory kv c = al_hist (as_log s c)
}.

Definition gid_sound (kv : kvs) : Prop :=
  forall i c q, kget (KyGid i) kv = Some (VGid c q) ->
                exists r, kget (KyRow c q) kv = Some (VRow r) /\ r_id r = i.

Definition gid_complete (kv : kvs) (s : aspec) : Prop :=
  forall c q r, kget (KyRow c q) kv = Some (VRow r) -> ~ In (r_id r) (as_tids s) ->
                kget (KyGid (r_id r)) kv = Some (VGid c q).

(* rows live only in the channels the specification looks at *)
Definition chans_only (kv : kvs) : Prop :=
  forall c q v, kget (KyRow c q) kv = Some v -> In c all_chans.

Record Rkv (kv : kvs) (s : aspec) : Prop := {
  rk_wf : swf kv;
  rk_chan : forall c, exists rows, Rchan kv s c rows;
  rk_gs : gid_sound kv;
  rk_gc : gid_complete kv s;
  rk_co : chans_only kv
}.

Lemma rows_unsorted_nodup (kv : kvs) c :
  swf kv -> (forall q r, In (KyRow c q, VRow r) kv -> r_seq r = q) -> NoDup (map r_seq (rows_unsorted kv c)).
Proof.
  unfold swf, wf, keys, rows_unsorted. induction kv as [|[k v] kv IH]; intros W Hq; cbn [flat_map map]; [constructor|].
  cbn [map fst] in W. inversion W as [|? ? Hn Wl]; subst.
  assert (IH' : NoDup (map r_seq (flat_map (fun kv0 : key * value =>
            match kv0 with (KyRow c' _, VRow r) => if c' =? c then [r] else [] | _ => [] end) kv))).
  { apply IH; [exact Wl|]. intros q r Hin. apply Hq. right. exact Hin. }
  destruct k as [c' q| | | | | | | | |]; try exact IH'. destruct v as [r| | | | |]; try exact IH'.
  destruct (c' =? c) eqn:E; [|exact IH']. apply N.eqb_eq in E. subst c'. cbn [app map].
  constructor; [|exact IH'].
  intro Hin. apply in_map_iff in Hin. destruct Hin as [r' [E' Hr']].
  apply in_flat_map in Hr'. destruct Hr' as [[k2 v2] [Hin2 Hr2]].
  destruct k2 as [c2 q2| | | | | | | | |]; try contradiction. destruct v2 as [r2| | | | |]; try contradiction.
  destruct (c2 =? c) eqn:E2; [|contradiction]. apply N.eqb_eq in E2. subst c2. destruct Hr2 as [<-|[]].
  assert (r_seq r2 = q2) by (apply Hq; right; exact Hin2).
  assert (r_seq r = q) by (apply Hq; left; reflexivity).
  apply Hn. apply in_map_iff. exists (KyRow c q2, VRow r2). split; [cbn [fst]; f_equal; congruence|exact Hin2].
Qed.

Lemma sort_by_sorted_id {A} (f : A -> N) l : sorted_lt f l -> sort_by f l = l.
Proof.
  intro H. apply sort_by_perm_sorted; [apply Permutation_refl|exact H].
Qed.

Lemma rows_of_char (kv : kvs) c rows :
  swf kv -> sorted_lt r_seq rows ->
  (forall q r, kget (KyRow c q) kv = Some (VRow r) <-> (In r rows /\ r_seq r = q)) ->
  rows_of kv c = rows.
Proof.
  intros W Hs Hg. unfold rows_of.
  assert (Hmem : forall r, In r (rows_unsorted kv c) <-> In r rows).
  { intro r. rewrite in_rows_unsorted. split.
    - intros [q Hin]. apply (kin_iff_get _ _ _ W) in Hin. apply Hg in Hin. exact (proj1 Hin).
    - intro Hin. exists (r_seq r). apply (kin_iff_get _ _ _ W). apply Hg. split; [exact Hin|reflexivity]. }
  assert (Hnd : NoDup (rows_unsorted kv c)).
  { eapply NoDup_map_inv, rows_unsorted_nodup; [exact W|]. intros q r Hin.
    apply (kin_iff_get _ _ _ W) in Hin. apply Hg in Hin. exact (proj2 Hin). }
  assert (Hnd2 : NoDup rows).
  { apply sorted_lt_nodup in Hs. eapply NoDup_map_inv. exact Hs. }
  apply sort_by_perm_sorted; [apply NoDup_Permutation; assumption|exact Hs].
Qed.

Lemma Rchan_rows_of kv s c rows : swf kv -> Rchan kv s c rows -> rows_of kv c = rows.
Proof. intros W R. apply rows_of_char; [exact W|apply R|apply R]. Qed.

Lemma Rchan_amsgs kv s c rows : Rchan kv s c rows -> amsgs (as_log s c) = map messageFromRow rows.
Proof. intro R. unfold amsgs. rewrite (rc_rows _ _ _ _ R), map_map. reflexivity. Qed.

Lemma Rchan_unique kv s c rows rows' : swf kv -> Rchan kv s c rows -> Rchan kv s c rows' -> rows = rows'.
Proof. intros W R R'. rewrite <- (Rchan_rows_of _ _ _ _ W R). eapply Rchan_rows_of; eassumption. Qed.

Lemma sorted_lt_inj rows r r' : sorted_lt r_seq rows -> In r rows -> In r' rows -> r_seq r = r_seq r' -> r = r'.
Proof.
  unfold sorted_lt. induction 1 as [|x l Hs IH Hall]; intros H1 H2 E; [destruct H1|].
  destruct H1 as [H1|H1], H2 as [H2|H2]; subst.
  - reflexivity.
  - eapply Forall_forall in Hall; [|exact H2]. lia.
  - eapply Forall_forall in Hall; [|exact H1]. lia.
  - apply IH; assumption.
Qed.

Lemma row_ok_valid c r : row_ok c r -> validateMaterializedMessageRow r = ok tt.
Proof.
  intros [_ [Hid [Hh _]]]. unfold validateMaterializedMessageRow.
  destruct (r_id r =? 0) eqn:E; [apply N.eqb_eq in E; contradiction|].
  rewrite Hh, N.eqb_refl. reflexivity.
Qed.

(* what the read loop returns is a prefix; if something is left, a budget stopped it *)
Lemma read_loop_prefix l : forall lim mb acc total X,
  read_loop l lim mb acc total = ok X ->
  exists X' Y, X = rev acc ++ X' /\ l = X' ++ Y
    /\ (Y <> [] -> ((0 < lim)%Z /\ (lim <= Z.of_nat (length acc + length X'))%Z)
                   \/ ((0 < mb)%Z /\ (acc <> [] \/ X' <> []))).
Proof.
  induction l as [|r l IH]; intros lim mb acc total X HX; cbn [read_loop] in HX.
  - injection HX as <-. exists [], []. rewrite app_nil_r. split; [reflexivity|]. split; [reflexivity|]. intro H; contradiction.
  - destruct (validateMaterializedMessageRow r); [|discriminate HX].
    destruct ((0 <? mb)%Z && negb (is_nil_rows acc) && (mb <? total + Z.of_nat (length (r_payload r)))%Z) eqn:E1.
    + injection HX as <-. exists [], (r :: l). rewrite app_nil_r. split; [reflexivity|]. split; [reflexivity|].
      intros _. right. apply andb_true_iff in E1. destruct E1 as [E1 _]. apply andb_true_iff in E1. destruct E1 as [E1 E2].
      split; [apply Z.ltb_lt; exact E1|]. left. destruct acc; [discriminate|discriminate].
    + destruct ((0 <? lim)%Z && (lim <=? Z.of_nat (length (r :: acc)))%Z) eqn:E2.
      * injection HX as <-. exists [r], l. cbn [rev]. split; [reflexivity|]. split; [reflexivity|].
        intros _. left. apply andb_true_iff in E2. destruct E2 as [E2 E3]. apply Z.ltb_lt in E2. apply Z.leb_le in E3.
        split; [exact E2|]. cbn [length] in E3 |- *. lia.
      * destruct (IH _ _ _ _ _ HX) as [X' [Y [H1 [H2 H3]]]].
        exists (r :: X'), Y. cbn [rev] in H1. rewrite <- app_assoc in H1. split; [exact H1|]. split; [cbn [app]; rewrite H2; reflexivity|].
        intro Hy. destruct (H3 Hy) as [[Ha Hb]|[Ha Hb]].
        -- left. split; [exact Ha|]. cbn [length] in Hb |- *. lia.
        -- right. split; [exact Ha|]. right. discriminate.
Qed.

Lemma read_loop_take c rows : Forall (row_ok c) rows -> forall lim mb acc total,
  exists X, read_loop rows lim mb acc total = ok (rev acc ++ X)
            /\ map messageFromRow X = spec_take (map messageFromRow rows) lim mb (Z.of_nat (length acc)) total.
Proof.
  induction 1 as [|r rows Hr Hrows IH]; intros lim mb acc total; cbn [read_loop map spec_take].
  - exists []. rewrite app_nil_r. split; reflexivity.
  - rewrite (row_ok_valid _ _ Hr). cbn [m_payload messageFromRow].
    assert (En : is_nil_rows acc = negb (0 <? Z.of_nat (length acc))%Z).
    { destruct acc; cbn [is_nil_rows length]; [reflexivity|]. symmetry. apply negb_false_iff. apply Z.ltb_lt. lia. }
    rewrite En, negb_involutive.
    destruct ((0 <? mb)%Z && (0 <? Z.of_nat (length acc))%Z && (mb <? total + Z.of_nat (length (r_payload r)))%Z) eqn:E1.
    + exists []. rewrite app_nil_r. split; reflexivity.
    + cbn [length]. replace (Z.of_nat (S (length acc))) with (Z.of_nat (length acc) + 1)%Z by lia.
      destruct ((0 <? lim)%Z && (lim <=? Z.of_nat (length acc) + 1)%Z) eqn:E2.
      * exists [r]. cbn [rev map]. split; reflexivity.
      * destruct (IH lim mb (r :: acc) (total + Z.of_nat (length (r_payload r)))%Z) as [X [HX1 HX2]].
        exists (r :: X). cbn [rev] in HX1. rewrite <- app_assoc in HX1. cbn [app] in HX1.
        split; [exact HX1|]. cbn [map]. f_equal. rewrite HX2. f_equal. cbn [length]. lia.
Qed.

Lemma read_loop_spec c rows lim mb : Forall (row_ok c) rows ->
  exists X, read_loop rows lim mb [] 0%Z = ok X
            /\ map messageFromRow X = spec_take (map messageFromRow rows) lim mb 0%Z 0%Z.
Proof. intro H. destruct (read_loop_take c rows H lim mb [] 0%Z) as [X [H1 H2]]. exists X. split; assumption. Qed.

Lemma filter_map_msg (p : N -> bool) rows :
  filter (fun m => p (m_seq m)) (map messageFromRow rows) = map messageFromRow (filter (fun r => p (r_seq r)) rows).
Proof.
  induction rows as [|r rows IH]; cbn [map filter]; [reflexivity|].
  cbn [m_seq messageFromRow]. destruct (p (r_seq r)); cbn [map]; rewrite IH; reflexivity.
Qed.

Lemma Forall_filter {A} (P : A -> Prop) f l : Forall P l -> Forall P (filter f l).
Proof.
  induction 1 as [|x l Hx Hl IH]; cbn [filter]; [constructor|].
  destruct (f x); [constructor; assumption|assumption].
Qed.

Lemma readForward_spec kv s c rows f mx lim mb :
  swf kv -> Rchan kv s c rows ->
  exists X, readForward kv c f mx lim mb = ok X
    /\ map messageFromRow X
       = spec_take (filter (fun m => (f <=? m_seq m) && ((mx =? 0) || (m_seq m <=? mx))) (amsgs (as_log s c))) lim mb 0%Z 0%Z
    /\ (forall r, In r X -> In r rows /\ f <= r_seq r /\ (mx = 0 \/ r_seq r <= mx)).
Proof.
  intros W R. unfold readForward. rewrite (Rchan_rows_of _ _ _ _ W R).
  set (p := fun q => (f <=? q) && ((mx =? 0) || (q <=? mx))).
  assert (HF : Forall (row_ok c) (filter (fun r => p (r_seq r)) rows)) by (apply Forall_filter; apply R).
  destruct (read_loop_take c _ HF lim mb [] 0%Z) as [X [H1 H2]].
  exists X. split; [exact H1|]. split.
  - rewrite H2. rewrite (Rchan_amsgs _ _ _ _ R). rewrite (filter_map_msg p). reflexivity.
  - intros r Hr. destruct (read_loop_prefix _ _ _ _ _ _ H1) as [X' [Y [EX [EA _]]]]. cbn [rev app] in EX. subst X'.
    assert (Hin : In r (filter (fun r => p (r_seq r)) rows)) by (rewrite EA; apply in_or_app; left; exact Hr).
    apply filter_In in Hin. destruct Hin as [Hin Hp]. unfold p in Hp.
    apply andb_true_iff in Hp. destruct Hp as [Hp1 Hp2]. apply N.leb_le in Hp1.
    split; [exact Hin|]. split; [exact Hp1|].
    apply orb_true_iff in Hp2. destruct Hp2 as [Hp2|Hp2]; [left; apply N.eqb_eq; exact Hp2|right; apply N.leb_le; exact Hp2].
Qed.

Lemma spec_take_all l : forall n t, spec_take l 0 0 n t = l.
Proof.
  induction l as [|m l IH]; intros n t; cbn [spec_take]; [reflexivity|].
  cbn [Z.ltb andb]. rewrite IH. reflexivity.
Qed.

Lemma read_loop_all c rows : Forall (row_ok c) rows -> forall acc total,
  read_loop rows 0 0 acc total = ok (rev acc ++ rows).
Proof.
  induction 1 as [|r rows Hr Hrows IH]; intros acc total; cbn [read_loop].
  - rewrite app_nil_r. reflexivity.
  - rewrite (row_ok_valid _ _ Hr). cbn [Z.ltb andb].
    rewrite IH. cbn [rev]. rewrite <- app_assoc. reflexivity.
Qed.

Lemma readForward_all kv s c rows f mx :
  swf kv -> Rchan kv s c rows ->
  readForward kv c f mx 0 0 = ok (filter (fun r => (f <=? r_seq r) && ((mx =? 0) || (r_seq r <=? mx))) rows).
Proof.
  intros W R. unfold readForward. rewrite (Rchan_rows_of _ _ _ _ W R).
  rewrite (read_loop_all c); [reflexivity|]. apply Forall_filter. apply R.
Qed.

(* reading from [from] without bounds returns the rows above [from - 1] *)
Lemma readForward_above kv s c rows from to :
  swf kv -> Rchan kv s c rows -> from = to + 1 ->
  readForward kv c from 0 0 0 = ok (filter (fun r => negb (r_seq r <=? to)) rows).
Proof.
  intros W R ->. rewrite (readForward_all _ _ _ _ _ 0 W R). f_equal. apply filter_ext. intro r.
  cbn [N.eqb orb]. rewrite andb_true_r.
  destruct (N.leb_spec (to + 1) (r_seq r)), (N.leb_spec (r_seq r) to); try reflexivity; lia.
Qed.

(* the read behind Read(fromSeq, limits) is the specification's read *)
Lemma readForward_spec_read kv s c rows f lim mb :
  swf kv -> Rchan kv s c rows ->
  exists X, readForward kv c (if f =? 0 then 1 else f) 0 lim mb = ok X
            /\ map messageFromRow X = spec_read (as_log s c) f lim mb.
Proof.
  intros W R. destruct (readForward_spec _ _ _ _ (if f =? 0 then 1 else f) 0 lim mb W R) as [X [E [HX _]]].
  exists X. split; [exact E|]. rewrite HX. unfold spec_read. f_equal. apply filter_ext. intro m. apply andb_true_r.
Qed.

(* with no upper bound the forward read filters by the lower bound only *)
Lemma readForward_from (kv : kvs) c next lim mb :
  readForward kv c next 0 lim mb = read_loop (filter (fun r => next <=? r_seq r) (rows_of kv c)) lim mb [] 0%Z.
Proof. unfold readForward. f_equal. apply filter_ext. intro r. apply andb_true_r. Qed.
