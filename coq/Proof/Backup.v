(* Proof/Backup.v — C11: the framing primitives of the portable streams.
   binary.Uvarint and length-prefixed fields round-trip, and every framing decoder is a
   reader: a successful read looks only at the bytes it consumes, and an item consumes at
   least one byte.  Truncation and prefix-freeness of whole payloads follow from that alone. *)
From WK Require Import Base.Base Base.Bytes Gen.Consts_C11 Model.Backup.
From Coq Require Import ZifyBool.
Open Scope N_scope.

#[local] Ltac Zify.zify_post_hook ::= Z.div_mod_to_equations.

Definition reader (A : Type) := bytes -> option (A * bytes).

(* [d] consumes at least [k] bytes, and what follows the bytes it consumed is returned untouched *)
Definition reads {A} (k : nat) (d : reader A) : Prop :=
  forall bs x r, d bs = Some (x, r) ->
    (k + length r <= length bs)%nat /\ forall t, d (bs ++ t) = Some (x, r ++ t).

Lemma reads_le {A} k k' (d : reader A) : (k' <= k)%nat -> reads k d -> reads k' d.
Proof. intros Hk R bs x r E. destruct (R bs x r E). split; [lia|assumption]. Qed.

Lemma reads_0 {A} k (d : reader A) : reads k d -> reads 0 d.
Proof. apply reads_le. lia. Qed.

Lemma reads_ext {A} k (d d' : reader A) : (forall bs, d bs = d' bs) -> reads k d' -> reads k d.
Proof. intros E R bs x r. rewrite !E. intro H. destruct (R _ _ _ H) as [L X]. split; [exact L|]. intro t. rewrite E. apply X. Qed.

Lemma reads_none {A} k : reads k (fun _ => @None (A * bytes)).
Proof. intros bs x r E. discriminate. Qed.

Lemma reads_ret {A} (x : A) : reads 0 (fun bs => Some (x, bs)).
Proof. intros bs y r E. injection E as <- <-. split; [lia|reflexivity]. Qed.

(* sequencing: the count is that of the first component *)
Lemma reads_bind {A B} k (d : reader A) (f : A -> reader B) :
  reads k d -> (forall x, reads 0 (f x)) ->
  reads k (fun bs => match d bs with Some (x, r) => f x r | None => None end).
Proof.
  intros Rd Rf bs y r E. destruct (d bs) as [[x r1]|] eqn:E1; [|discriminate].
  destruct (Rd _ _ _ E1) as [L1 X1]. destruct (Rf x _ _ _ E) as [L2 X2].
  split; [lia|]. intro t. rewrite X1. apply X2.
Qed.

Lemma reads_guard {A} k (c : bool) (d : reader A) : reads k d -> reads k (fun bs => if c then None else d bs).
Proof. destruct c; [intros _; apply reads_none|trivial]. Qed.

(* a check that enough input is left holds all the more of a longer input *)
Lemma reads_len_guard {A} k n (d : reader A) :
  reads k d -> reads k (fun bs => if N.of_nat (length bs) <? n then None else d bs).
Proof.
  intros R bs x r E. destruct (N.of_nat (length bs) <? n) eqn:L; [discriminate|].
  destruct (R _ _ _ E) as [Lr X]. split; [exact Lr|]. intro t.
  replace (N.of_nat (length (bs ++ t)) <? n) with false; [apply X|]. rewrite app_length. lia.
Qed.

Lemma reads_uncons {A} (f : N -> reader A) :
  (forall b, reads 0 (f b)) -> reads 1 (fun bs => match bs with [] => None | b :: r => f b r end).
Proof.
  intros R [|b bs] x r E; [discriminate|]. destruct (R b _ _ _ E) as [L X]. cbn [length]. split; [lia|exact X].
Qed.

Lemma reads_take n : reads n (take n).
Proof.
  intros bs h r E. apply take_spec in E. destruct E as [-> L]. rewrite app_length. split; [lia|].
  intro t. rewrite <- app_assoc. apply take_app, L.
Qed.

Lemma reads_get_be w : reads w (get_be w).
Proof. apply (reads_bind w (take w) (fun h r => Some (be_get h, r))); [apply reads_take|intro; apply reads_ret]. Qed.

(* a declared count, as a loop bound over a reader of n items that consumes at least n bytes,
   is the same bound on a longer input *)
Lemma reads_counted {A} cnt (dl : nat -> reader A) :
  (forall n, reads n (dl n)) -> reads 0 (fun bs => dl (bounded cnt bs) bs).
Proof.
  intros R bs x r E. destruct (R _ _ _ _ E) as [L X]. split; [lia|]. intro t.
  replace (bounded cnt (bs ++ t)) with (bounded cnt bs); [apply X|].
  unfold bounded in *. rewrite app_length. lia.
Qed.

Fixpoint dec_list {A} (d : reader A) (n : nat) : reader (list A) :=
  match n with
  | O => fun bs => Some ([], bs)
  | S n' => fun bs => match d bs with
                      | Some (x, r) => match dec_list d n' r with Some (l, r') => Some (x :: l, r') | None => None end
                      | None => None
                      end
  end.

Lemma reads_list {A} (d : reader A) : reads 1 d -> forall n, reads n (dec_list d n).
Proof.
  intros R. induction n as [|n IH]; cbn [dec_list]; [apply reads_ret|].
  intros bs y r E. destruct (d bs) as [[x r1]|] eqn:E1; [|discriminate].
  destruct (dec_list d n r1) as [[l r2]|] eqn:E2; [|discriminate]. injection E as <- <-.
  destruct (R _ _ _ E1) as [L1 X1]. destruct (IH _ _ _ E2) as [L2 X2].
  split; [lia|]. intro t. rewrite X1, X2. reflexivity.
Qed.

Lemma dec_list_roundtrip {A} (d : reader A) (enc : A -> bytes) (P : A -> Prop) :
  (forall x rest, P x -> d (enc x ++ rest) = Some (x, rest)) ->
  forall l rest, Forall P l -> dec_list d (length l) (concat (map enc l) ++ rest) = Some (l, rest).
Proof.
  intros Hd. induction l as [|x l IH]; intros rest Hl; [reflexivity|]. inversion Hl; subst.
  cbn [length map concat dec_list]. rewrite <- app_assoc, Hd, IH by assumption. reflexivity.
Qed.

Lemma dec_list_roundtrip_counted {A} (d : reader A) (enc : A -> bytes) (P : A -> Prop) :
  reads 1 d -> (forall x rest, P x -> d (enc x ++ rest) = Some (x, rest)) ->
  forall l cnt rest, Forall P l -> cnt = N.of_nat (length l) ->
  dec_list d (bounded cnt (concat (map enc l) ++ rest)) (concat (map enc l) ++ rest) = Some (l, rest).
Proof.
  intros R Hd l cnt rest Hl ->. pose proof (dec_list_roundtrip d enc P Hd l rest Hl) as E.
  destruct (reads_list d R _ _ _ _ E) as [L _].
  replace (bounded _ _) with (length l); [exact E|]. unfold bounded. lia.
Qed.

Lemma reads_prefix_free {A} k (d : reader A) p s q t :
  reads k d -> d p = Some (s, []) -> p = q ++ t -> t <> [] -> forall s', d q <> Some (s', []).
Proof.
  intros R Hp -> Ht s' Hq. destruct (R _ _ _ Hq) as [_ X]. rewrite X in Hp. injection Hp as _ E. exact (Ht E).
Qed.

Create HintDb reads discriminated.
#[export] Hint Resolve reads_0 reads_take reads_get_be : reads.

(* A decoder assembled from readers by sequencing, guards and returns is a reader: follow its
   text, leaving the component readers to the hints.  The count of a sequence is that of its first
   component ([reads_bind]), so a decoder is [reads 1] iff its first read is.  Hints: [reads_take],
   [reads_get_be], [reads_uvarint], [reads_field], the item readers [reads_sys], [reads_row],
   [reads_chan], [reads_entry], [reads_chan_header] and the [reads_*_list]. *)
Ltac reads_step :=
  first [ apply reads_ret | apply reads_none | apply reads_guard | apply reads_len_guard | apply reads_uncons; intro
        | apply reads_counted | apply reads_bind; [eauto with reads|intro] ].
Ltac reads_tac := repeat first [reads_step | eapply reads_0; reads_step]; eauto with reads.

Lemma reads_uvarint_loop : forall fuel i x s, reads 1 (get_uvarint_loop fuel i x s).
Proof.
  induction fuel as [|f IH]; intros i x s bs v r H; [discriminate|].
  cbn [get_uvarint_loop] in *. destruct bs as [|b bs]; [discriminate|]. cbn [app length].
  destruct (b <? 128).
  - destruct ((i =? 9) && (1 <? b)); [discriminate|]. injection H as <- <-. split; [lia|reflexivity].
  - destruct (IH _ _ _ _ _ _ H) as [L X]. split; [lia|exact X].
Qed.

Lemma reads_uvarint : reads 1 get_uvarint.
Proof. apply reads_uvarint_loop. Qed.
#[export] Hint Resolve reads_uvarint : reads.

(* invariant of the read loop after [i] bytes: shift 7*i, 10 - i bytes of fuel left, and what is still
   to be written fits in the remaining 64 - 7*i bits; at i = 9 that is one bit, which is ReadUvarint's
   overflow rule b > 1 *)
Lemma uvarint_loop_roundtrip : forall f i x acc rest,
  i + N.of_nat f = 10 -> (1 <= f)%nat -> x < 2 ^ (64 - 7 * i) ->
  get_uvarint_loop f i acc (7 * i) (put_uvarint_fuel f x ++ rest) = Some (acc + x * 2 ^ (7 * i), rest).
Proof.
  induction f as [|f IH]; intros i x acc rest Hi Hf Hx; [lia|].
  cbn [put_uvarint_fuel]. destruct (x <? 128) eqn:E.
  - apply N.ltb_lt in E. cbn [app get_uvarint_loop]. rewrite (proj2 (N.ltb_lt x 128) E).
    destruct (i =? 9) eqn:E9; cbn [andb].
    + apply N.eqb_eq in E9. subst i. assert (x < 2) by (change (64 - 7 * 9) with 1 in Hx; exact Hx).
      assert (Hb : (1 <? x) = false) by (apply N.ltb_ge; lia). rewrite Hb. reflexivity.
    + reflexivity.
  - apply N.ltb_ge in E. cbn [app get_uvarint_loop].
    assert (Hb : (128 + x mod 128 <? 128) = false) by (apply N.ltb_ge; lia). rewrite Hb.
    assert (Hi9 : i < 9).
    { destruct (N.lt_ge_cases i 9) as [L|G]; [exact L|].
      assert (i = 9) by lia. subst i. change (64 - 7 * 9) with 1 in Hx. change (2 ^ 1) with 2 in Hx. lia. }
    assert (Hm : (128 + x mod 128) mod 128 = x mod 128).
    { rewrite N.add_mod by discriminate. rewrite N.mod_same by discriminate. rewrite N.add_0_l.
      rewrite N.mod_mod by discriminate. apply N.mod_mod. discriminate. }
    rewrite Hm.
    replace (7 * i + 7) with (7 * (i + 1)) by lia.
    rewrite IH.
    + f_equal. f_equal.
      replace (7 * (i + 1)) with (7 * i + 7) by lia. rewrite N.pow_add_r.
      change (2 ^ 7) with 128.
      pose proof (N.div_mod x 128) as D. specialize (D ltac:(discriminate)).
      rewrite D at 3. lia.
    + lia.
    + lia.
    + replace (64 - 7 * (i + 1)) with (64 - 7 * i - 7) by lia.
      assert (Hp : 2 ^ (64 - 7 * i) = 2 ^ (64 - 7 * i - 7) * 128).
      { replace (64 - 7 * i) with ((64 - 7 * i - 7) + 7) at 1 by lia. rewrite N.pow_add_r. reflexivity. }
      rewrite Hp in Hx. apply N.div_lt_upper_bound; [discriminate|]. lia.
Qed.

Theorem uvarint_roundtrip x rest : x < 2 ^ 64 -> get_uvarint (put_uvarint x ++ rest) = Some (x, rest).
Proof.
  intro Hx. unfold get_uvarint, put_uvarint.
  pose proof (uvarint_loop_roundtrip 10 0 x 0 rest) as H.
  change (7 * 0) with 0 in H. rewrite N.mul_1_r in H. apply H; [reflexivity|lia|exact Hx].
Qed.

Lemma reads_field cap : reads 1 (get_field cap).
Proof.
  unfold get_field. apply reads_bind; [apply reads_uvarint|intro n].
  destruct (cap <? n); cbn [orb]; reads_tac.
Qed.
#[export] Hint Resolve reads_field : reads.

Theorem field_roundtrip cap b rest :
  N.of_nat (length b) <= cap -> N.of_nat (length b) < 2 ^ 64 ->
  get_field cap (put_field b ++ rest) = Some (b, rest).
Proof.
  intros Hc Hl. unfold get_field, put_field. rewrite <- app_assoc.
  rewrite uvarint_roundtrip by exact Hl.
  replace (cap <? N.of_nat (length b)) with false by lia.
  replace (N.of_nat (length (b ++ rest)) <? N.of_nat (length b)) with false by (rewrite app_length; lia).
  rewrite Nat2N.id. apply take_app. reflexivity.
Qed.

Definition dec_sys : reader (bytes * bytes) := fun bs =>
  match get_field maxMessageBackupStreamFieldBytes bs with
  | Some (k, r1) => match get_field maxMessageBackupStreamFieldBytes r1 with Some (v, r2) => Some ((k, v), r2) | None => None end
  | None => None
  end.
Definition dec_row : reader raw_row := fun bs =>
  match get_be 8 bs with
  | Some (seq, r0) =>
    match get_field maxMessageBackupStreamFieldBytes r0 with
    | Some (h, r1) => match get_field maxMessageBackupStreamFieldBytes r1 with Some (p, r2) => Some (RR seq h p, r2) | None => None end
    | None => None
    end
  | None => None
  end.

Lemma dec_sys_list_eq : forall n bs, dec_sys_list n bs = dec_list dec_sys n bs.
Proof.
  induction n as [|n IH]; intro bs; cbn [dec_sys_list dec_list]; [reflexivity|]. unfold dec_sys.
  destruct (get_field _ bs) as [[k r1]|]; [|reflexivity]. destruct (get_field _ r1) as [[v r2]|]; [|reflexivity].
  rewrite IH. reflexivity.
Qed.
Lemma dec_row_list_eq : forall n bs, dec_row_list n bs = dec_list dec_row n bs.
Proof.
  induction n as [|n IH]; intro bs; cbn [dec_row_list dec_list]; [reflexivity|]. unfold dec_row.
  destruct (get_be 8 bs) as [[sq r0]|]; [|reflexivity].
  destruct (get_field _ r0) as [[h r1]|]; [|reflexivity]. destruct (get_field _ r1) as [[p r2]|]; [|reflexivity].
  rewrite IH. reflexivity.
Qed.
Lemma dec_chan_list_eq : forall n bs, dec_chan_list n bs = dec_list dec_chan n bs.
Proof. induction n as [|n IH]; intro bs; cbn [dec_chan_list dec_list]; [reflexivity|]. destruct (dec_chan bs) as [[c r]|]; [rewrite IH|]; reflexivity. Qed.

Lemma reads_sys : reads 1 dec_sys.
Proof. unfold dec_sys. reads_tac. Qed.
Lemma reads_row : reads 1 dec_row.
Proof. apply (reads_le 8); [lia|]. unfold dec_row. reads_tac. Qed.

#[export] Hint Resolve reads_sys reads_row : reads.

Lemma reads_sys_list n : reads n (dec_sys_list n).
Proof. apply (reads_ext _ _ _ (dec_sys_list_eq n)), reads_list, reads_sys. Qed.
Lemma reads_row_list n : reads n (dec_row_list n).
Proof. apply (reads_ext _ _ _ (dec_row_list_eq n)), reads_list, reads_row. Qed.
#[export] Hint Resolve reads_sys_list reads_row_list : reads.

Lemma reads_chan_header : reads 1 dec_chan_header.
Proof. unfold dec_chan_header. reads_tac. Qed.
#[export] Hint Resolve reads_chan_header : reads.

Lemma reads_chan : reads 1 dec_chan.
Proof. unfold dec_chan. reads_tac. Qed.

#[export] Hint Resolve reads_chan : reads.

Lemma reads_chan_list n : reads n (dec_chan_list n).
Proof. apply (reads_ext _ _ _ (dec_chan_list_eq n)), reads_list, reads_chan. Qed.
#[export] Hint Resolve reads_chan_list : reads.

Theorem reads_msg_payload : reads 0 dec_msg_payload.
Proof. unfold dec_msg_payload. reads_tac. Qed.

Lemma dec_u16_list_eq : forall n bs, dec_u16_list n bs = dec_list (get_be 2) n bs.
Proof. induction n as [|n IH]; intro bs; cbn [dec_u16_list dec_list]; [reflexivity|]. destruct (get_be 2 bs) as [[x r]|]; [rewrite IH|]; reflexivity. Qed.
Lemma dec_entry_list_eq : forall n bs, dec_entry_list n bs = dec_list dec_entry n bs.
Proof. induction n as [|n IH]; intro bs; cbn [dec_entry_list dec_list]; [reflexivity|]. destruct (dec_entry bs) as [[e r]|]; [rewrite IH|]; reflexivity. Qed.

Lemma reads_entry : reads 1 dec_entry.
Proof. unfold dec_entry. reads_tac. Qed.

#[export] Hint Resolve reads_entry : reads.

Lemma reads_u16_list n : reads n (dec_u16_list n).
Proof. apply (reads_ext _ _ _ (dec_u16_list_eq n)), reads_list, (reads_le 2), reads_get_be. lia. Qed.
Lemma reads_entry_list n : reads n (dec_entry_list n).
Proof. apply (reads_ext _ _ _ (dec_entry_list_eq n)), reads_list, reads_entry. Qed.
#[export] Hint Resolve reads_u16_list reads_entry_list : reads.

Theorem reads_meta_payload : reads 0 dec_meta_payload.
Proof. unfold dec_meta_payload. reads_tac. Qed.

(* both streams end in a 4-byte trailer; cutting a stream short cuts its payload short *)
Lemma truncated_payload (stream : bytes) n : (4 < length stream)%nat -> (n < length stream)%nat ->
  exists t, t <> [] /\ firstn (length stream - 4) stream = firstn (length (firstn n stream) - 4) (firstn n stream) ++ t.
Proof.
  intros H4 Hn. exists (skipn (n - 4) (firstn (length stream - 4) stream)). split.
  - intro E. apply (f_equal (@length N)) in E. rewrite skipn_length, firstn_length in E. cbn [length] in E. lia.
  - rewrite firstn_length, Nat.min_l, firstn_firstn, Nat.min_l by lia.
    rewrite <- (firstn_skipn (n - 4) (firstn (length stream - 4) stream)) at 1.
    rewrite firstn_firstn, Nat.min_l by lia. reflexivity.
Qed.

Lemma truncation_unframed {A} k (d : reader A) (stream : bytes) n s :
  reads k d -> (4 < length stream)%nat -> (n < length stream)%nat ->
  d (firstn (length stream - 4) stream) = Some (s, []) ->
  forall s', d (firstn (length (firstn n stream) - 4) (firstn n stream)) <> Some (s', []).
Proof.
  intros R H4 Hn Hd. destruct (truncated_payload stream n H4 Hn) as (t & Ht & E).
  exact (reads_prefix_free k d _ s _ t R Hd E Ht).
Qed.
