(* Proof/RaftLog_lists.v — list facts behind the C14 refinement: logs whose indexes are
   contiguous under the row operations / filters / cuts of the code; the size window; conf
   states; reflexivity of the boolean equalities. *)
From WK Require Import Base.Base Base.Lists Gen.Consts_C14 Model.RaftLog.
From Coq Require Import ZifyBool ZifyN ZifyNat.
Open Scope N_scope.

Definition len (l : list entry) : N := N.of_nat (length l).

Lemma len_cons e l : len (e :: l) = len l + 1.
Proof. unfold len. cbn [length]. lia. Qed.
Lemma len_nil : len [] = 0.
Proof. reflexivity. Qed.
Lemma len_app l1 l2 : len (l1 ++ l2) = len l1 + len l2.
Proof. unfold len. rewrite app_length. lia. Qed.
Lemma len_map f l : len (map f l) = len l.
Proof. unfold len. rewrite map_length. reflexivity. Qed.

Lemma len_firstn k l : k <= len l -> len (firstn (N.to_nat k) l) = k.
Proof. unfold len. rewrite firstn_length. lia. Qed.
Lemma len_skipn k l : len (skipn k l) = len l - N.of_nat k.
Proof. unfold len. rewrite skipn_length. lia. Qed.

Lemma contig_cons a e l :
  contiguous_from a (e :: l) = true <-> e_idx e = a /\ contiguous_from (a + 1) l = true.
Proof.
  cbn [contiguous_from]. rewrite andb_true_iff, N.eqb_eq. tauto.
Qed.

Lemma contig_app a l1 l2 :
  contiguous_from a (l1 ++ l2) = true <->
  contiguous_from a l1 = true /\ contiguous_from (a + len l1) l2 = true.
Proof.
  revert a. induction l1 as [|e l1 IH]; intro a.
  - cbn [app]. rewrite len_nil, N.add_0_r. cbn [contiguous_from]. tauto.
  - cbn [app]. rewrite !contig_cons, IH, len_cons.
    replace (a + 1 + len l1) with (a + (len l1 + 1)) by lia. tauto.
Qed.

Lemma contig_in a l e :
  contiguous_from a l = true -> In e l -> a <= e_idx e /\ e_idx e < a + len l.
Proof.
  revert a. induction l as [|x l IH]; intros a H Hin; [destruct Hin|].
  apply contig_cons in H. destruct H as [Hx Hl]. rewrite len_cons.
  destruct Hin as [->|Hin]; [lia|]. specialize (IH _ Hl Hin). lia.
Qed.

Lemma contig_nth a l k e :
  contiguous_from a l = true -> nth_error l k = Some e -> e_idx e = a + N.of_nat k.
Proof.
  revert a k. induction l as [|x l IH]; intros a k H Hn; [destruct k; discriminate|].
  apply contig_cons in H. destruct H as [Hx Hl].
  destruct k as [|k]; cbn [nth_error] in Hn.
  - inversion Hn; subst. lia.
  - rewrite (IH _ _ Hl Hn). lia.
Qed.

Lemma contig_in_nth a l e :
  contiguous_from a l = true -> In e l -> nth_error l (N.to_nat (e_idx e - a)) = Some e.
Proof.
  revert a. induction l as [|x l IH]; intros a H Hin; [destruct Hin|].
  apply contig_cons in H. destruct H as [Hx Hl].
  destruct Hin as [->|Hin].
  - replace (N.to_nat (e_idx e - a)) with O by lia. reflexivity.
  - pose proof (contig_in _ _ _ Hl Hin) as B.
    replace (N.to_nat (e_idx e - a)) with (S (N.to_nat (e_idx e - (a + 1)))) by lia.
    cbn [nth_error]. apply IH; assumption.
Qed.

Lemma contig_firstn a l k :
  contiguous_from a l = true -> contiguous_from a (firstn k l) = true.
Proof.
  revert a k. induction l as [|x l IH]; intros a k H; destruct k; try reflexivity.
  cbn [firstn]. apply contig_cons in H. destruct H as [Hx Hl].
  apply contig_cons. split; [assumption|]. apply IH. assumption.
Qed.

Lemma contig_skipn a l k :
  contiguous_from a l = true -> contiguous_from (a + N.of_nat k) (skipn k l) = true.
Proof.
  revert a k. induction l as [|x l IH]; intros a k H.
  - destruct k; reflexivity.
  - destruct k as [|k]; cbn [skipn].
    + replace (a + N.of_nat 0) with a by lia. assumption.
    + apply contig_cons in H. destruct H as [Hx Hl].
      replace (a + N.of_nat (S k)) with (a + 1 + N.of_nat k) by lia. apply IH. assumption.
Qed.

Lemma contig_first_idx a e l : contiguous_from a (e :: l) = true -> e_idx e = a.
Proof. intro H. apply contig_cons in H. tauto. Qed.

Lemma contig_head a l :
  contiguous_from a l = true ->
  match l with [] => true | e0 :: _ => contiguous_from (e_idx e0) l end = true.
Proof.
  destruct l as [|e l]; [reflexivity|]. intro H.
  pose proof (contig_first_idx _ _ _ H) as ->. assumption.
Qed.

(* the test of loadEntries ([hi = 0]: unbounded); memoryStore.Entries agrees for [0 < hi] *)
Definition in_window (lo hi : N) (i : N) : bool := (lo <=? i) && ((hi =? 0) || (i <? hi)).

(* the window [lo, hi) of a log contiguous from [a]: the segment starting [lo - a] in, of
   length [hi' - max lo a], [hi'] = [hi] or one past the end *)
Lemma filter_window a l lo hi :
  contiguous_from a l = true ->
  filter (fun e => in_window lo hi (e_idx e)) l =
  firstn (N.to_nat ((if hi =? 0 then a + len l else hi) - N.max lo a))
         (skipn (N.to_nat (lo - a)) l).
Proof.
  revert a. induction l as [|e l IH]; intros a H.
  - cbn [filter]. rewrite skipn_nil, firstn_nil. reflexivity.
  - apply contig_cons in H. destruct H as [He Hl]. cbn [filter]. rewrite len_cons.
    specialize (IH _ Hl). unfold in_window at 1. rewrite He.
    destruct (lo <=? a) eqn:Hlo.
    + replace (N.to_nat (lo - a)) with O by lia. cbn [skipn].
      replace (N.max lo a) with a by lia.
      destruct ((hi =? 0) || (a <? hi)) eqn:Hhi; cbn [andb].
      * rewrite IH.
        replace (N.to_nat (lo - (a + 1))) with O by lia. cbn [skipn].
        replace (N.max lo (a + 1)) with (a + 1) by lia.
        destruct (hi =? 0) eqn:Hz.
        -- replace (N.to_nat (a + (len l + 1) - a)) with (S (N.to_nat (a + 1 + len l - (a + 1)))) by lia.
           reflexivity.
        -- cbn [orb] in Hhi.
           replace (N.to_nat (hi - a)) with (S (N.to_nat (hi - (a + 1)))) by lia. reflexivity.
      * apply orb_false_iff in Hhi. destruct Hhi as [Hz Hlt]. rewrite Hz.
        replace (N.to_nat (hi - a)) with O by lia. cbn [firstn].
        apply filter_none. intros x Hx. pose proof (contig_in _ _ _ Hl Hx).
        unfold in_window. rewrite Hz. cbn [orb]. lia.
    + cbn [andb]. rewrite IH.
      replace (N.max lo a) with lo by lia. replace (N.max lo (a + 1)) with lo by lia.
      replace (N.to_nat (lo - a)) with (S (N.to_nat (lo - (a + 1)))) by lia. cbn [skipn].
      replace (a + 1 + len l) with (a + (len l + 1)) by lia. reflexivity.
Qed.

Lemma filter_window_contig a l lo hi :
  contiguous_from a l = true ->
  exists b, contiguous_from b (filter (fun e => in_window lo hi (e_idx e)) l) = true.
Proof. intro H. rewrite (filter_window a l lo hi H). eexists. apply contig_firstn, contig_skipn, H. Qed.

(* idx > x  (trimEntriesAfterSnapshot, filterEntriesAfterSnapshot, DeleteRange [.., x+1)) *)
Lemma filter_gt_skipn a l x :
  contiguous_from a l = true ->
  filter (fun e => x <? e_idx e) l = skipn (N.to_nat (x + 1 - a)) l.
Proof.
  intro H.
  rewrite (filter_ext _ (fun e => in_window (x + 1) 0 (e_idx e))).
  2:{ intro e. unfold in_window. cbn [N.eqb orb]. rewrite andb_true_r. lia. }
  rewrite (filter_window a l (x + 1) 0 H). cbn [N.eqb].
  apply firstn_all2. rewrite skipn_length. unfold len. lia.
Qed.

Lemma filter_gt_skipn_succ a l x :
  contiguous_from (a + 1) l = true ->
  filter (fun e => x <? e_idx e) l = skipn (N.to_nat (x - a)) l.
Proof. intro H. rewrite (filter_gt_skipn _ _ x H). f_equal. lia. Qed.

(* idx < f  (DeleteRange [f, end), the cut of replaceEntriesFromIndex) *)
Lemma filter_lt_firstn a l f :
  contiguous_from a l = true ->
  filter (fun e => negb (f <=? e_idx e)) l = firstn (N.to_nat (f - a)) l.
Proof.
  intro H. destruct (f =? 0) eqn:Hf.
  - replace (N.to_nat (f - a)) with O by lia. cbn [firstn]. apply filter_none. intros. lia.
  - rewrite (filter_ext _ (fun e => in_window 0 f (e_idx e))).
    2:{ intro e. unfold in_window. rewrite Hf. cbn [orb]. lia. }
    rewrite (filter_window a l 0 f H). rewrite Hf.
    replace (N.to_nat (0 - a)) with O by lia. cbn [skipn].
    replace (N.max 0 a) with a by lia. reflexivity.
Qed.

Lemma take_below_firstn a l f :
  contiguous_from a l = true -> take_below f l = firstn (N.to_nat (f - a)) l.
Proof.
  revert a. induction l as [|e l IH]; intros a H.
  - rewrite firstn_nil. reflexivity.
  - apply contig_cons in H. destruct H as [He Hl]. cbn [take_below]. rewrite He.
    destruct (f <=? a) eqn:Hf.
    + replace (N.to_nat (f - a)) with O by lia. reflexivity.
    + replace (N.to_nat (f - a)) with (S (N.to_nat (f - (a + 1)))) by lia.
      cbn [firstn]. f_equal. apply IH. assumption.
Qed.

Lemma cloneCached_idx e : e_idx (cloneCachedEntry e) = e_idx e.
Proof. unfold cloneCachedEntry. destruct (is_cc_typ (e_typ e)); reflexivity. Qed.

Lemma cloneCached_typ e : e_typ (cloneCachedEntry e) = e_typ e.
Proof. unfold cloneCachedEntry. destruct (is_cc_typ (e_typ e)); reflexivity. Qed.

Lemma cloneCached_cc e : e_cc (cloneCachedEntry e) = e_cc e.
Proof. unfold cloneCachedEntry. destruct (is_cc_typ (e_typ e)); reflexivity. Qed.

Lemma cloneCached_idem e : cloneCachedEntry (cloneCachedEntry e) = cloneCachedEntry e.
Proof.
  unfold cloneCachedEntry. destruct (is_cc_typ (e_typ e)) eqn:Et; [rewrite Et; reflexivity|].
  cbn [e_typ]. rewrite Et. reflexivity.
Qed.

Lemma take_below_map_clone f l :
  take_below f (map cloneCachedEntry l) = map cloneCachedEntry (take_below f l).
Proof.
  induction l as [|e l IH]; [reflexivity|].
  cbn [map take_below]. rewrite cloneCached_idx. destruct (f <=? e_idx e); [reflexivity|].
  cbn [map]. f_equal. assumption.
Qed.

Lemma row_put_tail a l e :
  contiguous_from a l = true -> e_idx e = a + len l -> row_put e l = l ++ [e].
Proof.
  revert a. induction l as [|x l IH]; intros a H He; [reflexivity|].
  apply contig_cons in H. destruct H as [Hx Hl]. rewrite len_cons in He.
  cbn [row_put app]. rewrite Hx.
  replace (e_idx e <? a) with false by lia. replace (e_idx e =? a) with false by lia.
  f_equal. apply (IH (a + 1)); [assumption|lia].
Qed.

Lemma fold_row_put_tail a l es :
  contiguous_from a l = true -> contiguous_from (a + len l) es = true ->
  fold_left (fun acc e => row_put e acc) es l = l ++ es.
Proof.
  revert l. induction es as [|e es IH]; intros l Hl Hes.
  - rewrite app_nil_r. reflexivity.
  - apply contig_cons in Hes. destruct Hes as [He Hes]. cbn [fold_left].
    rewrite (row_put_tail a l e Hl He).
    rewrite IH.
    + rewrite <- app_assoc. reflexivity.
    + apply contig_app. split; [assumption|]. apply contig_cons. split; [assumption|reflexivity].
    + rewrite len_app, len_cons, len_nil. replace (a + (len l + (0 + 1))) with (a + len l + 1) by lia. assumption.
Qed.

Lemma find_idx_contig a l i :
  contiguous_from a l = true ->
  find (fun e => e_idx e =? i) l =
  if (a <=? i) && (i <? a + len l) then nth_error l (N.to_nat (i - a)) else None.
Proof.
  revert a. induction l as [|x l IH]; intros a H.
  - rewrite len_nil. cbn [find]. destruct ((a <=? i) && (i <? a + 0)) eqn:E; [lia|reflexivity].
  - apply contig_cons in H. destruct H as [Hx Hl]. rewrite len_cons. cbn [find]. rewrite Hx.
    destruct (a =? i) eqn:Hai.
    + replace ((a <=? i) && (i <? a + (len l + 1))) with true by lia.
      replace (N.to_nat (i - a)) with O by lia. reflexivity.
    + rewrite (IH _ Hl).
      destruct ((a + 1 <=? i) && (i <? a + 1 + len l)) eqn:E.
      * replace ((a <=? i) && (i <? a + (len l + 1))) with true by lia.
        replace (N.to_nat (i - a)) with (S (N.to_nat (i - (a + 1)))) by lia. reflexivity.
      * replace ((a <=? i) && (i <? a + (len l + 1))) with false by lia. reflexivity.
Qed.

Lemma last_idx_of_app l e : last_idx_of (l ++ [e]) = Some (e_idx e).
Proof. unfold last_idx_of. rewrite rev_app_distr. reflexivity. Qed.

Lemma last_idx_of_contig a l :
  contiguous_from a l = true ->
  last_idx_of l = match l with [] => None | _ => Some (a + len l - 1) end.
Proof.
  intro H. destruct l as [|x l] using rev_ind; [reflexivity|].
  rewrite last_idx_of_app.
  apply contig_app in H. destruct H as [_ H]. apply contig_cons in H. destruct H as [Hx _].
  destruct (l ++ [x]) eqn:E; [destruct l; discriminate|]. rewrite <- E.
  rewrite len_app, len_cons, len_nil. f_equal. lia.
Qed.

Lemma last_idx_of_map_clone l : last_idx_of (map cloneCachedEntry l) = last_idx_of l.
Proof.
  unfold last_idx_of. rewrite <- map_rev. destruct (rev l); [reflexivity|].
  cbn [map]. rewrite cloneCached_idx. reflexivity.
Qed.

Lemma limit_size_from_prefix mx n sz l : exists k, limit_size_from mx n sz l = firstn k l.
Proof.
  revert n sz. induction l as [|e l IH]; intros n sz.
  - exists O. reflexivity.
  - cbn [limit_size_from].
    destruct ((0 <? mx) && match n with O => false | S _ => true end && (mx <? sz + entry_size e)).
    + exists O. reflexivity.
    + destruct (IH (S n) (sz + entry_size e)) as [k Hk]. exists (S k). cbn [firstn]. rewrite Hk. reflexivity.
Qed.

Lemma limit_size_prefix mx l : exists k, limit_size mx l = firstn k l.
Proof. apply limit_size_from_prefix. Qed.

Lemma limit_window_In mx lo hi l e :
  In e (limit_size mx (filter (fun e => in_window lo hi (e_idx e)) l)) ->
  In e l /\ in_window lo hi (e_idx e) = true.
Proof.
  destruct (limit_size_prefix mx (filter (fun e => in_window lo hi (e_idx e)) l)) as [k ->].
  intro H. apply In_firstn in H. apply filter_In in H. exact H.
Qed.

Lemma cs_insert_last c v :
  (forall x, In x c -> x < v) -> cs_insert v c = c ++ [v].
Proof.
  induction c as [|x c IH]; intro H; [reflexivity|].
  cbn [cs_insert app]. pose proof (H x (or_introl eq_refl)).
  replace (v <? x) with false by lia. replace (v =? x) with false by lia.
  f_equal. apply IH. intros y Hy. apply H. right. assumption.
Qed.

Lemma strictly_sorted_cons x c :
  strictly_sorted (x :: c) = true -> (forall y, In y c -> x < y) /\ strictly_sorted c = true.
Proof.
  revert x. induction c as [|z c IH]; intros x H.
  - split; [intros y []|reflexivity].
  - cbn [strictly_sorted] in H. apply andb_true_iff in H. destruct H as [Hxz Hc].
    split; [|exact Hc]. intros y [<-|Hy]; [lia|].
    destruct (IH z Hc) as [Hz _]. specialize (Hz y Hy). lia.
Qed.

Lemma restore_conf_sorted acc vs :
  (forall v, In v vs -> 0 < v) ->
  strictly_sorted vs = true ->
  (forall x v, In x acc -> In v vs -> x < v) ->
  restore_conf acc vs = Some (acc ++ vs).
Proof.
  revert acc. induction vs as [|v vs IH]; intros acc Hpos Hs Hlt.
  - rewrite app_nil_r. reflexivity.
  - cbn [restore_conf]. unfold apply_cc. cbn [fst snd].
    pose proof (Hpos v (or_introl eq_refl)).
    replace (v =? 0) with false by lia. rewrite N.eqb_refl.
    rewrite (cs_insert_last acc v).
    2:{ intros x Hx. apply Hlt; [assumption|left; reflexivity]. }
    destruct (acc ++ [v]) eqn:E; [destruct acc; discriminate|]. rewrite <- E.
    destruct (strictly_sorted_cons _ _ Hs) as [Hv Hs'].
    rewrite IH.
    + rewrite <- app_assoc. reflexivity.
    + intros. apply Hpos. right. assumption.
    + assumption.
    + intros x w Hx Hw. apply in_app_or in Hx. destruct Hx as [Hx|[<-|[]]].
      * apply Hlt; [assumption|right; assumption].
      * apply Hv. assumption.
Qed.

Lemma conf_ok_restore c : conf_ok c = true -> restore_conf [] c = Some c.
Proof.
  intro H. destruct c as [|x c]; [discriminate|].
  unfold conf_ok in H. apply andb_true_iff in H. destruct H as [Hx Hs].
  rewrite restore_conf_sorted; [reflexivity| |assumption|intros ? ? []].
  intros v [<-|Hv]; [lia|].
  destruct (strictly_sorted_cons _ _ Hs) as [Hlt _]. specialize (Hlt v Hv). lia.
Qed.

Lemma derive_entries_clone c last cm l :
  derive_entries c last cm (map cloneCachedEntry l) = derive_entries c last cm l.
Proof.
  revert c. induction l as [|e l IH]; intro c; [reflexivity|].
  cbn [map derive_entries]. rewrite cloneCached_idx, cloneCached_typ, cloneCached_cc.
  destruct ((e_idx e <=? last) || (cm <? e_idx e)); [apply IH|].
  destruct (e_typ e =? c14_EntryConfChange); [|apply IH].
  destruct (e_cc e) as [cc|]; [|reflexivity].
  destruct (apply_cc c cc); [apply IH|reflexivity].
Qed.

Lemma deriveConfState_clone sm l cm :
  deriveConfState sm (map cloneCachedEntry l) cm = deriveConfState sm l cm.
Proof.
  unfold deriveConfState.
  destruct (match (if sm_idx sm =? 0 then [] else sm_conf sm) with [] => Some [] | _ :: _ => _ end); [|reflexivity].
  apply derive_entries_clone.
Qed.

Lemma derive_entries_skip c last cm l k :
  (forall e, In e (firstn k l) -> e_idx e <= last) ->
  derive_entries c last cm l = derive_entries c last cm (skipn k l).
Proof.
  revert k. induction l as [|e l IH]; intros k H; destruct k; try reflexivity.
  cbn [skipn derive_entries]. cbn [firstn] in H.
  pose proof (H e (or_introl eq_refl)).
  replace (e_idx e <=? last) with true by lia. cbn [orb].
  apply IH. intros x Hx. apply H. right. assumption.
Qed.

Lemma conf_eqb_refl c : conf_eqb c c = true.
Proof. apply list_eqb_refl. apply N.eqb_refl. Qed.
Lemma hs_eqb_refl h : hs_eqb h h = true.
Proof. unfold hs_eqb. rewrite !N.eqb_refl. reflexivity. Qed.
Lemma cc_eqb_refl c : cc_eqb c c = true.
Proof. apply option_eqb_refl. intro x. rewrite !N.eqb_refl. reflexivity. Qed.
Lemma entry_eqb_refl e : entry_eqb e e = true.
Proof. unfold entry_eqb. rewrite !N.eqb_refl, bytes_eqb_refl, cc_eqb_refl. reflexivity. Qed.
Lemma entries_eqb_refl l : entries_eqb l l = true.
Proof. apply list_eqb_refl. apply entry_eqb_refl. Qed.
Lemma snap_eqb_refl s : snap_eqb s s = true.
Proof. unfold snap_eqb. rewrite !N.eqb_refl, conf_eqb_refl, bytes_eqb_refl. reflexivity. Qed.
Lemma fullobs_eqb_refl o : fullobs_eqb o o = true.
Proof.
  unfold fullobs_eqb. rewrite hs_eqb_refl, conf_eqb_refl, !N.eqb_refl, snap_eqb_refl, entries_eqb_refl. reflexivity.
Qed.

Lemma conf_eqb_eq a b : conf_eqb a b = true <-> a = b.
Proof. apply list_eqb_spec. intros. apply N.eqb_eq. Qed.

Lemma snap_eqb_fields a b :
  snap_eqb a b = true ->
  s_idx a = s_idx b /\ s_term a = s_term b /\ s_conf a = s_conf b /\ s_data a = s_data b.
Proof.
  unfold snap_eqb. rewrite !andb_true_iff, !N.eqb_eq, conf_eqb_eq, bytes_eqb_eq. tauto.
Qed.
