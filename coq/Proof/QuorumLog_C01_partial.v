(* Proof/QuorumLog_C01_partial.v — c01_partial: the conditional survival theorem.
   If the prefix selected by recovery reaches an acknowledged entry and is backed by a voter that
   holds both the entry and the selected identity (what quorum intersection gives when at least Q of the probe's respondents hold the entry,
   and what fails in F1 where the selected index is below the entry), then after repair — and after
   the barrier — the installing node holds that entry, identical, at its index. *)
From WK Require Import Base.Base.
From WK Require Import Model.ReplicaLog Model.QuorumLog Model.Cluster.
From WK Require Import Proof.ReplicaLog Proof.QuorumLog_Commit Proof.QuorumLog_C04 Proof.ReplicaLog_WF Proof.LogMatching Proof.Cluster_Lift Proof.Cluster_WF.
From Coq Require Import ZifyBool ZifyN.
Open Scope N_scope.

(* a well-formed log whose digests are the structural hashes, and what preserves both *)
Definition WF2 (rp : replica) : Prop := WF rp /\ digests_ok rp.
Definition WF2_step (rp rp' : replica) : Prop := WF2 rp -> WF2 rp'.

Lemma WF2_step_refl rp : WF2_step rp rp. Proof. intro H; exact H. Qed.
Lemma WF2_step_trans a b c : WF2_step a b -> WF2_step b c -> WF2_step a c. Proof. intros H1 H2 H. auto. Qed.
Lemma WF2_step_sync k rp mu rp' o nf : sync k rp mu = (rp', o, nf) -> WF2_step rp rp'.
Proof. intros H [W D]. split; [exact (proj1 (sync_rep_ok _ _ _ _ _ _ H W)) | eapply sync_digests; eauto]. Qed.
Lemma WF2_step_replace k rp q rp' lo : replace k rp q = inr (rp', lo) -> WF2_step rp rp'.
Proof. intros H [W D]. split; [exact (proj1 (replace_rep_ok _ _ _ _ _ H W)) | eapply replace_digests; eauto]. Qed.

(* logs only grow through Syncs *)
Definition log_extends (rp rp' : replica) : Prop := exists ext, rp_log rp' = rp_log rp ++ ext.
Lemma log_extends_refl rp : log_extends rp rp. Proof. exists []. rewrite app_nil_r. reflexivity. Qed.
Lemma log_extends_trans a b c : log_extends a b -> log_extends b c -> log_extends a c.
Proof. intros [x Hx] [y Hy]. exists (x ++ y). rewrite Hy, Hx, app_assoc. reflexivity. Qed.
Lemma log_extends_sync k rp mu rp' o nf : sync k rp mu = (rp', o, nf) -> log_extends rp rp'.
Proof. apply sync_log_prefix. Qed.

Lemma log_extends_ent_at rp rp' idx e : log_extends rp rp' -> ent_at rp idx = Some e -> ent_at rp' idx = Some e.
Proof.
  intros [ext Hx] H. rewrite (ent_at_app rp rp' ext idx Hx); [exact H | apply (ent_at_Some_le _ _ _ H)].
Qed.

Lemma loadRecovery_exact n local s es :
  loadRecoveryReplicaState n local [] = inr (s, es) -> loadExactState (nt_kind n) (net_rep n local) = Some s.
Proof.
  unfold loadRecoveryReplicaState.
  destruct (load (nt_kind n) (net_rep n local) []) as [[s0 es0]|] eqn:L; [|discriminate].
  destruct (validReplicaState s0 && listN_eqb (map pb_idx es0) []); [|discriminate].
  intro H. inversion H; subst. unfold load in L.
  destruct (loadExactState (nt_kind n) (net_rep n local)) as [s1|]; [|discriminate].
  cbn in L. inversion L. reflexivity.
Qed.

Lemma loadExactState_tail k rp s : loadExactState k rp = Some s -> 0 < rs_leo s ->
  rs_leo s = rp_leo rp /\ ent_at rp (rs_leo s) = Some (rs_tail s).
Proof.
  unfold loadExactState. destruct (rp_leo rp <? rp_hw rp); [discriminate|].
  destruct (rp_leo rp =? 0) eqn:E0.
  - intro H. inversion H; subst. cbn. lia.
  - destruct (by_last (rp_bylast rp) (rp_leo rp)) as [m|]; [|discriminate].
    destruct (ent_at rp (rp_leo rp)) as [e|] eqn:Ee; [|discriminate].
    destruct (_ && _ && _ && _ && _ && _ && _); [|discriminate].
    destruct (validReplicaState _); [|discriminate]. intro H. inversion H; subst. cbn. auto.
Qed.

Lemma repair_pages_current : forall fuel n local sel maxBytes current from keepThrough previous firstPage n1 cur fr,
  loadExactState (nt_kind n) (net_rep n local) = Some current ->
  repair_pages fuel n local sel maxBytes current from keepThrough previous firstPage = (n1, inr (cur, fr)) ->
  loadExactState (nt_kind n1) (net_rep n1 local) = Some cur.
Proof.
  induction fuel as [|fuel IH]; intros n local sel maxBytes current from keepThrough previous firstPage n1 cur fr Hc H;
    [discriminate|].
  apply repair_pages_step in H.
  destruct H as [(-> & [[= <- _] | [e [=]]]) | (q & n2 & res & _ & [(_ & e & [=]) | (loaded & es & f' & p' & El & Hrec)])].
  - exact Hc.
  - eapply IH; [|exact Hrec]. eapply loadRecovery_exact; eauto.
Qed.

Lemma repair_success_tail n local voters q sel maxBytes n1 recovered :
  repairQuorumPrefix n local voters q sel maxBytes = (n1, inr recovered) -> 0 < sl_index sel ->
  rs_leo recovered = sl_index sel /\ rs_tail recovered = sl_ident sel /\
  ent_at (net_rep n1 local) (sl_index sel) = Some (sl_ident sel).
Proof.
  intros H Hpos. apply repairQuorumPrefix_cases in H.
  assert (Hfin : forall nn c, loadExactState (nt_kind nn) (net_rep nn local) = Some c ->
            rs_leo c = sl_index sel -> rs_tail c = sl_ident sel ->
            ent_at (net_rep nn local) (sl_index sel) = Some (sl_ident sel)).
  { intros nn c Hl H1 H2. destruct (loadExactState_tail _ _ _ Hl) as [_ T]; [lia|]. rewrite H1, H2 in T. exact T. }
  destruct H as [(_ & e & [=]) | (localSt & es & El & H)]. apply loadRecovery_exact in El.
  destruct H as [(-> & [= <-] & E1 & E2) | (fuel & from & keep & previous & n2 & res & Ep & H)]; [eauto|].
  destruct res as [e | [current from']]; [destruct H as [_ [=]]|].
  pose proof (repair_pages_current _ _ _ _ _ _ _ _ _ _ _ _ _ El Ep) as Hcur.
  destruct H as [(E0 & _) | (-> & [(e & [=]) | ([= <-] & E1 & E2)])]; [lia | eauto].
Qed.

(* the selected prefix covers entry e at idx: some node whose log is well formed holds e at idx and
   the selected identity at the selected index >= idx *)
Definition selection_covers (n : net) (sel : selection) (idx : N) (e : ident) : Prop :=
  idx <> 0 /\ idx <= sl_index sel /\
  exists w, WF2 (net_rep n w) /\ ent_at (net_rep n w) idx = Some e /\
            ent_at (net_rep n w) (sl_index sel) = Some (sl_ident sel).

Lemma repair_keeps_covered_entry n local voters q sel maxBytes n1 recovered idx e :
  WF2 (net_rep n local) ->
  repairQuorumPrefix n local voters q sel maxBytes = (n1, inr recovered) ->
  selection_covers n sel idx e ->
  ent_at (net_rep n1 local) idx = Some e /\ WF2 (net_rep n1 local).
Proof.
  intros Hloc Hrep (Hi0 & Hle & w & Hw & Hwe & Hws).
  destruct (repair_success_tail _ _ _ _ _ _ _ _ Hrep) as (_ & _ & Htail); [lia|].
  pose proof (repairQuorumPrefix_ok WF2_step WF2_step_refl WF2_step_trans WF2_step_replace _ _ _ _ _ _ _ _ Hrep) as [_ K].
  pose proof (K local Hloc) as Hloc1.
  split; [|exact Hloc1].
  rewrite <- Hwe. symmetry.
  apply (log_matching (net_rep n w) (net_rep n1 local) (sl_index sel) (sl_ident sel));
    [exact (proj1 Hw) | exact (proj1 Hloc1) | exact (proj2 Hw) | exact (proj2 Hloc1) | exact Hws | exact Htail | exact Hle].
Qed.

Lemma barrier_keeps_entries n a recovered rot n2 r v idx e :
  writeCurrentTermBarrier n a recovered rot = (n2, r) ->
  ent_at (net_rep n v) idx = Some e -> ent_at (net_rep n2 v) idx = Some e.
Proof.
  intros H He.
  pose proof (writeCurrentTermBarrier_ok log_extends log_extends_refl log_extends_trans log_extends_sync _ _ _ _ _ _ H) as [_ K].
  eapply log_extends_ent_at; [apply K | exact He].
Qed.

(* every successful Install that ran recovery is "recover; repair; optional barrier" *)
Lemma Install_ok_recovery_path cfg n st local a n' st' x leo hw :
  Install cfg n st local a = (n', st', IOk x leo hw) ->
  (n' = n /\ st' = st /\ qc_ready st = true) \/
  exists sel n1 recovered,
    recoverQuorumPrefix n local (a_voters a) (a_q a) = inr sel /\
    repairQuorumPrefix n local (a_voters a) (a_q a) sel (cf_pagebytes cfg) = (n1, inr recovered) /\
    (n' = n1 \/ exists bs, writeCurrentTermBarrier n1 a recovered (cf_rot cfg) = (n', inr bs)).
Proof.
  intro H. apply Install_shape, install_shape_ok in H.
  destruct H as [(cur & _ & _ & _ & _ & Hrd & -> & -> & _) | (st1 & fr & _ & _ & Hrun & _)]; [left; auto | right].
  unfold install_run in Hrun.
  destruct (recoverQuorumPrefix n local (a_voters a) (a_q a)) as [e | sel]; [discriminate|].
  destruct (repairQuorumPrefix _ _ _ _ _ _) as [n1 [e | recovered]] eqn:E; [discriminate|].
  exists sel, n1, recovered. split; [reflexivity|]. split; [exact E|].
  destruct (_ && _); [right; exists fr; exact Hrun | left; congruence].
Qed.

(* c01_partial: an Install that succeeds through recovery with a selection covering the acknowledged
   entry leaves the installed (writable) node holding that entry at its index *)
Lemma Install_keeps_covered_entry cfg n st local a n' st' x leo hw idx e :
  Install cfg n st local a = (n', st', IOk x leo hw) -> qc_ready st = false ->
  WF2 (net_rep n local) ->
  (forall sel, recoverQuorumPrefix n local (a_voters a) (a_q a) = inr sel -> selection_covers n sel idx e) ->
  ent_at (net_rep n' local) idx = Some e.
Proof.
  intros H Hnr Hloc Hcov. apply Install_ok_recovery_path in H.
  destruct H as [(_ & _ & Hr) | (sel & n1 & recovered & Hrec & Hrep & Hn')]; [congruence|].
  destruct (repair_keeps_covered_entry _ _ _ _ _ _ _ _ _ _ Hloc Hrep (Hcov _ Hrec)) as [He _].
  destruct Hn' as [-> | (bs & Hb)]; [exact He|].
  eapply barrier_keeps_entries; eauto.
Qed.

Lemma WF2_step_ckpt rp w : w <= rp_leo rp -> WF2_step rp (storeCheckpoint rp w).
Proof.
  intros Hw [W D]. split; [exact (proj1 (storeCheckpoint_rep_ok _ _ Hw W)) | apply storeCheckpoint_digests; exact D].
Qed.

Lemma WF2_init cfg v : WF2 (net_rep (cl_net (cluster_init cfg)) v).
Proof. split; [apply all_WF_init|]. unfold cluster_init, net_rep. cbn. rewrite get_rep_init. constructor. Qed.

Lemma run_cluster_WF2 cfg ops c :
  (forall v, WF2 (net_rep (cl_net c) v)) -> run_bounded cfg c ops ->
  forall v, WF2 (net_rep (cl_net (run_cluster cfg c ops)) v).
Proof.
  intros H Hb v. exact (run_cluster_lift WF2_step WF2_step_refl WF2_step_trans WF2_step_sync WF2_step_replace WF2_step_ckpt cfg ops c Hb v (H v)).
Qed.
