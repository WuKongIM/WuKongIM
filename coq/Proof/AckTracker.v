(* Proof/AckTracker.v — reachable tracker states satisfy the invariant; the clauses of C32
   about Ack, CancelBind and Expire, for every state that satisfies it. *)
From WK Require Import Base.Base Gen.Consts_C32 Model.AckTracker.
From WK Require Import Proof.AckTracker_map Proof.AckTracker_entry Proof.AckTracker_index Proof.AckTracker_inv
     Proof.AckTracker_sim3 Proof.AckTracker_sim4.
From Coq Require Import Permutation.
Open Scope N_scope.

(* some history of API calls on a fresh tracker (any shard count and limit, clock and ttl in the
   int64 range) ends in t *)
Definition reachable (t : tracker) : Prop :=
  exists shards limit now ops,
    (0 <= now <= i64_max)%Z /\ Forall op_in_range ops
    /\ fst (fst (run (NewAckTracker shards limit, now) ops)) = t.

Lemma reachable_inv t : reachable t -> Inv t.
Proof.
  intros [shards [limit [now [ops [Hn [HR E]]]]]].
  pose proof (reachable_sim shards limit now ops Hn HR) as RS.
  destruct (run (NewAckTracker shards limit, now) ops) as [[t0 now'] tr]. simpl in E. subst t0.
  destruct RS as [s [_ [I _]]]. exact I.
Qed.

Lemma index_rows t :
  reachable t -> forall sk ms, al_get skey_eqb sk (t_bySession t) = Some ms -> ms <> [] /\ NoDup ms.
Proof. intros H. apply reachable_inv in H. apply (si_rows _ _ (inv_index t H)). Qed.

Lemma ack_only_matching t u s m :
  Inv t ->
  let '(t', r) := Ack t u s m in
  (forall k, k <> (u, s, m) -> kget k (t_byMessage t') = kget k (t_byMessage t))
  /\ kget (u, s, m) (t_byMessage t') = None
  /\ match kget (u, s, m) (t_byMessage t) with
     | Some e => r = RAck true (e_pending e) /\ t_count t' = (t_count t - 1)%Z
     | None => r = RAck false zero_pending /\ t' = t
     end.
Proof.
  intro H. unfold Ack.
  destruct ((u =? 0) || (s =? 0) || (m =? 0)) eqn:C.
  - pose proof (zero_key_absent t u s m H C) as G.
    rewrite G. auto.
  - destruct (kget (u, s, m) (t_byMessage t)) as [e|] eqn:G; proj.
    + split; [intros k Hk; apply k_get_del_other; congruence|]. split; [apply k_get_del_same|auto].
    + rewrite G. auto.
Qed.

Definition other_live (e : entry) (tok : N) : Prop :=
  (e_primary e <> 0 /\ e_primary e <> tok) \/ exists a, In a (e_extra e) /\ a_token a <> tok.

Lemma other_live_abs e tok : entry_wf e -> other_live e tok -> exists x, x <> tok /\ In x (map fst (abs_live e)).
Proof.
  intros W [[H1 H2]|[a [H1 H2]]]; rewrite abs_live_fst.
  - exists (e_primary e). split; [exact H2|]. apply in_or_app. left. apply N.eqb_neq in H1. rewrite H1. left. reflexivity.
  - exists (a_token a). split; [exact H2|]. apply in_or_app. right. apply in_map. exact H1.
Qed.

(* rolling back one reservation never removes an identity that is committed or still has
   another live reservation; other identities are untouched *)
Lemma cancel_keeps_committed t p tok e :
  Inv t -> kget (key_of p) (t_byMessage t) = Some e ->
  e_committed e = true \/ other_live e tok ->
  let '(t', r) := CancelBind t p tok in
  kget (key_of p) (t_byMessage t') <> None
  /\ (forall k, k <> key_of p -> kget k (t_byMessage t') = kget k (t_byMessage t))
  /\ t_count t' = t_count t
  /\ exists c, r = RCancel c false (t_count t).
Proof.
  intros H G HY. unfold CancelBind.
  destruct (negb (validPendingRecvAck p) || (tok =? 0)) eqn:C.
  { rewrite G. split; [discriminate|]. split; [reflexivity|]. split; [reflexivity|eexists; reflexivity]. }
  apply orb_false_iff in C. destruct C as [_ TZ]. apply N.eqb_neq in TZ.
  rewrite G. destruct (inv_entries t H _ _ G) as [[W A K B] _].
  pose proof (cancelAttempt_abs e tok W TZ) as CA.
  destruct (cancelAttempt e tok) as [e' ok]. destruct CA as [F1 F3].
  destruct ok; cbn [negb].
  2:{ rewrite G. split; [discriminate|]. split; [reflexivity|]. split; [reflexivity|eexists; reflexivity]. }
  destruct (F3 eq_refl) as [C1 [C2 [C3 _]]].
  destruct (e_committed e' || hasAttempts e') eqn:FL; proj.
  - rewrite k_get_set_same. split; [discriminate|].
    split; [intros k Hk; apply k_get_set_other; congruence|]. split; [reflexivity|eexists; reflexivity].
  - exfalso. destruct (proj1 (entry_gone_iff e' C3) FL) as [X1 X2].
    destruct HY as [HY|HY].
    + rewrite C1 in X1. unfold abs_committed in X1. rewrite HY in X1. discriminate.
    + destruct (other_live_abs e tok W HY) as [x [Hx1 Hx2]].
      assert (IN : In x (map fst (live_del tok (abs_live e)))) by (apply live_del_fst; split; assumption).
      eapply Permutation_in in IN; [|apply Permutation_map; apply Permutation_sym; exact C2].
      rewrite X2 in IN. destruct IN.
Qed.

Definition entry_candidates (e : entry) : list Z :=
  p_at (e_pending e) :: map (fun a => p_at (a_pending a)) (e_extra e).

Lemma hasDeliveryAfter_candidates e cutoff :
  hasDeliveryAfter e cutoff = false <-> forall a, In a (entry_candidates e) -> (a <= cutoff)%Z.
Proof.
  unfold hasDeliveryAfter, entry_candidates. rewrite orb_false_iff. split.
  - intros [H1 H2] a [Ha|Ha].
    + subst a. apply Z.ltb_ge in H1. exact H1.
    + apply in_map_iff in Ha. destruct Ha as [x [E1 E2]]. subst a.
      destruct (Z_le_gt_dec (p_at (a_pending x)) cutoff) as [L|L]; [exact L|exfalso].
      assert (X : existsb (fun a => (cutoff <? p_at (a_pending a))%Z) (e_extra e) = true).
      { apply existsb_exists. exists x. split; [exact E2|apply Z.ltb_lt; lia]. }
      congruence.
  - intro H. split.
    + apply Z.ltb_ge. apply H. left. reflexivity.
    + destruct (existsb (fun a => (cutoff <? p_at (a_pending a))%Z) (e_extra e)) eqn:X; [|reflexivity].
      apply existsb_exists in X. destruct X as [x [E1 E2]]. apply Z.ltb_lt in E2.
      assert (L : (p_at (a_pending x) <= cutoff)%Z) by (apply H; right; apply in_map_iff; exists x; auto). lia.
Qed.

(* expiry removes exactly the identities all of whose committed and in-flight deliveries are
   at least ttl old; nothing else changes *)
Lemma expire_only_idle t now ttl :
  Inv t -> (0 <= now <= i64_max)%Z -> (ttl <= i64_max)%Z ->
  let '(t', r) := Expire t now ttl in
  (forall k e, kget k (t_byMessage t) = Some e ->
     (kget k (t_byMessage t') = None <->
      (0 < ttl)%Z /\ forall a, In a (entry_candidates e) -> (ttl <= (now - a) * time_second)%Z)
     /\ (kget k (t_byMessage t') = None \/ kget k (t_byMessage t') = Some e))
  /\ (forall k, kget k (t_byMessage t) = None -> kget k (t_byMessage t') = None)
  /\ exists ps, r = RList ps /\ t_count t' = (t_count t - Z.of_nat (length ps))%Z
     /\ (forall p, In p ps <-> exists k e, kget k (t_byMessage t) = Some e
                                /\ kget k (t_byMessage t') = None /\ p = e_pending e).
Proof.
  intros I Hn Ht. unfold Expire.
  destruct (ttl <=? 0)%Z eqn:TZ.
  { apply Z.leb_le in TZ. split; [|split].
    - intros k e G. split; [|right; exact G]. rewrite G. split; [discriminate|]. intros [X _]. lia.
    - auto.
    - exists []. split; [reflexivity|]. split; [simpl; lia|]. intro p. split; [intros []|].
      intros [k [e [G1 [G2 _]]]]. congruence. }
  apply Z.leb_gt in TZ. proj. rewrite (cutoff_no_wrap now ttl Hn (conj TZ Ht)).
  set (cutoff := (now - ttl_seconds ttl)%Z).
  assert (GETK : forall k, kget k (filter (fun ke : key * entry => hasDeliveryAfter (snd ke) cutoff) (t_byMessage t))
                 = match kget k (t_byMessage t) with
                   | Some e => if hasDeliveryAfter e cutoff then Some e else None
                   | None => None
                   end).
  { intro k. rewrite (k_get_filter _ _ _ (inv_nodup t I)). reflexivity. }
  assert (IDLE : forall e, hasDeliveryAfter e cutoff = false <->
                           forall a, In a (entry_candidates e) -> (ttl <= (now - a) * time_second)%Z).
  { intro e. rewrite hasDeliveryAfter_candidates. split; intros X a Ha; apply (ttl_seconds_le_iff now ttl a TZ), X, Ha. }
  split; [|split].
  - intros k e G. rewrite GETK, G. destruct (hasDeliveryAfter e cutoff) eqn:HD.
    + split; [|right; reflexivity]. split; [discriminate|]. intros [_ X]. apply IDLE in X. congruence.
    + split; [|left; reflexivity]. split; [|reflexivity]. intros _. split; [exact TZ|]. apply IDLE. exact HD.
  - intros k G. rewrite GETK, G. reflexivity.
  - eexists. split; [reflexivity|]. split; [rewrite map_length; reflexivity|].
    intro p. rewrite in_map_iff. split.
    + intros [[k e] [E1 E2]]. simpl in E1. apply filter_In in E2. destruct E2 as [E2 E3]. simpl in E3.
      apply negb_true_iff in E3. pose proof (k_in_get _ _ _ (inv_nodup t I) E2) as G.
      exists k, e. split; [exact G|]. split; [rewrite GETK, G, E3; reflexivity|symmetry; exact E1].
    + intros [k [e [G [G' Hp]]]]. exists (k, e). split; [symmetry; exact Hp|].
      apply filter_In. split; [apply (k_get_some_in _ _ _ G)|]. simpl.
      rewrite GETK, G in G'. destruct (hasDeliveryAfter e cutoff); [discriminate|reflexivity].
Qed.
