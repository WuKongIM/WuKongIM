(* Proof/HashSlot_balance.v — what the three planners achieve on a table that maps
   every hash slot to a physical slot:
   rebalance: every active slot ends with exactly its ideal share;
   add: the new slot gets exactly its ideal share, no donor is taken below its
        ideal share, and a table within one of ideal stays within one;
   remove: the removed slot ends empty, no receiver is filled above its ideal
        share, and on a table within one of ideal no remaining slot ends more
        than one ABOVE its ideal share (it may end more than one below: C20-K2).
   Each result is [planner_run] with the planner's invariant and measure, read off
   when the loop head breaks. *)
From WK Require Import Base.Base Model.HashSlot Proof.HashSlot_table Proof.HashSlot_lists Proof.HashSlot_plan.
From Coq Require Import ZifyBool ZifyN ZifyNat Sorting.Sorted Sorting.Permutation.
Open Scope N_scope.

Definition nzl (l : list N) : Prop := Forall (fun s => s <> 0) l.

Definition holds (assign : list N) (s : N) : N := cnt assign s.

Lemma active_not_zero t : ~ In 0 (active_slot_ids t).
Proof. rewrite in_active. intros [H _]. congruence. Qed.

Lemma rebalance_choose_some tgt slots cur d r : ~ In 0 slots ->
  rebalance_choose tgt slots cur = Some (d, r) ->
  In d slots /\ In r slots /\ aget 0 tgt d < aget 0 cur d /\ aget 0 cur r < aget 0 tgt r /\ r <> 0.
Proof.
  intros NZ H. unfold rebalance_choose in H.
  pose proof (select_largest_spec cur tgt slots NZ) as S1. pose proof (select_smallest_spec cur tgt slots NZ) as S2.
  cbn zeta in S1, S2.
  destruct (select_largest_surplus_slot cur tgt slots =? 0); [discriminate|].
  destruct (select_smallest_deficit_slot cur tgt slots =? 0) eqn:E2; [discriminate|].
  inversion H; subst. apply N.eqb_neq in E2. tauto.
Qed.

Lemma rebalance_choose_none tgt slots cur : ~ In 0 slots ->
  rebalance_choose tgt slots cur = None ->
  (forall x, In x slots -> aget 0 cur x <= aget 0 tgt x) \/ (forall x, In x slots -> aget 0 tgt x <= aget 0 cur x).
Proof.
  intros NZ H. unfold rebalance_choose in H.
  pose proof (select_largest_spec cur tgt slots NZ) as S1. pose proof (select_smallest_spec cur tgt slots NZ) as S2.
  cbn zeta in S1, S2.
  destruct (select_largest_surplus_slot cur tgt slots =? 0); [left; exact S1|].
  destruct (select_smallest_deficit_slot cur tgt slots =? 0); [right; exact S2|discriminate].
Qed.

Lemma rebalance_choose_ok tgt slots : ~ In 0 slots -> choose_ok (rebalance_choose tgt slots) slots.
Proof.
  intros NZ cur d r H. destruct (rebalance_choose_some tgt slots cur d r NZ H) as (Id & Ir & B & C & Rz).
  split; [intro; subst; lia|]. split; [exact Id|]. split; [exact Ir|]. split; [lia|exact Rz].
Qed.

Theorem rebalance_plan_struct t :
  plan_ok (t_assign t) (active_slot_ids t) (plan_fuel t) (compute_rebalance_plan t).
Proof.
  unfold compute_rebalance_plan, compute_rebalance_plan_full.
  destruct (active_slot_ids t) as [|a [|b rest]] eqn:EA; try apply plan_ok_nil. rewrite <- EA.
  apply loop_plan_ok; [apply rebalance_choose_ok, active_not_zero|apply slot_hash_slots_ok|apply slot_counts_tracks].
Qed.

(* the rebalance loop reaches any targets that add up to the number of hash slots *)
Lemma rebalance_loop_reaches t tgt : wf t -> nzl (t_assign t) ->
  let A := active_slot_ids t in
  sumf (aget 0 tgt) A = t_count t ->
  forall s, In s A ->
    cnt (apply_moves (fst (transfer_loop (plan_fuel t) (rebalance_choose tgt A) (slot_counts t A) (slot_hash_slots t A)))
                     (t_assign t)) s = aget 0 tgt s.
Proof.
  intros W NZ A ST s Is. pose proof (active_nodup t) as ND. pose proof (active_not_zero t) as A0.
  pose proof (assign_in_active t NZ) as IN. fold A in ND, A0, IN.
  destruct (planner_run t (rebalance_choose tgt A) A A (slot_counts t A) (fun cur s => aget 0 tgt s < aget 0 cur s)
              (fun _ => True) (fun cur => sumf (fun s => aget 0 cur s - aget 0 tgt s) A)
              W ND IN (rebalance_choose_ok tgt A A0) (slot_counts_tracks t A))
    as (c & TR & _ & EX & SUM).
  - (* the donor is marked: it is above its target *)
    intros cur d r CH. apply (rebalance_choose_some tgt A cur d r A0 CH).
  - (* marks are not gained: a receiver is below its target and does not rise above it *)
    intros cur d r x CH Px. destruct (rebalance_choose_some tgt A cur d r A0 CH) as (_ & _ & B & C & _).
    rewrite transfer_get in Px by (intro; subst; lia).
    destruct (x =? d) eqn:E1; [apply N.eqb_eq in E1; subst x; split; [exact B|intro; subst; lia]|].
    destruct (x =? r) eqn:E2; [apply N.eqb_eq in E2; subst x; lia|]. apply N.eqb_neq in E2. split; assumption.
  - (* the slots marked at the start are active *)
    intros x Px. destruct (in_dec N.eq_dec x A) as [Ix|Nx]; [split; exact Ix|].
    rewrite slot_counts_out in Px by exact Nx. lia.
  - (* step: the surpluses sum to one less *)
    intros cur d r _ CH. split; [constructor|].
    destruct (rebalance_choose_some tgt A cur d r A0 CH) as (Id & Ir & B & C & _).
    pose proof (sumf_transfer_phi (fun v x => v - aget 0 tgt x) cur d r A ND Id Ir ltac:(intro; subst; lia)) as Q.
    cbn beta in Q. lia.
  - constructor.
  - (* the measure fits in the fuel *)
    rewrite <- (sum_tracked t (slot_counts t A) A W ND IN (slot_counts_tracks t A)). apply sumf_le. intros. lia.
  - (* exit: equal sums, and the holdings all at most or all at least the targets *)
    rewrite <- (TR s Is). destruct (rebalance_choose_none tgt A c A0 EX) as [LE|GE].
    + apply (sumf_eq_le (aget 0 c) (aget 0 tgt) A); [lia|exact LE|exact Is].
    + symmetry. apply (sumf_eq_le (aget 0 tgt) (aget 0 c) A); [lia|exact GE|exact Is].
Qed.

Theorem rebalance_exact t : wf t -> nzl (t_assign t) ->
  forall s, In s (active_slot_ids t) ->
    cnt (apply_moves (compute_rebalance_plan t) (t_assign t)) s = spec_ideal (t_count t) (active_slot_ids t) s.
Proof.
  intros W NZ s Is. pose proof (active_nodup t) as ND.
  unfold compute_rebalance_plan, compute_rebalance_plan_full.
  destruct (active_slot_ids t) as [|a [|b rest]] eqn:EA; [destruct Is| |]; rewrite <- EA in *.
  - (* a single slot holds everything *)
    pose proof (sumf_cnt (t_assign t) _ ND (assign_in_active t NZ)) as S1.
    pose proof (sumf_spec_ideal (t_count t) _ ND ltac:(rewrite EA; discriminate)) as S2.
    rewrite EA in Is, S1, S2. destruct Is as [<-|[]]. cbn [fst apply_moves fold_left sumf fold_right] in *.
    rewrite <- EA in S2. unfold wf in W. lia.
  - rewrite rebalance_loop_reaches; try assumption.
    + apply ideal_counts_perm; [apply Permutation_refl|exact ND|exact Is].
    + apply sum_ideal_counts; [apply Permutation_refl|exact ND|rewrite EA; discriminate].
Qed.

Lemma add_choose_some tgt existing new cur d r : ~ In 0 existing ->
  add_choose tgt existing new cur = Some (d, r) ->
  r = new /\ aget 0 cur new < aget 0 tgt new /\ In d existing /\ aget 0 tgt d < aget 0 cur d
  /\ forall x, In x existing -> aget 0 cur x - aget 0 tgt x <= aget 0 cur d - aget 0 tgt d.
Proof.
  intros NZ H. unfold add_choose in H.
  destruct (aget 0 cur new <? aget 0 tgt new) eqn:E0; [|discriminate].
  pose proof (select_largest_spec cur tgt existing NZ) as S1. cbn zeta in S1.
  destruct (select_largest_surplus_slot cur tgt existing =? 0); [discriminate|].
  inversion H; subst. split; [reflexivity|]. split; [lia|exact S1].
Qed.

Lemma add_choose_none tgt existing new cur : ~ In 0 existing ->
  add_choose tgt existing new cur = None ->
  aget 0 tgt new <= aget 0 cur new \/ (forall x, In x existing -> aget 0 cur x <= aget 0 tgt x).
Proof.
  intros NZ H. unfold add_choose in H.
  destruct (aget 0 cur new <? aget 0 tgt new) eqn:E0; [|left; lia].
  pose proof (select_largest_spec cur tgt existing NZ) as S1. cbn zeta in S1.
  destruct (select_largest_surplus_slot cur tgt existing =? 0); [right; exact S1|discriminate].
Qed.

Lemma add_choose_ok tgt existing new : ~ In 0 existing -> new <> 0 -> ~ In new existing ->
  choose_ok (add_choose tgt existing new) (new :: existing).
Proof.
  intros NZ Nnz Nnew cur d r H. destruct (add_choose_some tgt existing new cur d r NZ H) as (-> & A & Id & B & _).
  split; [intro; subst; contradiction|]. split; [right; exact Id|]. split; [left; reflexivity|]. split; [lia|exact Nnz].
Qed.

Lemma add_slots_perm t n : Permutation (sort_ids (active_slot_ids t ++ [n])) (n :: active_slot_ids t).
Proof. eapply Permutation_trans; [apply sort_ids_perm|]. apply Permutation_sym, Permutation_cons_append. Qed.

Theorem add_plan_struct t n :
  plan_ok (t_assign t) (n :: active_slot_ids t) (plan_fuel t) (compute_add_slot_plan t n).
Proof.
  unfold compute_add_slot_plan, compute_add_slot_plan_full.
  destruct (n =? 0) eqn:E0; [apply plan_ok_nil|]. destruct (mem n (active_slot_ids t)) eqn:M; [apply plan_ok_nil|].
  apply N.eqb_neq in E0. apply mem_false in M.
  apply loop_plan_ok; [apply add_choose_ok; [apply active_not_zero|exact E0|exact M]|apply slot_hash_slots_ok|].
  intros s Is. apply slot_counts_get, (Permutation_in s (Permutation_sym (add_slots_perm t n)) Is).
Qed.

(* What the add loop keeps, for the holdings [h] before, the targets [t'] and the holdings [c]
   now: a slot at or below its target is not touched, a donor is not taken below its target,
   and the withdrawal is levelled: once i has given, no j has a surplus two above that of i. *)
Definition levelled (h t' c : N -> N) (E : list N) : Prop :=
  (forall s, In s E -> (h s <= t' s -> c s = h s) /\ (t' s <= h s -> t' s <= c s <= h s))
  /\ (forall i j, In i E -> In j E -> c i < h i -> c j + t' i <= c i + t' j + 1).

Lemma levelled_keeps (h t' c : N -> N) E s : levelled h t' c E -> In s E ->
  (h s <= t' s -> c s = h s) /\ (t' s <= h s -> t' s <= c s <= h s).
Proof. intros [A _]. apply A. Qed.

Lemma levelled_init (h t' c : N -> N) E : (forall s, In s E -> c s = h s) -> levelled h t' c E.
Proof. intro C0. split; [intros s Is|intros i j Ii _]; rewrite C0 by assumption; [split; intro|]; lia. Qed.

Lemma levelled_ext (h t' c c' : N -> N) E : (forall s, In s E -> c s = c' s) -> levelled h t' c E -> levelled h t' c' E.
Proof.
  intros X [A B]. split; [intros s Is; rewrite <- (X s Is); apply A, Is|].
  intros i j Ii Ij. rewrite <- (X i Ii), <- (X j Ij). apply B; assumption.
Qed.

(* taking one hash slot from a slot of largest surplus and giving it to a slot outside E *)
Lemma levelled_transfer h tgt cur d n E : ~ In n E -> In d E -> aget 0 tgt d < aget 0 cur d ->
  (forall x, In x E -> aget 0 cur x - aget 0 tgt x <= aget 0 cur d - aget 0 tgt d) ->
  levelled h (aget 0 tgt) (aget 0 cur) E -> levelled h (aget 0 tgt) (aget 0 (transfer cur d n)) E.
Proof.
  intros Nn Id B MX [I3 I4].
  assert (GE : forall s, In s E -> aget 0 (transfer cur d n) s = if s =? d then aget 0 cur d - 1 else aget 0 cur s).
  { intros s Is. rewrite transfer_get by (intro; subst; contradiction). destruct (s =? d); [reflexivity|].
    destruct (s =? n) eqn:E2; [apply N.eqb_eq in E2; subst s; contradiction|reflexivity]. }
  split.
  - intros s Is. rewrite (GE s Is). destruct (I3 s Is) as [P1 P2].
    destruct (s =? d) eqn:E1; [apply N.eqb_eq in E1; subst s; split; intro; lia|split; assumption].
  - intros i j Ii Ij. rewrite (GE i Ii), (GE j Ij). intro Ti.
    pose proof (MX j Ij) as Mj. pose proof (MX i Ii) as Mi.
    destruct (i =? d) eqn:E1; destruct (j =? d) eqn:E2; try (apply N.eqb_eq in E1; subst i); try (apply N.eqb_eq in E2; subst j);
      try lia; [specialize (I4 i d Ii Id Ti); lia|apply (I4 i j Ii Ij Ti)].
Qed.

(* a levelled withdrawal from the slots above their new ideal keeps a within-one table within one *)
Lemma levelled_balanced (E : list N) (h c t t' : N -> N) :
  sumf h E = sumf t E -> sumf c E = sumf t' E ->
  (forall s, In s E -> t' s <= t s) ->
  (forall s, In s E -> h s <= t s + 1 /\ t s <= h s + 1) ->
  levelled h t' c E ->
  forall s, In s E -> c s <= t' s + 1 /\ t' s <= c s + 1.
Proof.
  intros SH SC MONO PRE [NC LV] s Is.
  split.
  2:{ destruct (NC s Is) as [A B]. specialize (MONO s Is). destruct (PRE s Is) as [P1 P2].
      destruct (N.le_gt_cases (h s) (t' s)) as [Q|Q]; [rewrite (A Q); lia|]. specialize (B ltac:(lia)). lia. }
  destruct (N.le_gt_cases (c s) (t' s + 1)) as [Q|Q]; [exact Q|exfalso].
  (* slot s keeps a surplus of at least two: then h + t' <= c + t everywhere, strictly at s *)
  assert (PW : forall x, In x E -> h x + t' x <= c x + t x).
  { intros x Ix. destruct (NC x Ix) as [A B]. specialize (MONO x Ix). destruct (PRE x Ix) as [P1 P2].
    destruct (N.le_gt_cases (h x) (t' x)) as [Q1|Q1]; [rewrite (A Q1); lia|].
    specialize (B ltac:(lia)).
    destruct (N.eq_dec (c x) (h x)) as [Q2|Q2]; [lia|].
    specialize (LV x s Ix Is ltac:(lia)). lia. }
  assert (ST : h s + t' s < c s + t s) by (destruct (PRE s Is); lia).
  pose proof (sumf_lt (fun x => h x + t' x) (fun x => c x + t x) E s Is ST PW) as L.
  rewrite !sumf_plus in L. lia.
Qed.

(* the add loop, for any targets that add up to the number of hash slots: the new slot reaches
   its target by a levelled withdrawal from the existing ones *)
Lemma add_loop_reaches t n tgt slots : wf t -> nzl (t_assign t) -> n <> 0 -> ~ In n (active_slot_ids t) ->
  let E := active_slot_ids t in
  (forall s, In s (n :: E) -> In s slots) -> aget 0 tgt n + sumf (aget 0 tgt) E = t_count t ->
  let post := apply_moves (fst (transfer_loop (plan_fuel t) (add_choose tgt E n) (slot_counts t slots) (slot_hash_slots t E)))
                          (t_assign t) in
  cnt post n = aget 0 tgt n /\ sumf (cnt post) E = sumf (aget 0 tgt) E
  /\ levelled (cnt (t_assign t)) (aget 0 tgt) (cnt post) E.
Proof.
  intros W NZ Nnz Nnew E SL ST post.
  pose proof (active_nodup t) as NDE. pose proof (active_not_zero t) as E0. fold E in NDE, E0.
  assert (TR0 : tracks (t_assign t) (slot_counts t slots) (n :: E)) by (intros s Is; apply slot_counts_get, SL, Is).
  destruct (planner_run t (add_choose tgt E n) (n :: E) E (slot_counts t slots) (fun _ s => In s E)
              (fun cur => aget 0 cur n <= aget 0 tgt n /\ levelled (cnt (t_assign t)) (aget 0 tgt) (aget 0 cur) E)
              (fun cur => aget 0 tgt n - aget 0 cur n)
              W (NoDup_cons n Nnew NDE) (fun s I => or_intror (assign_in_active t NZ s I))
              (add_choose_ok tgt E n E0 Nnz Nnew) TR0)
    as (c & TR & [I2 LV] & EX & SUM).
  - (* the donor is marked: an existing slot *)
    intros cur d r CH. apply (add_choose_some tgt E n cur d r E0 CH).
  - (* the receiver is the new slot, not marked *)
    intros cur d r s CH Is. destruct (add_choose_some tgt E n cur d r E0 CH) as (-> & _).
    split; [exact Is|intro; subst; contradiction].
  - intros s Is. split; [exact Is|right; exact Is].
  - (* step: the donor has the largest surplus, which keeps the withdrawal levelled *)
    intros cur d r [I2 LV] CH. destruct (add_choose_some tgt E n cur d r E0 CH) as (-> & A & Id & B & MX).
    rewrite transfer_get, (proj2 (N.eqb_neq n d)), N.eqb_refl by (intro; subst; contradiction).
    split; [split; [lia|apply levelled_transfer; assumption]|lia].
  - (* start: the new slot holds nothing *)
    split; [|apply levelled_init; intros s Is; apply TR0; right; exact Is].
    rewrite (TR0 n (or_introl eq_refl)), (proj2 (cnt_zero_iff _ n)); [lia|].
    intro I. apply Nnew, in_active. split; assumption.
  - (* the measure fits in the fuel *) lia.
  - (* at the exit the new slot has reached its target: otherwise no donor is left, the existing
       slots hold at most their targets, and the sums say that the new one holds at least its own *)
    fold post in TR. rewrite sumf_cons in SUM.
    assert (FN : aget 0 c n = aget 0 tgt n).
    { destruct (add_choose_none tgt E n c E0 EX) as [GE|LE]; [lia|]. pose proof (sumf_le (aget 0 c) (aget 0 tgt) E LE). lia. }
    assert (CE : forall s, In s E -> aget 0 c s = cnt post s) by (intros s Is; apply TR; right; exact Is).
    split; [rewrite <- (TR n (or_introl eq_refl)); exact FN|].
    split; [rewrite <- (sumf_ext _ _ E CE); lia|exact (levelled_ext _ _ _ _ E CE LV)].
Qed.

Theorem add_plan_result t n : wf t -> nzl (t_assign t) -> n <> 0 -> ~ In n (active_slot_ids t) ->
  let E := active_slot_ids t in
  let parts := n :: E in
  let post := apply_moves (compute_add_slot_plan t n) (t_assign t) in
  cnt post n = spec_ideal (t_count t) parts n
  /\ (forall s, In s E ->
        (cnt (t_assign t) s <= spec_ideal (t_count t) parts s -> cnt post s = cnt (t_assign t) s)
        /\ (spec_ideal (t_count t) parts s <= cnt (t_assign t) s ->
            spec_ideal (t_count t) parts s <= cnt post s <= cnt (t_assign t) s))
  /\ (balanced (t_count t) (t_assign t) E = true -> balanced (t_count t) post parts = true).
Proof.
  intros W NZ Nnz Nnew E parts. cbn zeta.
  pose proof (active_nodup t) as NDE. fold E in NDE. assert (NDp : NoDup parts) by (constructor; assumption).
  pose proof (add_slots_perm t n) as PS. fold E parts in PS.
  unfold compute_add_slot_plan, compute_add_slot_plan_full.
  rewrite (proj2 (N.eqb_neq n 0) Nnz), (proj2 (mem_false n _) Nnew). fold E.
  set (tgt := ideal_slot_counts (t_count t) (sort_ids (E ++ [n]))).
  assert (TG : forall s, In s parts -> aget 0 tgt s = spec_ideal (t_count t) parts s)
    by (intros s Is; apply ideal_counts_perm; assumption).
  destruct (add_loop_reaches t n tgt (sort_ids (E ++ [n])) W NZ Nnz Nnew) as (Tn & SC & LV).
  { intros s Is. apply (Permutation_in s (Permutation_sym PS) Is). }
  { rewrite <- sumf_cons. apply sum_ideal_counts; [exact PS|exact NDp|discriminate]. }
  fold E in Tn, SC, LV. set (post := apply_moves _ _) in *.
  assert (PT : forall s, In s E -> In s parts) by (intros s Is; right; exact Is).
  split; [rewrite Tn; apply TG; left; reflexivity|]. split.
  - intros s Is. rewrite <- (TG s (PT s Is)). apply (levelled_keeps _ _ _ E s LV Is).
  - rewrite !balanced_iff. intros PRE s [<-|Is]; [rewrite Tn, TG by (left; reflexivity); lia|].
    rewrite <- (TG s (PT s Is)).
    apply (levelled_balanced E (cnt (t_assign t)) (cnt post) (spec_ideal (t_count t) E) (aget 0 tgt)); try assumption.
    + rewrite sumf_spec_ideal by (try assumption; intro Q; rewrite Q in Is; destruct Is).
      rewrite sumf_cnt; [exact W|exact NDE|apply assign_in_active; exact NZ].
    + (* a share never grows when a slot joins *)
      intros y Iy. rewrite (TG y (PT y Iy)). apply spec_ideal_mono; [intro Q; rewrite Q in Iy; destruct Iy|reflexivity|].
      unfold parts. rewrite rank_cons. lia.
Qed.

Lemma remove_choose_some tgt remaining rm cur d r : ~ In 0 remaining ->
  remove_choose tgt remaining rm cur = Some (d, r) ->
  d = rm /\ 0 < aget 0 cur rm /\ In r remaining /\ aget 0 cur r < aget 0 tgt r /\ r <> 0.
Proof.
  intros NZ H. unfold remove_choose in H.
  destruct (0 <? aget 0 cur rm) eqn:E0; [|discriminate].
  pose proof (select_smallest_spec cur tgt remaining NZ) as S1. cbn zeta in S1.
  destruct (select_smallest_deficit_slot cur tgt remaining =? 0) eqn:E1; [discriminate|].
  inversion H; subst. apply N.eqb_neq in E1. split; [reflexivity|]. split; [lia|tauto].
Qed.

Lemma remove_choose_none tgt remaining rm cur : ~ In 0 remaining ->
  remove_choose tgt remaining rm cur = None ->
  aget 0 cur rm = 0 \/ (forall x, In x remaining -> aget 0 tgt x <= aget 0 cur x).
Proof.
  intros NZ H. unfold remove_choose in H.
  destruct (0 <? aget 0 cur rm) eqn:E0; [|left; lia].
  pose proof (select_smallest_spec cur tgt remaining NZ) as S1. cbn zeta in S1.
  destruct (select_smallest_deficit_slot cur tgt remaining =? 0); [right; exact S1|discriminate].
Qed.

Lemma remove_choose_ok tgt remaining rm : ~ In 0 remaining -> ~ In rm remaining ->
  choose_ok (remove_choose tgt remaining rm) (rm :: remaining).
Proof.
  intros NZ NI cur d r H. destruct (remove_choose_some tgt remaining rm cur d r NZ H) as (-> & P & Ir & B & Rz).
  split; [intro; subst; contradiction|]. split; [left; reflexivity|]. split; [right; exact Ir|]. split; [lia|exact Rz].
Qed.

Lemma in_excluding t x s : In s (active_slot_ids_excluding t x) <-> In s (active_slot_ids t) /\ s <> x.
Proof.
  unfold active_slot_ids_excluding. rewrite filter_In, negb_true_iff, N.eqb_neq. reflexivity.
Qed.

Lemma excluding_nodup t x : NoDup (x :: active_slot_ids_excluding t x).
Proof.
  constructor; [rewrite in_excluding; intros [_ H]; congruence|]. apply NoDup_filter, active_nodup.
Qed.

Lemma excluding_perm t x : In x (active_slot_ids t) ->
  Permutation (active_slot_ids t) (x :: active_slot_ids_excluding t x).
Proof.
  intro Xin. apply NoDup_Permutation; [apply active_nodup|apply excluding_nodup|].
  intro s. cbn [In]. rewrite in_excluding. split.
  - intro I. destruct (N.eq_dec x s) as [Q|Q]; [left; exact Q|right; split; [exact I|congruence]].
  - intros [Q|[Q _]]; [subst; exact Xin|exact Q].
Qed.

Lemma hash_slots_of_nil t x : hash_slots_of t x = [] <-> ~ In x (t_assign t).
Proof.
  rewrite <- cnt_zero_iff. unfold hash_slots_of. rewrite <- (indices_of_length (t_assign t) x 0).
  destruct (indices_of 0 (t_assign t) x); cbn [length]; split; intro H; try reflexivity; try discriminate; lia.
Qed.

Theorem remove_plan_struct t x :
  plan_ok (t_assign t) (active_slot_ids t) (plan_fuel t) (compute_remove_slot_plan t x).
Proof.
  unfold compute_remove_slot_plan, compute_remove_slot_plan_full.
  destruct (x =? 0) eqn:E0; [apply plan_ok_nil|].
  destruct (hash_slots_of t x) as [|h0 hr] eqn:EH; [apply plan_ok_nil|].
  destruct (active_slot_ids_excluding t x) as [|r0 rr] eqn:ER; [apply plan_ok_nil|].
  rewrite <- ER. apply N.eqb_neq in E0.
  assert (Xin : In x (active_slot_ids t)).
  { apply in_active. split; [exact E0|]. destruct (in_dec N.eq_dec x (t_assign t)) as [I|I]; [exact I|].
    apply hash_slots_of_nil in I. rewrite I in EH. discriminate. }
  apply (plan_ok_incl _ (x :: active_slot_ids_excluding t x)).
  - intros s Is. apply (Permutation_in s (Permutation_sym (excluding_perm t x Xin)) Is).
  - pose proof (excluding_nodup t x) as ND. inversion ND; subst.
    apply loop_plan_ok; [apply remove_choose_ok; [|assumption]|apply slot_hash_slots_ok|].
    + rewrite in_excluding. intros [H _]. apply (active_not_zero t H).
    + intros s Is. apply slot_counts_get, (Permutation_in s (Permutation_cons_append _ x) Is).
Qed.

(* the mirror image for the remove loop: a slot at or above its target is not touched, a
   receiver is not filled above its target *)
Definition filled (h t' c : N -> N) (R : list N) : Prop :=
  forall s, In s R -> (t' s <= h s -> c s = h s) /\ (h s <= t' s -> h s <= c s <= t' s).

(* the remove loop, for any targets of the remaining slots that add up to the number of hash
   slots: the removed slot ends empty and no receiver is filled above its target *)
Lemma remove_loop_reaches t x tgt : wf t -> nzl (t_assign t) -> In x (active_slot_ids t) ->
  let R := active_slot_ids_excluding t x in
  sumf (aget 0 tgt) R = t_count t ->
  let post := apply_moves (fst (transfer_loop (plan_fuel t) (remove_choose tgt R x) (slot_counts t (R ++ [x]))
                                              (slot_hash_slots t [x]))) (t_assign t) in
  cnt post x = 0 /\ filled (cnt (t_assign t)) (aget 0 tgt) (cnt post) R.
Proof.
  intros W NZ Xin R ST post.
  pose proof (excluding_nodup t x) as ND. fold R in ND. inversion ND as [|? ? NxR NDR]; subst.
  assert (R0 : ~ In 0 R) by (unfold R; rewrite in_excluding; intros [H _]; apply (active_not_zero t H)).
  assert (TR0 : tracks (t_assign t) (slot_counts t (R ++ [x])) (x :: R)).
  { intros s Is. apply slot_counts_get, (Permutation_in s (Permutation_cons_append _ x) Is). }
  assert (IN : forall s, In s (t_assign t) -> In s (x :: R))
    by (intros s I; apply (Permutation_in s (excluding_perm t x Xin)), assign_in_active; assumption).
  set (h := cnt (t_assign t)).
  destruct (planner_run t (remove_choose tgt R x) (x :: R) [x] (slot_counts t (R ++ [x])) (fun _ s => s = x)
              (fun cur => filled h (aget 0 tgt) (aget 0 cur) R) (fun cur => aget 0 cur x)
              W ND IN (remove_choose_ok tgt R x R0 NxR) TR0)
    as (c & TR & NC & EX & SUM).
  - (* the donor is marked: it is the removed slot *)
    intros cur d r CH. apply (remove_choose_some tgt R x cur d r R0 CH).
  - (* the receiver is a remaining slot, not marked *)
    intros cur d r s CH ->. destruct (remove_choose_some tgt R x cur d r R0 CH) as (_ & _ & Ir & _).
    split; [reflexivity|intro; subst; contradiction].
  - intros s ->. split; left; reflexivity.
  - (* step: the receiver is below its target *)
    intros cur d r I3 CH. destruct (remove_choose_some tgt R x cur d r R0 CH) as (-> & P & Ir & B & _).
    assert (D : x <> r) by (intro; subst; contradiction).
    split; [|rewrite transfer_get, N.eqb_refl by exact D; lia].
    intros s Is. rewrite transfer_get by exact D. destruct (I3 s Is) as [P1 P2].
    rewrite (proj2 (N.eqb_neq s x)) by (intro; subst; contradiction).
    destruct (s =? r) eqn:E2; [apply N.eqb_eq in E2; subst s; split; intro; lia|split; assumption].
  - (* start *) intros s Is. rewrite (TR0 s (or_intror Is)). unfold h. split; intro; lia.
  - (* the measure fits in the fuel *)
    rewrite (TR0 x (or_introl eq_refl)). pose proof (cnt_le_length (t_assign t) x). unfold wf in W. lia.
  - (* at the exit the removed slot is empty: otherwise no receiver is left, the remaining slots
       hold at least their targets, and the sums leave nothing for the removed one *)
    fold post in TR. rewrite sumf_cons in SUM. split.
    + rewrite <- (TR x (or_introl eq_refl)).
      destruct (remove_choose_none tgt R x c R0 EX) as [Z|GE]; [exact Z|].
      pose proof (sumf_le (aget 0 tgt) (aget 0 c) R GE). lia.
    + intros s Is. rewrite <- (TR s (or_intror Is)). apply (NC s Is).
Qed.

Theorem remove_plan_result t x : wf t -> nzl (t_assign t) -> In x (active_slot_ids t) ->
  active_slot_ids_excluding t x <> [] ->
  let A := active_slot_ids t in
  let R := active_slot_ids_excluding t x in
  let post := apply_moves (compute_remove_slot_plan t x) (t_assign t) in
  cnt post x = 0
  /\ (forall s, In s R ->
        (spec_ideal (t_count t) R s <= cnt (t_assign t) s -> cnt post s = cnt (t_assign t) s)
        /\ (cnt (t_assign t) s <= spec_ideal (t_count t) R s ->
            cnt (t_assign t) s <= cnt post s <= spec_ideal (t_count t) R s))
  /\ (balanced (t_count t) (t_assign t) A = true -> not_over (t_count t) post R = true).
Proof.
  intros W NZ Xin RNE. cbn zeta.
  assert (Xas : In x (t_assign t)) by (apply in_active in Xin; apply Xin).
  unfold compute_remove_slot_plan, compute_remove_slot_plan_full.
  rewrite (proj2 (N.eqb_neq x 0)) by (intro; subst; apply (active_not_zero t Xin)).
  destruct (hash_slots_of t x) as [|h0 hr] eqn:EH; [apply hash_slots_of_nil in EH; contradiction|].
  destruct (active_slot_ids_excluding t x) as [|r0 rr] eqn:ER; [congruence|]. rewrite <- ER in *.
  set (A := active_slot_ids t) in *. set (R := active_slot_ids_excluding t x) in *.
  pose proof (excluding_nodup t x) as ND. fold R in ND. inversion ND as [|? ? _ NDR]; subst.
  set (tgt := ideal_slot_counts (t_count t) R).
  assert (TG : forall s, In s R -> aget 0 tgt s = spec_ideal (t_count t) R s)
    by (intros s Is; apply ideal_counts_perm; [apply Permutation_refl|exact NDR|exact Is]).
  destruct (remove_loop_reaches t x tgt W NZ Xin) as [EMP NC].
  { apply sum_ideal_counts; [apply Permutation_refl|exact NDR|exact RNE]. }
  fold R in EMP, NC. set (post := apply_moves _ _) in *.
  assert (NC' : forall s, In s R ->
            (spec_ideal (t_count t) R s <= cnt (t_assign t) s -> cnt post s = cnt (t_assign t) s)
            /\ (cnt (t_assign t) s <= spec_ideal (t_count t) R s ->
                cnt (t_assign t) s <= cnt post s <= spec_ideal (t_count t) R s))
    by (intros s Is; rewrite <- (TG s Is); apply (NC s Is)).
  split; [exact EMP|]. split; [exact NC'|].
  rewrite balanced_iff, not_over_iff. intros PRE s Is. destruct (NC' s Is) as [P1 P2].
  destruct (PRE s) as [Q1 _]; [apply (in_excluding t x s), Is|].
  (* a share never shrinks when a slot leaves *)
  assert (MONO : spec_ideal (t_count t) A s <= spec_ideal (t_count t) R s).
  { apply spec_ideal_mono; [exact RNE|apply (Permutation_length (excluding_perm t x Xin))|apply rank_filter_le]. }
  destruct (N.le_gt_cases (spec_ideal (t_count t) R s) (cnt (t_assign t) s)) as [G|G].
  - rewrite (P1 G). lia.
  - specialize (P2 ltac:(lia)). lia.
Qed.
