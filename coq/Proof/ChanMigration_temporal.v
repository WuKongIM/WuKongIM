(* Proof/ChanMigration_temporal.v — the temporal reading of "a committed or promoted task can no
   longer be aborted", under executor discipline, over histories of one-command batches. *)
From WK Require Import Base.Base.
From WK Require Import Gen.Consts_C15 Gen.Consts_C17 Model.RuntimeMeta Model.ChanMigration Model.ChanMigration_C17.
From WK Require Import Proof.RuntimeMeta Proof.ChanMigration Proof.ChanMigration_cmds Proof.ChanMigration_inv
                       Proof.ChanMigration_step Proof.ChanMigration_meta Proof.ChanMigration_trace
                       Proof.ChanMigration_monitor Proof.ChanMigration_link.
Open Scope N_scope.

(* the cutover of the task is done: it is in a post-commit / post-promote phase, and it is not the
   embedded leader-transfer leg of a replica replacement (which legitimately continues with
   AddLearner and may then still be aborted) *)
Definition cutover_locked (t : task) : bool :=
  post_commit_phase (t_phase t)
  && negb ((t_kind t =? KindReplicaReplace) && t_embedded_leader_transfer t && (t_phase t =? PhaseVerifyNewLeader)).

Lemma locked_post t : cutover_locked t = true -> post_commit_phase (t_phase t) = true.
Proof. unfold cutover_locked. intro H. apply andb_prop in H. tauto. Qed.

Lemma locked_same t t' :
  t_kind t' = t_kind t -> t_phase t' = t_phase t -> t_embedded_leader_transfer t' = t_embedded_leader_transfer t ->
  cutover_locked t' = cutover_locked t.
Proof. intros A B C. unfold cutover_locked. rewrite A, B, C. reflexivity. Qed.

Theorem locked_step d c k t :
  db_inv d -> disciplined d c ->
  task_get (db_tasks d) k = Some t -> cutover_locked t = true ->
  match task_get (db_tasks (fst (apply_one d c))) k with
  | None => True
  | Some t' => cutover_locked t' = true
  end.
Proof.
  intros I Dz G L. pose proof (locked_post _ L) as P.
  destruct (task_get (db_tasks (fst (apply_one d c))) k) as [ct|] eqn:Gc; [|exact Logic.I].
  destruct (post_row_step d c k t ct I G P Gc) as [E|Hit Ca Mu|Hit Rs|_ Kk Pc [[S1 S2]|S3]|_ _ Emb _].
  - subst ct. exact L.
  - apply andb_prop in Hit. destruct Hit as [_ Tg].
    destruct (Dz k t (proj1 (cmd_targets_key _ _) Tg) G P) as [_ Dn]. destruct (Dn ct Ca Mu) as [D1 D2].
    rewrite (locked_same t ct (proj1 (proj2 (mutate_task_identity _ _ _ Mu))) D1 D2). exact L.
  - apply andb_prop in Hit. destruct Hit as [_ Tg].
    destruct (Dz k t (proj1 (cmd_targets_key _ _) Tg) G P) as [Dr _]. congruence.
  - rewrite (locked_same t ct Kk S1 S2). exact L.
  - unfold cutover_locked. rewrite Pc, S3. cbn [andb]. rewrite andb_false_r. reflexivity.
  - unfold cutover_locked in L. unfold embedded_leg in Emb. rewrite Emb, andb_false_r in L. discriminate.
Qed.

(* at every step while the row of key [k] is present, an Abort aimed at [k] is not accepted; the
   statement ends at the first step where the row is gone *)
Fixpoint no_abort_while_present (d : db) (k : tkey) (cs : list cmd) : Prop :=
  match cs with
  | [] => True
  | c :: r =>
    match task_get (db_tasks d) k with
    | None => True
    | Some _ =>
      (is_abort c = true -> cmd_key c = Some k -> accepted (snd (apply_one d c)) = false)
      /\ no_abort_while_present (fst (apply_one d c)) k r
    end
  end.

(* THEOREM c17_no_abort_after_commit_partial: in a history of one-command batches that respects
   executor discipline (no Reset on, and no phase / embedded-flag change by Claim/Advance of, a task
   in a post-commit phase), once a task's cutover is done no AbortChannelMigration on it is ever
   accepted for as long as its row exists. *)
Theorem no_abort_after_commit cs : forall d k t,
  db_inv d -> history_disciplined d cs ->
  task_get (db_tasks d) k = Some t -> cutover_locked t = true ->
  no_abort_while_present d k cs.
Proof.
  induction cs as [|c r IH]; intros d k t I Dz G L; cbn [no_abort_while_present]; [exact Logic.I|].
  rewrite G. destruct Dz as [Dc Dr]. split.
  - intros Ab Ck. eapply abort_not_accepted; eauto. apply locked_post. exact L.
  - pose proof (locked_step d c k t I Dc G L) as Ls.
    destruct (task_get (db_tasks (fst (apply_one d c))) k) as [t'|] eqn:G'.
    + apply (IH _ k t'); auto.
      exact (apply_one_fst_inv d c I).
    + destruct r as [|c2 r2]; cbn [no_abort_while_present]; [exact Logic.I|]. rewrite G'. exact Logic.I.
Qed.
