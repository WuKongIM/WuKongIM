(* Proof/Permission.v — decision-level theorems of C36.  Every function of permission.go is
   the first failing check of its own table; so the per-send path is the precedence table, and
   the read-plan path is the same table except for the C36-K2 ordering divergence.  What a
   disbanded target yields, and what system senders skip, are then read off the table. *)
From WK Require Import Base.Base Model.ChannelId Model.Permission.
From WK Require Import Gen.Consts_C36.
Open Scope N_scope.

Lemma first_failing_cons b r l : first_failing ((b, r) :: l) = if b then r else first_failing l.
Proof. destruct b; reflexivity. Qed.

Lemma first_failing_app l1 l2 :
  first_failing (l1 ++ l2) = if existsb fst l1 then first_failing l1 else first_failing l2.
Proof. induction l1 as [|[[] r] l1 IH]; [reflexivity|reflexivity|exact IH]. Qed.

Definition rejecting (l : list (bool * res)) : Prop := Forall (fun e => ok (snd e) = false) l.

(* the Go idiom "r := check(); if r is not ok return r; continue", for a table whose verdicts
   are all rejections *)
Lemma first_failing_then l1 l2 : rejecting l1 ->
  (if ok (first_failing l1) then first_failing l2 else first_failing l1) = first_failing (l1 ++ l2).
Proof.
  induction 1 as [|[b r] l1 Hr _ IH]; [reflexivity|].
  cbn [app]. rewrite !first_failing_cons. destruct b; [|exact IH].
  cbn [snd] in Hr. rewrite Hr. reflexivity.
Qed.

Lemma sender_checks_rejecting f : rejecting (sender_checks f).
Proof. repeat constructor. Qed.
Lemma terminal_checks_rejecting f : rejecting (terminal_checks f).
Proof. repeat constructor. Qed.

(* case analysis along the decision tree: split on the test at the head of the left-hand side,
   so a fact is only looked at where the code looks at it.  [negb], [andb], [orb] are unfolded
   everywhere and the leaves are closed by [reflexivity], so both sides must be if-trees over the
   same boolean atoms; when it fails, run the [repeat] line alone to see the open leaf *)
Ltac head t :=
  lazymatch t with
  | match ?b with _ => _ end => lazymatch b with match _ with _ => _ end => head b | _ => b end
  end.
Ltac tree :=
  unfold negb, andb, orb;
  repeat (match goal with |- ?l = _ => let b := head l in destruct b end; cbv beta iota);
  reflexivity.

Lemma terminal_is_table f : checkTerminalChannelPermission f = first_failing (terminal_checks f).
Proof.
  unfold checkTerminalChannelPermission, getChannel, terminal_checks. rewrite !first_failing_cons. tree.
Qed.

Lemma sender_is_table f : checkSenderSendPermission f = first_failing (sender_checks f).
Proof.
  unfold checkSenderSendPermission, getChannel, sender_checks. rewrite !first_failing_cons. tree.
Qed.

Lemma member_is_table f : checkCommonMemberPermission f = first_failing (member_checks f).
Proof.
  unfold checkCommonMemberPermission, getBool, member_checks. rewrite !first_failing_cons. tree.
Qed.

Lemma group_is_table f : checkGroupSendPermission f = first_failing (group_checks f).
Proof.
  unfold checkGroupSendPermission, group_checks. cbn [app].
  rewrite member_is_table, !first_failing_cons. unfold getChannel. tree.
Qed.

Lemma person_is_table f : checkPersonSendPermission f = first_failing (person_checks f).
Proof.
  unfold checkPersonSendPermission, getBool, getChannel, person_checks. cbv zeta.
  rewrite !first_failing_cons. tree.
Qed.

Lemma agent_is_table f : checkAgentSendPermission f = first_failing (agent_checks f).
Proof. unfold checkAgentSendPermission, agent_checks. destruct (f_agent f); reflexivity. Qed.

Lemma visitors_is_table f :
  checkVisitorsSendPermission f = first_failing (if f_visitor_self f then [] else member_checks f).
Proof.
  unfold checkVisitorsSendPermission. destruct (f_visitor_self f); [reflexivity|apply member_is_table].
Qed.

Lemma single_is_first_failing (f : facts) : decide_single f = spec_decision f.
Proof.
  unfold decide_single, checkSendPermission, spec_decision, precedence. cbv zeta.
  rewrite terminal_is_table, sender_is_table, person_is_table, group_is_table, agent_is_table,
    visitors_is_table.
  destruct (permission_free f); [reflexivity|].
  destruct (is_person (f_type f) && f_norm f && f_norm_err f); [reflexivity|].
  destruct (f_sender_sys f); [reflexivity|].
  destruct (f_device_sys f); [|destruct (f_type f)];
    rewrite ?if_negb, ?(first_failing_then _ _ (terminal_checks_rejecting f));
    apply first_failing_then, sender_checks_rejecting.
Qed.

Lemma checked_inv f : checked f = true ->
  permission_free f = false /\ is_person (f_type f) && f_norm f && f_norm_err f = false.
Proof.
  unfold checked. intro H. apply andb_true_iff in H. destruct H as [H1 H2].
  split; apply negb_true_iff; assumption.
Qed.

Lemma group_plan_is_table f :
  evaluateGroupPermissionReadPlan (groupSlotsOf f)
  = first_failing (if f_sender_sys f then terminal_checks f else
                   sender_checks f ++ (if f_device_sys f then terminal_checks f else group_checks f)).
Proof.
  unfold groupSlotsOf, evaluateGroupPermissionReadPlan, sender_checks, terminal_checks, group_checks,
    member_checks.
  destruct (f_sender_sys f); [|destruct (f_device_sys f)];
    cbn [gs_trusted gs_senderChannel gs_groupChannel gs_denied gs_subscriber gs_hasAllowlist
         gs_allowlistEntry read_or_zero app];
    rewrite !first_failing_cons; tree.
Qed.

(* the planner decodes the person channel id before the sender and terminal checks (C36-K2) *)
Lemma person_plan_is_table f :
  evaluatePersonPermissionReadPlan (personSlotsOf f)
  = if f_norm f && f_norm_err f then (ReasonSuccess, EPerson) else
    if f_sender_sys f then first_failing (terminal_checks f) else
    if f_device_sys f then first_failing (sender_checks f ++ terminal_checks f) else
    if f_decode_err f then (ReasonSuccess, EPerson) else
    first_failing (sender_checks f ++ terminal_checks f ++ person_checks f).
Proof.
  unfold personSlotsOf, evaluatePersonPermissionReadPlan, sender_checks, terminal_checks, person_checks.
  destruct (f_norm f && f_norm_err f); [reflexivity|].
  destruct (f_sender_sys f); [|destruct (f_device_sys f); [|destruct (f_decode_err f); [reflexivity|];
    destruct (f_recv_sys f); [|destruct (f_whitelist f)]]];
    cbn [ps_planErr ps_trusted ps_systemDevice ps_receiverTrusted ps_senderChannel ps_terminalChannel
         ps_denied ps_allowlistEntry ps_receiverChannel read_or_zero app];
    cbv zeta; rewrite !first_failing_cons; tree.
Qed.

Lemma batchable_not_free f : batchable f = true -> permission_free f = false.
Proof.
  unfold batchable, permission_free.
  destruct (f_request_scoped f), (f_scoped_uids f); (discriminate || reflexivity).
Qed.

Lemma k2_cond_inv f : k2_cond f = true ->
  f_type f = TPerson /\ batchable f = true /\ f_norm f && f_norm_err f = false
  /\ f_sender_sys f = false /\ f_device_sys f = false /\ f_decode_err f = true.
Proof.
  unfold k2_cond. intro H. repeat (apply andb_true_iff in H; destruct H as [H ?]).
  repeat match goal with E : negb _ = true |- _ => apply negb_true_iff in E end.
  destruct (f_type f); try discriminate. auto 6.
Qed.

Lemma batch_is_first_failing (f : facts) : k2_cond f = false -> decide_batch f = spec_decision f.
Proof.
  intro H. unfold decide_batch.
  destruct (batchable f) eqn:Eb; [|apply single_is_first_failing].
  destruct (f_type f) eqn:Et; try apply single_is_first_failing;
    unfold spec_decision, precedence; rewrite (batchable_not_free f Eb), Et; cbn [is_person andb].
  - rewrite person_plan_is_table. unfold k2_cond in H. rewrite Et, Eb in H. cbn [is_person andb] in H.
    destruct (f_norm f && f_norm_err f), (f_sender_sys f), (f_device_sys f), (f_decode_err f);
      (reflexivity || discriminate H).
  - rewrite group_plan_is_table. destruct (f_sender_sys f), (f_device_sys f); reflexivity.
Qed.

Lemma paths_agree (f : facts) : k2_cond f = false -> decide_batch f = decide_single f.
Proof. intro H. rewrite single_is_first_failing. apply batch_is_first_failing, H. Qed.

Lemma k2_decisions (f : facts) : k2_cond f = true ->
  decide_batch f = (ReasonSuccess, EPerson)
  /\ decide_single f = first_failing (sender_checks f ++ terminal_checks f ++ [(true, (0, EPerson))]).
Proof.
  intro H. destruct (k2_cond_inv f H) as (Et & Eb & En & Es & Ed & Ee). split.
  - unfold decide_batch. rewrite Eb, Et, person_plan_is_table, En, Es, Ed, Ee. reflexivity.
  - rewrite single_is_first_failing. unfold spec_decision, precedence.
    rewrite (batchable_not_free f Eb), Et. cbn [is_person andb]. rewrite En, Es, Ed.
    rewrite !first_failing_app. unfold person_checks. rewrite Ee. reflexivity.
Qed.

Lemma paths_k2_both_reject (f : facts) : k2_cond f = true ->
  ok (decide_batch f) = false /\ ok (decide_single f) = false.
Proof.
  intro H. destruct (k2_decisions f H) as [-> ->]. split; [reflexivity|].
  unfold sender_checks, terminal_checks. cbn [app]. rewrite !first_failing_cons.
  destruct (r_err (f_sender f)), (r_found (f_sender f) && r_sendban (f_sender f)),
    (r_err (f_target f)), (r_found (f_target f) && r_disband (f_target f)); reflexivity.
Qed.

Lemma paths_same_admission (f : facts) : ok (decide_batch f) = ok (decide_single f).
Proof.
  destruct (k2_cond f) eqn:E.
  - destruct (paths_k2_both_reject f E) as [-> ->]. reflexivity.
  - rewrite (paths_agree f E). reflexivity.
Qed.

Definition k2_witness : facts :=
  Facts TPerson false false false false false false false true false false AgErr false
        (RR true true false false false false false)       (* sender: found, SendBan *)
        zero_result zero_result zero_result zero_result zero_result zero_result.

(* a system uid is subject to the terminal check and to nothing else; a system device to the
   sender's SendBan, then the terminal check, nothing else; on both paths *)
Lemma system_sender_decision (f : facts) : checked f = true -> f_sender_sys f || f_device_sys f = true ->
  decide_batch f = decide_single f
  /\ decide_single f = first_failing (if f_sender_sys f then terminal_checks f
                                      else sender_checks f ++ terminal_checks f).
Proof.
  intros H1 H2. destruct (checked_inv f H1) as [Hf Hn]. split.
  - apply paths_agree. unfold k2_cond.
    destruct (f_sender_sys f), (f_device_sys f); try discriminate; cbn [negb];
      rewrite andb_false_r; reflexivity.
  - rewrite single_is_first_failing. unfold spec_decision, precedence. rewrite Hf, Hn.
    destruct (f_sender_sys f); [reflexivity|]. cbn [orb] in H2. rewrite H2. reflexivity.
Qed.

Lemma target_disbanded_inv f : target_disbanded f = true ->
  r_err (f_target f) = false /\ r_found (f_target f) = true /\ r_disband (f_target f) = true.
Proof.
  unfold target_disbanded. intro H. apply andb_true_iff in H. destruct H as [H Hd].
  apply andb_true_iff in H. destruct H as [He Hf]. apply negb_true_iff in He. auto.
Qed.

Lemma terminal_disbanded f l : target_disbanded f = true ->
  first_failing (terminal_checks f ++ l) = (ReasonDisband, ENone).
Proof.
  intro H. destruct (target_disbanded_inv f H) as (He & Hf & Hd).
  unfold terminal_checks. cbn [app]. rewrite !first_failing_cons, He, Hf, Hd. reflexivity.
Qed.

(* the whole decision on a disbanded target: the sender's row and a group's Ban are looked at
   before Disband, so "disbanded channels first" is not the order of the code (C36-K3) *)
Lemma disbanded_decision (f : facts) : checked f = true -> target_disbanded f = true ->
  decide_single f =
  if f_sender_sys f then (ReasonDisband, ENone) else
  first_failing (sender_checks f ++
    [(match f_type f with TGroup => true | _ => false end && negb (f_device_sys f) && r_ban (f_target f),
      (ReasonBan, ENone));
     (true, (ReasonDisband, ENone))]).
Proof.
  intros H1 H2. destruct (checked_inv f H1) as [Hf Hn].
  rewrite single_is_first_failing. unfold spec_decision, precedence. rewrite Hf, Hn.
  destruct (f_sender_sys f); [exact (terminal_disbanded f [] H2)|].
  rewrite !(first_failing_app (sender_checks f)). destruct (existsb fst (sender_checks f)); [reflexivity|].
  destruct (f_device_sys f); [cbn [negb]; rewrite andb_false_r; exact (terminal_disbanded f [] H2)|].
  destruct (f_type f); try apply (terminal_disbanded f _ H2); try exact (terminal_disbanded f [] H2).
  destruct (target_disbanded_inv f H2) as (He & Hfo & Hd).
  unfold group_checks. cbn [app andb negb]. rewrite !first_failing_cons, He, Hfo, Hd. reflexivity.
Qed.

Lemma sig_k3_inv f reason err : sig_k3 f reason err = true ->
  checked f = true /\ target_disbanded f = true /\ (err =? 0) = true
  /\ ((reason =? ReasonSendBan) && negb (f_sender_sys f)
      || (reason =? ReasonBan) && match f_type f with TGroup => true | _ => false end
         && negb (f_sender_sys f) && negb (f_device_sys f)) = true.
Proof.
  unfold sig_k3. intro H. apply andb_true_iff in H. destruct H as [H Hr].
  apply andb_true_iff in H. destruct H as [H He]. apply andb_true_iff in H. destruct H as [H1 H2]. auto.
Qed.

(* so a disbanded target yields Disband unless an earlier check shadows it, and then one of three
   verdicts *)
Lemma disbanded_decision_cases (f : facts) : checked f = true -> target_disbanded f = true ->
  (shadowed f = false /\ decide_single f = (ReasonDisband, ENone))
  \/ (shadowed f = true /\ f_sender_sys f = false /\ r_err (f_sender f) = true
      /\ decide_single f = (ReasonSystemError, EStore))
  \/ (shadowed f = true /\ f_sender_sys f = false /\ decide_single f = (ReasonSendBan, ENone))
  \/ (shadowed f = true /\ f_type f = TGroup /\ f_sender_sys f = false /\ f_device_sys f = false
      /\ decide_single f = (ReasonBan, ENone)).
Proof.
  intros H1 H2. rewrite (disbanded_decision f H1 H2). unfold shadowed, sender_checks.
  cbn [app]. rewrite !first_failing_cons.
  destruct (f_sender_sys f); [rewrite !andb_false_r; auto|]. cbn [negb andb].
  destruct (r_err (f_sender f)); [auto 6|].
  destruct (r_found (f_sender f) && r_sendban (f_sender f)); [auto 6|]. cbn [orb].
  destruct (f_type f); cbn [andb]; auto.
  destruct (f_device_sys f); cbn [negb andb]; [auto|].
  destruct (r_ban (f_target f)); auto 8.
Qed.

(* group: sender send-banned, group banned AND disbanded *)
Definition k3_witness_sendban : facts :=
  Facts TGroup false false false false false false false false false false AgErr false
        (RR true true false false false false false)       (* sender: found, SendBan *)
        (RR true false true true false false false)        (* group: found, Ban, Disband *)
        zero_result zero_result zero_result zero_result zero_result.
Definition k3_witness_ban : facts :=
  Facts TGroup false false false false false false false false false false AgErr false
        (RR true false false false false false false)      (* sender: found, no SendBan *)
        (RR true false true true false false false)        (* group: found, Ban, Disband *)
        zero_result zero_result zero_result zero_result zero_result.
