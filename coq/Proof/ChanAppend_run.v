(* Proof/ChanAppend_run.v — one appendEffect.run against ANY ports satisfying the
   appender contract: AppendBatch only extends the log, with records of the request,
   above everything stored, no sender + client-number pair twice, the successes of an
   Ok reply stored at the reported (id, seq) in request order; an idempotency hit names
   a stored record; lookups leave the log alone.  An error reply may or may not have
   committed; [atomic_failures] (it committed nothing) is used only where stated.
   Result [run_spec]; intermediate [recoveriesAndRetry_spec]. *)
From WK Require Import Base.Base Base.Lists Gen.Consts_C29 Model.ChanAppend Model.ChanAppend_C29
     Proof.ChanAppend_coalesce Proof.ChanAppend_expand.
From Coq Require Import Sorted Permutation.
Open Scope N_scope.

Definition tagof (c : comp) : N := ps_tag (cp_item c).

Record LogOK (log : list prec) : Prop := {
  lo_seqs : NoDup (map pr_seq log);
  lo_keys : forall r r', In r log -> In r' log -> keyed (pr_cmd r) = true ->
            same_key (pr_cmd r) (pr_cmd r') = true -> r = r' }.

(* an admissible extension of [log] by an append of [items] *)
Record ext_ok (log ext : list prec) (items : list psend) : Prop := {
  eo_from : forall r, In r ext -> exists it, In it items /\ pr_tag r = ps_tag it /\ pr_cmd r = ps_cmd it;
  eo_seqs : NoDup (map pr_seq ext);
  eo_above : forall r r', In r log -> In r' ext -> pr_seq r < pr_seq r';
  eo_fresh : forall r r', In r ext -> In r' log -> keyed (pr_cmd r) = true -> same_key (pr_cmd r) (pr_cmd r') = false;
  eo_keys : forall r r', In r ext -> In r' ext -> keyed (pr_cmd r) = true ->
            same_key (pr_cmd r) (pr_cmd r') = true -> r = r' }.

Lemma same_key_eq a b : same_key a b = true <-> c_uid a = c_uid b /\ c_cno a = c_cno b.
Proof. unfold same_key. rewrite andb_true_iff, !bytes_eqb_eq. reflexivity. Qed.

Lemma same_key_sym a b : same_key a b = same_key b a.
Proof. apply eq_true_iff_eq. rewrite !same_key_eq. split; intros [H1 H2]; auto. Qed.

Lemma keyed_fields a b : c_uid a = c_uid b -> c_cno a = c_cno b -> keyed a = keyed b.
Proof. intros E1 E2. unfold keyed. rewrite E1, E2. reflexivity. Qed.

Lemma same_key_keyed a b : same_key a b = true -> keyed a = keyed b.
Proof. intro H. apply same_key_eq in H. apply keyed_fields; apply H. Qed.

Lemma ext_ok_nil log items : ext_ok log [] items.
Proof. constructor; try (intros; contradiction). constructor. Qed.

Lemma LogOK_ext log ext items : LogOK log -> ext_ok log ext items -> LogOK (log ++ ext).
Proof.
  intros [L1 L2] [E1 E2 E3 E4 E5]. constructor.
  - rewrite map_app. apply NoDup_app_intro; auto.
    intros x Hx Hy. apply in_map_iff in Hx. apply in_map_iff in Hy.
    destruct Hx as [r [Er Hr]]. destruct Hy as [r' [Er' Hr']].
    pose proof (E3 r r' Hr Hr'). lia.
  - intros r r' Hr Hr' Hk Hs. apply in_app_iff in Hr. apply in_app_iff in Hr'.
    destruct Hr as [Hr|Hr]; destruct Hr' as [Hr'|Hr'].
    + apply L2; auto.
    + exfalso. rewrite same_key_sym in Hs. rewrite (E4 r' r Hr' Hr) in Hs; [discriminate|].
      rewrite (same_key_keyed _ _ Hs). exact Hk.
    + exfalso. rewrite (E4 r r' Hr Hr' Hk) in Hs. discriminate.
    + apply E5; auto.
Qed.

Lemma ext_ok_mono log ext items items' :
  (forall it, In it items -> In it items') -> ext_ok log ext items -> ext_ok log ext items'.
Proof.
  intros Hsub [E1 E2 E3 E4 E5]. constructor; auto.
  intros r Hr. destruct (E1 r Hr) as [it [H1 H2]]. exists it. split; [apply Hsub; exact H1|exact H2].
Qed.

Lemma ext_ok_app log e1 e2 items :
  LogOK log -> ext_ok log e1 items -> ext_ok (log ++ e1) e2 items -> ext_ok log (e1 ++ e2) items.
Proof.
  intros HL X1 X2. pose proof (LogOK_ext _ _ _ HL X1) as HL1.
  pose proof (LogOK_ext _ _ _ HL1 X2) as HL2. rewrite <- app_assoc in HL2.
  destruct X1 as [A1 A2 A3 A4 A5]. destruct X2 as [B1 B2 B3 B4 B5]. constructor.
  - intros r Hr. apply in_app_iff in Hr. destruct Hr; auto.
  - rewrite map_app. apply NoDup_app_intro; auto.
    intros x Hx Hy. apply in_map_iff in Hx. apply in_map_iff in Hy.
    destruct Hx as [r [Er Hr]]. destruct Hy as [r' [Er' Hr']].
    assert (pr_seq r < pr_seq r') by (apply B3; [apply in_or_app; right; exact Hr|exact Hr']). lia.
  - intros r r' Hr Hr'. apply in_app_iff in Hr'. destruct Hr' as [Hr'|Hr'].
    + apply A3; auto.
    + apply B3; [apply in_or_app; left; exact Hr|exact Hr'].
  - intros r r' Hr Hr' Hk. apply in_app_iff in Hr. destruct Hr as [Hr|Hr].
    + apply A4; auto.
    + apply B4; auto. apply in_or_app. left. exact Hr'.
  - intros r r' Hr Hr' Hk Hs. apply (lo_keys _ HL2); auto; apply in_or_app; right; assumption.
Qed.

Section Run.
  Variable St : Type.
  Variable do_append : St -> areq -> areply * St.
  Variable do_nlookup : St -> bytes -> bytes -> nreply * St.
  Variable hashf : bytes -> N.
  Variable fp : cmd -> N.
  Variable slog : St -> list prec.
  (* the representation invariant the appender keeps on its own log (for the
     message store: sequences are exactly 1, 2, 3, ...) *)
  Variable Wf : list prec -> Prop.

  Definition append_contract : Prop :=
    forall s q rep s', Wf (slog s) -> do_append s q = (rep, s') ->
    exists ext, slog s' = slog s ++ ext /\ Wf (slog s') /\ ext_ok (slog s) ext (q_items q) /\
      match rep with
      | AOk rs =>
          (forall i it a, nth_error (q_items q) i = Some it -> nth_error rs i = Some a -> a_err a = 0 ->
                          In (PRec (a_seq a) (a_id a) (ps_tag it) (ps_cmd it)) ext)
          /\ (forall i j ai aj, (i < j)%nat -> nth_error rs i = Some ai -> nth_error rs j = Some aj ->
                                a_err ai = 0 -> a_err aj = 0 -> a_seq ai < a_seq aj)
      | AErr cls => cls <> 0
      end.

  Definition lookup_contract : Prop :=
    forall s u c rep s', do_nlookup s u c = (rep, s') ->
    slog s' = slog s /\
    match rep with
    | NHit id sq ph => exists r, In r (slog s) /\ pr_id r = id /\ pr_seq r = sq
                                 /\ c_uid (pr_cmd r) = u /\ c_cno (pr_cmd r) = c /\ ph = hashf (c_pay (pr_cmd r))
    | NMiss => True
    | NErr cls => cls <> 0
    end.

  (* an error reply committed nothing *)
  Definition atomic_failures : Prop :=
    forall s q cls s', do_append s q = (AErr cls, s') -> slog s' = slog s.

  Hypothesis Happ : append_contract.
  Hypothesis Hlook : lookup_contract.

  (* a success names a record of [log] with the item's sender and client number: its own,
     or for a keyed item one with the same payload up to the payload hash *)
  Definition backed (log : list prec) (c : comp) : Prop :=
    is_success (cp_res c) = true ->
    exists r, In r log /\ pr_seq r = r_seq (cp_res c) /\ pr_id r = r_id (cp_res c)
      /\ c_uid (pr_cmd r) = c_uid (ps_cmd (cp_item c)) /\ c_cno (pr_cmd r) = c_cno (ps_cmd (cp_item c))
      /\ ((pr_tag r = tagof c /\ c_pay (pr_cmd r) = c_pay (ps_cmd (cp_item c)))
          \/ (keyed (ps_cmd (cp_item c)) = true
              /\ (c_pay (pr_cmd r) = c_pay (ps_cmd (cp_item c))
                  \/ hashf (c_pay (pr_cmd r)) = hashf (c_pay (ps_cmd (cp_item c)))
                  \/ hashf (c_pay (ps_cmd (cp_item c))) = 0))).

  (* where a unique completion comes from.  [log0]: the log before the run;
     [ext]: what the run appended. 
     In [OFound], with atomic failures the failed first append stored nothing, so a
     hit is a record from before the run: the only place where [atomic_failures] enters. *)
  Inductive origin (log0 ext : list prec) (c : comp) : Prop :=
  | OFail : is_success (cp_res c) = false -> cp_committed c = false -> origin log0 ext c
  | OStored : cp_committed c = true -> is_success (cp_res c) = true ->
              In (PRec (r_seq (cp_res c)) (r_id (cp_res c)) (tagof c) (ps_cmd (cp_item c))) ext ->
              origin log0 ext c
  | OFound : forall r, cp_committed c = false -> is_success (cp_res c) = true ->
              In r (log0 ++ ext) -> (atomic_failures -> In r log0) ->
              pr_seq r = r_seq (cp_res c) -> pr_id r = r_id (cp_res c) ->
              c_uid (pr_cmd r) = c_uid (ps_cmd (cp_item c)) -> c_cno (pr_cmd r) = c_cno (ps_cmd (cp_item c)) ->
              keyed (ps_cmd (cp_item c)) = true ->
              (hashf (c_pay (pr_cmd r)) = hashf (c_pay (ps_cmd (cp_item c))) \/ hashf (c_pay (ps_cmd (cp_item c))) = 0) ->
              origin log0 ext c.

  Lemma origin_mono log0 e1 e2 c : origin log0 e1 c -> origin log0 (e1 ++ e2) c.
  Proof.
    intros [H1 H2|H1 H2 H3|r H1 H2 H3 H4 H5 H6 H7 H8 H9 H10].
    - apply OFail; assumption.
    - apply OStored; auto. apply in_or_app. left. exact H3.
    - apply (OFound _ _ _ r); auto. rewrite app_assoc. apply in_or_app. left. exact H3.
  Qed.

  Lemma origin_backed log0 ext c : origin log0 ext c -> backed (log0 ++ ext) c.
  Proof.
    intros [H1 H2|H1 H2 H3|r H1 H2 H3 H4 H5 H6 H7 H8 H9 H10] Hs.
    - congruence.
    - eexists. split; [apply in_or_app; right; exact H3|]. cbn [pr_seq pr_id pr_cmd pr_tag].
      split; [reflexivity|]. split; [reflexivity|]. split; [reflexivity|]. split; [reflexivity|].
      left. split; reflexivity.
    - exists r. split; [exact H3|]. split; [exact H5|]. split; [exact H6|]. split; [exact H7|]. split; [exact H8|].
      right. split; [exact H9|]. right. exact H10.
  Qed.

  Lemma errcomp_fail it cls : cls <> 0 -> is_success (cp_res (errcomp it cls)) = false.
  Proof.
    intro H. unfold errcomp, is_success. cbn [cp_res r_err]. apply N.eqb_neq in H. rewrite H. reflexivity.
  Qed.

  Lemma lookup_spec s c rep s' :
    lookupIdempotentSend St do_nlookup hashf s c = (rep, s') ->
    slog s' = slog s /\
    match rep with
    | LHit id sq => keyed c = true /\ exists r, In r (slog s) /\ pr_id r = id /\ pr_seq r = sq
                      /\ c_uid (pr_cmd r) = c_uid c /\ c_cno (pr_cmd r) = c_cno c
                      /\ (hashf (c_pay (pr_cmd r)) = hashf (c_pay c) \/ hashf (c_pay c) = 0)
    | _ => True
    end.
  Proof.
    unfold lookupIdempotentSend, LookupSend.
    destruct (is_nil (c_cno c)) eqn:Ec.
    { intro H. inversion H; subst. auto. }
    destruct (is_nil (c_uid c)) eqn:Eu; cbn [orb].
    { intro H. inversion H; subst. auto. }
    destruct (do_nlookup s (c_uid c) (c_cno c)) as [nr s1] eqn:D.
    destruct (Hlook _ _ _ _ _ D) as [L1 L2].
    destruct nr as [id sq ph| |cls].
    - destruct (negb (hashf (c_pay c) =? 0) && negb (ph =? hashf (c_pay c))) eqn:E; intro H; inversion H; subst; split; auto.
      split; [unfold keyed; rewrite Eu, Ec; reflexivity|].
      destruct L2 as [r [R1 [R2 [R3 [R4 [R5 R6]]]]]]. exists r. repeat split; auto.
      apply andb_false_iff in E. destruct E as [E|E].
      + right. apply negb_false_iff in E. apply N.eqb_eq in E. exact E.
      + left. apply negb_false_iff in E. apply N.eqb_eq in E. congruence.
    - intro H; inversion H; subst. auto.
    - intro H; inversion H; subst. auto.
  Qed.

  Definition slot_item (sl : lslot) : psend := match sl with LDone c => cp_item c | LMissed it => it end.

  Lemma E_LOOKUP_nz : E_APPEND_FAILED <> 0. Proof. discriminate. Qed.

  (* decided by a lookup in [cur]: uncommitted; a failure or the record answered *)
  Definition found_ok (cur : list prec) (c : comp) : Prop :=
    cp_committed c = false /\
    (is_success (cp_res c) = false \/
     exists r, is_success (cp_res c) = true /\ In r cur /\ pr_seq r = r_seq (cp_res c) /\ pr_id r = r_id (cp_res c)
       /\ c_uid (pr_cmd r) = c_uid (ps_cmd (cp_item c)) /\ c_cno (pr_cmd r) = c_cno (ps_cmd (cp_item c))
       /\ keyed (ps_cmd (cp_item c)) = true
       /\ (hashf (c_pay (pr_cmd r)) = hashf (c_pay (ps_cmd (cp_item c))) \/ hashf (c_pay (ps_cmd (cp_item c))) = 0)).

  Lemma recovered_found cur it id sq r :
    In r cur -> pr_id r = id -> pr_seq r = sq ->
    c_uid (pr_cmd r) = c_uid (ps_cmd it) -> c_cno (pr_cmd r) = c_cno (ps_cmd it) -> keyed (ps_cmd it) = true ->
    (hashf (c_pay (pr_cmd r)) = hashf (c_pay (ps_cmd it)) \/ hashf (c_pay (ps_cmd it)) = 0) ->
    found_ok cur (recovered_comp it id sq).
  Proof.
    intros. split; [reflexivity|]. right. exists r. unfold recovered_comp, is_success.
    cbn [cp_res cp_item r_err r_reason r_seq r_id]. rewrite N.eqb_refl. cbn. repeat split; auto.
  Qed.

  Lemma errcomp_found cur it cls : cls <> 0 -> found_ok cur (errcomp it cls).
  Proof. intro H. split; [reflexivity|]. left. apply errcomp_fail. exact H. Qed.

  Lemma lookup_err_nz s c cls s' :
    lookupIdempotentSend St do_nlookup hashf s c = (LErr cls, s') -> cls <> 0.
  Proof.
    unfold lookupIdempotentSend, LookupSend.
    destruct (is_nil (c_cno c)); [discriminate|].
    destruct (is_nil (c_uid c) || false) eqn:E; [discriminate|].
    destruct (do_nlookup s (c_uid c) (c_cno c)) as [nr s1] eqn:D.
    destruct nr as [id sq ph| |e].
    - destruct (negb (hashf (c_pay c) =? 0) && negb (ph =? hashf (c_pay c))); discriminate.
    - discriminate.
    - intro H. inversion H; subst. destruct (Hlook _ _ _ _ _ D) as [_ L2]. exact L2.
  Qed.

  Lemma lookup_all_spec : forall items s slots rec s',
    lookup_all St do_nlookup hashf s items = (slots, rec, s') ->
    slog s' = slog s /\ map slot_item slots = items
    /\ Forall (fun sl => match sl with LDone c => found_ok (slog s) c | LMissed _ => True end) slots.
  Proof.
    induction items as [|it r IH]; intros s slots rec s' H; cbn [lookup_all] in H.
    - inversion H; subst. repeat split; constructor.
    - destruct (lookupIdempotentSend St do_nlookup hashf s (ps_cmd it)) as [rep s1] eqn:L.
      destruct (lookup_all St do_nlookup hashf s1 r) as [[slots2 rec2] s2] eqn:R.
      destruct (lookup_spec _ _ _ _ L) as [L1 L2].
      destruct (IH _ _ _ _ R) as [I1 [I2 I3]]. rewrite L1 in I1, I3.
      destruct rep as [id sq| |e]; inversion H; subst; clear H; cbn [map slot_item cp_item recovered_comp errcomp].
      + split; [exact I1|]. split; [try rewrite I2; reflexivity|]. constructor; [|exact I3].
        destruct L2 as [K [rr [R1 [R2 [R3 [R4 [R5 R6]]]]]]]. eapply recovered_found; eauto.
      + split; [exact I1|]. split; [try rewrite I2; reflexivity|]. constructor; [exact I|exact I3].
      + split; [exact I1|]. split; [try rewrite I2; reflexivity|]. constructor; [|exact I3].
        apply errcomp_found. eapply lookup_err_nz; eauto.
  Qed.

  Lemma reason_not_success cls : reasonForAppendError cls <> c29_reason_success.
  Proof.
    unfold reasonForAppendError.
    destruct (cls =? E_CHANNEL_NOT_FOUND); [discriminate|].
    destruct ((cls =? E_NOT_LEADER) || (cls =? E_STALE_ROUTE) || (cls =? E_ROUTE_NOT_READY)); discriminate.
  Qed.

  Lemma arc_origin log0 pre items rs ext :
    (forall i it a, nth_error items i = Some it -> nth_error rs i = Some a -> a_err a = 0 ->
                    In (PRec (a_seq a) (a_id a) (ps_tag it) (ps_cmd it)) ext) ->
    Forall (origin log0 (pre ++ ext)) (appendResultCompletions items rs).
  Proof.
    intros Hst. apply Forall_forall. intros c Hin.
    apply In_nth_error in Hin. destruct Hin as [i Hi].
    assert (Hlt : (i < length items)%nat).
    { rewrite <- (arc_length items rs). apply nth_error_Some. congruence. }
    destruct (nth_error items i) as [it|] eqn:E; [|apply nth_error_None in E; lia].
    rewrite (arc_nth_error _ rs _ _ E) in Hi. inversion Hi; subst c. clear Hi.
    unfold arc_one. destruct (nth_error rs i) as [a|] eqn:Er.
    - destruct (a_err a =? 0) eqn:Ea.
      + apply N.eqb_eq in Ea. apply OStored; [reflexivity| |].
        * unfold is_success. cbn [cp_res r_err r_reason]. rewrite !N.eqb_refl. reflexivity.
        * apply in_or_app. right. unfold tagof. cbn [cp_res cp_item r_seq r_id]. eapply Hst; eauto.
      + apply OFail; [|reflexivity]. unfold is_success. cbn [cp_res r_err r_reason].
        pose proof (reason_not_success (a_err a)) as Hn. apply N.eqb_neq in Hn. rewrite Hn. apply andb_false_r.
    - apply OFail; [|reflexivity]. apply errcomp_fail. discriminate.
  Qed.

  Definition tag_lt (a b : psend) : Prop := ps_tag a < ps_tag b.

  Lemma sorted_nth (l : list psend) i j :
    StronglySorted tag_lt l -> (i < j)%nat -> (j < length l)%nat ->
    ps_tag (nth i l dflt_psend) < ps_tag (nth j l dflt_psend).
  Proof.
    intro Hs. revert i j. induction Hs as [|x l Hs IH Hall]; intros i j Hij Hj; [cbn in Hj; lia|].
    destruct j as [|j]; [lia|]. destruct i as [|i]; cbn [nth].
    - rewrite Forall_forall in Hall. apply Hall. apply nth_In. cbn in Hj. lia.
    - apply IH; [lia|cbn in Hj; lia].
  Qed.

  Lemma sorted_pos_of_tag (l : list psend) i j :
    StronglySorted tag_lt l -> (i < length l)%nat -> (j < length l)%nat ->
    ps_tag (nth i l dflt_psend) < ps_tag (nth j l dflt_psend) -> (i < j)%nat.
  Proof.
    intros Hs Hi Hj Ht. destruct (Nat.lt_trichotomy i j) as [L|[L|L]]; [exact L| |].
    - subst. lia.
    - pose proof (sorted_nth l j i Hs L Hi). lia.
  Qed.

  Lemma sorted_filter (f : psend -> bool) l : StronglySorted tag_lt l -> StronglySorted tag_lt (filter f l).
  Proof.
    induction 1 as [|x l Hs IH Hall]; cbn [filter]; [constructor|].
    destruct (f x); [|exact IH]. constructor; [exact IH|].
    rewrite Forall_forall in *. intros y Hy. apply filter_In in Hy. apply Hall. tauto.
  Qed.

  (* from one Ok reply ([arc_committed_sorted]) up to the pipeline ([po_order]) *)
  Definition ordered (l : list comp) : Prop :=
    forall c1 c2, In c1 l -> In c2 l -> cp_committed c1 = true -> cp_committed c2 = true ->
                  tagof c1 < tagof c2 -> r_seq (cp_res c1) < r_seq (cp_res c2).

  Lemma arc_committed_sorted s q rs s' :
    Wf (slog s) -> do_append s q = (AOk rs, s') -> StronglySorted tag_lt (q_items q) ->
    ordered (appendResultCompletions (q_items q) rs).
  Proof.
    intros HW D Hs c1 c2 H1 H2 K1 K2 Ht.
    destruct (Happ _ _ _ _ HW D) as [ext [_ [_ [_ [_ Hord]]]]].
    destruct (arc_committed _ _ _ H1 K1) as [i [a [I1 [I2 [I3 I4]]]]].
    destruct (arc_committed _ _ _ H2 K2) as [j [b [J1 [J2 [J3 J4]]]]].
    rewrite I4, J4. cbn [r_seq].
    assert (Hi : (i < length (q_items q))%nat) by (apply nth_error_Some; congruence).
    assert (Hj : (j < length (q_items q))%nat) by (apply nth_error_Some; congruence).
    apply (Hord i j a b); auto.
    apply (sorted_pos_of_tag (q_items q)); auto.
    rewrite (nth_error_nth _ _ dflt_psend I1), (nth_error_nth _ _ dflt_psend J1). exact Ht.
  Qed.

  (* a completion that committed nothing: a failure, or a record found by lookup *)
  Definition uncommitted (log0 ext : list prec) (c : comp) : Prop := origin log0 ext c /\ cp_committed c = false.

  Lemma uncommitted_good log0 ext l :
    (forall c, In c l -> uncommitted log0 ext c) -> Forall (origin log0 ext) l /\ ordered l.
  Proof.
    intro H. split; [apply Forall_forall; intros c Hc; apply H, Hc|].
    intros c1 c2 H1 _ K1. rewrite (proj2 (H c1 H1)) in K1. discriminate.
  Qed.

  Lemma errcomp_uncommitted log0 ext it cls : cls <> 0 -> uncommitted log0 ext (errcomp it cls).
  Proof. intro H. split; [apply OFail; [apply errcomp_fail; exact H|reflexivity]|reflexivity]. Qed.

  Lemma errcomps_items items cls : map cp_item (appendBatchErrorCompletions items cls) = items.
  Proof. unfold appendBatchErrorCompletions. rewrite map_map. apply map_id. Qed.

  Lemma errcomps_uncommitted log0 ext items cls c :
    cls <> 0 -> In c (appendBatchErrorCompletions items cls) -> uncommitted log0 ext c.
  Proof. intros H Hc. apply in_map_iff in Hc. destruct Hc as [it [E _]]. subst c. apply errcomp_uncommitted, H. Qed.

  Lemma found_uncommitted log0 ext cur c :
    found_ok cur c -> (forall r, In r cur -> In r (log0 ++ ext)) ->
    (atomic_failures -> forall r, In r cur -> In r log0) -> uncommitted log0 ext c.
  Proof.
    intros [Hc [Hf|[r [H1 [H2 [H3 [H4 [H5 [H6 [H7 H8]]]]]]]]]] Hsub Hat; (split; [|exact Hc]).
    - apply OFail; assumption.
    - apply (OFound _ _ _ r); auto.
  Qed.

  Lemma fill_err_spec slots cls :
    map cp_item (fill_err slots cls) = map slot_item slots
    /\ forall c, In c (fill_err slots cls) ->
         (In (LDone c) slots) \/ (exists it, In (LMissed it) slots /\ c = errcomp it cls).
  Proof.
    unfold fill_err. split.
    - rewrite map_map. apply map_ext. intros [c|it]; reflexivity.
    - intros c Hc. apply in_map_iff in Hc. destruct Hc as [[c'|it] [E Hin]]; subst.
      + left. exact Hin.
      + right. exists it. auto.
  Qed.

  (* the last round of lookups is the first one with every miss answered by the error *)
  Lemma recover_all_eq cls : forall items s,
    recover_all St do_nlookup hashf s items cls =
    let '(slots, _, s') := lookup_all St do_nlookup hashf s items in (fill_err slots cls, s').
  Proof.
    induction items as [|it r IH]; intro s; cbn [recover_all lookup_all]; [reflexivity|].
    destruct (lookupIdempotentSend St do_nlookup hashf s (ps_cmd it)) as [rep s1]. rewrite IH.
    destruct (lookup_all St do_nlookup hashf s1 r) as [[slots rec] s2]. destruct rep; reflexivity.
  Qed.

  Lemma recover_all_spec items s cls cs s' :
    cls <> 0 ->
    recover_all St do_nlookup hashf s items cls = (cs, s') ->
    slog s' = slog s /\ map cp_item cs = items /\ Forall (found_ok (slog s)) cs.
  Proof.
    intros Hc H. rewrite recover_all_eq in H.
    destruct (lookup_all St do_nlookup hashf s items) as [[slots rec] s1] eqn:LA. inversion H; subst.
    destruct (lookup_all_spec _ _ _ _ _ LA) as [L1 [L2 L3]]. destruct (fill_err_spec slots cls) as [F1 F2].
    split; [exact L1|]. split; [rewrite F1; exact L2|]. rewrite Forall_forall in *.
    intros c Hcc. destruct (F2 c Hcc) as [Hd|[it [_ E]]]; [exact (L3 _ Hd)|subst c; apply errcomp_found, Hc].
  Qed.

  Lemma fill_retry_items : forall slots rc,
    map cp_item rc = filter alive (misses slots) -> map cp_item (fill_retry slots rc) = map slot_item slots.
  Proof.
    induction slots as [|[c0|it] slots IH]; intros rc Hrc; cbn [fill_retry map slot_item]; [reflexivity| |].
    - rewrite (IH rc Hrc). reflexivity.
    - cbn [misses flat_map app filter] in Hrc. fold (misses slots) in Hrc. destruct (alive it).
      + destruct rc as [|c0 rc']; [discriminate|]. inversion Hrc as [[E1 E2]]. cbn [map]. rewrite (IH rc' E2). reflexivity.
      + cbn [map cp_item errcomp]. rewrite (IH rc Hrc). reflexivity.
  Qed.

  Lemma fill_retry_all (P : comp -> Prop) : forall slots rc,
    map cp_item rc = filter alive (misses slots) ->
    (forall c, In (LDone c) slots -> P c) ->
    (forall it, In (LMissed it) slots -> alive it = false -> P (errcomp it (ps_dead it))) ->
    (forall c, In c rc -> P c) ->
    forall c, In c (fill_retry slots rc) -> P c.
  Proof.
    induction slots as [|[c0|it] slots IH]; intros rc Hrc H1 H2 H3 c; cbn [fill_retry]; [intros []| |].
    - intros [<-|Hc]; [apply H1; left; reflexivity|].
      exact (IH rc Hrc (fun c h => H1 c (or_intror h)) (fun i h => H2 i (or_intror h)) H3 c Hc).
    - cbn [misses flat_map app filter] in Hrc. fold (misses slots) in Hrc. destruct (alive it) eqn:A.
      + destruct rc as [|c0 rc']; [discriminate|]. inversion Hrc as [[E1 E2]].
        intros [<-|Hc]; [apply H3; left; reflexivity|].
        exact (IH rc' E2 (fun c h => H1 c (or_intror h)) (fun i h => H2 i (or_intror h)) (fun c h => H3 c (or_intror h)) c Hc).
      + intros [<-|Hc]; [exact (H2 it (or_introl eq_refl) A)|].
        exact (IH rc Hrc (fun c h => H1 c (or_intror h)) (fun i h => H2 i (or_intror h)) H3 c Hc).
  Qed.

  Lemma misses_in slots it : In it (misses slots) <-> In (LMissed it) slots.
  Proof.
    unfold misses. rewrite in_flat_map. split.
    - intros [[c|it'] [H1 H2]]; [contradiction|]. destruct H2 as [H2|[]]. subst. exact H1.
    - intro H. exists (LMissed it). split; [exact H|left; reflexivity].
  Qed.

  Lemma misses_sorted slots : StronglySorted tag_lt (map slot_item slots) -> StronglySorted tag_lt (misses slots).
  Proof.
    induction slots as [|sl slots IH]; intro H; cbn [misses flat_map]; [constructor|].
    cbn [map] in H. inversion H as [|x l Hs Hall]; subst. fold (misses slots).
    destruct sl as [c|it]; cbn [app]; [apply IH; exact Hs|].
    constructor; [apply IH; exact Hs|].
    rewrite Forall_forall in *. intros y Hy. apply Hall. apply misses_in in Hy.
    apply in_map_iff. exists (LMissed y). split; [reflexivity|exact Hy].
  Qed.

  Lemma dead_nz it : alive it = false -> ps_dead it <> 0.
  Proof. unfold alive. intro H. apply N.eqb_neq in H. exact H. Qed.

  (* [log0]: the log before the run; [pre]: what the failed first append committed
     (nothing, if failures are atomic) *)
  Lemma recoveriesAndRetry_spec log0 pre s items cls unique s' :
    Wf (slog s) ->
    slog s = log0 ++ pre -> LogOK (slog s) -> (atomic_failures -> pre = []) -> cls <> 0 ->
    StronglySorted tag_lt items ->
    recoveriesAndRetry St do_append do_nlookup hashf s items cls = (unique, s') ->
    exists e2, slog s' = slog s ++ e2 /\ Wf (slog s') /\ ext_ok (slog s) e2 items
      /\ map cp_item unique = items
      /\ Forall (origin log0 (pre ++ e2)) unique /\ ordered unique.
  Proof.
    intros HW Hlog HL Hat Hcls Hsorted H. unfold recoveriesAndRetry in H.
    (* the branches that append nothing *)
    assert (Hnone : forall s1 u, slog s1 = slog s ->
              map cp_item u = items /\ Forall (origin log0 (pre ++ [])) u /\ ordered u ->
              exists e2, slog s1 = slog s ++ e2 /\ Wf (slog s1) /\ ext_ok (slog s) e2 items
                /\ map cp_item u = items /\ Forall (origin log0 (pre ++ e2)) u /\ ordered u).
    { intros s1 u E1 Hu. exists []. rewrite app_nil_r, E1. auto using ext_ok_nil. }
    destruct (negb (cls =? E_APPEND_FAILED)).
    { inversion H; subst unique s'. apply Hnone; [reflexivity|]. split; [apply errcomps_items|].
      apply uncommitted_good. intro c. apply errcomps_uncommitted. exact Hcls. }
    destruct (lookup_all St do_nlookup hashf s items) as [[slots rec] s1] eqn:LA.
    destruct (lookup_all_spec _ _ _ _ _ LA) as [L1 [L2 L3]].
    (* completions decided by the first round of lookups *)
    assert (Hdone : forall c, In (LDone c) slots -> uncommitted log0 (pre ++ []) c).
    { intros c Hc. rewrite Forall_forall in L3. eapply found_uncommitted; [exact (L3 _ Hc)| |].
      - intros r Hr. rewrite app_nil_r, <- Hlog. exact Hr.
      - intros A r Hr. rewrite Hlog, (Hat A), app_nil_r in Hr. exact Hr. }
    destruct (negb rec).
    { inversion H; subst unique s'. destruct (fill_err_spec slots cls) as [F1 F2].
      apply Hnone; [exact L1|]. split; [rewrite F1; exact L2|]. apply uncommitted_good.
      intros c Hc. destruct (F2 c Hc) as [Hd|[it [_ E]]]; [apply Hdone, Hd|subst c; apply errcomp_uncommitted, Hcls]. }
    set (retryItems := filter alive (misses slots)) in *.
    assert (Hrsub : forall it, In it retryItems -> In it items).
    { intros it Hit. apply filter_In in Hit. destruct Hit as [Hit _]. apply misses_in in Hit.
      rewrite <- L2. apply in_map_iff. exists (LMissed it). auto. }
    assert (Hrsorted : StronglySorted tag_lt retryItems).
    { apply sorted_filter. apply misses_sorted. rewrite L2. exact Hsorted. }
    (* whatever the retry gives for the live misses, the other slots committed nothing *)
    assert (Hfill : forall e2 rc, map cp_item rc = retryItems ->
              Forall (origin log0 (pre ++ e2)) rc /\ ordered rc ->
              map cp_item (fill_retry slots rc) = items
              /\ Forall (origin log0 (pre ++ e2)) (fill_retry slots rc) /\ ordered (fill_retry slots rc)).
    { intros e2 rc Hrc [Go Gd]. split; [rewrite (fill_retry_items slots rc Hrc); exact L2|].
      rewrite Forall_forall in Go.
      assert (Hc : forall c, In c (fill_retry slots rc) -> uncommitted log0 (pre ++ e2) c \/ In c rc).
      { apply (fill_retry_all _ slots rc Hrc); [|intros it _ A; left; apply errcomp_uncommitted, dead_nz, A|auto].
        intros c Hd. left. destruct (Hdone _ Hd) as [O K]. rewrite app_nil_r in O.
        split; [apply origin_mono; exact O|exact K]. }
      split.
      - apply Forall_forall. intros c Hcc. destruct (Hc c Hcc) as [[O _]|Hr]; [exact O|exact (Go c Hr)].
      - intros c1 c2 H1 H2 K1 K2. destruct (Hc c1 H1) as [[_ U]|R1]; [congruence|].
        destruct (Hc c2 H2) as [[_ U]|R2]; [congruence|]. exact (Gd c1 c2 R1 R2 K1 K2). }
    destruct (is_nil retryItems) eqn:Enil.
    { inversion H; subst unique s'. destruct retryItems as [|x l] eqn:ER; [|discriminate].
      apply Hnone; [exact L1|]. apply Hfill; [reflexivity|]. apply uncommitted_good. intros c []. }
    destruct (do_append s1 (appendRequest retryItems c29_recovery_attempt)) as [rep s2] eqn:D.
    assert (HW1 : Wf (slog s1)) by (rewrite L1; exact HW).
    destruct (Happ _ _ _ _ HW1 D) as [e2 [X1 [HW2 [X2 X3]]]]. cbn [appendRequest q_items] in X2, X3.
    rewrite L1 in X1, X2.
    (* the branches after the retry: lookups may follow, the log stays as the retry left it *)
    assert (Hretry : forall s3 rc, slog s3 = slog s2 -> map cp_item rc = retryItems ->
              Forall (origin log0 (pre ++ e2)) rc /\ ordered rc ->
              exists e2, slog s3 = slog s ++ e2 /\ Wf (slog s3) /\ ext_ok (slog s) e2 items
                /\ map cp_item (fill_retry slots rc) = items
                /\ Forall (origin log0 (pre ++ e2)) (fill_retry slots rc) /\ ordered (fill_retry slots rc)).
    { intros s3 rc E3 Hrc G. exists e2. rewrite E3. split; [exact X1|]. split; [exact HW2|].
      split; [exact (ext_ok_mono _ _ _ _ Hrsub X2)|]. apply Hfill; assumption. }
    destruct rep as [rs|cls2].
    - (* the retry was accepted *)
      inversion H; subst unique s'. destruct X3 as [X3 X4].
      apply Hretry; [reflexivity|apply arc_items|]. split.
      + exact (arc_origin log0 pre _ _ e2 X3).
      + intros c1 c2. apply (arc_committed_sorted _ _ _ _ HW1 D Hrsorted).
    - (* the retry failed as well: a last round of lookups *)
      unfold appendBatchErrorCompletionsOrRecoveries in H.
      assert (Hcls2 : cls2 <> 0) by exact X3.
      destruct (negb (cls2 =? E_APPEND_FAILED)).
      + inversion H; subst unique s'. apply Hretry; [reflexivity|apply errcomps_items|].
        apply uncommitted_good. intro c. apply errcomps_uncommitted. exact Hcls2.
      + destruct (recover_all St do_nlookup hashf s2 retryItems cls2) as [rc s3] eqn:RA.
        inversion H; subst unique s'.
        destruct (recover_all_spec _ _ _ _ _ Hcls2 RA) as [R1 [R2 R3]].
        apply Hretry; [exact R1|exact R2|]. apply uncommitted_good. intros c Hc.
        rewrite Forall_forall in R3. eapply found_uncommitted; [exact (R3 _ Hc)| |].
        * intros r Hr. rewrite X1, Hlog, <- app_assoc in Hr. exact Hr.
        * intros A r Hr. rewrite (A _ _ _ _ D), L1, Hlog, (Hat A), app_nil_r in Hr. exact Hr.
  Qed.

  (* a completion of the event: a unique completion itself, or the copy handed to
     a coalesced duplicate of an EARLIER item of the same batch *)
  Inductive eorigin (log0 ext : list prec) (c : comp) : Prop :=
  | EOwn : origin log0 ext c -> eorigin log0 ext c
  | ECopy : forall u, origin log0 ext u -> cp_res c = cp_res u -> cp_committed c = false ->
            ps_cmd (cp_item c) = ps_cmd (cp_item u) -> keyed (ps_cmd (cp_item c)) = true ->
            tagof u < tagof c -> eorigin log0 ext c.

  Lemma perm_filter_split {A} (f : A -> bool) (l : list A) :
    Permutation (filter (fun x => negb (f x)) l ++ filter f l) l.
  Proof.
    induction l as [|x l IH]; cbn [filter app]; [constructor|].
    destruct (f x); cbn [negb app].
    - apply Permutation_sym. apply Permutation_cons_app. apply Permutation_sym. exact IH.
    - constructor. exact IH.
  Qed.

  Lemma sorted_map_pos (l : list psend) (pos : list nat) :
    StronglySorted tag_lt l -> StronglySorted lt pos -> Forall (fun p => (p < length l)%nat) pos ->
    StronglySorted tag_lt (map (fun p => nth p l dflt_psend) pos).
  Proof.
    intros Hl Hp. induction Hp as [|p pos Hp IH Hall]; intro Hb; cbn [map]; [constructor|].
    inversion Hb; subst. constructor; [apply IH; assumption|].
    rewrite Forall_forall in *. intros y Hy. apply in_map_iff in Hy. destruct Hy as [q [E Hq]]. subst y.
    unfold tag_lt. apply sorted_nth; auto.
  Qed.

  Lemma expand_elems active b pos unique c :
    coalesced active b pos -> map cp_item unique = ib_items b -> StronglySorted tag_lt active ->
    In c (expandCompletions b unique) ->
    In c unique \/
    exists u, In u unique /\ cp_res c = cp_res u /\ cp_committed c = false
              /\ ps_cmd (cp_item c) = ps_cmd (cp_item u) /\ keyed (ps_cmd (cp_item c)) = true
              /\ tagof u < tagof c.
  Proof.
    intros C Hu Hs Hin.
    destruct (expand_aligned _ _ _ _ C Hu) as [L Hn].
    apply In_nth with (d := dflt_comp) in Hin. destruct Hin as [i [Hi E]]. rewrite L in Hi.
    rewrite Hn in E by exact Hi. subst c. unfold expanded_at.
    destruct (cz_owner _ _ _ C i Hi) as [p [P1 [P2 P3]]].
    assert (Hlen : length unique = length pos).
    { rewrite <- (map_length cp_item unique), Hu, (cz_items _ _ _ C), map_length. reflexivity. }
    assert (Ho : (owner_of b i < length unique)%nat) by (rewrite Hlen; apply nth_error_Some; congruence).
    set (u := nth (owner_of b i) unique dflt_comp).
    assert (Hui : In u unique) by (apply nth_In; exact Ho).
    assert (Eu : cp_item u = nth p active dflt_psend).
    { unfold u. change dflt_psend with (cp_item dflt_comp) at 1.
      rewrite <- (map_nth cp_item), Hu, (cz_items _ _ _ C).
      rewrite (nth_indep _ _ (nth 0 active dflt_psend)) by (rewrite map_length, <- Hlen; exact Ho).
      change (nth 0 active dflt_psend) with ((fun q => nth q active dflt_psend) 0%nat).
      rewrite map_nth. rewrite (nth_error_nth _ _ 0%nat P1). reflexivity. }
    rewrite (nth_error_nth _ _ 0%nat P1).
    destruct (Nat.eq_dec p i) as [Epi|Epi].
    - subst p. left. rewrite Nat.eqb_refl, andb_true_r. rewrite <- Eu.
      clearbody u. destruct u as [ui ur ua uc ut]. cbn [cp_item cp_res cp_app cp_committed cp_trace] in *. exact Hui.
    - destruct P3 as [P3|[P3 P4]]; [contradiction|].
      right. exists u. assert (Hp : (p < i)%nat) by lia.
      cbn [cp_res cp_committed cp_item]. unfold tagof. cbn [cp_item].
      split; [exact Hui|]. split; [reflexivity|].
      split; [replace (Nat.eqb p i) with false; [apply andb_false_r|symmetry; apply Nat.eqb_neq; lia]|].
      apply sameLogicalSend_eq in P4. unfold cmdat in P4, P3.
      split; [rewrite Eu; symmetry; exact P4|]. split; [exact P3|].
      rewrite Eu. apply sorted_nth; auto.
  Qed.

  Lemma inactive_items items : map cp_item (inactive_comps items) = filter (fun it => negb (alive it)) items.
  Proof. unfold inactive_comps. rewrite map_map. apply map_id. Qed.

  Lemma inactive_origin log0 ext items c : In c (inactive_comps items) -> origin log0 ext c /\ cp_committed c = false.
  Proof.
    unfold inactive_comps. intro H. apply in_map_iff in H. destruct H as [it [E Hit]]. subst c.
    apply filter_In in Hit. destruct Hit as [_ Hd]. apply negb_true_iff in Hd.
    split; [|reflexivity]. apply OFail; [apply errcomp_fail; apply dead_nz; exact Hd|reflexivity].
  Qed.

  Theorem run_spec s e ev s' :
    Wf (slog s) -> LogOK (slog s) -> StronglySorted tag_lt (ef_items e) ->
    run St do_append do_nlookup hashf fp s e = (ev, s') ->
    exists ext, slog s' = slog s ++ ext /\ Wf (slog s') /\ ext_ok (slog s) ext (ef_items e)
      /\ ev_seq ev = ef_seq e
      /\ Permutation (map cp_item (ev_items ev)) (ef_items e)
      /\ Forall (eorigin (slog s) ext) (ev_items ev)
      /\ ordered (ev_items ev).
  Proof.
    intros HW HL Hsorted H. unfold run in H.
    destruct (is_nil (ef_items e)) eqn:En.
    { inversion H; subst ev s'. exists []. rewrite app_nil_r. destruct (ef_items e); [|discriminate].
      cbn [ev_seq ev_items map]. split; [reflexivity|]. split; [exact HW|]. split; [apply ext_ok_nil|]. split; [reflexivity|].
      split; [constructor|]. split; [constructor|]. intros c1 c2 []. }
    rewrite activeAppendItems_correct in H. unfold activeAppendItems_spec in H.
    set (items := ef_items e) in *. set (active := filter alive items) in *.
    assert (Hperm : forall x, map cp_item x = active ->
                     Permutation (map cp_item (inactive_comps items ++ x)) items).
    { intros x Hx. rewrite map_app, inactive_items, Hx. apply perm_filter_split. }
    assert (Hasorted : StronglySorted tag_lt active) by (apply sorted_filter; exact Hsorted).
    destruct (is_nil active) eqn:Ea.
    { inversion H; subst ev s'. exists []. rewrite app_nil_r. cbn [ev_seq ev_items].
      split; [reflexivity|]. split; [exact HW|]. split; [apply ext_ok_nil|]. split; [reflexivity|].
      split.
      { specialize (Hperm [] ltac:(destruct active; [reflexivity|discriminate])).
        rewrite app_nil_r in Hperm. exact Hperm. }
      split.
      { apply Forall_forall. intros c Hc. apply EOwn. eapply inactive_origin; eauto. }
      intros c1 c2 H1 _ K1. rewrite (proj2 (inactive_origin (slog s) [] _ _ H1)) in K1. discriminate. }
    set (b := newIdempotentAppendBatch hashf fp active) in *.
    destruct (nb_coalesced hashf fp active) as [pos C]. fold b in C.
    set (X := ib_items b) in *.
    assert (HXsorted : StronglySorted tag_lt X).
    { unfold X. rewrite (cz_items _ _ _ C). apply sorted_map_pos; [exact Hasorted|apply (cz_sorted _ _ _ C)|apply (cz_bound _ _ _ C)]. }
    assert (HXsub : forall it, In it X -> In it items).
    { intros it Hit. unfold X in Hit. rewrite (cz_items _ _ _ C) in Hit. apply in_map_iff in Hit.
      destruct Hit as [p [E Hp]]. subst it.
      assert (Hb : (p < length active)%nat).
      { pose proof (cz_bound _ _ _ C) as B. rewrite Forall_forall in B. apply B. exact Hp. }
      pose proof (nth_In active dflt_psend Hb) as Hin. apply filter_In in Hin. tauto. }
    destruct (do_append s (appendRequest X c29_initial_attempt)) as [rep s1] eqn:D.
    destruct (Happ _ _ _ _ HW D) as [e1 [X1 [HW1 [X2 X3]]]]. cbn [appendRequest q_items] in X2, X3.
    (* everything the event carries, from the unique completions *)
    assert (Hfinish : forall ext unique,
      map cp_item unique = X -> Forall (origin (slog s) ext) unique /\ ordered unique ->
      Permutation (map cp_item (inactive_comps items ++ expandCompletions b unique)) items
      /\ Forall (eorigin (slog s) ext) (inactive_comps items ++ expandCompletions b unique)
      /\ ordered (inactive_comps items ++ expandCompletions b unique)).
    { intros ext unique Hu [Ho Hord].
      split; [apply Hperm; apply (expand_items _ _ _ _ C Hu)|].
      assert (Hel : forall c, In c (expandCompletions b unique) ->
                    eorigin (slog s) ext c /\ (cp_committed c = true -> In c unique)).
      { intros c Hc. rewrite Forall_forall in Ho.
        destruct (expand_elems _ _ _ _ _ C Hu Hasorted Hc) as [Hin|[u [U1 [U2 [U3 [U4 [U5 U6]]]]]]].
        - split; [apply EOwn; apply Ho; exact Hin|auto].
        - split; [eapply ECopy; eauto|]. intro K. congruence. }
      split.
      - apply Forall_forall. intros c Hc. apply in_app_iff in Hc. destruct Hc as [Hc|Hc].
        + apply EOwn. eapply inactive_origin; eauto.
        + apply Hel. exact Hc.
      - intros c1 c2 H1 H2 K1 K2 Ht. apply in_app_iff in H1. apply in_app_iff in H2.
        destruct H1 as [H1|H1]; [rewrite (proj2 (inactive_origin (slog s) ext _ _ H1)) in K1; discriminate|].
        destruct H2 as [H2|H2]; [rewrite (proj2 (inactive_origin (slog s) ext _ _ H2)) in K2; discriminate|].
        apply Hord; auto; apply Hel; auto. }
    destruct rep as [rs|cls].
    - inversion H; subst ev s'. clear H. cbn [ev_seq ev_items]. exists e1.
      split; [exact X1|]. split; [exact HW1|]. split; [eapply ext_ok_mono; [exact HXsub|exact X2]|]. split; [reflexivity|].
      destruct X3 as [X3 X4].
      apply Hfinish; [apply arc_items|]. split.
      + exact (arc_origin (slog s) [] _ _ e1 X3).
      + intros c1 c2. apply (arc_committed_sorted _ _ _ _ HW D HXsorted).
    - destruct (recoveriesAndRetry St do_append do_nlookup hashf s1 X cls) as [unique s2] eqn:R.
      inversion H; subst ev s'. clear H. cbn [ev_seq ev_items].
      assert (HL1 : LogOK (slog s1)) by (rewrite X1; eapply LogOK_ext; eauto).
      destruct (recoveriesAndRetry_spec (slog s) e1 _ _ _ _ _ HW1 X1 HL1
                  (fun A => app_inv_head _ e1 [] (eq_trans (eq_trans (eq_sym X1) (A _ _ _ _ D)) (eq_sym (app_nil_r _)))) X3 HXsorted R)
        as [e2 [Y1 [YW [Y2 [Y3 Y4]]]]].
      exists (e1 ++ e2). split; [rewrite Y1, X1, app_assoc; reflexivity|].
      split; [exact YW|]. split.
      { eapply ext_ok_mono; [exact HXsub|]. apply ext_ok_app; auto. rewrite <- X1. exact Y2. }
      split; [reflexivity|].
      apply Hfinish; auto.
  Qed.

  Lemma backed_mono log log' c : (forall r, In r log -> In r log') -> backed log c -> backed log' c.
  Proof.
    intros Hsub Hb Hs. destruct (Hb Hs) as [r [R1 R2]]. exists r. split; [apply Hsub; exact R1|exact R2].
  Qed.

  Lemma eorigin_backed log0 ext c : eorigin log0 ext c -> backed (log0 ++ ext) c.
  Proof.
    intros [O|u O E1 E2 E3 E4 E5]; [apply origin_backed; exact O|].
    intro Hs. rewrite E1 in Hs. destruct (origin_backed _ _ _ O Hs) as [r [R1 [R2 [R3 [R4 [R5 R6]]]]]].
    exists r. rewrite E1, E3. split; [exact R1|]. split; [exact R2|]. split; [exact R3|].
    split; [exact R4|]. split; [exact R5|].
    right. rewrite <- E3. split; [exact E4|]. rewrite E3.
    destruct R6 as [[_ R6]|[_ R6]]; [left; exact R6|exact R6].
  Qed.

  Lemma eorigin_committed log0 ext c :
    eorigin log0 ext c -> cp_committed c = true ->
    is_success (cp_res c) = true
    /\ In (PRec (r_seq (cp_res c)) (r_id (cp_res c)) (tagof c) (ps_cmd (cp_item c))) ext.
  Proof.
    intros [O|u O E1 E2 E3 E4 E5] K; [|congruence].
    destruct O as [H1 H2|H1 H2 H3|r H1 H2 H3 H4 H5 H6 H7 H8 H9 H10]; try congruence. auto.
  Qed.

  (* with atomic failures, a success whose record carries the item's own tag is a
     committed completion (the record was appended by this very effect) *)
  Lemma eorigin_fresh log0 ext c :
    atomic_failures -> NoDup (map pr_seq (log0 ++ ext)) ->
    (forall r, In r log0 -> pr_tag r <> tagof c) ->
    eorigin log0 ext c -> is_success (cp_res c) = true ->
    forall r, In r (log0 ++ ext) -> pr_seq r = r_seq (cp_res c) -> pr_tag r = tagof c ->
    cp_committed c = true.
  Proof.
    intros A Hnd Hfresh Ho Hs r Hr Hseq Htag.
    pose proof (fun r' Hr' => NoDup_map_inj pr_seq _ r' r Hnd Hr' Hr) as Huniq.
    destruct Ho as [O|u O E1 E2 E3 E4 E5].
    - destruct O as [H1 H2|H1 H2 H3|r0 H1 H2 H3 H4 H5 H6 H7 H8 H9 H10]; [congruence|exact H1|].
      exfalso. assert (r0 = r) by (apply Huniq; [exact H3|congruence]). subst r0.
      apply (Hfresh r (H4 A)). exact Htag.
    - exfalso. rewrite E1 in Hs, Hseq.
      destruct O as [H1 H2|H1 H2 H3|r0 H1 H2 H3 H4 H5 H6 H7 H8 H9 H10]; [congruence| |].
      + assert (PRec (r_seq (cp_res u)) (r_id (cp_res u)) (tagof u) (ps_cmd (cp_item u)) = r)
          by (apply Huniq; [apply in_or_app; right; exact H3|cbn [pr_seq]; congruence]).
        subst r. cbn [pr_tag] in Htag. lia.
      + assert (r0 = r) by (apply Huniq; [exact H3|congruence]). subst r0.
        apply (Hfresh r (H4 A)). exact Htag.
  Qed.
End Run.
