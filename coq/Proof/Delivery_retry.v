(* Proof/Delivery_retry.v — pushWithRetry: every retry pushes exactly the
   previous Retryable set (the same routes again after an error); the monitor's
   walk over one owner's attempts accepts what run_batches produces and finds
   the first attempt of every batch. *)
From WK Require Import Base.Base Base.Lists Gen.Consts_C31 Model.Delivery Model.Delivery_C31 Proof.Delivery_local.
From Coq Require Import Permutation.
Open Scope N_scope.

Definition orc_ok (orc : list oout) : Prop := forall l, In (OLocal l) orc -> no_reject l.

Lemma orc_ok_tl orc : orc_ok orc -> orc_ok (orc_tl orc).
Proof. destruct orc; simpl; [auto|]. unfold orc_ok. simpl. intros H l Hl. apply H. right. exact Hl. Qed.

Lemma orc_ok_hd orc : orc_ok orc -> no_reject (oracle_local (orc_hd orc)).
Proof.
  destruct orc as [|oo t]; simpl; [intros _ []|].
  intros H. destruct oo as [l|]; simpl; [apply H; left; reflexivity| intros []].
Qed.

Lemma bounded_pos_pos v d : 0 < d -> (0 < bounded_pos v d)%nat.
Proof. unfold bounded_pos. destruct (Z.leb_spec v 0); lia. Qed.

Lemma c_retry_pos c : (0 < c_retry c)%nat.
Proof. apply bounded_pos_pos. unfold c31_default_retry_attempts. lia. Qed.

Lemma c_batch_pos c : (0 < c_batch c)%nat.
Proof. apply bounded_pos_pos. unfold c31_default_push_batch. lia. Qed.

Lemma ltb_0_nlen {A} (l : list A) : (0 <? nlen l) = negb (is_nil l).
Proof. destruct l; [reflexivity|]. unfold nlen. simpl. apply N.ltb_lt. lia. Qed.

Record att_facts (c : cfg) (ev : event) (o : N) (rs : list route) (oo : oout) (a : attempt) (cx1 : bool) : Prop := {
  af_owner : a_owner a = o;
  af_local : a_local a = (o =? c_local c);
  af_routes : a_routes a = rs;
  af_obs : a_obs a = obs_of rs (a_acc a) (a_retry a) (a_drop a) (a_err a);
  af_cx : cx1 = att_cancel a;
  af_loc : a_local a = true ->
           a_err a = 0
           /\ a_writes a = l_writes (lspec (c_has_writer c) (e_msgid ev) o rs (oracle_local oo) false)
           /\ a_retry a = l_retry (lspec (c_has_writer c) (e_msgid ev) o rs (oracle_local oo) false)
           /\ a_acc a = l_acc (lspec (c_has_writer c) (e_msgid ev) o rs (oracle_local oo) false)
           /\ a_drop a = l_drop (lspec (c_has_writer c) (e_msgid ev) o rs (oracle_local oo) false)
           /\ cx1 = l_cx (lspec (c_has_writer c) (e_msgid ev) o rs (oracle_local oo) false);
  (* a remote attempt without error leaves to retry part of what it pushed, or what the port reported *)
  af_rem : a_local a = false -> a_err a = 0 ->
           incl (a_retry a) rs \/ exists acc drop, oo = ORemote acc (a_retry a) drop 0 }.

Arguments af_owner {_ _ _ _ _ _ _}.
Arguments af_local {_ _ _ _ _ _ _}.
Arguments af_routes {_ _ _ _ _ _ _}.
Arguments af_obs {_ _ _ _ _ _ _}.
Arguments af_cx {_ _ _ _ _ _ _}.
Arguments af_loc {_ _ _ _ _ _ _}.
Arguments af_rem {_ _ _ _ _ _ _}.

Lemma lspec_cx_cancel hw msgid o rs orc :
  no_reject orc ->
  l_cx (lspec hw msgid o rs orc false) = existsb w_cancel (l_writes (lspec hw msgid o rs orc false)).
Proof.
  intros NR. destruct hw.
  - exact (proj1 (proj2 (lspec_writer msgid o rs orc NR))).
  - destruct (lspec_nowriter msgid o rs orc NR) as (A & _ & C & _). rewrite A, C. reflexivity.
Qed.

(* stated for a live context only: pushWithRetry never attempts with an ended one *)
Lemma do_attempt_facts {c ev o rs oo a cx1} :
  do_attempt c ev o rs oo false = (a, cx1) -> o <> 0 ->
  no_reject (oracle_local oo) ->
  att_facts c ev o rs oo a cx1.
Proof.
  intros E Ho NR. unfold do_attempt in E.
  destruct (o =? c_local c) eqn:Hl.
  - apply N.eqb_eq in Hl. unfold local_attempt in E. rewrite pushOwnerLocal_eq in E.
    assert (G : (c_local c =? 0) || (o =? 0) || negb (o =? c_local c) = false).
    { rewrite <- Hl. rewrite N.eqb_refl. apply N.eqb_neq in Ho. rewrite Ho. reflexivity. }
    rewrite G in E. inversion E; subst a cx1; clear E.
    constructor; cbn [a_owner a_local a_routes a_obs a_acc a_retry a_drop a_err a_writes].
    + reflexivity.
    + symmetry. apply N.eqb_eq. exact Hl.
    + reflexivity.
    + reflexivity.
    + unfold att_cancel. cbn [a_writes]. apply lspec_cx_cancel. exact NR.
    + intros _. split; [reflexivity|]. auto.
    + discriminate.
  - destruct (negb (c_has_remote c)); [|destruct oo as [l|acc retry drop err]; [|destruct (err =? 2)]];
      inversion E; subst a cx1;
      constructor; cbn [a_owner a_local a_routes a_obs a_acc a_retry a_drop a_err a_writes]; auto;
      try discriminate; intros _ He.
    + left. apply incl_refl.
    + left. intros x [].
    + right. rewrite He. eauto.
Qed.

(* the attempt returned no error and nothing to retry: pushWithRetry returns nil *)
Definition att_done (a : attempt) : bool := (a_err a =? 0) && is_nil (a_retry a).

(* the loop of pushWithRetry goes on exactly when the owner push was observed
   with routes left to retry *)
Lemma att_more_spec {c ev o rs oo a cx1} :
  att_facts c ev o rs oo a cx1 -> rs <> [] -> att_more a = negb (att_done a).
Proof.
  intros F Hrs. unfold att_more, att_done. rewrite (af_obs F). unfold obs_of. cbn [nth].
  destruct (a_err a =? 0); simpl.
  - apply ltb_0_nlen.
  - rewrite ltb_0_nlen. destruct rs; [congruence| reflexivity].
Qed.

Definition next_routes (a : attempt) (rs : list route) : list route :=
  if a_err a =? 0 then a_retry a else rs.

Lemma next_routes_nonnil a rs : att_done a = false -> rs <> [] -> next_routes a rs <> [].
Proof.
  unfold att_done, next_routes. destruct (a_err a =? 0); [|auto].
  destruct (a_retry a); [discriminate| discriminate].
Qed.

(* the routes a local attempt on rs is seen to act on: with a session writer its
   valid routes, up to the write during which the context ended; none without *)
Definition local_target (c : cfg) (ev : event) (o : N) (rs : list route) : list route :=
  if c_has_writer c then filter (route_valid (e_msgid ev) o) rs else [].

Lemma local_att_routes {c ev o rs oo a cx1} :
  att_facts c ev o rs oo a cx1 -> a_local a = true -> no_reject (oracle_local oo) ->
  prefix_routes (att_routes a) (local_target c ev o rs) = true
  /\ (att_cancel a = false -> att_routes a = local_target c ev o rs).
Proof.
  intros F Hl NR. destruct (af_loc F Hl) as (_ & Hw & _).
  unfold att_routes, att_cancel, local_target. rewrite Hl, Hw. destruct (c_has_writer c).
  - destruct (lspec_writer (e_msgid ev) o rs _ NR) as (P1 & P2 & P3).
    split; [exact P1|]. rewrite <- P2. exact (fun H => proj1 (P3 H)).
  - destruct (lspec_nowriter (e_msgid ev) o rs _ NR) as (-> & _). auto.
Qed.

(* what an uncancelled local attempt leaves to retry is the target of the next one *)
Lemma local_retryset {c ev o rs oo a} :
  att_facts c ev o rs oo a false -> a_local a = true -> no_reject (oracle_local oo) ->
  att_retryset a = local_target c ev o (next_routes a rs).
Proof.
  intros F Hl NR. destruct (af_loc F Hl) as (He & Hw & Hr & _ & _ & Hc).
  unfold att_retryset, next_routes, local_target. rewrite Hl, He, Hw, Hr. cbn [N.eqb].
  destruct (c_has_writer c).
  - destruct (lspec_writer (e_msgid ev) o rs _ NR) as (_ & _ & W3).
    destruct (W3 (eq_sym Hc)) as [_ ->]. symmetry. apply filter_all.
    intros x Hx. apply in_map_iff in Hx. destruct Hx as (w & <- & Hw0). apply filter_In in Hw0.
    exact (proj2 (lspec_writes _ _ _ _ _ _ _ (proj1 Hw0))).
  - destruct (lspec_nowriter (e_msgid ev) o rs _ NR) as (-> & _). reflexivity.
Qed.

Lemma retry_rel_next c ev o rs oo a oo' a' cx2 :
  att_facts c ev o rs oo a false ->
  att_facts c ev o (next_routes a rs) oo' a' cx2 ->
  no_reject (oracle_local oo) -> no_reject (oracle_local oo') ->
  retry_rel a a' = true.
Proof.
  intros F F' NR NR'. unfold retry_rel.
  assert (Hl : a_local a = a_local a') by (rewrite (af_local F), (af_local F'); reflexivity).
  destruct (a_local a') eqn:Hl'.
  - rewrite (local_retryset F Hl NR). destruct (local_att_routes F' Hl' NR') as [P E].
    destruct (att_cancel a'); [exact P| rewrite (E eq_refl); apply routes_eqb_refl].
  - unfold att_retryset. rewrite Hl, (af_routes F'), (af_routes F).
    unfold next_routes. destruct (a_err a =? 0); apply routes_eqb_refl.
Qed.

Lemma walk_retry maxa k p a Y :
  att_more p = true -> (k < maxa)%nat -> retry_rel p a = true ->
  walk maxa k (Some p) (a :: Y) = walk maxa (S k) (Some a) Y.
Proof.
  intros Hm Hk Hr. cbn [walk]. rewrite Hm, (proj2 (Nat.ltb_lt _ _) Hk), Hr.
  destruct (walk maxa (S k) (Some a) Y); reflexivity.
Qed.

Section Batch.
Variables (c : cfg) (ev : event) (o : N).
Hypothesis Ho : o <> 0.

(* pwr n rs orc l orc' cx': pushWithRetry, entered with the context alive and n > 0
   attempts allowed, makes the attempts l and leaves the oracle orc' and the context cx'.
   The loop ends with an attempt that left nothing to retry, was the last one allowed,
   or saw the context end. *)
Inductive pwr : nat -> list route -> list oout -> list attempt -> list oout -> bool -> Prop :=
| pwr_last n rs orc a cx1 :
    do_attempt c ev o rs (orc_hd orc) false = (a, cx1) ->
    att_done a = true \/ n = O \/ cx1 = true ->
    pwr (S n) rs orc [a] (orc_tl orc) cx1
| pwr_more n rs orc a l orc' cx' :
    do_attempt c ev o rs (orc_hd orc) false = (a, false) ->
    att_done a = false ->
    pwr n (next_routes a rs) (orc_tl orc) l orc' cx' ->
    pwr (S n) rs orc (a :: l) orc' cx'.

Lemma pwr_intro : forall n rs orc l st orc' cx', (0 < n)%nat ->
  pushWithRetry c ev o n rs orc false = (l, st, orc', cx') -> pwr n rs orc l orc' cx'.
Proof.
  induction n as [|n IH]; intros rs orc l st orc' cx' Hn E; [destruct (Nat.nlt_0_r _ Hn)|]. cbn [pushWithRetry] in E.
  destruct (do_attempt c ev o rs (orc_hd orc) false) as [a cx1] eqn:Ea.
  change ((a_err a =? 0) && is_nil (a_retry a)) with (att_done a) in E.
  destruct (att_done a) eqn:D; [injection E as <- _ <- <-; apply pwr_last; auto|].
  destruct n as [|m]; [injection E as <- _ <- <-; apply pwr_last; auto|].
  destruct cx1; [injection E as <- _ <- <-; apply pwr_last; auto|].
  destruct (pushWithRetry c ev o (S m) _ (orc_tl orc) false) as [[[l2 st2] orc2] cx2] eqn:E2.
  injection E as <- _ <- <-. apply pwr_more; [exact Ea| exact D|]. apply (IH _ _ _ _ _ _ (Nat.lt_0_succ m) E2).
Qed.

Lemma pwr_cases n rs orc cx l st orc' cx' :
  pushWithRetry c ev o n rs orc cx = (l, st, orc', cx') ->
  (l = [] /\ orc' = orc /\ cx' = cx) \/ (cx = false /\ pwr n rs orc l orc' cx').
Proof.
  destruct n as [|n]; [intros [= <- _ <- <-]; auto|].
  destruct cx; [intros [= <- _ <- <-]; auto|].
  intros E. right. split; [reflexivity| exact (pwr_intro _ _ _ _ _ _ _ (Nat.lt_0_succ n) E)].
Qed.

Lemma pushWithRetry_orc_ok n b orc cx l st1 orc1 cx1 :
  pushWithRetry c ev o n b orc cx = (l, st1, orc1, cx1) -> orc_ok orc -> orc_ok orc1.
Proof.
  intros E. destruct (pwr_cases _ _ _ _ _ _ _ _ E) as [(_ & -> & _)|[_ R]]; [auto|].
  clear E. induction R as [|? ? ? ? ? ? ? _ _ _ IH]; intros OK; [|apply IH]; apply orc_ok_tl; exact OK.
Qed.

(* why the monitor's walk takes the attempt after the last one of a batch as a first one *)
Lemma batch_end_not_retry rs oo a cx1 n k (rest : list attempt) :
  att_facts c ev o rs oo a cx1 -> rs <> [] ->
  att_done a = true \/ n = O \/ cx1 = true -> (k + n = c_retry c)%nat ->
  (cx1 = true -> rest = []) ->
  rest <> [] -> att_more a && (k <? c_retry c)%nat = false.
Proof.
  intros F Hrs [D|[->| ->]] Hk Hrest Hne.
  - rewrite (att_more_spec F Hrs), D. reflexivity.
  - rewrite (proj2 (Nat.ltb_ge _ _)) by lia. apply andb_false_r.
  - destruct (Hne (Hrest eq_refl)).
Qed.

(* l: the attempts of a batch after an attempt p of it that left routes to retry.  The walk,
   coming from p with k attempts of the batch counted, takes every attempt of l as a retry of
   its predecessor (retry_rel) and stands at the last attempt p' of l, k' attempts counted.
   If attempts of a further batch follow (rest), the walk will not take them for retries of p'. *)
Lemma walk_batch_tail n rs orc l orc' cx' :
  pwr n rs orc l orc' cx' ->
  forall oo0 rs0 p k rest,
  orc_ok orc -> rs <> [] ->
  att_facts c ev o rs0 oo0 p false -> no_reject (oracle_local oo0) ->
  rs = next_routes p rs0 ->
  att_more p = true -> (k + n = c_retry c)%nat ->
  (cx' = true -> rest = []) ->
  exists k' p',
    walk (c_retry c) k (Some p) (l ++ rest) = walk (c_retry c) k' (Some p') rest
    /\ (rest <> [] -> att_more p' && (k' <? c_retry c)%nat = false)
    /\ cx' = existsb att_cancel l
    /\ Forall (fun a => a_owner a = o) l.
Proof.
  induction 1 as [n rs orc a cx1 Ea Hlast | n rs orc a l orc' cx' Ea Hnd R IH];
    intros oo0 rs0 p k rest OK Hrs Fp NRp Hnext Hmore Hkn Hrest;
    pose proof (do_attempt_facts Ea Ho (orc_ok_hd _ OK)) as Fa;
    assert (Hrel : retry_rel p a = true)
      by (subst rs; exact (retry_rel_next _ _ _ _ _ _ _ _ _ Fp Fa NRp (orc_ok_hd _ OK)));
    assert (Hk : (k < c_retry c)%nat) by lia;
    cbn [app]; rewrite (walk_retry _ _ _ _ _ Hmore Hk Hrel).
  - exists (S k), a. split; [reflexivity|].
    split; [apply (batch_end_not_retry _ _ _ _ n _ _ Fa Hrs Hlast); [lia| exact Hrest]|].
    split; [cbn [existsb]; rewrite orb_false_r; exact (af_cx Fa)|].
    constructor; [exact (af_owner Fa)| constructor].
  - destruct (IH (orc_hd orc) rs a (S k) rest (orc_ok_tl _ OK) (next_routes_nonnil _ _ Hnd Hrs) Fa
                 (orc_ok_hd _ OK) eq_refl) as (k' & p' & W & Wend & Wcx & Wown).
    + rewrite (att_more_spec Fa Hrs), Hnd. reflexivity.
    + lia.
    + exact Hrest.
    + exists k', p'. split; [exact W|]. split; [exact Wend|]. split.
      * cbn [existsb]. rewrite <- (af_cx Fa). exact Wcx.
      * constructor; [exact (af_owner Fa)| exact Wown].
Qed.

(* what the monitor needs to know about the first attempt of a batch *)
Definition first_of (b : list route) (a : attempt) : Prop :=
  a_owner a = o /\ a_local a = (o =? c_local c) /\ obs_routes a = nlen b
  /\ (a_local a = false -> a_routes a = b)
  /\ (a_local a = true -> c_has_writer c = true -> att_cancel a = false ->
      att_routes a = filter (route_valid (e_msgid ev) o) b).

Lemma first_of_attempt b orc a cx1 :
  do_attempt c ev o b (orc_hd orc) false = (a, cx1) -> orc_ok orc -> first_of b a.
Proof.
  intros Ea OK. pose proof (do_attempt_facts Ea Ho (orc_ok_hd _ OK)) as Fa.
  split; [exact (af_owner Fa)|]. split; [exact (af_local Fa)|]. split.
  - unfold obs_routes. rewrite (af_obs Fa). reflexivity.
  - split; [intros _; exact (af_routes Fa)|].
    intros Hl Hw Hc. rewrite (proj2 (local_att_routes Fa Hl (orc_ok_hd _ OK)) Hc).
    unfold local_target. rewrite Hw. reflexivity.
Qed.

(* at (k, prev) the monitor's walk opens a new batch with the next attempt *)
Definition first_cond (k : nat) (prev : option attempt) : Prop :=
  match prev with
  | None => True
  | Some p => att_more p && (k <? c_retry c)%nat = false
  end.

Lemma walk_first k prev a X :
  first_cond k prev ->
  walk (c_retry c) k prev (a :: X)
  = (let '(ok, f) := walk (c_retry c) 1 (Some a) X in (ok, a :: f)).
Proof.
  intros H. cbn [walk]. destruct prev as [p|]; [|reflexivity].
  simpl in H. rewrite H. reflexivity.
Qed.

(* l: all attempts of batch b.  From a position where the walk takes the next attempt as a
   first one (first_cond), it returns the first attempt a1 of l in front of what it returns
   for rest, and stands at the last attempt p' of l with k' attempts counted. *)
Lemma walk_batch n b orc l orc' cx' :
  pwr n b orc l orc' cx' -> n = c_retry c ->
  forall k prev rest,
  orc_ok orc -> b <> [] -> first_cond k prev ->
  (cx' = true -> rest = []) ->
  exists a1 k' p',
    walk (c_retry c) k prev (l ++ rest)
    = (let '(ok, f) := walk (c_retry c) k' (Some p') rest in (ok, a1 :: f))
    /\ first_of b a1
    /\ (rest <> [] -> first_cond k' (Some p'))
    /\ cx' = existsb att_cancel l
    /\ Forall (fun a => a_owner a = o) l.
Proof.
  intros R. destruct R as [n rs orc a cx1 Ea Hlast | n rs orc a l orc' cx' Ea Hnd R];
    intros Hn k prev rest OK Hb Hfirst Hrest;
    pose proof (do_attempt_facts Ea Ho (orc_ok_hd _ OK)) as Fa;
    cbn [app]; rewrite walk_first by exact Hfirst.
  - exists a, 1%nat, a. split; [reflexivity|]. split; [exact (first_of_attempt _ _ _ _ Ea OK)|].
    split; [apply (batch_end_not_retry _ _ _ _ n _ _ Fa Hb Hlast); [lia| exact Hrest]|].
    split; [cbn [existsb]; rewrite orb_false_r; exact (af_cx Fa)|].
    constructor; [exact (af_owner Fa)| constructor].
  - destruct (walk_batch_tail _ _ _ _ _ _ R (orc_hd orc) rs a 1%nat rest (orc_ok_tl _ OK)
                (next_routes_nonnil _ _ Hnd Hb) Fa (orc_ok_hd _ OK) eq_refl)
      as (k' & p' & W & Wend & Wcx & Wown).
    + rewrite (att_more_spec Fa Hb), Hnd. reflexivity.
    + lia.
    + exact Hrest.
    + exists a, k', p'. rewrite W. split; [reflexivity|]. split; [exact (first_of_attempt _ _ _ _ Ea OK)|].
      split; [exact Wend|]. split.
      * cbn [existsb]. rewrite <- (af_cx Fa). exact Wcx.
      * constructor; [exact (af_owner Fa)| exact Wown].
Qed.

Lemma pushWithRetry_cancelled n rs orc :
  (0 < n)%nat -> pushWithRetry c ev o n rs orc true = ([], 5, orc, true).
Proof. destruct n; [intros H; destruct (Nat.nlt_0_r _ H)| reflexivity]. Qed.

Lemma run_batches_cancelled bs orc :
  run_batches c ev o bs orc true = ([], (match bs with [] => 0 | _ => 5 end), true).
Proof.
  destruct bs as [|b bs]; [reflexivity|].
  cbn [run_batches]. rewrite pushWithRetry_cancelled by apply c_retry_pos. reflexivity.
Qed.

Lemma run_batches_walk : forall bs orc k prev atts st cxf,
  run_batches c ev o bs orc false = (atts, st, cxf) ->
  orc_ok orc -> (forall b, In b bs -> b <> []) -> (atts <> [] -> first_cond k prev) ->
  exists firsts,
    walk (c_retry c) k prev atts = (true, firsts)
    /\ cxf = existsb att_cancel atts
    /\ Forall (fun a => a_owner a = o) atts
    /\ (cxf = false -> Forall2 first_of bs firsts).
Proof.
  induction bs as [|b bs IH]; intros orc k prev atts st cxf E OK Hne Hfirst.
  { inversion E; subst. exists []. simpl. auto. }
  cbn [run_batches] in E.
  destruct (pushWithRetry c ev o (c_retry c) b orc false) as [[[l st1] orc1] cx1] eqn:E1.
  pose proof (pwr_intro _ _ _ _ _ _ _ (c_retry_pos c) E1) as R.
  destruct cx1.
  - (* the context is done: runOwner returns, or the remaining batches push nothing *)
    assert (Eq : atts = l /\ cxf = true).
    { destruct (negb (st1 =? 0)); cbn [andb] in E; [|rewrite run_batches_cancelled in E];
        injection E as <- _ <-; rewrite ?app_nil_r; auto. }
    destruct Eq as [-> ->].
    destruct (walk_batch _ _ _ _ _ _ R eq_refl k prev [] OK (Hne b (or_introl eq_refl)))
      as (a1 & k' & p' & W & Hfo & _ & Wcx & Wown); [apply Hfirst; destruct R; discriminate| reflexivity|].
    rewrite app_nil_r in W. exists [a1]. rewrite W. cbn [walk].
    split; [reflexivity|]. split; [exact Wcx|]. split; [exact Wown| discriminate].
  - rewrite andb_false_r in E.
    destruct (run_batches c ev o bs orc1 false) as [[l2 st2] cx2] eqn:E2. injection E as <- _ <-.
    destruct (walk_batch _ _ _ _ _ _ R eq_refl k prev l2 OK (Hne b (or_introl eq_refl)))
      as (a1 & k' & p' & W & Hfo & Wend & Wcx & Wown);
      [apply Hfirst; destruct R; discriminate| discriminate|].
    destruct (IH orc1 k' (Some p') l2 st2 cx2 E2 (pushWithRetry_orc_ok _ _ _ _ _ _ _ _ E1 OK)
                 (fun b0 Hb0 => Hne b0 (or_intror Hb0)) Wend) as (f2 & W2 & Wcx2 & Wown2 & Wf2).
    exists (a1 :: f2). rewrite W, W2.
    split; [reflexivity|].
    split; [rewrite existsb_app, <- Wcx; exact Wcx2|].
    split; [apply Forall_app; split; assumption|].
    intros Hc. constructor; [exact Hfo| exact (Wf2 Hc)].
Qed.

End Batch.
