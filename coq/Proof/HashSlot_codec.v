(* Proof/HashSlot_codec.v — DecodeHashSlotTable (Encode t) = t for every table
   whose fields fit their wire widths and whose migrations belong to hash slots of
   the table; that invariant holds for NewHashSlotTable and is preserved by every
   mutator. *)
From WK Require Import Base.Base Base.Lists Base.Bytes Gen.Consts_C20 Model.HashSlot Proof.HashSlot_table.
From Coq Require Import ZifyBool ZifyN ZifyNat Sorting.Sorted.
Open Scope N_scope.

Definition u64 (x : N) : Prop := x < 256 ^ 8.
Definition mig_ok (m : migration) : Prop :=
  m_hs m < 256 ^ 2 /\ m_phase m < 256 /\ u64 (m_src m) /\ u64 (m_tgt m).
Definition mig_lt (a b : migration) : Prop := m_hs a < m_hs b.

(* what Encode needs to be loss-free; [co_owned] (every migration on a hash slot of the table) with
   [co_sorted] gives fewer than 2^16 migrations, so the u16 migration count is exact *)
Record codec_ok (t : table) : Prop := {
  co_wf : wf t;
  co_count : t_count t < 256 ^ 2;
  co_version : u64 (t_version t);
  co_assign : Forall u64 (t_assign t);
  co_migs : Forall mig_ok (t_migs t);
  co_sorted : StronglySorted mig_lt (t_migs t);
  co_owned : Forall (fun m => m_hs m < t_count t) (t_migs t)
}.

Lemma get_assign_put l : forall rest, Forall u64 l ->
  get_assign (length l) (flat_map put_u64 l ++ rest) = Some (l, rest).
Proof.
  induction l as [|x l IH]; intros rest H; cbn [length get_assign flat_map]; [reflexivity|].
  inversion H; subst. rewrite <- app_assoc. unfold put_u64 at 1.
  rewrite get_be_put by assumption. rewrite IH by assumption. reflexivity.
Qed.

Lemma put_u8_small x : x < 256 -> put_u8 x = [x].
Proof.
  intro H. unfold put_u8, be_put. cbn [le_put rev app]. rewrite N.mod_small by exact H. reflexivity.
Qed.

Lemma enc_mig_length m : length (enc_mig m) = 20%nat.
Proof.
  unfold enc_mig, put_u16, put_u8, put_u64. rewrite !app_length, !be_put_length. reflexivity.
Qed.

Lemma flat_enc_mig_length ms : N.of_nat (length (flat_map enc_mig ms)) = N.of_nat (length ms) * 20.
Proof.
  induction ms as [|m ms IH]; cbn [flat_map length]; [reflexivity|].
  rewrite app_length, enc_mig_length. lia.
Qed.

Lemma get_migs_put ms : forall acc, Forall mig_ok ms ->
  get_migs (length ms) (flat_map enc_mig ms) acc = fold_left (fun a m => mig_put m a) ms acc.
Proof.
  induction ms as [|m ms IH]; intros acc H; cbn [length get_migs flat_map fold_left]; [reflexivity|].
  inversion H as [|? ? [H1 [H2 [H3 H4]]] Hr]; subst.
  unfold enc_mig at 1. rewrite <- !app_assoc. unfold put_u16.
  rewrite get_be_put by exact H1. rewrite (put_u8_small _ H2). cbn [app].
  unfold put_u64. rewrite get_be_put by exact H3. rewrite get_be_put by exact H4.
  rewrite IH by exact Hr. destruct m; reflexivity.
Qed.

Lemma mig_put_last m : forall acc, Forall (fun a => mig_lt a m) acc -> mig_put m acc = acc ++ [m].
Proof.
  induction acc as [|x acc IH]; intro H; cbn [mig_put app]; [reflexivity|].
  inversion H; subst. unfold mig_lt in *.
  destruct (m_hs m <? m_hs x) eqn:E1; [lia|]. destruct (m_hs m =? m_hs x) eqn:E2; [lia|].
  rewrite IH by assumption. reflexivity.
Qed.

Lemma fold_put_sorted ms : forall acc, StronglySorted mig_lt ms ->
  (forall a m, In a acc -> In m ms -> mig_lt a m) ->
  fold_left (fun a m => mig_put m a) ms acc = acc ++ ms.
Proof.
  induction ms as [|m ms IH]; intros acc S H; cbn [fold_left]; [rewrite app_nil_r; reflexivity|].
  inversion S as [|? ? S' F]; subst.
  rewrite mig_put_last.
  - rewrite IH; [rewrite <- app_assoc; reflexivity|exact S'|].
    intros a x Ia Ix. apply in_app_or in Ia. destruct Ia as [Ia|[Ia|[]]].
    + apply H; [exact Ia|right; exact Ix].
    + subst a. rewrite Forall_forall in F. apply F. exact Ix.
  - apply Forall_forall. intros a Ia. apply H; [exact Ia|left; reflexivity].
Qed.

(* strictly ascending hash slots in [lo, n): at most n - lo migrations (the max covers ms = [] with n < lo) *)
Lemma sorted_below_length ms : forall lo n, StronglySorted mig_lt ms ->
  Forall (fun m => lo <= m_hs m < n) ms -> N.of_nat (length ms) + lo <= N.max lo n.
Proof.
  induction ms as [|m ms IH]; intros lo n S F; cbn [length]; [lia|].
  inversion S as [|? ? S' G]; subst. inversion F as [|? ? Hm Fr]; subst.
  specialize (IH (m_hs m + 1) n S').
  assert (Forall (fun x => m_hs m + 1 <= m_hs x < n) ms) as Q.
  { rewrite Forall_forall in *. intros x Ix. specialize (G x Ix). specialize (Fr x Ix). unfold mig_lt in G. lia. }
  specialize (IH Q). lia.
Qed.

Lemma put_u16_two_bytes x : exists a b, put_u16 x = [a; b].
Proof. unfold put_u16, be_put. cbn [le_put rev app]. eexists. eexists. reflexivity. Qed.

Lemma decode_encode t : codec_ok t -> decode_hash_slot_table (encode t) = Some t.
Proof.
  intros [W C V A M S O]. unfold encode, decode_hash_slot_table.
  unfold put_u16 at 1. rewrite get_be_put by (unfold enc_version; lia).
  unfold put_u16 at 1. rewrite get_be_put by exact C.
  unfold put_u64 at 1. rewrite get_be_put by exact V.
  assert (E1 : (enc_version =? 1) = false) by reflexivity.
  rewrite E1, N.eqb_refl. cbn [orb negb].
  assert (L : N.to_nat (t_count t) = length (t_assign t)) by (unfold wf in W; lia).
  rewrite L, get_assign_put by exact A.
  assert (LM : N.of_nat (length (t_migs t)) < 256 ^ 2).
  { pose proof (sorted_below_length (t_migs t) 0 (t_count t) S) as B.
    assert (Forall (fun m => 0 <= m_hs m < t_count t) (t_migs t)) as Q.
    { rewrite Forall_forall in *. intros x Ix. specialize (O x Ix). lia. }
    specialize (B Q). lia. }
  (* what follows the assignment starts with the 2-byte migration count, so it is not []: show a cons
     for the decoder's match to reduce, then fold back *)
  destruct (put_u16_two_bytes (N.of_nat (length (t_migs t)))) as [a [b Eab]].
  remember (put_u16 (N.of_nat (length (t_migs t))) ++ flat_map enc_mig (t_migs t)) as r4 eqn:R4.
  assert (NE : exists x y, r4 = x :: y) by (rewrite R4, Eab; cbn [app]; eexists; eexists; reflexivity).
  destruct NE as [x [y Exy]]. rewrite Exy. rewrite <- Exy, R4.
  unfold put_u16. rewrite get_be_put by exact LM.
  rewrite flat_enc_mig_length, N.eqb_refl.
  rewrite Nnat.Nat2N.id, get_migs_put by exact M.
  rewrite fold_put_sorted; [|exact S|intros ? ? []]. cbn [app].
  destruct t; reflexivity.
Qed.

(* whatever DecodeHashSlotTable accepts has count-many assignment entries *)
Lemma decode_wf data t : decode_hash_slot_table data = Some t -> wf t.
Proof.
  assert (GA : forall n bs l r, get_assign n bs = Some (l, r) -> length l = n).
  { induction n as [|n IH]; intros bs l r H; cbn [get_assign] in H; [inversion H; reflexivity|].
    destruct (get_be 8 bs) as [[v r1]|]; [|discriminate]. destruct (get_assign n r1) as [[l1 r2]|] eqn:G; [|discriminate].
    inversion H; subst. cbn [length]. rewrite (IH _ _ _ G). reflexivity. }
  unfold decode_hash_slot_table. intro H.
  destruct (get_be 2 data) as [[ver r1]|]; [|discriminate].
  destruct (get_be 2 r1) as [[count r2]|]; [|discriminate].
  destruct (get_be 8 r2) as [[version r3]|]; [|discriminate].
  destruct (negb ((ver =? 1) || (ver =? enc_version))); [discriminate|].
  destruct (get_assign (N.to_nat count) r3) as [[assign r4]|] eqn:G; [|discriminate].
  pose proof (GA _ _ _ _ G) as L.
  assert (WF : forall migs, wf (Tbl version count assign migs)) by (intro; unfold wf; cbn [t_assign t_count]; lia).
  destruct (ver =? 1).
  - destruct r4; [inversion H; apply WF|discriminate].
  - destruct r4 as [|b r4']; [inversion H; apply WF|].
    destruct (get_be 2 (b :: r4')) as [[mc r5]|]; [|discriminate].
    destruct (N.of_nat (length r5) =? mc * 20); [inversion H; apply WF|discriminate].
Qed.

Lemma repeat_Forall_u64 n : Forall u64 (repeat 0 n).
Proof. apply repeat_Forall. unfold u64. lia. Qed.

Lemma new_fill_u64 fuel : forall i base rem, i + N.of_nat fuel < 256 ^ 8 ->
  Forall u64 (new_fill fuel i base rem).
Proof.
  induction fuel as [|f IH]; intros i base rem H; cbn [new_fill]; [constructor|].
  apply Forall_app. split; [apply repeat_Forall; unfold u64; lia|apply IH; lia].
Qed.

Lemma new_assign_u64 count phys : count < 256 ^ 2 -> Forall u64 (t_assign (new_hash_slot_table count phys)).
Proof.
  intro Hc. unfold new_hash_slot_table. destruct (_ || _); cbn [t_assign]; [apply repeat_Forall_u64|].
  apply Forall_firstn, Forall_app. split; [apply new_fill_u64; lia|apply repeat_Forall_u64].
Qed.

Lemma new_codec_ok count phys : count < 256 ^ 2 -> codec_ok (new_hash_slot_table count phys).
Proof.
  intro Hc. constructor; rewrite ?new_count, ?new_version, ?new_migs.
  - apply new_wf.
  - exact Hc.
  - unfold u64. lia.
  - apply new_assign_u64, Hc.
  - constructor.
  - constructor.
  - constructor.
Qed.

Lemma bump_u64 v : u64 (bump v).
Proof. unfold u64, bump, wrap64. apply N.mod_lt. lia. Qed.

Lemma upd_codec_ok t a ms : codec_ok t -> length a = length (t_assign t) -> Forall u64 a ->
  Forall mig_ok ms -> StronglySorted mig_lt ms -> Forall (fun m => m_hs m < t_count t) ms -> codec_ok (upd t a ms).
Proof.
  intros [W C _ _ _ _ _] L A M S O. constructor; cbn [upd t_version t_count t_assign t_migs]; try assumption.
  - unfold wf in *. cbn [upd t_assign t_count]. rewrite L. exact W.
  - apply bump_u64.
Qed.

Lemma reassign_codec_ok t hs s : u64 s -> codec_ok t -> codec_ok (reassign t hs s).
Proof.
  intros Hs H. destruct (reassign_cases t hs s) as [->|(_ & _ & ->)]; [exact H|].
  apply upd_codec_ok; [exact H|apply set_nth_length|apply Forall_set_nth; [exact (co_assign t H)|exact Hs]
                      |exact (co_migs t H)|exact (co_sorted t H)|exact (co_owned t H)].
Qed.

Lemma mig_put_sorted m : forall ms, StronglySorted mig_lt ms -> StronglySorted mig_lt (mig_put m ms).
Proof.
  induction ms as [|x r IH]; intro S; cbn [mig_put].
  - constructor; constructor.
  - inversion S as [|? ? S' F]; subst. unfold mig_lt in *.
    destruct (m_hs m <? m_hs x) eqn:E1.
    + constructor; [exact S|]. constructor; [unfold mig_lt; lia|].
      rewrite Forall_forall in *. intros y Iy. specialize (F y Iy). unfold mig_lt in *. lia.
    + destruct (m_hs m =? m_hs x) eqn:E2.
      * constructor; [exact S'|]. rewrite Forall_forall in *. intros y Iy. specialize (F y Iy).
        unfold mig_lt in *. lia.
      * constructor; [apply IH; exact S'|]. apply Forall_forall. intros y Iy.
        destruct (in_mig_put _ _ _ Iy) as [Q|Q]; [subst y; unfold mig_lt; lia|].
        rewrite Forall_forall in F. apply F. exact Q.
Qed.

Lemma mig_del_sorted hs : forall ms, StronglySorted mig_lt ms -> StronglySorted mig_lt (mig_del hs ms).
Proof.
  induction ms as [|x r IH]; intro S; cbn [mig_del]; [constructor|].
  inversion S as [|? ? S' F]; subst. destruct (m_hs x =? hs); [apply IH; exact S'|].
  constructor; [apply IH; exact S'|]. apply Forall_forall. intros y Iy.
  rewrite Forall_forall in F. apply F. apply (in_mig_del _ _ _ Iy).
Qed.

Lemma start_codec_ok t hs a b : u64 a -> u64 b -> codec_ok t -> codec_ok (start_migration t hs a b).
Proof.
  intros Ha Hb H. destruct (start_cases t hs a b) as [->|(L & _ & _ & _ & _ & _ & ->)]; [exact H|].
  assert (Hh : hs < t_count t) by (pose proof (co_wf t H); unfold alen, wf in *; lia). pose proof (co_count t H).
  apply upd_codec_ok; [exact H|reflexivity|exact (co_assign t H)| |apply mig_put_sorted, (co_sorted t H)|].
  - apply Forall_mig_put; [|exact (co_migs t H)]. unfold mig_ok. cbn [m_hs m_phase m_src m_tgt].
    split; [lia|]. split; [unfold PhaseSnapshot; lia|]. split; assumption.
  - apply Forall_mig_put; [exact Hh|exact (co_owned t H)].
Qed.

Lemma advance_codec_ok t hs ph : ph < 256 -> codec_ok t -> codec_ok (advance_migration t hs ph).
Proof.
  intros Hp H. destruct (advance_cases t hs ph) as [->|(m & F & _ & ->)]; [exact H|].
  destruct (Forall_mig_find _ _ _ _ (co_migs t H) F) as (Q1 & _ & Q3 & Q4).
  apply upd_codec_ok; [exact H|reflexivity|exact (co_assign t H)| |apply mig_put_sorted, (co_sorted t H)|].
  - apply Forall_mig_put; [|exact (co_migs t H)]. repeat split; assumption.
  - apply Forall_mig_put; [|exact (co_owned t H)]. apply (Forall_mig_find _ _ _ _ (co_owned t H) F).
Qed.

Lemma finalize_codec_ok t hs : codec_ok t -> codec_ok (finalize_migration t hs).
Proof.
  intro H. destruct (finalize_cases t hs) as [->|(m & F & ->)]; [exact H|].
  apply upd_codec_ok; [exact H| | |apply Forall_mig_del, (co_migs t H)|apply mig_del_sorted, (co_sorted t H)
                      |apply Forall_mig_del, (co_owned t H)].
  - destruct (hs <? alen t); [apply set_nth_length|reflexivity].
  - destruct (hs <? alen t); [|exact (co_assign t H)]. apply Forall_set_nth; [exact (co_assign t H)|].
    apply (Forall_mig_find _ _ _ _ (co_migs t H) F).
Qed.

Lemma abort_codec_ok t hs : codec_ok t -> codec_ok (abort_migration t hs).
Proof.
  intro H. destruct (abort_cases t hs) as [->|(m & _ & ->)]; [exact H|].
  apply upd_codec_ok; [exact H|reflexivity|exact (co_assign t H)|apply Forall_mig_del, (co_migs t H)
                      |apply mig_del_sorted, (co_sorted t H)|apply Forall_mig_del, (co_owned t H)].
Qed.

Lemma apply_plan_codec_ok p : forall t, Forall (fun m => u64 (mv_to m)) p -> codec_ok t -> codec_ok (apply_plan t p).
Proof.
  unfold apply_plan. induction p as [|m p IH]; intros t Hp H; cbn [fold_left]; [exact H|].
  inversion Hp; subst. apply IH; [assumption|]. apply reassign_codec_ok; assumption.
Qed.
