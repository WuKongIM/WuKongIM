(* Proof/Backup_import.v — C11 (uses Backup): the streaming importers.
   - what they accept is a sealed, completely framed stream;
   - every truncation of an accepted stream is rejected and leaves the target untouched;
   - two sealed streams with the same trailer have the same payload or exhibit a checksum
     collision; a corrupted trailer is rejected;
   - rejection during validation never touches the target, and on an empty target an
     uncancelled import that validated installs completely: every section exactly as read. *)
From WK Require Import Base.Base Base.Bytes Base.Lists Gen.Consts_C11 Model.Backup Proof.Backup.
From Coq Require Import ZifyBool.
Open Scope N_scope.

Lemma bytes_ltb_irrefl : forall a, bytes_ltb a a = false.
Proof.
  induction a as [|x a IH]; [reflexivity|]. cbn [bytes_ltb]. rewrite N.ltb_irrefl, N.eqb_refl, IH. reflexivity.
Qed.

Lemma bytes_ltb_trans : forall a b c, bytes_ltb a b = true -> bytes_ltb b c = true -> bytes_ltb a c = true.
Proof.
  induction a as [|x a IH]; intros [|y b] [|z c] H1 H2; try discriminate; [reflexivity|].
  cbn [bytes_ltb] in *. destruct (x <? y) eqn:Lxy, (y <? z) eqn:Lyz, (x =? y) eqn:Exy, (y =? z) eqn:Eyz;
    try discriminate; cbn [orb andb] in *.
  all: try (replace (x <? z) with true by lia; reflexivity).
  replace (x =? z) with true by lia. rewrite (IH _ _ H1 H2). apply orb_true_r.
Qed.

(* [key] may follow a section whose key is [prev] ([] before the first section) *)
Definition above (prev key : bytes) : Prop := prev = [] \/ bytes_ltb prev key = true.

Lemma above_trans prev k key : above prev k -> k <> [] -> above k key -> above prev key /\ key <> k.
Proof.
  intros Hp Hk [E|L]; [contradiction|]. split.
  - destruct Hp as [Hp|Hp]; [left; exact Hp|right; exact (bytes_ltb_trans _ _ _ Hp L)].
  - intros ->. rewrite bytes_ltb_irrefl in L. discriminate.
Qed.

(* the fixed head of a message payload: magic, version, hash slot, declared section count *)
Definition msg_header : reader (N * N) := fun p =>
  match take 4 p with
  | Some (mg, r0) =>
    if negb (bytes_eqb mg msgMagic) then None else
    match get_be 2 r0 with
    | Some (ver, r1) =>
      if negb (ver =? msgVersion) then None else
      match get_be 2 r1 with
      | Some (hs, r2) => match get_be 4 r2 with Some (n, r3) => Some ((hs, n), r3) | None => None end
      | None => None
      end
    | None => None
    end
  | None => None
  end.

Lemma dec_msg_payload_eq p :
  dec_msg_payload p = match msg_header p with
                      | Some ((hs, n), r3) => match dec_chan_list (bounded n r3) r3 with
                                              | Some (cs, r4) => Some (RS hs cs, r4)
                                              | None => None
                                              end
                      | None => None
                      end.
Proof.
  unfold dec_msg_payload, msg_header.
  destruct (take 4 p) as [[mg r0]|]; [|reflexivity]. destruct (negb (bytes_eqb mg msgMagic)); [reflexivity|].
  destruct (get_be 2 r0) as [[ver r1]|]; [|reflexivity]. destruct (negb (ver =? msgVersion)); [reflexivity|].
  destruct (get_be 2 r1) as [[hs r2]|]; [|reflexivity]. destruct (get_be 4 r2) as [[n r3]|]; reflexivity.
Qed.

Lemma be_get_inj a b : all_bytes a = true -> all_bytes b = true -> length a = length b -> be_get a = be_get b -> a = b.
Proof. intros Ha Hb Hl E. rewrite <- (be_put_get a Ha), <- (be_put_get b Hb), Hl, E. reflexivity. Qed.

Section Import.
  Variable ck : bytes -> N.

  Lemma parse_stream_eq install c orc p tgt :
    parse_stream install c orc p tgt =
    match msg_header p with
    | Some ((hs, n), r3) =>
      if maxMessageBackupStreamChannels <? n then (tgt, Err ECorruptValue)
      else match parse_chans install (bounded n r3) c [] orc r3 tgt 0 0 with
           | (tgt', Err e) => (tgt', Err e)
           | (tgt', Ok (c', msgs, maxid, [])) => (tgt', Ok (c', ST hs n msgs maxid))
           | (tgt', Ok (_, _, _, _ :: _)) => (tgt', Err ECorruptValue)
           end
    | None => (tgt, Err ECorruptValue)
    end.
  Proof.
    unfold parse_stream, msg_header.
    destruct (take 4 p) as [[mg r0]|]; [|reflexivity]. destruct (negb (bytes_eqb mg msgMagic)); [reflexivity|].
    destruct (get_be 2 r0) as [[ver r1]|]; [|reflexivity]. destruct (negb (ver =? msgVersion)); [reflexivity|].
    destruct (get_be 2 r1) as [[hs r2]|]; [|reflexivity]. destruct (get_be 4 r2) as [[n r3]|]; reflexivity.
  Qed.

  Lemma parse_chan_header_inv prev bs h r :
    parse_chan_header prev bs = Ok (h, r) ->
    dec_chan_header bs = Some (h, r) /\ rc_key h <> [] /\ above prev (rc_key h).
  Proof.
    unfold parse_chan_header, dec_chan_header.
    destruct (get_field _ bs) as [[key r1]|]; [|discriminate].
    destruct (get_field _ r1) as [[id r2]|]; [|discriminate].
    destruct r2 as [|ty r3]; [discriminate|].
    destruct (bytes_eqb key [] || bytes_eqb id [] || (negb (bytes_eqb prev []) && negb (bytes_ltb prev key))) eqn:Ec;
      [discriminate|].
    destruct (take 24 r3) as [[ckp r4]|]; [|discriminate].
    destruct (get_uvarint r4) as [[nsys r5]|]; [|discriminate].
    destruct (maxMessageBackupSystemEntries <? nsys); [discriminate|].
    destruct (dec_sys_list (bounded nsys r5) r5) as [[sys r6]|]; [|discriminate].
    destruct (negb (forallb _ sys)); [discriminate|].
    destruct (get_uvarint r6) as [[cnt r7]|]; [|discriminate].
    destruct (9223372036854775807 <? cnt); [discriminate|].
    intro H. injection H as <- <-. cbn [rc_key]. split; [reflexivity|].
    apply orb_false_iff in Ec as [Ec Ea]. apply orb_false_iff in Ec as [Ek _].
    split; [intros ->; discriminate|]. unfold above. rewrite <- bytes_eqb_eq.
    destruct (bytes_eqb prev []); [left; reflexivity|right]. apply negb_false_iff. exact Ea.
  Qed.

  Lemma read_rows_inv : forall n c hw prev os bs acc maxid rows c' mx rest,
    read_rows n c hw prev os bs acc maxid = (rows, Ok (c', mx, rest)) ->
    (exists l, dec_row_list n bs = Some (l, rest) /\ rows = rev acc ++ l) /\ (c = None -> c' = None).
  Proof.
    induction n as [|n IH]; intros c hw prev os bs acc maxid rows c' mx rest H; cbn [read_rows] in H.
    - injection H as <- <- <- <-. split; [|trivial]. exists []. rewrite app_nil_r. split; reflexivity.
    - unfold read_row in H. cbn [dec_row_list].
      destruct (ctx_check c) as [c1|] eqn:Ec; [|discriminate].
      destruct (get_be 8 bs) as [[sq r0]|]; [|discriminate].
      destruct ((sq =? 0) || (hw <? sq) || (negb (prev =? 0) && (sq <=? prev))); [discriminate|].
      destruct (get_field maxMessageBackupStreamFieldBytes r0) as [[h r1]|]; [|discriminate].
      destruct (get_field maxMessageBackupStreamFieldBytes r1) as [[p r2]|]; [|discriminate].
      destruct (hd_error os) as [[[[e mid] chan_ok] ident_ok]|]; [|discriminate].
      destruct (negb (e =? 0)); [discriminate|]. destruct (negb chan_ok); [discriminate|].
      destruct (negb ident_ok); [discriminate|].
      apply IH in H as ((l & Hd & Hr) & Hc). rewrite Hd. split.
      + exists (RR sq h p :: l). split; [reflexivity|]. rewrite Hr. cbn [rev]. rewrite <- app_assoc. reflexivity.
      + intros ->. apply Hc. injection Ec as <-. reflexivity.
  Qed.

  Lemma parse_chans_inv : forall install n c prev orc bs tgt msgs maxid tgt' c' m mx rest,
    parse_chans install n c prev orc bs tgt msgs maxid = (tgt', Ok (c', m, mx, rest)) ->
    (exists l, dec_chan_list n bs = Some (l, rest)) /\ (c = None -> c' = None).
  Proof.
    induction n as [|n IH]; intros c prev orc bs tgt msgs maxid tgt' c' m mx rest H; cbn [parse_chans] in H.
    - injection H as <- <- <- <- <-. split; [exists []; reflexivity|trivial].
    - destruct (ctx_check c) as [c1|] eqn:Ec; [|discriminate].
      destruct (parse_chan_header prev bs) as [[h r7]|e] eqn:Eh; [|discriminate].
      apply parse_chan_header_inv in Eh as (Eh & _).
      destruct orc as [|o orc']; [discriminate|].
      destruct (negb (co_valid o =? 0)); [discriminate|].
      destruct (negb (co_ident_err o =? 0)); [discriminate|].
      match type of H with (if ?cf then _ else _) = _ => destruct cf end; [discriminate|].
      destruct (read_rows (bounded (rc_count h) r7) c1 (ckpt_hw (rc_ckpt h)) 0 (co_rows o) r7 [] 0)
        as [rows [[[c2 mx2] rest2]|e]] eqn:Er; [|discriminate].
      apply read_rows_inv in Er as ((l & Hd & _) & Hc2).
      destruct (18446744073709551615 - msgs <? rc_count h); [discriminate|].
      apply IH in H as ((l2 & Hd2) & Hc'). split.
      + cbn [dec_chan_list]. unfold dec_chan. rewrite Eh, Hd, Hd2. eexists. reflexivity.
      + intros ->. apply Hc', Hc2. injection Ec as <-. reflexivity.
  Qed.

  Theorem parse_stream_frames install c orc p tgt tgt' c' st :
    parse_stream install c orc p tgt = (tgt', Ok (c', st)) ->
    exists s, dec_msg_payload p = Some (s, []) /\ rs_hash_slot s = st_hash_slot st.
  Proof.
    rewrite parse_stream_eq, dec_msg_payload_eq.
    destruct (msg_header p) as [[[hs n] r3]|]; [|discriminate].
    destruct (maxMessageBackupStreamChannels <? n); [discriminate|].
    destruct (parse_chans install (bounded n r3) c [] orc r3 tgt 0 0) as [tgt1 [[[[c1 m] mx] rest]|e]] eqn:Ep;
      [|discriminate].
    apply parse_chans_inv in Ep as ((l & ->) & _).
    destruct rest as [|b rest]; [|discriminate].
    intro H. injection H as _ _ <-. eexists. split; reflexivity.
  Qed.

  Theorem import_accepts_framed c orc stream tgt tgt' st :
    import_reader ck c orc stream tgt = (tgt', Ok st) ->
    exists p s, verify_checksum ck stream = Ok p /\ dec_msg_payload p = Some (s, []).
  Proof.
    unfold import_reader.
    destruct (verify_checksum ck stream) as [p|e] eqn:Ev; [|discriminate].
    destruct (parse_stream false c orc p tgt) as [t1 [[c1 st1]|e]] eqn:E1; [|discriminate].
    intros _. apply parse_stream_frames in E1 as (s & Hd & _). exists p, s. split; [reflexivity|exact Hd].
  Qed.

  (* an import that fails before the install pass returns the target it was given *)
  Theorem import_validation_error_untouched c orc stream tgt tgt' e :
    import_reader ck c orc stream tgt = (tgt', Err e) ->
    (verify_checksum ck stream = Err e \/ exists p, verify_checksum ck stream = Ok p /\ snd (parse_stream false c orc p tgt) = Err e) ->
    tgt' = tgt.
  Proof.
    unfold import_reader. intros H [Hv|(p & Hv & Hp)].
    - rewrite Hv in H. inversion H. reflexivity.
    - rewrite Hv in H. destruct (parse_stream false c orc p tgt) as [t1 [[c1 st1]|e1]]; cbn [snd] in Hp; [discriminate|].
      inversion H. reflexivity.
  Qed.

  Lemma verify_checksum_payload stream p :
    verify_checksum ck stream = Ok p -> (16 <= length stream)%nat /\ p = firstn (length stream - 4) stream
                                        /\ ck p = be_get (skipn (length stream - 4) stream).
  Proof.
    unfold verify_checksum. destruct (Nat.ltb (length stream) 16) eqn:El; [discriminate|].
    apply Nat.ltb_ge in El.
    destruct (ck (firstn (length stream - 4) stream) =? be_get (skipn (length stream - 4) stream)) eqn:Ec; [|discriminate].
    intro H. injection H as <-. apply N.eqb_eq in Ec. auto.
  Qed.

  (* every truncation of an accepted stream is rejected, whatever the context, the oracle
     tables and the target are, and the target is returned unchanged *)
  Theorem truncation_rejected c orc stream tgt tgt' st n :
    import_reader ck c orc stream tgt = (tgt', Ok st) -> (n < length stream)%nat ->
    forall c2 orc2 tgt2, exists e, import_reader ck c2 orc2 (firstn n stream) tgt2 = (tgt2, Err e).
  Proof.
    intros Hacc Hn c2 orc2 tgt2.
    apply import_accepts_framed in Hacc as (p & s & Hv & Hd).
    apply verify_checksum_payload in Hv as (Hlen & -> & _).
    unfold import_reader.
    destruct (verify_checksum ck (firstn n stream)) as [p2|e] eqn:Ev2; [|exists e; reflexivity].
    destruct (parse_stream false c2 orc2 p2 tgt2) as [t1 [[c1 st1]|e]] eqn:E1; [|exists e; reflexivity].
    exfalso. apply parse_stream_frames in E1 as (s2 & Hd2 & _).
    apply verify_checksum_payload in Ev2 as (_ & -> & _).
    exact (truncation_unframed 0 _ stream n s reads_msg_payload ltac:(lia) Hn Hd s2 Hd2).
  Qed.

  Definition ck_collision : Prop := exists a b : bytes, a <> b /\ ck a = ck b.

  Theorem same_trailer_same_payload s1 s2 p1 p2 :
    verify_checksum ck s1 = Ok p1 -> verify_checksum ck s2 = Ok p2 ->
    skipn (length s1 - 4) s1 = skipn (length s2 - 4) s2 ->
    p1 = p2 \/ ck_collision.
  Proof.
    intros H1 H2 Ht. apply verify_checksum_payload in H1 as (_ & _ & C1). apply verify_checksum_payload in H2 as (_ & _ & C2).
    destruct (bytes_eq_dec p1 p2) as [E|N]; [left; exact E|].
    right. exists p1, p2. split; [exact N|]. rewrite C1, C2, Ht. reflexivity.
  Qed.

  Theorem trailer_change_rejected p t t' :
    verify_checksum ck (p ++ t) = Ok p -> length t = 4%nat -> length t' = 4%nat ->
    all_bytes t = true -> all_bytes t' = true -> t' <> t ->
    verify_checksum ck (p ++ t') = Err EChecksum.
  Proof.
    intros H Lt Lt' Bt Bt' Hne. apply verify_checksum_payload in H as (Hl & _ & C).
    assert (F : forall x, firstn (length p) (p ++ x) = p).
    { intro x. rewrite firstn_app, firstn_all, Nat.sub_diag. cbn [firstn]. apply app_nil_r. }
    assert (S : forall x, skipn (length p) (p ++ x) = x).
    { intro x. rewrite skipn_app, skipn_all, Nat.sub_diag. reflexivity. }
    rewrite app_length, Lt in Hl, C. replace (length p + 4 - 4)%nat with (length p) in C by lia.
    rewrite S in C.
    unfold verify_checksum. rewrite app_length, Lt'.
    replace (Nat.ltb (length p + 4) 16) with false by lia.
    replace (length p + 4 - 4)%nat with (length p) by lia. rewrite F, S.
    destruct (ck p =? be_get t') eqn:E; [|reflexivity].
    apply N.eqb_eq in E. exfalso. apply Hne. apply be_get_inj; auto; [lia|congruence].
  Qed.

  Definition absent (key : bytes) (tgt : list chan_dump) : Prop := find_dump key tgt = empty_dump key.

  Lemma find_dump_absent key : forall ds, existsb (fun d => bytes_eqb (ch_key d) key) ds = false -> find_dump key ds = empty_dump key.
  Proof.
    induction ds as [|d r IH]; cbn [existsb find_dump]; intro E; [reflexivity|].
    apply orb_false_iff in E as [-> E2]. exact (IH E2).
  Qed.

  Lemma find_dump_insert_other key x : ch_key x <> key -> forall ds, find_dump key (insert_dump x ds) = find_dump key ds.
  Proof.
    intros Hne%bytes_eqb_neq. induction ds as [|d r IH]; cbn [insert_dump find_dump]; [rewrite Hne; reflexivity|].
    destruct (bytes_ltb (ch_key x) (ch_key d)); cbn [find_dump]; [rewrite Hne; reflexivity|].
    destruct (bytes_eqb (ch_key d) key); [reflexivity|exact IH].
  Qed.

  Lemma find_dump_insert_same x : forall ds,
    existsb (fun d => bytes_eqb (ch_key d) (ch_key x)) ds = false -> find_dump (ch_key x) (insert_dump x ds) = x.
  Proof.
    induction ds as [|d r IH]; cbn [existsb insert_dump find_dump]; intro E; [rewrite bytes_eqb_refl; reflexivity|].
    apply orb_false_iff in E as [E1 E2].
    destruct (bytes_ltb (ch_key x) (ch_key d)); cbn [find_dump]; [rewrite bytes_eqb_refl; reflexivity|].
    rewrite E1. exact (IH E2).
  Qed.

  Lemma find_dump_update_other key k f :
    (forall d, ch_key (f d) = ch_key d) -> key <> k ->
    forall tgt, find_dump key (update_dump k f tgt) = find_dump key tgt.
  Proof.
    intros Hf Hne tgt. unfold update_dump.
    destruct (existsb (fun d => bytes_eqb (ch_key d) k) tgt).
    - induction tgt as [|d r IH]; cbn [update_in_place find_dump]; [reflexivity|].
      destruct (bytes_eqb (ch_key d) k) eqn:Ek; cbn [find_dump]; [|rewrite IH; reflexivity].
      apply bytes_eqb_eq in Ek. rewrite Hf.
      replace (bytes_eqb (ch_key d) key) with false; [reflexivity|]. symmetry. apply bytes_eqb_neq. congruence.
    - apply find_dump_insert_other. rewrite Hf. cbn [ch_key empty_dump]. congruence.
  Qed.

  Lemma find_dump_update_same k f :
    (forall d, ch_key (f d) = ch_key d) ->
    forall tgt, find_dump k (update_dump k f tgt) = f (find_dump k tgt).
  Proof.
    intros Hf tgt. unfold update_dump.
    destruct (existsb (fun d => bytes_eqb (ch_key d) k) tgt) eqn:Ex.
    - induction tgt as [|d r IH]; cbn [existsb] in Ex; [discriminate|].
      cbn [update_in_place find_dump]. destruct (bytes_eqb (ch_key d) k) eqn:Ek; cbn [find_dump].
      + rewrite Hf, Ek. reflexivity.
      + rewrite Ek. exact (IH Ex).
    - rewrite (find_dump_absent _ _ Ex).
      assert (Hk : ch_key (f (empty_dump k)) = k) by (rewrite Hf; reflexivity).
      rewrite <- Hk at 1. apply find_dump_insert_same. rewrite Hk. exact Ex.
  Qed.

  (* the two batches of importMessageBackupChannelStream for one section *)
  Definition install_section (c : raw_chan) (tgt : list chan_dump) : list chan_dump :=
    update_dump (rc_key c) (install_rows (rc_rows c)) (update_dump (rc_key c) (install_meta c) tgt).

  Lemma find_install_other key c tgt : key <> rc_key c -> find_dump key (install_section c tgt) = find_dump key tgt.
  Proof. intro Hne. unfold install_section. rewrite !find_dump_update_other by (exact Hne || reflexivity). reflexivity. Qed.

  Lemma find_install_same c tgt :
    find_dump (rc_key c) (install_section c tgt) = install_rows (rc_rows c) (install_meta c (find_dump (rc_key c) tgt)).
  Proof. unfold install_section. rewrite !find_dump_update_same by reflexivity. reflexivity. Qed.

  (* The install pass, run on a target that holds nothing under any key that may still follow,
     repeats the validation pass step by step: no section conflicts,
     because the keys increase and only keys already passed have been written; it leaves
     every section of the stream exactly as read and nothing else changed. *)
  Lemma install_after_validate : forall n prev orc bs tgt0 tgt msgs maxid t1 m mx rest,
    parse_chans false n None prev orc bs tgt0 msgs maxid = (t1, Ok (None, m, mx, rest)) ->
    (forall key, above prev key -> absent key tgt) ->
    exists l tgt', dec_chan_list n bs = Some (l, rest)
      /\ parse_chans true n None prev orc bs tgt msgs maxid = (tgt', Ok (None, m, mx, rest))
      /\ (forall c, In c l -> above prev (rc_key c)
                               /\ find_dump (rc_key c) tgt' = install_rows (rc_rows c) (install_meta c (empty_dump (rc_key c))))
      /\ (forall key, (forall c, In c l -> rc_key c <> key) -> find_dump key tgt' = find_dump key tgt).
  Proof.
    induction n as [|n IH]; intros prev orc bs tgt0 tgt msgs maxid t1 m mx rest H Habs; cbn [parse_chans ctx_check] in *.
    - injection H as _ <- <- <-. exists [], tgt.
      split; [reflexivity|]. split; [reflexivity|]. split; [intros c []|reflexivity].
    - destruct (parse_chan_header prev bs) as [[h r7]|e] eqn:Eh; [|discriminate].
      apply parse_chan_header_inv in Eh as (Hd & Hne & Hab).
      destruct orc as [|o orc']; [discriminate|].
      destruct (negb (co_valid o =? 0)); [discriminate|].
      destruct (negb (co_ident_err o =? 0)); [discriminate|].
      cbn [andb] in H. rewrite (Habs _ Hab). cbn [ch_cat ch_ckpt empty_dump orb andb].
      destruct (read_rows (bounded (rc_count h) r7) None (ckpt_hw (rc_ckpt h)) 0 (co_rows o) r7 [] 0)
        as [rows [[[c2 mx2] rest2]|e]] eqn:Er; [|discriminate].
      apply read_rows_inv in Er as ((lr & Hdr & ->) & Hc2). rewrite (Hc2 eq_refl) in *. cbn [rev app].
      destruct (18446744073709551615 - msgs <? rc_count h); [discriminate|].
      change (update_dump (rc_key h) (install_rows lr) (update_dump (rc_key h) (install_meta h) tgt))
        with (install_section (with_rows h lr) tgt).
      destruct (IH _ _ _ _ (install_section (with_rows h lr) tgt) _ _ _ _ _ _ H) as (l & tgt' & Hdl & Hi & Hin & Hout).
      { intros key Hk. destruct (above_trans _ _ _ Hab Hne Hk) as [Hp Hk']. unfold absent.
        rewrite find_install_other by exact Hk'. exact (Habs _ Hp). }
      exists (with_rows h lr :: l), tgt'.
      split; [cbn [dec_chan_list]; unfold dec_chan; rewrite Hd, Hdr, Hdl; reflexivity|]. split; [exact Hi|].
      assert (Hlater : forall c, In c l -> above prev (rc_key c) /\ rc_key c <> rc_key h).
      { intros c Hc. exact (above_trans _ _ _ Hab Hne (proj1 (Hin c Hc))). }
      split.
      + intros c [<-|Hc]; [|split; [exact (proj1 (Hlater c Hc))|exact (proj2 (Hin c Hc))]].
        split; [exact Hab|]. rewrite Hout by (intros c' Hc; exact (proj2 (Hlater c' Hc))).
        rewrite find_install_same. cbn [rc_key with_rows]. rewrite (Habs _ Hab). reflexivity.
      + intros key Hk. rewrite Hout by (intros c' Hc; apply Hk; right; exact Hc).
        apply find_install_other. intros ->. exact (Hk _ (or_introl eq_refl) eq_refl).
  Qed.

  Lemma stats_eqb_refl st : stats_eqb st st = true.
  Proof. unfold stats_eqb. rewrite !N.eqb_refl. reflexivity. Qed.

  (* ImportBackupSnapshotReader without cancellation, on an empty target ([absent] of every key: no
     catalog row, checkpoint, system entry or row anywhere): either it rejects and returns the target
     untouched, or it succeeds and the target holds every section of the stream as read and nothing
     under any other key *)
  Theorem import_into_absent orc stream tgt tgt' r :
    (forall key, absent key tgt) ->
    import_reader ck None orc stream tgt = (tgt', r) ->
    (exists e, r = Err e /\ tgt' = tgt)
    \/ (exists st p s, r = Ok st /\ verify_checksum ck stream = Ok p /\ dec_msg_payload p = Some (s, [])
          /\ (forall c, In c (rs_chans s) ->
                find_dump (rc_key c) tgt' = install_rows (rc_rows c) (install_meta c (empty_dump (rc_key c))))
          /\ (forall key, (forall c, In c (rs_chans s) -> rc_key c <> key) -> find_dump key tgt' = find_dump key tgt)).
  Proof.
    intros Habs. unfold import_reader.
    destruct (verify_checksum ck stream) as [p|e]; [|intro H; injection H as <- <-; left; eauto].
    destruct (parse_stream false None orc p tgt) as [t1 [[c1 st1]|e]] eqn:E1; [|intro H; injection H as <- <-; left; eauto].
    rewrite parse_stream_eq in E1 |- *. pose proof (dec_msg_payload_eq p) as Edec.
    destruct (msg_header p) as [[[hs n] r3]|]; [|discriminate].
    destruct (maxMessageBackupStreamChannels <? n); [discriminate|].
    destruct (parse_chans false (bounded n r3) None [] orc r3 tgt 0 0) as [t2 [[[[c2 m] mx] rest]|e]] eqn:Ep; [|discriminate].
    pose proof (proj2 (parse_chans_inv _ _ _ _ _ _ _ _ _ _ _ _ _ _ Ep) eq_refl) as ->.
    destruct rest as [|b rest]; [|discriminate]. injection E1 as _ <- <-.
    apply install_after_validate with (tgt := tgt) in Ep as (l & t3 & Hd & -> & Hin & Hout);
      [|intros key _; apply Habs].
    rewrite Hd in Edec. rewrite stats_eqb_refl. intro H. injection H as <- <-. right. exists (ST hs n m mx), p, (RS hs l).
    repeat split; [exact Edec| |exact Hout]. intros c Hc. exact (proj2 (Hin c Hc)).
  Qed.
End Import.

Section MetaImport.
  Variable ck : bytes -> N.

  Lemma validate_entries_frames : forall n c slots bs c' rest,
    validate_entries n c slots bs = Ok (c', rest) ->
    exists l, dec_entry_list n bs = Some (l, rest) /\ forallb (fun e => in_slots slots (fst e)) l = true.
  Proof.
    induction n as [|n IH]; intros c slots bs c' rest H; cbn [validate_entries] in H.
    - injection H as <- <-. exists []. split; reflexivity.
    - destruct (ctx_check c) as [c1|]; [|discriminate].
      cbn [dec_entry_list].
      destruct (dec_entry bs) as [[e r]|]; [|discriminate].
      destruct (in_slots slots (fst e)) eqn:Es; [|discriminate].
      apply IH in H as (l & -> & Hf). exists (e :: l). split; [reflexivity|].
      cbn [forallb]. rewrite Es, Hf. reflexivity.
  Qed.

  Lemma parse_meta_header_frames payload slots cnt body :
    parse_meta_header payload = Ok (slots, cnt, body) ->
    forall es rest, dec_entry_list (bounded cnt body) body = Some (es, rest) ->
    dec_meta_payload payload = Some (RM slots cnt es, rest).
  Proof.
    unfold parse_meta_header, dec_meta_payload.
    destruct (take 4 payload) as [[mg r0]|]; [|discriminate].
    destruct (negb (bytes_eqb mg metaMagic)); [discriminate|].
    destruct (get_be 2 r0) as [[ver r1]|]; [|discriminate].
    destruct (negb (ver =? metaVersion)); [discriminate|].
    destruct (get_be 2 r1) as [[ns r2]|]; [|discriminate].
    destruct (ns =? 0); [discriminate|].
    destruct (dec_u16_list (N.to_nat ns) r2) as [[sl r3]|]; [|discriminate].
    destruct (get_be 8 r3) as [[c r4]|]; [|discriminate].
    destruct (9223372036854775807 <? c); [discriminate|].
    intro H. injection H as <- <- <-. intros es rest ->. reflexivity.
  Qed.

  (* everything importHashSlotSnapshotReader checks before the delete batch; Ok = the slots, the
     declared entry count, the entry bytes, the context after the validation pass *)
  Definition import_meta_validate (c : ctx) (req : list N) (stream : bytes) : res (list N * N * bytes * ctx) :=
    match ctx_check c with
    | None => Err EOther
    | Some c0 =>
      match req with
      | [] => Err EInvalid
      | _ =>
        let slots := normalize_slots req in
        match verify_meta_checksum ck stream with
        | Err e => Err e
        | Ok payload =>
          match parse_meta_header payload with
          | Err e => Err e
          | Ok (sslots, cnt, body) =>
            match validate_entries (bounded cnt body) c0 slots body with
            | Err e => Err e
            | Ok (c1, rest) =>
              match rest with
              | _ :: _ => Err ECorruptValue
              | [] => if negb (list_eqb N.eqb sslots slots) then Err EInvalid else Ok (slots, cnt, body, c1)
              end
            end
          end
        end
      end
    end.

  Lemma import_meta_eq c req preserve invalidate stream db :
    import_meta ck c req preserve invalidate stream db =
    match import_meta_validate c req stream with
    | Err e => (db, Err e)
    | Ok (slots, cnt, body, c1) =>
      match install_entries (bounded cnt body) c1 slots preserve invalidate body
                            (mdb_delete_spans (flat_map (replace_spans preserve) slots) db) [] 0 0 with
      | (db2, Err e) => (db2, Err e)
      | (db2, Ok _) => (db2, Ok cnt)
      end
    end.
  Proof.
    unfold import_meta, import_meta_validate.
    destruct (ctx_check c) as [c0|]; [|reflexivity]. destruct req as [|r0 req']; [reflexivity|].
    destruct (verify_meta_checksum ck stream) as [p|e]; [|reflexivity].
    destruct (parse_meta_header p) as [[[sslots n] body]|e]; [|reflexivity].
    destruct (validate_entries _ c0 _ body) as [[c1 [|b rest]]|e]; try reflexivity.
    destruct (negb (list_eqb N.eqb sslots _)); reflexivity.
  Qed.

  (* what passed validation is a sealed, completely framed stream addressed to the request, whose
     entries all lie in the requested hash slots *)
  Lemma import_meta_validate_inv c req stream slots cnt body c1 :
    import_meta_validate c req stream = Ok (slots, cnt, body, c1) ->
    slots = normalize_slots req
    /\ exists p l c0, verify_meta_checksum ck stream = Ok p /\ dec_meta_payload p = Some (RM slots cnt l, [])
                      /\ validate_entries (bounded cnt body) c0 slots body = Ok (c1, [])
                      /\ forallb (fun e => in_slots slots (fst e)) l = true.
  Proof.
    unfold import_meta_validate.
    destruct (ctx_check c) as [c0|]; [|discriminate]. destruct req as [|r0 req']; [discriminate|].
    destruct (verify_meta_checksum ck stream) as [p|e]; [|discriminate].
    destruct (parse_meta_header p) as [[[sslots n] body0]|e] eqn:Eh; [|discriminate].
    destruct (validate_entries _ c0 _ body0) as [[c1' [|b rest]]|e] eqn:Ev; try discriminate.
    destruct (negb (list_eqb N.eqb sslots _)) eqn:Es; [discriminate|]. intros [= <- <- <- <-].
    apply negb_false_iff, (list_eqb_spec N.eqb N.eqb_eq) in Es as ->. split; [reflexivity|].
    destruct (validate_entries_frames _ _ _ _ _ _ Ev) as (l & Hd & Hf).
    exists p, l, c0. split; [reflexivity|]. split; [exact (parse_meta_header_frames _ _ _ _ Eh _ _ Hd)|]. split; assumption.
  Qed.

  Theorem import_meta_accepts_framed c req preserve invalidate stream db db' cnt :
    import_meta ck c req preserve invalidate stream db = (db', Ok cnt) ->
    exists p s, verify_meta_checksum ck stream = Ok p /\ dec_meta_payload p = Some (s, [])
                /\ rm_slots s = normalize_slots req
                /\ forallb (fun e => in_slots (normalize_slots req) (fst e)) (rm_entries s) = true.
  Proof.
    rewrite import_meta_eq.
    destruct (import_meta_validate c req stream) as [[[[slots n] body] c1]|e] eqn:V; [|discriminate].
    apply import_meta_validate_inv in V as (-> & p & l & c0 & Hv & Hd & _ & Hf).
    destruct (install_entries _ _ _ _ _ _ _ _ _ _) as [db2 [?|?]]; intros [= _ <-].
    exists p, (RM (normalize_slots req) n l). auto.
  Qed.

  (* installing validated entries without token invalidation can only be interrupted *)
  Lemma install_validated slots preserve : forall n c bs d batch ne nb c' rest,
    validate_entries n c slots bs = Ok (c', rest) ->
    forall c2, exists d' r, install_entries n c2 slots preserve false bs d batch ne nb = (d', r)
                            /\ (r = Err EOther \/ exists c3, r = Ok (c3, rest)).
  Proof.
    induction n as [|n IH]; intros c bs d batch ne nb c' rest Hv c2; cbn [validate_entries install_entries] in *.
    - injection Hv as <- <-. eauto 6.
    - destruct (ctx_check c) as [c1|]; [|discriminate].
      destruct (dec_entry bs) as [[[k v] r]|]; [|discriminate].
      cbn [fst] in Hv. destruct (in_slots slots k); [|discriminate].
      destruct (ctx_check c2) as [c3|]; [|eauto 6]. cbn [negb].
      match goal with |- context [if ?b then _ else _] => destruct b end; exact (IH _ _ _ _ _ _ _ _ Hv c3).
  Qed.

  (* an import that is rejected before the delete batch returns the store it was given:
     every error other than one raised while installing entries *)
  Theorem import_meta_rejected_untouched c req preserve stream db db' e :
    import_meta ck c req preserve false stream db = (db', Err e) -> e <> EOther -> db' = db.
  Proof.
    rewrite import_meta_eq.
    destruct (import_meta_validate c req stream) as [[[[slots n] body] c1]|e0] eqn:V; [|intros [= <- _]; reflexivity].
    apply import_meta_validate_inv in V as (_ & _ & _ & c0 & _ & _ & Ev & _).
    destruct (install_validated slots preserve _ _ _ (mdb_delete_spans (flat_map (replace_spans preserve) slots) db) [] 0 0 _ _ Ev c1)
      as (d' & r & -> & [->|(c3 & ->)]); intros H Hne; [injection H as _ <-; contradiction|discriminate].
  Qed.

  Lemma verify_meta_checksum_payload stream p :
    verify_meta_checksum ck stream = Ok p -> (20 <= length stream)%nat /\ p = firstn (length stream - 4) stream.
  Proof.
    unfold verify_meta_checksum. destruct (Nat.ltb (length stream) 20) eqn:El; [discriminate|].
    apply Nat.ltb_ge in El.
    destruct (ck (firstn (length stream - 4) stream) =? be_get (skipn (length stream - 4) stream)); [|discriminate].
    intro H. injection H as <-. auto.
  Qed.

  Theorem meta_truncation_rejected c req preserve invalidate stream db db' cnt n :
    import_meta ck c req preserve invalidate stream db = (db', Ok cnt) -> (n < length stream)%nat ->
    forall c2 req2 pr2 inv2 db2, exists e, import_meta ck c2 req2 pr2 inv2 (firstn n stream) db2 = (db2, Err e).
  Proof.
    intros Hacc Hn c2 req2 pr2 inv2 db2.
    apply import_meta_accepts_framed in Hacc as (p & s & Hv & Hd & _ & _).
    apply verify_meta_checksum_payload in Hv as (Hlen & ->).
    rewrite import_meta_eq.
    destruct (import_meta_validate c2 req2 (firstn n stream)) as [[[[slots m] body] c1]|e] eqn:V; [|eexists; reflexivity].
    exfalso. apply import_meta_validate_inv in V as (_ & p2 & l & _ & Hv2 & Hd2 & _).
    apply verify_meta_checksum_payload in Hv2 as (_ & ->).
    exact (truncation_unframed 0 _ stream n s reads_meta_payload ltac:(lia) Hn Hd _ Hd2).
  Qed.
End MetaImport.
