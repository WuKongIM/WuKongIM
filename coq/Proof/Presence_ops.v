(* Proof/Presence_ops.v — every slot operation keeps the slot invariant and the target; only
   unregisterLocked changes a fence, and only upwards; expireLocked removes exactly the active
   routes that are due (route_due) and counts them *)
From WK Require Import Base.Base Gen.Consts_C33 Model.Presence Proof.AckTracker_map Proof.Presence_map Proof.Presence_inv.
From Coq Require Import Permutation.
Open Scope N_scope.

Lemma registerLocked_keeps s r : SInv s -> keeps s (fst (fst (fst (registerLocked s r)))).
Proof.
  intro I. unfold registerLocked.
  destruct (tombstoned s (makeRouteIdentityKey r) (r_oseq r)) eqn:T; [apply keeps_refl, I|].
  destruct (r_oseq r <? seq_of (makeRouteIdentityKey r) (sl_ownerSeq s)); [apply keeps_refl, I|].
  set (s1 := set_ownerSeq s (makeRouteIdentityKey r) (r_oseq r)).
  assert (K1 : keeps s s1) by (apply keeps_ext; try reflexivity; exact I).
  destruct (conflictsLocked s1 (normalizeRouteSeen r)) as [|c0 cr]; apply (keeps_trans _ s1 _ K1).
  - apply upsert_keeps; [apply K1|]. rewrite normalize_key, normalize_oseq. exact T.
  - apply keeps_ext; try reflexivity. apply K1.
Qed.

Lemma remove_conflicts_keeps cks : forall s, SInv s -> keeps s (remove_conflicts s cks).
Proof.
  induction cks as [|k rest IH]; intros s I; simpl; [apply keeps_refl, I|].
  destruct (iget k (sl_active s)) as [ex|] eqn:G; [|apply IH, I].
  pose proof (removeActive_keeps s k ex I G) as K. apply (keeps_trans _ _ _ K), IH, K.
Qed.

Lemma commitRouteLocked_keeps s tok : SInv s -> keeps s (fst (commitRouteLocked s tok)).
Proof.
  intro I. unfold commitRouteLocked.
  destruct (nget tok (sl_pending s)) as [[r acked]|]; [|apply keeps_refl, I].
  assert (DROP : keeps s (set_pending s (al_del N.eqb tok (sl_pending s)) (sl_nextID s))).
  { apply keeps_ext; try reflexivity. exact I. }
  destruct (tombstoned s (makeRouteIdentityKey r) (r_oseq r)) eqn:T; [exact DROP|].
  destruct (r_oseq r <? seq_of (makeRouteIdentityKey r) (sl_ownerSeq s)); [exact DROP|].
  destruct (negb (forallb (fun ck => mem_key ck acked) (conflictsLocked s r))); [apply keeps_refl, I|].
  pose proof (remove_conflicts_keeps acked s I) as K1. set (s1 := remove_conflicts s acked) in *.
  assert (K2 : keeps s1 (upsertActiveLocked s1 r)).
  { apply upsert_keeps; [apply K1|]. rewrite (tombstoned_ext s s1 _ _ (proj1 (proj2 K1))). exact T. }
  apply (keeps_trans _ _ _ K1), (keeps_trans _ _ _ K2), keeps_ext; try reflexivity. apply K2.
Qed.

Lemma touchLocked_keeps s r : SInv s -> keeps s (touchLocked s r).
Proof.
  intro I. unfold touchLocked.
  destruct (r_uid r =? 0); [apply keeps_refl, I|].
  destruct (tombstoned s (makeRouteIdentityKey r) (r_oseq r)) eqn:T; [apply keeps_refl, I|].
  destruct (r_oseq r <? seq_of (makeRouteIdentityKey r) (sl_ownerSeq s)); [apply keeps_refl, I|].
  set (s1 := set_ownerSeq s (makeRouteIdentityKey r) (r_oseq r)).
  assert (K1 : keeps s s1) by (apply keeps_ext; try reflexivity; exact I).
  apply (keeps_trans _ s1 _ K1).
  assert (UP : forall x, makeRouteIdentityKey x = makeRouteIdentityKey r -> r_oseq x = r_oseq r ->
                         keeps s1 (upsertActiveLocked s1 x)).
  { intros x K Q. apply upsert_keeps; [apply K1|]. rewrite K, Q. exact T. }
  destruct (iget (makeRouteIdentityKey r) (sl_active s1)) as [ex|].
  - destruct (r_seen (normalizeRouteSeen r) <? r_seen ex)%Z; apply UP;
      try apply normalize_key; try apply normalize_oseq.
  - destruct (conflictsLocked s1 (normalizeRouteSeen r)).
    + apply UP; [apply normalize_key|apply normalize_oseq].
    + apply keeps_refl, K1.
Qed.

Lemma fold_touch_keeps rs : forall s, SInv s -> keeps s (fold_left touchLocked rs s).
Proof.
  induction rs as [|r rest IH]; intros s I; simpl; [apply keeps_refl, I|].
  pose proof (touchLocked_keeps s r I) as K. apply (keeps_trans _ _ _ K), IH, K.
Qed.

Lemma raise_fence_get m k q k' :
  iget k' (raise_fence m k q) =
  if ikey_eqb k k' then Some (match iget k m with Some t => if t <? q then q else t | None => q end)
  else iget k' m.
Proof.
  unfold raise_fence. destruct (ikey_eqb k k') eqn:E.
  - apply ikey_eqb_spec in E. subst k'. destruct (iget k m) as [t|] eqn:G.
    + destruct (t <? q); [apply i_get_set_same|exact G].
    + apply i_get_set_same.
  - assert (NE : k <> k') by (intro X; subst; rewrite ikey_eqb_refl in E; discriminate).
    destruct (iget k m) as [t|]; [destruct (t <? q)|]; try reflexivity; apply i_get_set_other; exact NE.
Qed.

Lemma SInv_raise_tomb s k q pend oseqs next :
  SInv s -> (forall r, iget k (sl_active s) = Some r -> q < r_oseq r) ->
  SInv (Slot (sl_target s) (sl_active s) (sl_byUID s) pend oseqs (raise_fence (sl_tomb s) k q) (sl_expiry s) next).
Proof.
  intros I H. pose proof (sv_tomb s I) as H7. destruct I as [H1 H2 H3 H4 H5 H6 _].
  constructor; [exact H1|exact H2|exact H3|exact H4|exact H5|exact H6|].
  intros k' r' G. cbn [sl_active] in G. pose proof (H7 _ _ G) as T. unfold tombstoned in *. cbn [sl_tomb].
  rewrite raise_fence_get. destruct (ikey_eqb k k') eqn:E; [|exact T].
  apply ikey_eqb_spec in E. subst k'. specialize (H _ G). apply N.leb_gt.
  destruct (iget k (sl_tomb s)) as [t|]; [|exact H].
  apply N.leb_gt in T. destruct (t <? q); [exact H|exact T].
Qed.

Lemma unregisterLocked_inv s k q :
  SInv s ->
  SInv (unregisterLocked s k q) /\ sl_target (unregisterLocked s k q) = sl_target s
  /\ sl_tomb (unregisterLocked s k q) = raise_fence (sl_tomb s) k q.
Proof.
  (* the model raises the fence first and then removes the route it covers; the
     invariant is read off the other way round *)
  intro I. unfold unregisterLocked. cbn [sl_active].
  destruct (iget k (sl_active s)) as [ex|] eqn:G; [destruct (r_oseq ex <=? q) eqn:L|];
    (split; [|split; reflexivity]).
  - apply (SInv_raise_tomb (removeActiveLocked s k ex) k q); [apply removeActive_inv; assumption|].
    intro r. rewrite removeActive_active, i_get_del_same. discriminate.
  - apply (SInv_raise_tomb s k q _ _ _ I). intros r X. rewrite G in X. inversion X. subst. apply N.leb_gt, L.
  - apply (SInv_raise_tomb s k q _ _ _ I). intros r X. congruence.
Qed.

Definition route_due (nowS nowN ttl : Z) (r : route) : bool :=
  (0 <? ttl)%Z && negb ((nowS =? zero_time_unix)%Z && (nowN =? 0)%Z)
  && negb (r_seen r =? 0)%Z && deadline_before (r_seen r) ttl nowS nowN.

Lemma expire_keys_spec due : forall s,
  SInv s -> NoDup (al_keys due) -> (forall k z, In (k, z) due -> iget k (sl_expiry s) = Some z) ->
  let '(s', n) := expire_keys s due in
  SInv s' /\ n = Z.of_nat (length due)
  /\ sl_active s' = al_del_keys ikey_eqb (al_keys due) (sl_active s)
  /\ sl_tomb s' = sl_tomb s /\ sl_target s' = sl_target s.
Proof.
  induction due as [|[k z] rest IH]; intros s I ND H.
  - simpl. auto.
  - cbn [expire_keys]. cbn [sl_active with_active].
    pose proof (H k z (or_introl eq_refl)) as G. rewrite (sv_expiry s I) in G.
    destruct (iget k (sl_active s)) as [r|] eqn:GA; [|discriminate].
    set (s0 := with_active s (sl_active s) (sl_byUID s) (al_del ikey_eqb k (sl_expiry s))).
    assert (EQ : removeActiveLocked s0 k r = removeActiveLocked s k r).
    { unfold removeActiveLocked, s0, unscheduleExpiryLocked, with_active.
      cbn [sl_active sl_byUID sl_expiry sl_target sl_pending sl_ownerSeq sl_tomb sl_nextID].
      f_equal. apply i_del_notin. apply i_get_del_same. }
    rewrite EQ.
    inversion ND as [|? ? Hn ND']. subst.
    assert (I1 : SInv (removeActiveLocked s k r)) by (apply removeActive_inv; assumption).
    assert (H1 : forall k' z', In (k', z') rest -> iget k' (sl_expiry (removeActiveLocked s k r)) = Some z').
    { intros k' z' Hin. rewrite removeActive_expiry. rewrite i_get_del_other.
      - apply H. right. exact Hin.
      - intro X. subst k'. apply Hn. apply (in_map fst) in Hin. exact Hin. }
    specialize (IH _ I1 ND' H1).
    destruct (expire_keys (removeActiveLocked s k r) rest) as [s' n].
    destruct IH as [J1 [J2 [J3 [J4 J5]]]].
    split; [exact J1|]. split; [rewrite J2; simpl length; lia|]. split; [|split; [rewrite J4|rewrite J5]; reflexivity].
    rewrite J3. reflexivity.
Qed.

Lemma expireLocked_spec s nowS nowN ttl :
  SInv s ->
  let '(s', (expired, _, _, _, _)) := expireLocked s nowS nowN ttl in
  SInv s'
  /\ sl_active s' = filter (fun kr : ikey * route => negb (route_due nowS nowN ttl (snd kr))) (sl_active s)
  /\ expired = Z.of_nat (length (filter (fun kr : ikey * route => route_due nowS nowN ttl (snd kr)) (sl_active s)))
  /\ sl_tomb s' = sl_tomb s /\ sl_target s' = sl_target s.
Proof.
  intro I. unfold expireLocked.
  set (enabled := (0 <? ttl)%Z && negb ((nowS =? zero_time_unix)%Z && (nowN =? 0)%Z)).
  set (due := if enabled then filter (fun ke : ikey * Z => deadline_before (snd ke) ttl nowS nowN) (sl_expiry s) else []).
  assert (ND : NoDup (al_keys due)).
  { unfold due. destruct enabled; [apply al_filter_nodup; apply (sv_exp_nodup s I)|constructor]. }
  assert (HIN : forall k z, In (k, z) due -> iget k (sl_expiry s) = Some z).
  { unfold due. intros k z Hin. destruct enabled; [|destruct Hin]. apply filter_In in Hin.
    apply (i_in_get _ _ _ (sv_exp_nodup s I)). apply Hin. }
  pose proof (expire_keys_spec due s I ND HIN) as ES.
  destruct (expire_keys s due) as [s' n]. destruct ES as [J1 [J2 [J3 [J4 J5]]]].
  (* the due rows of the expiry index are the rows of the due active routes *)
  assert (DUE : forall k, iget k due = match iget k (sl_active s) with
                                       | Some r => if route_due nowS nowN ttl r then Some (r_seen r) else None
                                       | None => None
                                       end).
  { intro k. unfold due, route_due. fold enabled. destruct enabled; cbn [andb].
    - rewrite (i_get_filter _ _ _ (sv_exp_nodup s I)), (sv_expiry s I).
      destruct (iget k (sl_active s)) as [r|]; [|reflexivity].
      destruct (r_seen r =? 0)%Z; [reflexivity|]. cbn [negb andb snd]. reflexivity.
    - destruct (iget k (sl_active s)); reflexivity. }
  split; [exact J1|]. split; [|split; [|auto]].
  - rewrite J3, (al_del_keys_filter ikey_eqb ikey_eqb_spec).
    apply (al_filter_ext ikey_eqb ikey_eqb_spec _ _ _ (sv_act_nodup s I)). intros k r G. cbn [fst snd].
    f_equal. apply eq_true_iff_eq. fold (mem_key k (al_keys due)). rewrite mem_key_in, <- (al_get_key_iff ikey_eqb ikey_eqb_spec), DUE, G.
    destruct (route_due nowS nowN ttl r); split; congruence.
  - rewrite J2. f_equal. f_equal.
    apply (al_same_length ikey_eqb ikey_eqb_spec); [exact ND|apply al_filter_nodup, (sv_act_nodup s I)|].
    intro k. rewrite DUE, (i_get_filter _ _ _ (sv_act_nodup s I)).
    destruct (iget k (sl_active s)) as [r|]; [|tauto]. cbn [snd]. destruct (route_due nowS nowN ttl r); split; congruence.
Qed.
