(* Proof/ChanMigration_trace.v — the model's own trace of a history of one-command
   batches, [accepted] and what a step that is not accepted leaves alone, the relation between the
   model database and the snapshot the monitor remembers, and the single-active clause of the
   monitor on such a trace. *)
From WK Require Import Base.Base Base.Lists.
From WK Require Import Gen.Consts_C15 Gen.Consts_C17 Model.RuntimeMeta Model.ChanMigration Model.ChanMigration_C17.
From WK Require Import Proof.RuntimeMeta Proof.ChanMigration Proof.ChanMigration_cmds Proof.ChanMigration_inv
                       Proof.ChanMigration_step.
Open Scope N_scope.

(* what the harness would print for database [d] over the channel alphabet [chs] *)
Definition obs_of (chs : list chan_key) (d : db) (r : bres) : obs :=
  Obs r (db_tasks d) (map (fun c => (c, active_get d c)) chs) (map (fun c => (c, meta_get d c)) chs).

Fixpoint model_trace (chs : list chan_key) (d : db) (cs : list cmd) : list (list cmd * obs) :=
  match cs with
  | [] => []
  | c :: r =>
    let d' := fst (apply_one d c) in
    ([c], obs_of chs d' (bres_of (snd (apply_one d c)))) :: model_trace chs d' r
  end.

Lemma bres_eqb_refl x : bres_eqb x x = true.
Proof. destruct x as [e|rs]; cbn [bres_eqb]; [destruct e; reflexivity|apply list_eqb_refl, N.eqb_refl]. Qed.

Lemma obs_matches_obs chs d x : obs_matches d x (obs_of chs d x) = true.
Proof.
  unfold obs_matches, obs_of. cbn [o_res o_tasks o_active o_metas].
  rewrite bres_eqb_refl, (list_eqb_refl task_eqb task_eqb_refl). cbn [andb].
  apply andb_true_iff. split; apply forallb_forall; intros [c0 v] Hin; apply in_map_iff in Hin;
    destruct Hin as [c1 [E _]]; inversion E; subst; cbn [fst snd];
    apply option_eqb_refl; [exact bytes_eqb_refl|exact runtime_meta_eqb_refl].
Qed.

Lemma model_trace_no_mismatch chs cs : forall d, run_mismatch d (model_trace chs d cs) = false.
Proof.
  induction cs as [|c r IH]; intro d; cbn [model_trace run_mismatch]; [reflexivity|].
  rewrite ApplyBatch_single, obs_matches_obs. apply IH.
Qed.

Lemma assoc_get_map {V} (f : chan_key -> V) chs c :
  In c chs -> assoc_get chan_key_eqb (map (fun c => (c, f c)) chs) c = Some (f c).
Proof.
  induction chs as [|c0 r IH]; cbn [map assoc_get In]; [intros []|].
  intros [H|H].
  - subst. rewrite chan_key_eqb_refl. reflexivity.
  - destruct (chan_key_eqb c0 c) eqn:E; [apply chan_key_eqb_eq in E; subst; reflexivity|auto].
Qed.

Lemma assoc_get_map_none {V} (f : chan_key -> V) chs c :
  ~ In c chs -> assoc_get chan_key_eqb (map (fun c => (c, f c)) chs) c = None.
Proof.
  induction chs as [|c0 r IH]; cbn [map assoc_get In]; [reflexivity|].
  intro H. destruct (chan_key_eqb c0 c) eqn:E.
  - apply chan_key_eqb_eq in E. subst. exfalso. apply H. auto.
  - apply IH. intro K. apply H. auto.
Qed.

Lemma snap_task_obs chs d r k : snap_task (snap_of (obs_of chs d r)) k = task_get (db_tasks d) k.
Proof. reflexivity. Qed.

Lemma snap_active_obs chs d r c : In c chs -> snap_active (snap_of (obs_of chs d r)) c = active_get d c.
Proof. intro H. unfold snap_active, snap_of, obs_of. cbn [s_active o_active]. rewrite assoc_get_map by exact H. reflexivity. Qed.

Lemma snap_meta_obs chs d r c : In c chs -> snap_meta (snap_of (obs_of chs d r)) c = meta_get d c.
Proof. intro H. unfold snap_meta, snap_of, obs_of. cbn [s_metas o_metas]. rewrite assoc_get_map by exact H. reflexivity. Qed.

(* the snapshot [p] the monitor remembers shows database [d] on the alphabet *)
Definition shows (chs : list chan_key) (p : snap) (d : db) : Prop :=
  s_tasks p = db_tasks d
  /\ forall c, In c chs -> snap_active p c = active_get d c /\ snap_meta p c = meta_get d c.

Lemma shows_obs chs d r : shows chs (snap_of (obs_of chs d r)) d.
Proof. split; [reflexivity|]. intros c H. split; [apply snap_active_obs|apply snap_meta_obs]; exact H. Qed.

Lemma shows_empty chs : shows chs snap_empty db_empty.
Proof. split; [reflexivity|]. intros c _. split; reflexivity. Qed.

Definition accepted (x : res N) : bool := match x with Ok 0 => true | _ => false end.

Lemma ok_cmds_single c x : ok_cmds [c] (bres_of x) = if accepted x then [c] else [].
Proof.
  unfold ok_cmds. cbn [indexed length filter map fst snd].
  destruct x as [n|e]; cbn [bres_of cmd_ok accepted].
  - cbn [nth_error]. destruct n as [|p]; [reflexivity|]. cbn [N.eqb]. reflexivity.
  - reflexivity.
Qed.

Lemma not_accepted_same d c : accepted (snd (apply_one d c)) = false -> fst (apply_one d c) = d.
Proof.
  intro H. destruct (apply_one d c) as [d' x] eqn:E. cbn [fst snd] in *.
  apply (apply_one_rejected _ _ _ _ E). intro K. subst x. discriminate.
Qed.

Lemma accepted_eq d c : accepted (snd (apply_one d c)) = true -> apply_one d c = (fst (apply_one d c), Ok 0).
Proof.
  destruct (apply_one d c) as [d' x]. cbn [fst snd]. destruct x as [n|e]; [|discriminate].
  destruct n; [reflexivity|discriminate].
Qed.

Theorem abort_not_accepted d c k t :
  task_get (db_tasks d) k = Some t -> post_commit_phase (t_phase t) = true ->
  is_abort c = true -> cmd_key c = Some k ->
  accepted (snd (apply_one d c)) = false.
Proof.
  intros G P Ab Ck. destruct (accepted (snd (apply_one d c))) eqn:A; [|reflexivity].
  exfalso. destruct c; try discriminate Ab.
  destruct (accepted_taskmeta _ _ _ h (accepted_eq d _ A) eq_refl) as (t1 & m & nt & nm & G1 & _ & M & _).
  cbn [cmd_key cmd_tguard] in Ck. inversion Ck as [Kk]. rewrite Kk, G in G1. inversion G1; subst t1.
  cbn [mutate_task_meta] in M. apply mutAbort_ok in M. destruct M as [_ Q]. congruence.
Qed.

Lemma snap_unchanged_shows chs p d r : shows chs p d -> snap_unchanged p (snap_of (obs_of chs d r)) = true.
Proof.
  intros [T S]. unfold snap_unchanged, snap_of, obs_of. cbn [s_tasks s_active s_metas o_tasks o_active o_metas].
  rewrite T, (list_eqb_refl task_eqb task_eqb_refl). cbn [andb].
  apply andb_true_iff. split; apply forallb_forall; intros [c0 v] Hin; apply in_map_iff in Hin;
    destruct Hin as [c1 [E Hc]]; inversion E; subst; cbn [fst snd]; destruct (S _ Hc) as [S1 S2].
  - rewrite S1. apply option_eqb_refl, bytes_eqb_refl.
  - rewrite S2. apply option_eqb_refl, runtime_meta_eqb_refl.
Qed.

Lemma all_stale_single x : all_stale (bres_of x) || match bres_of x with BErr _ => true | _ => false end = negb (accepted x)
                           \/ accepted x = false.
Proof. destruct x as [n|e]; cbn; [destruct n; auto|auto]. Qed.

(* the monitor's [active_on] on the observations of database [d] *)
Definition active_rows (d : db) (ch : chan_key) : list task :=
  filter (fun t => chan_key_eqb (task_chan t) ch && isActive t) (db_tasks d).

Lemma in_active_rows d ch t :
  In t (active_rows d ch) <-> In t (db_tasks d) /\ task_chan t = ch /\ isActive t = true.
Proof. unfold active_rows. rewrite filter_In, andb_true_iff, chan_key_eqb_eq. reflexivity. Qed.

Lemma active_on_at_most_one d ch :
  db_inv d -> active_rows d ch = [] \/ exists t, active_rows d ch = [t].
Proof.
  intro Hinv.
  assert (U : forall t1 t2, In t1 (active_rows d ch) -> In t2 (active_rows d ch) -> t1 = t2).
  { intros t1 t2 H1 H2. apply in_active_rows in H1, H2.
    destruct H1 as (I1 & C1 & A1), H2 as (I2 & C2 & A2).
    apply (inv_single_active d t1 t2 Hinv I1 I2 A1 A2). congruence. }
  pose proof (NoDup_filter (fun t => chan_key_eqb (task_chan t) ch && isActive t)
                (NoDup_map_inv _ _ (proj1 Hinv))) as N. fold (active_rows d ch) in N.
  destruct (active_rows d ch) as [|a [|b r]]; [left; reflexivity|right; exists a; reflexivity|exfalso].
  assert (a = b) by (apply U; [left|right; left]; reflexivity). subst b.
  inversion N as [|? ? N1 _]. apply N1. left. reflexivity.
Qed.

Lemma single_active_code_zero chs cs okc p d r ch :
  db_inv d -> single_active_code cs okc p (snap_of (obs_of chs d r)) [] ch = 0.
Proof.
  intro Hinv. unfold single_active_code. cbn [chan_in existsb].
  change (active_on (snap_of (obs_of chs d r)) ch) with (active_rows d ch).
  cbn [snap_of obs_of s_active o_active].
  destruct (active_on_at_most_one d ch Hinv) as [E|[t E]]; rewrite E; [reflexivity|].
  assert (Ht : In t (active_rows d ch)) by (rewrite E; left; reflexivity).
  apply in_active_rows in Ht. destruct Ht as (It & <- & At).
  destruct (in_dec chan_key_eq_dec (task_chan t) chs) as [Hin|Hnin].
  - rewrite assoc_get_map by exact Hin. rewrite (proj2 Hinv _ It At), bytes_eqb_refl. reflexivity.
  - rewrite assoc_get_map_none by exact Hnin. reflexivity.
Qed.

Lemma combine_zero_l b : combine 0 b = b.
Proof. unfold combine. destruct (b =? 1) eqn:E; cbn [orb N.eqb]; [apply N.eqb_eq in E; auto|reflexivity]. Qed.

Lemma single_active_step_zero chs cs okc p d r :
  db_inv d -> single_active_step cs okc p (snap_of (obs_of chs d r)) [] = (0, []).
Proof.
  intro I. unfold single_active_step.
  generalize (chans_of_tasks (s_tasks (snap_of (obs_of chs d r))) []).
  induction l as [|ch l IH]; cbn [fold_left]; [reflexivity|].
  cbn [fst snd]. rewrite (single_active_code_zero chs cs okc p d r ch I). cbn [combine N.eqb orb N.leb].
  exact IH.
Qed.
