(* Proof/ChanMigration_step.v — what one accepted one-command ApplyBatch does to the task row
   of a given key ([row_change], read off [one_step]). *)
From WK Require Import Base.Base.
From WK Require Import Gen.Consts_C15 Gen.Consts_C17 Model.RuntimeMeta Model.ChanMigration Model.ChanMigration_C17.
From WK Require Import Proof.RuntimeMeta Proof.ChanMigration Proof.ChanMigration_cmds Proof.ChanMigration_inv.
Open Scope N_scope.

Definition bres_of (x : res N) : bres := match x with Ok n => BResults [n] | Err e => BErr e end.

Lemma ApplyBatch_single d c :
  ApplyBatch d [c] = (fst (apply_one d c), bres_of (snd (apply_one d c))).
Proof.
  unfold ApplyBatch, apply_one. rewrite apply_core_single.
  destruct (cmd_valid c); [|reflexivity].
  destruct (run_ops d (CState d [] []) (ops_of c)) as [cs|e]; [reflexivity|].
  destruct (isStaleMetaCommitError e); reflexivity.
Qed.

Lemma is_claim_advance_trans c : is_claim_advance c = true -> cmd_trans c = None.
Proof. destruct c; simpl; try discriminate; reflexivity. Qed.

Lemma accepted_taskmeta d c d' h :
  apply_one d c = (d', Ok 0) -> cmd_trans c = Some h ->
  exists t m nt nm,
    task_get (db_tasks d) (tguard_key (tr_guard h)) = Some t
    /\ meta_get d (rguard_chan (tr_rguard h)) = Some m
    /\ mutate_task_meta c t m = Ok (nt, nm)
    /\ (nt = t \/ (tguard_matches (tr_guard h) t = true /\ rguard_matches (tr_rguard h) m = true)).
Proof.
  intros A Ht.
  destruct (accepted_step _ _ _ A) as [N _|m next E _ _|t E _ _|g t next _ Ca _ _ _ _|h' t m nm Ht' Lt Lm M _
                                      |h' t m nt nm pend Ht' Lt Lm Mg Mr M _ _ _ _|b l E _].
  - congruence.
  - subst c. discriminate.
  - destruct E as [->|[g ->]]; discriminate.
  - rewrite (is_claim_advance_trans _ Ca) in Ht. discriminate.
  - rewrite Ht in Ht'. inversion Ht'; subst h'. exists t, m, t, nm. auto.
  - rewrite Ht in Ht'. inversion Ht'; subst h'. exists t, m, nt, nm. repeat split; auto.
  - subst c. discriminate.
Qed.

Lemma cmd_targets_key c k : cmd_targets c k = true <-> cmd_key c = Some k.
Proof.
  unfold cmd_targets. destruct (cmd_key c) as [k'|].
  - split; [intro H; apply tkey_eqb_eq in H; subst; reflexivity|intro H; inversion H; apply tkey_eqb_refl].
  - split; discriminate.
Qed.

Lemma stageUpsert_tasks d t pend :
  stageUpsertChannelMigrationTask d d t = Ok pend ->
  forall k, task_get (db_tasks pend) k = if tkey_eqb (task_key t) k then Some t else task_get (db_tasks d) k.
Proof. intros U k. rewrite (proj1 (stageUpsert_frame _ _ _ _ U)). apply task_get_put. Qed.

Lemma stageUpsert_metas d t pend c :
  stageUpsertChannelMigrationTask d d t = Ok pend -> meta_get pend c = meta_get d c.
Proof. intro U. unfold meta_get. rewrite (proj2 (stageUpsert_frame _ _ _ _ U)). reflexivity. Qed.

Lemma stageUpsert_active d t pend c :
  stageUpsertChannelMigrationTask d d t = Ok pend -> c <> task_chan t -> active_get pend c = active_get d c.
Proof.
  unfold stageUpsertChannelMigrationTask. intros U N.
  assert (Neq : chan_key_eqb (task_chan t) c = false) by (apply chan_key_eqb_neq; congruence).
  destruct (negb (validateChannelMigrationTask t)); [discriminate|].
  destruct (isActive t).
  - destruct (negb (ensureChannelMigrationActiveAvailable d t)); [discriminate|].
    inversion U. rewrite active_get_put_task, active_get_set, Neq. reflexivity.
  - destruct (task_get (db_tasks d) (task_key t)) as [e|].
    + destruct (isActive e); inversion U; rewrite active_get_put_task; [rewrite active_get_del, Neq|]; reflexivity.
    + inversion U. rewrite active_get_put_task. reflexivity.
Qed.

Lemma meta_get_put_meta d c m c' :
  meta_get (db_put_meta d c m) c' = if chan_key_eqb c c' then Some m else meta_get d c'.
Proof. unfold meta_get, db_put_meta. cbn [db_metas]. apply chan_get_put. Qed.

Lemma trans_key c h : cmd_trans c = Some h -> cmd_key c = Some (tguard_key (tr_guard h)).
Proof. destruct c; cbn [cmd_trans cmd_key cmd_tguard]; try discriminate; intro H; inversion H; reflexivity. Qed.

Lemma claim_key c g : is_claim_advance c = true -> cmd_tguard c = Some g -> cmd_key c = Some (tguard_key g).
Proof. destruct c; cbn [is_claim_advance cmd_tguard cmd_key]; try discriminate; intros _ H; inversion H; reflexivity. Qed.

Lemma create_key c t : (c = CCreate t \/ exists g, c = CCreateGuarded t g) -> cmd_key c = Some (task_key t).
Proof. intros [H|[g H]]; subst; reflexivity. Qed.

Inductive row_change (d : db) (c : cmd) (k : tkey) (d' : db) : Prop :=
| RC_same : task_get (db_tasks d') k = task_get (db_tasks d) k -> row_change d c k d'
| RC_create t : (c = CCreate t \/ exists g, c = CCreateGuarded t g) -> cmd_targets c k = true ->
    task_get (db_tasks d) k = None -> task_get (db_tasks d') k = Some t -> row_change d c k d'
| RC_task g t next : cmd_tguard c = Some g -> is_claim_advance c = true -> cmd_targets c k = true ->
    task_get (db_tasks d) k = Some t -> tguard_matches g t = true -> mutate_task c t = Ok next ->
    task_get (db_tasks d') k = Some next -> row_change d c k d'
| RC_taskmeta h t m nt nm : cmd_trans c = Some h -> cmd_targets c k = true ->
    task_get (db_tasks d) k = Some t -> meta_get d (rguard_chan (tr_rguard h)) = Some m ->
    tguard_matches (tr_guard h) t = true -> rguard_matches (tr_rguard h) m = true ->
    mutate_task_meta c t m = Ok (nt, nm) -> (isTerminal t = true -> nt = t) ->
    task_get (db_tasks d') k = Some nt -> row_change d c k d'
| RC_gc before limit t : c = CGC before limit -> task_get (db_tasks d) k = Some t -> isTerminal t = true ->
    task_get (db_tasks d') k = None -> row_change d c k d'.

(* for the frame: the row is as before, or the command names its key and the row is there, or a
   garbage collection removed a terminal row *)
Lemma row_change_frame d c k d' :
  row_change d c k d' ->
  task_get (db_tasks d') k = task_get (db_tasks d) k
  \/ (cmd_targets c k = true /\ task_get (db_tasks d') k <> None)
  \/ (is_gc c = true /\ task_get (db_tasks d') k = None
      /\ exists t, task_get (db_tasks d) k = Some t /\ isTerminal t = true).
Proof.
  intros [S|t _ Hk _ Hn|g t next _ _ Hk _ _ _ Hn|h t m nt nm _ Hk _ _ _ _ _ _ Hn|b l t Hc Hp Ht Hn];
    [left; exact S|right; left..|right; right];
    try (split; [exact Hk|rewrite Hn; discriminate]).
  subst c. split; [reflexivity|]. split; [exact Hn|eauto].
Qed.

Lemma written_row d c u d' k :
  (forall k', task_get (db_tasks d') k' = if tkey_eqb (task_key u) k' then Some u else task_get (db_tasks d) k') ->
  (task_get (db_tasks d') (task_key u) = Some u -> row_change d c (task_key u) d') ->
  row_change d c k d'.
Proof.
  intros T H. destruct (tkey_eqb (task_key u) k) eqn:K.
  - apply tkey_eqb_eq in K. subst k. apply H. rewrite T, tkey_eqb_refl. reflexivity.
  - apply RC_same. rewrite T, K. reflexivity.
Qed.

Theorem step_row_change d c d' k :
  db_inv d -> apply_one d c = (d', Ok 0) -> row_change d c k d'.
Proof.
  intros I A.
  destruct (accepted_step _ _ _ A) as [_ E|m next _ _ E|t Hc G U|g t next Hg Ca G Mg M U|h t m nm _ _ _ _ E
                                      |h t m nt nm pend Ht G Gm Mg Mr M Tm _ U E|b l Hc E];
    try (subst d'; apply RC_same; reflexivity).
  - apply (written_row d c t d' k (stageUpsert_tasks _ _ _ U)). intro G'. eapply RC_create; eauto.
    apply cmd_targets_key, create_key, Hc.
  - apply (written_row d c next d' k (stageUpsert_tasks _ _ _ U)).
    pose proof (mutate_task_identity _ _ _ M) as (Kn & _).
    rewrite Kn, (tguard_matches_key _ _ Mg). intro G'. eapply RC_task; eauto.
    apply cmd_targets_key, claim_key; assumption.
  - subst d'. apply (written_row d c nt (db_put_meta pend _ _) k (stageUpsert_tasks _ _ _ U)).
    pose proof (mutate_task_meta_identity _ _ _ _ _ M) as (Kn & _).
    rewrite Kn, (tguard_matches_key _ _ Mg). intro G'. eapply RC_taskmeta; eauto.
    apply cmd_targets_key, trans_key, Ht.
  - subst d'. destruct (gc_scan_spec (db_tasks d) d b l 0%Z) as (_ & _ & _ & _ & G5).
    destruct (G5 k) as [S|[S [u [U1 [U2 U3]]]]]; [apply RC_same; exact S|].
    eapply RC_gc; eauto. rewrite <- U2. apply tasks_wf_get; [exact (proj1 I)|exact U1].
Qed.
