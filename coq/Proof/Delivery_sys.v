(* Proof/Delivery_sys.v — the runtime as a transition system (Model/Delivery_sys):
   for EVERY interleaving of producers, admission close, and the one worker per
   shard, the port calls of two plans of one shard happen in the order the
   plans were accepted (hence they never interleave: logok_order); the ordering clause of the rt
   monitor holds on the ticket data of every run. *)
From WK Require Import Base.Base Base.Lists Gen.Consts_C31 Model.Delivery Model.Delivery_C31 Model.Delivery_sys
     Proof.Delivery_queue.
From Coq Require Import Sorted.
Open Scope N_scope.

Lemma forall2_mono {A B} (P Q : A -> B -> Prop) (la : list A) (lb : list B) :
  (forall a b, P a b -> Q a b) -> Forall2 P la lb -> Forall2 Q la lb.
Proof. intros H F. induction F; constructor; auto. Qed.

Lemma fold_max_lt (l : list N) : forall a u, a < u -> (forall t, In t l -> t < u) -> fold_left N.max l a < u.
Proof.
  induction l as [|x l IH]; intros a u Ha H; simpl; [exact Ha|].
  apply IH; [|intros t Ht; apply H; right; exact Ht].
  pose proof (H x (or_introl eq_refl)). lia.
Qed.

Lemma fold_min_gt (l : list N) : forall a m, m < a -> (forall t, In t l -> m < t) -> m < fold_left N.min l a.
Proof.
  induction l as [|x l IH]; intros a m Ha H; simpl; [exact Ha|].
  apply IH; [|intros t Ht; apply H; right; exact Ht].
  pose proof (H x (or_introl eq_refl)). lia.
Qed.

Lemma maxN_lt (l : list N) u : 0 < u -> (forall t, In t l -> t < u) -> maxN l < u.
Proof. apply fold_max_lt. Qed.

Lemma minN_gt (l : list N) m : l <> [] -> (forall t, In t l -> m < t) -> m < minN l.
Proof.
  destruct l as [|x l]; [congruence|]. intros _ H.
  apply fold_min_gt; [apply H; left; reflexivity| intros t Ht; apply H; right; exact Ht].
Qed.

Lemma all_pairs_intro_in {A} (f : A -> A -> bool) (l : list A) :
  (forall a b, In a l -> In b l -> f a b = true) -> all_pairs f l = true.
Proof.
  induction l as [|x l IH]; intros H; simpl; [reflexivity|].
  apply andb_true_iff. split.
  - apply forallb_forall. intros b Hb. apply andb_true_iff. split; apply H; simpl; auto.
  - apply IH. intros a b Ha Hb. apply H; right; assumption.
Qed.

Section SysProof.
Variable X : Type.
Variables cap shards : nat.
Hypothesis Hcap : (0 < cap)%nat.
Hypothesis Hsh : (0 < shards)%nat.

Notation entry := (N * nat * plan * X * N)%type.

(* newest first: older entries have smaller times, and (same shard) stamps that are not larger *)
Fixpoint LogOk (l : list entry) : Prop :=
  match l with
  | [] => True
  | e :: r => LogOk r /\ forall e', In e' r ->
               le_time X e' < le_time X e
               /\ (le_shard X e' = le_shard X e -> le_stamp X e' <= le_stamp X e)
  end.

(* Shard s seen alone: g the acceptance stamps of its queued plans ps, w its worker.
   The stamps of its logged calls are at most the worker's, which is below the
   queued ones, which ascend and are at most the clock n. *)
Record ShardOk (n : N) (acc : list (N * nat * plan)) (log : list entry) (s : nat)
       (g : list N) (ps : list plan) (w : option (wstate X)) : Prop := {
  so_queued : Forall2 (fun a p => In (a, s, p) acc) g ps;
  so_sorted : StronglySorted N.lt g;
  so_now : forall x, In x g -> x <= n;
  so_log : forall e x, In e log -> le_shard X e = s -> In x g -> le_stamp X e < x;
  so_work : forall w0, w = Some w0 ->
      In (w_stamp X w0, s, w_plan X w0) acc
      /\ (forall x, In x g -> w_stamp X w0 < x)
      /\ (forall e, In e log -> le_shard X e = s -> le_stamp X e <= w_stamp X w0) }.

(* the invariant, on the components of the state; n is the clock *)
Record SysInv (n : N) (q : pq) (gh : list (list N)) (work : list (option (wstate X)))
       (acc : list (N * nat * plan)) (log : list entry) : Prop := {
  si_q : exists fl sl, QInv q fl sl /\ length sl = shards
           /\ forall s, ShardOk n acc log s (nth s gh []) (nth s (abs q sl) []) (nth s work None);
  si_len_gh : length gh = shards;
  si_len_work : length work = shards;
  si_acc : forall a s p, In (a, s, p) acc -> s = plan_shard shards p /\ a <= n /\ (s < shards)%nat;
  si_acc_uniq : forall a s p s' p', In (a, s, p) acc -> In (a, s', p') acc -> s = s';
  si_log : LogOk log;
  si_log_t : forall e, In e log ->
       le_time X e <= n /\ le_stamp X e < le_time X e
       /\ In (le_stamp X e, le_shard X e, le_plan X e) acc }.

Definition SInv (st : sys X) : Prop :=
  SysInv (s_now X st) (s_q X st) (s_gh X st) (s_work X st) (s_acc X st) (s_log X st).

Lemma nth_nil_any {A} (s : nat) : nth s (@nil (list A)) [] = [].
Proof. destruct s; reflexivity. Qed.

Lemma sys_init_inv : SInv (sys_init X cap shards).
Proof.
  constructor; cbn [sys_init s_q s_gh s_work s_now s_acc s_log]; try apply repeat_length.
  - exists (seq 0 cap), (repeat [] shards). split; [apply newq_inv; assumption|].
    split; [apply repeat_length|]. intros s. rewrite newq_abs, !nth_repeat.
    constructor; [constructor| constructor| intros x []| intros e x []| discriminate].
  - intros a s p [].
  - intros a s p s' p' [].
  - exact I.
  - intros e [].
Qed.

(* the clock may advance, plans may be accepted, and calls of other shards may be logged *)
Lemma shard_frame {n n' acc acc' log log' s g ps w} :
  ShardOk n acc log s g ps w -> n <= n' -> incl acc acc' ->
  (forall e, In e log' -> le_shard X e = s -> In e log) ->
  ShardOk n' acc' log' s g ps w.
Proof.
  intros [Q S Nw L Wk] Hn Ha Hl. constructor.
  - eapply forall2_mono; [|exact Q]. intros a p. apply Ha.
  - exact S.
  - intros x Hx. specialize (Nw x Hx). lia.
  - intros e x He Hs. apply L; auto.
  - intros w0 E. destruct (Wk w0 E) as (A & B & C). split; [apply Ha, A|]. split; [exact B|].
    intros e He Hs. apply C; auto.
Qed.

Lemma sys_inv_mono {n m q gh work acc log} : SysInv n q gh work acc log -> n <= m -> SysInv m q gh work acc log.
Proof.
  intros [(fl & sl & QI & L & Sh) Lg Lw A U LO LT] H. constructor; try assumption.
  - exists fl, sl. split; [exact QI|]. split; [exact L|]. intros s.
    apply (shard_frame (Sh s) H); [apply incl_refl| auto].
  - intros a s p Hin. destruct (A a s p Hin) as (A1 & A2 & A3). split; [exact A1|]. split; [lia| exact A3].
  - intros e He. destruct (LT e He) as (T1 & T2). split; [lia| exact T2].
Qed.

Lemma le_now_succ (a n : N) : a <= n -> a <= n + 1.
Proof. lia. Qed.

Lemma sys_inv_heads {n q gh work acc log} : SysInv n q gh work acc log -> length (pq_heads q) = shards.
Proof. intros [(fl & sl & QI & L & _) _ _ _ _ _ _]. rewrite (qi_len_heads _ _ _ QI). exact L. Qed.

(* SEnq, accepted at time m: the stamp m is new and above everything so far *)
Lemma sys_inv_enq {n m q gh work acc log closed p q'} :
  SysInv n q gh work acc log -> n < m -> pq_enqueue q closed p = (q', EnqOk) ->
  let s := plan_shard shards p in
  SysInv m q' (upd s (nth s gh [] ++ [m]) gh) work ((m, s, p) :: acc) log.
Proof.
  intros [(fl & sl & QI & L & Sh) Lg Lw A U LO LT] Hm E s.
  destruct (enqueue_refines _ _ _ _ _ _ _ QI E) as (fl' & sl' & QI' & A' & _ & L').
  apply aq_enqueue_spec in A'. destruct A' as (_ & _ & Habs). rewrite abs_length, L in Habs. fold s in Habs.
  assert (Hs : (s < shards)%nat) by (apply plan_shard_lt; exact Hsh).
  assert (Fresh : forall a s0 p0, In (a, s0, p0) acc -> a < m).
  { intros a s0 p0 H. destruct (A _ _ _ H) as (_ & H1 & _). lia. }
  constructor.
  - exists fl', sl'. split; [exact QI'|]. split; [congruence|]. intros s0. rewrite Habs.
    destruct (Nat.eq_dec s0 s) as [->|Hne].
    + rewrite !nth_upd_eq by (rewrite ?abs_length; lia).
      destruct (Sh s) as [Q S Nw Lo Wk]. constructor.
      * apply Forall2_app; [|constructor; [left; reflexivity| constructor]].
        eapply forall2_mono; [|exact Q]. intros a0 p0 H. right. exact H.
      * apply sorted_snoc; [exact S|]. intros y Hy. specialize (Nw y Hy). lia.
      * intros x Hx. apply in_app_or in Hx. destruct Hx as [Hx|[<-|[]]]; [specialize (Nw x Hx)|]; lia.
      * intros e x He Hse Hx. apply in_app_or in Hx. destruct Hx as [Hx|[<-|[]]]; [exact (Lo e x He Hse Hx)|].
        destruct (LT e He) as (T1 & T2 & _). lia.
      * intros w0 Ew. destruct (Wk w0 Ew) as (W1 & W2 & W3). split; [right; exact W1|]. split; [|exact W3].
        intros x Hx. apply in_app_or in Hx. destruct Hx as [Hx|[<-|[]]]; [exact (W2 x Hx)| exact (Fresh _ _ _ W1)].
    + rewrite !nth_upd_neq by congruence.
      apply (shard_frame (Sh s0)); [lia| apply incl_tl, incl_refl| auto].
  - rewrite upd_length. exact Lg.
  - exact Lw.
  - intros a s0 p0 [H|H].
    + inversion H; subst. split; [reflexivity|]. split; [lia| exact Hs].
    + destruct (A _ _ _ H) as (A1 & A2 & A3). split; [exact A1|]. split; [lia| exact A3].
  - intros a s1 p1 s2 p2 [H1|H1] [H2|H2].
    + congruence.
    + inversion H1; subst. apply Fresh in H2. lia.
    + inversion H2; subst. apply Fresh in H1. lia.
    + exact (U _ _ _ _ _ H1 H2).
  - exact LO.
  - intros e He. destruct (LT e He) as (T1 & T2 & T3). split; [lia|]. split; [exact T2| right; exact T3].
Qed.

(* SPop: the head of shard s goes to its worker *)
Lemma sys_inv_pop {n q gh work acc log s q' p calls} :
  SysInv n q gh work acc log -> pq_pop q s = (q', Some p) ->
  SysInv n q' (upd s (tl (nth s gh [])) gh) (upd s (Some (W X (hd 0 (nth s gh [])) p calls)) work) acc log.
Proof.
  intros [(fl & sl & QI & L & Sh) Lg Lw A U LO LT] E.
  destruct (pop_refines _ _ _ _ _ _ QI E) as (fl' & sl' & QI' & A' & _ & L').
  apply aq_pop_spec in A'. destruct A' as (r & En & Habs).
  assert (Hs : (s < shards)%nat).
  { destruct (Nat.lt_ge_cases s shards) as [H|H]; [exact H|].
    rewrite nth_overflow in En by (rewrite abs_length; lia). discriminate. }
  destruct (Sh s) as [Q S Nw Lo _]. rewrite En in Q.
  destruct (nth s gh []) as [|a gr] eqn:Eg; inversion Q as [|? ? ? ? Hacc Qr]; subst.
  apply StronglySorted_inv in S. destruct S as [S' Fs]. cbn [hd tl].
  constructor; try assumption.
  - exists fl', sl'. split; [exact QI'|]. split; [congruence|]. intros s0. rewrite Habs.
    destruct (Nat.eq_dec s0 s) as [->|Hne]; [|rewrite !nth_upd_neq by congruence; apply Sh].
    rewrite !nth_upd_eq by (rewrite ?abs_length; lia). constructor.
    + exact Qr.
    + exact S'.
    + intros x Hx. apply Nw. right. exact Hx.
    + intros e x He Hse Hx. apply (Lo e x He Hse). right. exact Hx.
    + intros w0 [= <-]. cbn [w_stamp w_plan]. split; [exact Hacc|]. split.
      * rewrite Forall_forall in Fs. exact Fs.
      * intros e He Hse. apply N.lt_le_incl. apply (Lo e a He Hse). left. reflexivity.
  - rewrite upd_length. exact Lg.
  - rewrite upd_length. exact Lw.
Qed.

(* SCall on an empty to-do list: the worker becomes idle *)
Lemma sys_inv_retire {n q gh work acc log s} :
  SysInv n q gh work acc log -> SysInv n q gh (upd s None work) acc log.
Proof.
  intros [(fl & sl & QI & L & Sh) Lg Lw A U LO LT]. constructor; try assumption.
  - exists fl, sl. split; [exact QI|]. split; [exact L|]. intros s0. rewrite nth_upd.
    destruct ((s =? s0)%nat && (s <? length work)%nat); [|apply Sh].
    destruct (Sh s0) as [Q S Nw Lo _]. constructor; try assumption. discriminate.
  - rewrite upd_length. exact Lw.
Qed.

(* SCall, one port call of worker s at time m *)
Lemma sys_inv_call {n m q gh work acc log s w x r} :
  SysInv n q gh work acc log -> n < m -> nth s work None = Some w ->
  SysInv m q gh (upd s (Some (W X (w_stamp X w) (w_plan X w) r)) work) acc
      ((w_stamp X w, s, w_plan X w, x, m) :: log).
Proof.
  intros [(fl & sl & QI & L & Sh) Lg Lw A U LO LT] Hm Hw.
  assert (Hs : (s < length work)%nat).
  { destruct (Nat.lt_ge_cases s (length work)) as [H|H]; [exact H|].
    rewrite nth_overflow in Hw by exact H. discriminate. }
  destruct (Sh s) as [Qs Ss Nws Los Wks]. rewrite Hw in Wks. destruct (Wks w eq_refl) as (W1 & W2 & W3).
  destruct (A _ _ _ W1) as (_ & Wn & _).
  constructor; try assumption.
  - exists fl, sl. split; [exact QI|]. split; [exact L|]. intros s0.
    destruct (Nat.eq_dec s0 s) as [->|Hne].
    + rewrite nth_upd_eq by exact Hs. constructor; try assumption.
      * intros y Hy. specialize (Nws y Hy). lia.
      * intros e y [<-|He] Hse Hy; [exact (W2 y Hy)| exact (Los e y He Hse Hy)].
      * intros w0 [= <-]. cbn [w_stamp w_plan]. split; [exact W1|]. split; [exact W2|].
        intros e [<-|He] Hse; [apply N.le_refl| exact (W3 e He Hse)].
    + rewrite nth_upd_neq by congruence.
      apply (shard_frame (Sh s0)); [lia| apply incl_refl|].
      intros e [<-|He] Hse; [cbn in Hse; congruence| exact He].
  - rewrite upd_length. exact Lw.
  - intros a s0 p0 H. destruct (A _ _ _ H) as (A1 & A2 & A3). split; [exact A1|]. split; [lia| exact A3].
  - cbn [LogOk]. split; [exact LO|].
    intros e' He'. destruct (LT e' He') as (T1 & _). split; [cbn; lia|]. exact (W3 e' He').
  - intros e [<-|He].
    + cbn. split; [lia|]. split; [lia| exact W1].
    + destruct (LT e He) as (T1 & T2). split; [lia| exact T2].
Qed.

Lemma sys_step_inv st e : SInv st -> SInv (sys_step X st e).
Proof.
  unfold SInv. intros I.
  assert (Ht : s_now X st < s_now X st + 1) by lia.
  pose proof (sys_inv_mono I (le_now_succ _ _ (N.le_refl _))) as I1.
  destruct e as [p| |s calls|s]; cbn [sys_step].
  - rewrite (sys_inv_heads I).
    destruct (pq_enqueue (s_q X st) (s_closed X st) p) as [q' []] eqn:E; [|exact I1..].
    exact (sys_inv_enq I Ht E).
  - exact I1.
  - destruct (nth s (s_work X st) None); [exact I1|].
    destruct (pq_pop (s_q X st) s) as [q' [p|]] eqn:E; [|exact I1].
    exact (sys_inv_pop I1 E).
  - destruct (nth s (s_work X st) None) as [w|] eqn:Hw; [|exact I1].
    destruct (w_todo X w) as [|x r].
    + exact (sys_inv_retire I1).
    + exact (sys_inv_call I Ht Hw).
Qed.

Lemma sys_steps_inv evs : forall st, SInv st -> SInv (fold_left (sys_step X) evs st).
Proof.
  induction evs as [|e evs IH]; intros st I; simpl; [exact I|]. apply IH, sys_step_inv, I.
Qed.

Lemma sys_run_inv evs : SInv (sys_run X cap shards evs).
Proof. exact (sys_steps_inv evs _ sys_init_inv). Qed.

Lemma logok_order (l : list entry) : LogOk l ->
  forall e1 e2, In e1 l -> In e2 l -> le_shard X e1 = le_shard X e2 ->
  le_stamp X e1 < le_stamp X e2 -> le_time X e1 < le_time X e2.
Proof.
  induction l as [|e l IH]; intros L e1 e2 H1 H2 Hs Hlt; [destruct H1|].
  cbn [LogOk] in L. destruct L as [L' Hhd].
  destruct H1 as [<-|H1]; destruct H2 as [<-|H2].
  - destruct (N.lt_irrefl _ Hlt).
  - destruct (Hhd e2 H2) as [_ B]. destruct (N.lt_irrefl _ (N.lt_le_trans _ _ _ Hlt (B (eq_sym Hs)))).
  - exact (proj1 (Hhd e1 H1)).
  - exact (IH L' e1 e2 H1 H2 Hs Hlt).
Qed.

Lemma times_of_in a (log : list entry) t :
  In t (times_of X a log) <-> exists e, In e log /\ le_stamp X e = a /\ le_time X e = t.
Proof.
  unfold times_of. rewrite in_map_iff. split.
  - intros (e & Et & He). apply filter_In in He. destruct He as [He Hs]. apply N.eqb_eq in Hs. eauto.
  - intros (e & He & Hs & Et). exists e. split; [exact Et|]. apply filter_In. split; [exact He|].
    apply N.eqb_eq. exact Hs.
Qed.

Theorem sys_times_ok evs :
  all_pairs times_pair_ok (sys_times X (sys_run X cap shards evs)) = true.
Proof.
  set (st := sys_run X cap shards evs).
  destruct (sys_run_inv evs : SInv st) as [_ _ _ A U LO LT].
  apply all_pairs_intro_in. intros ta tb Ha Hb.
  unfold sys_times in Ha, Hb. apply in_map_iff in Ha, Hb.
  destruct Ha as ([[a sa] pa] & <- & Ha). destruct Hb as ([[b sb] pb] & <- & Hb).
  unfold times_pair_ok. cbn [pt_acc pt_has pt_ct pt_ch pt_es pt_ee pt_first pt_last fst snd andb].
  destruct (negb (is_nil (times_of X a (s_log X st)))) eqn:Hna; [|reflexivity].
  destruct (negb (is_nil (times_of X b (s_log X st)))) eqn:Hnb; [|reflexivity]. cbn [andb].
  destruct (e_chtype (p_event pa) =? e_chtype (p_event pb)) eqn:Ect; [|reflexivity].
  destruct (bytes_eqb (e_chid (p_event pa)) (e_chid (p_event pb))) eqn:Ech; [|reflexivity].
  destruct (a <? b) eqn:Hab; [|reflexivity]. cbn [andb].
  apply N.eqb_eq in Ect. apply bytes_eqb_eq in Ech. apply N.ltb_lt in Hab. apply N.ltb_lt.
  (* both plans hash to the same shard *)
  assert (Hshard : sa = sb).
  { rewrite (proj1 (A _ _ _ Ha)), (proj1 (A _ _ _ Hb)). exact (shard_function _ _ _ Ect Ech). }
  assert (Hcross : forall t u, In t (times_of X a (s_log X st)) -> In u (times_of X b (s_log X st)) -> t < u).
  { intros t u Ht Hu. apply times_of_in in Ht, Hu.
    destruct Ht as (e1 & He1 & <- & <-). destruct Hu as (e2 & He2 & <- & <-).
    apply (logok_order _ LO e1 e2 He1 He2); [|exact Hab].
    (* a stamp identifies the shard of its accepted plan *)
    rewrite (U _ _ _ _ _ (proj2 (proj2 (LT e1 He1))) Ha), (U _ _ _ _ _ (proj2 (proj2 (LT e2 He2))) Hb).
    exact Hshard. }
  assert (Hlate : forall u, In u (times_of X b (s_log X st)) -> 0 < u).
  { intros u Hu. apply times_of_in in Hu. destruct Hu as (e2 & He2 & _ & <-).
    destruct (LT e2 He2) as (_ & T2 & _). lia. }
  apply minN_gt; [intros E; rewrite E in Hnb; discriminate|].
  intros u Hu. apply maxN_lt; [exact (Hlate u Hu)|]. intros t Ht. exact (Hcross t u Ht Hu).
Qed.

End SysProof.
