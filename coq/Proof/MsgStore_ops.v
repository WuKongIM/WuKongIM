(* Proof/MsgStore_ops.v — the mutations of the model, one by one: each result the
   model reports is a result the plain sequential log accepts ([spec_mutate]), and
   the relation [R] holds again afterwards. *)
From WK Require Import Base.Base Base.Lists Model.KV Gen.Consts_C07 Model.MsgStore Model.MsgStore_C07
     Proof.KV Proof.MsgStore_base Proof.MsgStore_rel Proof.MsgStore_reads Proof.MsgStore_frame
     Proof.MsgStore_mut Proof.MsgStore_step.
From Coq Require Import Sorting.Permutation Sorting.Sorted.

Section Ops.
  Variable F : Type.
  Variable f_empty : F.
  Variable f_may : F -> bytes * bytes -> bool.
  Variable f_add : F -> bytes * bytes -> F.

  Notation mstate := (mstate F).
  Notation R := (R F).
  Notation st_kv := (st_kv F).
  Notation st_cache := (st_cache F).
  Notation loadLEOLocked := (loadLEOLocked F).
  Notation validate_rows := (validate_rows F f_may f_add).
  Notation volatile_only := (volatile_only F).

  Notation step := (step F f_empty f_may f_add).

  (* the plain logs accept what the model reports for a mutation and are related to its new state *)
  Definition sim (s : aspec) (o : op) (p : mstate * out) : Prop :=
    exists s', spec_mutate s o (snd p) = Some s' /\ R (fst p) s'.

  (* [step] runs the API call and maps its result to an observation *)
  Lemma sim_of_call {A} s o (call : mstate * A) (g : A -> out) :
    (let '(st', r) := call in sim s o (st', g r)) -> sim s o (let '(st', r) := call in (st', g r)).
  Proof. destruct call. exact (fun H => H). Qed.

  Lemma append_commit st s c rows extra :
    R st s -> In c all_chans -> rows <> [] ->
    consec (al_leo (as_log s c) + 1) rows -> Forall (row_ok c) rows ->
    irrelevant_batch extra ->
    R (set_leo F (commit F st (stageMessageRows c rows ++ extra)) c (last_seq rows))
      (spec_append s c (map arow_of rows)).
  Proof.
    intros HR Hc Hne Hcs Hok Hex.
    apply (R_commit_set_leo F st s); [exact HR| | |].
    - rewrite kapply_app. apply Rkv_irrelevant; [exact Hex|].
      apply add_rows_Rkv; [apply HR|exact Hc|exact Hok|exact Hcs].
    - apply spec_append_leo. exact Hne.
    - intros c' Hne'. rewrite spec_append_other by exact Hne'. reflexivity.
  Qed.

  Lemma walk_cases st s c recs mode base :
    R st s ->
    let '(st1, r) := walkAppendRowsLocked F f_may f_add st c recs mode base in
    match r with
    | inr _ => R st1 s
    | inl rows =>
      R st1 s /\ ((base =? 0) || (base =? al_leo (as_log s c) + 1)) = true
      /\ match recs with
         | [] => rows = []
         | _ => rows = rows_from c (al_leo (as_log s c) + 1) recs /\ Forall (row_ok c) rows
         end
    end.
  Proof.
    intro HR. unfold walkAppendRowsLocked.
    destruct (negb (valid_mode mode)); [exact HR|].
    destruct (loadLEO_R F st s c HR) as [H1 [H2 _]].
    destruct (loadLEOLocked st c) as [st1 leo]. cbn [fst snd] in H1, H2. subst leo.
    destruct (negb (base =? 0) && negb (base =? al_leo (as_log s c) + 1)) eqn:Eb; [exact H2|].
    assert (Hb : ((base =? 0) || (base =? al_leo (as_log s c) + 1)) = true).
    { destruct (base =? 0); [reflexivity|]. destruct (base =? al_leo (as_log s c) + 1); [reflexivity|discriminate]. }
    destruct recs as [|x recs]; [split; [exact H2|split; [exact Hb|reflexivity]]|].
    set (rows := rows_from c (al_leo (as_log s c) + 1) (x :: recs)).
    pose proof (validate_rows_volatile F f_may f_add rows st1 c (Seen [] []) mode) as Hv.
    destruct (validate_rows st1 c rows (Seen [] []) mode) as [st2 [sn|e]] eqn:Ev; cbn [fst] in Hv.
    - split; [eapply volatile_R; eassumption|]. split; [exact Hb|]. split; [reflexivity|].
      apply rows_from_ok; [lia|]. eapply validate_rows_ids. exact Ev.
    - eapply volatile_R; eassumption.
  Qed.

  (* what an accepted append of the records reports is what the plain log expects of it *)
  Lemma append_report s c base recs rows :
    rows = rows_from c (al_leo (as_log s c) + 1) recs -> recs <> [] ->
    ((base =? 0) || (base =? al_leo (as_log s c) + 1)) = true ->
    (if (first_seq rows =? al_leo (as_log s c) + 1) && ((base =? 0) || (base =? first_seq rows))
        && (last_seq rows + 1 =? first_seq rows + N.of_nat (length recs))
        && (N.of_nat (length rows) =? N.of_nat (length recs))
     then Some (spec_append s c (msgs_from c (first_seq rows) (map typed recs))) else None)
    = Some (spec_append s c (map arow_of rows)).
  Proof.
    intros Er Hrne Hb.
    assert (Hne : rows <> []) by (rewrite Er; destruct recs; [contradiction|discriminate]).
    assert (Hcs : consec (al_leo (as_log s c) + 1) rows) by (rewrite Er; apply rows_from_consec).
    rewrite (consec_first _ _ Hcs Hne), N.eqb_refl, Hb. cbn [andb].
    pose proof (consec_last _ _ Hcs Hne) as Hl.
    assert (Hlen : length rows = length recs) by (rewrite Er; apply rows_from_length).
    rewrite Hlen in Hl. rewrite Hl, N.eqb_refl, Hlen, N.eqb_refl. cbn [andb].
    rewrite Er, rows_from_arows. reflexivity.
  Qed.

  Lemma step_append st s c mode base recs :
    R st s -> In c all_chans ->
    sim s (OAppend c mode base recs) (step st (OAppend c mode base recs)).
  Proof.
    intros HR Hc. apply sim_of_call. unfold Append.
    pose proof (walk_cases st s c recs mode base HR) as Hw.
    destruct (walkAppendRowsLocked F f_may f_add st c recs mode base) as [st1 [rows|e]].
    2:{ exists s. split; [reflexivity|exact Hw]. }
    destruct Hw as [HR1 [Hb Hrows]].
    destruct recs as [|x recs].
    - subst rows. exists s. split; [reflexivity|exact HR1].
    - destruct Hrows as [Er Hok].
      assert (Hne : rows <> []) by (rewrite Er; discriminate).
      assert (Hcs : consec (al_leo (as_log s c) + 1) rows) by (rewrite Er; apply rows_from_consec).
      destruct rows as [|r0 rows0] eqn:Erows; [contradiction|]. rewrite <- Erows in *.
      exists (spec_append s c (map arow_of rows)). split.
      + cbn [snd out_of ok spec_mutate]. apply (append_report s c base (x :: recs) rows Er); [discriminate|exact Hb].
      + apply (append_commit st1 s c rows); try assumption. apply irrelevant_catalog_for_append.
  Qed.

  Lemma step_capp st s c mode recs :
    R st s -> In c all_chans ->
    sim s (OCApp c mode recs) (step st (OCApp c mode recs)).
  Proof.
    intros HR Hc. apply sim_of_call. unfold CAppend.
    destruct (loadLEO_R F st s c HR) as [H1 [H2 _]].
    destruct (loadLEOLocked st c) as [st1 base]. cbn [fst snd] in H1, H2. subst base.
    destruct recs as [|x recs].
    - exists s. split; [|exact H2]. cbn [snd out_of ok spec_mutate]. rewrite N.eqb_refl. reflexivity.
    - destruct (compatibilityRowsFromRecords c (al_leo (as_log s c) + 1) (x :: recs)) as [rows|e] eqn:Ec.
      2:{ exists s. split; [reflexivity|exact H2]. }
      destruct (compat_rows _ _ _ _ Ec) as [Hcs [Har [Hlen Hf]]].
      pose proof (validate_rows_volatile F f_may f_add rows st1 c (Seen [] []) mode) as Hv.
      destruct (validate_rows st1 c rows (Seen [] []) mode) as [st2 [sn|e]] eqn:Ev; cbn [fst] in Hv.
      2:{ exists s. split; [reflexivity|eapply volatile_R; eassumption]. }
      assert (Hne : rows <> []) by (intro X; subst rows; discriminate Hlen).
      exists (spec_append s c (map arow_of rows)). split.
      + cbn [snd out_of ok spec_mutate]. rewrite N.eqb_refl, Har. reflexivity.
      + assert (Hok : Forall (row_ok c) rows) by (eapply consec_ok; [|exact Hcs|exact Hf]; lia).
        assert (El : al_leo (as_log s c) + N.of_nat (length (x :: recs)) = last_seq rows).
        { pose proof (consec_last _ _ Hcs Hne) as Hl. rewrite Hlen in Hl. lia. }
        rewrite El. apply (append_commit st2 s c rows); try assumption; [eapply volatile_R; eassumption|apply irrelevant_catalog_for_append].
  Qed.

  Lemma set_log_other s c l c' : c' <> c -> as_log (set_log s c l) c' = as_log s c'.
  Proof. intro H. unfold set_log. cbn [as_log]. apply N.eqb_neq in H. rewrite H. reflexivity. Qed.

  Lemma set_log_same s c l : as_log (set_log s c l) c = l.
  Proof. unfold set_log. cbn [as_log]. rewrite N.eqb_refl. reflexivity. Qed.

  Lemma sys_ckpt c ck extra : irrelevant_batch extra -> sys_batch (ckpt_put c ck ++ extra).
  Proof.
    intros He k Hk. rewrite forallb_app. apply andb_true_iff. split.
    - destruct ck as [[e l] h]. destruct k; cbn in Hk |- *; try reflexivity; discriminate.
    - apply He. destruct k; cbn in Hk |- *; try reflexivity; discriminate.
  Qed.

  Lemma keff_ckpt k c e l h extra cur :
    irrelevant_batch extra -> irrelevant k = false ->
    keff k (ckpt_put c (e, l, h) ++ extra) cur = if key_eqb k (KyCkpt c) then Some (VTriple e l h) else cur.
  Proof.
    intros He Hk. rewrite keff_app, (keff_untouched irrelevant) by assumption.
    cbn [ckpt_put keff batch_effect fold_left op_effect]. reflexivity.
  Qed.

  Lemma ckpt_Rkv kv s c ck extra :
    irrelevant_batch extra -> Rkv kv s ->
    Rkv (kapply kv (ckpt_put c ck ++ extra)) (set_log s c (set_ck (as_log s c) ck)).
  Proof.
    intros He HR. destruct ck as [[e l] h].
    assert (W' : swf (kapply kv (ckpt_put c (e, l, h) ++ extra))) by (apply swf_apply; apply HR).
    apply (Rkv_sys kv s); [apply sys_ckpt; exact He|exact HR|reflexivity|].
    intro c0.
    assert (Hh : loadHistory (kapply kv (ckpt_put c (e, l, h) ++ extra)) c0 = loadHistory kv c0).
    { apply (loadHistory_ext kv _ c0 (rk_wf _ _ HR) W'). intros o ep. rewrite kget_apply, keff_ckpt by (exact He || reflexivity).
      reflexivity. }
    destruct (rk_chan _ _ HR c0) as [rows Rc].
    destruct (N.eq_dec c0 c) as [->|Hne].
    - rewrite set_log_same. cbn [set_ck al_rows al_leo al_tpairs al_ck al_hist].
      repeat split.
      + unfold loadCheckpoint. rewrite kget_apply, keff_ckpt by (exact He || reflexivity).
        rewrite key_eqb_refl. reflexivity.
      + rewrite Hh. apply Rc.
    - rewrite set_log_other by exact Hne. repeat split.
      + rewrite (loadCk_ext kv); [apply Rc|]. rewrite kget_apply, keff_ckpt by (exact He || reflexivity).
        cbn [key_eqb]. apply N.eqb_neq in Hne. rewrite Hne. reflexivity.
      + rewrite Hh. apply Rc.
  Qed.

  (* replacing the log of [c] by one with the same log end moves no log end *)
  Lemma set_log_leo s c l c' : al_leo l = al_leo (as_log s c) -> al_leo (as_log (set_log s c l) c') = al_leo (as_log s c').
  Proof.
    intro H. destruct (N.eq_dec c' c) as [->|Hne]; [rewrite set_log_same; exact H|rewrite set_log_other by exact Hne; reflexivity].
  Qed.

  Lemma step_ckpt st s c e l h :
    R st s ->
    sim s (OCkpt c e l h) (step st (OCkpt c e l h)).
  Proof.
    intro HR. apply sim_of_call. unfold StoreCheckpoint. destruct (validateCheckpoint (e, l, h)) as [u|err].
    - exists (set_log s c (set_ck (as_log s c) (e, l, h))). split; [reflexivity|].
      apply (R_commit_same_leo F st s); [exact HR| |intro; apply set_log_leo; reflexivity].
      apply ckpt_Rkv; [apply irrelevant_catalog|apply HR].
    - exists s. split; [reflexivity|exact HR].
  Qed.

  Lemma step_ckptm st s c e l h v leo :
    R st s -> sim s (OCkptM c e l h v leo) (step st (OCkptM c e l h v leo)).
  Proof.
    intro HR. apply sim_of_call. unfold StoreCheckpointMonotonic.
    destruct (validateCheckpointMonotonicLocked (st_kv st) c (e, l, h) v leo) as [u|err].
    - pose proof (step_ckpt st s c e l h HR) as H. unfold sim in H. cbn [MsgStore.step] in H.
      destruct (StoreCheckpoint F st c (e, l, h)) as [st' r]. destruct H as [s' [H1 H2]].
      exists s'. split; [destruct r; exact H1|exact H2].
    - exists s. split; [reflexivity|exact HR].
  Qed.

  Lemma Rkv_ext kv s s' :
    (forall c, as_log s' c = as_log s c) -> as_tids s' = as_tids s -> Rkv kv s -> Rkv kv s'.
  Proof. intros Hl Ht. apply Rkv_same_logs; [exact Hl|rewrite Ht; auto]. Qed.

  Lemma R_ext st s s' :
    (forall c, as_log s' c = as_log s c) -> as_tids s' = as_tids s -> R st s -> R st s'.
  Proof.
    intros Hl Ht [HR Hc]. split; [eapply Rkv_ext; eassumption|]. intros c Hld. rewrite Hl. apply Hc. exact Hld.
  Qed.

  Lemma npair_eqb_eq a b : npair_eqb a b = true <-> a = b.
  Proof.
    destruct a, b. unfold npair_eqb. cbn [fst snd]. rewrite andb_true_iff, !N.eqb_eq. split; [intros []; subst; reflexivity|intro H; injection H; auto].
  Qed.

  Lemma existsb_npair p l : existsb (npair_eqb p) l = true <-> In p l.
  Proof.
    rewrite existsb_exists. split.
    - intros [x [Hx E]]. apply npair_eqb_eq in E. subst. exact Hx.
    - intro H. exists p. split; [exact H|apply npair_eqb_eq; reflexivity].
  Qed.

  Lemma add_hist_in l p : In p (al_hist l) -> add_hist l p = l.
  Proof.
    intro H. unfold add_hist. apply existsb_npair in H. rewrite H. destruct l; reflexivity.
  Qed.

  Lemma sys_hist c o e : sys_batch [Put (KyHist c o e) VUnit].
  Proof. intros k Hk. destruct k; cbn in Hk |- *; try reflexivity; discriminate. Qed.

  Lemma hist_Rkv kv s c off ep :
    Rkv kv s ->
    Rkv (kapply kv [Put (KyHist c off ep) VUnit]) (set_log s c (add_hist (as_log s c) (off, ep))).
  Proof.
    intro HR. set (kv' := kapply kv [Put (KyHist c off ep) VUnit]).
    assert (W' : swf kv') by (apply swf_apply; apply HR).
    assert (G : forall k, kget k kv' = if key_eqb k (KyHist c off ep) then Some VUnit else kget k kv).
    { intro k. unfold kv'. rewrite kget_apply. reflexivity. }
    apply (Rkv_sys kv s); [apply sys_hist|exact HR|reflexivity|].
    intro c0. fold kv'. destruct (rk_chan _ _ HR c0) as [rows Rc].
    assert (Hck : loadCheckpoint kv' c0 = loadCheckpoint kv c0) by (apply loadCk_ext; rewrite G; reflexivity).
    destruct (N.eq_dec c0 c) as [->|Hne].
    - rewrite set_log_same. unfold add_hist. cbn [al_rows al_leo al_tpairs al_ck al_hist].
      repeat split; [rewrite Hck; apply Rc|].
      apply psorted_unique.
      + apply loadHistory_sorted. exact W'.
      + destruct (existsb (npair_eqb (off, ep)) (al_hist (as_log s c))) eqn:Ex.
        * rewrite <- (rc_hist _ _ _ _ Rc). apply loadHistory_sorted. apply HR.
        * apply insert_pair_sorted; [rewrite <- (rc_hist _ _ _ _ Rc); apply loadHistory_sorted; apply HR|].
          intro Hin. apply existsb_npair in Hin. rewrite Hin in Ex. discriminate.
      + intros [o e]. rewrite (in_loadHistory _ _ _ _ W'). unfold has. rewrite G.
        assert (Hold : In (o, e) (al_hist (as_log s c)) <-> kget (KyHist c o e) kv <> None).
        { rewrite <- (rc_hist _ _ _ _ Rc). apply (in_loadHistory _ _ _ _ (rk_wf _ _ HR)). }
        destruct (key_eqb (KyHist c o e) (KyHist c off ep)) eqn:Ek.
        * apply key_eqb_eq in Ek. injection Ek as -> ->. split; [intros _|intros _; discriminate].
          destruct (existsb (npair_eqb (off, ep)) (al_hist (as_log s c))) eqn:Ex;
            [apply existsb_npair; exact Ex|apply insert_pair_in; left; reflexivity].
        * assert (Hne : (o, e) <> (off, ep)) by (intro X; injection X as -> ->; rewrite key_eqb_refl in Ek; discriminate).
          rewrite <- Hold. destruct (existsb (npair_eqb (off, ep)) (al_hist (as_log s c))); [tauto|].
          rewrite insert_pair_in. split; [intro H; right; exact H|intros [H|H]; [contradiction|exact H]].
    - rewrite set_log_other by exact Hne. repeat split; [rewrite Hck; apply Rc|].
      rewrite (loadHistory_ext kv kv' c0 (rk_wf _ _ HR) W'); [apply Rc|].
      intros o e. rewrite G. cbn [key_eqb]. apply N.eqb_neq in Hne. rewrite Hne. reflexivity.
  Qed.

  Lemma add_hist_leo s c p c' : al_leo (as_log (set_log s c (add_hist (as_log s c) p)) c') = al_leo (as_log s c').
  Proof. apply set_log_leo. reflexivity. Qed.

  Lemma should_false_in points epoch off :
    shouldAppendHistoryPoint points epoch off = ok false -> In (off, epoch) points.
  Proof.
    unfold shouldAppendHistoryPoint. destruct (epoch =? 0); [discriminate|].
    destruct (rev points) as [|[loff lep] rest] eqn:Er; [discriminate|].
    destruct (lep <? epoch); [destruct (off <? loff); discriminate|].
    destruct ((epoch =? lep) && (off =? loff)) eqn:E; [|discriminate].
    intros _. beq. subst. apply in_rev. rewrite Er. left. reflexivity.
  Qed.

  (* [lg3] of [spec_mutate] on [OApply]: checkpoint, then epoch point *)
  Definition apply_lg (lg1 : alog) (ck : option (N * N * N)) (ep : option (N * N)) : alog :=
    let lg2 := match ck with Some k => set_ck lg1 k | None => lg1 end in
    match ep with Some (epoch, off) => add_hist lg2 (off, epoch) | None => lg2 end.

  Lemma apply_lg_leo lg ck ep : al_leo (apply_lg lg ck ep) = al_leo lg.
  Proof. unfold apply_lg. destruct ck, ep as [[? ?]|]; reflexivity. Qed.

  Lemma set_log_twice s c l1 l2 c' : as_log (set_log (set_log s c l1) c l2) c' = as_log (set_log s c l2) c'.
  Proof.
    destruct (N.eq_dec c' c) as [->|Hne]; [rewrite !set_log_same; reflexivity|rewrite !set_log_other by exact Hne; reflexivity].
  Qed.

  Lemma set_log_id s c c' : as_log (set_log s c (as_log s c)) c' = as_log s c'.
  Proof.
    destruct (N.eq_dec c' c) as [->|Hne]; [rewrite set_log_same; reflexivity|rewrite set_log_other by exact Hne; reflexivity].
  Qed.

  Lemma Rkv_tail kv s c ck ep writeEpoch catb :
    Rkv kv s -> irrelevant_batch catb ->
    (forall epoch off, ep = Some (epoch, off) -> writeEpoch = false -> In (off, epoch) (al_hist (as_log s c))) ->
    Rkv (kapply kv ((match ck with Some k => ckpt_put c k | None => [] end)
                    ++ (match ep with
                        | Some (epoch, off) => if writeEpoch then [Put (KyHist c off epoch) VUnit] else []
                        | None => []
                        end)
                    ++ catb))
        (set_log s c (apply_lg (as_log s c) ck ep)).
  Proof.
    intros HR Hcat Hep.
    rewrite !kapply_app. apply Rkv_irrelevant; [exact Hcat|].
    set (s2 := match ck with Some k => set_log s c (set_ck (as_log s c) k) | None => s end).
    assert (H2 : Rkv (kapply kv (match ck with Some k => ckpt_put c k | None => [] end)) s2).
    { unfold s2. destruct ck as [k|]; [|exact HR].
      pose proof (ckpt_Rkv kv s c k [] (fun _ _ => eq_refl) HR) as H. rewrite app_nil_r in H. exact H. }
    assert (Hl2 : as_log s2 c = match ck with Some k => set_ck (as_log s c) k | None => as_log s c end).
    { unfold s2. destruct ck; [apply set_log_same|reflexivity]. }
    assert (Ht2 : as_tids s2 = as_tids s) by (unfold s2; destruct ck; reflexivity).
    assert (Ho2 : forall c', c' <> c -> as_log s2 c' = as_log s c').
    { intros c' Hne. unfold s2. destruct ck; [apply set_log_other; exact Hne|reflexivity]. }
    assert (Hh2 : al_hist (as_log s2 c) = al_hist (as_log s c)) by (rewrite Hl2; destruct ck; reflexivity).
    destruct ep as [[epoch off]|].
    - destruct writeEpoch.
      + eapply Rkv_ext; [| |apply (hist_Rkv _ s2 c off epoch H2)].
        * intro c'. destruct (N.eq_dec c' c) as [->|Hne].
          -- rewrite !set_log_same. unfold apply_lg. rewrite Hl2. reflexivity.
          -- rewrite !set_log_other by exact Hne. symmetry. apply Ho2. exact Hne.
        * cbn [set_log as_tids]. symmetry. exact Ht2.
      + cbn [kapply apply_batch fold_left]. eapply Rkv_ext; [| |exact H2].
        * intro c'. destruct (N.eq_dec c' c) as [->|Hne].
          -- rewrite set_log_same. unfold apply_lg. rewrite <- Hl2. apply add_hist_in.
             rewrite Hh2. apply (Hep epoch off); reflexivity.
          -- rewrite set_log_other by exact Hne. symmetry. apply Ho2. exact Hne.
        * cbn [set_log as_tids]. symmetry. exact Ht2.
    - cbn [kapply apply_batch fold_left]. eapply Rkv_ext; [| |exact H2].
      + intro c'. destruct (N.eq_dec c' c) as [->|Hne].
        * rewrite set_log_same. unfold apply_lg. symmetry. exact Hl2.
        * rewrite set_log_other by exact Hne. symmetry. apply Ho2. exact Hne.
      + cbn [set_log as_tids]. symmetry. exact Ht2.
  Qed.

  Lemma spec_append_hist s c l : al_hist (as_log (spec_append s c l) c) = al_hist (as_log s c).
  Proof.
    revert s. induction l as [|a l IH]; intro s; [reflexivity|].
    rewrite spec_append_cons, IH, spec_append_one. cbn [as_log]. rewrite N.eqb_refl. reflexivity.
  Qed.

  Lemma step_apply st s c base recs ck ep :
    R st s -> In c all_chans ->
    sim s (OApply c base recs ck ep) (step st (OApply c base recs ck ep)).
  Proof.
    intros HR Hc. apply sim_of_call. unfold ApplyFetch.
    pose proof (walk_cases st s c recs AppendTrustedContiguous base HR) as Hw.
    destruct (walkAppendRowsLocked F f_may f_add st c recs AppendTrustedContiguous base) as [st1 [rows|e]].
    2:{ exists s. split; [reflexivity|exact Hw]. }
    destruct Hw as [HR1 [Hb Hrows]].
    destruct (match ck with
              | Some k => validateCheckpointMonotonicLocked (st_kv st1) c k _ _
              | None => ok tt
              end) as [u|e].
    2:{ exists s. split; [reflexivity|exact HR1]. }
    destruct (match ep with
              | Some (epoch, off) => shouldAppendHistoryPoint (loadHistory (st_kv st1) c) epoch off
              | None => ok false
              end) as [we|e] eqn:Eep.
    2:{ exists s. split; [reflexivity|exact HR1]. }
    destruct HR1 as [Hk1 Hc1]. destruct (rk_chan _ _ Hk1 c) as [rows0 Rc0].
    assert (Hep : forall epoch off, ep = Some (epoch, off) -> we = false -> In (off, epoch) (al_hist (as_log s c))).
    { intros epoch off -> ->. rewrite <- (rc_hist _ _ _ _ Rc0). apply should_false_in. exact Eep. }
    destruct recs as [|x recs].
    - subst rows.
      assert (HRt : forall catb, irrelevant_batch catb ->
                Rkv (kapply (st_kv st1) ([] ++ (match ck with Some k => ckpt_put c k | None => [] end)
                       ++ (match ep with
                           | Some (epoch, off) => if we then [Put (KyHist c off epoch) VUnit] else []
                           | None => [] end) ++ catb))
                    (set_log s c (apply_lg (as_log s c) ck ep))).
      { intros catb Hcat. cbn [app]. apply Rkv_tail; assumption. }
      assert (Hspec : spec_mutate s (OApply c base [] ck ep) (XApp 0 0 0)
                      = Some (set_log s c (apply_lg (as_log s c) ck ep))) by reflexivity.
      assert (Hleo : forall c', al_leo (as_log (set_log s c (apply_lg (as_log s c) ck ep)) c') = al_leo (as_log s c'))
        by (intro; apply set_log_leo, apply_lg_leo).
      destruct ck as [k|]; [|destruct we].
      + exists (set_log s c (apply_lg (as_log s c) (Some k) ep)). split; [exact Hspec|].
        apply (R_commit_same_leo F st1 s); [split; assumption|apply HRt; apply irrelevant_catalog|exact Hleo].
      + exists (set_log s c (apply_lg (as_log s c) None ep)). split; [exact Hspec|].
        apply (R_commit_same_leo F st1 s); [split; assumption|apply HRt; apply irrelevant_catalog|exact Hleo].
      + exists (set_log s c (apply_lg (as_log s c) None ep)). split; [exact Hspec|].
        (* nothing to write *)
        apply (R_ext st1 s); [| reflexivity |split; assumption].
        intro c'. destruct (N.eq_dec c' c) as [->|Hne]; [|rewrite set_log_other by exact Hne; reflexivity].
        rewrite set_log_same. unfold apply_lg. destruct ep as [[epoch off]|]; [|reflexivity].
        apply add_hist_in. apply (Hep epoch off); reflexivity.
    - destruct Hrows as [Er Hok].
      assert (Hne : rows <> []) by (rewrite Er; discriminate).
      assert (Hcs : consec (al_leo (as_log s c) + 1) rows) by (rewrite Er; apply rows_from_consec).
      destruct rows as [|rw0 rows1] eqn:Erows; [contradiction|]. rewrite <- Erows in *.
      set (s1 := spec_append s c (map arow_of rows)).
      assert (HR1 : Rkv (kapply (st_kv st1) (stageMessageRows c rows)) s1)
        by (apply add_rows_Rkv; [exact Hk1|exact Hc|exact Hok|exact Hcs]).
      assert (Hep1 : forall epoch off, ep = Some (epoch, off) -> we = false -> In (off, epoch) (al_hist (as_log s1 c))).
      { intros epoch off H1 H2. unfold s1. rewrite spec_append_hist. eapply Hep; eassumption. }
      exists (set_log s1 c (apply_lg (as_log s1 c) ck ep)). split.
      + cbn [snd out_of ok spec_mutate].
        rewrite (append_report s c base (x :: recs) rows Er) by (discriminate || exact Hb). reflexivity.
      + set (tailb := (match ck with Some k => ckpt_put c k | None => [] end)
                      ++ (match ep with
                          | Some (epoch, off) => if we then [Put (KyHist c off epoch) VUnit] else []
                          | None => [] end) ++ stageCatalogForAppend c (first_seq rows)).
        assert (Hgoal : R (set_leo F (commit F st1 (stageMessageRows c rows ++ tailb)) c (last_seq rows))
                          (set_log s1 c (apply_lg (as_log s1 c) ck ep))).
        { apply (R_commit_set_leo F st1 s); [split; assumption| | |].
          - rewrite kapply_app. apply Rkv_tail; [exact HR1|apply irrelevant_catalog_for_append|exact Hep1].
          - rewrite set_log_same, apply_lg_leo. unfold s1. apply spec_append_leo. exact Hne.
          - intros c' Hne'. rewrite set_log_other by exact Hne'. unfold s1. rewrite spec_append_other by exact Hne'. reflexivity. }
        rewrite Erows in Hgoal |- *. destruct ck as [k|]; [|destruct we]; exact Hgoal.
  Qed.

  Lemma filter_map_arow (p : N -> bool) rows :
    filter (fun a => p (m_seq (a_msg a))) (map arow_of rows) = map arow_of (filter (fun r => p (r_seq r)) rows).
  Proof.
    induction rows as [|r rows IH]; cbn [map filter]; [reflexivity|].
    cbn [arow_of a_msg m_seq messageFromRow]. destruct (p (r_seq r)); cbn [map]; rewrite IH; reflexivity.
  Qed.

  Definition ret_put (c : N) (ret : option (N * N * N)) : kbatch :=
    match ret with Some (l, p, rm) => [Put (KyRet c) (VTriple l p rm)] | None => [] end.

  (* The batch shape shared by truncation and prefix trim: the rows [keep] rejects are
     deleted with their index entries and the retention state is rewritten (or left).
     What has to be shown per operation is arithmetic about the new retention state. *)
  Lemma del_Rkv kv s c rows (keep : row -> bool) pre post ret leo' :
    Rkv kv s -> Rchan kv s c rows -> irrelevant_batch pre -> irrelevant_batch post ->
    let rows' := filter keep rows in
    let newret := match ret with Some x => Some x | None => loadRetentionState kv c end in
    (match newret with
     | Some (_, _, rm) => if max_seq rows' <? rm then rm else max_seq rows'
     | None => max_seq rows'
     end) = leo' ->
    Forall (fun r => r_seq r <= leo') rows' ->
    match newret with
    | Some (l, p, rm) => p <= l /\ l <= rm /\ rm <= leo' /\ l <> 0 /\ Forall (fun r => p < r_seq r) rows'
    | None => True
    end ->
    (forall q, match newret with Some (l, _, _) => l | None => 0 end < q <= leo' -> exists r, In r rows' /\ r_seq r = q) ->
    Rkv (kapply kv (pre ++ flat_map (stageDeleteMessage c) (filter (fun r => negb (keep r)) rows) ++ ret_put c ret ++ post))
        (set_log s c (AL (map arow_of rows') leo' (al_ck (as_log s c)) (al_hist (as_log s c)) (al_tpairs (as_log s c)))).
  Proof.
    intros HR Rc Hpre Hpost rows' newret Hleo Hle Hrt Hcontig.
    set (kv1 := kapply kv (flat_map (stageDeleteMessage c) (filter (fun r => negb (keep r)) rows))).
    set (kv2 := kapply kv _). set (s' := set_log s c _).
    assert (W2 : swf kv2) by (apply swf_apply; apply HR).
    assert (W1 : swf kv1) by (apply swf_apply; apply HR).
    assert (Hs_other : forall c', c' <> c -> as_log s' c' = as_log s c') by (intros; apply set_log_other; assumption).
    assert (Hs_c : as_log s' c = AL (map arow_of rows') leo' (al_ck (as_log s c)) (al_hist (as_log s c)) (al_tpairs (as_log s c)))
      by apply set_log_same.
    assert (Hs_tp : al_tpairs (as_log s' c) = al_tpairs (as_log s c)) by (rewrite Hs_c; reflexivity).
    (* only the retention key of [c] differs from the store after the deletes *)
    assert (G : forall k, irrelevant k = false ->
                  kget k kv2 = match ret with
                               | Some (l, p, rm) => if key_eqb k (KyRet c) then Some (VTriple l p rm) else kget k kv1
                               | None => kget k kv1
                               end).
    { intros k Hk. unfold kv2, kv1. rewrite !kget_apply, !keff_app.
      rewrite (keff_untouched irrelevant k pre), (keff_untouched irrelevant k post) by assumption. destruct ret as [[[l p] rm]|]; reflexivity. }
    assert (Gn : forall k, irrelevant k = false -> k <> KyRet c -> kget k kv2 = kget k kv1).
    { intros k Hk Hn. rewrite (G k Hk). destruct ret as [[[l p] rm]|]; [|reflexivity].
      destruct (key_eqb k (KyRet c)) eqn:E; [apply key_eqb_eq in E; contradiction|reflexivity]. }
    assert (Hret2 : loadRetentionState kv2 c = newret).
    { unfold loadRetentionState at 1, newret. rewrite G by reflexivity. destruct ret as [[[l p] rm]|].
      - rewrite key_eqb_refl. reflexivity.
      - unfold kv1. rewrite (del_sys kv c rows keep) by reflexivity. reflexivity. }
    assert (Hget2 : forall q r, kget (KyRow c q) kv2 = Some (VRow r) <-> In r rows' /\ r_seq r = q).
    { intros q r. rewrite Gn by (reflexivity || discriminate). apply (del_rc_get kv s c rows keep Rc). }
    constructor.
    - exact W2.
    - intro c0. destruct (N.eq_dec c0 c) as [->|Hne].
      + exists rows'. constructor; rewrite ?Hs_c, ?Hret2; cbn [al_rows al_leo al_ck al_hist al_tpairs].
        * reflexivity.
        * apply StronglySorted_filter. apply Rc.
        * exact Hget2.
        * apply Forall_filter. apply Rc.
        * rewrite (recoverLEO_char _ _ _ W2 Hget2), Hret2. exact Hleo.
        * exact Hle.
        * exact Hrt.
        * unfold local_of. rewrite Hret2. exact Hcontig.
        * intros n q. unfold has. rewrite Gn by (reflexivity || discriminate). apply (del_cidx kv s c rows keep Rc).
        * intros u q. unfold has. rewrite Gn by (reflexivity || discriminate). apply (del_sseq kv s c rows keep Rc).
        * intros n u q i h. rewrite Gn by (reflexivity || discriminate). apply (del_idem_sound kv s c rows keep Rc).
        * intros r Hr Hu Hn Ht. rewrite Gn by (reflexivity || discriminate).
          apply (del_idem_complete kv s s' c rows keep Rc Hs_tp r Hr Hu Hn). rewrite Hs_c. exact Ht.
        * rewrite (loadCk_ext kv kv2); [apply Rc|]. rewrite Gn by (reflexivity || discriminate).
          apply (del_sys kv c rows keep). reflexivity.
        * rewrite (loadHistory_ext kv kv2 c (rk_wf _ _ HR) W2); [apply Rc|].
          intros o e. rewrite Gn by (reflexivity || discriminate). apply (del_sys kv c rows keep). reflexivity.
      + destruct (del_Rchan_other kv s s' c rows keep HR Hs_other c0 Hne) as [rows0 Rc0].
        exists rows0. apply (Rchan_frame kv1 kv2 s' s' c0 rows0 W1 W2); [|reflexivity|exact Rc0].
        intros k Hk. apply Gn; [destruct k; try reflexivity; discriminate Hk|].
        intros ->. cbn [key_of_chan] in Hk. apply N.eqb_eq in Hk. congruence.
    - intros i c0 q0 Gg. rewrite Gn in Gg by (reflexivity || discriminate).
      destruct (del_gid_sound kv s c rows keep HR Rc _ _ _ Gg) as [r [Gr Hi]].
      exists r. split; [rewrite Gn by (reflexivity || discriminate); exact Gr|exact Hi].
    - intros c0 q0 r Gr Ht. rewrite Gn in Gr by (reflexivity || discriminate). rewrite Gn by (reflexivity || discriminate).
      apply (del_gid_complete kv s s' c rows keep HR Rc eq_refl _ _ _ Gr Ht).
    - intros c0 q0 v Gr. rewrite Gn in Gr by (reflexivity || discriminate).
      eapply (del_chans_only kv s c rows keep HR). exact Gr.
  Qed.

  Lemma retention_after_truncate kv c to retb :
    retentionStateAfterTruncate kv c to = ok retb ->
    exists ret, retb = ret_put c ret /\
      match loadRetentionState kv c with
      | Some (l, p, rm) => l <= to /\ ret = if to <? rm then Some (l, p, to) else None
      | None => ret = None
      end.
  Proof.
    unfold retentionStateAfterTruncate. destruct (loadRetentionState kv c) as [[[l p] rm]|].
    - destruct (to <? l) eqn:El; [discriminate|]. apply N.ltb_ge in El.
      destruct (to <? rm); intro H; injection H as <-; eexists; (split; [|split; [exact El|reflexivity]]); reflexivity.
    - intro H. injection H as <-. exists None. split; reflexivity.
  Qed.

  Lemma trunc_Rkv kv s c rows to retb propb catb :
    Rkv kv s -> Rchan kv s c rows -> to <= al_leo (as_log s c) ->
    retentionStateAfterTruncate kv c to = ok retb ->
    irrelevant_batch propb -> irrelevant_batch catb ->
    Rkv (kapply kv (propb ++ flat_map (stageDeleteMessage c) (filter (fun r => negb (r_seq r <=? to)) rows) ++ retb ++ catb))
        (set_log s c (keep_rows (fun q => q <=? to) (as_log s c) to)).
  Proof.
    intros HR Rc Hto Hret Hprop Hcat.
    destruct (retention_after_truncate _ _ _ _ Hret) as [ret [-> Hr]].
    unfold keep_rows. rewrite (rc_rows _ _ _ _ Rc), (filter_map_arow (fun q => q <=? to)).
    set (rows' := filter (fun r => r_seq r <=? to) rows).
    assert (Hlt : forall r, In r rows' <-> In r rows /\ r_seq r <= to).
    { intro r. unfold rows'. rewrite filter_In, N.leb_le. tauto. }
    assert (Hm : max_seq rows' <= to) by (apply max_seq_le, Forall_forall; intros r Hr0; apply Hlt, Hr0).
    (* every sequence between the retention boundary and [to] is stored: [to] itself is the last row *)
    assert (Hex : local_of kv c < to -> max_seq rows' = to).
    { intro Hl. destruct (rc_contig _ _ _ _ Rc to) as [r [Hr0 Hs]]; [lia|].
      apply N.le_antisymm; [exact Hm|]. rewrite <- Hs. apply max_seq_in. apply Hlt. split; [exact Hr0|lia]. }
    pose proof (rc_ret _ _ _ _ Rc) as Hrt. pose proof (rc_contig _ _ _ _ Rc) as Hcg. unfold local_of in Hex, Hcg.
    apply (del_Rkv kv s c rows (fun r => r_seq r <=? to)); try assumption; fold rows'.
    - destruct (loadRetentionState kv c) as [[[l p] rm]|]; [destruct Hr as [Hl ->]; destruct (N.ltb_spec to rm)|subst ret].
      + destruct (N.ltb_spec (max_seq rows') to); lia.
      + destruct (N.ltb_spec (max_seq rows') rm); destruct (N.eq_dec l to); lia.
      + destruct (N.eq_dec to 0); lia.
    - apply Forall_forall. intros r Hr0. apply Hlt, Hr0.
    - destruct (loadRetentionState kv c) as [[[l p] rm]|]; [|subst ret; exact I].
      destruct Hr as [Hl ->]. destruct Hrt as [H1 [H2 [H3 [H4 H5]]]].
      destruct (N.ltb_spec to rm); repeat split; try assumption; try lia; apply Forall_filter; exact H5.
    - intros q Hq. destruct (Hcg q) as [r [Hr0 Hs]].
      + destruct (loadRetentionState kv c) as [[[l p] rm]|]; [destruct Hr as [_ ->]; destruct (to <? rm)|subst ret]; lia.
      + exists r. split; [apply Hlt; split; [exact Hr0|lia]|exact Hs].
  Qed.

  Lemma trunc_R st s c to retb msgs rows :
    R st s -> Rchan (st_kv st) s c rows -> to < al_leo (as_log s c) ->
    retentionStateAfterTruncate (st_kv st) c to = ok retb ->
    msgs = filter (fun r => negb (r_seq r <=? to)) rows ->
    R (set_leo F (commit F st (stageTruncateDurableProposals c to ++ flat_map (stageDeleteMessage c) msgs ++ retb ++ stageCatalog c)) c to)
      (set_log s c (keep_rows (fun q => q <=? to) (as_log s c) to)).
  Proof.
    intros HR Rc Hto Hret ->.
    apply (R_commit_set_leo F st s); [exact HR| | |].
    - apply trunc_Rkv; [apply HR|exact Rc|lia|exact Hret|apply irrelevant_proposals|apply irrelevant_catalog].
    - rewrite set_log_same. reflexivity.
    - intros c' Hne. rewrite set_log_other by exact Hne. reflexivity.
  Qed.

  Lemma step_trunc st s c f :
    R st s ->
    sim s (OTrunc c f) (step st (OTrunc c f)).
  Proof.
    intro HR. apply sim_of_call. unfold TruncateFrom.
    set (f' := if f =? 0 then 1 else f).
    assert (Hf : 1 <= f') by (unfold f'; destruct (f =? 0) eqn:E; [lia|apply N.eqb_neq in E; lia]).
    destruct (loadLEO_R F st s c HR) as [H1 [H2 _]].
    destruct (loadLEOLocked st c) as [st1 leo]. cbn [fst snd] in H1, H2. subst leo.
    destruct (al_leo (as_log s c) <? f') eqn:El.
    - exists s. split; [|exact H2]. cbn [snd out_of ok spec_mutate]. fold f'. rewrite El. reflexivity.
    - apply N.ltb_ge in El.
      destruct (retentionStateAfterTruncate (st_kv st1) c (f' - 1)) as [retb|e] eqn:Eret.
      2:{ exists s. split; [reflexivity|exact H2]. }
      destruct H2 as [Hk Hc]. destruct (rk_chan _ _ Hk c) as [rows Rc].
      rewrite (readForward_above _ _ _ _ f' (f' - 1) (rk_wf _ _ Hk) Rc) by lia.
      exists (set_log s c (keep_rows (fun q => q <? f') (as_log s c) (f' - 1))). split.
      + cbn [snd out_of ok spec_mutate]. fold f'. apply N.ltb_ge in El. rewrite El. reflexivity.
      + apply (R_ext _ (set_log s c (keep_rows (fun q => q <=? f' - 1) (as_log s c) (f' - 1)))).
        * intro c'. destruct (N.eq_dec c' c) as [->|Hne]; [|rewrite !set_log_other by exact Hne; reflexivity].
          rewrite !set_log_same. unfold keep_rows. f_equal. apply filter_ext. intro a.
          destruct (m_seq (a_msg a) <? f') eqn:E1; destruct (m_seq (a_msg a) <=? f' - 1) eqn:E2; try reflexivity;
            [apply N.ltb_lt in E1; apply N.leb_gt in E2; lia|apply N.ltb_ge in E1; apply N.leb_le in E2; lia].
        * reflexivity.
        * apply (trunc_R st1 s c (f' - 1) retb _ rows); [split; assumption|exact Rc|lia|exact Eret|reflexivity].
  Qed.

  Lemma step_ctrunc st s c t :
    R st s ->
    sim s (OCTrunc c t) (step st (OCTrunc c t)).
  Proof.
    intro HR. apply sim_of_call. unfold CTruncate.
    destruct (loadLEO_R F st s c HR) as [H1 [H2 _]].
    destruct (loadLEOLocked st c) as [st1 leo]. cbn [fst snd] in H1, H2. subst leo.
    destruct (al_leo (as_log s c) <? t) eqn:El.
    { exists s. split; [reflexivity|exact H2]. }
    apply N.ltb_ge in El.
    destruct (t =? al_leo (as_log s c)) eqn:Ee.
    { apply N.eqb_eq in Ee. exists s. split; [|exact H2]. cbn [snd out_of ok spec_mutate].
      assert (X : (al_leo (as_log s c) <=? t) = true) by (apply N.leb_le; lia). rewrite X. reflexivity. }
    apply N.eqb_neq in Ee.
    destruct (retentionStateAfterTruncate (st_kv st1) c t) as [retb|e] eqn:Eret.
    2:{ exists s. split; [reflexivity|exact H2]. }
    destruct H2 as [Hk Hc]. destruct (rk_chan _ _ Hk c) as [rows Rc].
    rewrite (readForward_above _ _ _ _ (t + 1) t (rk_wf _ _ Hk) Rc eq_refl).
    exists (set_log s c (keep_rows (fun q => q <=? t) (as_log s c) t)). split.
    - cbn [snd out_of ok spec_mutate].
      assert (X : (al_leo (as_log s c) <=? t) = false) by (apply N.leb_gt; lia). rewrite X. reflexivity.
    - apply (trunc_R st1 s c t retb _ rows); [split; assumption|exact Rc|lia|exact Eret|reflexivity].
  Qed.

  Lemma sorted_split (P S : list row) :
    sorted_lt r_seq (P ++ S) -> Forall (fun r => 1 <= r_seq r) (P ++ S) ->
    filter (fun r => negb (last_seq P <? r_seq r)) (P ++ S) = P /\ filter (fun r => last_seq P <? r_seq r) (P ++ S) = S.
  Proof.
    intros Hs Hpos. destruct (sorted_app_inv _ _ _ Hs) as (SP & _ & Hc).
    assert (HP : forall r, In r P -> r_seq r <= last_seq P).
    { intros r Hr. unfold last_seq. destruct (rev P) as [|z zs] eqn:Er; [apply in_rev in Hr; rewrite Er in Hr; destruct Hr|].
      assert (HPz : P = rev zs ++ [z]) by (rewrite <- (rev_involutive P), Er; reflexivity).
      rewrite HPz in SP, Hr. destruct (sorted_app_inv _ _ _ SP) as (_ & _ & Hc2).
      apply in_app_or in Hr. destruct Hr as [Hr|[<-|[]]]; [|lia]. specialize (Hc2 r z Hr (or_introl eq_refl)). cbn in Hc2. lia. }
    assert (HS : forall r, In r S -> last_seq P < r_seq r).
    { intros r Hr. destruct P as [|p0 P0] eqn:EP.
      - eapply Forall_forall in Hpos; [|exact Hr]. unfold last_seq. cbn. lia.
      - destruct (last_seq_in (p0 :: P0)) as [z [Hz <-]]; [discriminate|]. apply (Hc z r Hz Hr). }
    rewrite !filter_app. split.
    - rewrite (filter_all _ P), (filter_none _ S); [apply app_nil_r| |].
      + intros r Hr. apply negb_false_iff. apply N.ltb_lt. apply HS. exact Hr.
      + intros r Hr. apply negb_true_iff. apply N.ltb_ge. apply HP. exact Hr.
    - rewrite (filter_none _ P), (filter_all _ S); [reflexivity| |].
      + intros r Hr. apply N.ltb_lt. apply HS. exact Hr.
      + intros r Hr. apply N.ltb_ge. apply HP. exact Hr.
  Qed.

  Lemma sorted_filter_split rows t : sorted_lt r_seq rows ->
    rows = filter (fun r => r_seq r <=? t) rows ++ filter (fun r => negb (r_seq r <=? t)) rows.
  Proof.
    unfold sorted_lt. induction 1 as [|x l Hs IH Ha]; [reflexivity|]. cbn [filter].
    destruct (r_seq x <=? t) eqn:E; cbn [negb app].
    - f_equal. exact IH.
    - (* everything after x is larger *)
      apply N.leb_gt in E.
      rewrite (filter_none (fun r => r_seq r <=? t) l), (filter_all _ l); [reflexivity| |].
      + intros y Hy. eapply Forall_forall in Ha; [|exact Hy]. apply negb_true_iff. apply N.leb_gt. lia.
      + intros y Hy. eapply Forall_forall in Ha; [|exact Hy]. apply N.leb_gt. lia.
  Qed.

  Lemma last_seq_map P : match rev (map arow_of P) with a :: _ => m_seq (a_msg a) | [] => 0 end = last_seq P.
  Proof. unfold last_seq. rewrite <- map_rev. destruct (rev P); reflexivity. Qed.

  (* What the trim reads and deletes, as lists.  [A]: the rows at or below [t] in
     sequence order; the read returns a prefix [X] of them (one row more than the
     count limit), the count limit cuts it to [P].  If neither budget reports
     "more", nothing of [A] is left. *)
  Lemma trim_read A t mm mb X :
    sorted_lt r_seq A -> Forall (fun r => r_seq r <= t) A ->
    read_loop A (if (0 <? mm)%Z then (mm + 1)%Z else 0%Z) mb [] 0%Z = ok X ->
    let more1 := (0 <? mm)%Z && (mm <? Z.of_nat (length X))%Z in
    let P := if more1 then firstn_rows mm X else X in
    let more2 := (0 <? mb)%Z && match rev P with r :: _ => r_seq r <? t | [] => false end in
    exists rest, A = P ++ rest /\ (more1 || more2 = false -> rest = [])
                 /\ (negb (0 <? mm)%Z || (Z.of_N (N.of_nat (length P)) <=? mm)%Z) = true.
  Proof.
    intros HsA HleA HX more1 P more2.
    destruct (read_loop_prefix A _ mb [] 0%Z X HX) as [X' [Y [EX [EA Hstop]]]].
    cbn [rev app] in EX. subst X'. cbn [length Nat.add] in Hstop.
    assert (HPX : exists X2, X = P ++ X2).
    { unfold P. destruct more1; [exists (skipn (Z.to_nat mm) X); unfold firstn_rows; symmetry; apply firstn_skipn|exists []; symmetry; apply app_nil_r]. }
    destruct HPX as [X2 EXP].
    exists (X2 ++ Y). split; [rewrite EA, EXP at 1; symmetry; apply app_assoc|]. split.
    - intro Hm. apply orb_false_iff in Hm. destruct Hm as [Hm1 Hm2].
      assert (EP : P = X) by (unfold P; rewrite Hm1; reflexivity).
      assert (EX2 : X2 = []).
      { rewrite EP in EXP. destruct X2; [reflexivity|]. exfalso.
        assert (L : length X = length (X ++ r :: X2)) by (rewrite <- EXP; reflexivity).
        rewrite app_length in L. cbn [length] in L. lia. }
      rewrite EX2. cbn [app]. destruct Y as [|y Y']; [reflexivity|]. exfalso.
      destruct Hstop as [[Ha Hb]|[Ha Hb]]; [discriminate| |].
      + (* the count limit stopped the read: then [more1] *)
        destruct (0 <? mm)%Z eqn:E0; [|lia].
        unfold more1 in Hm1. rewrite ?E0 in Hm1. cbn [andb] in Hm1. apply Z.ltb_ge in Hm1. lia.
      + (* the byte budget stopped it: then [more2], the last row read lies before the next row of [A] *)
        destruct Hb as [Hb|Hb]; [contradiction|].
        unfold more2 in Hm2. apply Z.ltb_lt in Ha. rewrite Ha in Hm2. cbn [andb] in Hm2. rewrite EP in Hm2.
        destruct (rev X) as [|z zs] eqn:Er.
        * apply Hb. rewrite <- (rev_involutive X), Er. reflexivity.
        * apply N.ltb_ge in Hm2.
          assert (HXz : X = rev zs ++ [z]) by (rewrite <- (rev_involutive X), Er; reflexivity).
          assert (Hy : In y A) by (rewrite EA; apply in_or_app; right; left; reflexivity).
          assert (Hzy : r_seq z < r_seq y).
          { rewrite EA in HsA. destruct (sorted_app_inv _ _ _ HsA) as (_ & _ & Hc0).
            apply Hc0; [rewrite HXz; apply in_or_app; right; left; reflexivity|left; reflexivity]. }
          eapply Forall_forall in HleA; [|exact Hy]. lia.
    - destruct (0 <? mm)%Z eqn:E1; [|reflexivity]. cbn [negb orb]. apply Z.leb_le. rewrite nat_N_Z.
      unfold P. destruct more1 eqn:Em1.
      + unfold firstn_rows. rewrite firstn_length. lia.
      + unfold more1 in Em1. rewrite ?E1 in Em1. cbn [andb] in Em1. apply Z.ltb_ge in Em1. exact Em1.
  Qed.

  Lemma trim_spec s c t mm mb P S more :
    t <> 0 -> al_rows (as_log s c) = map arow_of (P ++ S) ->
    (forall r, In r P -> r_seq r <= t) -> (more = false -> forall r, In r S -> t < r_seq r) ->
    (negb (0 <? mm)%Z || (Z.of_N (N.of_nat (length P)) <=? mm)%Z) = true ->
    spec_mutate s (OTrim c t mm mb) (XTrim (last_seq P) (N.of_nat (length P)) more)
    = Some (set_log s c (AL (map arow_of S) (N.max (al_leo (as_log s c)) t)
                            (al_ck (as_log s c)) (al_hist (as_log s c)) (al_tpairs (as_log s c)))).
  Proof.
    intros Et Hrows HP HS C3. cbn [spec_mutate].
    assert (E0 : (t =? 0) = false) by (apply N.eqb_neq; exact Et). rewrite E0.
    rewrite Hrows, map_app, Nat2N.id.
    rewrite <- (map_length arow_of P). rewrite firstn_app_exact, skipn_app_exact.
    rewrite map_length, Nat.eqb_refl, last_seq_map, N.eqb_refl. cbn [andb].
    assert (C1 : all_le t (map arow_of P) = true).
    { unfold all_le. apply forallb_forall. intros a Ha. apply in_map_iff in Ha. destruct Ha as [r [<- Hr]].
      cbn. apply N.leb_le. apply HP. exact Hr. }
    assert (C2 : (more || none_le t (map arow_of S)) = true).
    { destruct more; [reflexivity|]. cbn [orb].
      unfold none_le. apply forallb_forall. intros a Ha. apply in_map_iff in Ha. destruct Ha as [r [<- Hr]].
      cbn. apply negb_true_iff. apply N.leb_gt. apply (HS eq_refl). exact Hr. }
    rewrite C1, C2, C3. reflexivity.
  Qed.

  (* the retention state as the trim reads it: absent = zeros *)
  Lemma retention_or_zero kv s c rows l0 p0 r0 :
    Rchan kv s c rows ->
    match loadRetentionState kv c with Some x => x | None => (0, 0, 0) end = (l0, p0, r0) ->
    p0 <= l0 /\ l0 <= r0 /\ r0 <= al_leo (as_log s c) /\ Forall (fun r => p0 < r_seq r) rows /\ local_of kv c = l0.
  Proof.
    intros Rc E. pose proof (rc_ret _ _ _ _ Rc) as Hrt. unfold local_of.
    destruct (loadRetentionState kv c) as [[[l p] rm]|]; injection E as <- <- <-.
    - destruct Hrt as [A [B [C [_ D]]]]. repeat split; assumption.
    - repeat split; try lia. eapply Forall_impl; [|apply (rc_ok _ _ _ _ Rc)]. intros r [_ [_ [_ H]]]. lia.
  Qed.

  Lemma trim_Rkv kv s c rows P S t more l0 p0 r0 :
    Rkv kv s -> Rchan kv s c rows -> rows = P ++ S -> t <> 0 ->
    match loadRetentionState kv c with Some x => x | None => (0, 0, 0) end = (l0, p0, r0) ->
    (forall r, In r P -> r_seq r <= t) -> (more = false -> forall r, In r S -> t < r_seq r) ->
    let leo := al_leo (as_log s c) in
    let dt := last_seq P in
    let p1 := if negb more && (p0 <? t) then t else if p0 <? dt then dt else p0 in
    Rkv (kapply kv (flat_map (stageDeleteMessage c) P
                    ++ [Put (KyRet c) (VTriple (N.max l0 t) p1 (N.max (N.max r0 t) leo))] ++ stageCatalog c))
        (set_log s c (AL (map arow_of S) (N.max leo t) (al_ck (as_log s c)) (al_hist (as_log s c)) (al_tpairs (as_log s c)))).
  Proof.
    intros Hk Rc Hrows Et Er3 HPA HSm leo dt p1.
    destruct (retention_or_zero _ _ _ _ _ _ _ Rc Er3) as (Hpl & Hlr & Hrl & Hp0 & Hloc). fold leo in Hrl.
    assert (Hpos : Forall (fun r => 1 <= r_seq r) rows).
    { eapply Forall_impl; [|apply (rc_ok _ _ _ _ Rc)]. intros r [_ [_ [_ H]]]. exact H. }
    assert (Hsrt : sorted_lt r_seq (P ++ S)) by (rewrite <- Hrows; apply Rc).
    destruct (sorted_split P S Hsrt ltac:(rewrite <- Hrows; exact Hpos)) as [HfP HfS].
    fold dt in HfP, HfS.
    rewrite <- Hrows in HfP, HfS.
    assert (Hdt : dt <= t).
    { unfold dt. destruct P as [|z zs] eqn:EP; [unfold last_seq; cbn; lia|].
      destruct (last_seq_in (z :: zs)) as [r [Hr Hs]]; [discriminate|]. rewrite <- Hs. apply HPA. exact Hr. }
    assert (HleS : forall r, In r S -> r_seq r <= leo).
    { intros r Hr. pose proof (rc_le_leo _ _ _ _ Rc) as Hle. eapply Forall_forall in Hle; [exact Hle|].
      rewrite Hrows. apply in_or_app. right. exact Hr. }
    pose proof (del_Rkv kv s c rows (fun r => dt <? r_seq r) [] (stageCatalog c)
                        (Some (N.max l0 t, p1, N.max (N.max r0 t) leo)) (N.max leo t)
                        Hk Rc (fun _ _ => eq_refl) (irrelevant_catalog c)) as G.
    cbv beta zeta in G. rewrite HfP, HfS in G. apply G; clear G.
    - assert (HmS : max_seq S <= leo) by (apply max_seq_le, Forall_forall; exact HleS).
      destruct (max_seq S <? N.max (N.max r0 t) leo) eqn:E; [lia|]. apply N.ltb_ge in E. lia.
    - apply Forall_forall. intros r Hr. apply HleS in Hr. lia.
    - unfold p1. repeat split; try lia.
      + destruct (negb more && (p0 <? t)); [lia|]. destruct (p0 <? dt) eqn:E; [|lia]. lia.
      + apply Forall_forall. intros r Hr.
        assert (Hrs : dt < r_seq r).
        { assert (X0 : In r (filter (fun r => dt <? r_seq r) rows)) by (rewrite HfS; exact Hr).
          apply filter_In in X0. apply N.ltb_lt. apply X0. }
        assert (Hrp : p0 < r_seq r).
        { eapply Forall_forall in Hp0; [exact Hp0|]. rewrite Hrows. apply in_or_app. right. exact Hr. }
        destruct (negb more && (p0 <? t)) eqn:E.
        * apply andb_true_iff in E. destruct E as [E _]. apply negb_true_iff in E. apply (HSm E r Hr).
        * destruct (p0 <? dt); lia.
    - intros q Hq.
      destruct (rc_contig _ _ _ _ Rc q) as [r [Hr Hs]]; [rewrite Hloc; fold leo; lia|].
      exists r. split; [|exact Hs]. rewrite Hrows in Hr. apply in_app_or in Hr. destruct Hr as [Hr|Hr]; [|exact Hr].
      exfalso. apply HPA in Hr. lia.
  Qed.

  Lemma step_trim st s c t mm mb :
    R st s ->
    sim s (OTrim c t mm mb) (step st (OTrim c t mm mb)).
  Proof.
    intro HR. apply sim_of_call. unfold TrimPrefixThroughLimit.
    destruct (t =? 0) eqn:Et.
    { exists s. split; [cbn [snd out_of ok spec_mutate]; rewrite Et; reflexivity|exact HR]. }
    apply N.eqb_neq in Et.
    destruct (loadLEO_R F st s c HR) as [H1 [H2 _]].
    destruct (loadLEOLocked st c) as [st1 leo]. cbn [fst snd] in H1, H2. subst leo.
    destruct H2 as [Hk Hc]. destruct (rk_chan _ _ Hk c) as [rows Rc].
    destruct (match loadRetentionState (st_kv st1) c with Some x => x | None => (0, 0, 0) end) as [[l0 p0] r0] eqn:Er3.
    destruct (retention_or_zero _ _ _ _ _ _ _ Rc Er3) as (_ & _ & Hrl & Hp0 & _).
    set (A := filter (fun r => r_seq r <=? t) rows).
    set (B := filter (fun r => negb (r_seq r <=? t)) rows).
    assert (HAB : rows = A ++ B) by (apply sorted_filter_split; apply Rc).
    set (limit := if (0 <? mm)%Z then (mm + 1)%Z else 0%Z).
    assert (Hrd : readForward (st_kv st1) c (p0 + 1) t limit mb = read_loop A limit mb [] 0%Z).
    { unfold readForward. rewrite (Rchan_rows_of _ _ _ _ (rk_wf _ _ Hk) Rc). f_equal. unfold A.
      apply filter_ext_in. intros r Hr. eapply Forall_forall in Hp0; [|exact Hr].
      assert (E1 : (p0 + 1 <=? r_seq r) = true) by (apply N.leb_le; lia).
      assert (E2 : (t =? 0) = false) by (apply N.eqb_neq; exact Et). rewrite E1, E2. reflexivity. }
    rewrite Hrd.
    assert (HokA : Forall (row_ok c) A) by (apply Forall_filter; apply Rc).
    assert (HleA : Forall (fun r => r_seq r <= t) A).
    { apply Forall_forall. intros r Hr. apply filter_In in Hr. apply N.leb_le, Hr. }
    destruct (read_loop_take c A HokA limit mb [] 0%Z) as [X [HX _]]. cbn [rev app] in HX. rewrite HX.
    cbv zeta.
    set (more1 := (0 <? mm)%Z && (mm <? Z.of_nat (length X))%Z).
    set (P := if more1 then firstn_rows mm X else X).
    set (more := more1 || ((0 <? mb)%Z && match rev P with r :: _ => r_seq r <? t | [] => false end)).
    destruct (trim_read A t mm mb X (StronglySorted_filter _ _ _ (rc_sorted _ _ _ _ Rc)) HleA HX) as [rest [EA [Hnomore C3]]].
    set (S := rest ++ B).
    assert (Hrows : rows = P ++ S) by (unfold S; rewrite HAB, EA; symmetry; apply app_assoc).
    assert (HPA : forall r, In r P -> r_seq r <= t).
    { intros r Hr. eapply Forall_forall in HleA; [exact HleA|]. rewrite EA. apply in_or_app. left. exact Hr. }
    assert (HS : more = false -> forall r, In r S -> t < r_seq r).
    { intros Hm r Hr. unfold S in Hr. rewrite (Hnomore Hm) in Hr. apply filter_In in Hr. destruct Hr as [_ Hr].
      apply negb_true_iff in Hr. apply N.leb_gt. exact Hr. }
    exists (set_log s c (AL (map arow_of S) (N.max (al_leo (as_log s c)) t) (al_ck (as_log s c)) (al_hist (as_log s c)) (al_tpairs (as_log s c)))).
    split.
    - cbn [snd out_of ok]. apply trim_spec; [exact Et|rewrite (rc_rows _ _ _ _ Rc), Hrows; reflexivity|exact HPA|exact HS|exact C3].
    - apply (R_commit_set_leo F st1 s); [split; assumption| | |].
      + apply (trim_Rkv (st_kv st1) s c rows P S t more l0 p0 r0); assumption.
      + rewrite set_log_same. cbn [al_leo]. lia.
      + intros c' Hne. rewrite set_log_other by exact Hne. reflexivity.
  Qed.
End Ops.
