(* Proof/RaftDriver_steps.v — C12: the op list of every step of the driver model
   is a valid sequence (Proof/RaftDriver_inv.v) under the library hypotheses, and
   the step re-establishes the step-boundary invariant.  Hence the invariant
   holds in every reachable state, whatever the schedule and wherever a crash
   cuts a step.

   The step-boundary invariant only looks at six components of the state (the
   [view]); a valid micro-operation acts on them as the function [vstep]
   ([exec_view]).  So each step needs two things: that every operation of its
   list is valid in the state it meets, and a calculation on views. *)
From WK Require Import Base.Base Model.RaftDriver Proof.RaftDriver_lists Proof.RaftDriver_exec Proof.RaftDriver_inv.
From Coq Require Import Sorted ZifyBool ZifyN ZifyNat.
Open Scope N_scope.

Record view := mkView {
  w_pos : N; w_applied : N; w_queue : list task; w_applying : N; w_dur : dur; w_tr : list entry }.

Definition view_of (s : node) : view :=
  mkView (g_pos s) (v_applied s) (v_queue s) (v_applying s) (dur_of s) (applied_tr (n_tr s)).

(* the effect of an operation on the view.  For OCall and OMarkApplied it is the effect of a VALID operation
   only (exec takes sm_idx as the default of lastApplied and may set v_failed; validity excludes both); for the
   other operations it is unconditional.  See exec_view. *)
Definition vstep (o : mop) (v : view) : view :=
  match o with
  | OSave hs ents snap =>
      mkView (w_pos v) (w_applied v) (w_queue v) (w_applying v) (dur_save (w_dur v) hs ents (snap_meta snap)) (w_tr v)
  | ORestore i _ => mkView i (w_applied v) (w_queue v) (w_applying v) (w_dur v) (w_tr v)
  | OCall c => mkView (lastApplied c (w_pos v)) (w_applied v) (w_queue v) (w_applying v) (w_dur v) (w_tr v ++ c)
  | OMarkApplied i =>
      if i <=? w_applied v then v
      else mkView (N.max (w_pos v) i) i (w_queue v) (w_applying v) (w_dur v) (w_tr v)
  | OEnqueue t => mkView (w_pos v) (w_applied v) (w_queue v ++ [t]) (w_applying v) (w_dur v) (w_tr v)
  | ODequeue => mkView (w_pos v) (w_applied v) (tl (w_queue v)) (w_applying v) (w_dur v) (w_tr v)
  | OAccept u => mkView (w_pos v) (w_applied v) (w_queue v) (N.max (w_applying v) u) (w_dur v) (w_tr v)
  | OCompactSave i =>
      mkView (w_pos v) (w_applied v) (w_queue v) (w_applying v) (dur_save (w_dur v) None [] (Some (i, 0))) (w_tr v)
  | _ => v
  end.

Definition vrun (ops : list mop) (v : view) : view := fold_left (fun v o => vstep o v) ops v.

Lemma vrun_cons o r v : vrun (o :: r) v = vrun r (vstep o v).
Proof. reflexivity. Qed.

Lemma vrun_app a b v : vrun (a ++ b) v = vrun b (vrun a v).
Proof. apply fold_left_app. Qed.

Lemma view_eq s v :
  view_of s = v ->
  g_pos s = w_pos v /\ v_applied s = w_applied v /\ v_queue s = w_queue v /\ v_applying s = w_applying v
  /\ dur_of s = w_dur v /\ applied_tr (n_tr s) = w_tr v.
Proof. intros <-. repeat split; reflexivity. Qed.

Ltac vsimpl := cbn [vrun fold_left vstep view_of w_pos w_applied w_queue w_applying w_dur w_tr] in *.

Lemma vstep_mark_old i v : i <= w_applied v -> vstep (OMarkApplied i) v = v.
Proof. intro H. cbn [vstep]. destruct (N.leb_spec i (w_applied v)); [reflexivity | lia]. Qed.

Lemma vstep_mark_new i v :
  w_applied v < i ->
  vstep (OMarkApplied i) v = mkView (N.max (w_pos v) i) i (w_queue v) (w_applying v) (w_dur v) (w_tr v).
Proof. intro H. cbn [vstep]. destruct (N.leb_spec i (w_applied v)); [lia | reflexivity]. Qed.

Lemma vrun_calls calls : forall v,
  vrun (map OCall calls) v
  = mkView (calls_end (w_pos v) calls) (w_applied v) (w_queue v) (w_applying v) (w_dur v) (w_tr v ++ concat calls).
Proof.
  induction calls as [|c calls IH]; intro v; cbn [map calls_end concat].
  - destruct v. vsimpl. rewrite app_nil_r. reflexivity.
  - rewrite vrun_cons, IH. vsimpl. rewrite <- app_assoc. reflexivity.
Qed.

Lemma applied_ok_stable d hs ents snap e :
  (forall h, hs = Some h -> hs_commit (u_hs d) <= hs_commit h) ->
  (forall x, In x ents -> hs_commit (u_hs d) < e_idx x) ->
  applied_ok d e = true -> applied_ok (dur_save d hs ents snap) e = true.
Proof.
  intros Hh He H. unfold applied_ok in *. apply andb_true_iff in H. destruct H as [Hc Hl].
  apply N.leb_le in Hc. unfold dur_save. cbn [u_hs u_log].
  apply andb_true_iff. split.
  - apply N.leb_le. destruct hs as [h|]; [specialize (Hh h eq_refl); lia | exact Hc].
  - rewrite log_get_put; [exact Hl|]. intros x Hx. specialize (He x Hx). lia.
Qed.

Section Steps.

Variable clog : N -> entry.
Hypothesis clog_idx : forall i, e_idx (clog i) = i.
Variable GS : entry -> Prop.
Variable TrackHyp : node -> list entry -> Prop.
(* the hypothesis about tracked entries only looks at the futures waiting in submittedProposals *)
Hypothesis TrackHyp_submitted :
  forall s s' ents, v_submitted s' = v_submitted s -> TrackHyp s ents -> TrackHyp s' ents.

Notation centries := (centries clog).
Notation clean := (clean clog).
Notation sound := (sound clog).
Notation complete := (complete clog).
Notation call_ok := (call_ok clog).
Notation calls_ok := (calls_ok clog).
Notation INV := (INV clog GS).
Notation mop_valid := (mop_valid clog GS TrackHyp).
Notation valid_seq := (valid_seq clog GS TrackHyp).
Notation snap_good := (snap_good clog).
Notation known := (known GS).

(* what the apply machinery leaves alone *)
Definition keeps (s s' : node) : Prop :=
  v_queue s' = v_queue s /\ v_applying s' = v_applying s /\ dur_of s' = dur_of s
  /\ v_submitted s' = v_submitted s /\ durable_sm s' = durable_sm s.

Lemma keeps_refl s : keeps s s.
Proof. unfold keeps. repeat split; reflexivity. Qed.

Lemma subset_refl (l : list entry) : forall x, In x l -> In x l.
Proof. auto. Qed.

Lemma exec_view o s : live s -> INV s -> mop_valid o s -> view_of (exec o s) = vstep o (view_of s).
Proof.
  intros L I V. unfold view_of. rewrite (exec_applied o s L). destruct (futs_op o) eqn:F.
  { destruct (exec_core o s F) as (sub & pend & l & out & ->).
    destruct o; try discriminate F; cbn [vstep]; rewrite app_nil_r; reflexivity. }
  exec_on L.
  destruct o as [hs ents snap| |ms|i c|c|idx| |t| |upto| |i|i]; try discriminate F;
    cbn [vstep w_pos w_applied w_queue w_applying w_dur w_tr RaftDriver_inv.mop_valid] in *; rewrite ?app_nil_r.
  - destruct hs, ents, snap as [[[? ?] ?]|]; reflexivity.
  - destruct ms; reflexivity.
  - reflexivity.
  - destruct V as [V _]. pose proof (call_ok_last_gt clog _ _ V) as Hgt. destruct V as (Hne & _).
    nsimpl. rewrite (lastApplied_default c (sm_idx s) (g_pos s) Hne). f_equal. lia.
  - destruct V as [_ Vs]. destruct (idx <=? v_applied s) eqn:Eg; [reflexivity|].
    apply N.leb_gt in Eg. unfold markApplied. rewrite (i_durable _ _ _ I).
    replace (idx <? sm_idx s) with false by (symmetry; apply N.ltb_ge; exact (Vs Eg)).
    destruct (sm_idx s =? idx); reflexivity.
  - reflexivity.
  - reflexivity.
  - reflexivity.
  - destruct (durable_sm s); reflexivity.
  - reflexivity.
Qed.

Lemma valid_run ops : forall s,
  live s -> INV s -> valid_seq ops s ->
  live (exec_all ops s) /\ INV (exec_all ops s) /\ view_of (exec_all ops s) = vrun ops (view_of s).
Proof.
  induction ops as [|o r IH]; intros s L I V; [split; [exact L | split; [exact I | reflexivity]]|].
  destruct V as [V1 V2]. specialize (V1 L). destruct (INV_exec clog clog_idx GS TrackHyp _ _ I L V1) as [I' L'].
  rewrite exec_all_cons, vrun_cons, <- (exec_view o s L I V1). apply IH; assumption.
Qed.

Lemma valid_cons o r s :
  live s -> INV s -> mop_valid o s ->
  (forall s', live s' -> INV s' -> view_of s' = vstep o (view_of s) -> valid_seq r s') ->
  valid_seq (o :: r) s.
Proof.
  intros L I V K. split; [intros _; exact V|].
  destruct (INV_exec clog clog_idx GS TrackHyp _ _ I L V) as [I' L']. apply K; [exact L' | exact I' | apply exec_view; assumption].
Qed.

Lemma valid_app a b s :
  live s -> INV s -> valid_seq a s ->
  (forall s', live s' -> INV s' -> view_of s' = vrun a (view_of s) -> valid_seq b s') ->
  valid_seq (a ++ b) s.
Proof.
  intros L I V K. apply valid_seq_app. split; [exact V|]. destruct (valid_run a s L I V) as (L' & I' & E). apply K; assumption.
Qed.

Lemma calls_valid calls : forall s,
  live s -> INV s -> calls_ok (g_pos s) calls ->
  (forall c, In c calls -> forallb (applied_ok (dur_of s)) c = true) ->
  valid_seq (map OCall calls) s.
Proof.
  induction calls as [|c calls IH]; intros s L I Hok Hp; [exact Logic.I|]. destruct Hok as [Hc Hrest].
  apply valid_cons; [exact L | exact I | split; [exact Hc | apply Hp; left; reflexivity]|].
  intros s' L' I' E. destruct (view_eq _ _ E) as (P & _ & _ & _ & D & _). vsimpl.
  apply IH; [exact L' | exact I' | rewrite P; exact Hrest|].
  intros c' Hc'. rewrite D. apply Hp. right. exact Hc'.
Qed.

Lemma In_ace_normal l c e :
  In c (applyCommittedEntries l) -> In e c -> In e l /\ is_normal e = true.
Proof.
  intros Hc He.
  assert (In e (concat (applyCommittedEntries l))) by (apply in_concat; exists c; split; assumption).
  rewrite ace_concat in H. apply filter_In in H. exact H.
Qed.

(* the list [map OCall (applyCommittedEntries (a+1 .. a+n)) ++ [OMarkApplied (a+n)]], from a state with pos <= a
   and no command in (pos, a]: it is valid (apply_range_valid) and moves pos and applied to a+n, appending the
   commands of the range to the applied entries (apply_range_view, applied_to) *)
Definition applied_to (v : view) (hi : N) (new : list entry) : view :=
  mkView hi hi (w_queue v) (w_applying v) (w_dur v) (w_tr v ++ new).

Lemma apply_range_view a k r v :
  w_applied v <= w_pos v <= a -> clean (w_pos v) a ->
  vrun (map OCall (applyCommittedEntries (centries a (S k))) ++ OMarkApplied (a + N.of_nat (S k)) :: r) v
  = vrun r (applied_to v (a + N.of_nat (S k)) (filter is_normal (centries a (S k)))).
Proof.
  intros Hpa Hcl. destruct (ace_ok clog clog_idx a (S k) (w_pos v)) as (_ & Cend & _); [lia | exact Hcl|]. cbn zeta in Cend.
  rewrite vrun_app, vrun_calls, vrun_cons, vstep_mark_new by (vsimpl; lia). vsimpl. rewrite ace_concat.
  unfold applied_to. f_equal. f_equal. lia.
Qed.

Lemma apply_range_valid a k r s :
  live s -> INV s -> g_pos s <= a -> clean (g_pos s) a ->
  (forall e, In e (centries a (S k)) -> is_normal e = true -> applied_ok (dur_of s) e = true) ->
  (forall s', live s' -> INV s' ->
     view_of s' = applied_to (view_of s) (a + N.of_nat (S k)) (filter is_normal (centries a (S k))) -> valid_seq r s') ->
  valid_seq (map OCall (applyCommittedEntries (centries a (S k))) ++ OMarkApplied (a + N.of_nat (S k)) :: r) s.
Proof.
  intros L I Hpa Hcl Hp K.
  destruct (ace_ok clog clog_idx a (S k) (g_pos s) Hpa Hcl) as (Cok & Cend & Ccl). cbn zeta in *.
  change (OMarkApplied (a + N.of_nat (S k)) :: r) with ([OMarkApplied (a + N.of_nat (S k))] ++ r). rewrite app_assoc.
  apply valid_app; [exact L | exact I | |].
  - apply valid_app; [exact L | exact I | |].
    + apply calls_valid; [exact L | exact I | exact Cok|]. intros c Hc. apply forallb_forall. intros e He.
      destruct (In_ace_normal _ _ _ Hc He) as [Hin Hn]. apply Hp; assumption.
    + intros s1 L1 I1 E1. rewrite vrun_calls in E1. destruct (view_eq _ _ E1) as (P1 & _). vsimpl.
      split; [intros _|exact Logic.I]. split; [rewrite P1; exact Ccl|]. intros _. pose proof (i_smpos _ _ _ I1). lia.
  - intros s' L' I' E. apply K; [exact L' | exact I'|]. rewrite E. apply (apply_range_view a k []); [|exact Hcl].
    pose proof (i_vapplied _ _ _ I). vsimpl. lia.
Qed.

Lemma resolve_valid a k tr s :
  applied_tr (n_tr s) = tr ++ filter is_normal (centries a k) ->
  mop_valid (OResolve (filter is_normal (centries a k))) s.
Proof.
  intros T e He. split.
  - apply filter_In in He. destruct He as [Hin _].
    apply (In_centries clog) in Hin. destruct Hin as (i & _ & ->). rewrite clog_idx. reflexivity.
  - rewrite T. apply in_or_app. right. exact He.
Qed.

(* between two steps nothing is half applied (pos = applied); the queued tasks, concatenated, are the committed
   entries pos+1 .. applying, i.e. what the library has handed over and the pipeline has not run; no task is
   empty; every queued command is in the durable log at or below the durable commit index *)
Definition binv (v : view) : Prop :=
  w_pos v = w_applied v
  /\ (exists n, concat (map t_ents (w_queue v)) = centries (w_pos v) n /\ w_applying v = w_pos v + N.of_nat n)
  /\ (forall t, In t (w_queue v) -> t_ents t <> [])
  /\ (forall t, In t (w_queue v) -> forall e, In e (t_ents t) -> is_normal e = true ->
        applied_ok (w_dur v) e = true).

Definition BINV (s : node) : Prop := binv (view_of s).

Lemma binv_idle p ag d tr : ag = p -> binv (mkView p p [] ag d tr).
Proof.
  intros ->. split; [reflexivity|]. split; [exists 0%nat; split; [reflexivity | vsimpl; lia]|]. split; intros t [].
Qed.

Lemma binv_empty v : binv v -> w_queue v = [] -> w_applied v = w_pos v /\ w_applying v = w_pos v.
Proof.
  intros (B1 & (n & Bq & Ba) & _) Eq. rewrite Eq in Bq.
  destruct n; [|rewrite centries_S in Bq; discriminate]. split; [symmetry; exact B1 | lia].
Qed.

Lemma binv_head v t q :
  binv v -> w_queue v = t :: q ->
  exists k m, t_ents t = centries (w_pos v) (S k)
    /\ concat (map t_ents q) = centries (w_pos v + N.of_nat (S k)) m
    /\ w_applying v = w_pos v + N.of_nat (S k) + N.of_nat m.
Proof.
  intros (_ & (n & Bq & Ba) & Bne & _) Eq. rewrite Eq in *. cbn [map concat] in Bq.
  destruct (centries_split clog _ _ _ _ Bq) as [E1 E2].
  assert (length (t_ents t) <= n)%nat.
  { apply (f_equal (@length _)) in Bq. rewrite app_length, centries_length in Bq. lia. }
  specialize (Bne t (or_introl eq_refl)).
  destruct (length (t_ents t)) as [|k] eqn:El; [destruct (t_ents t); [congruence | discriminate]|].
  exists k, (n - S k)%nat. split; [exact E1|]. split; [exact E2 | lia].
Qed.

(* the pipeline has run the tasks before [q] *)
Definition ran (q : list task) (v v' : view) : Prop :=
  binv v' /\ w_queue v' = q /\ w_applying v' = w_applying v /\ w_dur v' = w_dur v.

Lemma task_phase t q s :
  live s -> INV s -> BINV s -> v_queue s = t :: q ->
  valid_seq (runApplyTask t) s /\ ran q (view_of s) (vrun (runApplyTask t) (view_of s)).
Proof.
  intros L I B Eq. destruct (binv_head _ t q B Eq) as (k & m & E1 & E2 & Ea).
  destruct B as (B1 & _ & Bne & Bp). pose proof (N.le_refl (g_pos s)) as Hle.
  assert (Hcl : clean (g_pos s) (g_pos s)) by (apply (clean_empty clog), N.le_refl).
  unfold runApplyTask, apply_ops. rewrite <- app_assoc. cbn [app]. rewrite E1.
  rewrite (lastApplied_centries clog clog_idx _ (S k)) by lia. split.
  - apply apply_range_valid; [exact L | exact I | exact Hle | exact Hcl | |].
    + intros e He Hn. apply (Bp t); [vsimpl; rewrite Eq; left; reflexivity | rewrite E1; exact He | exact Hn].
    + intros s1 L1 I1 E. destruct (view_eq _ _ E) as (_ & _ & _ & _ & _ & T).
      split; [intros _; exact (resolve_valid _ _ _ _ T)|]. split; [intros _; exact Logic.I | exact Logic.I].
  - rewrite apply_range_view; [|vsimpl; lia | exact Hcl]. unfold applied_to. vsimpl. rewrite Eq. cbn [tl]. split; [|repeat split; reflexivity].
    split; [reflexivity|]. vsimpl. split; [exists m; split; [exact E2 | exact Ea]|]. split.
    + intros t' Ht'. apply Bne. vsimpl. rewrite Eq. right. exact Ht'.
    + intros t' Ht'. apply Bp. vsimpl. rewrite Eq. right. exact Ht'.
Qed.

(* waitApplyIdle: every queued task runs *)
Lemma drain_phase q : forall s,
  live s -> INV s -> BINV s -> v_queue s = q ->
  valid_seq (drain q) s /\ ran [] (view_of s) (vrun (drain q) (view_of s)).
Proof.
  induction q as [|t q IH]; intros s L I B Eq.
  - split; [exact Logic.I|]. split; [exact B|]. split; [exact Eq|]. split; reflexivity.
  - unfold drain. cbn [flat_map]. fold (drain q).
    destruct (task_phase t q s L I B Eq) as (V1 & B1 & Q1 & A1 & D1).
    destruct (valid_run _ _ L I V1) as (L1 & I1 & E1).
    destruct (IH _ L1 I1) as (V2 & B2 & Q2 & A2 & D2).
    { unfold BINV. rewrite E1. exact B1. }
    { destruct (view_eq _ _ E1) as (_ & _ & Q & _). rewrite Q. exact Q1. }
    rewrite E1 in *. split; [apply valid_seq_app; split; assumption|].
    rewrite vrun_app. split; [exact B2|]. split; [exact Q2|]. split; congruence.
Qed.

(* Advance, refreshStatus, completeResolutions when nothing was applied: valid in any state *)
Lemma idle_tail_valid y l s : valid_seq [OMarkApplied 0; OAccept y; ORefresh l; OResolve []] s.
Proof.
  split; [intros _; split; [apply (clean_empty clog), N.le_0_l | intro H; destruct (N.nlt_0_r _ H)]|].
  split; [intros _; exact Logic.I|]. split; [intros _; exact Logic.I|]. split; [intros _ e []|exact Logic.I].
Qed.

Lemma sync_tail_phase rd s v0 n :
  live s -> INV s -> ran [] v0 (view_of s) ->
  rd_committed rd = centries (w_applying v0) n ->
  (forall e, In e (rd_committed rd) -> is_normal e = true -> applied_ok (w_dur v0) e = true) ->
  (forall i t c, rd_snap rd = Some (i, t, c) ->
     n = 0%nat /\ w_applying v0 < i /\ snap_good i c /\ (forall e, In e c -> GS e) /\ u_snap (w_dur v0) = i) ->
  valid_seq (syncTail rd) s /\ binv (vrun (syncTail rd) (view_of s)).
Proof.
  intros L I (B & Eq & A & D) Ec Hp Hs. destruct (binv_empty _ B Eq) as [Ea Eap]. vsimpl.
  set (a := w_applying v0) in *. assert (Ep : g_pos s = a) by congruence. rewrite <- D in Hp, Hs.
  assert (Ev : view_of s = mkView a a [] a (dur_of s) (applied_tr (n_tr s)))
    by (unfold view_of; rewrite Ea, Eap, Eq, Ep; reflexivity).
  unfold syncTail. rewrite Ec, Ev.
  destruct (rd_snap rd) as [[[i t] c]|] eqn:Esn.
  - (* a snapshot from the leader: Restore, nothing to apply *)
    destruct (Hs i t c eq_refl) as (-> & Hai & Hg & Hgs & Hd). cbn [dur_of u_snap] in Hd. rewrite centries_0.
    cbn [applyCommittedEntries applyCommittedEntries_from flushBatch map app filter lastApplied last]. split.
    + apply valid_cons; [exact L | exact I | |].
      { split; [exact Hg|]. split; [intro Z; destruct Hg; lia|]. split; [lia|]. intros e He. right. apply Hgs, He. }
      intros s1 L1 I1 E1. rewrite Ev in E1. destruct (view_eq _ _ E1) as (P1 & _). vsimpl.
      apply valid_cons; [exact L1 | exact I1 | |intros; apply idle_tail_valid].
      split; [rewrite P1; apply (clean_empty clog), N.le_refl|]. intros _. pose proof (i_smpos _ _ _ I1). lia.
    + rewrite !vrun_cons, (vstep_mark_new i), (vstep_mark_old 0) by (vsimpl; lia). vsimpl.
      replace (N.max i i) with i by lia. apply binv_idle. lia.
  - cbn [app]. destruct n as [|k].
    + (* nothing committed *)
      rewrite centries_0.
      cbn [applyCommittedEntries applyCommittedEntries_from flushBatch map app filter lastApplied last].
      split; [apply idle_tail_valid|]. rewrite !vrun_cons, vstep_mark_old by (vsimpl; lia). vsimpl.
      apply binv_idle. lia.
    + (* committed entries a+1 .. a+n *)
      rewrite !(lastApplied_centries clog clog_idx a (S k)) by lia.
      assert (Hcl : clean a a) by (apply (clean_empty clog), N.le_refl). split.
      * apply apply_range_valid; [exact L | exact I | lia | rewrite Ep; exact Hcl | |].
        { intros e He Hn. apply Hp; [rewrite Ec; exact He | exact Hn]. }
        intros s1 L1 I1 E1.
        apply valid_cons; [exact L1 | exact I1 | exact Logic.I|]. intros s2 L2 I2 E2.
        apply valid_cons; [exact L2 | exact I2 | exact Logic.I|]. intros s3 L3 I3 E3.
        rewrite E2, E1, Ev in E3. destruct (view_eq _ _ E3) as (_ & _ & _ & _ & _ & T3). unfold applied_to in T3. vsimpl.
        split; [intros _; exact (resolve_valid _ _ _ _ T3) | exact Logic.I].
      * rewrite apply_range_view; [|vsimpl; lia | exact Hcl]. unfold applied_to. vsimpl. apply binv_idle. lia.
Qed.

Definition dur_after (s : node) (rd : ready) : dur :=
  dur_save (dur_of s) (rd_hs rd) (rd_ents rd) (snap_meta (rd_snap rd)).

Definition ready_ok (s : node) (rd : ready) : Prop :=
  (* the committed entries are the next ones of the committed log, above the library's cursor *)
  (exists n, rd_committed rd = centries (v_applying s) n)
  (* a snapshot comes alone, lies beyond the cursor, and holds what some replica's state machine held *)
  /\ (forall i t c, rd_snap rd = Some (i, t, c) ->
         rd_committed rd = [] /\ v_applying s < i /\ snap_good i c /\ (forall e, In e c -> GS e))
  (* committed entries are never rewritten, the commit index never decreases *)
  /\ save_stable s (rd_hs rd) (rd_ents rd)
  (* committed entries are in the log this Ready leaves in stable storage, at or below its commit index *)
  /\ (forall e, In e (rd_committed rd) -> is_normal e = true -> applied_ok (dur_after s rd) e = true)
  (* messages may be sent once this Ready's entries and hard state are stable *)
  /\ forallb (msg_ok (dur_after s rd)) (rd_msgs rd) = true
  /\ TrackHyp s (rd_ents rd).

Lemma track_send_valid ents ms s :
  live s -> INV s -> TrackHyp s ents -> forallb (msg_ok (dur_of s)) ms = true ->
  valid_seq [OTrack ents; OSend ms] s.
Proof.
  intros L I Ht Hm. apply valid_cons; [exact L | exact I | exact Ht|]. intros s1 L1 I1 E1.
  destruct (view_eq _ _ E1) as (_ & _ & _ & _ & D1 & _). vsimpl.
  split; [intros _; cbn [RaftDriver_inv.mop_valid]; rewrite D1; exact Hm | exact Logic.I].
Qed.

(* processReadyAsyncNormal, for the slot state [s0] the list was computed from *)
Lemma async_phase rd busy s0 s n :
  live s -> INV s -> BINV s -> v_queue s = v_queue s0 ->
  rd_committed rd = centries (v_applying s) n ->
  (forall e, In e (rd_committed rd) -> is_normal e = true -> applied_ok (dur_of s) e = true) ->
  (forall s', live s' -> INV s' -> ran [] (view_of s) (view_of s') ->
     valid_seq (syncTail rd) s' /\ binv (vrun (syncTail rd) (view_of s'))) ->
  valid_seq (processReadyAsyncNormal s0 rd busy) s
  /\ binv (vrun (processReadyAsyncNormal s0 rd busy) (view_of s)).
Proof.
  intros L I B Q Rc Rp Tail. unfold processReadyAsyncNormal.
  pose proof B as (Ba & (m & Bq & Bap) & Bne & Bp). vsimpl.
  destruct (rd_committed rd) as [|e0 r0] eqn:Ecm.
  { (* nothing committed: Advance *)
    split; [split; [intros _; exact Logic.I|]; split; [intros _; exact Logic.I | exact Logic.I]|]. vsimpl.
    split; [exact Ba|]. split; [exists m; split; [exact Bq | vsimpl; lia]|]. split; assumption. }
  rewrite <- Ecm in *. destruct busy.
  - (* the pipeline refuses the task: apply synchronously *)
    unfold processReadySynchronously. rewrite <- Q.
    destruct (drain_phase (v_queue s) s L I B eq_refl) as (V5 & R5).
    destruct (valid_run _ _ L I V5) as (L5 & I5 & E5). rewrite vrun_app, <- E5. rewrite <- E5 in R5.
    destruct (Tail _ L5 I5 R5) as [V6 B6]. split; [apply valid_seq_app; split; assumption | exact B6].
  - (* the task goes to the pipeline; Advance *)
    split; [split; [intros _; exact Logic.I|]; split; [intros _; exact Logic.I|]; split; [intros _; exact Logic.I | exact Logic.I]|].
    assert (Hn0 : (0 < n)%nat).
    { destruct n; [|lia]. rewrite Rc, centries_0 in Ecm. discriminate. }
    vsimpl. split; [exact Ba|]. split; [|split]; vsimpl.
    + exists (m + n)%nat. rewrite map_app, concat_app. cbn [map concat t_ents]. rewrite app_nil_r.
      rewrite Bq, Rc, (centries_app clog), <- Bap. split; [reflexivity|].
      rewrite (lastApplied_centries clog clog_idx _ n 0 Hn0). lia.
    + intros t Ht. apply in_app_or in Ht. destruct Ht as [Ht|[<-|[]]]; [apply Bne, Ht|].
      cbn [t_ents]. rewrite Ecm. congruence.
    + intros t Ht e He Hn. apply in_app_or in Ht. destruct Ht as [Ht|[<-|[]]]; [apply (Bp t Ht e He Hn)|].
      cbn [t_ents] in He. apply Rp; assumption.
Qed.

(* Storage.Save of a Ready: the boundary invariant survives with the durable state the Ready describes *)
Lemma save_phase rd s :
  live s -> INV s -> BINV s -> ready_ok s rd ->
  let o := OSave (rd_hs rd) (rd_ents rd) (rd_snap rd) in
  mop_valid o s /\ live (exec o s) /\ INV (exec o s) /\ BINV (exec o s) /\ TrackHyp (exec o s) (rd_ents rd)
  /\ view_of (exec o s) = vstep o (view_of s).
Proof.
  intros L I B (_ & Rs & Rst & _ & _ & Rt). cbn zeta.
  assert (V0 : mop_valid (OSave (rd_hs rd) (rd_ents rd) (rd_snap rd)) s).
  { split; [exact Rst|]. destruct (rd_snap rd) as [[[i t] c]|] eqn:E; [|exact Logic.I].
    destruct (Rs i t c eq_refl) as (_ & _ & G & K). split; assumption. }
  destruct (INV_exec clog clog_idx GS TrackHyp _ _ I L V0) as [I1 L1]. pose proof (exec_view _ _ L I V0) as E1.
  split; [exact V0|]. split; [exact L1|]. split; [exact I1|]. split; [|split; [|exact E1]].
  - unfold BINV. rewrite E1. destruct B as (Ba & Bq & Bne & Bp). split; [exact Ba|]. split; [exact Bq|]. split; [exact Bne|].
    intros t Ht e He Hn. destruct Rst as [Rh Re]. apply applied_ok_stable; [exact Rh | exact Re | apply (Bp t Ht e He Hn)].
  - apply (TrackHyp_submitted s); [apply exec_submitted; reflexivity | exact Rt].
Qed.

Lemma ready_phase rd busy s :
  live s -> INV s -> BINV s -> ready_ok s rd ->
  valid_seq (processReady s rd busy) s /\ binv (vrun (processReady s rd busy) (view_of s)).
Proof.
  intros L I B R. destruct (save_phase rd s L I B R) as (V0 & L1 & I1 & B1 & Ht & E1).
  destruct R as ((n & Rc) & Rs & _ & Rp & Rm & _). cbn zeta in *.
  unfold processReady, persistReadyDurable. cbn [app].
  set (sync := readyRequiresSynchronousApply (match rd_snap rd with Some _ => true | None => false end) (rd_committed rd)).
  set (s1 := exec (OSave (rd_hs rd) (rd_ents rd) (rd_snap rd)) s) in *.
  destruct (view_eq _ _ E1) as (_ & _ & Q1 & A1 & D1 & _). cbn [vstep w_queue w_applying w_dur] in Q1, A1, D1.
  fold (dur_after s rd) in D1.
  (* the synchronous tail, in whatever state the drained pipeline leaves *)
  assert (Tail : forall s', live s' -> INV s' -> ran [] (view_of s1) (view_of s') ->
            valid_seq (syncTail rd) s' /\ binv (vrun (syncTail rd) (view_of s'))).
  { intros s' L' I' R. apply (sync_tail_phase rd s' (view_of s1) n); vsimpl; rewrite ?A1, ?D1; try assumption.
    intros i t c E. destruct (Rs i t c E) as (Ec & Hi & G & K).
    split; [rewrite Rc in Ec; apply (f_equal (@length _)) in Ec; rewrite centries_length in Ec; exact Ec|].
    split; [exact Hi|]. split; [exact G|]. split; [exact K|]. unfold dur_after, dur_save. rewrite E. reflexivity. }
  rewrite vrun_cons, <- E1. fold s1. cbn [RaftDriver_inv.valid_seq]. fold s1.
  cut (forall rest, valid_seq rest s1 /\ binv (vrun rest (view_of s1)) ->
         ((live s -> mop_valid (OSave (rd_hs rd) (rd_ents rd) (rd_snap rd)) s) /\ valid_seq rest s1) /\ binv (vrun rest (view_of s1))).
  2: { intros rest [V Bv]. split; [split; [intros _; exact V0 | exact V] | exact Bv]. }
  intro K. apply K. clear K. destruct sync eqn:Esync.
  - (* synchronous: waitApplyIdle, track, send, then the tail *)
    destruct (drain_phase (v_queue s) s1 L1 I1 B1 Q1) as (V2 & R2).
    destruct (valid_run _ _ L1 I1 V2) as (L2 & I2 & E2). rewrite <- E2 in R2. split.
    + apply valid_seq_app. split; [exact V2|].
      apply (valid_app [OTrack (rd_ents rd); OSend (rd_msgs rd)] (syncTail rd)); [exact L2 | exact I2 | |].
      * destruct R2 as (_ & _ & _ & D2). apply track_send_valid; [exact L2 | exact I2 | | vsimpl; rewrite D2, D1; exact Rm].
        apply (TrackHyp_submitted s1); [|exact Ht]. apply exec_all_submitted, drain_submitted.
      * intros s4 L4 I4 E4. apply Tail; [exact L4 | exact I4 | rewrite E4; exact R2].
    + rewrite !vrun_app, <- E2. apply Tail; assumption.
  - (* asynchronous: track, send, then processReadyAsyncNormal *)
    cbn [app]. split.
    + apply (valid_app [OTrack (rd_ents rd); OSend (rd_msgs rd)] (processReadyAsyncNormal s rd busy));
        [exact L1 | exact I1 | apply track_send_valid; [exact L1 | exact I1 | exact Ht | rewrite D1; exact Rm]|].
      intros s4 L4 I4 E4. change (view_of s4 = view_of s1) in E4.
      destruct (view_eq _ _ E4) as (_ & _ & Q4 & A4 & D4 & _). vsimpl.
      apply (async_phase rd busy s s4 n); [exact L4 | exact I4 | unfold BINV; rewrite E4; exact B1 | congruence
        | rewrite A4, A1; exact Rc | rewrite D4, D1; exact Rp | rewrite E4; exact Tail].
    + rewrite !vrun_cons. cbn [vstep].
      apply (async_phase rd busy s s1 n); try assumption; [rewrite A1; exact Rc | rewrite D1; exact Rp].
Qed.

Lemma compact_tail s a :
  live s -> INV s -> BINV s -> g_pos s = a -> a <> 0 ->
  valid_seq [OCompactMark a; OCompactSave a] s /\ binv (vrun [OCompactMark a; OCompactSave a] (view_of s)).
Proof.
  intros L I B P Ea. split.
  - apply valid_cons; [exact L | exact I | cbn [RaftDriver_inv.mop_valid]; lia|]. intros s1 L1 I1 E1.
    destruct (view_eq _ _ E1) as (P1 & _). vsimpl. split; [intros _; split; [congruence | lia] | exact Logic.I].
  - exact B.
Qed.

Lemma compact_phase s wait :
  live s -> INV s -> BINV s ->
  valid_seq (compactLogAt s wait) s /\ binv (vrun (compactLogAt s wait) (view_of s)).
Proof.
  intros L I B. unfold compactLogAt. destruct wait.
  - destruct (drain_phase (v_queue s) s L I B eq_refl) as (V2 & B2 & Q2 & A2 & D2).
    destruct (valid_run _ _ L I V2) as (L2 & I2 & E2). rewrite vrun_app, <- E2.
    assert (Bs : BINV (exec_all (drain (v_queue s)) s)) by (unfold BINV; rewrite E2; exact B2).
    destruct (view_eq _ _ E2) as (P & _ & Q & _). rewrite Q2 in Q.
    destruct (binv_empty _ B2 Q2) as [_ Ep].
    assert (Ea : applied_after (v_queue s) (v_applied s) = g_pos (exec_all (drain (v_queue s)) s)).
    { rewrite P, <- Ep, A2. destruct B as (B1 & (n & Bq & Ba) & _). vsimpl.
      rewrite applied_after_concat, Bq, Ba, <- B1. destruct n as [|n]; [rewrite centries_0; cbn; lia|].
      apply (lastApplied_centries clog clog_idx). lia. }
    rewrite Ea. destruct (_ =? 0) eqn:Ez.
    + split; [rewrite app_nil_r; exact V2 | exact Bs].
    + apply N.eqb_neq in Ez. destruct (compact_tail _ _ L2 I2 Bs eq_refl Ez) as (V3 & B3).
      split; [apply valid_seq_app; split; assumption | exact B3].
  - cbn [app]. destruct (v_applied s =? 0) eqn:Ea; [split; [exact Logic.I | exact B]|].
    apply N.eqb_neq in Ea. apply (compact_tail s (v_applied s) L I B); [apply B | exact Ea].
Qed.

Lemma crash_INV hard s : INV s -> INV (crash hard s) /\ ~ live (crash hard s).
Proof.
  intro I. unfold crash. destruct (v_up s) eqn:U; cbn [negb].
  - pose proof (INV_same_core clog GS _ _ (failLeadershipDependent_core s) I) as I1.
    set (s1 := failLeadershipDependent s) in *. destruct I1.
    split; [|intros [A _]; discriminate].
    constructor; unfold RaftDriver_inv.known in *; nsimpl; rewrite ?applied_tr_app, ?app_nil_r; try assumption; lia.
  - split; [exact I|]. intros [A _]. congruence.
Qed.

Lemma newSlot_SINV first s : INV s -> v_up s = false ->
  let s' := newSlot first s in INV s' /\ live s' /\ BINV s'.
Proof.
  intros I U. cbn zeta. rewrite (newSlot_down first s U). cbn zeta.
  destruct I. unfold newSlot_applied. rewrite i_durable.
  destruct (d_snap s =? 0) eqn:Esn; cbn [negb].
  - (* no snapshot: resume above what the state machine and the storage remember *)
    apply N.eqb_eq in Esn. specialize (i_dapplied Esn).
    (* the fields are exposed before binv_idle is applied: left to unification, Qed is slow *)
    split; [|split; [split; reflexivity | unfold BINV, view_of; nsimpl; apply binv_idle; reflexivity]].
    constructor; unfold RaftDriver_inv.known in *; nsimpl; rewrite ?applied_tr_app, ?app_nil_r; try assumption; try lia.
    apply (complete_weaken clog _ _ _ _ _ i_complete); lia.
  - (* a stored snapshot: Restore it, resume above it *)
    apply N.eqb_neq in Esn. destruct (i_snap Esn) as (G0 & Gs & Gsd & Gc).
    split; [|split; [split; reflexivity | unfold BINV, view_of; nsimpl; apply binv_idle; reflexivity]].
    constructor; unfold RaftDriver_inv.known in *; nsimpl; rewrite ?applied_tr_app, ?app_nil_r; try assumption; lia.
Qed.

Lemma newSlot_resumes first s :
  INV s -> v_up s = false ->
  let s' := newSlot first s in
  v_queue s' = []
  /\ v_applying s' = newSlot_applied true (d_snap s) (d_applied s) (sm_idx s)
  /\ v_applied s' = v_applying s'
  /\ (forall i, 0 < i <= v_applying s' -> is_normal (clog i) = true -> In (clog i) (sm_hist s'))
  /\ (forall e, In e (sm_hist s') -> e_idx e <= v_applying s').
Proof.
  intros I U. destruct (newSlot_SINV first s I U) as (I' & _ & B'). cbn zeta in *.
  assert (E : v_queue (newSlot first s) = []
              /\ v_applying (newSlot first s) = newSlot_applied true (d_snap s) (d_applied s) (sm_idx s)).
  { rewrite (newSlot_down first s U), (i_durable _ _ _ I). cbn zeta. destruct (negb (d_snap s =? 0)); split; reflexivity. }
  destruct E as [Eq Es]. destruct (binv_empty _ B' Eq) as [Ea Eap]. vsimpl.
  destruct I'. split; [exact Eq|]. split; [exact Es|]. split; [congruence|]. split.
  - intros i Hi Hn. apply i_complete; [lia | exact Hn].
  - intros e He. destruct (i_sound e He) as (_ & _ & H). lia.
Qed.

(* a stopped or failed node has no pipeline *)
Definition SINV (s : node) : Prop := INV s /\ (live s -> BINV s).

Definition step_ok (st : step) (s : node) : Prop :=
  match st with
  | SReady rd _ _ => live s -> ready_ok s rd
  | _ => True
  end.

Definition step_ops (st : step) (s : node) : option (list mop * option nat) :=
  match st with
  | SReady rd busy cut => Some (processReady s rd busy, cut)
  | SApplyTask cut => match v_queue s with t :: _ => Some (runApplyTask t, cut) | [] => None end
  | SCompact wait cut => Some (compactLogAt s wait, cut)
  | _ => None
  end.

Lemma step_node_ops st s ops cut :
  step_ops st s = Some (ops, cut) -> step_node st s = if v_up s then exec_cut ops cut s else s.
Proof.
  destruct st; cbn [step_ops step_node]; try discriminate.
  - intros [= <- <-]. reflexivity.
  - destruct (v_queue s); [discriminate|]. intros [= <- <-]. reflexivity.
  - intros [= <- <-]. reflexivity.
Qed.

Lemma step_ops_valid st s ops cut :
  step_ops st s = Some (ops, cut) -> SINV s -> step_ok st s ->
  valid_seq ops s /\ (live (exec_all ops s) -> BINV (exec_all ops s)).
Proof.
  intros E [I B] Hok. destruct (live_dec s) as [L|D].
  - specialize (B L).
    assert (H : valid_seq ops s /\ binv (vrun ops (view_of s))).
    { destruct st; cbn [step_ops step_ok] in *; try discriminate.
      - injection E as <- <-. apply ready_phase; auto.
      - destruct (v_queue s) as [|t q] eqn:Eq; [discriminate|]. injection E as <- <-.
        destruct (task_phase t q s L I B Eq) as (V & B' & _). split; assumption.
      - injection E as <- <-. apply compact_phase; assumption. }
    destruct H as [V Bv]. split; [exact V|]. intros _. destruct (valid_run _ _ L I V) as (_ & _ & Ev).
    unfold BINV. rewrite Ev. exact Bv.
  - split; [apply valid_seq_dead, D|]. rewrite exec_all_dead by exact D. exact B.
Qed.

Lemma exec_cut_SINV ops cut s :
  INV s -> valid_seq ops s -> (live (exec_all ops s) -> BINV (exec_all ops s)) ->
  SINV (exec_cut ops cut s).
Proof.
  intros I V B. unfold exec_cut. destruct cut as [k|].
  - destruct (crash_INV true (exec_all (firstn k ops) s)) as [I' D'].
    { apply (INV_exec_all clog clog_idx GS TrackHyp); [exact I | apply valid_seq_firstn, V]. }
    split; [exact I' | intro L; contradiction].
  - split; [apply (INV_exec_all clog clog_idx GS TrackHyp); assumption | exact B].
Qed.

Lemma step_SINV st s : SINV s -> step_ok st s -> SINV (step_node st s).
Proof.
  intros S Hok. destruct (step_ops st s) as [[ops cut]|] eqn:E.
  { rewrite (step_node_ops _ _ _ _ E). destruct (v_up s); [|exact S].
    destruct (step_ops_valid _ _ _ _ E S Hok) as [V B']. apply exec_cut_SINV; [apply S | exact V | exact B']. }
  destruct S as [I B]. destruct st as [rd busy cut|cut|cmd acc|wait cut|hard|]; cbn [step_ops step_node] in *; try discriminate.
  - (* SApplyTask, nothing queued *)
    destruct (v_queue s); [split; assumption | discriminate].
  - (* SPropose: only the futures fields move *)
    change (SINV (step_node (SPropose cmd acc) s)). pose proof (propose_core cmd acc s) as C.
    split; [exact (INV_same_core clog GS _ _ C I)|]. destruct C as (sub & pend & l & out & ->). exact B.
  - destruct (crash_INV hard s I) as [I' D']. split; [exact I' | intro; contradiction].
  - destruct (v_up s) eqn:U.
    + unfold newSlot. rewrite U. split; assumption.
    + destruct (newSlot_SINV false s I U) as (I' & L' & B'). split; [exact I' | intros _; exact B'].
Qed.

Fixpoint sched_ok (sched : list step) (s : node) : Prop :=
  match sched with
  | [] => True
  | st :: r => step_ok st s /\ sched_ok r (step_node st s)
  end.

Definition run_from (s : node) (sched : list step) : node :=
  fold_left (fun st x => step_node x st) sched s.

Lemma run_from_SINV sched : forall s, SINV s -> sched_ok sched s -> SINV (run_from s sched).
Proof.
  induction sched as [|st r IH]; intros s H Hok; [exact H|].
  cbn [sched_ok] in Hok. destruct Hok as [H1 H2]. cbn [run_from fold_left].
  apply IH; [apply step_SINV; assumption | exact H2].
Qed.

Lemma init_INV : INV (init_node true).
Proof.
  unfold init_node. constructor; nsimpl; unfold RaftDriver_inv.known; nsimpl; try reflexivity; try lia.
  - constructor.
  - intros e [].
  - intros i Hi. lia.
  - intros e [].
  - intros e [].
  - intros e [].
Qed.

Definition start_node : node := newSlot true (init_node true).

Lemma start_SINV : SINV start_node.
Proof.
  destruct (newSlot_SINV true (init_node true) init_INV eq_refl) as (I & L & B).
  split; [exact I | intros _; exact B].
Qed.

Theorem run_SINV sched : sched_ok sched start_node -> SINV (run true sched).
Proof. intro H. unfold run. apply (run_from_SINV sched start_node start_SINV H). Qed.


(* what an invariant of every reachable state has to show, beside INV and the step-boundary invariant *)
Definition preserved (P : node -> Prop) : Prop :=
  (forall o s, INV s -> P s -> live s -> mop_valid o s -> P (exec o s))
  /\ (forall hard s, INV s -> P s -> P (crash hard s))
  /\ (forall first s, INV s -> P s -> v_up s = false -> P (newSlot first s))
  /\ (forall cmd acc s, INV s -> P s -> P (step_node (SPropose cmd acc) s)).

Lemma preserved_and P Q : preserved P -> preserved Q -> preserved (fun s => P s /\ Q s).
Proof.
  intros (P1 & P2 & P3 & P4) (Q1 & Q2 & Q3 & Q4).
  split; [|split; [|split]].
  - intros o s I [HP HQ] L V. split; [apply P1 | apply Q1]; assumption.
  - intros hard s I [HP HQ]. split; [apply P2 | apply Q2]; assumption.
  - intros first s I [HP HQ] U. split; [apply P3 | apply Q3]; assumption.
  - intros cmd acc s I [HP HQ]. split; [apply P4 | apply Q4]; assumption.
Qed.

Lemma preserved_forall {A} (Q : A -> Prop) (F : A -> node -> Prop) :
  (forall a, Q a -> preserved (F a)) -> preserved (fun s => forall a, Q a -> F a s).
Proof.
  intro K. split; [|split; [|split]].
  - intros o s I H L V a Ha. apply (K a Ha); auto.
  - intros hard s I H a Ha. apply (K a Ha); auto.
  - intros first s I H U a Ha. apply (K a Ha); auto.
  - intros cmd acc s I H a Ha. apply (K a Ha); auto.
Qed.

Section Generic.

Variable P : node -> Prop.
Hypothesis HP : preserved P.

Lemma preserved_exec_all ops : forall s, INV s -> P s -> valid_seq ops s -> P (exec_all ops s).
Proof.
  induction ops as [|o r IH]; intros s I H V; [exact H|].
  cbn [RaftDriver_inv.valid_seq] in V. destruct V as [V1 V2]. rewrite exec_all_cons.
  apply IH; [apply (INV_exec_any clog clog_idx GS TrackHyp); assumption | | exact V2].
  destruct (live_dec s) as [L|D]; [apply HP; auto | rewrite exec_dead by exact D; exact H].
Qed.

Lemma preserved_exec_cut ops cut s : INV s -> P s -> valid_seq ops s -> P (exec_cut ops cut s).
Proof.
  intros I H V. unfold exec_cut. destruct cut as [k|]; [|apply preserved_exec_all; assumption].
  apply HP.
  - apply (INV_exec_all clog clog_idx GS TrackHyp); [exact I | apply valid_seq_firstn, V].
  - apply preserved_exec_all; [exact I | exact H | apply valid_seq_firstn, V].
Qed.

Lemma preserved_step st s : SINV s -> step_ok st s -> P s -> P (step_node st s).
Proof.
  intros S Hok H. destruct (step_ops st s) as [[ops cut]|] eqn:E.
  { rewrite (step_node_ops _ _ _ _ E). destruct (v_up s); [|exact H].
    apply preserved_exec_cut; [apply S | exact H | apply (step_ops_valid _ _ _ _ E S Hok)]. }
  destruct S as [I B]. destruct st as [rd busy cut|cut|cmd acc|wait cut|hard|]; cbn [step_ops] in E; try discriminate.
  - cbn [step_node]. destruct (v_queue s); [exact H | discriminate].
  - apply HP; assumption.
  - apply HP; assumption.
  - cbn [step_node]. destruct (v_up s) eqn:U; [unfold newSlot; rewrite U; exact H | apply HP; assumption].
Qed.

Lemma preserved_run_from sched : forall s, SINV s -> sched_ok sched s -> P s -> P (run_from s sched).
Proof.
  induction sched as [|st r IH]; intros s S Hok H; [exact H|].
  cbn [sched_ok] in Hok. destruct Hok as [H1 H2]. cbn [run_from fold_left].
  apply IH; [apply step_SINV; assumption | exact H2 | apply preserved_step; assumption].
Qed.

Theorem preserved_run sched : sched_ok sched start_node -> P (init_node true) -> P (run true sched).
Proof.
  intros Hok H0. unfold run. apply (preserved_run_from sched start_node start_SINV Hok).
  apply HP; [exact init_INV | exact H0 | reflexivity].
Qed.

End Generic.

End Steps.
