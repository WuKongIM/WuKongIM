(* Proof/ClusterCodec_Replication.v — the exchange codec of
   pkg/channel/replication/codec.go: round trip, truncation and trailing bytes
   rejected, allocation bounded, for both frames, as instances of the generic
   theorems of Proof/ClusterCodecBase.v. *)
From WK Require Import Base.Base Base.Bytes Gen.Consts_C27.
From WK Require Import Model.ClusterCodecBase Model.ClusterCodec_Replication Proof.ClusterCodecBase.
From Coq Require Import ZifyBool ZifyN ZifyNat.
Open Scope N_scope.

Lemma blen_prefix (p s : bytes) : blen p <= blen (p ++ s).
Proof. rewrite blen_app. lia. Qed.

(* The two codecs have one shape: Encode makes checks of its own ([c]), encodes, and refuses a
   frame above MaxExchangeBatchBytes; Decode refuses an empty or oversized input, then decodes it whole. *)
Section Sized.
  Context {A : Type} (f : fmt A) (c : bool) (v : A) (e : bytes).
  Hypothesis W : wf f v = true.
  Hypothesis E : (if c then let e := encode f v in if MaxExchangeBatchBytes <? blen e then None else Some e
                  else None) = Some e.

  Lemma sized_encoding : e = encode f v /\ (MaxExchangeBatchBytes <? blen e) = false.
  Proof.
    destruct c; [|discriminate]. cbv zeta in E.
    destruct (MaxExchangeBatchBytes <? blen (encode f v)) eqn:Hs; [discriminate|].
    injection E as <-. split; [reflexivity|exact Hs].
  Qed.

  Lemma sized_roundtrip : decode_full f [] = None ->
    (if (blen e =? 0) || (MaxExchangeBatchBytes <? blen e) then None else decode_full f e) = Some v.
  Proof.
    intro D. destruct sized_encoding as [-> Hs].
    rewrite (encode_nonempty _ _ W D), Hs. apply decode_full_encode. exact W.
  Qed.

  Lemma sized_truncation_rejected p s : e = p ++ s -> s <> [] ->
    (if (blen p =? 0) || (MaxExchangeBatchBytes <? blen p) then None else decode_full f p) = None.
  Proof.
    intros Hp Hs. destruct sized_encoding as [-> _].
    destruct ((blen p =? 0) || (MaxExchangeBatchBytes <? blen p)); [reflexivity|].
    eapply truncation_rejected; eassumption.
  Qed.

  Lemma sized_trailing_rejected s : s <> [] ->
    (if (blen (e ++ s) =? 0) || (MaxExchangeBatchBytes <? blen (e ++ s)) then None else decode_full f (e ++ s)) = None.
  Proof.
    intro Hs. destruct sized_encoding as [-> _].
    destruct ((blen _ =? 0) || (MaxExchangeBatchBytes <? blen _)); [reflexivity|].
    apply trailing_rejected; assumption.
  Qed.
End Sized.

Theorem result_roundtrip : forall b e,
  wf exchangeBatchResult b = true ->
  EncodeExchangeBatchResult b = Some e ->
  DecodeExchangeBatchResult e = Some b.
Proof. intros b e W E. exact (sized_roundtrip _ _ b e W E eq_refl). Qed.

Theorem result_truncation_rejected : forall b e p s,
  wf exchangeBatchResult b = true ->
  EncodeExchangeBatchResult b = Some e ->
  e = p ++ s -> s <> [] ->
  DecodeExchangeBatchResult p = None.
Proof. intros b e p s W E. exact (sized_truncation_rejected _ _ b e W E p s). Qed.

Theorem result_trailing_rejected : forall b e s,
  wf exchangeBatchResult b = true ->
  EncodeExchangeBatchResult b = Some e -> s <> [] ->
  DecodeExchangeBatchResult (e ++ s) = None.
Proof. intros b e s W E. exact (sized_trailing_rejected _ _ b e W E s). Qed.

Theorem result_decode_total : forall data,
  DecodeExchangeBatchResult data = None \/ exists b, DecodeExchangeBatchResult data = Some b.
Proof. intro data. destruct (DecodeExchangeBatchResult data) as [b|]; [right; exists b; reflexivity|left; reflexivity]. Qed.

(* The cursor methods: every count is checked against one of MaxExchangeBatchItems,
   maxRecoveryProbeIndexes, maxRecoveryReplacementProposals (Gen/Consts_C27.v), each at most the
   256 of the statements; and what the methods decode is in the encoder's domain.  A method used
   by several others gets its lemma first and is registered for [fmt_ok]. *)

Lemma channelIdentity_wfmt : wfmt channelIdentity.
Proof. fmt_ok. Qed.
Lemma proposalManifest_wfmt : wfmt proposalManifest.
Proof. fmt_ok. Qed.
Lemma entryIdentity_wfmt : wfmt entryIdentity.
Proof. fmt_ok. Qed.
Lemma records_wfmt : wfmt records.
Proof. fmt_ok. Qed.
Lemma records_capped : capped false 256 records.
Proof. fmt_ok. Qed.
Lemma indexes_capped : capped false 256 indexes.
Proof. fmt_ok. Qed.
#[local] Hint Resolve channelIdentity_wfmt proposalManifest_wfmt entryIdentity_wfmt records_wfmt
  records_capped indexes_capped : fmt.

Lemma replicaState_wfmt : wfmt replicaState.
Proof. fmt_ok. Qed.
Lemma replicaState_capped : capped false 256 replicaState.
Proof. fmt_ok. Qed.
#[local] Hint Resolve replicaState_wfmt replicaState_capped : fmt.

Lemma replicateRequest_wfmt : wfmt replicateRequest.
Proof. fmt_ok. Qed.
Lemma probeRequest_wfmt : wfmt probeRequest.
Proof. fmt_ok. Qed.
Lemma fetchRequest_wfmt : wfmt fetchRequest.
Proof. fmt_ok. Qed.
Lemma replicateRequest_capped : capped false 256 replicateRequest.
Proof. fmt_ok. Qed.
Lemma probeRequest_capped : capped false 256 probeRequest.
Proof. fmt_ok. Qed.
Lemma fetchRequest_capped : capped false 256 fetchRequest.
Proof. fmt_ok. Qed.
#[local] Hint Resolve replicateRequest_wfmt probeRequest_wfmt fetchRequest_wfmt
  replicateRequest_capped probeRequest_capped fetchRequest_capped : fmt.

Lemma exchangeItemResult_capped : capped false 256 exchangeItemResult.
Proof. fmt_ok. Qed.
Lemma exchangeItemResult_wfmt : wfmt exchangeItemResult.
Proof. fmt_ok. Qed.
#[local] Hint Resolve exchangeItemResult_capped exchangeItemResult_wfmt : fmt.

Lemma exchangeBatchResult_capped : capped false 256 exchangeBatchResult.
Proof. fmt_ok. Qed.

Lemma exchangeBatchResult_wfmt : wfmt exchangeBatchResult.
Proof.
  apply wfmt_FMap_on; [fmt_ok|]. intros [v l] W. cbn [wf fst snd] in W.
  apply andb_true_iff in W. destruct W as [_ W]. apply andb_true_iff in W. destruct W as [_ W].
  destruct l as [[|it l]|]; try discriminate. reflexivity.
Qed.

(* Whatever DecodeExchangeBatchResult accepts — from ANY byte string — is in the encoder's
   domain: at most 256 items, at most 256 entries / proposals / records / indexes in every
   slice, versions within uint16, sizes within int, request ids non-zero. *)
Theorem result_decoded_in_bounds : forall data b,
  all_bytes data = true -> DecodeExchangeBatchResult data = Some b -> wf exchangeBatchResult b = true.
Proof.
  intros data b B H. unfold DecodeExchangeBatchResult in H.
  destruct ((blen data =? 0) || (MaxExchangeBatchBytes <? blen data)); [discriminate|].
  eapply decode_full_wf; [apply exchangeBatchResult_wfmt|exact B|exact H].
Qed.

Lemma itemBody_capped p k : capped false 256 (itemBody p k).
Proof. fmt_ok. Qed.
Lemma itemBody_wfmt p k : wfmt (itemBody p k).
Proof. fmt_ok. Qed.
#[local] Hint Resolve itemBody_capped itemBody_wfmt : fmt.

Section WithValid.
  Variable valid : nat -> exchange_item -> bool.

  Theorem batch_roundtrip : forall b e,
    wf (exchangeBatch valid) b = true ->
    EncodeExchangeBatch valid b = Some e ->
    DecodeExchangeBatch valid e = Some b.
  Proof. intros b e W E. exact (sized_roundtrip _ _ b e W E eq_refl). Qed.

  Theorem batch_truncation_rejected : forall b e p s,
    wf (exchangeBatch valid) b = true ->
    EncodeExchangeBatch valid b = Some e ->
    e = p ++ s -> s <> [] ->
    DecodeExchangeBatch valid p = None.
  Proof. intros b e p s W E. exact (sized_truncation_rejected _ _ b e W E p s). Qed.

  Theorem batch_trailing_rejected : forall b e s,
    wf (exchangeBatch valid) b = true ->
    EncodeExchangeBatch valid b = Some e -> s <> [] ->
    DecodeExchangeBatch valid (e ++ s) = None.
  Proof. intros b e s W E. exact (sized_trailing_rejected _ _ b e W E s). Qed.

  Lemma exchangeBatch_capped : capped false 256 (exchangeBatch valid).
  Proof. fmt_ok. Qed.

  (* What the decoder accepted — from any list of numbers: no [all_bytes] needed, unlike
     [batch_decoded_in_bounds] — has the only version, a valid priority and 1..MaxExchangeBatchItems
     items.  (Valid() at every position is part of [wf (exchangeBatch valid)].) *)
  Theorem batch_decoded_bounds : forall data b,
    DecodeExchangeBatch valid data = Some b ->
    eb_version b = ExchangeVersion /\ priority_valid (eb_priority b) = true
    /\ 1 <= blen (eb_items b) <= MaxExchangeBatchItems.
  Proof.
    intros data b H. unfold DecodeExchangeBatch in H.
    destruct ((blen data =? 0) || (MaxExchangeBatchBytes <? blen data)); [discriminate|].
    unfold exchangeBatch, FMap in H. apply decode_full_inv, decode_FMapD_inv in H.
    destruct H as ([[v p] l] & H & ->). apply decode_FBind_inv in H. destruct H as (t & Hh & Hl).
    apply decode_FSeq_inv in Hh. destruct Hh as (t1 & Hv & Hp).
    apply decode_FGuard_inv in Hv, Hp, Hl. destruct Hv as [_ Hv], Hp as [_ Hp], Hl as [Hl Hne].
    destruct l as [[|it l]|]; try discriminate Hne.
    apply decode_FList_inv in Hl. destruct Hl as (n & t2 & Hc & Hr).
    apply rep_dec_length in Hr. apply p_count_bounded in Hc. destruct Hc as [Hc _]. specialize (Hc eq_refl).
    apply N.eqb_eq in Hv. cbn [eb_version eb_priority eb_items list_of].
    unfold blen. rewrite Hr. cbn [length] in Hr. repeat split; [exact Hv|exact Hp|lia|lia].
  Qed.

  Lemma exchangeBatch_wfmt : wfmt (exchangeBatch valid).
  Proof.
    apply wfmt_FMap_on; [fmt_ok|]. intros [[v p] l] W. cbn [wf fst snd] in W.
    apply andb_true_iff in W. destruct W as [_ W]. apply andb_true_iff in W. destruct W as [_ W].
    destruct l as [[|it l]|]; try discriminate. reflexivity.
  Qed.

  Theorem batch_decoded_in_bounds : forall data b,
    all_bytes data = true -> DecodeExchangeBatch valid data = Some b -> wf (exchangeBatch valid) b = true.
  Proof.
    intros data b B H. unfold DecodeExchangeBatch in H.
    destruct ((blen data =? 0) || (MaxExchangeBatchBytes <? blen data)); [discriminate|].
    eapply decode_full_wf; [apply exchangeBatch_wfmt|exact B|exact H].
  Qed.
End WithValid.

(* non-vacuity: a two-item result frame, in the decoder's domain, encodable *)
Definition ex_result : exchange_batch_result :=
  ExchangeBatchResult 3
    [ExchangeItemResult 7
       (ReplicateResult 1 9 0 (ReplicateProof (ChanIdent (hx "6b") (hx "6731") 2) 1 2
          (Manifest 1 1 1 1 (repeat 7 32) 8 9 1 8 (repeat 9 32) (repeat 3 32))))
       zPR
       (FetchResult (FetchRequest zI 0 0 zS 0 0 zE 0) zS
          (Some [RecoveryProposal zM (Some [RRecord 5 9 1 0 (hx "7531") [] 17%Z true (hx "6869") 2])]));
     ExchangeItemResult 8 zRR zPR zFR].

Lemma ex_result_wf : wf exchangeBatchResult ex_result = true.
Proof. vm_compute. reflexivity. Qed.
Lemma ex_result_encodes : exists e, EncodeExchangeBatchResult ex_result = Some e.
Proof. eexists. vm_compute. reflexivity. Qed.
