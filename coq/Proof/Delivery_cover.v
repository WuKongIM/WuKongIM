(* Proof/Delivery_cover.v — recipient coverage: owner grouping and batching hand
   every non-suppressed route of a resolved target to exactly one owner batch;
   recipients without a route are reported offline exactly once. *)
From WK Require Import Base.Base Base.Lists Gen.Consts_C31 Model.Delivery Model.Delivery_C31
     Proof.Delivery_local Proof.Delivery_retry.
From Coq Require Import Permutation.
Open Scope N_scope.

Lemma chunks_fuel_concat b : (0 < b)%nat -> forall fuel l,
  (length l <= fuel)%nat -> concat (chunks_fuel fuel b l) = l.
Proof.
  intros Hb. induction fuel as [|f IH]; intros l Hl.
  - destruct l; [reflexivity| simpl in Hl; lia].
  - destruct l as [|x l]; [reflexivity|].
    cbn [chunks_fuel concat]. rewrite IH.
    + apply firstn_skipn.
    + rewrite skipn_length. simpl in *. destruct b; [lia|]. simpl. lia.
Qed.

Lemma chunks_concat b l : (0 < b)%nat -> concat (chunks b l) = l.
Proof. intros Hb. unfold chunks. apply chunks_fuel_concat; [exact Hb| lia]. Qed.

Lemma chunks_fuel_bounds b : (0 < b)%nat -> forall fuel l x,
  In x (chunks_fuel fuel b l) -> x <> [] /\ (length x <= b)%nat.
Proof.
  intros Hb. induction fuel as [|f IH]; intros l x Hx; [contradiction|].
  destruct l as [|y l]; [contradiction|].
  cbn [chunks_fuel] in Hx. destruct Hx as [<-|Hx].
  - split.
    + destruct b; [lia|]. simpl. discriminate.
    + apply firstn_le_length.
  - eapply IH. exact Hx.
Qed.

Lemma chunks_bounds b l x : (0 < b)%nat -> In x (chunks b l) -> x <> [] /\ (length x <= b)%nat.
Proof. intros Hb. apply chunks_fuel_bounds. exact Hb. Qed.

Lemma concat_map_filter {A} (f : A -> bool) (ls : list (list A)) :
  concat (map (filter f) ls) = filter f (concat ls).
Proof.
  induction ls as [|l ls IH]; simpl; [reflexivity|]. rewrite filter_app, IH. reflexivity.
Qed.

Fixpoint g_get (o : N) (g : groups) : list route :=
  match g with
  | [] => []
  | (k, l) :: g' => if k =? o then l else g_get o g'
  end.

Definition g_keys (g : groups) : list N := map fst g.

Lemma g_get_add g r o :
  g_get o (group_add g r) = if r_owner r =? o then g_get o g ++ [r] else g_get o g.
Proof.
  induction g as [|[k l] g IH]; cbn [group_add g_get].
  - destruct (r_owner r =? o); reflexivity.
  - destruct (k =? r_owner r) eqn:Ek.
    + apply N.eqb_eq in Ek. subst k. cbn [g_get]. destruct (r_owner r =? o); reflexivity.
    + cbn [g_get]. destruct (k =? o) eqn:Eo.
      * apply N.eqb_eq in Eo. subst k. rewrite N.eqb_sym in Ek. rewrite Ek. reflexivity.
      * exact IH.
Qed.

Lemma g_keys_add g r o :
  In o (g_keys (group_add g r)) <-> In o (g_keys g) \/ o = r_owner r.
Proof.
  induction g as [|[k l] g IH]; cbn [group_add g_keys map fst].
  - simpl. intuition.
  - destruct (k =? r_owner r) eqn:Ek.
    + apply N.eqb_eq in Ek. subst k. simpl. intuition.
    + simpl. unfold g_keys in IH. rewrite IH. intuition.
Qed.

Lemma g_keys_add_nodup g r : NoDup (g_keys g) -> NoDup (g_keys (group_add g r)).
Proof.
  induction g as [|[k l] g IH]; cbn [group_add g_keys map fst]; intros ND.
  - constructor; [intros []| constructor].
  - destruct (k =? r_owner r) eqn:Ek.
    + exact ND.
    + inversion ND as [|? ? Hn ND']; subst. simpl. constructor.
      * intro H. apply (g_keys_add g r k) in H. destruct H as [H|H]; [exact (Hn H)|].
        subst k. rewrite N.eqb_refl in Ek. discriminate.
      * apply IH. exact ND'.
Qed.

Lemma g_get_notin o g : ~ In o (g_keys g) -> g_get o g = [].
Proof.
  induction g as [|[k l] g IH]; simpl; intros H; [reflexivity|].
  destruct (k =? o) eqn:E; [apply N.eqb_eq in E; subst; exfalso; apply H; left; reflexivity|].
  apply IH. intro H'. apply H. right. exact H'.
Qed.

(* seen: the kept routes folded into the groups so far, in order *)
Record g_inv (g : groups) (seen : list route) : Prop := {
  gi_nodup : NoDup (g_keys g);
  gi_get : forall o, g_get o g = filter (fun r => r_owner r =? o) seen;
  gi_keys : forall o, In o (g_keys g) -> g_get o g <> [] }.

Lemma g_inv_nil : g_inv [] [].
Proof. constructor; [constructor| reflexivity| intros o []]. Qed.

Lemma g_inv_add g seen r : g_inv g seen -> g_inv (group_add g r) (seen ++ [r]).
Proof.
  intros I. constructor.
  - apply g_keys_add_nodup. exact (gi_nodup _ _ I).
  - intros o. rewrite g_get_add, filter_app, (gi_get _ _ I). simpl.
    destruct (r_owner r =? o); [reflexivity| rewrite app_nil_r; reflexivity].
  - intros o Ho. rewrite g_get_add. apply g_keys_add in Ho.
    destruct (r_owner r =? o) eqn:E.
    + destruct (g_get o g); discriminate.
    + destruct Ho as [Ho|Ho]; [exact (gi_keys _ _ I o Ho)|].
      subst o. rewrite N.eqb_refl in E. discriminate.
Qed.

Lemma g_inv_fold rs : forall g seen,
  g_inv g seen -> g_inv (fold_left group_add rs g) (seen ++ rs).
Proof.
  induction rs as [|r rs IH]; intros g seen I; simpl.
  - rewrite app_nil_r. exact I.
  - replace (seen ++ r :: rs) with ((seen ++ [r]) ++ rs) by (rewrite <- app_assoc; reflexivity).
    apply IH. apply g_inv_add. exact I.
Qed.

(* the offline list resolve_targets accumulates over the resolved pairs, starting from out *)
Definition offline_of (pairs : list (target * list route)) (out : list bytes) : list bytes :=
  fold_left (fun o tr => appendOfflineUIDs o (t_recips (fst tr)) (snd tr)) pairs out.

(* once the answers run out every later target only records the missing result *)
Lemma resolve_targets_no_answers track ev : forall ts a,
  rs_groups (resolve_targets track ev ts [] a) = rs_groups a
  /\ rs_offline (resolve_targets track ev ts [] a) = rs_offline a.
Proof.
  induction ts as [|t ts IH]; intros a; cbn [resolve_targets]; [auto|].
  destruct (IH (set_err a 2)) as [A B]. rewrite A, B. auto.
Qed.

Lemma resolve_targets_spec track ev : forall ts ans a seen,
  g_inv (rs_groups a) seen ->
  let r := resolve_targets track ev ts ans a in
  g_inv (rs_groups r) (seen ++ expected_routes ev (resolved_pairs ts ans))
  /\ rs_offline r = (if track then offline_of (resolved_pairs ts ans) (rs_offline a) else rs_offline a).
Proof.
  induction ts as [|t ts IH]; intros ans a seen I; cbn [resolve_targets resolved_pairs].
  - unfold expected_routes. simpl. rewrite app_nil_r. split; [exact I|]. destruct track; reflexivity.
  - destruct ans as [|[|rs] ans].
    + destruct (resolve_targets_no_answers track ev ts (set_err a 2)) as [A B]. cbn zeta. rewrite A, B.
      unfold expected_routes. simpl. rewrite app_nil_r. split; [exact I|]. destruct track; reflexivity.
    + apply (IH ans (set_err a 3) seen). exact I.
    + cbn zeta.
      set (a' := Res (rs_err a) (if track then appendOfflineUIDs (rs_offline a) (t_recips t) rs else rs_offline a)
                     (fold_left group_add (filter (keep_route ev) rs) (rs_groups a))).
      destruct (IH ans a' (seen ++ filter (keep_route ev) rs)) as [A B].
      { unfold a'. cbn [rs_groups]. apply g_inv_fold. exact I. }
      cbn zeta in A, B. split.
      * unfold expected_routes in *. cbn [map snd concat]. rewrite filter_app, app_assoc. exact A.
      * rewrite B. unfold a'. cbn [rs_offline]. destruct track; reflexivity.
Qed.

Lemma resolve_plan_spec c p ans :
  g_inv (rs_groups (resolve_plan c p ans))
        (expected_routes (p_event p) (resolved_pairs (p_targets p) ans))
  /\ rs_offline (resolve_plan c p ans)
     = (if track_offline c p then offline_of (resolved_pairs (p_targets p) ans) [] else []).
Proof.
  exact (resolve_targets_spec (track_offline c p) (p_event p) (p_targets p) ans (Res 0 [] []) [] g_inv_nil).
Qed.

Lemma mem_bytes_in u l : mem_bytes u l = true <-> In u l.
Proof.
  unfold mem_bytes. rewrite existsb_exists. split.
  - intros (x & Hx & E). apply bytes_eqb_eq in E. subst. exact Hx.
  - intros H. exists u. split; [exact H| apply bytes_eqb_refl].
Qed.

Lemma mem_bytes_app u a b : mem_bytes u (a ++ b) = mem_bytes u a || mem_bytes u b.
Proof. unfold mem_bytes. apply existsb_app. Qed.

Lemma nodup_bytes_snoc l u : nodup_bytes l = true -> mem_bytes u l = false -> nodup_bytes (l ++ [u]) = true.
Proof.
  induction l as [|x l IH]; simpl; intros ND Hm; [reflexivity|].
  apply andb_true_iff in ND. destruct ND as [N1 N2].
  apply orb_false_iff in Hm. destruct Hm as [M1 M2].
  rewrite mem_bytes_app, IH by assumption. apply negb_true_iff in N1. rewrite N1. simpl.
  rewrite (proj2 (bytes_eqb_neq x u)); [reflexivity|].
  intros ->. rewrite bytes_eqb_refl in M1. discriminate.
Qed.

Lemma append_offline_spec recips rs : forall out,
  nodup_bytes out = true ->
  let r := appendOfflineUIDs out recips rs in
  nodup_bytes r = true
  /\ (forall u, In u r <-> In u out \/ (In u recips /\ has_route_for u rs = false)).
Proof.
  induction recips as [|x recips IH]; intros out ND; cbn [appendOfflineUIDs].
  - split; [exact ND|]. intros u. simpl. tauto.
  - destruct (has_route_for x rs) eqn:Hr.
    + destruct (IH out ND) as [A B]. split; [exact A|]. intros u. rewrite (B u). simpl.
      split; [tauto|]. intros [H|[[->|H] H2]]; [tauto| congruence| tauto].
    + destruct (mem_bytes x out) eqn:Hm.
      * destruct (IH out ND) as [A B]. split; [exact A|]. intros u. rewrite (B u). simpl.
        apply mem_bytes_in in Hm. split; [tauto|]. intros [H|[[->|H] H2]]; tauto.
      * destruct (IH (out ++ [x]) (nodup_bytes_snoc _ _ ND Hm)) as [A B]. split; [exact A|].
        intros u. rewrite (B u), in_app_iff. simpl. split.
        -- intros [[H|[->|[]]]|H]; tauto.
        -- intros [H|[[->|H] H2]]; tauto.
Qed.

Lemma offline_of_spec pairs : forall out,
  nodup_bytes out = true ->
  nodup_bytes (offline_of pairs out) = true
  /\ (forall u, In u (offline_of pairs out) <-> In u out \/ offline_spec pairs u = true).
Proof.
  induction pairs as [|[t rs] pairs IH]; intros out ND; cbn [offline_of fold_left].
  - split; [exact ND|]. intros u. unfold offline_spec. simpl. intuition discriminate.
  - destruct (append_offline_spec (t_recips t) rs out ND) as [A B]. cbn zeta in A, B.
    destruct (IH _ A) as [C D]. split; [exact C|]. intros u.
    unfold offline_of in D. cbn [fst snd]. rewrite (D u), (B u).
    unfold offline_spec. cbn [existsb fst snd]. rewrite orb_true_iff, andb_true_iff, negb_true_iff, mem_bytes_in.
    tauto.
Qed.

Lemma offline_spec_recip pairs u : offline_spec pairs u = true -> In u (all_recips pairs).
Proof.
  unfold offline_spec, all_recips. rewrite existsb_exists. intros ([t rs] & Hin & H).
  apply andb_true_iff in H. destruct H as [H _]. apply mem_bytes_in in H.
  apply in_concat. exists (t_recips t). split; [|exact H].
  apply in_map_iff. exists (t, rs). auto.
Qed.

Lemma offline_ok_model track pairs :
  offline_ok track pairs
    (let l := (if track then offline_of pairs [] else []) in
     if track && negb (is_nil l) then [l] else []) = true.
Proof.
  destruct track; cbn [andb].
  2:{ reflexivity. }
  destruct (offline_of_spec pairs [] eq_refl) as [ND Hin].
  destruct (offline_of pairs []) as [|x l] eqn:E; cbn [is_nil negb offline_ok].
  - cbn [negb orb]. apply negb_true_iff. apply not_true_iff_false. intro H.
    apply existsb_exists in H. destruct H as (u & _ & Hu).
    destruct (proj2 (Hin u) (or_intror Hu)).
  - cbn [andb]. rewrite ND. cbn [andb].
    apply andb_true_iff. split.
    + apply forallb_forall. intros u Hu. apply Hin in Hu. destruct Hu as [[]|Hu]. exact Hu.
    + apply forallb_forall. intros u _. destruct (offline_spec pairs u) eqn:Hs; [|reflexivity].
      cbn [negb orb]. apply mem_bytes_in. apply Hin. right. exact Hs.
Qed.
