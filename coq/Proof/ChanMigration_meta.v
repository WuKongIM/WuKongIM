(* Proof/ChanMigration_meta.v — migration commands keep MinISR and never shrink the ISR; what an
   accepted one-command batch does to the runtime-meta row of a channel ([meta_change], read off
   [one_step]); stored rows stay normalized. *)
From WK Require Import Base.Base Base.Lists.
From WK Require Import Gen.Consts_C15 Gen.Consts_C17 Model.RuntimeMeta Model.ChanMigration Model.ChanMigration_C17.
From WK Require Import Proof.RuntimeMeta Proof.ChanMigration Proof.ChanMigration_cmds Proof.ChanMigration_inv
                       Proof.ChanMigration_step.
Open Scope N_scope.

Lemma nodup_map_replace l a b :
  NoDup l -> ~ In b l -> NoDup (map (fun v => if v =? a then b else v) l).
Proof.
  induction 1 as [|x r Hx N IH]; cbn [map]; intro Hb; [constructor|].
  constructor; [|apply IH; intro K; apply Hb; right; exact K].
  intro K. apply in_map_iff in K. destruct K as [y [E Hy]].
  destruct (x =? a) eqn:Ex.
  - apply N.eqb_eq in Ex. subst x.
    destruct (y =? a) eqn:Ey; [apply N.eqb_eq in Ey; subst y; contradiction|].
    subst y. apply Hb. right. exact Hy.
  - destruct (y =? a) eqn:Ey.
    + subst x. apply Hb. left. reflexivity.
    + subst y. contradiction.
Qed.

Lemma nodup_snoc (l : list N) x : NoDup l -> ~ In x l -> NoDup (l ++ [x]).
Proof.
  intros N Hx. apply NoDup_app_intro; [exact N|repeat constructor; intros []|].
  intros y Hy [<-|[]]. contradiction.
Qed.

Lemma containsUint64_false_notin l x : containsUint64 l x = false -> ~ In x l.
Proof. intros H K. apply containsUint64_In in K. congruence. Qed.

Theorem mutate_isr c t m t' m' :
  ssorted (rm_isr m) ->
  mutate_task_meta c t m = Ok (t', m') ->
  rm_min_isr m' = rm_min_isr m
  /\ (length (rm_isr m) <= length (normalizeUint64Set (rm_isr m')))%nat.
Proof.
  intros S.
  assert (Same : forall x, rm_isr x = rm_isr m -> (length (rm_isr m) <= length (normalizeUint64Set (rm_isr x)))%nat).
  { intros x E. rewrite E, (normalizeUint64Set_fixed _ S). apply Nat.le_refl. }
  destruct c; cbn [mutate_task_meta]; try discriminate; intro H.
  - destruct (mutSetFence_inv _ _ _ _ _ _ _ H) as (_ & _ & _ & ->). split; [reflexivity|apply Same; reflexivity].
  - destruct (mutReset_inv _ _ _ _ _ _ H) as (_ & _ & _ & ->). split; [reflexivity|apply Same; reflexivity].
  - destruct (mutCommit_inv _ _ _ _ _ _ _ _ _ H) as (_ & -> & _). split; [reflexivity|apply Same; reflexivity].
  - destruct (mutAddLearner_inv _ _ _ _ _ _ H) as (_ & _ & ->).
    destruct (negb (containsUint64 (rm_replicas m) target)); (split; [reflexivity|apply Same; reflexivity]).
  - (* the target joins the ISR, in place of the source if that was a member *)
    destruct (mutPromote_inv _ _ _ _ _ _ _ _ H) as (Ct & _ & -> & _).
    pose proof (containsUint64_false_notin _ _ Ct) as Nt.
    split; [reflexivity|]. cbn [set_membership rm_isr].
    destruct (containsUint64 (rm_isr m) source).
    + unfold replaceUint64Member. rewrite normalizeUint64Set_idem, length_normalize_nodup.
      * rewrite map_length. apply Nat.le_refl.
      * apply nodup_map_replace; [apply ssorted_nodup; exact S|exact Nt].
    + rewrite normalizeUint64Set_idem, length_normalize_nodup.
      * rewrite app_length. cbn [length]. lia.
      * apply nodup_snoc; [apply ssorted_nodup; exact S|exact Nt].
  - destruct (mutClear_inv _ _ _ _ _ _ H) as (_ & [[_ ->]|(_ & _ & ->)]);
      (split; [reflexivity|apply Same; reflexivity]).
  - destruct (mutAbort_inv _ _ _ _ _ _ _ H) as (_ & _ & ->).
    destruct (negb (is_empty (rm_write_fence_token m)));
      match goal with |- context [if ?b then _ else _] => destruct b end;
      (split; [reflexivity|apply Same; reflexivity]).
Qed.

Lemma stored_isr ex nm :
  rm_isr (stored_meta ex nm) = normalizeUint64Set (rm_isr nm)
  /\ rm_min_isr (stored_meta ex nm) = rm_min_isr nm.
Proof.
  unfold stored_meta. destruct (bump_shape ex (normalizeChannelRuntimeMeta nm) true) as (g & -> & _).
  unfold normalizeChannelRuntimeMeta.
  repeat match goal with |- context [if ?c then _ else _] => destruct c end; rm_cbn; split; reflexivity.
Qed.

Lemma stored_normalized ex nm : rm_normalized (stored_meta ex nm).
Proof. apply bump_normalized, normalize_normalized. Qed.

Inductive meta_change (d : db) (c : cmd) (ch : chan_key) (d' : db) : Prop :=
| MC_same : meta_get d' ch = meta_get d ch -> meta_change d c ch d'
| MC_upsert m next : c = CUpsertMeta m -> ch = meta_chan (upsert_wire m) ->
    meta_get d' ch = Some next -> rm_normalized next -> meta_change d c ch d'
| MC_taskmeta h t m nt nm : cmd_trans c = Some h -> ch = rguard_chan (tr_rguard h) ->
    task_get (db_tasks d) (tguard_key (tr_guard h)) = Some t -> meta_get d ch = Some m ->
    tguard_matches (tr_guard h) t = true -> mutate_task_meta c t m = Ok (nt, nm) ->
    validateChannelRuntimeMeta (stored_meta m nm) = true ->
    meta_get d' ch = Some (stored_meta m nm) ->
    meta_change d c ch d'.

Lemma written_meta d c ch0 v d' ch :
  (forall ch', meta_get d' ch' = if chan_key_eqb ch0 ch' then Some v else meta_get d ch') ->
  (meta_get d' ch0 = Some v -> meta_change d c ch0 d') ->
  meta_change d c ch d'.
Proof.
  intros T H. destruct (chan_key_eqb ch0 ch) eqn:K.
  - apply chan_key_eqb_eq in K. subst ch. apply H. rewrite T, chan_key_eqb_refl. reflexivity.
  - apply MC_same. rewrite T, K. reflexivity.
Qed.

Theorem step_meta_change d c d' ch :
  metas_normalized d -> apply_one d c = (d', Ok 0) -> meta_change d c ch d'.
Proof.
  intros Nm A.
  destruct (accepted_step _ _ _ A) as [_ E|m next Hc Nn E|t _ _ U|g t next _ _ _ _ _ U|h t m nm _ _ _ _ E
                                      |h t m nt nm pend Ht G Gm Mg Mr M _ V U E|b l _ E];
    try (subst d'; apply MC_same; reflexivity);
    try (apply MC_same; exact (stageUpsert_metas _ _ _ _ U)).
  - subst d'. apply (written_meta d c _ next _ ch (meta_get_put_meta d _ next)).
    intro G'. eapply MC_upsert; eauto.
  - subst d'. apply (written_meta d c (rguard_chan (tr_rguard h)) (stored_meta m nm) _ ch).
    + intro ch'. rewrite meta_get_put_meta, (stageUpsert_metas _ _ _ ch' U). reflexivity.
    + intro G'. eapply MC_taskmeta; eauto.
  - subst d'. destruct (gc_scan_spec (db_tasks d) d b l 0%Z) as (_ & G2 & _).
    apply MC_same. unfold meta_get. rewrite G2. reflexivity.
Qed.

Theorem apply_one_normalized d c d' r :
  metas_normalized d -> apply_one d c = (d', r) -> metas_normalized d'.
Proof.
  intros Nm A.
  destruct r as [n|e]; [destruct n as [|p]|];
    try (rewrite (apply_one_rejected _ _ _ _ A) by discriminate; exact Nm).
  intros ch m G.
  destruct (step_meta_change d c d' ch Nm A) as [S|m0 next _ _ Gn Nn|h t m0 nt nm _ _ _ _ _ _ _ Gn].
  - rewrite S in G. eapply Nm; eauto.
  - rewrite Gn in G. inversion G; subst. exact Nn.
  - rewrite Gn in G. inversion G; subst. apply stored_normalized.
Qed.

Lemma apply_one_fst_normalized d c :
  metas_normalized d -> metas_normalized (fst (apply_one d c)).
Proof. intro Nm. destruct (apply_one d c) as [d' r] eqn:E. exact (apply_one_normalized _ _ _ _ Nm E). Qed.
