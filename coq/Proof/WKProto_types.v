(* Proof/WKProto_types.v — per frame type: the body written by encodeX is the
   explicit byte string [body_bytes], encodeXSize is its length, it is never
   empty, and decodeX reads it back as the normalized frame. *)
From WK Require Import Base.Base Base.Bytes Gen.Consts_C22 Model.WKProto Proof.WKProto.
From Coq Require Import ZifyBool ZifyN ZifyNat.
Open Scope N_scope.

Definition opt_bytes (c : bool) (b : bytes) : bytes := if c then b else [].

(* the body of a frame whose fields are within limits *)
Definition body_bytes (f : frame) (v : N) : bytes :=
  match f with
  | FConnect _ ver dfl ts ck did uid tok =>
      put_u8 ver ++ put_u8 dfl ++ enc_str did ++ enc_str uid ++ enc_str tok ++ put_u64 ts ++ enc_str ck
  | FConnack fl sv td rc nid sk salt =>
      opt_bytes (f_hsv fl) (put_u8 sv) ++ put_u64 td ++ put_u8 rc ++ enc_str sk ++ enc_str salt
      ++ opt_bytes (4 <=? v) (put_u64 nid)
  | FSend _ st ex cs ct mk cmn sn cid tp pl =>
      put_u8 st ++ put_u32 cs ++ enc_str cmn ++ opt_bytes (has_stream v st) (enc_str sn)
      ++ enc_str cid ++ put_u8 ct ++ opt_bytes (3 <=? v) (put_u32 ex) ++ enc_str mk
      ++ opt_bytes (IsSet st SettingTopic) (enc_str tp) ++ pl
  | FSendack _ mid ms cs rc cmn =>
      put_u64 mid ++ put_u32 cs ++ seq_bytes v ms ++ put_u8 rc
      ++ opt_bytes (negb (blen cmn =? 0)) (enc_str cmn)
  | FRecv _ st ex mid ms sid sfl ts ct _ mk cmn sn cid tp fu pl =>
      put_u8 st ++ enc_str mk ++ enc_str fu ++ enc_str cid ++ put_u8 ct
      ++ opt_bytes (3 <=? v) (put_u32 ex) ++ enc_str cmn
      ++ opt_bytes (has_stream v st) (put_u8 sfl ++ enc_str sn ++ put_u64 sid)
      ++ put_u64 mid ++ seq_bytes v ms ++ put_u32 ts
      ++ opt_bytes (IsSet st SettingTopic) (enc_str tp) ++ pl
  | FRecvack _ mid ms => put_u64 mid ++ seq_bytes v ms
  | FPing _ | FPong _ => []
  | FDisconnect _ rc rs => put_u8 rc ++ enc_str rs
  | FSub _ st ct ac sn cid pm =>
      put_u8 st ++ enc_str sn ++ enc_str cid ++ put_u8 ct ++ put_u8 ac ++ enc_str pm
  | FSuback _ ct ac rc sn cid => enc_str sn ++ enc_str cid ++ put_u8 ct ++ put_u8 ac ++ put_u8 rc
  | FEvent _ ts id ty dt => enc_str id ++ enc_str ty ++ put_u64 ts ++ dt
  end.

(* [H : b1 && ... && bn = true] becomes one hypothesis per conjunct *)
Ltac split_ok H :=
  repeat match type of H with
         | _ && _ = true => apply andb_prop in H; let H' := fresh "Hok" in destruct H as [H H']
         end.

Lemma encodeBody_ok v f : fields_ok v f = true -> encodeBody f v = W (body_bytes f v).
Proof.
  (* every writer becomes [W bytes] and the [+>] chain collapses; the case split is for SENDACK,
     whose encoder guards on [blen cmn =? 0] where [body_bytes] has [opt_bytes (negb ...)] *)
  intro H. destruct f; cbn [fields_ok] in H; split_ok H; cbn [encodeBody body_bytes];
    unfold encodeConnect, encodeConnack, encodeSend, encodeSendack, encodeRecv, encodeRecvack, encodeDisConnect,
      encodeSub, encodeSuback, encodeEvent, WriteUint8, WriteUint32, WriteUint64, WriteBytes;
    rewrite ?WriteString_ok, ?encodeMessageSeq_ok, ?wrap32_small by assumption;
    try destruct (blen _ =? 0); repeat (rewrite if_W || rewrite wseq_W); reflexivity.
Qed.

Lemma blen_opt_bytes c b : blen (opt_bytes c b) = if c then blen b else 0.
Proof. destruct c; reflexivity. Qed.
#[export] Hint Rewrite blen_opt_bytes : blen.

(* the field widths of Gen/Consts_C22.v, made visible to [lia] *)
#[export] Hint Unfold SettingByteSize StringFixLenByteSize ClientSeqByteSize ChannelTypeByteSize VersionByteSize
  DeviceFlagByteSize ClientTimestampByteSize TimeDiffByteSize ReasonCodeByteSize MessageIDByteSize
  TimestampByteSize BigTimestampByteSize ActionByteSize StreamIdByteSize StreamFlagByteSize ExpireByteSize
  NodeIdByteSize : wk_sizes.

Lemma body_size f v : snd (encodedFrameBodySize f v) = true ->
  fst (encodedFrameBodySize f v) = blen (body_bytes f v).
Proof.
  destruct f; cbn [encodedFrameBodySize body_bytes]; try destruct (PayloadMaxSize <? _);
    try discriminate; intros _; cbn [fst];
    unfold encodeConnectSize, encodeConnackSize, encodeSendSize, encodeSendackSize, encodeRecvSize,
      encodeRecvackSize, encodeDisConnectSize, encodeSubSize, encodeSubackSize, encodeEventSize;
    autorewrite with blen; autounfold with wk_sizes.
  (* a version-gated field contributes the same [if] on both sides, an atom for lia;
     only SENDACK (guard negated) and RECV (three fields under one guard) need the case split *)
  all: try lia.
  - destruct (blen clientMsgNo =? 0); cbn [negb]; lia.
  - destruct (has_stream v setting); lia.
Qed.

Lemma body_size_accepts v f : fields_ok v f = true -> is_pingpong f = false ->
  snd (encodedFrameBodySize f v) = true.
Proof.
  intros H NP. destruct f; try discriminate NP; try reflexivity.
  cbn [fields_ok] in H. apply andb_prop, proj2 in H. cbn [encodedFrameBodySize].
  replace (PayloadMaxSize <? blen payload) with false by lia. reflexivity.
Qed.

Lemma body_size_ok v f : fields_ok v f = true -> fst (encodedFrameBodySize f v) = blen (body_bytes f v).
Proof.
  intro H. destruct (is_pingpong f) eqn:NP; [destruct f; try discriminate NP; reflexivity|].
  apply body_size, (body_size_accepts v); assumption.
Qed.

(* every body is at least three bytes: encodeVariable2 0 = [] is unreachable *)
Lemma body_min f v : is_pingpong f = false -> 3 <= blen (body_bytes f v).
Proof. intro NP. destruct f; try discriminate NP; cbn [body_bytes]; autorewrite with blen; lia. Qed.

Definition set_flags (f : frame) (fl' : flags) : frame :=
  match f with
  | FConnect _ a b c d e g h => FConnect fl' a b c d e g h
  | FConnack _ a b c d e g => FConnack fl' a b c d e g
  | FSend _ a b c d e g h i j k => FSend fl' a b c d e g h i j k
  | FSendack _ a b c d e => FSendack fl' a b c d e
  | FRecv _ a b c d e g h i j k l m n o p q => FRecv fl' a b c d e g h i j k l m n o p q
  | FRecvack _ a b => FRecvack fl' a b
  | FPing _ => FPing fl'
  | FPong _ => FPong fl'
  | FDisconnect _ a b => FDisconnect fl' a b
  | FSub _ a b c d e g => FSub fl' a b c d e g
  | FSuback _ a b c d e => FSuback fl' a b c d e
  | FEvent _ a b c d => FEvent fl' a b c d
  end.

(* a field that is on the wire only under [c]: the guarded reader yields the value or the default *)
Lemma opt_read {A} (d : bytes -> option (A * bytes)) (c : bool) b a dflt r :
  d (b ++ r) = Some (a, r) ->
  (if c then d (opt_bytes c b ++ r) else Some (dflt, opt_bytes c b ++ r)) = Some (if c then a else dflt, r).
Proof. intro H. destruct c; [exact H|reflexivity]. Qed.

(* one field: the reader at the head of the [do] chain consumes its encoding; [wk_read] holds the
   primitive readers of Proof/WKProto.v, their range conditions come from the context *)
#[export] Hint Rewrite dUint8_put dUint32_put dUint64_put dString_enc decodeMessageSeq_bytes
  using assumption : wk_read.

Ltac dstep :=
  (erewrite opt_read by (autorewrite with wk_read; reflexivity)) || autorewrite with wk_read; cbv beta iota.

(* all types at once: the decoder registered for the frame type, run with the
   flags that survive the header, returns the normalized frame *)
Lemma decode_body_rt v f : fields_ok v f = true -> is_pingpong f = false ->
  exists dec, packetDecodeMap (frame_type f) = Some dec
    /\ dec (normalize_flags (frame_type f) (frame_flags f)) (body_bytes f v) v = Some (normalize v f).
Proof.
  (* [body ++ []]: every reader, the last one included, sees [encoding ++ rest] *)
  intros H NP. rewrite <- (app_nil_r (body_bytes f v)).
  destruct f; try discriminate NP; cbn [fields_ok] in H; split_ok H; (eexists; split; [reflexivity|]);
    cbn [frame_type frame_flags normalize body_bytes]; rewrite <- ?app_assoc.
  - unfold decodeConnect. repeat dstep. reflexivity.
  - unfold decodeConnack. change (f_hsv (normalize_flags CONNACK fl)) with (f_hsv fl). repeat dstep. reflexivity.
  - unfold decodeSend, dBinaryAll. repeat dstep. rewrite app_nil_r. reflexivity.
  - (* the core-first parse succeeds on the encoder's layout whatever MessageSeq is,
       so the clientMsgNo-first fallback is never tried *)
    unfold decodeSendack, dBinaryAll. dstep. dstep.
    unfold decodeSendackBody, decodeSendackBodyCoreFirst. dstep. dstep.
    destruct (blen clientMsgNo =? 0) eqn:Z; cbn [negb opt_bytes app].
    + apply N.eqb_eq, blen_zero_nil in Z. subst clientMsgNo. reflexivity.
    + replace (0 <? blen (enc_str clientMsgNo ++ [])) with true by (clear; autorewrite with blen; lia).
      dstep. reflexivity.
  - unfold decodeRecv, dBinaryAll. dstep. destruct (has_stream v setting); cbn [opt_bytes app]; rewrite <- ?app_assoc;
      repeat dstep; rewrite app_nil_r; reflexivity.
  - unfold decodeRecvack. repeat dstep. reflexivity.
  - unfold decodeDisConnect. repeat dstep. reflexivity.
  - unfold decodeSub. repeat dstep. reflexivity.
  - unfold decodeSuback. repeat dstep. reflexivity.
  - unfold decodeEvent, dBinaryAll. repeat dstep. rewrite app_nil_r. reflexivity.
Qed.
