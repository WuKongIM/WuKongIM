(* Proof/AckTracker_inv.v — the tracker invariant, the simulation relation with the specification
   tracker of the monitor, and the calls that rewrite one row (bind, finish, cancel, ack). *)
From WK Require Import Base.Base Gen.Consts_C32 Model.AckTracker.
From WK Require Import Proof.AckTracker_map Proof.AckTracker_entry Proof.AckTracker_index.
From Coq Require Import Permutation.
Open Scope N_scope.

(* [eo_bound]: live tokens are at most t_next, so the token t_next + 1 of bind_locked is fresh *)
Record entry_ok (next : N) (k : key) (e : entry) : Prop := {
  eo_wf : entry_wf e;
  eo_alive : entry_alive e;
  eo_keyed : entry_keyed k e;
  eo_bound : forall tok, In tok (map fst (abs_live e)) -> tok <= next }.

Definition key_valid (k : key) : Prop := let '(u, s, m) := k in u <> 0 /\ s <> 0 /\ m <> 0.

(* [inv_limit]: checked by the code only on insert of a new identity; rows never grow otherwise *)
Record Inv (t : tracker) : Prop := {
  inv_nodup : NoDup (al_keys (t_byMessage t));
  inv_count : t_count t = Z.of_nat (length (t_byMessage t));
  inv_index : session_index_ok (t_byMessage t) (t_bySession t);
  inv_entries : forall k e, kget k (t_byMessage t) = Some e -> entry_ok (t_next t) k e /\ key_valid k;
  inv_limit : (0 < t_limit t)%Z -> forall sk ms, sget sk (t_bySession t) = Some ms ->
                                                 (Z.of_nat (length ms) <= t_limit t)%Z }.

(* same committed time, same live reservations up to order (swap-remove reorders them) *)
Definition rel_entry (e : entry) (se : sentry) : Prop :=
  s_committed se = abs_committed e /\ Permutation (abs_live e) (s_live se).

Record Rel (bm : list (key * entry)) (s : sstate) : Prop := {
  rel_nodup : NoDup (al_keys s);
  rel_some : forall k e, kget k bm = Some e -> exists se, kget k s = Some se /\ rel_entry e se;
  rel_none : forall k, kget k bm = None -> kget k s = None }.

Definition Sim (t : tracker) (s : sstate) : Prop := Inv t /\ Rel (t_byMessage t) s.

Lemma rel_has bm s k : Rel bm s -> spec_has s k = match kget k bm with Some _ => true | None => false end.
Proof.
  intros R. unfold spec_has. destruct (kget k bm) as [e|] eqn:G.
  - destruct (rel_some _ _ R _ _ G) as [se [H _]]. rewrite H. reflexivity.
  - rewrite (rel_none _ _ R _ G). reflexivity.
Qed.

Lemma rel_stored bm s k : Rel bm s -> (kget k s <> None <-> kget k bm <> None).
Proof.
  intro R. destruct (kget k bm) eqn:G.
  - destruct (rel_some _ _ R _ _ G) as [se [GS _]]. rewrite GS. split; discriminate.
  - rewrite (rel_none _ _ R _ G). tauto.
Qed.

Lemma rel_length bm s : NoDup (al_keys bm) -> Rel bm s -> length s = length bm.
Proof.
  intros ND R. apply (al_same_length key_eqb key_eqb_spec); [apply (rel_nodup _ _ R)|exact ND|].
  intro k. apply rel_stored, R.
Qed.

Lemma rel_set bm s k e se : Rel bm s -> rel_entry e se -> Rel (al_set key_eqb k e bm) (al_set key_eqb k se s).
Proof.
  intros R RE. constructor.
  - apply k_set_nodup. apply (rel_nodup _ _ R).
  - intros k' e'. destruct (key_eq_dec k k') as [E|E].
    + subst k'. rewrite !k_get_set_same. intro H. inversion H. subst e'. exists se. split; [reflexivity|exact RE].
    + rewrite !k_get_set_other by exact E. apply (rel_some _ _ R).
  - intros k'. destruct (key_eq_dec k k') as [E|E].
    + subst k'. rewrite k_get_set_same. discriminate.
    + rewrite !k_get_set_other by exact E. apply (rel_none _ _ R).
Qed.

Lemma rel_del bm s k : Rel bm s -> Rel (al_del key_eqb k bm) (al_del key_eqb k s).
Proof.
  intros R. constructor.
  - apply k_del_nodup. apply (rel_nodup _ _ R).
  - intros k' e'. destruct (key_eq_dec k k') as [E|E].
    + subst k'. rewrite k_get_del_same. discriminate.
    + rewrite !k_get_del_other by exact E. apply (rel_some _ _ R).
  - intros k'. destruct (key_eq_dec k k') as [E|E].
    + subst k'. rewrite !k_get_del_same. reflexivity.
    + rewrite !k_get_del_other by exact E. apply (rel_none _ _ R).
Qed.

Lemma sim_count t s : Sim t s -> scount s = t_count t.
Proof.
  intros [I R]. unfold scount. rewrite (inv_count t I). f_equal. apply rel_length; [apply (inv_nodup t I)|exact R].
Qed.

Lemma entry_ok_mono n n' k e : n <= n' -> entry_ok n k e -> entry_ok n' k e.
Proof. intros L [H1 H2 H3 H4]. constructor; try assumption. intros tok H. apply H4 in H. lia. Qed.

Lemma valid_key_of p : validPendingRecvAck p = true -> key_valid (key_of p).
Proof.
  unfold validPendingRecvAck, key_valid, key_of. rewrite !andb_true_iff, !negb_true_iff, !N.eqb_neq. tauto.
Qed.

Lemma zero_key_absent t u s m :
  Inv t -> (u =? 0) || (s =? 0) || (m =? 0) = true -> kget (u, s, m) (t_byMessage t) = None.
Proof.
  intros I Z. destruct (kget (u, s, m) (t_byMessage t)) eqn:G; [|reflexivity].
  destruct (inv_entries t I _ _ G) as [_ [K1 [K2 K3]]].
  apply N.eqb_neq in K1, K2, K3. rewrite K1, K2, K3 in Z. discriminate.
Qed.

Lemma invalid_absent t p : Inv t -> validPendingRecvAck p = false -> kget (key_of p) (t_byMessage t) = None.
Proof.
  intros I V. apply (zero_key_absent t _ _ _ I). unfold validPendingRecvAck in V.
  rewrite <- negb_false_iff, !negb_orb. exact V.
Qed.

Lemma key_of_set_at p z : key_of (set_at p z) = key_of p.
Proof. reflexivity. Qed.

(* reduce the projections of a tracker rebuilt by with_maps, and nothing else *)
Ltac proj := cbn [t_byMessage t_bySession t_count t_next t_limit t_shards with_maps].

Lemma Inv_set t k e e' :
  Inv t -> kget k (t_byMessage t) = Some e -> entry_ok (t_next t) k e' ->
  Inv (with_maps t (al_set key_eqb k e' (t_byMessage t)) (t_bySession t) (t_count t) (t_next t)).
Proof.
  intros I G EO. destruct (inv_entries t I _ _ G) as [_ KV]. constructor; proj.
  - apply k_set_nodup, (inv_nodup t I).
  - rewrite (al_set_length_present key_eqb key_eqb_spec _ _ _ _ (inv_nodup t I) G). apply (inv_count t I).
  - apply (si_dom (t_byMessage t)); [|apply (inv_index t I)].
    intro k0. rewrite has_key_set. split; [auto|].
    intros [H|H]; [subst k0; unfold has_key; rewrite G; discriminate|exact H].
  - intros k0 e0. destruct (key_eq_dec k k0) as [E|E].
    + subst k0. rewrite k_get_set_same. intro H. inversion H. subst e0. split; assumption.
    + rewrite k_get_set_other by exact E. apply (inv_entries t I).
  - apply (inv_limit t I).
Qed.

Lemma Inv_del t u s m e :
  Inv t -> kget (u, s, m) (t_byMessage t) = Some e ->
  Inv (with_maps t (al_del key_eqb (u, s, m) (t_byMessage t))
                 (deleteSessionMessageLocked (t_bySession t) (u, s) m) (t_count t - 1)%Z (t_next t)).
Proof.
  intros I G. constructor; proj.
  - apply k_del_nodup, (inv_nodup t I).
  - rewrite (inv_count t I). pose proof (k_del_length _ _ _ (inv_nodup t I) G). lia.
  - apply si_del, (inv_index t I).
  - intros k0 e0. destruct (key_eq_dec (u, s, m) k0) as [E|E].
    + subst k0. rewrite k_get_del_same. discriminate.
    + rewrite k_get_del_other by exact E. apply (inv_entries t I).
  - intros LP sk ms GS. destruct (deleteSession_rows _ _ _ _ _ GS) as [ms0 [G0 L]].
    pose proof (inv_limit t I LP _ _ G0). lia.
Qed.

Lemma Inv_bind t p e' :
  Inv t -> validPendingRecvAck p = true -> entry_ok (t_next t + 1) (key_of p) e' ->
  let messages := match sget (skey_of p) (t_bySession t) with Some ms => ms | None => [] end in
  (kget (key_of p) (t_byMessage t) = None -> (0 < t_limit t)%Z -> (Z.of_nat (length messages) < t_limit t)%Z) ->
  Inv (with_maps t (al_set key_eqb (key_of p) e' (t_byMessage t))
                 (al_set skey_eqb (skey_of p) (add_mid (p_mid p) messages) (t_bySession t))
                 (match kget (key_of p) (t_byMessage t) with Some _ => t_count t | None => t_count t + 1 end)%Z
                 (t_next t + 1)).
Proof.
  intros I V EO messages LIM. constructor; proj.
  - apply k_set_nodup, (inv_nodup t I).
  - destruct (kget (key_of p) (t_byMessage t)) eqn:G.
    + rewrite (al_set_length_present key_eqb key_eqb_spec _ _ _ _ (inv_nodup t I) G). apply (inv_count t I).
    + rewrite (al_set_length_absent key_eqb _ _ _ G), (inv_count t I). lia.
  - apply (si_add _ _ (p_uid p) (p_sid p) (p_mid p)), (inv_index t I).
  - intros k0 e0. destruct (key_eq_dec (key_of p) k0) as [E|E].
    + subst k0. rewrite k_get_set_same. intro H. inversion H. subst e0. split; [exact EO|apply valid_key_of, V].
    + rewrite k_get_set_other by exact E. intro H. destruct (inv_entries t I _ _ H) as [H1 H2].
      split; [|exact H2]. apply (entry_ok_mono (t_next t)); [lia|exact H1].
  - intros LP sk ms. destruct (skey_eq_dec (skey_of p) sk) as [E|E].
    2:{ rewrite s_get_set_other by exact E. apply (inv_limit t I LP). }
    subst sk. rewrite s_get_set_same. intro H. inversion H. subst ms. clear H. rewrite add_mid_length.
    destruct (kget (key_of p) (t_byMessage t)) eqn:G.
    + assert (HK : has_key (t_byMessage t) (p_uid p, p_sid p, p_mid p)) by (unfold has_key; fold (key_of p); congruence).
      apply (si_proj _ _ (inv_index t I)) in HK. destruct HK as [ms [H1 H2]]. fold (skey_of p) in H1.
      unfold messages. rewrite H1. rewrite (proj2 (mem_mid_in _ _) H2). apply (inv_limit t I LP _ _ H1).
    + specialize (LIM eq_refl LP). destruct (mem_mid (p_mid p) messages); lia.
Qed.

(* an absent identity stands for the zero entry on both sides *)
Lemma rel_row bm s k :
  Rel bm s ->
  rel_entry (match kget k bm with Some e => e | None => zero_entry end)
            (match kget k s with Some se => se | None => SEnt None [] end).
Proof.
  intro R. destruct (kget k bm) eqn:G.
  - destruct (rel_some _ _ R _ _ G) as [se [GS RE]]. rewrite GS. exact RE.
  - rewrite (rel_none _ _ R _ G). split; [reflexivity|apply perm_nil].
Qed.

Lemma addAttempt_sim next k e se p :
  entry_ok next k e \/ e = zero_entry -> rel_entry e se -> key_of p = k ->
  let tok := next + 1 in
  entry_ok tok k (addAttempt e p tok)
  /\ rel_entry (addAttempt e p tok) (SEnt (s_committed se) (s_live se ++ [(tok, p_at p)]))
  /\ live_mem tok (s_live se) = false.
Proof.
  intros H [RC RP] Hk tok.
  assert (W : entry_wf e) by (destruct H as [H|H]; [apply H|subst; apply zero_entry_wf]).
  assert (B : forall x, In x (map fst (abs_live e)) -> x <= next).
  { destruct H as [H|H]; [apply H|subst; intros x []]. }
  assert (K : entry_keyed k e \/ e = zero_entry) by (destruct H as [H|H]; [left; apply H|right; exact H]).
  assert (TZ : tok <> 0) by (unfold tok; lia).
  assert (FRESH : ~ In tok (map fst (abs_live e))) by (intro X; apply B in X; unfold tok in X; lia).
  destruct (addAttempt_abs e p tok W TZ FRESH) as [C1 [C2 [C3 C4]]].
  split; [|split].
  - constructor; [exact C3|exact C4|apply addAttempt_keyed; assumption|].
    intros x Hx. eapply Permutation_in in Hx; [|apply Permutation_map, C2].
    rewrite map_app, in_app_iff in Hx.
    destruct Hx as [Hx|[Hx|[]]]; [apply B in Hx; unfold tok; lia|simpl in Hx; subst x; lia].
  - split; cbn [s_committed s_live]; [rewrite C1; exact RC|].
    eapply Permutation_trans; [exact C2|]. apply Permutation_app_tail, RP.
  - rewrite <- (live_mem_perm tok _ _ RP). apply not_true_iff_false. rewrite live_mem_in. exact FRESH.
Qed.

Lemma bind_locked_sim t s now p :
  Sim t s -> validPendingRecvAck p = true ->
  let '(t', tok, added) := bind_locked t now p in
  (tok = 0 /\ t' = t /\ added = false)
  \/ (tok = t_next t + 1 /\ t_next t' = tok
      /\ added = negb (spec_has s (key_of p))
      /\ t_count t' = (if added then t_count t + 1 else t_count t)%Z
      /\ (forall k', k' <> key_of p -> kget k' (t_byMessage t') = kget k' (t_byMessage t))
      /\ exists s', spec_bind s now p tok = Some s' /\ Sim t' s').
Proof.
  intros [I R] V. unfold bind_locked.
  set (p' := if (p_at p =? 0)%Z then set_at p now else p).
  assert (KP : key_of p' = key_of p) by (unfold p'; destruct (p_at p =? 0)%Z; reflexivity).
  assert (SP : skey_of p' = skey_of p) by (unfold p'; destruct (p_at p =? 0)%Z; reflexivity).
  assert (MP : p_mid p' = p_mid p) by (unfold p'; destruct (p_at p =? 0)%Z; reflexivity).
  assert (AP : p_at p' = eff_at now p) by (unfold p', eff_at; destruct (p_at p =? 0)%Z; reflexivity).
  rewrite KP, SP, MP.
  set (messages := match sget (skey_of p) (t_bySession t) with Some ms => ms | None => [] end).
  destruct ((0 <? t_limit t)%Z && negb (match kget (key_of p) (t_byMessage t) with Some _ => true | None => false end)
            && (t_limit t <=? Z.of_nat (length messages))%Z) eqn:LIM; [left; auto|right].
  pose proof (rel_row _ _ (key_of p) R) as RR.
  assert (OK0 : entry_ok (t_next t) (key_of p) (match kget (key_of p) (t_byMessage t) with Some e => e | None => zero_entry end)
                \/ match kget (key_of p) (t_byMessage t) with Some e => e | None => zero_entry end = zero_entry).
  { destruct (kget (key_of p) (t_byMessage t)) eqn:G; [left; apply (inv_entries t I _ _ G)|right; reflexivity]. }
  destruct (addAttempt_sim _ _ _ _ p' OK0 RR KP) as [EO [RE NM]]. rewrite AP in RE. clear OK0 RR.
  split; [reflexivity|]. split; [reflexivity|].
  split; [rewrite (rel_has _ _ _ R); destruct (kget (key_of p) (t_byMessage t)); reflexivity|].
  split; [destruct (kget (key_of p) (t_byMessage t)); reflexivity|].
  split; [intros k' Hk; proj; apply k_get_set_other; congruence|].
  set (se0 := match kget (key_of p) s with Some se => se | None => SEnt None [] end) in *.
  exists (al_set key_eqb (key_of p) (SEnt (s_committed se0) (s_live se0 ++ [(t_next t + 1, eff_at now p)])) s).
  split; [|split].
  - unfold spec_bind, se0 in *. destruct (kget (key_of p) s); [rewrite NM|]; reflexivity.
  - pose proof (Inv_bind t p _ I V EO) as IB. cbv zeta in IB. fold messages in IB.
    destruct (kget (key_of p) (t_byMessage t)); apply IB; [discriminate|].
    intros _ LP. apply Z.ltb_lt in LP. rewrite LP in LIM. apply Z.leb_gt in LIM. exact LIM.
  - proj. apply rel_set; [exact R|exact RE].
Qed.

Lemma tokens_after_del e e' tok :
  Permutation (abs_live e') (live_del tok (abs_live e)) ->
  forall x, In x (map fst (abs_live e')) -> x <> tok /\ In x (map fst (abs_live e)).
Proof.
  intros P x H. eapply Permutation_in in H; [|apply Permutation_map; exact P].
  apply live_del_fst in H. exact H.
Qed.

Lemma entry_ok_after_del next k e e' tok :
  entry_ok next k e -> entry_wf e' -> entry_alive e' -> entry_keyed k e' ->
  Permutation (abs_live e') (live_del tok (abs_live e)) -> entry_ok next k e'.
Proof.
  intros EO W A K P. constructor; [exact W|exact A|exact K|].
  intros x Hx. apply (eo_bound _ _ _ EO), (tokens_after_del _ _ _ P), Hx.
Qed.

Lemma spec_live_invalid t s p tok :
  Sim t s -> validPendingRecvAck p = false \/ tok = 0 -> spec_live s p tok = false.
Proof.
  intros [I R] [H|H]; unfold spec_live.
  - rewrite (rel_none _ _ R _ (invalid_absent t p I H)). apply andb_false_r.
  - subst tok. reflexivity.
Qed.

Lemma invalid_call p tok :
  negb (validPendingRecvAck p) || (tok =? 0) = true -> validPendingRecvAck p = false \/ tok = 0.
Proof. rewrite orb_true_iff, negb_true_iff, N.eqb_eq. tauto. Qed.

Definition frame (t t' : tracker) (k : key) : Prop :=
  t_next t' = t_next t /\ t_count t' = t_count t
  /\ forall k', k' <> k -> kget k' (t_byMessage t') = kget k' (t_byMessage t).

Lemma frame_refl t k : frame t t k.
Proof. split; [reflexivity|]. split; reflexivity. Qed.

Lemma finishBindLocked_sim t s p tok :
  Sim t s -> tok <> 0 ->
  let '(t', ok) := finishBindLocked t p tok in
  let '(s', ok') := spec_finish s p tok in
  ok = ok' /\ Sim t' s' /\ frame t t' (key_of p)
  /\ (ok = true -> forall e', kget (key_of p) (t_byMessage t') = Some e' -> ~ In tok (map fst (abs_live e'))).
Proof.
  intros [I R] TZ. unfold finishBindLocked, spec_finish, spec_live.
  rewrite (proj2 (N.eqb_neq _ _) TZ). cbn [negb andb].
  assert (SAME : forall P : Prop, false = false /\ Sim t s /\ frame t t (key_of p) /\ (false = true -> P)).
  { intro P. split; [reflexivity|]. split; [split; assumption|]. split; [apply frame_refl|discriminate]. }
  destruct (kget (key_of p) (t_byMessage t)) as [e|] eqn:G; [|rewrite (rel_none _ _ R _ G); exact (SAME _)].
  destruct (inv_entries t I _ _ G) as [EO KV].
  destruct (rel_some _ _ R _ _ G) as [se [GS [RC RP]]]. rewrite GS.
  pose proof (finishAttempt_abs e tok (eo_wf _ _ _ EO) TZ) as FA.
  destruct (finishAttempt e tok) as [e' ok]. destruct FA as [F1 F3].
  rewrite <- (live_mem_perm tok _ _ RP), <- F1.
  destruct ok; [|exact (SAME _)].
  destruct (F3 eq_refl) as [C1 [C2 [C3 [C4 FK]]]]. specialize (FK _ (eo_keyed _ _ _ EO)).
  split; [reflexivity|]. split; [|split; [split; [reflexivity|split; [reflexivity|]]|]].
  - split.
    + apply (Inv_set t _ e); [exact I|exact G|]. apply (entry_ok_after_del _ _ e _ tok); assumption.
    + proj. apply rel_set; [exact R|]. split; cbn [s_committed s_live].
      * rewrite C1. f_equal. symmetry. apply live_at_perm; [exact RP|apply (eo_wf _ _ _ EO)].
      * eapply Permutation_trans; [exact C2|]. apply live_del_perm. exact RP.
  - intros k' Hk. proj. apply k_get_set_other. congruence.
  - intros _ e0. proj. rewrite k_get_set_same. intro H. inversion H. subst e0.
    intro Hx. apply (tokens_after_del _ _ _ C2) in Hx. destruct Hx as [Hx _]. apply Hx. reflexivity.
Qed.

Lemma FinishBind_sim t s now p tok :
  Sim t s ->
  let '(t', ok) := FinishBind t p tok in
  exists s', spec_step s now (OFinish p tok) (RBool ok) = Some (s', now) /\ Sim t' s'.
Proof.
  intros S. unfold FinishBind. cbn [spec_step].
  destruct (negb (validPendingRecvAck p) || (tok =? 0)) eqn:C.
  - unfold spec_finish. rewrite (spec_live_invalid t s p tok S (invalid_call _ _ C)). exists s. auto.
  - apply orb_false_iff in C. destruct C as [_ C]. apply N.eqb_neq in C.
    pose proof (finishBindLocked_sim t s p tok S C) as L.
    destruct (finishBindLocked t p tok) as [t' ok]. destruct (spec_finish s p tok) as [s' ok'].
    destruct L as [L1 [L2 _]]. subst ok'. exists s'. rewrite Bool.eqb_reflx. auto.
Qed.

Lemma CancelBind_spec t s p tok :
  Sim t s ->
  let '(t', r) := CancelBind t p tok in
  let '(s', c, rm) := spec_cancel s p tok in
  r = RCancel c rm (t_count t') /\ Sim t' s'.
Proof.
  intros S. unfold CancelBind.
  assert (SAME : RCancel false false (t_count t) = RCancel false false (t_count t) /\ Sim t s) by auto.
  destruct (negb (validPendingRecvAck p) || (tok =? 0)) eqn:C.
  { unfold spec_cancel. rewrite (spec_live_invalid t s p tok S (invalid_call _ _ C)). exact SAME. }
  apply orb_false_iff in C. destruct C as [_ TZ]. unfold spec_cancel, spec_live. rewrite TZ. cbn [negb andb].
  apply N.eqb_neq in TZ. destruct S as [I R].
  destruct (kget (key_of p) (t_byMessage t)) as [e|] eqn:G; [|rewrite (rel_none _ _ R _ G); exact SAME].
  destruct (inv_entries t I _ _ G) as [EO KV].
  destruct (rel_some _ _ R _ _ G) as [se [GS [RC RP]]]. rewrite GS.
  pose proof (cancelAttempt_abs e tok (eo_wf _ _ _ EO) TZ) as CA.
  destruct (cancelAttempt e tok) as [e' ok]. destruct CA as [F1 F3].
  rewrite <- (live_mem_perm tok _ _ RP), <- F1.
  destruct ok; cbn [negb]; [|exact SAME].
  destruct (F3 eq_refl) as [C1 [C2 [C3 CK]]]. specialize (CK _ (eo_keyed _ _ _ EO)). cbv zeta.
  assert (PL : Permutation (abs_live e') (live_del tok (s_live se))).
  { eapply Permutation_trans; [exact C2|]. apply live_del_perm. exact RP. }
  (* both sides drop the identity exactly when it is uncommitted and tok was its last reservation *)
  assert (GONE : e_committed e' || hasAttempts e' = false <-> s_committed se = None /\ live_del tok (s_live se) = []).
  { rewrite (entry_gone_iff e' C3), C1, <- RC. split; intros [H1 H2]; (split; [exact H1|]); rewrite H2 in PL.
    - apply Permutation_nil, PL.
    - apply Permutation_sym, Permutation_nil in PL. exact PL. }
  destruct (e_committed e' || hasAttempts e') eqn:FL.
  - assert (EO' : entry_ok (t_next t) (key_of p) e').
    { apply (entry_ok_after_del _ _ e _ tok); [exact EO|exact C3|apply (entry_kept_alive e' C3 FL)|exact CK|exact C2]. }
    pose proof (Inv_set t _ e _ I G EO') as I'.
    (* spec_cancel keeps it as well: were it uncommitted with no reservation left, GONE would contradict FL *)
    destruct (s_committed se) eqn:SC; [|destruct (live_del tok (s_live se)) eqn:LD; [destruct GONE as [_ X]; discriminate X; auto|]];
      (split; [reflexivity|]; split; [exact I'|]; proj; apply rel_set; [exact R|];
       split; [cbn [s_committed]; rewrite C1; exact RC|exact PL]).
  - destruct (proj1 GONE eq_refl) as [SC LD]. rewrite SC, LD.
    split; [reflexivity|]. split; [exact (Inv_del t _ _ _ e I G)|proj; apply rel_del, R].
Qed.

Lemma CancelBind_sim t s now p tok :
  Sim t s ->
  let '(t', r) := CancelBind t p tok in
  exists s', spec_step s now (OCancel p tok) r = Some (s', now) /\ Sim t' s'.
Proof.
  intro S. pose proof (CancelBind_spec t s p tok S) as C. destruct (CancelBind t p tok) as [t' r].
  cbn [spec_step]. destruct (spec_cancel s p tok) as [[s' c] rm]. destruct C as [-> C2]. exists s'.
  rewrite !Bool.eqb_reflx, (sim_count _ _ C2), Z.eqb_refl. auto.
Qed.

Lemma Ack_sim t s now u sid m :
  Sim t s ->
  let '(t', r) := Ack t u sid m in
  exists s', spec_step s now (OAck u sid m) r = Some (s', now) /\ Sim t' s'.
Proof.
  intros [I R]. unfold Ack. cbn [spec_step]. rewrite (rel_has _ _ _ R).
  destruct ((u =? 0) || (sid =? 0) || (m =? 0)) eqn:C.
  { rewrite (zero_key_absent t u sid m I C). exists s. split; [reflexivity|split; assumption]. }
  destruct (kget (u, sid, m) (t_byMessage t)) as [e|] eqn:G; [|exists s; split; [reflexivity|split; assumption]].
  destruct (inv_entries t I _ _ G) as [EO _].
  rewrite (eo_keyed _ _ _ EO (e_pending e) (or_introl eq_refl)), key_eqb_refl.
  eexists. split; [reflexivity|]. split; [exact (Inv_del t _ _ _ e I G)|proj; apply rel_del, R].
Qed.
