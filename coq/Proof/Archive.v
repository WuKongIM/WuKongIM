(* Proof/Archive.v — C38: record equalities, the strict loaders, the repository map,
   and VerifyPublishedArchive accepts exactly the repositories that satisfy the declarative
   predicate [consistentb] (sound and complete). *)
From WK Require Import Base.Base Base.Lists Gen.Consts_C38 Model.Archive.
Open Scope N_scope.

Ltac split_andb :=
  repeat match goal with
         | H : _ && _ = true |- _ => apply andb_true_iff in H; destruct H
         end.
Ltac eqb_hyps :=
  repeat match goal with
         | H : bytes_eqb _ _ = true |- _ => apply bytes_eqb_eq in H
         | H : N.eqb _ _ = true |- _ => apply N.eqb_eq in H
         | H : Z.eqb _ _ = true |- _ => apply Z.eqb_eq in H
         | H : Bool.eqb _ _ = true |- _ => apply Bool.eqb_prop in H
         end.

Lemma orb_false_l2 a b : a || b = false -> a = false /\ b = false.
Proof. apply orb_false_iff. Qed.

Lemma chunk_desc_eqb_eq a b : chunk_desc_eqb a b = true -> a = b.
Proof.
  destruct a, b. unfold chunk_desc_eqb. simpl.
  intro E. split_andb. eqb_hyps. subst. reflexivity.
Qed.
Lemma chunk_desc_eqb_refl a : chunk_desc_eqb a a = true.
Proof. unfold chunk_desc_eqb. rewrite !bytes_eqb_refl, !N.eqb_refl. reflexivity. Qed.

Lemma chunk_ref_eqb_eq a b : chunk_ref_eqb a b = true -> a = b.
Proof.
  destruct a, b. unfold chunk_ref_eqb. simpl.
  intro E. split_andb. eqb_hyps.
  match goal with Hd : chunk_desc_eqb _ _ = true |- _ => apply chunk_desc_eqb_eq in Hd end.
  subst. reflexivity.
Qed.
Lemma chunk_ref_eqb_refl a : chunk_ref_eqb a a = true.
Proof.
  unfold chunk_ref_eqb. rewrite !bytes_eqb_refl, !N.eqb_refl, chunk_desc_eqb_refl, Bool.eqb_reflx. reflexivity.
Qed.

Lemma list_eqb_eq {A} (eqb : A -> A -> bool) (Heq : forall x y, eqb x y = true -> x = y) :
  forall a b, list_eqb eqb a b = true -> a = b.
Proof.
  induction a as [|x a IH]; destruct b as [|y b]; simpl; intro E; try reflexivity; try discriminate.
  apply andb_true_iff in E. destruct E as [E1 E2]. apply Heq in E1. apply IH in E2. subst. reflexivity.
Qed.

Lemma slot_cut_eqb_eq a b : slot_cut_eqb a b = true -> a = b.
Proof.
  destruct a, b. unfold slot_cut_eqb. simpl.
  intro E. split_andb. eqb_hyps. subst. reflexivity.
Qed.
Lemma slot_cut_eqb_refl a : slot_cut_eqb a a = true.
Proof. unfold slot_cut_eqb. rewrite !N.eqb_refl, Z.eqb_refl. reflexivity. Qed.

Lemma slot_manifest_eqb_eq a b : slot_manifest_eqb a b = true -> a = b.
Proof.
  destruct a, b. unfold slot_manifest_eqb. simpl.
  intro E. split_andb. eqb_hyps.
  match goal with Hd : slot_cut_eqb _ _ = true |- _ => apply slot_cut_eqb_eq in Hd end.
  match goal with Hd : list_eqb _ _ _ = true |- _ => apply (list_eqb_eq _ chunk_ref_eqb_eq) in Hd end.
  subst. reflexivity.
Qed.
Lemma slot_manifest_eqb_refl a : slot_manifest_eqb a a = true.
Proof.
  unfold slot_manifest_eqb.
  rewrite !bytes_eqb_refl, !N.eqb_refl, slot_cut_eqb_refl, (list_eqb_refl _ chunk_ref_eqb_refl). reflexivity.
Qed.

Lemma slot_ref_eqb_eq a b : slot_ref_eqb a b = true -> a = b.
Proof.
  destruct a, b. unfold slot_ref_eqb. simpl.
  intro E. split_andb. eqb_hyps. subst. reflexivity.
Qed.
Lemma slot_ref_eqb_refl a : slot_ref_eqb a a = true.
Proof. unfold slot_ref_eqb. rewrite !bytes_eqb_refl, !N.eqb_refl. reflexivity. Qed.

Lemma archive_manifest_eqb_eq a b : archive_manifest_eqb a b = true -> a = b.
Proof.
  destruct a, b. unfold archive_manifest_eqb. simpl.
  intro E. split_andb. eqb_hyps.
  match goal with Hd : list_eqb _ _ _ = true |- _ => apply (list_eqb_eq _ slot_ref_eqb_eq) in Hd end.
  subst. reflexivity.
Qed.
Lemma archive_manifest_eqb_refl a : archive_manifest_eqb a a = true.
Proof.
  unfold archive_manifest_eqb.
  rewrite !bytes_eqb_refl, !N.eqb_refl, !Z.eqb_refl, (list_eqb_refl _ slot_ref_eqb_refl). reflexivity.
Qed.

Lemma complete_marker_eqb_eq a b : complete_marker_eqb a b = true -> a = b.
Proof.
  destruct a, b. unfold complete_marker_eqb. simpl.
  intro E. split_andb. eqb_hyps. subst. reflexivity.
Qed.
Lemma complete_marker_eqb_refl a : complete_marker_eqb a a = true.
Proof. unfold complete_marker_eqb. rewrite !bytes_eqb_refl, !N.eqb_refl. reflexivity. Qed.

Lemma msg_manifest_eqb_eq a b : msg_manifest_eqb a b = true -> a = b.
Proof.
  destruct a, b. unfold msg_manifest_eqb. simpl.
  intro E. split_andb. eqb_hyps.
  match goal with Hd : list_eqb _ _ _ = true |- _ => apply (list_eqb_eq _ chunk_ref_eqb_eq) in Hd end.
  subst. reflexivity.
Qed.
Lemma msg_manifest_eqb_refl a : msg_manifest_eqb a a = true.
Proof.
  unfold msg_manifest_eqb. rewrite !bytes_eqb_refl, !N.eqb_refl, (list_eqb_refl _ chunk_ref_eqb_refl). reflexivity.
Qed.

Lemma repo_marker_eqb_eq a b : repo_marker_eqb a b = true -> a = b.
Proof.
  destruct a, b. unfold repo_marker_eqb. simpl.
  intro E. split_andb. eqb_hyps. subst. reflexivity.
Qed.
Lemma repo_marker_eqb_refl a : repo_marker_eqb a a = true.
Proof. unfold repo_marker_eqb. rewrite !bytes_eqb_refl, !N.eqb_refl, !Z.eqb_refl. reflexivity. Qed.

(* LoadArchiveManifest, LoadSlotManifest, LoadMessageChunkManifest and LoadRepositoryMarker are
   one function of a strict decoder, a validator and a canonical-form check *)
Definition load_with {body A} (json : body -> option A) (validate : A -> option err) (canon : A -> body -> bool)
           (b : body) : res A :=
  match json b with
  | None => Err EManifest
  | Some m => match validate m with Some e => Err e | None => if canon m b then Ok m else Err EManifest end
  end.

Lemma load_with_iff {body A} (json : body -> option A) validate canon b m :
  load_with json validate canon b = Ok m <-> json b = Some m /\ validate m = None /\ canon m b = true.
Proof.
  unfold load_with. destruct (json b) as [m0|]; [|split; [discriminate|intros [E _]; discriminate]].
  destruct (validate m0) eqn:V; [split; [discriminate|intros ([= <-] & V' & _); congruence]|].
  destruct (canon m0 b) eqn:C; (split; [intros [= <-]; auto|intros ([= <-] & _ & C'); congruence]).
Qed.

Lemma load_archive_manifest_eq body json canon :
  load_archive_manifest body json canon = load_with json validate_archive_manifest canon.
Proof. reflexivity. Qed.
Lemma load_slot_manifest_eq body json canon :
  load_slot_manifest body json canon = load_with json validate_slot_manifest canon.
Proof. reflexivity. Qed.
Lemma load_archive_iff body json canon b m :
  load_archive_manifest body json canon b = Ok m <-> json b = Some m /\ validate_archive_manifest m = None /\ canon m b = true.
Proof. rewrite load_archive_manifest_eq. apply load_with_iff. Qed.
Lemma load_slot_iff body json canon b m :
  load_slot_manifest body json canon b = Ok m <-> json b = Some m /\ validate_slot_manifest m = None /\ canon m b = true.
Proof. rewrite load_slot_manifest_eq. apply load_with_iff. Qed.

(* the guard of LoadStoredSlotReference and of the slot loop of validateArchiveManifest *)
Definition slot_ref_wf (r : slot_ref) : Prop :=
  sr_hash_slot r < DefaultHashSlotCount
  /\ validate_slot_manifest_key (sr_hash_slot r) (sr_key r) = true
  /\ validate_sha256 (sr_sha r) = true.

Lemma validate_slot_refs_each : forall slots seen lb sb rc mx out,
  validate_slot_refs slots seen lb sb rc mx = Some out ->
  Forall slot_ref_wf slots.
Proof.
  induction slots as [|r rest IH]; intros seen lb sb rc mx out E; [constructor|].
  cbn [validate_slot_refs] in E.
  destruct ((DefaultHashSlotCount <=? sr_hash_slot r) || N.testbit seen (sr_hash_slot r)) eqn:E1; [discriminate|].
  destruct (negb (validate_slot_manifest_key (sr_hash_slot r) (sr_key r))) eqn:E2; [discriminate|].
  destruct (negb (validate_sha256 (sr_sha r))) eqn:E3; [discriminate|].
  apply orb_false_iff in E1. destruct E1 as [E1 _]. apply N.leb_gt in E1.
  apply negb_false_iff in E2. apply negb_false_iff in E3.
  constructor; [exact (conj E1 (conj E2 E3))|]. eapply IH. exact E.
Qed.

Lemma validate_archive_slots : forall m,
  validate_archive_manifest m = None ->
  N.of_nat (length (am_slots m)) = DefaultHashSlotCount
  /\ Forall slot_ref_wf (am_slots m).
Proof.
  intros m V. unfold validate_archive_manifest in V.
  repeat match type of V with
         | (if ?c then Some _ else _) = None => destruct c eqn:?; [discriminate|]
         end.
  match goal with Hc : negb (_ =? _)%Z || negb (N.of_nat _ =? _) = false |- _ =>
    apply orb_false_iff in Hc; destruct Hc as [_ Hlen]; apply negb_false_iff in Hlen; apply N.eqb_eq in Hlen end.
  split; [assumption|].
  destruct (validate_slot_refs (am_slots m) 0 0 0 0 0) as [out|] eqn:Er; [|discriminate].
  eapply validate_slot_refs_each. exact Er.
Qed.

Lemma validate_complete_marker_inv k :
  validate_complete_marker k = None ->
  cm_format k = CompleteMarkerFormat /\ cm_version k = CompleteMarkerVersion /\ cm_bytes k <> 0
  /\ validate_sha256 (cm_sha k) = true.
Proof.
  unfold validate_complete_marker.
  destruct (bytes_eqb (cm_format k) CompleteMarkerFormat) eqn:Ef; [|discriminate].
  destruct (cm_version k =? CompleteMarkerVersion) eqn:Ev; [|discriminate].
  destruct (cm_bytes k =? 0) eqn:Eb; [discriminate|].
  destruct (validate_sha256 (cm_sha k)); [|discriminate].
  intros _. apply bytes_eqb_eq in Ef. apply N.eqb_eq in Ev. apply N.eqb_neq in Eb. auto.
Qed.

Lemma valid_archive_id m : validate_archive_manifest m = None -> am_id m <> [].
Proof.
  unfold validate_archive_manifest.
  destruct (negb (bytes_eqb (am_format m) ArchiveFormat)); [discriminate|].
  destruct (negb (am_version m =? ArchiveVersion)); [discriminate|].
  destruct (negb (validate_backup_identity (am_id m))) eqn:Ei; [discriminate|].
  intros _ E. rewrite E in Ei. discriminate.
Qed.

Lemma manifest_neq_complete id : manifest_key id <> complete_key id.
Proof. unfold manifest_key, complete_key. intro E. apply app_inv_head in E. vm_compute in E. discriminate. Qed.

Section Generic.
  Variable body : Type.
  Variable blen : body -> N.
  Variable H : body -> bytes.
  Variable unz : body -> option (N * bytes).
  Variable json_archive : body -> option archive_manifest.
  Variable json_slot : body -> option slot_manifest.
  Variable json_marker : body -> option complete_marker.
  Variable canon_archive : archive_manifest -> body -> bool.
  Variable canon_slot : slot_manifest -> body -> bool.
  Variable canon_marker : complete_marker -> body -> bool.

  Local Notation store := (store body).
  Local Notation get := (get body).
  Local Notation put := (put body).
  Local Notation del := (del body).
  Local Notation read := (read_stored_object body blen).
  Local Notation honest := (honest_object body blen).
  Local Notation load_archive := (load_archive_manifest body json_archive canon_archive).
  Local Notation load_slot := (load_slot_manifest body json_slot canon_slot).
  Local Notation load_marker := (load_complete_marker body blen H json_archive json_marker canon_archive canon_marker).
  Local Notation decode := (decode_chunk body blen H unz).
  Local Notation vchunks := (verify_chunks body blen H unz).
  Local Notation at_key := (load_stored_slot_at_key body blen H unz json_slot canon_slot).
  Local Notation slotref := (load_stored_slot_reference body blen H unz json_slot canon_slot).
  Local Notation meta := (load_published_archive_metadata body blen H json_archive json_marker canon_archive canon_marker).
  Local Notation vslots := (verify_slots body blen H unz json_slot canon_slot).
  Local Notation verify := (verify_published_archive body blen H unz json_archive json_slot json_marker
                              canon_archive canon_slot canon_marker).
  Local Notation chunk_ok := (chunk_consistentb body blen H unz).
  Local Notation slot_ok := (slot_consistentb body blen H unz json_slot canon_slot).
  Local Notation consistent := (consistentb body blen H unz json_archive json_slot json_marker
                                  canon_archive canon_slot canon_marker).

  Lemma load_archive_slots mb m : load_archive mb = Ok m ->
    N.of_nat (length (am_slots m)) = DefaultHashSlotCount
    /\ Forall slot_ref_wf (am_slots m).
  Proof. intros (_ & V & _)%load_archive_iff. exact (validate_archive_slots m V). Qed.

  Lemma get_put_same k b sz st : get (put k b sz st) k = Some (b, sz).
  Proof. unfold Archive.put. cbn [Archive.get]. rewrite bytes_eqb_refl. reflexivity. Qed.
  Lemma get_put_other k k' b sz st : k <> k' -> get (put k b sz st) k' = get st k'.
  Proof.
    intro Hne. unfold Archive.put. cbn [Archive.get].
    destruct (bytes_eqb k k') eqn:E; [apply bytes_eqb_eq in E; contradiction|reflexivity].
  Qed.
  Lemma get_del_same k st : get (del k st) k = None.
  Proof. unfold Archive.del. cbn [Archive.get]. rewrite bytes_eqb_refl. reflexivity. Qed.
  Lemma get_del_other k k' st : k <> k' -> get (del k st) k' = get st k'.
  Proof.
    intro Hne. unfold Archive.del. cbn [Archive.get].
    destruct (bytes_eqb k k') eqn:E; [apply bytes_eqb_eq in E; contradiction|reflexivity].
  Qed.

  Lemma honest_read st key maxb :
    honest st key maxb = match read st key maxb with Ok b => Some b | Err _ => None end.
  Proof.
    unfold read_stored_object, honest_object. destruct (get st key) as [[b sz]|]; [|reflexivity].
    destruct (N.eqb_spec sz (blen b)) as [->|Ne].
    - rewrite N.eqb_refl, (N.ltb_antisym _ maxb). cbn [negb andb orb].
      destruct (N.eqb_spec (blen b) 0) as [->|Nz]; [reflexivity|].
      replace (0 <? blen b) with true by (symmetry; apply N.ltb_lt; lia).
      destruct (blen b <=? maxb); reflexivity.
    - replace (blen b =? sz) with false by (symmetry; apply N.eqb_neq; congruence).
      destruct ((sz =? 0) || (maxb <? sz)); reflexivity.
  Qed.

  Lemma read_ok_iff st key maxb b : read st key maxb = Ok b <-> honest st key maxb = Some b.
  Proof. rewrite honest_read. destruct (read st key maxb); split; congruence. Qed.

  Lemma honest_get st key maxb b : honest st key maxb = Some b ->
    get st key = Some (b, blen b) /\ 0 < blen b /\ blen b <= maxb.
  Proof.
    unfold honest_object. destruct (get st key) as [[b0 sz]|]; [|discriminate].
    destruct ((sz =? blen b0) && (0 <? sz) && (sz <=? maxb)) eqn:E; [|discriminate].
    intros [= ->]. split_andb. eqb_hyps. subst sz.
    match goal with Ha : (0 <? _) = true |- _ => apply N.ltb_lt in Ha end.
    match goal with Ha : (_ <=? _) = true |- _ => apply N.leb_le in Ha end.
    auto.
  Qed.

  Lemma read_not_found st key maxb : read st key maxb = Err ENotFound -> get st key = None.
  Proof.
    unfold read_stored_object. destruct (get st key) as [[b sz]|]; [|reflexivity].
    destruct ((sz =? 0) || (maxb <? sz)); [discriminate|].
    destruct (negb (blen b =? sz) || (maxb <? blen b)); discriminate.
  Qed.

  Lemma honest_intro st key maxb b :
    get st key = Some (b, blen b) -> 0 < blen b -> blen b <= maxb -> honest st key maxb = Some b.
  Proof.
    intros G Hp Hl. unfold honest_object. rewrite G, N.eqb_refl.
    apply N.ltb_lt in Hp. apply N.leb_le in Hl. rewrite Hp, Hl. reflexivity.
  Qed.

  Lemma read_pulled_le st key maxb : read_pulled body blen st key maxb <= maxb + 1.
  Proof.
    unfold read_pulled. destruct (get st key) as [[b sz]|]; [|lia].
    destruct ((sz =? 0) || (maxb <? sz)); [lia|]. apply N.le_min_r.
  Qed.

  Lemma is_ok_verify_chunks st root : forall cs,
    is_ok (vchunks st root cs) = forallb (chunk_ok st root) cs.
  Proof.
    induction cs as [|c rest IH]; [reflexivity|].
    cbn [verify_chunks forallb]. unfold chunk_consistentb at 1, decode_chunk.
    destruct (get st (root ++ cr_key c)) as [[b sz]|]; [|reflexivity].
    destruct (validate_chunk_descriptor (cr_desc c)); cbn [negb andb];
      [|destruct (negb (sz =? cd_stored_bytes (cr_desc c))); reflexivity].
    destruct (sz =? cd_stored_bytes (cr_desc c)); cbn [negb andb]; [|reflexivity].
    destruct (unz b) as [[ll lh]|]; [|rewrite !andb_false_r; reflexivity].
    destruct (blen b =? cd_stored_bytes (cr_desc c)); cbn [negb orb andb]; [|reflexivity].
    destruct (bytes_eqb (H b) (cd_stored_sha (cr_desc c))); cbn [negb orb andb]; [|reflexivity].
    destruct (ll =? cd_logical_bytes (cr_desc c)); cbn [negb orb andb]; [|reflexivity].
    destruct (bytes_eqb lh (cd_logical_sha (cr_desc c))); cbn [negb orb andb]; [exact IH|reflexivity].
  Qed.

  Lemma at_key_inv st id hs key v ref sm :
    at_key st id hs key v = Ok (ref, sm) ->
    exists b, honest st (root_of id ++ key) maxStoredManifestBytes = Some b /\ load_slot b = Ok sm
              /\ sm_hash_slot sm = hs
              /\ ref = SR hs key (H b) (sm_logical sm) (sm_stored sm) (sm_records sm) (sm_max_id sm)
              /\ (v = true -> forallb (chunk_ok st (root_of id)) (sm_chunks sm) = true).
  Proof.
    unfold load_stored_slot_at_key. rewrite honest_read.
    destruct (read st (root_of id ++ key) maxStoredManifestBytes) as [b|e]; [|discriminate].
    destruct (load_slot b) as [sm0|e] eqn:El; [|discriminate].
    destruct (sm_hash_slot sm0 =? hs) eqn:Eh; cbn [negb]; [|discriminate]. apply N.eqb_eq in Eh.
    pose proof (is_ok_verify_chunks st (root_of id) (sm_chunks sm0)) as Ev.
    destruct v; [destruct (vchunks st (root_of id) (sm_chunks sm0)); [|discriminate]|];
      intro E; inversion E; subst; exists b; repeat split; auto; discriminate.
  Qed.

  Lemma slotref_returns_expected st id r v a sm : slotref st id r v = Ok (a, sm) -> a = r.
  Proof.
    unfold load_stored_slot_reference.
    destruct ((DefaultHashSlotCount <=? sr_hash_slot r)
              || negb (validate_slot_manifest_key (sr_hash_slot r) (sr_key r))
              || negb (validate_sha256 (sr_sha r))); [discriminate|].
    destruct (at_key st id (sr_hash_slot r) (sr_key r) v) as [[a0 m0]|e]; [|discriminate].
    destruct (slot_ref_eqb a0 r) eqn:E; [|discriminate].
    intros [= <- _]. apply slot_ref_eqb_eq. exact E.
  Qed.

  (* LoadStoredSlotReference(expected, verifyChunks = true) succeeds iff the reference is
     well-formed and the slot is consistent at its own hash-slot position *)
  Lemma is_ok_slotref st id r :
    is_ok (slotref st id r true)
    = negb ((DefaultHashSlotCount <=? sr_hash_slot r)
            || negb (validate_slot_manifest_key (sr_hash_slot r) (sr_key r))
            || negb (validate_sha256 (sr_sha r)))
      && slot_ok st id (sr_hash_slot r) r.
  Proof.
    unfold load_stored_slot_reference, slot_consistentb, load_stored_slot_at_key.
    destruct (_ || _ || _); [reflexivity|]. rewrite N.eqb_refl, honest_read. cbn [negb andb].
    destruct (read st (root_of id ++ sr_key r) maxStoredManifestBytes) as [b|e]; [|reflexivity].
    destruct (load_slot b) as [sm|e]; [|reflexivity].
    destruct (sm_hash_slot sm =? sr_hash_slot r); cbn [negb andb]; [|reflexivity].
    rewrite <- is_ok_verify_chunks.
    destruct (vchunks st (root_of id) (sm_chunks sm)); cbn [is_ok]; [|rewrite andb_false_r; reflexivity].
    unfold slot_ref_eqb. cbn [sr_hash_slot sr_key sr_sha sr_logical sr_stored sr_records sr_max_id].
    rewrite N.eqb_refl, bytes_eqb_refl, andb_true_r. cbn [andb].
    destruct (_ && _ && _ && _ && _); reflexivity.
  Qed.

  Lemma slot_ok_position st id i r :
    slot_ok st id i r = (sr_hash_slot r =? i) && slot_ok st id (sr_hash_slot r) r.
  Proof. unfold slot_consistentb. rewrite N.eqb_refl. reflexivity. Qed.

  (* 65536: VerifyPublishedArchive compares against uint16(index); a valid manifest has exactly
     DefaultHashSlotCount slots, so the conversion never wraps *)
  Lemma is_ok_verify_slots st id : forall slots i,
    i + N.of_nat (length slots) <= 65536 ->
    Forall slot_ref_wf slots ->
    is_ok (vslots st id i slots) = forallb_idx (slot_ok st id) i slots.
  Proof.
    induction slots as [|r rest IH]; intros i Hlen Hwf; [reflexivity|].
    cbn [verify_slots forallb_idx]. inversion Hwf as [|? ? (Hh & Hk & Hs) Hwf']; subst.
    cbn [length] in Hlen. rewrite Nat2N.inj_succ in Hlen.
    pose proof (is_ok_slotref st id r) as Er. rewrite Hk, Hs in Er.
    replace (DefaultHashSlotCount <=? sr_hash_slot r) with false in Er by (symmetry; apply N.leb_gt; exact Hh).
    cbn [negb orb andb] in Er. rewrite slot_ok_position, <- Er.
    destruct (slotref st id r true) as [[a sm]|e] eqn:E; [|rewrite andb_false_r; reflexivity].
    apply slotref_returns_expected in E as ->. rewrite N.mod_small, andb_true_r by lia.
    destruct (sr_hash_slot r =? i); cbn [negb andb]; [apply IH; [lia|assumption]|reflexivity].
  Qed.

  Lemma load_marker_inv kb mb k : load_marker kb mb = Ok k ->
    json_marker kb = Some k /\ validate_complete_marker k = None /\ canon_marker k kb = true
    /\ cm_bytes k = blen mb /\ cm_sha k = H mb /\ exists m, load_archive mb = Ok m.
  Proof.
    unfold load_complete_marker.
    destruct (json_marker kb) as [k0|]; [|discriminate].
    destruct (validate_complete_marker k0) eqn:Ev; [discriminate|].
    destruct (canon_marker k0 kb) eqn:Ec; cbn [negb]; [|discriminate].
    destruct (cm_bytes k0 =? blen mb) eqn:Eb; cbn [negb]; [|discriminate].
    destruct (bytes_eqb (cm_sha k0) (H mb)) eqn:Es; cbn [negb]; [|discriminate].
    destruct (load_archive mb) as [m|e] eqn:El; [|discriminate].
    intros [= <-]. eqb_hyps. repeat split; auto. exists m. reflexivity.
  Qed.

  Lemma chunk_ok_iff st root c :
    chunk_ok st root c = true <->
    exists b, get st (root ++ cr_key c) = Some (b, cd_stored_bytes (cr_desc c))
              /\ validate_chunk_descriptor (cr_desc c) = true
              /\ blen b = cd_stored_bytes (cr_desc c) /\ H b = cd_stored_sha (cr_desc c)
              /\ unz b = Some (cd_logical_bytes (cr_desc c), cd_logical_sha (cr_desc c)).
  Proof.
    unfold chunk_consistentb. destruct (get st (root ++ cr_key c)) as [[b sz]|];
      [|split; [discriminate|intros (b & E & _); discriminate]].
    split.
    - intro C. destruct (unz b) as [[ll lh]|] eqn:U; [|rewrite andb_false_r in C; discriminate].
      split_andb. eqb_hyps. subst. exists b. repeat split; auto.
    - intros (b' & [= <- ->] & -> & Eb & Es & ->). rewrite Eb, Es, !N.eqb_refl, !bytes_eqb_refl. reflexivity.
  Qed.

  Lemma slot_ok_iff st id i r :
    slot_ok st id i r = true <->
    sr_hash_slot r = i
    /\ exists b sm, honest st (root_of id ++ sr_key r) maxStoredManifestBytes = Some b /\ load_slot b = Ok sm
                    /\ sm_hash_slot sm = sr_hash_slot r /\ H b = sr_sha r
                    /\ sm_logical sm = sr_logical r /\ sm_stored sm = sr_stored r
                    /\ sm_records sm = sr_records r /\ sm_max_id sm = sr_max_id r
                    /\ forallb (chunk_ok st (root_of id)) (sm_chunks sm) = true.
  Proof.
    unfold slot_consistentb. split.
    - intros [Ei C]%andb_true_iff.
      destruct (honest st (root_of id ++ sr_key r) maxStoredManifestBytes) as [b|] eqn:Hh; [|discriminate].
      destruct (load_slot b) as [sm|e] eqn:L; [|discriminate]. split_andb. eqb_hyps.
      split; [assumption|]. exists b, sm. repeat split; auto.
    - intros (<- & b & sm & -> & -> & -> & -> & -> & -> & -> & -> & ->).
      rewrite !N.eqb_refl, bytes_eqb_refl. reflexivity.
  Qed.

  Lemma consistent_iff st id m :
    consistent st id m = true <->
    id <> [] /\ get st (corrupt_key id) = None
    /\ exists mb kb k,
         honest st (manifest_key id) maxStoredManifestBytes = Some mb
         /\ honest st (complete_key id) maxStoredManifestBytes = Some kb
         /\ load_archive mb = Ok m /\ am_id m = id
         /\ json_marker kb = Some k /\ validate_complete_marker k = None /\ canon_marker k kb = true
         /\ cm_bytes k = blen mb /\ cm_sha k = H mb
         /\ forallb_idx (slot_ok st id) 0 (am_slots m) = true.
  Proof.
    unfold consistentb. split.
    - intro C. destruct (bytes_eqb id []) eqn:Eid; [discriminate|]. cbn [negb andb] in C.
      destruct (get st (corrupt_key id)); [discriminate|]. cbn [andb] in C.
      destruct (honest st (manifest_key id) maxStoredManifestBytes) as [mb|]; [|discriminate].
      destruct (honest st (complete_key id) maxStoredManifestBytes) as [kb|]; [|discriminate].
      destruct (load_archive mb) as [m'|e] eqn:La; [|discriminate].
      destruct (json_marker kb) as [k|] eqn:Jk; [|discriminate].
      destruct (validate_complete_marker k) eqn:Vk; [rewrite !andb_false_r in C; discriminate|].
      split_andb. eqb_hyps.
      match goal with Ha : archive_manifest_eqb _ _ = true |- _ => apply archive_manifest_eqb_eq in Ha as <- end.
      split; [apply bytes_eqb_neq; exact Eid|]. split; [reflexivity|]. exists mb, kb, k. repeat split; auto.
    - intros (Hid%bytes_eqb_neq & -> & mb & kb & k & -> & -> & -> & Ei & -> & -> & -> & Eb & Es & ->).
      rewrite Hid, archive_manifest_eqb_refl, Ei, Eb, Es, bytes_eqb_refl, N.eqb_refl, bytes_eqb_refl. reflexivity.
  Qed.

  (* [consistentb] asks of a given manifest what VerifyPublishedArchive computes: both walk the
     same objects, so they are compared check by check, once *)
  Lemma consistent_verify st id m :
    consistent st id m = match verify st id with Ok m' => archive_manifest_eqb m m' | Err _ => false end.
  Proof.
    unfold consistentb, verify_published_archive, load_published_archive_metadata, load_complete_marker.
    destruct (bytes_eqb id []); [reflexivity|]. cbn [negb andb].
    destruct (get st (corrupt_key id)); [reflexivity|]. cbn [andb]. rewrite !honest_read.
    destruct (read st (manifest_key id) maxStoredManifestBytes) as [mb|e]; [|reflexivity].
    destruct (read st (complete_key id) maxStoredManifestBytes) as [kb|e]; [|reflexivity].
    destruct (load_archive mb) as [m'|e] eqn:La.
    2:{ destruct (json_marker kb) as [k|]; [|reflexivity]. destruct (validate_complete_marker k); [reflexivity|].
        destruct (canon_marker k kb), (cm_bytes k =? blen mb), (bytes_eqb (cm_sha k) (H mb)); reflexivity. }
    destruct (json_marker kb) as [k|]; [|reflexivity].
    destruct (validate_complete_marker k); [rewrite !andb_false_r; reflexivity|].
    destruct (canon_marker k kb); cbn [negb]; [|rewrite !andb_false_r; reflexivity].
    destruct (cm_bytes k =? blen mb); cbn [negb]; [|rewrite !andb_false_r; reflexivity].
    destruct (bytes_eqb (cm_sha k) (H mb)); cbn [negb]; [|rewrite !andb_false_r; reflexivity].
    rewrite !andb_true_r. destruct (load_archive_slots _ _ La) as (Hlen & Hwf).
    rewrite <- (is_ok_verify_slots st id (am_slots m') 0); [|rewrite Hlen; unfold DefaultHashSlotCount; lia|exact Hwf].
    destruct (archive_manifest_eqb m m') eqn:Em.
    - apply archive_manifest_eqb_eq in Em as ->. destruct (bytes_eqb (am_id m') id); [|reflexivity].
      destruct (vslots st id 0 (am_slots m')); cbn [is_ok andb]; [rewrite archive_manifest_eqb_refl|]; reflexivity.
    - destruct (bytes_eqb (am_id m') id); [|reflexivity].
      destruct (vslots st id 0 (am_slots m')); [rewrite Em|]; reflexivity.
  Qed.

  Theorem verify_iff_consistent st id m : verify st id = Ok m <-> consistent st id m = true.
  Proof.
    rewrite consistent_verify. destruct (verify st id) as [m'|e]; [|split; discriminate].
    split; [intros [= ->]; apply archive_manifest_eqb_refl|intros ->%archive_manifest_eqb_eq; reflexivity].
  Qed.

  Corollary verify_sound st id m : verify st id = Ok m -> consistent st id m = true.
  Proof. apply verify_iff_consistent. Qed.
  Corollary verify_complete st id m : consistent st id m = true -> verify st id = Ok m.
  Proof. apply verify_iff_consistent. Qed.
End Generic.
