(* Proof/Membership.v — lemmas about Model/Membership.v: equality tests, the keyed
   stores, and what the resolvers and closures do to an existing row. *)
From WK Require Import Base.Base Base.Lists.
From WK Require Import Gen.Consts_C16 Model.Membership.
Open Scope N_scope.

(* reduces the field projections and the [with_*] / [cmd_with] updaters of both record types *)
Ltac m_cbn :=
  cbn [m_uid m_channel_id m_channel_type m_join_seq m_read_seq m_deleted_to_seq m_activated_at
       m_tombstone m_tombstone_at m_source_version m_updated_at
       c_uid c_command_channel_id c_channel_type c_start_seq c_ack_seq c_tombstone c_tombstone_at
       c_updated_at
       with_cursors with_activated_at with_tombstone with_source_version with_updated_at cmd_with].

(* the test of records [a], [b] is the conjunction of the tests of their fields *)
Ltac record_eqb a b :=
  rewrite ?andb_true_iff, ?N.eqb_eq, ?Z.eqb_eq, ?bytes_eqb_eq, ?Bool.eqb_true_iff;
  destruct a, b; cbn; split;
  [let H := fresh in intro H; decompose [and] H; subst; reflexivity | intros [=]; subst; repeat split].

Lemma mkey_eqb_eq a b : mkey_eqb a b = true <-> a = b.
Proof. unfold mkey_eqb. record_eqb a b. Qed.

Lemma mkey_eqb_spec a b : reflect (a = b) (mkey_eqb a b).
Proof. apply iff_reflect. symmetry. apply mkey_eqb_eq. Qed.

Lemma mkey_eqb_refl k : mkey_eqb k k = true.
Proof. apply mkey_eqb_eq. reflexivity. Qed.

Lemma membership_eqb_eq a b : membership_eqb a b = true <-> a = b.
Proof. unfold membership_eqb. record_eqb a b. Qed.

Lemma membership_eqb_refl m : membership_eqb m m = true.
Proof. apply membership_eqb_eq. reflexivity. Qed.

Lemma cmd_membership_eqb_eq a b : cmd_membership_eqb a b = true <-> a = b.
Proof. unfold cmd_membership_eqb. record_eqb a b. Qed.

Lemma cmd_membership_eqb_refl c : cmd_membership_eqb c c = true.
Proof. apply cmd_membership_eqb_eq. reflexivity. Qed.

Lemma idx_entry_eqb_eq a b : idx_entry_eqb a b = true <-> a = b.
Proof. unfold idx_entry_eqb. record_eqb a b. Qed.

Lemma assoc_get_put {V} (s : list (mkey * V)) k v k' :
  assoc_get (assoc_put s k v) k' = if mkey_eqb k k' then Some v else assoc_get s k'.
Proof.
  induction s as [|[k0 v0] r IH]; cbn [assoc_put assoc_get]; [reflexivity|].
  destruct (mkey_eqb_spec k0 k) as [->|Hne]; cbn [assoc_get].
  - destruct (mkey_eqb k k'); reflexivity.
  - rewrite IH. destruct (mkey_eqb_spec k0 k') as [->|]; [|reflexivity].
    destruct (mkey_eqb_spec k k'); congruence.
Qed.

Lemma assoc_get_del {V} (s : list (mkey * V)) k k' :
  assoc_get (assoc_del s k) k' = if mkey_eqb k k' then None else assoc_get s k'.
Proof.
  induction s as [|[k0 v0] r IH]; cbn [assoc_del assoc_get]; [destruct (mkey_eqb k k'); reflexivity|].
  destruct (mkey_eqb_spec k0 k) as [->|Hne]; cbn [assoc_get]; rewrite IH.
  - destruct (mkey_eqb k k'); reflexivity.
  - destruct (mkey_eqb_spec k0 k') as [->|]; [|reflexivity].
    destruct (mkey_eqb_spec k k'); congruence.
Qed.

Record m_advances (a b : membership) : Prop := MAdvances {
  ma_read : m_read_seq a <= m_read_seq b;
  ma_deleted : m_deleted_to_seq a <= m_deleted_to_seq b;
  ma_source : m_source_version a <= m_source_version b }.

Lemma m_advances_refl a : m_advances a a.
Proof. constructor; lia. Qed.

Lemma m_advances_trans a b c : m_advances a b -> m_advances b c -> m_advances a c.
Proof. intros [? ? ?] [? ? ?]. constructor; lia. Qed.

Definition same_identity (a b : membership) : Prop :=
  m_uid a = m_uid b /\ m_channel_id a = m_channel_id b /\ m_channel_type a = m_channel_type b.

Lemma key_of_same_identity slot a b :
  same_identity a b -> membership_key slot a = membership_key slot b.
Proof. intros (U & C & T). unfold membership_key. rewrite U, C, T. reflexivity. Qed.

(* what every write path that is not a recreate does to the stored row [ex]: the
   cursors and the source version do not move backwards and the identity stays;
   the result is a tombstone only if [ex] was one or [dt], and has a non-zero
   source version only if [ex] had one or [ds] *)
Record follows (dt ds : bool) (ex r : membership) : Prop := Follows {
  fo_advances : m_advances ex r;
  fo_identity : same_identity ex r;
  fo_tombstone : m_tombstone r = true -> m_tombstone ex = true \/ dt = true;
  fo_source : negb (m_source_version r =? 0) = true ->
              negb (m_source_version ex =? 0) = true \/ ds = true }.

(* closes [follows _ _ ex r] when [r] is [ex] with some fields replaced *)
Ltac follows_by_fields := repeat split; m_cbn; auto; lia.

Lemma follows_refl dt ds ex : follows dt ds ex ex.
Proof. follows_by_fields. Qed.

Lemma bump_updated_at_eq m v : bump_updated_at m v = with_updated_at m (Z.max (m_updated_at m) v).
Proof.
  unfold bump_updated_at. destruct (Z.ltb_spec (m_updated_at m) v).
  - rewrite Z.max_r by lia. reflexivity.
  - rewrite Z.max_l by lia. destruct m; reflexivity.
Qed.

(* resolveUserChannelMembership on an existing row: unless the incoming row is a
   live row with a newer source version landing on a tombstone (the recreate
   boundary), the result follows the existing row *)
Lemma resolve_upsert_spec ex next :
  let r := resolveUserChannelMembership ex true next in
  (m_tombstone ex = true /\ m_tombstone next = false /\ m_source_version ex < m_source_version next
   /\ r = next)
  \/ follows (m_tombstone next) (negb (m_source_version next =? 0)) ex r.
Proof.
  unfold resolveUserChannelMembership. cbn [negb]. rewrite !bump_updated_at_eq.
  destruct (N.ltb_spec (m_source_version next) (m_source_version ex)); [right; apply follows_refl|].
  destruct (N.eqb_spec (m_source_version next) (m_source_version ex)).
  - right. destruct (m_tombstone ex) eqn:Te, (m_tombstone next) eqn:Tn; cbn [negb andb];
      try apply follows_refl. follows_by_fields.
  - destruct (m_tombstone next) eqn:Tn; [right; follows_by_fields|].
    destruct (m_tombstone ex) eqn:Te; [left; repeat split; lia|right; follows_by_fields].
Qed.

Lemma resolve_upsert_stale ex next :
  m_source_version next < m_source_version ex -> resolveUserChannelMembership ex true next = ex.
Proof.
  intro H. unfold resolveUserChannelMembership. cbn [negb].
  apply N.ltb_lt in H. rewrite H. reflexivity.
Qed.

(* resolveEnsuredUserChannelMembership on an existing row: unless a newer source
   generation lands on a row that already has a non-zero one (the delete/recreate
   boundary), the result follows the existing row and is no new tombstone *)
Lemma resolve_ensure_spec ex inc :
  let r := resolveEnsuredUserChannelMembership ex true inc in
  (m_source_version ex < m_source_version inc /\ m_source_version ex <> 0)
  \/ follows false (negb (m_source_version inc =? 0)) ex r.
Proof.
  unfold resolveEnsuredUserChannelMembership. cbn [negb]. rewrite bump_updated_at_eq.
  destruct (N.leb_spec (m_source_version inc) (m_source_version ex)); [right; apply follows_refl|].
  destruct (N.eqb_spec (m_source_version ex) 0); [right; follows_by_fields|left; split; assumption].
Qed.

Lemma resolve_ensure_identity ex inc :
  same_identity ex (resolveEnsuredUserChannelMembership ex true inc).
Proof.
  unfold resolveEnsuredUserChannelMembership, same_identity. cbn [negb]. rewrite bump_updated_at_eq.
  destruct (_ <=? _); [|destruct (_ =? 0)]; m_cbn; auto.
Qed.

Lemma resolve_ensure_stale ex inc :
  m_source_version inc <= m_source_version ex -> resolveEnsuredUserChannelMembership ex true inc = ex.
Proof.
  intro H. unfold resolveEnsuredUserChannelMembership. cbn [negb].
  apply N.leb_le in H. rewrite H. reflexivity.
Qed.

Definition closure_follows (f : membership -> membership) : Prop :=
  forall row, follows false false row (f row).

Lemma advanceReadSeq_ok readSeq upd : closure_follows (fun row => advanceReadSeq row readSeq upd).
Proof.
  intro row. unfold advanceReadSeq. rewrite bump_updated_at_eq.
  destruct (N.ltb_spec (m_read_seq row) readSeq); follows_by_fields.
Qed.

Lemma activate_ok act upd : closure_follows (fun row => activate row act upd).
Proof.
  intro row. unfold activate. rewrite bump_updated_at_eq.
  destruct (m_activated_at row <? act)%Z; follows_by_fields.
Qed.

Lemma hide_ok d upd : closure_follows (fun row => hide row d upd).
Proof.
  intro row. unfold hide. cbv zeta. rewrite bump_updated_at_eq.
  destruct (N.ltb_spec (m_deleted_to_seq row) d); m_cbn;
    destruct (m_activated_at row =? 0)%Z; cbn [negb orb]; follows_by_fields.
Qed.

(* AckSeq does not move backwards; the result is a tombstone only if [ex] was one or [dt] *)
Definition cmd_follows (dt : bool) (ex r : cmd_membership) : Prop :=
  c_ack_seq ex <= c_ack_seq r /\ (c_tombstone r = true -> c_tombstone ex = true \/ dt = true).

(* resolveUserCMDChannelMembership on an existing row: unless a live binding lands
   on a tombstone (rebinding), the result follows the existing row *)
Lemma resolve_cmd_spec ex next :
  let r := resolveUserCMDChannelMembership ex true next in
  (c_tombstone ex = true /\ c_tombstone next = false) \/ cmd_follows false ex r.
Proof.
  unfold resolveUserCMDChannelMembership, cmd_follows. cbn [negb orb].
  destruct (c_tombstone ex) eqn:Te, (c_tombstone next); cbn [negb andb]; m_cbn; auto;
    right; split; auto; lia.
Qed.

Definition cmd_closure_follows (dt : bool) (f : cmd_membership -> cmd_membership) : Prop :=
  forall row, cmd_follows dt row (f row).

Lemma cmdAdvanceAckShard_ok ack upd : cmd_closure_follows false (fun row => cmdAdvanceAckShard row ack upd).
Proof. intro row. unfold cmdAdvanceAckShard. split; m_cbn; auto; lia. Qed.

Lemma cmdAdvanceAckBatch_ok ack upd : cmd_closure_follows false (fun row => cmdAdvanceAckBatch row ack upd).
Proof.
  intro row. unfold cmdAdvanceAckBatch.
  destruct (N.ltb_spec (c_ack_seq row) ack); split; m_cbn; auto; lia.
Qed.

Lemma cmdTombstone_ok at_ upd : cmd_closure_follows true (fun row => cmdTombstone row at_ upd).
Proof. intro row. unfold cmdTombstone. split; m_cbn; auto; lia. Qed.
