(* Proof/Sweep.v — exhaustive checks over all schedules up to a length, by one walk of the prefix tree.

   The bounded theorems of C01–C04 read
     forallb (fun s => Q (model_case cfg (pre ++ s))) (sched n) = true
   where [sched n] lists every operation list of length <= n over an alphabet.  Each property file has
   its own enumeration and "codes in" predicate, which its statements mention, so [sweep_sound] takes the
   enumeration as a function with its two defining equations (callers pass [eq_refl]).
   Evaluated as written, a check runs |s| model steps per schedule.  The schedules are the nodes of a
   prefix tree and [model_case] is a left fold ([mstep]) over cluster, intern table, last observation
   and emitted steps: visiting each node once with that state and judging the case accumulated there
   ([walk]) does one step per node. *)
From WK Require Import Base.Base.
From WK Require Import Model.ReplicaLog Model.QuorumLog Model.Cluster.

Section Walk.
  Variables (Op St : Type) (step : St -> Op -> St) (ok : St -> bool) (alphabet : list Op).

  Fixpoint walk (n : nat) (st : St) : bool :=
    ok st && match n with
             | O => true
             | S k => forallb (fun o => walk k (step st o)) alphabet
             end.

  Variable sched : nat -> list (list Op).
  Hypothesis sched_O : sched O = [[]].
  Hypothesis sched_S : forall k, sched (S k) = [] :: flat_map (fun s => map (fun o => o :: s) alphabet) (sched k).

  (* the enumeration conses new operations in front, the fold consumes from the front: a schedule
     [o :: s] of depth k+1 is reached from the root through [o], then [s] of depth k *)
  Lemma walk_sound n : forall st, walk n st = true -> forallb (fun s => ok (fold_left step s st)) (sched n) = true.
  Proof.
    induction n as [|k IH]; intros st W; cbn [walk] in W; apply andb_true_iff in W; destruct W as [W0 Wk].
    - rewrite sched_O. cbn [forallb fold_left]. rewrite W0. reflexivity.
    - rewrite sched_S. cbn [forallb fold_left]. rewrite W0. cbn [andb].
      apply forallb_forall. intros s Hs. apply in_flat_map in Hs. destruct Hs as [s' [Hs' Hs]].
      apply in_map_iff in Hs. destruct Hs as [o [<- Ho]]. cbn [fold_left].
      rewrite forallb_forall in Wk. specialize (IH _ (Wk o Ho)). rewrite forallb_forall in IH. exact (IH s' Hs').
  Qed.
End Walk.

Definition mstate : Type := cluster * list ent * list (N * robs) * list (qop * qobs).

Definition mstep (cfg : qconfig) (st : mstate) (op : qop) : mstate :=
  let '(c, tab, prev, steps) := st in
  let '(c', r) := q_step cfg c op in
  let '(tab1, full, delta) := observe_all (cf_kind cfg) (cl_net c') (voters_of cfg) tab prev in
  (c', tab1, full, steps ++ [(op, Obs r delta)]).

Definition minit (cfg : qconfig) : mstate := (cluster_init cfg, [], [], []).
Definition mcase (cfg : qconfig) (st : mstate) : qcase := let '(_, tab, _, steps) := st in QCase cfg tab steps.

Lemma model_steps_fold cfg ops : forall c tab prev acc,
  mcase cfg (fold_left (mstep cfg) ops (c, tab, prev, acc)) =
  let '(tab', steps) := model_steps cfg c tab prev ops in QCase cfg tab' (acc ++ steps).
Proof.
  induction ops as [|op ops IH]; intros c tab prev acc; cbn [fold_left model_steps mstep].
  - cbn [mcase]. rewrite app_nil_r. reflexivity.
  - destruct (q_step cfg c op) as [c' r].
    destruct (observe_all (cf_kind cfg) (cl_net c') (voters_of cfg) tab prev) as [[tab1 full] delta].
    rewrite IH. destruct (model_steps cfg c' tab1 full ops) as [tab2 steps]. rewrite <- app_assoc. reflexivity.
Qed.

Lemma model_case_fold cfg ops : model_case cfg ops = mcase cfg (fold_left (mstep cfg) ops (minit cfg)).
Proof.
  unfold model_case, minit. rewrite model_steps_fold.
  destruct (model_steps cfg (cluster_init cfg) [] [] ops) as [tab steps]. reflexivity.
Qed.

(* "the monitor's code on this case is one of the allowed ones" *)
Definition codes_in (monitor : qcase -> N) (allowed : list N) (c : qcase) : bool := existsb (N.eqb (monitor c)) allowed.

Theorem sweep_sound (cfg : qconfig) (Q : qcase -> bool) (pre alphabet : list qop) (sched : nat -> list (list qop)) :
  sched O = [[]] ->
  (forall k, sched (S k) = [] :: flat_map (fun s => map (fun o => o :: s) alphabet) (sched k)) ->
  forall n,
    walk _ _ (mstep cfg) (fun st => Q (mcase cfg st)) alphabet n (fold_left (mstep cfg) pre (minit cfg)) = true ->
    forallb (fun s => Q (model_case cfg (pre ++ s))) (sched n) = true.
Proof.
  intros S0 SS n W. apply (walk_sound _ _ _ _ _ sched S0 SS) in W.
  rewrite forallb_forall in *. intros s Hs. rewrite model_case_fold, fold_left_app. exact (W s Hs).
Qed.
