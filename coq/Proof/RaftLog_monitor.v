(* Proof/RaftLog_monitor.v — histories: the vocabulary of Properties/C14.v; the model (Pebble
   store + memory.go) run next to the reference and to the monitor; forward simulation over
   whole histories; the monitor is 0 on every model trace of a Raft-valid history. *)
From WK Require Import Base.Base Base.Lists Gen.Consts_C14 Model.RaftLog
     Proof.RaftLog_lists Proof.RaftLog_ref Proof.RaftLog_pebble Proof.RaftLog_ops
     Proof.RaftLog_mem Proof.RaftLog_db.
From Coq Require Import ZifyBool ZifyN ZifyNat.
Open Scope N_scope.

Definition req_ok (rs : list (N * rstate)) (p : N * wreq) : bool :=
  req_valid (ref_of (fst p) rs) (snd p) && negb (k1_signature (ref_of (fst p) rs) (snd p)).

Definition group_valid (rs : list (N * rstate)) (reqs : list (N * wreq)) : bool :=
  scopes_distinct (map fst reqs) && forallb (req_ok rs) reqs.

Definition next_ref (rs : list (N * rstate)) (p : N * wreq) : rstate :=
  match ref_req false (ref_of (fst p) rs) (snd p) with
  | ROk r' => r'
  | _ => ref_of (fst p) rs
  end.

(* all requests of a group are judged against the state before the group (their scopes differ) *)
Definition ref_group (rs : list (N * rstate)) (reqs : list (N * wreq)) : list (N * rstate) :=
  fold_left (fun acc p => aset (fst p) (next_ref rs p) acc) reqs rs.

Definition ref_step (rs : list (N * rstate)) (o : op) : list (N * rstate) :=
  match o with
  | OWrite mode reqs => if mode =? 0 then ref_group rs reqs else rs
  | _ => rs
  end.

Definition op_valid (rs : list (N * rstate)) (o : op) : bool :=
  match o with
  | OWrite _ reqs => group_valid rs reqs
  | _ => true
  end.

Fixpoint hist_valid (rs : list (N * rstate)) (ops : list op) : bool :=
  match ops with
  | [] => true
  | o :: rest => op_valid rs o && hist_valid (ref_step rs o) rest
  end.

Fixpoint ref_run (rs : list (N * rstate)) (ops : list op) : list (N * rstate) :=
  match ops with
  | [] => rs
  | o :: rest => ref_run (ref_step rs o) rest
  end.

Fixpoint mdl_after (s : mdl) (ops : list op) : mdl :=
  match ops with
  | [] => s
  | o :: rest => mdl_after (fst (mdl_step s o)) rest
  end.

Lemma group_valid_forall rs reqs :
  group_valid rs reqs = true ->
  scopes_distinct (map fst reqs) = true /\ Forall (req_valid_nok1 rs) reqs.
Proof.
  unfold group_valid. intro H. apply andb_true_iff in H. destruct H as [Hd Hf]. split; [assumption|].
  apply Forall_forall. intros p Hp. pose proof (proj1 (forallb_forall _ _) Hf p Hp) as H.
  unfold req_ok in H. apply andb_true_iff in H. destruct H as [H1 H2]. split; [assumption|].
  apply negb_true_iff. assumption.
Qed.

Lemma ref_of_ref_group rs reqs sc :
  NoDup (map fst reqs) ->
  ref_of sc (ref_group rs reqs) =
  match find (fun p => fst p =? sc) reqs with Some p => next_ref rs p | None => ref_of sc rs end.
Proof.
  intro Hnd. unfold ref_of at 1, ref_group.
  rewrite (aget_fold_aset fst (next_ref rs) reqs rs sc Hnd).
  destruct (find (fun p => fst p =? sc) reqs); reflexivity.
Qed.

Lemma run_group_commit' c rs reqs :
  Inv c rs -> group_valid rs reqs = true ->
  exists c', run_group c 0 reqs = (c', expected_codes rs reqs) /\ Inv c' (ref_group rs reqs).
Proof.
  intros HI Hgv. destruct (group_valid_forall rs reqs Hgv) as [Hd Hall].
  destruct (run_group_commit c rs reqs HI Hd Hall) as (c' & Hr & HI').
  exists c'. split; [assumption|]. apply HI'. intro sc.
  exact (ref_of_ref_group rs reqs sc (scopes_distinct_nodup _ Hd)).
Qed.

Definition op_ready (o : op) : bool :=
  match o with
  | OWrite _ reqs => forallb (fun p => req_ready_shaped (snd p)) reqs
  | _ => true
  end.

(* model, monitor and reference states after the same history.  [ready]: the history so far
   was Ready-shaped, and then memory.go is judged everywhere *)
Record Sim (ready : bool) (s : mdl) (m : mon) (rs : list (N * rstate)) : Prop := {
  sim_inv : Inv (md_c s) rs;
  sim_code : mn_code m = 0;
  sim_sc : forall sc,
      q_ref (msc_of sc (mn_sc m)) = ref_of sc rs
      /\ q_k1 (msc_of sc (mn_sc m)) = None
      /\ q_judged (msc_of sc (mn_sc m)) = true
      /\ (q_mem (msc_of sc (mn_sc m)) = true -> mem_of sc (md_m s) = mem_of_ref (ref_of sc rs));
  sim_mem : ready = true -> forall sc, q_mem (msc_of sc (mn_sc m)) = true }.

Lemma Sim_init ready : Sim ready mdl0 mon0 [].
Proof.
  constructor.
  - apply Inv_init.
  - reflexivity.
  - intro sc. unfold msc_of, ref_of, mem_of. cbn. repeat split; reflexivity.
  - reflexivity.
Qed.

Lemma msc_of_set m sc q sc' :
  msc_of sc' (mn_sc (set_msc m sc q)) = if sc =? sc' then q else msc_of sc' (mn_sc m).
Proof. apply aget_default_aset. Qed.

Lemma mem_of_aset ms sc v sc' :
  mem_of sc' (aset sc v ms) = if sc =? sc' then v else mem_of sc' ms.
Proof. apply aget_default_aset. Qed.

Lemma expected_code_zero r q :
  req_valid r q = true -> expected_code (ref_req false r q) = 0 -> exists r', ref_req false r q = ROk r'.
Proof.
  intros Hv H. destruct (ref_req false r q) as [r'|e|] eqn:E.
  - exists r'. reflexivity.
  - cbn in H. exfalso. eapply ref_req_rej_nonzero; eassumption.
  - destruct (req_valid_not_invalid _ _ Hv E).
Qed.

Lemma mon_req_ok m rs sc q :
  mn_code m = 0 ->
  q_ref (msc_of sc (mn_sc m)) = ref_of sc rs -> q_k1 (msc_of sc (mn_sc m)) = None ->
  q_judged (msc_of sc (mn_sc m)) = true ->
  req_valid_nok1 rs (sc, q) ->
  let m' := mon_req true m sc q (expected_code (ref_req false (ref_of sc rs) q)) in
  mn_code m' = 0
  /\ (forall sc', sc' <> sc -> msc_of sc' (mn_sc m') = msc_of sc' (mn_sc m))
  /\ msc_of sc (mn_sc m') =
     MSC (next_ref rs (sc, q)) None true
         (match ref_req false (ref_of sc rs) q with
          | ROk _ => q_mem (msc_of sc (mn_sc m)) && req_ready_shaped q
          | _ => q_mem (msc_of sc (mn_sc m))
          end).
Proof.
  intros Hc Hr Hk Hj [Hv Hnk]. cbn [fst snd] in Hv, Hnk. cbn zeta.
  unfold mon_req. rewrite Hj, Hr, Hv. cbn [negb].
  rewrite N.eqb_refl. cbn [negb andb].
  unfold next_ref. cbn [fst snd].
  destruct (ref_req false (ref_of sc rs) q) as [r'|e|] eqn:E.
  - cbn [expected_code N.eqb negb]. rewrite Hk, Hnk.
    split; [exact Hc|]. split.
    + intros sc' Hne. rewrite msc_of_set. replace (sc =? sc') with false by lia. reflexivity.
    + rewrite msc_of_set, N.eqb_refl. reflexivity.
  - cbn [expected_code].
    assert (He : e <> 0) by (eapply ref_req_rej_nonzero; eassumption).
    replace (e =? 0) with false by lia. cbn [negb].
    split; [exact Hc|]. split; [reflexivity|].
    destruct (msc_of sc (mn_sc m)) as [a b c0 d] eqn:Em. cbn in *. subst. reflexivity.
  - destruct (req_valid_not_invalid _ _ Hv E).
Qed.

Lemma mon_reqs_ok rs : forall reqs m,
  NoDup (map fst reqs) -> mn_code m = 0 ->
  (forall p, In p reqs ->
             q_ref (msc_of (fst p) (mn_sc m)) = ref_of (fst p) rs
             /\ q_k1 (msc_of (fst p) (mn_sc m)) = None
             /\ q_judged (msc_of (fst p) (mn_sc m)) = true
             /\ req_valid_nok1 rs p) ->
  let m' := mon_reqs true m reqs (expected_codes rs reqs) in
  mn_code m' = 0
  /\ forall sc, msc_of sc (mn_sc m') =
       match find (fun p => fst p =? sc) reqs with
       | Some p => MSC (next_ref rs p) None true
                       (match ref_req false (ref_of (fst p) rs) (snd p) with
                        | ROk _ => q_mem (msc_of (fst p) (mn_sc m)) && req_ready_shaped (snd p)
                        | _ => q_mem (msc_of (fst p) (mn_sc m))
                        end)
       | None => msc_of sc (mn_sc m)
       end.
Proof.
  induction reqs as [|[sc0 q] reqs IH]; intros m Hnd Hc Hall; cbn zeta.
  { split; [assumption|reflexivity]. }
  cbn [map fst] in Hnd. inversion Hnd as [|? ? Hni Hnd']; subst.
  unfold expected_codes. cbn [map mon_reqs fst snd]. fold (expected_codes rs reqs).
  destruct (Hall (sc0, q) (or_introl eq_refl)) as (Hr & Hk & Hj & Hv). cbn [fst] in *.
  destruct (mon_req_ok m rs sc0 q Hc Hr Hk Hj Hv) as (Hc1 & Hoth1 & Hsc1).
  set (m1 := mon_req true m sc0 q (expected_code (ref_req false (ref_of sc0 rs) q))) in *.
  assert (Hne : forall p, In p reqs -> fst p <> sc0)
    by (intros p Hp Heq; apply Hni; rewrite <- Heq; apply in_map; assumption).
  destruct (IH m1 Hnd' Hc1) as (Hc2 & Hsc2).
  { intros p Hp. rewrite (Hoth1 _ (Hne p Hp)). apply Hall. right. assumption. }
  split; [exact Hc2|]. intro sc. cbn zeta in Hsc2. rewrite Hsc2. cbn [find fst].
  destruct (sc0 =? sc) eqn:E.
  - assert (sc0 = sc) by lia. subst sc. rewrite (find_key_none fst reqs sc0 Hni). exact Hsc1.
  - destruct (find (fun p => fst p =? sc) reqs) as [p|] eqn:Ef; [|apply Hoth1; lia].
    apply find_some in Ef. rewrite (Hoth1 _ (Hne p (proj1 Ef))). reflexivity.
Qed.

Lemma mem_group_spec rs : forall reqs ms,
  NoDup (map fst reqs) -> Forall (req_valid_nok1 rs) reqs ->
  forall sc, mem_of sc (mem_group ms reqs (expected_codes rs reqs)) =
    match find (fun p => fst p =? sc) reqs with
    | Some p => match ref_req false (ref_of (fst p) rs) (snd p) with
                | ROk _ => mem_req (mem_of (fst p) ms) (snd p)
                | _ => mem_of (fst p) ms
                end
    | None => mem_of sc ms
    end.
Proof.
  induction reqs as [|[sc0 q] reqs IH]; intros ms Hnd Hall sc; [reflexivity|].
  cbn [map fst] in Hnd. inversion Hnd as [|? ? Hni Hnd']; subst.
  inversion Hall as [|? ? [Hv _] Hall']; subst. cbn [fst snd] in Hv.
  unfold expected_codes. cbn [map mem_group fst snd find]. fold (expected_codes rs reqs).
  set (ms1 := if expected_code (ref_req false (ref_of sc0 rs) q) =? 0
              then aset sc0 (mem_req (mem_of sc0 ms) q) ms else ms).
  assert (Hms1 : forall s, mem_of s ms1 =
            if sc0 =? s
            then match ref_req false (ref_of sc0 rs) q with
                 | ROk _ => mem_req (mem_of sc0 ms) q
                 | _ => mem_of sc0 ms
                 end
            else mem_of s ms).
  { intro s. subst ms1. destruct (ref_req false (ref_of sc0 rs) q) as [r'|e|] eqn:E.
    - apply mem_of_aset.
    - cbn [expected_code]. replace (e =? 0) with false by (pose proof (ref_req_rej_nonzero _ _ _ E); lia).
      destruct (sc0 =? s) eqn:E'; [|reflexivity]. assert (sc0 = s) by lia. subst s. reflexivity.
    - destruct (req_valid_not_invalid _ _ Hv E). }
  rewrite (IH ms1 Hnd' Hall' sc).
  destruct (sc0 =? sc) eqn:E.
  - assert (sc0 = sc) by lia. subst sc. rewrite (find_key_none fst reqs sc0 Hni), Hms1, N.eqb_refl. reflexivity.
  - destruct (find (fun p => fst p =? sc) reqs) as [p|] eqn:Ef; rewrite Hms1; [|rewrite E; reflexivity].
    apply find_some in Ef. destruct Ef as [Hp _].
    replace (sc0 =? fst p) with false; [reflexivity|].
    symmetry. apply N.eqb_neq. intro Heq. apply Hni. rewrite Heq. apply in_map. assumption.
Qed.

Lemma mem_group_refused : forall reqs ms codes,
  forallb (fun x => negb (x =? 0)) codes = true -> mem_group ms reqs codes = ms.
Proof.
  induction reqs as [|[sc q] reqs IH]; intros ms codes H; [reflexivity|].
  destruct codes as [|c codes]; [reflexivity|].
  cbn [forallb] in H. apply andb_true_iff in H. destruct H as [Hc H].
  cbn [mem_group]. apply negb_true_iff in Hc. rewrite Hc. apply IH. assumption.
Qed.

Lemma worse_00 : worse 0 0 = 0. Proof. reflexivity. Qed.

Lemma flag_0 m : mn_code m = 0 -> flag m 0 = m.
Proof. destruct m. cbn. intros ->. reflexivity. Qed.

Lemma k1_or_true s f : f (q_ref s) = true -> k1_or s f = 0.
Proof. intro H. unfold k1_or. rewrite H. reflexivity. Qed.

Lemma if_zero (b : bool) (x : N) : (b = true -> x = 0) -> (if b then x else 0) = 0.
Proof. destruct b; [intro H; apply H|]; reflexivity. Qed.

Lemma obs_is_ref r : wf r -> obs_is (ref_observe r) r = true.
Proof.
  intro Hwf. destruct (wf_conf _ Hwf) as (cs & Hcs). unfold obs_is, ref_observe. rewrite Hcs. apply fullobs_eqb_refl.
Qed.

(* for an observation the branch for a K1 divergence already seen ([cp =? 2]) is not taken *)
Lemma mon_step_observe_ref m sc p mm :
  mn_code m = 0 -> q_judged (msc_of sc (mn_sc m)) = true ->
  obs_is p (q_ref (msc_of sc (mn_sc m))) = true ->
  (q_mem (msc_of sc (mn_sc m)) = true -> obs_is mm (q_ref (msc_of sc (mn_sc m))) = true) ->
  mon_step m (OObserve sc, RObs p mm) = m.
Proof.
  intros Hc Hj Hp Hm. cbn [mon_step]. rewrite Hj. cbn [negb].
  destruct (ref_observe (q_ref (msc_of sc (mn_sc m)))); [|reflexivity].
  rewrite (k1_or_true _ _ Hp), if_zero by (intro E; apply k1_or_true, Hm, E).
  cbn [N.eqb]. rewrite !(flag_0 m Hc). reflexivity.
Qed.

Lemma mon_step_entries_ref m sc lo hi mx l mm :
  mn_code m = 0 -> q_judged (msc_of sc (mn_sc m)) = true ->
  judge_entries lo hi mx l (q_ref (msc_of sc (mn_sc m))) = true ->
  ((0 <? hi) && q_mem (msc_of sc (mn_sc m)) = true ->
   judge_entries lo hi mx mm (q_ref (msc_of sc (mn_sc m))) = true) ->
  mon_step m (OQuery sc (QEntries lo hi mx), REntries (Some l) mm) = m.
Proof.
  intros Hc Hj Hp Hm. cbn [mon_step]. rewrite Hj. cbn [negb].
  rewrite (k1_or_true _ _ Hp), if_zero by (intro E; apply k1_or_true, Hm, E).
  rewrite !(flag_0 m Hc). reflexivity.
Qed.

Lemma mon_step_term_ref m sc i t mm :
  mn_code m = 0 -> q_judged (msc_of sc (mn_sc m)) = true ->
  judge_term i t (q_ref (msc_of sc (mn_sc m))) = true ->
  (q_mem (msc_of sc (mn_sc m)) = true -> judge_term i mm (q_ref (msc_of sc (mn_sc m))) = true) ->
  mon_step m (OQuery sc (QTerm i), RTerm (Some t) mm) = m.
Proof.
  intros Hc Hj Hp Hm. cbn [mon_step]. rewrite Hj. cbn [negb].
  rewrite (k1_or_true _ _ Hp), if_zero by (intro E; apply k1_or_true, Hm, E).
  rewrite !(flag_0 m Hc). reflexivity.
Qed.

(* the codes are the expected ones, so the group is judged strictly; the scopes differ, so
   each record and store is updated by its own request only *)
Lemma Sim_commit ready s m rs reqs :
  Sim ready s m rs -> group_valid rs reqs = true ->
  (ready = true -> forallb (fun p => req_ready_shaped (snd p)) reqs = true) ->
  Sim ready (fst (mdl_step s (OWrite 0 reqs))) (mon_step m (OWrite 0 reqs, snd (mdl_step s (OWrite 0 reqs))))
    (ref_group rs reqs).
Proof.
  intros [HI Hc Hsc Hq] Hv Hrd. cbn [mdl_step].
  destruct (group_valid_forall rs reqs Hv) as [Hd Hall].
  pose proof (scopes_distinct_nodup _ Hd) as Hnd.
  destruct (run_group_commit' (md_c s) rs reqs HI Hv) as (c' & Hrun & HI').
  rewrite Hrun. cbn [fst snd mon_step]. rewrite Hd. cbn [negb N.eqb].
  assert (Hpre : forall p, In p reqs ->
             q_ref (msc_of (fst p) (mn_sc m)) = ref_of (fst p) rs
             /\ q_k1 (msc_of (fst p) (mn_sc m)) = None
             /\ q_judged (msc_of (fst p) (mn_sc m)) = true
             /\ req_valid_nok1 rs p).
  { intros p Hp. destruct (Hsc (fst p)) as (Hr & Hk & Hj & _). repeat split; try assumption;
    apply (proj1 (Forall_forall _ _) Hall p Hp). }
  assert (Hstrict : group_strict m reqs = true).
  { unfold group_strict. apply forallb_forall. intros p Hp. destruct (Hpre p Hp) as (Hr & _ & Hj & Hvp & _).
    rewrite Hj, Hr. exact Hvp. }
  rewrite Hstrict.
  destruct (mon_reqs_ok rs reqs m Hnd Hc Hpre) as (Hc' & Hin). cbn zeta in *.
  pose proof (mem_group_spec rs reqs (md_m s) Hnd Hall) as Hmin.
  constructor; cbn [md_c md_m]; [exact HI'|exact Hc'| |].
  - intro sc. rewrite (ref_of_ref_group rs reqs sc Hnd), (Hin sc), (Hmin sc).
    destruct (find (fun p => fst p =? sc) reqs) as [p|] eqn:Ef; [|apply Hsc].
    apply find_some in Ef. destruct Ef as [Hp _]. cbn [q_ref q_k1 q_judged q_mem].
    split; [reflexivity|]. split; [reflexivity|]. split; [reflexivity|]. intro Hqm.
    destruct (Hsc (fst p)) as (Hr & Hk & Hj & Hmem).
    destruct (HI (fst p)) as (Hwf & _).
    destruct (proj1 (Forall_forall _ _) Hall p Hp) as [Hvp Hkp].
    unfold next_ref.
    destruct (ref_req false (ref_of (fst p) rs) (snd p)) as [r'|e|] eqn:E; [|apply Hmem; assumption..].
    apply andb_true_iff in Hqm. destruct Hqm as [Hqm Hshape].
    rewrite (Hmem Hqm). apply mem_req_sim; assumption.
  - intros Hb sc. rewrite (Hin sc).
    destruct (find (fun p => fst p =? sc) reqs) as [p|] eqn:Ef; [|apply Hq, Hb].
    apply find_some in Ef. destruct Ef as [Hp _]. cbn [q_mem].
    rewrite (Hq Hb (fst p)), (proj1 (forallb_forall _ _) (Hrd Hb) p Hp).
    destruct (ref_req false (ref_of (fst p) rs) (snd p)); reflexivity.
Qed.

Lemma Sim_step ready s m rs o :
  Sim ready s m rs -> op_valid rs o = true -> (ready = true -> op_ready o = true) ->
  Sim ready (fst (mdl_step s o)) (mon_step m (o, snd (mdl_step s o))) (ref_step rs o).
Proof.
  intros HJ Hv Hrd. pose proof HJ as [HI Hc Hsc Hq].
  destruct o as [mode reqs| |sc|sc [lo hi mx|i]]; cbn [op_valid op_ready ref_step mdl_step] in *.
  - destruct (mode =? 0) eqn:Emode.
    { assert (mode = 0) by lia. subst mode. exact (Sim_commit ready s m rs reqs HJ Hv Hrd). }
    destruct (group_valid_forall rs reqs Hv) as [Hd Hall].
    assert (Hm : mode <> 0) by lia.
    destruct (run_group_refused (md_c s) rs mode reqs HI Hd Hall Hm) as (c' & codes & Hrun & HI' & Hnz & Hlen).
    rewrite Hrun. cbn [fst snd mon_step]. rewrite Hd, Emode. cbn [negb].
    rewrite Hnz. replace (length codes =? length reqs)%nat with true by (symmetry; apply Nat.eqb_eq; assumption).
    cbn [andb]. rewrite (mem_group_refused reqs (md_m s) codes Hnz).
    constructor; cbn [md_c md_m]; assumption.
  - cbn [fst snd mon_step]. constructor; cbn [md_c md_m]; [apply reopen_Inv|..]; assumption.
  - destruct (HI sc) as (Hwf & Hri & _). destruct (wf_conf _ Hwf) as (cs & Hcs).
    destruct (observe_sim (md_c s) sc (ref_of sc rs) cs Hwf Hri Hcs) as (c' & Hobs & Hper).
    rewrite Hobs. cbn [fst snd]. destruct (Hsc sc) as (Hr & Hk & Hj & Hmem).
    assert (Hp : obs_is (ref_observe (ref_of sc rs)) (q_ref (msc_of sc (mn_sc m))) = true)
      by (rewrite Hr; apply obs_is_ref, Hwf).
    rewrite (mon_step_observe_ref m sc _ _ Hc Hj Hp).
    2:{ intro Hm. rewrite (Hmem Hm), (mem_observe_sim _ Hwf). exact Hp. }
    constructor; cbn [md_c md_m]; [eapply Inv_persisted; eassumption|assumption..].
  - destruct (HI sc) as (Hwf & Hri & _). cbn [fst snd].
    destruct (Hsc sc) as (Hr & Hk & Hj & Hmem).
    rewrite (mon_step_entries_ref m sc lo hi mx _ _ Hc Hj); [constructor; assumption| |]; rewrite Hr.
    + rewrite (pebble_entries_eq _ sc _ lo hi mx Hri). apply judge_entries_window, Hwf.
    + intro E. apply andb_true_iff in E. destruct E as [Ehi Eqm].
      rewrite (Hmem Eqm), mem_entries_eq by lia. apply judge_entries_window, Hwf.
  - destruct (HI sc) as (Hwf & Hri & _). destruct (wf_conf _ Hwf) as (cs & Hcs).
    destruct (pebble_term_sim (md_c s) sc (ref_of sc rs) cs i Hwf Hri Hcs) as (c' & Hpt & Hper).
    rewrite Hpt. cbn [fst snd]. destruct (Hsc sc) as (Hr & Hk & Hj & Hmem).
    rewrite (mon_step_term_ref m sc i _ _ Hc Hj); [| |]; rewrite ?Hr.
    + constructor; cbn [md_c md_m]; [eapply Inv_persisted; eassumption|assumption..].
    + apply judge_term_iff. reflexivity.
    + intro Hm. rewrite (Hmem Hm). apply judge_term_iff, mem_term_eq, Hwf.
Qed.

Lemma Sim_run ready : forall ops s m rs,
  Sim ready s m rs -> hist_valid rs ops = true -> (ready = true -> forallb op_ready ops = true) ->
  Sim ready (mdl_after s ops) (fold_left mon_step (combine ops (mdl_run s ops)) m) (ref_run rs ops).
Proof.
  induction ops as [|o ops IH]; intros s m rs HJ Hv Hrd; [exact HJ|].
  cbn [hist_valid forallb] in Hv, Hrd. apply andb_true_iff in Hv. destruct Hv as [Hvo Hvr].
  assert (Hro : ready = true -> op_ready o = true /\ forallb op_ready ops = true)
    by (intro Hb; apply andb_true_iff, Hrd, Hb).
  pose proof (Sim_step ready s m rs o HJ Hvo (fun Hb => proj1 (Hro Hb))) as HJ'.
  cbn [mdl_after ref_run mdl_run]. destruct (mdl_step s o) as [s' x] eqn:Es.
  cbn [combine fold_left fst snd] in *. apply IH; [assumption..|]. intro Hb. apply Hro, Hb.
Qed.

Lemma Sim_reach ops :
  hist_valid [] ops = true ->
  Sim false (mdl_after mdl0 ops) (fold_left mon_step (combine ops (mdl_run mdl0 ops)) mon0) (ref_run [] ops).
Proof. intro Hv. apply Sim_run; [apply Sim_init|exact Hv|discriminate]. Qed.

Lemma model_satisfies_monitor ops :
  hist_valid [] ops = true ->
  C14_monitor (C14Case (combine ops (mdl_run mdl0 ops))) = 0.
Proof. intro Hv. exact (sim_code _ _ _ _ (Sim_reach ops Hv)). Qed.

Lemma mdl_run_length ops : forall s, length (mdl_run s ops) = length ops.
Proof.
  induction ops as [|o l IH]; intro s; [reflexivity|].
  cbn [mdl_run]. destruct (mdl_step s o). cbn [length]. rewrite IH. reflexivity.
Qed.

Lemma model_no_mismatch ops :
  C14_mismatch (C14Case (combine ops (mdl_run mdl0 ops))) = false.
Proof.
  unfold C14_mismatch. cbn [cs_steps].
  destruct (map_combine ops (mdl_run mdl0 ops)) as [-> ->]; [symmetry; apply mdl_run_length|].
  apply negb_false_iff.
  apply list_eqb_refl. intro x. destruct x as [cs| |p mm|p mm|p mm]; cbn [oresult_eqb].
  - apply list_eqb_refl. apply N.eqb_refl.
  - reflexivity.
  - destruct p, mm; cbn [option_eqb]; rewrite ?fullobs_eqb_refl; reflexivity.
  - destruct p; cbn [option_eqb]; rewrite ?entries_eqb_refl; reflexivity.
  - destruct p; cbn [option_eqb]; rewrite ?N.eqb_refl; reflexivity.
Qed.


Definition refines (c : cstate) (rs : list (N * rstate)) : Prop :=
  forall sc, let r := ref_of sc rs in
    snd (observe c sc) = ref_observe r
    /\ (forall lo hi mx, r_first r <= lo -> lo <= hi -> hi <= r_last r + 1 ->
                         pebble_entries c sc lo hi mx = ref_entries r lo hi mx)
    /\ (forall i, snd (pebble_term c sc i) = Some (match r_term r i with Some t => t | None => 0 end)).

Lemma Inv_refines c rs : Inv c rs -> refines c rs.
Proof.
  intros HI sc. cbn zeta. destruct (HI sc) as (Hwf & Hri & _).
  destruct (wf_conf _ Hwf) as (cs & Hcs).
  split; [|split].
  - destruct (observe_sim c sc _ cs Hwf Hri Hcs) as (c' & Hobs & _). rewrite Hobs. reflexivity.
  - intros lo hi mx H1 H2 H3. rewrite (pebble_entries_eq c sc _ lo hi mx Hri).
    apply ref_entries_window; assumption.
  - intro i. destruct (pebble_term_sim c sc _ cs i Hwf Hri Hcs) as (c' & Hpt & _). rewrite Hpt. reflexivity.
Qed.

Lemma reach_Inv ops :
  hist_valid [] ops = true -> Inv (md_c (mdl_after mdl0 ops)) (ref_run [] ops).
Proof. intro Hv. exact (sim_inv _ _ _ _ (Sim_reach ops Hv)). Qed.

Lemma Inv_no_below c rs sc :
  Inv c rs ->
  let r := ref_of sc rs in
  (forall lo hi mx e, In e (pebble_entries c sc lo hi mx) ->
                      r_first r <= e_idx e /\ e_idx e <= r_last r /\ lo <= e_idx e /\ (hi = 0 \/ e_idx e < hi))
  /\ (forall i, i + 1 < r_first r \/ r_last r < i -> snd (pebble_term c sc i) = Some 0).
Proof.
  intro HI. cbn zeta. destruct (HI sc) as (Hwf & Hri & _). pose proof (wf_contig _ Hwf) as Hc. split.
  - intros lo hi mx e He. rewrite (pebble_entries_eq _ sc _ lo hi mx Hri) in He.
    destruct (limit_window_In _ _ _ _ _ He) as [Hin Hw].
    pose proof (contig_in _ _ _ Hc Hin) as Hb. unfold in_window in Hw. unfold r_first, r_last, len in *. lia.
  - intros i Hi. destruct (Inv_refines _ _ HI sc) as (_ & _ & Ht). rewrite Ht. f_equal.
    destruct (r_term (ref_of sc rs) i) as [t|] eqn:E; [|reflexivity].
    apply r_term_in_range in E. unfold r_first in Hi. lia.
Qed.

(* only the last clause needs the invariant ([reads_ignore_cache]) *)
Lemma Inv_reopen c rs sc :
  Inv c rs ->
  snd (observe (reopen c) sc) = snd (observe c sc)
  /\ (forall lo hi mx, pebble_entries (reopen c) sc lo hi mx = pebble_entries c sc lo hi mx)
  /\ (forall i, snd (pebble_term (reopen c) sc i) = snd (pebble_term c sc i))
  /\ (forall w, aget sc (c_cache c) = Some w -> loadScopeWriteState (reopen c) [] sc = Ok w).
Proof.
  intro HI. destruct (reads_ignore_cache c sc) as (Ho & He & Ht).
  split; [exact Ho|]. split; [exact He|]. split; [exact Ht|].
  intros w Hw. eapply reopen_rebuilds_cache; eassumption.
Qed.

(* crash during the flush of a group: Pebble applies the batch or does not *)

Section Crash.
  Variable crash_kv : list (N * rows) -> list bop -> list (N * rows).
  Hypothesis batch_atomic : forall kv b, crash_kv kv b = kv \/ crash_kv kv b = apply_batch kv b.

  (* the files a process killed inside flushWriteRequests leaves behind, reopened *)
  Definition run_group_crash (c : cstate) (reqs : list (N * wreq)) : cstate :=
    let '(c1, qs, _) := plan_group c reqs in
    match qs with
    | [] => drop_cache c1
    | _ => match stage_requests c1 [] [] qs with
           | Ok (batch, _) => CS (crash_kv (c_kv c1) batch) [] (c_files c1) (c_next c1)
           | Err _ => drop_cache c1
           end
    end.

  Lemma crash_group c rs reqs :
    Inv c rs -> group_valid rs reqs = true ->
    Inv (run_group_crash c reqs) rs \/ Inv (run_group_crash c reqs) (ref_group rs reqs).
  Proof.
    intros HI Hgv. destruct (group_valid_forall rs reqs Hgv) as [Hd Hall].
    pose proof (scopes_distinct_nodup _ Hd) as Hndr.
    destruct (plan_group_sim rs reqs c HI Hall) as (c1 & pl & Hg & Hx & Hpls & Hin & Hnd & Hrej).
    specialize (Hnd Hndr).
    pose proof (Inv_mono _ _ _ Hx HI) as HI1.
    destruct (run_group_commit' c rs reqs HI Hgv) as (cc & Hrun & HIc).
    unfold run_group in Hrun. rewrite Hg in Hrun. cbn [N.eqb negb] in Hrun.
    unfold run_group_crash. rewrite Hg.
    destruct pl as [|p pl'].
    - cbn [map] in *. inversion Hrun; subst cc. right. exact (reopen_Inv _ _ HIc).
    - destruct (flush_sim c1 rs (p :: pl') HI1 Hnd Hpls) as (c' & Hf & HI' & batch & lc & Hst & Hc').
      cbn [map] in *. rewrite Hst.
      destruct (batch_atomic (c_kv c1) batch) as [Hno|Hyes].
      + left. rewrite Hno. exact (reopen_Inv _ _ HI1).
      + right. rewrite Hyes. rewrite Hf in Hrun. inversion Hrun; subst cc. rewrite Hc' in HIc.
        exact (reopen_Inv _ _ HIc).
  Qed.
End Crash.

Lemma Sim_memory s m rs sc :
  Sim true s m rs ->
  let ms := mem_of sc (md_m s) in let r := ref_of sc rs in
  mem_observe ms = ref_observe r
  /\ (forall lo hi mx, 0 < hi -> r_first r <= lo -> lo <= hi -> hi <= r_last r + 1 ->
                       mem_entries ms lo hi mx = ref_entries r lo hi mx)
  /\ (forall i, mem_term ms i = match r_term r i with Some t => t | None => 0 end).
Proof.
  intro HJ. cbn zeta.
  destruct (sim_sc _ _ _ _ HJ sc) as (_ & _ & _ & Hmem). rewrite (Hmem (sim_mem _ _ _ _ HJ eq_refl sc)).
  destruct (sim_inv _ _ _ _ HJ sc) as (Hwf & _).
  split; [apply mem_observe_sim; assumption|]. split.
  - intros lo hi mx H0 H1 H2 H3. rewrite mem_entries_eq by assumption. apply ref_entries_window; assumption.
  - intro i. apply mem_term_eq. assumption.
Qed.

(* known finding K1: once the K1-signature saves are let in, the statement is false *)

Definition req_raft_valid (rs : list (N * rstate)) (p : N * wreq) : bool :=
  req_valid (ref_of (fst p) rs) (snd p).

Fixpoint hist_raft_valid (rs : list (N * rstate)) (ops : list op) : bool :=
  match ops with
  | [] => true
  | o :: rest =>
      match o with
      | OWrite _ reqs => scopes_distinct (map fst reqs) && forallb (req_raft_valid rs) reqs
      | _ => true
      end && hist_raft_valid (ref_step rs o) rest
  end.

(* corpus/C14/k1_snapshot_inside_log_keeps_stale_suffix.json *)
Definition k1_witness : list op :=
  [OWrite 0 [(1, WSave None [E 1 1 0 [] None; E 2 1 0 (hx "f7c4e1") None] None)];
   OWrite 0 [(1, WSave None [] (Some (SN 1 2 [1; 2; 3] (hx "1a7692") 3271408493)))];
   OReopen;
   OObserve 1].
