(* Proof/ChanMigration_case.v — a case of one-command batches on which the model agrees
   (C17_mismatch = false) is the model's own trace ([no_mismatch_is_model_trace]); c17_case_link in
   Properties/C17.v combines it with [model_satisfies_monitor]: a monitor code 1 or 4 on such a case
   means the implementation left the model. *)
From WK Require Import Base.Base.
From WK Require Import Gen.Consts_C15 Gen.Consts_C17 Model.RuntimeMeta Model.ChanMigration Model.ChanMigration_C17.
From WK Require Import Proof.RuntimeMeta Proof.ChanMigration Proof.ChanMigration_cmds Proof.ChanMigration_inv
                       Proof.ChanMigration_step Proof.ChanMigration_meta Proof.ChanMigration_trace
                       Proof.ChanMigration_monitor Proof.ChanMigration_link.
Open Scope N_scope.

Definition dummy_cmd : cmd := CGC 0%Z 0%Z.
Definition cmd_of (s : list cmd * obs) : cmd := match fst s with [c] => c | _ => dummy_cmd end.

(* every batch has one command; every observation lists the same channels *)
Definition case_shape (chs : list chan_key) (steps : list (list cmd * obs)) : Prop :=
  Forall (fun s => (exists c, fst s = [c])
                   /\ map fst (o_active (snd s)) = chs /\ map fst (o_metas (snd s)) = chs) steps.

Lemma bres_eqb_eq a b : bres_eqb a b = true -> a = b.
Proof.
  destruct a as [x|x], b as [y|y]; cbn [bres_eqb]; try discriminate; intro H.
  - destruct x, y; try discriminate H; reflexivity.
  - apply (list_eqb_spec N.eqb N.eqb_eq) in H. congruence.
Qed.

Lemma list_eqb_task_eq a b : list_eqb task_eqb a b = true -> a = b.
Proof.
  apply list_eqb_spec. intros x y. split; [apply task_eqb_eq|intros ->; apply task_eqb_refl].
Qed.

Lemma forallb_assoc_eq {V} (eqbV : V -> V -> bool) (eqbV_eq : forall a b, eqbV a b = true -> a = b)
      (f : chan_key -> option V) (l : list (chan_key * option V)) :
  forallb (fun cv => option_eqb eqbV (f (fst cv)) (snd cv)) l = true ->
  l = map (fun c => (c, f c)) (map fst l).
Proof.
  induction l as [|[c v] l IH]; cbn [forallb map fst snd]; [reflexivity|].
  intro H. apply andb_prop in H. destruct H as [H1 H2].
  rewrite <- (IH H2). f_equal. f_equal.
  destruct (f c) as [a|], v as [b|]; cbn [option_eqb] in H1; try discriminate; [|reflexivity].
  apply eqbV_eq in H1. congruence.
Qed.

Lemma obs_matches_eq chs d r o :
  map fst (o_active o) = chs -> map fst (o_metas o) = chs ->
  obs_matches d r o = true -> o = obs_of chs d r.
Proof.
  intros A M H. unfold obs_matches in H. b2p.
  destruct o as [res tasks act metas]. cbn [o_res o_tasks o_active o_metas] in *.
  match goal with Hq : bres_eqb _ _ = true |- _ => apply bres_eqb_eq in Hq; subst res end.
  match goal with Hq : list_eqb task_eqb _ _ = true |- _ => apply list_eqb_task_eq in Hq; subst tasks end.
  match goal with Hq : forallb (fun cv => option_eqb bytes_eqb _ _) act = true |- _ =>
    apply (forallb_assoc_eq bytes_eqb (fun a b => proj1 (bytes_eqb_eq a b)) (active_get d)) in Hq; rewrite A in Hq end.
  match goal with Hq : forallb (fun cv => option_eqb runtime_meta_eqb _ _) metas = true |- _ =>
    apply (forallb_assoc_eq runtime_meta_eqb runtime_meta_eqb_eq (meta_get d)) in Hq; rewrite M in Hq end.
  unfold obs_of. congruence.
Qed.

Lemma no_mismatch_is_model_trace chs : forall steps d,
  case_shape chs steps -> run_mismatch d steps = false ->
  steps = model_trace chs d (map cmd_of steps).
Proof.
  induction steps as [|[cs o] r IH]; intros d Sh H; cbn [map model_trace]; [reflexivity|].
  inversion Sh as [|s l Hs Sr Eq]. clear Eq. destruct Hs as [[c Ec] [A M]]. cbn [fst snd] in Ec, A, M. subst cs.
  cbn [run_mismatch] in H. rewrite ApplyBatch_single in H.
  destruct (obs_matches (fst (apply_one d c)) (bres_of (snd (apply_one d c))) o) eqn:Om; [|discriminate].
  unfold cmd_of at 1. cbn [fst].
  rewrite (obs_matches_eq chs _ _ _ A M Om). f_equal.
  apply IH; assumption.
Qed.
