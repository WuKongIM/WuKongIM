(* Proof/AckTracker_map.v — association lists (of Model/AckTracker.v and Model/Presence.v), lists
   used as sets, and a map into lists from which one row shrinks or disappears *)
From WK Require Import Base.Base Model.AckTracker.
From Coq Require Import Permutation.
Open Scope N_scope.

Lemma filter_filter {A} (f g : A -> bool) l : filter f (filter g l) = filter (fun x => g x && f x) l.
Proof.
  induction l as [|a l IH]; simpl; [reflexivity|]. destruct (g a); simpl; [destruct (f a)|]; rewrite IH; reflexivity.
Qed.

Definition al_keys {K V : Type} (m : list (K * V)) : list K := map fst m.

Section ALFacts.
  Context {K V : Type} (eqb : K -> K -> bool).
  Hypothesis eqb_spec : forall a b, eqb a b = true <-> a = b.

  Lemma al_eqb_refl k : eqb k k = true.
  Proof. apply eqb_spec. reflexivity. Qed.

  Lemma al_eqb_neq a b : a <> b -> eqb a b = false.
  Proof.
    intro H. destruct (eqb a b) eqn:E; [|reflexivity].
    apply eqb_spec in E. contradiction.
  Qed.

  Lemma al_eqb_false a b : eqb a b = false -> a <> b.
  Proof. intros E H. subst. rewrite al_eqb_refl in E. discriminate. Qed.

  Lemma al_get_del_same k (m : list (K * V)) : al_get eqb k (al_del eqb k m) = None.
  Proof.
    induction m as [|[k' v] m IH]; simpl; [reflexivity|].
    destruct (eqb k k') eqn:E; [exact IH|]. simpl. rewrite E. exact IH.
  Qed.

  Lemma al_get_del_other k k' (m : list (K * V)) :
    k <> k' -> al_get eqb k' (al_del eqb k m) = al_get eqb k' m.
  Proof.
    intro H. induction m as [|[k2 v] m IH]; simpl; [reflexivity|].
    destruct (eqb k k2) eqn:E.
    - apply eqb_spec in E. subst k2.
      rewrite (al_eqb_neq k' k) by (intro; subst; contradiction). exact IH.
    - simpl. destruct (eqb k' k2); [reflexivity|exact IH].
  Qed.

  Lemma al_get_set_same k v (m : list (K * V)) : al_get eqb k (al_set eqb k v m) = Some v.
  Proof. unfold al_set. simpl. rewrite al_eqb_refl. reflexivity. Qed.

  Lemma al_get_set_other k k' v (m : list (K * V)) :
    k <> k' -> al_get eqb k' (al_set eqb k v m) = al_get eqb k' m.
  Proof.
    intro H. unfold al_set. simpl.
    rewrite (al_eqb_neq k' k) by (intro; subst; contradiction).
    apply al_get_del_other. exact H.
  Qed.

  Lemma al_get_none_iff k (m : list (K * V)) : al_get eqb k m = None <-> ~ In k (al_keys m).
  Proof.
    induction m as [|[k' v] m IH]; simpl.
    - split; [intros _ []|reflexivity].
    - destruct (eqb k k') eqn:E.
      + apply eqb_spec in E. subst. split; [discriminate|]. intro H. exfalso. apply H. left. reflexivity.
      + apply al_eqb_false in E. rewrite IH. split.
        * intros H [H1|H1]; [subst; contradiction|contradiction].
        * intros H H1. apply H. right. exact H1.
  Qed.

  Lemma al_get_some_in k v (m : list (K * V)) : al_get eqb k m = Some v -> In (k, v) m.
  Proof.
    induction m as [|[k' v'] m IH]; simpl; [discriminate|].
    destruct (eqb k k') eqn:E.
    - apply eqb_spec in E. subst. intro H. inversion H. left. reflexivity.
    - intro H. right. apply IH. exact H.
  Qed.

  Lemma al_get_some_key k v (m : list (K * V)) : al_get eqb k m = Some v -> In k (al_keys m).
  Proof. intro H. apply al_get_some_in in H. apply (in_map fst) in H. exact H. Qed.

  Lemma al_get_key_iff k (m : list (K * V)) : al_get eqb k m <> None <-> In k (al_keys m).
  Proof.
    destruct (al_get eqb k m) eqn:G.
    - split; [intros _; apply (al_get_some_key _ _ _ G)|discriminate].
    - apply al_get_none_iff in G. tauto.
  Qed.

  Lemma al_in_get k v (m : list (K * V)) :
    NoDup (al_keys m) -> In (k, v) m -> al_get eqb k m = Some v.
  Proof.
    induction m as [|[k' v'] m IH]; simpl; [intros _ []|].
    intros ND [H|H].
    - inversion H. subst. rewrite al_eqb_refl. reflexivity.
    - inversion ND as [|? ? Hn ND']. subst.
      destruct (eqb k k') eqn:E.
      + apply eqb_spec in E. subst. exfalso. apply Hn. apply (in_map fst) in H. exact H.
      + apply IH; assumption.
  Qed.

  Lemma al_keys_del k k' (m : list (K * V)) :
    In k' (al_keys (al_del eqb k m)) <-> k' <> k /\ In k' (al_keys m).
  Proof.
    induction m as [|[k2 v] m IH]; simpl.
    - split; [intros []|intros [_ []]].
    - destruct (eqb k k2) eqn:E.
      + apply eqb_spec in E. subst k2. rewrite IH. split.
        * intros [H1 H2]. split; [exact H1|right; exact H2].
        * intros [H1 [H2|H2]]; [subst; contradiction|split; assumption].
      + apply al_eqb_false in E. simpl. rewrite IH. split.
        * intros [H|[H1 H2]]; [subst; split; [intro; subst; contradiction|left; reflexivity]|split; [exact H1|right; exact H2]].
        * intros [H1 [H2|H2]]; [left; exact H2|right; split; assumption].
  Qed.

  Lemma al_del_nodup k (m : list (K * V)) : NoDup (al_keys m) -> NoDup (al_keys (al_del eqb k m)).
  Proof.
    induction m as [|[k2 v] m IH]; simpl; [intros; constructor|].
    intro ND. inversion ND as [|? ? Hn ND']. subst.
    destruct (eqb k k2); [apply IH; exact ND'|].
    simpl. constructor; [|apply IH; exact ND'].
    intro H. apply al_keys_del in H. apply Hn. apply H.
  Qed.

  Lemma al_set_nodup k v (m : list (K * V)) : NoDup (al_keys m) -> NoDup (al_keys (al_set eqb k v m)).
  Proof.
    intro ND. unfold al_set. simpl. constructor; [|apply al_del_nodup; exact ND].
    intro H. apply al_keys_del in H. destruct H as [H _]. apply H. reflexivity.
  Qed.

  Lemma al_keys_set k v k' (m : list (K * V)) :
    In k' (al_keys (al_set eqb k v m)) <-> k' = k \/ In k' (al_keys m).
  Proof.
    unfold al_set. simpl. rewrite al_keys_del. split.
    - intros [H|[_ H]]; [left; symmetry; exact H|right; exact H].
    - intros [H|H]; [left; symmetry; exact H|].
      destruct (eqb k' k) eqn:E.
      + apply eqb_spec in E. left. symmetry. exact E.
      + right. split; [apply al_eqb_false; exact E|exact H].
  Qed.

  Lemma al_del_notin k (m : list (K * V)) : al_get eqb k m = None -> al_del eqb k m = m.
  Proof.
    induction m as [|[k2 v] m IH]; simpl; [reflexivity|].
    destruct (eqb k k2); [discriminate|]. intro H. rewrite IH by exact H. reflexivity.
  Qed.

  Lemma al_del_length k v (m : list (K * V)) :
    NoDup (al_keys m) -> al_get eqb k m = Some v -> S (length (al_del eqb k m)) = length m.
  Proof.
    induction m as [|[k2 v2] m IH]; simpl; [discriminate|].
    intros ND H. inversion ND as [|? ? Hn ND']. subst.
    destruct (eqb k k2) eqn:E.
    - apply eqb_spec in E. subst k2.
      rewrite al_del_notin; [reflexivity|]. apply al_get_none_iff. exact Hn.
    - simpl. rewrite (IH ND' H). reflexivity.
  Qed.

  Lemma al_del_length_le k (m : list (K * V)) : (length (al_del eqb k m) <= length m)%nat.
  Proof.
    induction m as [|[k2 v2] m IH]; simpl; [lia|]. destruct (eqb k k2); simpl; lia.
  Qed.

  Lemma al_filter_keys f k (m : list (K * V)) : In k (al_keys (filter f m)) -> In k (al_keys m).
  Proof.
    unfold al_keys. intro H. apply in_map_iff in H. destruct H as [[k2 v] [H1 H2]].
    apply filter_In in H2. apply in_map_iff. exists (k2, v). split; [exact H1|apply H2].
  Qed.

  Lemma al_filter_nodup f (m : list (K * V)) : NoDup (al_keys m) -> NoDup (al_keys (filter f m)).
  Proof.
    induction m as [|[k v] m IH]; simpl; [intros; constructor|].
    intro ND. inversion ND as [|? ? Hn ND']. subst.
    destruct (f (k, v)); [|apply IH; exact ND'].
    simpl. constructor; [|apply IH; exact ND'].
    intro H. apply Hn. apply (al_filter_keys f). exact H.
  Qed.

  Lemma al_get_filter f k (m : list (K * V)) :
    NoDup (al_keys m) ->
    al_get eqb k (filter f m) =
    match al_get eqb k m with
    | Some v => if f (k, v) then Some v else None
    | None => None
    end.
  Proof.
    induction m as [|[k2 v2] m IH]; simpl; [reflexivity|].
    intro ND. inversion ND as [|? ? Hn ND']. subst.
    destruct (eqb k k2) eqn:E.
    - apply eqb_spec in E. subst k2. destruct (f (k, v2)) eqn:F.
      + simpl. rewrite al_eqb_refl. reflexivity.
      + apply al_get_none_iff. intro H. apply Hn. apply (al_filter_keys f). exact H.
    - destruct (f (k2, v2)); [simpl; rewrite E|]; apply IH; exact ND'.
  Qed.

  Lemma al_get_perm k (m m' : list (K * V)) :
    Permutation m m' -> NoDup (al_keys m) -> al_get eqb k m = al_get eqb k m'.
  Proof.
    intros P ND.
    assert (ND' : NoDup (al_keys m')) by (apply (Permutation_NoDup (Permutation_map fst P)), ND).
    destruct (al_get eqb k m) as [v|] eqn:G; symmetry.
    - apply (al_in_get _ _ _ ND'), (Permutation_in _ P), al_get_some_in, G.
    - apply al_get_none_iff. intro H. apply al_get_none_iff in G. apply G.
      exact (Permutation_in _ (Permutation_map fst (Permutation_sym P)) H).
  Qed.

  Lemma al_filter_ext f g (m : list (K * V)) :
    NoDup (al_keys m) -> (forall k v, al_get eqb k m = Some v -> f (k, v) = g (k, v)) -> filter f m = filter g m.
  Proof. intros ND H. apply filter_ext_in. intros [k v] Hin. apply H, al_in_get; assumption. Qed.
  Lemma al_set_length_present k v v0 (m : list (K * V)) :
    NoDup (al_keys m) -> al_get eqb k m = Some v0 -> length (al_set eqb k v m) = length m.
  Proof. intros ND G. unfold al_set. simpl. apply (al_del_length _ _ _ ND G). Qed.

  Lemma al_set_length_absent k v (m : list (K * V)) :
    al_get eqb k m = None -> length (al_set eqb k v m) = S (length m).
  Proof. intros G. unfold al_set. simpl. rewrite al_del_notin by exact G. reflexivity. Qed.

  Lemma al_set_set k v v' (m : list (K * V)) : al_set eqb k v (al_set eqb k v' m) = al_set eqb k v m.
  Proof.
    unfold al_set. simpl. rewrite al_eqb_refl, (al_del_notin k (al_del eqb k m)) by apply al_get_del_same. reflexivity.
  Qed.

  (* deleting several keys, one after the other, is one filter *)
  Fixpoint al_del_keys (ks : list K) (m : list (K * V)) : list (K * V) :=
    match ks with
    | [] => m
    | k :: r => al_del_keys r (al_del eqb k m)
    end.

  Lemma al_get_del_keys ks : forall (m : list (K * V)) k,
    al_get eqb k (al_del_keys ks m) = if existsb (eqb k) ks then None else al_get eqb k m.
  Proof.
    induction ks as [|k0 r IH]; intros m k; simpl; [reflexivity|].
    rewrite IH. destruct (eqb k k0) eqn:E; simpl.
    - apply eqb_spec in E. subst k0. rewrite al_get_del_same. destruct (existsb (eqb k) r); reflexivity.
    - rewrite al_get_del_other; [reflexivity|]. apply al_eqb_false in E. congruence.
  Qed.

  Lemma al_del_filter k (m : list (K * V)) : al_del eqb k m = filter (fun kv => negb (eqb (fst kv) k)) m.
  Proof.
    induction m as [|[k' v] m IH]; simpl; [reflexivity|].
    assert (S : eqb k' k = eqb k k').
    { destruct (eqb k k') eqn:E; [apply eqb_spec in E; subst; apply al_eqb_refl|].
      apply al_eqb_false in E. apply al_eqb_neq. congruence. }
    rewrite S. destruct (eqb k k'); simpl; rewrite IH; reflexivity.
  Qed.

  Lemma al_del_keys_filter ks : forall m : list (K * V),
    al_del_keys ks m = filter (fun kv => negb (existsb (eqb (fst kv)) ks)) m.
  Proof.
    induction ks as [|k r IH]; intro m; simpl.
    - induction m as [|a m IHm]; simpl; [reflexivity|]. rewrite <- IHm. reflexivity.
    - rewrite IH, al_del_filter, filter_filter. apply filter_ext. intros [k' v]. simpl. rewrite negb_orb. reflexivity.
  Qed.
End ALFacts.

Lemma nodup_same_length {A} (l1 l2 : list A) :
  NoDup l1 -> NoDup l2 -> (forall x, In x l1 <-> In x l2) -> length l1 = length l2.
Proof.
  intros N1 N2 H. apply Permutation_length. apply NoDup_Permutation; assumption.
Qed.

Lemma al_same_length {K V W} (eqb : K -> K -> bool) (eqb_spec : forall a b, eqb a b = true <-> a = b)
      (a : list (K * V)) (b : list (K * W)) :
  NoDup (al_keys a) -> NoDup (al_keys b) ->
  (forall k, al_get eqb k a <> None <-> al_get eqb k b <> None) -> length a = length b.
Proof.
  intros Na Nb H. rewrite <- (map_length fst a), <- (map_length fst b).
  apply nodup_same_length; [exact Na|exact Nb|]. intro k. fold (al_keys a) (al_keys b).
  rewrite <- !(al_get_key_iff eqb eqb_spec). apply H.
Qed.

(* lists used as sets *)
Section ListSet.
  Context {A : Type} (eqb : A -> A -> bool).
  Hypothesis eqb_spec : forall a b, eqb a b = true <-> a = b.

  Lemma set_mem_in x l : existsb (eqb x) l = true <-> In x l.
  Proof.
    rewrite existsb_exists. split.
    - intros [y [H1 H2]]. apply eqb_spec in H2. subst. exact H1.
    - intro H. exists x. split; [exact H|apply eqb_spec; reflexivity].
  Qed.

  Lemma set_add_in x l y : In y (if existsb (eqb x) l then l else l ++ [x]) <-> y = x \/ In y l.
  Proof.
    destruct (existsb (eqb x) l) eqn:E.
    - apply set_mem_in in E. split; [auto|]. intros [H|H]; [subst; exact E|exact H].
    - rewrite in_app_iff. simpl. intuition congruence.
  Qed.

  Lemma set_add_nodup x l : NoDup l -> NoDup (if existsb (eqb x) l then l else l ++ [x]).
  Proof.
    intro H. destruct (existsb (eqb x) l) eqn:E; [exact H|].
    eapply Permutation_NoDup; [apply Permutation_cons_append|].
    constructor; [|exact H]. intro H1. apply set_mem_in in H1. congruence.
  Qed.

  Lemma set_del_in x l y : In y (filter (fun z => negb (eqb z x)) l) <-> y <> x /\ In y l.
  Proof.
    rewrite filter_In, negb_true_iff. split; intros [H1 H2].
    - split; [|exact H1]. intro X. subst. rewrite (proj2 (eqb_spec x x) eq_refl) in H2. discriminate.
    - split; [exact H2|]. destruct (eqb y x) eqn:E; [apply eqb_spec in E; contradiction|reflexivity].
  Qed.
End ListSet.

(* the shape of both reverse indexes, bySession and byUID *)
Lemma al_get_shrink {K X} (eqb : K -> K -> bool) (eqb_spec : forall a b, eqb a b = true <-> a = b)
      (f : list X -> list X) k k' (m : list (K * list X)) :
  al_get eqb k' match al_get eqb k m with
                | Some xs => match f xs with [] => al_del eqb k m | xs' => al_set eqb k xs' m end
                | None => m
                end
  = if eqb k' k
    then match al_get eqb k m with
         | Some xs => match f xs with [] => None | xs' => Some xs' end
         | None => None
         end
    else al_get eqb k' m.
Proof.
  destruct (eqb k' k) eqn:E.
  - apply eqb_spec in E. subst k'. destruct (al_get eqb k m) as [xs|] eqn:G; [|exact G].
    destruct (f xs); [apply al_get_del_same|apply (al_get_set_same eqb eqb_spec)].
  - apply (al_eqb_false eqb eqb_spec) in E.
    destruct (al_get eqb k m) as [xs|]; [|reflexivity].
    destruct (f xs); [apply (al_get_del_other eqb eqb_spec)|apply (al_get_set_other eqb eqb_spec)]; congruence.
Qed.

Lemma key_eqb_spec : forall a b : key, key_eqb a b = true <-> a = b.
Proof.
  intros [[a1 a2] a3] [[b1 b2] b3]. unfold key_eqb.
  rewrite !andb_true_iff, !N.eqb_eq. split.
  - intros [[H1 H2] H3]. subst. reflexivity.
  - intro H. inversion H. auto.
Qed.

Lemma skey_eqb_spec : forall a b : skey, skey_eqb a b = true <-> a = b.
Proof.
  intros [a1 a2] [b1 b2]. unfold skey_eqb.
  rewrite !andb_true_iff, !N.eqb_eq. split.
  - intros [H1 H2]. subst. reflexivity.
  - intro H. inversion H. auto.
Qed.

Definition key_eqb_refl := al_eqb_refl key_eqb key_eqb_spec.
Definition skey_eqb_refl := al_eqb_refl skey_eqb skey_eqb_spec.

Definition k_get_del_other {V} := @al_get_del_other key V key_eqb key_eqb_spec.
Definition k_get_set_same {V} := @al_get_set_same key V key_eqb key_eqb_spec.
Definition k_get_set_other {V} := @al_get_set_other key V key_eqb key_eqb_spec.
Definition k_get_some_in {V} := @al_get_some_in key V key_eqb key_eqb_spec.
Definition k_in_get {V} := @al_in_get key V key_eqb key_eqb_spec.
Definition k_keys_del {V} := @al_keys_del key V key_eqb key_eqb_spec.
Definition k_del_nodup {V} := @al_del_nodup key V key_eqb key_eqb_spec.
Definition k_set_nodup {V} := @al_set_nodup key V key_eqb key_eqb_spec.
Definition k_keys_set {V} := @al_keys_set key V key_eqb key_eqb_spec.
Definition k_del_length {V} := @al_del_length key V key_eqb key_eqb_spec.
Definition k_get_filter {V} := @al_get_filter key V key_eqb key_eqb_spec.
Definition k_get_del_same {V} := @al_get_del_same key V key_eqb.
Definition k_del_notin {V} := @al_del_notin key V key_eqb.
Definition k_del_length_le {V} := @al_del_length_le key V key_eqb.
Definition s_get_del_other {V} := @al_get_del_other skey V skey_eqb skey_eqb_spec.
Definition s_get_set_same {V} := @al_get_set_same skey V skey_eqb skey_eqb_spec.
Definition s_get_set_other {V} := @al_get_set_other skey V skey_eqb skey_eqb_spec.
Definition s_get_none_iff {V} := @al_get_none_iff skey V skey_eqb skey_eqb_spec.
Definition s_get_some_in {V} := @al_get_some_in skey V skey_eqb skey_eqb_spec.
Definition s_get_some_key {V} := @al_get_some_key skey V skey_eqb skey_eqb_spec.
Definition s_in_get {V} := @al_in_get skey V skey_eqb skey_eqb_spec.
Definition s_keys_del {V} := @al_keys_del skey V skey_eqb skey_eqb_spec.
Definition s_del_nodup {V} := @al_del_nodup skey V skey_eqb skey_eqb_spec.
Definition s_set_nodup {V} := @al_set_nodup skey V skey_eqb skey_eqb_spec.
Definition s_keys_set {V} := @al_keys_set skey V skey_eqb skey_eqb_spec.
Definition s_del_length {V} := @al_del_length skey V skey_eqb skey_eqb_spec.
Definition s_get_filter {V} := @al_get_filter skey V skey_eqb skey_eqb_spec.
Definition s_get_del_same {V} := @al_get_del_same skey V skey_eqb.
Definition s_del_notin {V} := @al_del_notin skey V skey_eqb.
Definition s_del_length_le {V} := @al_del_length_le skey V skey_eqb.
