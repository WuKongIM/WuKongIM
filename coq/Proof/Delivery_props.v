(* Proof/Delivery_props.v — exactness of retries (chain_exact), the groups of a
   plan, coverage of the pushes when the context never ends, and that a recipient
   reported offline is not pushed (under the hypotheses plan construction gives). *)
From WK Require Import Base.Base Gen.Consts_C31 Model.Delivery Model.Delivery_C31
     Proof.Delivery_local Proof.Delivery_retry Proof.Delivery_cover Proof.Delivery_monitor Proof.Delivery_accept.
From Coq Require Import Permutation.
Open Scope N_scope.

(* the attempts of one batch: the first pushes rs, each further one pushes
   exactly what the previous one left (its Retryable set; after an error or a
   recovered panic of the owner port the same routes again) *)
Fixpoint chain_exact (rs : list route) (l : list attempt) : Prop :=
  match l with
  | [] => True
  | a :: l' => a_routes a = rs /\ chain_exact (next_routes a rs) l'
  end.

Lemma do_attempt_routes c ev o rs oo cx a cx1 :
  do_attempt c ev o rs oo cx = (a, cx1) -> a_routes a = rs.
Proof.
  unfold do_attempt, local_attempt. intros E.
  destruct (o =? c_local c).
  - destruct (pushOwnerLocal c ev o rs (oracle_local oo) cx) as [err lr]. inversion E; reflexivity.
  - destruct (negb (c_has_remote c)); [inversion E; reflexivity|].
    destruct oo as [l|acc retry drop err]; [inversion E; reflexivity|].
    destruct (err =? 2); inversion E; reflexivity.
Qed.

Theorem retry_exact c ev o : forall n rs orc cx l st orc' cx',
  pushWithRetry c ev o n rs orc cx = (l, st, orc', cx') ->
  chain_exact rs l /\ (length l <= n)%nat.
Proof.
  intros n rs orc cx l st orc' cx' E.
  destruct (pwr_cases _ _ _ _ _ _ _ _ _ _ _ E) as [(-> & _)|[_ R]]; [simpl; split; [exact I| lia]|].
  clear E. induction R as [n rs orc a cx1 Ea _ | n rs orc a l orc' cx' Ea _ _ [A B]]; simpl;
    pose proof (do_attempt_routes _ _ _ _ _ _ _ _ Ea) as Hr; (split; [split; assumption || exact I| lia]).
Qed.

Section Plan.
Variables (c : cfg) (p : plan) (ans : list answer).
Let ev := p_event p.
Let pairs := resolved_pairs (p_targets p) ans.
Let expected := expected_routes ev pairs.
Let g := rs_groups (resolve_plan c p ans).

Lemma plan_groups_inv : g_inv g expected.
Proof. exact (proj1 (resolve_plan_spec c p ans)). Qed.

Lemma plan_offline :
  rs_offline (resolve_plan c p ans) = (if track_offline c p then offline_of pairs [] else []).
Proof. exact (proj2 (resolve_plan_spec c p ans)). Qed.

Lemma plan_keys_ok : keys_ok g.
Proof. exact (g_inv_keys_ok ev _ _ plan_groups_inv). Qed.

(* c31_coverage (pushes): when the context never ends, the attempts of every
   owner are accepted by the monitor's walk, and the first attempt of the i-th
   batch pushes the i-th batch (remote: push.Routes; local: one write per valid route) *)
Theorem coverage_pushed orc res cx :
  c_has_presence c = true -> (forall o, orc_ok (orc o)) ->
  processPlan c p ans false orc false = (res, cx) -> cx = false ->
  forall o, exists firsts,
    walk (c_retry c) 0 None (by_owner o (po_atts res)) = (true, firsts)
    /\ Forall2 (first_of c ev o) (chunks (c_batch c) (filter (fun r => r_owner r =? o) expected)) firsts.
Proof.
  intros Hp OK E Hcx o. unfold processPlan in E. rewrite Hp in E. cbn [negb] in E.
  fold ev in E. fold g in E.
  destruct (run_owners c ev g orc false) as [[atts st] cx0] eqn:ER.
  inversion E; subst res cx. clear E. cbn [po_atts].
  destruct (run_owners_facts c ev _ _ _ _ _ _ ER plan_keys_ok OK) as (_ & _ & F).
  destruct (F o) as (firsts & W & Wf). exists firsts. split; [exact W|].
  rewrite <- (gi_get _ _ plan_groups_inv). apply Wf. assumption.
Qed.

(* a recipient is never both reported offline and pushed, provided it is listed
   under one target only and the presence answers are scoped to their target *)
Theorem offline_never_pushed u :
  offline_spec pairs u = true ->
  (forall tr tr', In tr pairs -> In tr' pairs ->
      In u (t_recips (fst tr)) -> In u (t_recips (fst tr')) -> tr = tr') ->
  (forall tr, In tr pairs -> has_route_for u (snd tr) = true -> In u (t_recips (fst tr))) ->
  forall r, In r expected -> r_uid r <> u.
Proof.
  intros Hoff Huniq Hscoped r Hr Eu.
  unfold offline_spec in Hoff. apply existsb_exists in Hoff. destruct Hoff as (tr0 & Hin0 & H0).
  apply andb_true_iff in H0. destruct H0 as [Hm0 Hn0]. apply mem_bytes_in in Hm0. apply negb_true_iff in Hn0.
  unfold expected, expected_routes in Hr. apply filter_In in Hr. destruct Hr as [Hr _].
  apply in_concat in Hr. destruct Hr as (rs & Hrs & Hr). apply in_map_iff in Hrs.
  destruct Hrs as (tr & <- & Hin).
  assert (Hhas : has_route_for u (snd tr) = true).
  { unfold has_route_for. apply existsb_exists. exists r. split; [exact Hr|]. apply bytes_eqb_eq. exact Eu. }
  pose proof (Hscoped tr Hin Hhas) as Hrec.
  pose proof (Huniq tr tr0 Hin Hin0 Hrec Hm0) as ->. congruence.
Qed.

End Plan.
