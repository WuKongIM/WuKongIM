(* Proof/Presence_dir.v — directory-level invariant, preserved by every API call *)
From WK Require Import Base.Base Gen.Consts_C33 Model.Presence Proof.AckTracker_map Proof.Presence_map
     Proof.Presence_inv Proof.Presence_ops.
From Coq Require Import Permutation.
Open Scope N_scope.

Record DInv (d : directory) : Prop := {
  di_nodup : NoDup (al_keys (d_slots d));
  di_slots : forall hs s, nget hs (d_slots d) = Some s -> SInv s /\ g_hs (sl_target s) = hs }.

Lemma DInv_new l : DInv (NewDirectory l).
Proof. constructor; simpl; [constructor|discriminate]. Qed.

Lemma validate_some d g s :
  validateTargetLocked d g = Some s ->
  nget (g_hs g) (d_slots d) = Some s /\ sameAuthorityIdentity (sl_target s) g = true.
Proof.
  unfold validateTargetLocked. destruct (negb (d_local d =? 0) && negb (g_leader g =? d_local d)); [discriminate|].
  destruct (nget (g_hs g) (d_slots d)) as [s0|]; [|discriminate].
  destruct (sameAuthorityIdentity (sl_target s0) g) eqn:E; [|discriminate].
  intro H. inversion H. subst. auto.
Qed.

(* reduce the projections of a rebuilt directory, and nothing else *)
Ltac dproj := cbn [d_slots d_local d_touch d_expired put_slot LoseAuthority fst snd].

Lemma put_slot_inv d hs s :
  DInv d -> SInv s -> g_hs (sl_target s) = hs -> DInv (put_slot d hs s).
Proof.
  intros [H1 H2] I G. constructor; dproj.
  - apply n_set_nodup. exact H1.
  - intros hs' s'. destruct (N.eq_dec hs hs') as [E|E].
    + subst. rewrite n_get_set_same. intro X. inversion X. subst. auto.
    + rewrite n_get_set_other by exact E. apply H2.
Qed.

Lemma put_slot_get d hs s hs' :
  nget hs' (d_slots (put_slot d hs s)) = if hs' =? hs then Some s else nget hs' (d_slots d).
Proof.
  dproj. destruct (N.eqb_spec hs' hs) as [E|E].
  - subst. apply n_get_set_same.
  - apply n_get_set_other. congruence.
Qed.

Lemma expire_slots_get slots nowS nowN ttl hs :
  nget hs (fst (expire_slots slots nowS nowN ttl)) =
  match nget hs slots with
  | Some s => Some (fst (expireLocked s nowS nowN ttl))
  | None => None
  end.
Proof.
  induction slots as [|[h s] rest IH]; simpl; [reflexivity|].
  destruct (expireLocked s nowS nowN ttl) as [s' r1] eqn:E1.
  destruct (expire_slots rest nowS nowN ttl) as [rest' r2] eqn:E2. simpl in *.
  destruct (hs =? h); [rewrite E1; reflexivity|exact IH].
Qed.

Lemma expire_slots_keys slots nowS nowN ttl :
  al_keys (fst (expire_slots slots nowS nowN ttl)) = al_keys slots.
Proof.
  induction slots as [|[h s] rest IH]; simpl; [reflexivity|].
  destruct (expireLocked s nowS nowN ttl) as [s' r1].
  destruct (expire_slots rest nowS nowN ttl) as [rest' r2]. simpl in *. rewrite IH. reflexivity.
Qed.

Lemma expireLocked_keeps s nowS nowN ttl :
  SInv s -> SInv (fst (expireLocked s nowS nowN ttl))
            /\ sl_target (fst (expireLocked s nowS nowN ttl)) = sl_target s
            /\ sl_tomb (fst (expireLocked s nowS nowN ttl)) = sl_tomb s.
Proof.
  intro I. pose proof (expireLocked_spec s nowS nowN ttl I) as E.
  destruct (expireLocked s nowS nowN ttl) as [s' [[[[a b] c] e] f]]. simpl. tauto.
Qed.

(* What one call does to the installed slots.  BecomeAuthority and LoseAuthority
   install, refresh or drop a slot.  Every other call keeps the set of installed
   hash slots and each slot's target; it keeps the slot invariant; and it keeps
   each slot's fences, except that an accepted UnregisterRoute raises one fence of
   the slot it addresses. *)
Definition target_ok (d : directory) (g : target) : bool :=
  match validateTargetLocked d g with Some _ => true | None => false end.

Definition fences_after (d : directory) (o : op) (hs : N) (m : list (ikey * N)) : list (ikey * N) :=
  match o with
  | OUnregister g k q => if (hs =? g_hs g) && target_ok d g then raise_fence m k q else m
  | _ => m
  end.

Definition slots_kept (d : directory) (o : op) (d' : directory) : Prop :=
  NoDup (al_keys (d_slots d')) /\ d_local d' = d_local d
  /\ forall hs, match nget hs (d_slots d), nget hs (d_slots d') with
                | Some s, Some s' =>
                  SInv s' /\ sl_target s' = sl_target s /\ sl_tomb s' = fences_after d o hs (sl_tomb s)
                | None, None => True
                | _, _ => False
                end.

Lemma slots_kept_refl d o : DInv d -> (forall hs m, fences_after d o hs m = m) -> slots_kept d o d.
Proof.
  intros I F. split; [apply (di_nodup d I)|]. split; [reflexivity|]. intro hs.
  destruct (nget hs (d_slots d)) as [s|] eqn:G; [|exact Logic.I].
  rewrite F. split; [apply (di_slots d I _ _ G)|split; reflexivity].
Qed.

Lemma slots_kept_put d o g s s' :
  DInv d -> validateTargetLocked d g = Some s -> SInv s' -> sl_target s' = sl_target s ->
  sl_tomb s' = fences_after d o (g_hs g) (sl_tomb s) ->
  (forall hs m, hs <> g_hs g -> fences_after d o hs m = m) ->
  slots_kept d o (put_slot d (g_hs g) s').
Proof.
  intros I V IS T F FO. apply validate_some in V. destruct V as [V _].
  split; [apply n_set_nodup, (di_nodup d I)|]. split; [reflexivity|]. intro hs.
  rewrite put_slot_get. destruct (N.eqb_spec hs (g_hs g)) as [E|E].
  - subst hs. rewrite V. auto.
  - destruct (nget hs (d_slots d)) as [s0|] eqn:G; [|exact Logic.I].
    rewrite (FO hs _ E). split; [apply (di_slots d I _ _ G)|split; reflexivity].
Qed.

Definition slot_call (o : op) : bool := match o with OBecome _ | OLose _ => false | _ => true end.

Lemma slot_call_keeps d o : DInv d -> slot_call o = true -> slots_kept d o (fst (step d o)).
Proof.
  intros I L.
  assert (SLOT : forall g s, validateTargetLocked d g = Some s -> SInv s).
  { intros g s V. apply (di_slots d I (g_hs g)), (validate_some _ _ _ V). }
  (* fences_after is the identity, by computation, on every call but OUnregister *)
  destruct o; try discriminate L; cbn [step].
  - unfold RegisterRoute. destruct (validateTargetLocked d g) as [s|] eqn:V; [|apply (slots_kept_refl d); auto].
    pose proof (registerLocked_keeps s r (SLOT g s V)) as R. destruct (registerLocked s r) as [[[s' e] tok] acts].
    destruct R as [R1 [R2 R3]]. exact (slots_kept_put d (ORegister g r) g s s' I V R1 R3 R2 (fun _ _ _ => eq_refl)).
  - unfold CommitRoute. destruct (validateTargetLocked d g) as [s|] eqn:V; [|apply (slots_kept_refl d); auto].
    pose proof (commitRouteLocked_keeps s tok (SLOT g s V)) as R. destruct (commitRouteLocked s tok) as [s' e].
    destruct R as [R1 [R2 R3]]. exact (slots_kept_put d (OCommit g tok) g s s' I V R1 R3 R2 (fun _ _ _ => eq_refl)).
  - unfold AbortRoute. destruct (validateTargetLocked d g) as [s|] eqn:V; [|apply (slots_kept_refl d); auto].
    destruct (nget tok (sl_pending s)); [|apply (slots_kept_refl d); auto].
    apply (slots_kept_put d (OAbort g tok) g s _ I V); [|reflexivity|reflexivity|intros; reflexivity].
    apply (SInv_ext s); try reflexivity. exact (SLOT g s V).
  - unfold UnregisterRoute. destruct (validateTargetLocked d g) as [s|] eqn:V.
    2:{ apply (slots_kept_refl d); [exact I|]. intros hs m. unfold fences_after, target_ok. rewrite V, andb_false_r. reflexivity. }
    destruct (unregisterLocked_inv s k oseq (SLOT g s V)) as [R1 [R2 R3]].
    apply (slots_kept_put d (OUnregister g k oseq) g s _ I V R1 R2); unfold fences_after, target_ok.
    + rewrite V, N.eqb_refl. exact R3.
    + intros hs m E. apply N.eqb_neq in E. rewrite E. reflexivity.
  - unfold TouchRoutes. destruct (validateTargetLocked d g) as [s|] eqn:V; [|apply (slots_kept_refl d); auto].
    destruct (fold_touch_keeps rs s (SLOT g s V)) as [R1 [R2 R3]].
    exact (slots_kept_put d (OTouch g rs) g s _ I V R1 R3 R2 (fun _ _ _ => eq_refl)).
  - unfold ExpireRoutesDetailed.
    pose proof (expire_slots_get (d_slots d) nowS nowN ttl) as EG.
    pose proof (expire_slots_keys (d_slots d) nowS nowN ttl) as EK.
    destruct (expire_slots (d_slots d) nowS nowN ttl) as [slots' [[[[a b] c] e] f]]. unfold slots_kept. cbn [fst d_slots d_local] in *.
    split; [rewrite EK; apply (di_nodup d I)|]. split; [reflexivity|]. intro hs. rewrite EG.
    destruct (nget hs (d_slots d)) as [s|] eqn:G; [|exact Logic.I].
    apply expireLocked_keeps, (di_slots d I _ _ G).
  - destruct (EndpointsByUIDs d g uids). apply (slots_kept_refl d); auto.
  - destruct (EndpointsByUID d g uid). apply (slots_kept_refl d); auto.
  - apply (slots_kept_refl d); auto.
  - destruct (Snapshot d) as [[[[[a b] c] e] f] g]. apply (slots_kept_refl d); auto.
Qed.

Lemma step_inv d o : DInv d -> DInv (fst (step d o)).
Proof.
  intro I. destruct (slot_call o) eqn:L.
  { destruct (slot_call_keeps d o I L) as [ND [_ H]]. constructor; [exact ND|]. intros hs s' G. specialize (H hs).
    rewrite G in H. destruct (nget hs (d_slots d)) as [s|] eqn:G0; [|contradiction].
    destruct H as [H1 [H2 _]]. split; [exact H1|]. rewrite H2. apply (di_slots d I _ _ G0). }
  destruct o; try discriminate L; cbn [step fst].
  - unfold BecomeAuthority.
    destruct (nget (g_hs g) (d_slots d)) as [cur|] eqn:G.
    + destruct (sameAuthorityIdentity (sl_target cur) g).
      * destruct (g_rev (sl_target cur) <=? g_rev g); [|exact I].
        apply put_slot_inv; [exact I| |reflexivity].
        apply (SInv_ext cur); try reflexivity. apply (di_slots d I _ _ G).
      * apply put_slot_inv; [exact I|apply SInv_new|reflexivity].
    + apply put_slot_inv; [exact I|apply SInv_new|reflexivity].
  - constructor; dproj.
    + apply n_del_nodup. apply (di_nodup d I).
    + intros hs' s'. destruct (N.eq_dec hs hs') as [E|E].
      * subst. rewrite n_get_del_same. discriminate.
      * rewrite n_get_del_other by exact E. apply (di_slots d I).
Qed.

Lemma run_inv ops : forall d, DInv d -> DInv (fst (run d ops)).
Proof.
  induction ops as [|o rest IH]; intros d I; simpl; [exact I|].
  pose proof (step_inv d o I) as S. destruct (step d o) as [d1 r]. simpl in S.
  specialize (IH d1 S). destruct (run d1 rest) as [d' tr]. exact IH.
Qed.

Definition reachable (d : directory) : Prop := exists localNode ops, fst (run (NewDirectory localNode) ops) = d.

Lemma reachable_inv d : reachable d -> DInv d.
Proof. intros [l [ops E]]. subst. apply run_inv. apply DInv_new. Qed.
