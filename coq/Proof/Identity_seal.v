(* Proof/Identity_seal.v — what DeriveProposalEntries / SealProposalManifest
   produce: a chain bound to the manifest, every entry verifying against its own
   record; and the link between the C05 monitor and the Identity model. *)
From WK Require Import Base.Base Base.Lists Base.Bytes Gen.Consts_C05 Model.Identity Model.C05Case Proof.Identity.
Open Scope N_scope.

Lemma is_zero32_true b : is_zero32 b = true -> b = zero32.
Proof. unfold is_zero32. apply bytes_eqb_eq. Qed.

Definition mk_entry (m : manifest) (idx pt pi : N) (pd d : bytes) : entry :=
  Entry ProposalManifestVersion (m_epoch m) (m_term m) (m_fence m) idx pt pi (m_cmd m) pd d.

Definition all_true (l : list bool) : Prop := forallb (fun b => b) l = true.

Definition m_ok (m : manifest) : Prop :=
  m_epoch m <> 0 /\ m_term m <> 0 /\ m_fence m <> 0 /\ is_zero32 (m_cmd m) = false.

Definition pred_ok (pt pi : N) (pd : bytes) : Prop :=
  (pi = 0 -> pt = 0 /\ pd = zero32) /\ (pi <> 0 -> pt <> 0 /\ is_zero32 pd = false).

(* the guards of VerifyEntry hold for a derived entry and the record it was derived from *)
Lemma derived_guards m idx pt pi pd d r :
  m_ok m -> pred_ok pt pi pd -> idx < 18446744073709551616 -> pi + 1 = idx ->
  record_admissible (m_epoch m) idx r = true -> is_zero32 d = false ->
  verify_guards (mk_entry m idx pt pi pd d) r = true.
Proof.
  intros (M1 & M2 & M3 & M4) [P0 P1] I2 PI A Dz.
  unfold record_admissible in A. rewrite !andb_true_iff in A. destruct A as [[[A1 A2] A3] A4].
  apply negb_true_iff in A1. apply N.eqb_eq in A3. apply Z.ltb_lt in A4.
  unfold verify_guards, mk_entry.
  cbn [e_version e_epoch e_term e_fence e_index e_prev_term e_prev_index e_cmd e_prev_digest e_digest].
  rewrite N.eqb_refl. cbn [negb orb].
  apply N.eqb_neq in M1, M2, M3. rewrite M1, M2, M3. cbn [orb].
  assert (I0 : idx =? 0 = false) by (apply N.eqb_neq; lia). rewrite I0, M4, Dz. cbn [orb].
  unfold wrap64. rewrite PI, (N.mod_small idx _ I2), N.eqb_refl. cbn [negb orb].
  rewrite A1. cbn [orb].
  assert (A2' : negb (r_index r =? 0) && negb (r_index r =? idx) = false).
  { destruct (r_index r =? 0); [reflexivity|]. cbn [orb] in A2. rewrite A2. reflexivity. }
  rewrite A2'. cbn [orb]. rewrite A3, N.eqb_refl. cbn [negb orb].
  assert (A4' : (r_ts r <=? 0)%Z = false) by (apply Z.leb_gt; exact A4). rewrite A4'.
  destruct (pi =? 0) eqn:Pz.
  - apply N.eqb_eq in Pz. destruct (P0 Pz) as [-> ->]. reflexivity.
  - apply N.eqb_neq in Pz. destruct (P1 Pz) as [T Z]. apply N.eqb_neq in T. rewrite T, Z. reflexivity.
Qed.

Lemma manifest_domain_inv m : manifest_in_domain m = true ->
  u64 (m_epoch m) = true /\ u64 (m_term m) = true /\ u64 (m_fence m) = true /\ len32 (m_cmd m) = true
  /\ u64 (m_prev_term m) = true /\ u64 (m_prev_index m) = true /\ length (m_prev_digest m) = 32%nat.
Proof.
  unfold manifest_in_domain. intro MD. repeat (apply andb_prop in MD; destruct MD as [MD ?]).
  repeat split; try assumption. apply Nat.eqb_eq. assumption.
Qed.

Lemma mk_entry_domain m idx pt pi pd d :
  manifest_in_domain m = true -> idx < 18446744073709551616 -> u64 pt = true -> u64 pi = true ->
  length pd = 32%nat -> entry_in_domain (mk_entry m idx pt pi pd d) = true.
Proof.
  intros MD I T P L. destruct (manifest_domain_inv m MD) as (A1 & A2 & A3 & A8 & _).
  unfold entry_in_domain, mk_entry.
  cbn [e_epoch e_term e_fence e_index e_prev_term e_prev_index e_cmd e_prev_digest].
  rewrite A1, A2, A3, T, P, A8. unfold u64. apply N.ltb_lt in I. rewrite I.
  unfold len32. rewrite L. reflexivity.
Qed.

Lemma last_digest_last (es : list entry) dflt : es <> [] -> last_digest es = e_digest (last es dflt).
Proof.
  intro NE. destruct (exists_last NE) as (es' & e & ->).
  unfold last_digest. rewrite rev_app_distr, last_last. reflexivity.
Qed.

Lemma manifest_eqb_refl m : manifest_eqb m m = true.
Proof. unfold manifest_eqb. rewrite !N.eqb_refl, !bytes_eqb_refl. reflexivity. Qed.

Lemma pred_guard_ok base pt pd :
  (if base =? 0 then negb (pt =? 0) || negb (is_zero32 pd) else (pt =? 0) || is_zero32 pd) = false ->
  pred_ok pt base pd.
Proof.
  intro G. destruct (N.eqb_spec base 0) as [->|B]; apply orb_false_iff in G; destruct G as [T Z].
  - apply negb_false_iff in T, Z. apply N.eqb_eq in T. apply is_zero32_true in Z.
    split; [auto|intro NZ; contradiction NZ; reflexivity].
  - apply N.eqb_neq in T. split; [intro; contradiction|auto].
Qed.

Lemma chain_ok_m_irrel m d : forall es idx pt pi pd,
  chain_ok (manifest_with_digest m d) idx pt pi pd es = chain_ok m idx pt pi pd es.
Proof. induction es as [|e es IH]; intros; [reflexivity|]. cbn [chain_ok]. rewrite IH. reflexivity. Qed.

Section Seal.
  Variable H : bytes -> bytes.

  (* one iteration of the loop; below 2^64 the next index does not wrap *)
  Lemma derive_loop_cons m idx pt pi pd r rest es0 :
    idx + N.of_nat (length (r :: rest)) <= 18446744073709551616 ->
    derive_loop H m idx pt pi pd (r :: rest) = Some es0 ->
    let d := H (preimage (mk_entry m idx pt pi pd zero32) r) in
    exists es, es0 = mk_entry m idx pt pi pd d :: es
               /\ record_admissible (m_epoch m) idx r = true
               /\ idx < 18446744073709551616
               /\ idx + 1 + N.of_nat (length rest) <= 18446744073709551616
               /\ derive_loop H m (idx + 1) (m_term m) idx d rest = Some es.
  Proof.
    intro B. cbn [derive_loop]. destruct (record_admissible (m_epoch m) idx r); cbn [negb]; [|discriminate].
    cbv zeta. unfold digest_proposal_entry. cbn [with_digest e_version e_epoch e_term e_fence e_index
      e_prev_term e_prev_index e_cmd e_prev_digest e_digest].
    fold (mk_entry m idx pt pi pd zero32).
    destruct (derive_loop H m (wrap64 (idx + 1)) (m_term m) idx
                (H (preimage (mk_entry m idx pt pi pd zero32) r)) rest) as [es|] eqn:D; [|discriminate].
    intro E. inversion E. exists es. cbn [length] in B. repeat split; try lia.
    destruct rest; [exact D|]. unfold wrap64 in D. rewrite N.mod_small in D by (cbn [length] in B; lia). exact D.
  Qed.

  Lemma derive_loop_length rs : forall m idx pt pi pd es,
    idx + N.of_nat (length rs) <= 18446744073709551616 ->
    derive_loop H m idx pt pi pd rs = Some es -> length es = length rs.
  Proof.
    induction rs as [|r rest IH]; intros m idx pt pi pd es B D.
    - cbn in D. inversion D. reflexivity.
    - apply derive_loop_cons in D; [|exact B]. destruct D as (es' & -> & _ & _ & B' & D).
      cbn [length]. f_equal. exact (IH _ _ _ _ _ _ B' D).
  Qed.

  Lemma derive_loop_chain rs : forall m idx pt pi pd es,
    idx + N.of_nat (length rs) <= 18446744073709551616 ->
    derive_loop H m idx pt pi pd rs = Some es -> chain_ok m idx pt pi pd es = true.
  Proof.
    induction rs as [|r rest IH]; intros m idx pt pi pd es B D.
    - cbn in D. inversion D. reflexivity.
    - apply derive_loop_cons in D; [|exact B]. destruct D as (es' & -> & _ & _ & B' & D).
      cbn [chain_ok mk_entry e_version e_epoch e_term e_fence e_index e_prev_term e_prev_index e_cmd
           e_prev_digest e_digest].
      rewrite !N.eqb_refl, !bytes_eqb_refl. exact (IH _ _ _ _ _ _ B' D).
  Qed.

  Lemma is_zero32_zero32 : is_zero32 zero32 = true.
  Proof. reflexivity. Qed.

  (* every derived entry verifies against its own record, unless H maps some
     pre-image to the all-zero digest *)
  Lemma derive_loop_self rs : forall m idx pt pi pd es,
    m_ok m -> pred_ok pt pi pd -> pi + 1 = idx ->
    idx + N.of_nat (length rs) <= 18446744073709551616 ->
    derive_loop H m idx pt pi pd rs = Some es ->
    all_true (self_verify H es rs) \/ zero_image H.
  Proof.
    induction rs as [|r rest IH]; intros m idx pt pi pd es M P PI B D.
    - cbn in D. inversion D. left. reflexivity.
    - apply derive_loop_cons in D; [|exact B]. destruct D as (es' & -> & A & I2 & B' & D).
      set (d := H (preimage (mk_entry m idx pt pi pd zero32) r)) in *.
      destruct (is_zero32 d) eqn:Dz.
      { right. exists (preimage (mk_entry m idx pt pi pd zero32) r). apply is_zero32_true. exact Dz. }
      assert (V : verify_entry H (mk_entry m idx pt pi pd d) r = true).
      { apply verify_entry_iff. split; [apply derived_guards; assumption|reflexivity]. }
      assert (P' : pred_ok (m_term m) idx d).
      { split; [intro Z; lia|intros _; split; [apply M|exact Dz]]. }
      destruct (IH m (idx + 1) (m_term m) idx d es' M P' eq_refl B' D) as [S|Z]; [left|right; exact Z].
      unfold all_true in *. cbn [self_verify forallb]. rewrite V. exact S.
  Qed.

  (* derived entries carry the digest of (themselves, their record) and stay in the field domains *)
  Definition good_triple (t : triple) : Prop :=
    match t with
    | (e, r, d) => entry_in_domain e = true /\ record_in_domain r = true /\ d = H (preimage e r)
    end.

  Lemma binds_good a b : good_triple a -> good_triple b -> binds a b = true \/ collision H.
  Proof.
    destruct a as [[e r] d], b as [[e' r'] d']. cbn [good_triple binds].
    intros (De & Dr & ->) (De' & Dr' & ->).
    destruct (bytes_eqb (H (preimage e r)) (H (preimage e' r'))) eqn:E; [|left; reflexivity].
    apply bytes_eqb_eq in E. cbn [negb orb].
    destruct (digest_binds H e r e' r' De Dr De' Dr' E) as [C|C]; [left|right; exact C].
    apply content_eqb_iff. exact C.
  Qed.

  Lemma forallb_binds_good a l : good_triple a -> Forall good_triple l ->
    forallb (binds a) l = true \/ collision H.
  Proof.
    intros Ga Gl. induction Gl as [|b l Gb Gl IH]; [left; reflexivity|].
    cbn [forallb]. destruct (binds_good a b Ga Gb) as [B|C]; [|right; exact C].
    destruct IH as [I|C]; [|right; exact C]. left. rewrite B, I. reflexivity.
  Qed.

  Lemma all_pairs_binds_good l : Forall good_triple l -> all_pairs binds l = true \/ collision H.
  Proof.
    intro G. induction G as [|a l Ga Gl IH]; [left; reflexivity|].
    cbn [all_pairs]. destruct (forallb_binds_good a l Ga Gl) as [B|C]; [|right; exact C].
    destruct IH as [I|C]; [|right; exact C]. left. rewrite B, I. reflexivity.
  Qed.

  Lemma derive_proposal_entries_inv m rs es : derive_proposal_entries H m rs = Some es ->
    rs <> [] /\ m_base m + 1 + N.of_nat (length rs) <= 18446744073709551616 /\ m_ok m
    /\ m_prev_index m + 1 = m_base m + 1 /\ pred_ok (m_prev_term m) (m_prev_index m) (m_prev_digest m)
    /\ derive_loop H m (m_base m + 1) (m_prev_term m) (m_prev_index m) (m_prev_digest m) rs = Some es.
  Proof.
    unfold derive_proposal_entries. cbv zeta.
    destruct (N.of_nat (length rs) =? 0) eqn:C0; [discriminate|]. cbn [orb].
    destruct (u64max - m_base m <? N.of_nat (length rs)) eqn:C1; [discriminate|]. cbn [orb].
    destruct (m_version m =? ProposalManifestVersion); cbn [negb orb]; [|discriminate].
    destruct (m_epoch m =? 0) eqn:G1; [discriminate|]. cbn [orb].
    destruct (m_term m =? 0) eqn:G2; [discriminate|]. cbn [orb].
    destruct (m_fence m =? 0) eqn:G3; [discriminate|]. cbn [orb].
    destruct (is_zero32 (m_cmd m)) eqn:G4; [discriminate|]. cbn [orb].
    destruct (m_last m =? wrap64 (m_base m + N.of_nat (length rs))); cbn [negb orb]; [|discriminate].
    destruct (m_prev_index m =? m_base m) eqn:G5; cbn [negb]; [|discriminate].
    destruct (if m_base m =? 0 then negb (m_prev_term m =? 0) || negb (is_zero32 (m_prev_digest m))
              else (m_prev_term m =? 0) || is_zero32 (m_prev_digest m)) eqn:G6; [discriminate|].
    apply N.eqb_neq in C0, G1, G2, G3. apply N.ltb_ge in C1. apply N.eqb_eq in G5.
    (* u64max - base is a truncated subtraction: base <= u64max has to be read off C0, C1 first *)
    assert (BB : m_base m <= u64max).
    { destruct (N.le_gt_cases (m_base m) u64max) as [L|L]; [exact L|].
      exfalso. assert (u64max - m_base m = 0) by lia. lia. }
    assert (SUM : m_base m + 1 + N.of_nat (length rs) <= 18446744073709551616) by (unfold u64max in *; lia).
    unfold wrap64. rewrite N.mod_small by lia. rewrite G5. intro D.
    refine (conj _ (conj SUM (conj (conj G1 (conj G2 (conj G3 G4))) (conj eq_refl (conj (pred_guard_ok _ _ _ G6) D))))).
    intros ->. apply C0. reflexivity.
  Qed.

  Lemma in_domain_zero_digest m :
    manifest_in_domain (manifest_with_digest m zero32) = manifest_in_domain m.
  Proof. reflexivity. Qed.

  Lemma seal_inv m rs m' es : seal_proposal_manifest H m rs = Some (m', es) ->
    let m0 := manifest_with_digest m zero32 in
    es <> [] /\ length es = length rs
    /\ m_base m + 1 + N.of_nat (length rs) <= 18446744073709551616 /\ m_ok m0
    /\ m_prev_index m + 1 = m_base m + 1 /\ pred_ok (m_prev_term m) (m_prev_index m) (m_prev_digest m)
    /\ derive_loop H m0 (m_base m + 1) (m_prev_term m) (m_prev_index m) (m_prev_digest m) rs = Some es
    /\ m' = manifest_with_digest m0 (e_digest (last es (with_digest (Entry 0 0 0 0 0 0 0 [] [] []) zero32))).
  Proof.
    unfold seal_proposal_manifest. cbv zeta.
    destruct (derive_proposal_entries H (manifest_with_digest m zero32) rs) as [es0|] eqn:D; [|discriminate].
    intro E. inversion E; subst es0. clear E.
    destruct (derive_proposal_entries_inv _ _ _ D) as (NE & B & MOK & PIB & POK & LOOP).
    cbn [m_base m_prev_term m_prev_index m_prev_digest manifest_with_digest] in B, PIB, POK, LOOP.
    pose proof (derive_loop_length _ _ _ _ _ _ _ B LOOP) as LEN.
    refine (conj _ (conj LEN (conj B (conj MOK (conj PIB (conj POK (conj LOOP eq_refl))))))).
    intro E0. subst es. destruct rs; [congruence|discriminate].
  Qed.

  (* SealProposalManifest: every sealed entry verifies against its record *)
  Lemma sealed_entries_verify m rs m' es :
    seal_proposal_manifest H m rs = Some (m', es) ->
    length es = length rs /\ (all_true (self_verify H es rs) \/ zero_image H).
  Proof.
    intro S. destruct (seal_inv _ _ _ _ S) as (_ & LEN & B & MOK & PIB & POK & LOOP & _).
    split; [exact LEN|exact (derive_loop_self _ _ _ _ _ _ _ MOK POK PIB B LOOP)].
  Qed.

  (* SealProposalManifest: the entries form the chain the manifest describes and
     the sealed manifest is the input manifest with the tail's digest *)
  Lemma sealed_chain m rs m' es :
    seal_proposal_manifest H m rs = Some (m', es) ->
    chain_ok m (m_base m + 1) (m_prev_term m) (m_prev_index m) (m_prev_digest m) es = true
    /\ m_digest m' = last_digest es /\ manifest_with_digest m' (m_digest m) = m.
  Proof.
    intro S. destruct (seal_inv _ _ _ _ S) as (ENE & _ & B & _ & _ & _ & LOOP & ->).
    split; [rewrite <- (chain_ok_m_irrel m zero32); exact (derive_loop_chain _ _ _ _ _ _ _ B LOOP)|].
    split; [symmetry; apply last_digest_last; exact ENE|destruct m; reflexivity].
  Qed.

  Lemma self_verify_length : forall es rs, length es = length rs -> length (self_verify H es rs) = length es.
  Proof.
    induction es as [|e es IH]; intros [|r rs] L; try discriminate; [reflexivity|].
    cbn [self_verify length]. f_equal. apply IH. injection L. auto.
  Qed.

  Lemma seal_ok_model m rs prs : seal_ok (model_case H m rs prs) = true \/ zero_image H.
  Proof.
    unfold seal_ok, model_case. cbv zeta. cbn [c_seal c_manifest c_records c_self].
    destruct (seal_proposal_manifest H m rs) as [[m' es]|] eqn:S; [|left; reflexivity].
    destruct (sealed_entries_verify _ _ _ _ S) as [LEN [SV|Z]]; [left|right; exact Z].
    destruct (sealed_chain _ _ _ _ S) as (CH & LD & MW).
    rewrite LEN, Nat.eqb_refl, MW, manifest_eqb_refl, LD, bytes_eqb_refl, CH.
    rewrite (self_verify_length _ _ LEN), LEN, Nat.eqb_refl. exact SV.
  Qed.

  Lemma probe_ok_model er : probe_ok (model_probe H er) = true.
  Proof.
    unfold probe_ok, model_probe, verify_entry. cbn [p_verify p_entry p_record p_digest].
    apply Bool.eqb_true_iff. reflexivity.
  Qed.

  Section Len32.
  (* H returns 32 bytes: the derived PreviousDigest stays in its domain *)
  Hypothesis H_len : forall p, length (H p) = 32%nat.

  Lemma derive_loop_triples rs : forall m idx pt pi pd es,
    manifest_in_domain m = true -> Forall (fun r => record_in_domain r = true) rs ->
    u64 pt = true -> u64 pi = true -> length pd = 32%nat ->
    idx + N.of_nat (length rs) <= 18446744073709551616 ->
    derive_loop H m idx pt pi pd rs = Some es ->
    Forall good_triple (map (fun er => (fst er, snd er, e_digest (fst er))) (combine es rs)).
  Proof.
    induction rs as [|r rest IH]; intros m idx pt pi pd es MD RD T P L B D.
    - cbn in D. inversion D. constructor.
    - apply derive_loop_cons in D; [|exact B]. destruct D as (es' & -> & A & I2 & B' & D).
      inversion RD as [|? ? Rr Rrest]; subst.
      cbn [combine map fst snd]. constructor.
      + split; [apply mk_entry_domain; assumption|]. split; [exact Rr|reflexivity].
      + apply (IH _ _ _ _ _ _ MD Rrest) in D; [exact D| |apply N.ltb_lt, I2|apply H_len|exact B'].
        apply (manifest_domain_inv m MD).
  Qed.

  Definition pair_in_domain (er : entry * record) : Prop :=
    entry_in_domain (fst er) = true /\ record_in_domain (snd er) = true.

  (* C05: the monitor holds on every case the model produces, unless H exhibits a
     collision or a pre-image of the all-zero digest *)
  Lemma model_satisfies_monitor m rs prs :
    manifest_in_domain m = true -> Forall (fun r => record_in_domain r = true) rs ->
    Forall pair_in_domain prs ->
    C05_monitor (model_case H m rs prs) = 0 \/ collision H \/ zero_image H.
  Proof.
    intros MD RD PD. unfold C05_monitor.
    destruct (seal_ok_model m rs prs) as [S|Z]; [|right; right; exact Z]. rewrite S. cbn [andb].
    assert (P : forallb probe_ok (c_probes (model_case H m rs prs)) = true).
    { unfold model_case. cbv zeta. cbn [c_probes]. apply forallb_forall. intros p IN.
      apply in_map_iff in IN. destruct IN as (er & <- & _). apply probe_ok_model. }
    rewrite P. cbn [andb].
    assert (G : Forall good_triple (sealed_triples (model_case H m rs prs) ++ probe_triples (model_case H m rs prs))).
    { apply Forall_app. split.
      - unfold sealed_triples, model_case. cbv zeta. cbn [c_seal c_records].
        destruct (seal_proposal_manifest H m rs) as [[m' es]|] eqn:SE; [|constructor].
        destruct (seal_inv _ _ _ _ SE) as (_ & _ & B & _ & _ & _ & LOOP & _).
        destruct (manifest_domain_inv m MD) as (_ & _ & _ & _ & U1 & U2 & U3).
        exact (derive_loop_triples _ (manifest_with_digest m zero32) _ _ _ _ _ MD RD U1 U2 U3 B LOOP).
      - unfold probe_triples, model_case. cbv zeta. cbn [c_probes]. rewrite map_map.
        apply Forall_map. apply Forall_impl with (P := pair_in_domain); [|exact PD].
        intros [e r] [De Dr]. cbn [model_probe p_entry p_record p_digest fst snd good_triple].
        repeat split; assumption. }
    destruct (all_pairs_binds_good _ G) as [A|C]; [|right; left; exact C].
    rewrite A. left. reflexivity.
  Qed.

  End Len32.
End Seal.
