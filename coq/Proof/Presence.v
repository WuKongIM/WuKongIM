(* Proof/Presence.v — the clauses of C33 about the model of internal/runtime/presence: fencing and
   the commit condition for every state, the unregister fences, expiry and lookups for every
   directory (slot) that satisfies the invariant. *)
From WK Require Import Base.Base Gen.Consts_C33 Model.Presence Proof.AckTracker_map Proof.Presence_map
     Proof.Presence_inv Proof.Presence_ops Proof.Presence_dir.
From Coq Require Import Permutation Sorted.
Open Scope N_scope.

(* what "the target is not the installed authority" means *)
Lemma validate_none_iff d g :
  validateTargetLocked d g = None <->
  (d_local d <> 0 /\ g_leader g <> d_local d)
  \/ nget (g_hs g) (d_slots d) = None
  \/ exists s, nget (g_hs g) (d_slots d) = Some s /\ sameAuthorityIdentity (sl_target s) g = false.
Proof.
  unfold validateTargetLocked.
  destruct (negb (d_local d =? 0) && negb (g_leader g =? d_local d)) eqn:L.
  - split; [intros _; left|reflexivity]. apply andb_true_iff in L. rewrite !negb_true_iff, !N.eqb_neq in L. exact L.
  - assert (NL : ~ (d_local d <> 0 /\ g_leader g <> d_local d)).
    { rewrite <- !N.eqb_neq, <- !negb_true_iff, <- andb_true_iff, L. discriminate. }
    destruct (nget (g_hs g) (d_slots d)) as [s|]; [destruct (sameAuthorityIdentity (sl_target s) g) eqn:S|].
    + split; [discriminate|]. intros [H|[H|[s0 [H1 H2]]]]; [contradiction|discriminate|]. inversion H1. congruence.
    + split; [|reflexivity]. intros _. right. right. exists s. auto.
    + split; [|reflexivity]. auto.
Qed.

Lemma same_identity_iff l r :
  sameAuthorityIdentity l r = true <->
  g_hs l = g_hs r /\ g_slot l = g_slot r /\ g_leader l = g_leader r /\ g_term l = g_term r /\ g_epoch l = g_epoch r.
Proof. unfold sameAuthorityIdentity. rewrite !andb_true_iff, !N.eqb_eq. tauto. Qed.

Lemma sameAuthorityIdentity_false l r :
  sameAuthorityIdentity l r = false <->
  g_hs l <> g_hs r \/ g_slot l <> g_slot r \/ g_leader l <> g_leader r \/ g_term l <> g_term r \/ g_epoch l <> g_epoch r.
Proof. rewrite <- not_true_iff_false, same_identity_iff. lia. Qed.

Lemma fenced d o g :
  op_target o = Some g -> validateTargetLocked d g = None ->
  fst (step d o) = d /\ out_err (snd (step d o)) = Some ENotLeader
  /\ match snd (step d o) with
     | RRegister _ tok acts => tok = 0 /\ acts = []
     | RRoutes _ rs => rs = []
     | _ => True
     end.
Proof.
  intros T V. destruct o; simpl in T; try discriminate; inversion T; subst; cbn [step].
  - unfold RegisterRoute. rewrite V. simpl. auto.
  - unfold CommitRoute. rewrite V. simpl. auto.
  - unfold AbortRoute. rewrite V. simpl. auto.
  - unfold UnregisterRoute. rewrite V. simpl. auto.
  - unfold TouchRoutes. rewrite V. simpl. auto.
  - unfold EndpointsByUIDs. rewrite V. simpl. auto.
  - unfold EndpointsByUID. rewrite V. simpl. auto.
Qed.

Lemma active_above_fence d hs s k r t :
  DInv d -> nget hs (d_slots d) = Some s -> iget k (sl_active s) = Some r ->
  iget k (sl_tomb s) = Some t -> t < r_oseq r.
Proof.
  intros R G A T. destruct (di_slots d R _ _ G) as [I _].
  exact (proj1 (tombstoned_false_iff s k _) (sv_tomb s I _ _ A) t T).
Qed.

(* an op that does not end the authority tenure of hash slot hs *)
Definition keeps_tenure (hs : N) (cur : target) (o : op) : Prop :=
  match o with
  | OLose h => h <> hs
  | OBecome g => g_hs g = hs -> sameAuthorityIdentity cur g = true
  | _ => True
  end.

Lemma same_identity_trans a b c :
  sameAuthorityIdentity a b = true -> sameAuthorityIdentity b c = true -> sameAuthorityIdentity a c = true.
Proof. rewrite !same_identity_iff. intuition congruence. Qed.
Lemma same_identity_refl a : sameAuthorityIdentity a a = true.
Proof. apply same_identity_iff. auto 6. Qed.

Definition fence_ge (s : slot) (k : ikey) (q : N) : Prop := exists t, iget k (sl_tomb s) = Some t /\ q <= t.

Lemma fence_persists d o hs s k q :
  DInv d -> nget hs (d_slots d) = Some s -> fence_ge s k q -> keeps_tenure hs (sl_target s) o ->
  exists s', nget hs (d_slots (fst (step d o))) = Some s' /\ fence_ge s' k q
             /\ sameAuthorityIdentity (sl_target s) (sl_target s') = true.
Proof.
  intros I G F KT. destruct (slot_call o) eqn:L.
  { (* the slot stays under its target and a fence only rises *)
    destruct (slot_call_keeps d o I L) as [_ [_ H]]. specialize (H hs). rewrite G in H.
    destruct (nget hs (d_slots (fst (step d o)))) as [s'|]; [|contradiction]. destruct H as [_ [H2 H3]].
    exists s'. split; [reflexivity|]. split; [|rewrite H2; apply same_identity_refl].
    destruct F as [t [T1 T2]]. unfold fence_ge. rewrite H3. unfold fences_after.
    destruct o; try (exists t; auto; fail).
    destruct ((hs =? g_hs g) && target_ok d g); [|exists t; auto].
    rewrite raise_fence_get. destruct (ikey_eqb k0 k) eqn:E; [|exists t; auto].
    apply ikey_eqb_spec in E. subst k0. rewrite T1. eexists. split; [reflexivity|].
    destruct (t <? oseq) eqn:LT; [apply N.ltb_lt in LT; lia|exact T2]. }
  assert (STAY : exists s', nget hs (d_slots d) = Some s' /\ fence_ge s' k q
                            /\ sameAuthorityIdentity (sl_target s) (sl_target s') = true).
  { exists s. split; [exact G|]. split; [exact F|apply same_identity_refl]. }
  destruct o; try discriminate L; cbn [step fst]; simpl in KT.
  - unfold BecomeAuthority. destruct (N.eq_dec (g_hs g) hs) as [E|E].
    + subst hs. rewrite G. rewrite (KT eq_refl).
      destruct (g_rev (sl_target s) <=? g_rev g); [|exact STAY].
      rewrite put_slot_get, N.eqb_refl. eexists. split; [reflexivity|]. split; [exact F|]. simpl. apply (KT eq_refl).
    + assert (X : forall s1, exists s', nget hs (d_slots (put_slot d (g_hs g) s1)) = Some s' /\ fence_ge s' k q
                                       /\ sameAuthorityIdentity (sl_target s) (sl_target s') = true).
      { intro s1. rewrite put_slot_get. destruct (N.eqb_spec hs (g_hs g)); [congruence|exact STAY]. }
      destruct (nget (g_hs g) (d_slots d)) as [cur|]; [|apply X].
      destruct (sameAuthorityIdentity (sl_target cur) g); [|apply X].
      destruct (g_rev (sl_target cur) <=? g_rev g); [apply X|exact STAY].
  - simpl. rewrite n_get_del_other by exact KT. exact STAY.
Qed.

(* the tenure of the authority identity [cur] of hash slot hs lasts through ops *)
Fixpoint tenure_lasts (hs : N) (cur : target) (ops : list op) : Prop :=
  match ops with
  | [] => True
  | o :: rest => keeps_tenure hs cur o /\ tenure_lasts hs cur rest
  end.

Lemma keeps_tenure_same hs a b o :
  sameAuthorityIdentity a b = true -> keeps_tenure hs a o -> keeps_tenure hs b o.
Proof.
  intros S. destruct o; simpl; auto. intros H E. specialize (H E).
  rewrite same_identity_iff in *. intuition congruence.
Qed.

Lemma tenure_lasts_same hs a b ops :
  sameAuthorityIdentity a b = true -> tenure_lasts hs a ops -> tenure_lasts hs b ops.
Proof.
  intro S. induction ops as [|o rest IH]; simpl; [auto|]. intros [H1 H2].
  split; [eapply keeps_tenure_same; eassumption|apply IH; exact H2].
Qed.

Lemma fence_persists_run ops : forall d hs s k q,
  DInv d -> nget hs (d_slots d) = Some s -> fence_ge s k q -> tenure_lasts hs (sl_target s) ops ->
  exists s', nget hs (d_slots (fst (run d ops))) = Some s' /\ fence_ge s' k q.
Proof.
  induction ops as [|o rest IH]; intros d hs s k q I G F T.
  - simpl. exists s. auto.
  - simpl in T. destruct T as [T1 T2]. cbn [run].
    destruct (fence_persists d o hs s k q I G F T1) as [s1 [G1 [F1 S1]]].
    pose proof (step_inv d o I) as I1. destruct (step d o) as [d1 r]. simpl in *.
    destruct (IH d1 hs s1 k q I1 G1 F1 (tenure_lasts_same _ _ _ _ S1 T2)) as [s' [G' F']].
    destruct (run d1 rest) as [d' tr]. simpl in *. exists s'. auto.
Qed.

(* after an accepted UnregisterRoute(id, q), for as long as the authority identity
   of the hash slot lasts, id is active only with an owner sequence above q *)
Lemma tombstone_post d g k q ops :
  DInv d -> validateTargetLocked d g <> None ->
  let d1 := fst (UnregisterRoute d g k q) in
  forall s1, nget (g_hs g) (d_slots d1) = Some s1 ->
  tenure_lasts (g_hs g) (sl_target s1) ops ->
  forall s2 r, nget (g_hs g) (d_slots (fst (run d1 ops))) = Some s2 ->
               iget k (sl_active s2) = Some r -> q < r_oseq r.
Proof.
  intros I V d1 s1 G1 T s2 r G2 A.
  assert (I1 : DInv d1).
  { pose proof (step_inv d (OUnregister g k q) I) as X. cbn [step] in X.
    unfold d1. destruct (UnregisterRoute d g k q). exact X. }
  assert (F1 : fence_ge s1 k q).
  { unfold d1, UnregisterRoute in G1. destruct (validateTargetLocked d g) as [s0|] eqn:V0; [|contradiction].
    cbn [fst] in G1. rewrite put_slot_get, N.eqb_refl in G1. inversion G1. subst s1.
    destruct (di_slots d I _ _ (proj1 (validate_some _ _ _ V0))) as [IS _].
    destruct (unregisterLocked_inv s0 k q IS) as [_ [_ R3]]. unfold fence_ge. rewrite R3, raise_fence_get, ikey_eqb_refl.
    eexists. split; [reflexivity|]. destruct (iget k (sl_tomb s0)) as [t|]; [|lia].
    destruct (t <? q) eqn:L; [lia|apply N.ltb_ge in L; exact L]. }
  destruct (fence_persists_run ops d1 (g_hs g) s1 k q I1 G1 F1 T) as [s2' [G2' [t [T1 T2]]]].
  rewrite G2 in G2'. inversion G2'. subst s2'.
  pose proof (active_above_fence _ _ _ _ _ _ (run_inv ops d1 I1) G2 A T1). lia.
Qed.

Lemma tombstone d g k q ops :
  reachable d -> validateTargetLocked d g <> None ->
  let d1 := fst (UnregisterRoute d g k q) in
  forall s1, nget (g_hs g) (d_slots d1) = Some s1 ->
  tenure_lasts (g_hs g) (sl_target s1) ops ->
  forall s2 r, nget (g_hs g) (d_slots (fst (run d1 ops))) = Some s2 ->
               iget k (sl_active s2) = Some r -> q < r_oseq r.
Proof. intro R. exact (tombstone_post d g k q ops (reachable_inv d R)). Qed.

Lemma expire_exact d nowS nowN ttl :
  DInv d ->
  let d' := fst (ExpireRoutesDetailed d nowS nowN ttl) in
  forall hs, match nget hs (d_slots d), nget hs (d_slots d') with
             | Some s, Some s' =>
               sl_active s' = filter (fun kr : ikey * route => negb (route_due nowS nowN ttl (snd kr))) (sl_active s)
               /\ sl_target s' = sl_target s /\ sl_tomb s' = sl_tomb s
             | None, None => True
             | _, _ => False
             end.
Proof.
  intros R d' hs. unfold d', ExpireRoutesDetailed.
  pose proof (expire_slots_get (d_slots d) nowS nowN ttl hs) as EG.
  destruct (expire_slots (d_slots d) nowS nowN ttl) as [slots' [[[[a b] c] e] f]]. simpl in *.
  rewrite EG. destruct (nget hs (d_slots d)) as [s|] eqn:G; [|exact I].
  destruct (di_slots d R _ _ G) as [IS _].
  pose proof (expireLocked_spec s nowS nowN ttl IS) as E.
  destruct (expireLocked s nowS nowN ttl) as [s' [[[[a1 b1] c1] e1] f1]]. simpl. tauto.
Qed.

Lemma flat_routes_keys (act : list (ikey * route)) ks :
  (forall k, In k ks -> exists r, iget k act = Some r /\ makeRouteIdentityKey r = k) ->
  map makeRouteIdentityKey (flat_map (fun k => match iget k act with Some r => [r] | None => [] end) ks) = ks.
Proof.
  induction ks as [|k rest IH]; intro H; simpl; [reflexivity|].
  destruct (H k (or_introl eq_refl)) as [r [G K]]. rewrite G. simpl. rewrite K. f_equal.
  apply IH. intros k' Hk. apply H. right. exact Hk.
Qed.

(* the routes of one uid: exactly the active routes of that uid, strictly
   increasing by (uid, session, node, boot) *)
Lemma endpoints_sorted s u :
  SInv s ->
  Permutation (endpointsByUIDLocked s u) (map snd (filter (fun kr : ikey * route => r_uid (snd kr) =? u) (sl_active s)))
  /\ StronglySorted (fun a b => lessIdentityKey (makeRouteIdentityKey a) (makeRouteIdentityKey b) = true)
                    (endpointsByUIDLocked s u).
Proof.
  intro I. unfold endpointsByUIDLocked, sortRoutes.
  set (L := flat_map (fun k => match iget k (sl_active s) with Some r => [r] | None => [] end) (uid_keys u s)).
  assert (KEYS : map makeRouteIdentityKey L = uid_keys u s).
  { unfold L. apply flat_routes_keys. intros k Hk. apply (sv_by_proj s I) in Hk. destruct Hk as [r [G _]].
    exists r. split; [exact G|apply (sv_act_key s I _ _ G)]. }
  assert (NDK : NoDup (map makeRouteIdentityKey L)) by (rewrite KEYS; apply (sv_by_nodup s I)).
  split.
  - eapply Permutation_trans; [apply sort_lt_perm|].
    apply NoDup_Permutation.
    + apply (NoDup_map_inv _ _ NDK).
    + assert (Y : map (fun kr : ikey * route => makeRouteIdentityKey (snd kr))
                      (filter (fun kr : ikey * route => r_uid (snd kr) =? u) (sl_active s))
                  = al_keys (filter (fun kr : ikey * route => r_uid (snd kr) =? u) (sl_active s))).
      { unfold al_keys. apply map_ext_in. intros [k r] Hin. apply filter_In in Hin. destruct Hin as [Hin _]. simpl.
        apply (sv_act_key s I). apply (i_in_get _ _ _ (sv_act_nodup s I) Hin). }
      apply (NoDup_map_inv makeRouteIdentityKey). rewrite map_map. rewrite Y.
      apply al_filter_nodup. apply (sv_act_nodup s I).
    + intro r. split.
      * intro Hr. unfold L in Hr. apply in_flat_map in Hr. destruct Hr as [k [Hk Hr]].
        destruct (iget k (sl_active s)) as [r'|] eqn:G; [|destruct Hr]. destruct Hr as [Hr|[]]. subst r'.
        apply (sv_by_proj s I) in Hk. destruct Hk as [r2 [G2 U2]]. rewrite G in G2. inversion G2. subst r2.
        apply in_map_iff. exists (k, r). split; [reflexivity|]. apply filter_In. split; [apply (i_get_some_in _ _ _ G)|].
        simpl. apply N.eqb_eq. exact U2.
      * intro Hr. apply in_map_iff in Hr. destruct Hr as [[k r'] [E Hin]]. simpl in E. subst r'.
        apply filter_In in Hin. destruct Hin as [Hin U]. simpl in U. apply N.eqb_eq in U.
        pose proof (i_in_get _ _ _ (sv_act_nodup s I) Hin) as G.
        unfold L. apply in_flat_map. exists k. split.
        -- apply (sv_by_proj s I). exists r. auto.
        -- rewrite G. left. reflexivity.
  - apply (sort_lt_sorted makeRouteIdentityKey). exact NDK.
Qed.

(* a pending route is promoted only when every current conflict was acknowledged *)
Lemma conflict_commit s tok s' :
  commitRouteLocked s tok = (s', EOk) ->
  exists r acked, nget tok (sl_pending s) = Some (r, acked)
                  /\ forall ck, In ck (conflictsLocked s r) -> In ck acked.
Proof.
  unfold commitRouteLocked. destruct (nget tok (sl_pending s)) as [[r acked]|]; [|discriminate].
  destruct (tombstoned s (makeRouteIdentityKey r) (r_oseq r)); [discriminate|].
  destruct (r_oseq r <? seq_of (makeRouteIdentityKey r) (sl_ownerSeq s)); [discriminate|].
  destruct (forallb (fun ck => mem_key ck acked) (conflictsLocked s r)) eqn:F; simpl; [|discriminate].
  intros _. exists r, acked. split; [reflexivity|]. intros ck Hck.
  rewrite forallb_forall in F. apply mem_key_in. apply F. exact Hck.
Qed.
