(* Proof/ClusterCodec_Channels.v — pkg/cluster/channels/codec.go: the frame
   theorems (for EVERY frame format at once: they are instances of the generic
   theorems); every count of the fourteen modelled frames is checked against the
   remaining input ([channels_frames_capped]), hence bounded allocation; and
   Message.SyncOnce, which the wire does not carry (finding C27-K1: its witness). *)
From WK Require Import Base.Base Base.Bytes Gen.Consts_C27.
From WK Require Import Model.ClusterCodecBase Model.ClusterCodec_Channels Proof.ClusterCodecBase.
From Coq Require Import ZifyBool ZifyN ZifyNat.
Open Scope N_scope.

Lemma encode_frame_some {A} (f : fmt (N * A)) vx e :
  encode_frame f vx = Some e -> e = encode f vx /\ version_writable (fst vx) = true.
Proof.
  unfold encode_frame. destruct (version_writable (fst vx)); [|discriminate].
  intro H. injection H as <-. split; reflexivity.
Qed.

Theorem frame_roundtrip : forall A (f : fmt (N * A)) vx e,
  wf f vx = true -> encode_frame f vx = Some e -> decode_frame f e = Some vx.
Proof.
  intros A f vx e W E. apply encode_frame_some in E. destruct E as [-> _].
  apply decode_full_encode. exact W.
Qed.

Theorem frame_truncation_rejected : forall A (f : fmt (N * A)) vx e p s,
  wf f vx = true -> encode_frame f vx = Some e -> e = p ++ s -> s <> [] -> decode_frame f p = None.
Proof.
  intros A f vx e p s W E Hp Hs. apply encode_frame_some in E. destruct E as [-> _].
  eapply truncation_rejected; eassumption.
Qed.

Theorem frame_trailing_rejected : forall A (f : fmt (N * A)) vx e s,
  wf f vx = true -> encode_frame f vx = Some e -> s <> [] -> decode_frame f (e ++ s) = None.
Proof.
  intros A f vx e s W E Hs. apply encode_frame_some in E. destruct E as [-> _].
  apply trailing_rejected; assumption.
Qed.

Theorem frame_version_refused : forall A (f : fmt (N * A)) vx,
  version_writable (fst vx) = false -> encode_frame f vx = None.
Proof. intros A f vx H. unfold encode_frame. rewrite H. reflexivity. Qed.

Theorem request_frame_version_known : forall A kind (body : N -> fmt A) data v x,
  decode_frame (request_frame kind body) data = Some (v, x) -> version_known v = true.
Proof.
  intros A kind body data v x H. unfold decode_frame, request_frame, FMap in H.
  apply decode_full_inv, decode_FMapD_inv in H. destruct H as ([[a k] y] & H & E). injection E as -> _.
  apply decode_FBind_inv in H. destruct H as (t & H & _).
  apply decode_FGuard_inv in H. destruct H as [_ G]. apply andb_true_iff in G. exact (proj1 G).
Qed.

Lemma readMessage_capped ver : capped true 0 (readMessage ver).
Proof. fmt_ok. Qed.
Lemma readRecord_capped ver : capped true 0 (readRecord ver).
Proof. fmt_ok. Qed.
Lemma readMeta_capped ver : capped true 0 (readMeta ver).
Proof. fmt_ok. Qed.

(* a frame is capped when its body is, at every version *)
Lemma request_frame_capped {A} kind (body : N -> fmt A) :
  (forall ver, capped true 0 (body ver)) -> capped true 0 (request_frame kind body).
Proof. intro H. fmt_ok. Qed.
Lemma result_frame_capped {A} kind (body : N -> fmt A) :
  (forall ver, capped true 0 (body ver)) -> capped true 0 (result_frame kind body).
Proof. intro H. fmt_ok. Qed.
(* exported: [channels_frames_capped] and any later frame are checked with these *)
#[export] Hint Resolve readMessage_capped readRecord_capped readMeta_capped request_frame_capped result_frame_capped : fmt.

Lemma channels_frames_capped :
  capped true 0 f_pull /\ capped true 0 f_pull_batch /\ capped true 0 f_ack /\ capped true 0 f_pull_hint
  /\ capped true 0 f_pull_hint_batch /\ capped true 0 f_notify /\ capped true 0 f_append
  /\ capped true 0 f_append_batch /\ capped true 0 f_last_visible /\ capped true 0 f_conversation_heads
  /\ capped true 0 f_committed_reads /\ capped true 0 f_pull_response /\ capped true 0 f_append_response
  /\ capped true 0 f_last_visible_response.
Proof. do 13 (split; [fmt_ok|]). fmt_ok. Qed.

(* For a format whose counts are all checked against the remaining input: every
   make([]T, n) has n <= |input| and every byte copy is no longer than the input. *)
Theorem channels_alloc_bounded : forall A (f : fmt A) data,
  capped true 0 f ->
  Forall (fun a => match a with AList n => n <= blen data | ABytes n => n <= blen data end) (allocs f data).
Proof.
  intros A f data H. pose proof (allocs_bounded A f true 0 data H) as B.
  eapply Forall_impl; [|exact B]. intros [n|n]; cbn; lia.
Qed.

(* appendMessage writes the same bytes whatever Message.SyncOnce is ... *)
Lemma message_sync_once_not_encoded ver m :
  encode (readMessage ver) m =
  encode (readMessage ver)
         (CMessage (cm_id m) (cm_seq m) (cm_channel_id m) (cm_channel_type m) (cm_setting m) (cm_from_uid m)
                   (cm_client_msg_no m) (cm_ts m) (cm_trace_id m) (cm_channel_key m) false (cm_payload m)).
Proof. destruct m. reflexivity. Qed.

(* ... and readMessage never returns a message with SyncOnce set *)
Lemma message_decoded_sync_once_false ver data m r :
  decode (readMessage ver) data = Some (m, r) -> cm_sync_once m = false.
Proof.
  unfold readMessage. intro H. apply decode_FMapD_inv in H. destruct H as (t & _ & ->).
  destruct t as (i & s & c & t & u & n & ts & st & tr & k & p). reflexivity.
Qed.

(* the witness of C27-K1, as in corpus/C27/k1_append_batch_synconce.json: a forwarded
   append batch whose only message is a sync-once command comes back without the flag *)
Definition k1_message (sync : bool) : cmessage :=
  CMessage 7 0 [] 0 0 (hx "7531") (hx "6331") 1%Z [] [] sync (Some (hx "636d64")).
Definition k1_request (sync : bool) : N * append_batch_request :=
  (codecVersion, AppendBatchRequest (ChanId (hx "6731") 2) (Some [k1_message sync]) [] [] 0%Z 0 0 0 false false).

Theorem append_batch_sync_once_lost :
  exists e, encode_frame f_append_batch (k1_request true) = Some e
            /\ decode_frame f_append_batch e = Some (k1_request false)
            /\ k1_request false <> k1_request true.
Proof.
  eexists. split; [vm_compute; reflexivity|]. split; [vm_compute; reflexivity|].
  intro H. inversion H.
Qed.
