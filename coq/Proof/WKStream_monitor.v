(* Proof/WKStream_monitor.v — C23: the monitor evaluated on implementation traces
   accepts every trace the model produces. *)
From WK Require Import Base.Base Base.Bytes Base.Lists Gen.Consts_C22 Model.WKProto Model.WKStream.
From WK Require Import Proof.WKProto Proof.WKProto_types Proof.WKProto_frame Proof.WKStream Proof.WKStream_feed.
From Coq Require Import ZifyBool ZifyN ZifyNat.
Open Scope N_scope.

(* the case the model itself produces for an input *)
Definition raw_of_step (s : step_obs) : step_raw := StepR (st_batches s) (InBytes (st_inbound s)) (st_closed s).

Definition model_case (sv : option N) (limit : N) (frames : list frame) (chunks : list bytes) : c23_case :=
  let v := sessionVersion_inbound sv in
  C23Case sv limit frames (map (fun f => EncLit (EncodeFrame f v)) frames) chunks
          (Adapter_Decode sv (concat chunks))
          (map raw_of_step (feed_obs limit sv gw_init chunks))
          true.

Lemma resolve_raw : forall steps chunks received,
  resolve_steps chunks (map raw_of_step steps) received = steps.
Proof.
  induction steps as [|s ss IH]; intros chunks received; [reflexivity|].
  cbn [map resolve_steps raw_of_step sr_batches sr_inbound sr_closed resolve_inb].
  rewrite IH. destruct s; reflexivity.
Qed.

Lemma feed_obs_length limit sv : forall chunks st, length (feed_obs limit sv st chunks) = length chunks.
Proof.
  induction chunks as [|c cs IH]; intro st; [reflexivity|].
  cbn [feed_obs]. destruct (onData limit sv st c) as [st1 b]. cbn [length]. rewrite IH. reflexivity.
Qed.

Lemma closed_stays_feed limit sv : forall chunks st flag,
  (flag = true -> gw_closed st = true) ->
  closed_stays (feed_obs limit sv st chunks) flag = true.
Proof.
  induction chunks as [|c cs IH]; intros st flag H; [reflexivity|].
  cbn [feed_obs]. destruct (onData limit sv st c) as [st1 b] eqn:OD.
  cbn [closed_stays st_closed st_batches].
  rewrite (IH st1 (gw_closed st1)) by (intro; assumption). rewrite andb_true_r.
  destruct flag; [|reflexivity].
  specialize (H eq_refl). unfold onData in OD. rewrite H in OD. inversion OD; subst. rewrite H. reflexivity.
Qed.

Lemma sum_len_concat l : sum_len l = blen (concat l).
Proof.
  induction l as [|a r IH]; [reflexivity|].
  cbn [sum_len fold_right concat]. fold (sum_len r). rewrite IH, blen_app. reflexivity.
Qed.

Lemma firstn_map_app {A B} (g : A -> B) (a b : list A) :
  firstn (length a) (map g (a ++ b)) = map g a.
Proof. rewrite map_app, <- (map_length g a). apply firstn_app_exact. Qed.

Lemma types_ok_decoded v fs tl : types_ok (decoded v fs tl) = true.
Proof.
  unfold types_ok. induction fs as [|f r IH]; [reflexivity|].
  cbn [decoded forallb fst snd m_type]. rewrite IH, andb_true_r. destruct f; apply N.eqb_refl.
Qed.

Section Valid.
Variable sv : option N.
Variable limit : N.
Let v : N := sessionVersion_inbound sv.

(* stated for any frames [done] already dispatched, so that the induction goes through: [got] is their normalisation, the bytes
   received are their encodings plus the buffered p0; rem and p0 satisfy the invariant of feed_step *)
Lemma valid_steps_feed : forall chunks done rem p0,
  all_within v rem ->
  pending v p0 rem ->
  p0 ++ concat chunks = stream_of v rem ->
  limit_ok limit (blen (stream_of v rem)) ->
  valid_steps_ok (map (normalize v) (done ++ rem)) (map (enc v) (done ++ rem)) chunks
                 (feed_obs limit sv (GW p0 false false) chunks)
                 (map (normalize v) done) (blen (stream_of v done) + blen p0) = true.
Proof.
  induction chunks as [|c cs IH]; intros done rem p0 W P E L.
  - cbn [concat] in E. rewrite app_nil_r in E.
    destruct (pending_all v p0 rem P E) as [-> ->]. rewrite app_nil_r.
    apply list_eqb_refl, frame_eqb_refl.
  - destruct (feed_step sv limit p0 c cs rem W P E L) as (mid & rem2 & p & -> & A & OD & W2 & P2 & E2 & L2).
    fold v in A, OD. cbn [feed_obs]. rewrite OD.
    cbn [valid_steps_ok gw_closed gw_inbound st_closed st_batches st_inbound negb andb].
    replace (concat (batch sv mid p)) with (decoded v mid (blen p))
      by (destruct mid; [reflexivity|symmetry; apply app_nil_r]).
    rewrite map_fst_decoded, <- map_app, types_ok_decoded, map_length.
    (* expected / encodings split at done ++ mid *)
    rewrite (app_assoc done mid rem2), !firstn_map_app, sum_len_concat.
    fold (stream_of v (done ++ mid)). unfold frames_eqb at 1. rewrite list_eqb_refl by exact frame_eqb_refl.
    assert (Ar : blen (stream_of v (done ++ mid)) + blen p = blen (stream_of v done) + blen p0 + blen c).
    { rewrite stream_of_app, blen_app. apply (f_equal blen) in A. rewrite !blen_app in A. lia. }
    rewrite Ar, N.eqb_refl, <- Ar, (IH (done ++ mid) rem2 p W2 P2 E2 L2), andb_true_r. cbn [andb].
    (* the last chunk leaves nothing buffered *)
    destruct cs; [|reflexivity]. cbn [concat] in E2. rewrite app_nil_r in E2.
    destruct (pending_all v p rem2 P2 E2) as [-> _]. reflexivity.
Qed.

End Valid.

Lemma encs_bytes_EncodeFrame v : forall frames bs,
  forallb (within_limits v) frames = true ->
  encs_bytes (map (fun f => EncodeFrame f v) frames) = Some bs -> bs = map (enc v) frames.
Proof.
  induction frames as [|f r IH]; intros bs W H.
  - injection H as <-. reflexivity.
  - cbn [forallb] in W. apply andb_prop in W. destruct W as [Wf Wr].
    cbn [map encs_bytes] in H. rewrite (EncodeFrame_ok v f Wf) in H.
    destruct (encs_bytes _) as [bs'|] eqn:E; [|discriminate].
    injection H as <-. cbn [map]. rewrite (IH bs' Wr eq_refl). reflexivity.
Qed.

Lemma model_steps sv limit frames chunks :
  c23_steps (model_case sv limit frames chunks) = feed_obs limit sv gw_init chunks.
Proof. apply resolve_raw. Qed.

Lemma model_safety sv limit frames chunks : safety_ok (model_case sv limit frames chunks) = true.
Proof.
  unfold safety_ok. rewrite model_steps, closed_stays_feed, feed_obs_length, Nat.eqb_refl by discriminate.
  cbn [model_case c23_whole c23_chunks c23_detach]. unfold Adapter_Decode.
  pose proof (adapter_loop_safe (length (concat chunks)) (concat chunks) (sessionVersion_inbound sv)) as T.
  destruct (adapter_loop _ _ _); [|reflexivity|destruct T]. apply N.leb_le in T. rewrite T. reflexivity.
Qed.

(* a valid stream, for the case the model produces: the encodings are the model's, the claimed
   frames are within limits, the chunks are their concatenation and fit the inbound limit *)
Lemma model_valid_stream sv limit frames chunks bs : let v := sessionVersion_inbound sv in
  valid_stream (model_case sv limit frames chunks) = Some bs ->
  bs = map (enc v) frames /\ all_within v frames
  /\ concat chunks = stream_of v frames /\ limit_ok limit (blen (stream_of v frames)).
Proof.
  intro v. unfold valid_stream, c23_encs, model_case.
  cbn [c23_chunks c23_encs_raw c23_sv c23_frames c23_limit]. rewrite map_map. cbn [resolve_enc]. fold v.
  destruct (encs_bytes _) as [bs'|] eqn:EB; [|discriminate].
  destruct (forallb (within_limits v) frames) eqn:W; [|discriminate].
  rewrite (encs_bytes_EncodeFrame v frames bs' W EB). clear EB bs'. cbn [andb].
  destruct (_ =? _)%nat; [|discriminate]. cbn [andb]. fold (stream_of v frames).
  destruct (bytes_eqb _ _) eqn:BE; [|discriminate]. destruct (_ || _) eqn:LM; [|discriminate].
  intro E. injection E as <-. apply bytes_eqb_eq in BE. apply all_within_forallb in W.
  repeat split; try assumption. apply orb_prop in LM. destruct LM; [left|right]; lia.
Qed.

Theorem model_satisfies_monitor sv limit frames chunks :
  C23_monitor (model_case sv limit frames chunks) = 0.
Proof.
  unfold C23_monitor. rewrite model_safety. cbn [negb].
  destruct (valid_stream _) as [bs|] eqn:VS; [|reflexivity].
  destruct (model_valid_stream sv limit frames chunks bs VS) as (-> & W & BE & LO).
  rewrite model_steps. cbn [model_case c23_sv c23_frames c23_whole c23_chunks].
  set (v := sessionVersion_inbound sv) in *.
  (* the whole buffer, then the steps *)
  pose proof (Adapter_Decode_frames sv frames [] W (or_introl eq_refl)) as AD. fold v in AD.
  rewrite app_nil_r in AD. rewrite BE, AD, map_fst_decoded, N.eqb_refl.
  unfold frames_eqb at 1. rewrite list_eqb_refl by exact frame_eqb_refl. cbn [andb].
  replace (valid_steps_ok _ _ _ _ _ _) with true; [reflexivity|].
  symmetry. exact (valid_steps_feed sv limit chunks [] frames [] W (or_introl eq_refl) BE LO).
Qed.
