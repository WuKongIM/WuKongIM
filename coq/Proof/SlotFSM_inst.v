(* Proof/SlotFSM_inst.v — the slot state machine of Model/SlotFSM.v satisfies the hypotheses
   of the overlay theorem (Proof/SlotFSM_machine.v) on the command family

     good_cmd:  noop | upsert_user (valid uid) | create_user | enter_fence | ack |
                apply_delta (valid replay key) of noop / upsert_user / create_user /
                enter_fence / ack / cleanup

   for EVERY runtime configuration (owned hash slots, legacy default, outgoing
   migrations), so that every batch partition of such a log whose one-per-batch run returns
   results gives the same per-command
   results, the same forwarded deltas and the same tables (users, channel-migration
   tables, hash-slot migration states, outbox, applied-delta records).  Not in the
   family, because the code that exists is not batch-transparent on them (refutations in
   Proof/SlotFSM_refuted.v): the channel-migration commands (C13-K1/K2/K3/K5) and the
   outbox cleanup command (C13-K4). *)
From WK Require Import Base.Base.
From WK Require Import Gen.Consts_C15 Gen.Consts_C17 Gen.Consts_C13.
From WK Require Import Model.RuntimeMeta Model.ChanMigration Model.SlotFSM Proof.SlotFSM_machine.
Open Scope N_scope.

(* [inner_ok]: the original command of an apply_delta.  Inside a delta only the validation of
   the command runs (a mismatching hash slot is a fatal error, which would leave a delta with a
   valid key unapplied), its maintenance staging does not; so fence / ack / cleanup are good there
   exactly when they validate.  At top level a mismatching fence is a fatal error that does not
   depend on the state (allowed by the overlay theorem), and cleanup is finding C13-K4. *)
Definition inner_ok (hs : N) (c : hcmd) : bool :=
  match c with
  | HNoop => true
  | HUser create uid _ _ _ => create || validateKeyString uid
  | HFence h _ => h =? hs
  | HAck h _ _ _ | HCleanup h _ _ _ => (h =? 0) || (h =? hs)
  | _ => false
  end.

Definition good_hcmd (c : hcmd) : bool :=
  match c with
  | HNoop => true
  | HUser create uid _ _ _ => create || validateKeyString uid
  | HFence _ _ => true
  | HAck _ _ _ _ => true
  | HDelta s i h (Some o) => negb (s =? 0) && negb (i =? 0) && inner_ok h o
  | _ => false
  end.

Definition good_cmd (c : fcmd) : Prop := good_hcmd (fc_cmd c) = true.

Definition good_wop (o : wop) : Prop := match o with WCM _ _ => False | _ => True end.

(* equal up to the slot applied index *)
Definition store_eqv (a b : store) : Prop :=
  st_users a = st_users b /\ st_cm a = st_cm b /\ st_states a = st_states b
  /\ st_outbox a = st_outbox b /\ st_applied a = st_applied b.

Lemma store_eqv_refl s : store_eqv s s.
Proof. repeat split. Qed.
Lemma store_eqv_sym a b : store_eqv a b -> store_eqv b a.
Proof. intros (A & B & C & D & E). repeat split; congruence. Qed.
Lemma store_eqv_trans a b c : store_eqv a b -> store_eqv b c -> store_eqv a c.
Proof. intros (A & B & C & D & E) (A' & B' & C' & D' & E'). repeat split; congruence. Qed.

(* what the staging loop reads: the migration state of a hash slot and "was this delta applied" *)
Definition delta_seen (d : store) (b : bstate) (k : dkey) : bool :=
  dkey_mem k (bs_delta b) || dkey_mem k (st_applied d).

Definition agree (d : store) (b : bstate) (v : cstate_all) : Prop :=
  (forall hs, load_state d b hs = state_get (st_states (ca_pend v)) hs)
  /\ (forall k, delta_seen d b k = dkey_mem k (st_applied (ca_pend v))).

Lemma state_get_del l h hs : state_get (state_del l h) hs = if h =? hs then None else state_get l hs.
Proof.
  induction l as [|x l IH]; cbn [state_del state_get].
  - destruct (h =? hs); reflexivity.
  - destruct (hs_hash_slot x =? h) eqn:E.
    + rewrite IH. apply N.eqb_eq in E. subst h. destruct (hs_hash_slot x =? hs); reflexivity.
    + cbn [state_get]. rewrite IH. destruct (hs_hash_slot x =? hs) eqn:E2; [|reflexivity].
      apply N.eqb_eq in E2. subst hs. rewrite N.eqb_sym, E. reflexivity.
Qed.

Lemma state_get_insert l x hs :
  state_get l (hs_hash_slot x) = None ->
  state_get (state_insert l x) hs = if hs_hash_slot x =? hs then Some x else state_get l hs.
Proof.
  induction l as [|y l IH]; intro Hn; cbn [state_insert state_get].
  - reflexivity.
  - cbn [state_get] in Hn. destruct (hs_hash_slot y =? hs_hash_slot x) eqn:Eyx; [discriminate|].
    destruct (hs_hash_slot x <? hs_hash_slot y).
    + cbn [state_get]. reflexivity.
    + cbn [state_get]. rewrite (IH Hn).
      destruct (hs_hash_slot y =? hs) eqn:E1; [|reflexivity].
      apply N.eqb_eq in E1. subst hs. rewrite N.eqb_sym, Eyx. reflexivity.
Qed.

Lemma state_get_put l x hs :
  state_get (state_put l x) hs = if hs_hash_slot x =? hs then Some x else state_get l hs.
Proof.
  unfold state_put. rewrite state_get_insert.
  - rewrite state_get_del. destruct (hs_hash_slot x =? hs); reflexivity.
  - rewrite state_get_del, N.eqb_refl. reflexivity.
Qed.

Lemma pend_get_del l h hs : pend_get (pend_del l h) hs = if h =? hs then None else pend_get l hs.
Proof.
  induction l as [|[k x] l IH]; cbn [pend_del pend_get].
  - destruct (h =? hs); reflexivity.
  - destruct (k =? h) eqn:E.
    + rewrite IH. apply N.eqb_eq in E. subst h. destruct (k =? hs); reflexivity.
    + cbn [pend_get]. rewrite IH. destruct (k =? hs) eqn:E2; [|reflexivity].
      apply N.eqb_eq in E2. subst hs. rewrite N.eqb_sym, E. reflexivity.
Qed.

Lemma pend_get_put l h x hs : pend_get (pend_put l h x) hs = if h =? hs then Some x else pend_get l hs.
Proof.
  unfold pend_put. cbn [pend_get]. rewrite pend_get_del. destruct (h =? hs); reflexivity.
Qed.

Lemma load_state_put d b h x hs :
  load_state d (set_bs_states b (pend_put (bs_states b) h x)) hs = if h =? hs then Some x else load_state d b hs.
Proof.
  unfold load_state, set_bs_states. cbn [bs_states]. rewrite pend_get_put. destruct (h =? hs); reflexivity.
Qed.

Lemma load_state_delta d b x hs : load_state d (set_bs_delta b x) hs = load_state d b hs.
Proof. reflexivity. Qed.

Lemma dkey_eqb_eq a b : dkey_eqb a b = true <-> a = b.
Proof.
  destruct a as [a1 a2 a3], b as [b1 b2 b3]. unfold dkey_eqb. cbn [dk_hs dk_src dk_idx].
  rewrite !andb_true_iff, !N.eqb_eq. split.
  - intros ((-> & ->) & ->). reflexivity.
  - intro H. inversion H. auto.
Qed.

Lemma dkey_eqb_refl a : dkey_eqb a a = true.
Proof. apply dkey_eqb_eq. reflexivity. Qed.

Lemma dkey_mem_insert l k k' : dkey_mem k (dkey_insert l k') = dkey_eqb k k' || dkey_mem k l.
Proof.
  induction l as [|y l IH]; cbn [dkey_insert].
  - unfold dkey_mem. cbn. reflexivity.
  - destruct (dkey_eqb k' y) eqn:E.
    + apply dkey_eqb_eq in E. subst y. unfold dkey_mem. cbn [existsb].
      destruct (dkey_eqb k k'); reflexivity.
    + destruct (dkey_ltb k' y).
      * unfold dkey_mem. cbn [existsb]. reflexivity.
      * unfold dkey_mem in *. cbn [existsb]. rewrite IH.
        destruct (dkey_eqb k y), (dkey_eqb k k'); reflexivity.
Qed.

(* what fsm_run_op does to the pending store for a good operation (every case but WCM, which
   needs the overlay); tied to it by run_op_good *)
Definition eff (p : store) (o : wop) : store :=
  match o with
  | WUser create u =>
      if create then
        match user_get (st_users p) (ur_hs u) (ur_uid u) with
        | Some _ => p
        | None => set_users p (user_put (st_users p) u)
        end
      else set_users p (user_put (st_users p) u)
  | WCM _ _ => p
  | WStateUpsert x => set_states p (state_put (st_states p) x)
  | WStateDelete hs => set_states p (state_del (st_states p) hs)
  | WMarkApplied k => set_applied p (dkey_insert (st_applied p) k)
  | WOutboxUpsert x => set_outbox p (outbox_put (st_outbox p) x)
  | WOutboxDelete hs s t i => set_outbox p (outbox_del (st_outbox p) hs s t i)
  | WOutboxDeleteThrough hs s t i => set_outbox p (outbox_del_through (st_outbox p) hs s t i)
  | WOutboxDeleteAll hs => set_outbox p (outbox_del_all (st_outbox p) hs)
  | WSetApplied i => set_applied_index p i
  end.

Lemma run_op_good d v o : good_wop o -> fsm_run_op d v o = OOk (CAll (eff (ca_pend v) o) (ca_cm v)).
Proof.
  intro G. destruct v as [p cm]. destruct o; cbn [fsm_run_op eff ca_pend ca_cm]; try reflexivity.
  - destruct create; [|reflexivity]. destruct (user_get (st_users p) (ur_hs u) (ur_uid u)); reflexivity.
  - contradiction.
Qed.

Lemma run_ops_good ops : forall d v,
    Forall good_wop ops ->
    run_ops fsm_run_op d v ops = OOk (CAll (fold_left eff ops (ca_pend v)) (ca_cm v)).
Proof.
  induction ops as [|o ops IH]; intros d v G; cbn [run_ops fold_left].
  - destruct v; reflexivity.
  - inversion G as [|? ? Go Gops]; subst. rewrite (run_op_good d v o Go). rewrite IH by assumption. reflexivity.
Qed.

Lemma eff_eqv p p' o : store_eqv p p' -> store_eqv (eff p o) (eff p' o).
Proof.
  intros (A & B & C & D & E). destruct o; cbn [eff]; try (repeat split; cbn; congruence).
  destruct create.
  - rewrite A. destruct (user_get (st_users p') (ur_hs u) (ur_uid u)); repeat split; cbn; congruence.
  - repeat split; cbn; congruence.
Qed.

Lemma fold_eff_eqv ops : forall p p', store_eqv p p' -> store_eqv (fold_left eff ops p) (fold_left eff ops p').
Proof. induction ops as [|o ops IH]; intros p p' E; [exact E|]. apply IH, eff_eqv, E. Qed.

(* its action on the two tables staging reads *)
Definition eff_states (l : list hs_state) (o : wop) : list hs_state :=
  match o with
  | WStateUpsert x => state_put l x
  | WStateDelete hs => state_del l hs
  | _ => l
  end.
Definition eff_applied (l : list dkey) (o : wop) : list dkey :=
  match o with WMarkApplied k => dkey_insert l k | _ => l end.

Lemma st_states_eff p o : st_states (eff p o) = eff_states (st_states p) o.
Proof.
  destruct o; cbn [eff eff_states]; try reflexivity.
  destruct create; [|reflexivity]. destruct (user_get (st_users p) (ur_hs u) (ur_uid u)); reflexivity.
Qed.
Lemma st_applied_eff p o : st_applied (eff p o) = eff_applied (st_applied p) o.
Proof.
  destruct o; cbn [eff eff_applied]; try reflexivity.
  destruct create; [|reflexivity]. destruct (user_get (st_users p) (ur_hs u) (ur_uid u)); reflexivity.
Qed.

Lemma st_states_fold_eff ops : forall p, st_states (fold_left eff ops p) = fold_left eff_states ops (st_states p).
Proof. induction ops as [|o ops IH]; intro p; cbn [fold_left]; [reflexivity|]. rewrite IH, st_states_eff. reflexivity. Qed.
Lemma st_applied_fold_eff ops : forall p, st_applied (fold_left eff ops p) = fold_left eff_applied ops (st_applied p).
Proof. induction ops as [|o ops IH]; intro p; cbn [fold_left]; [reflexivity|]. rewrite IH, st_applied_eff. reflexivity. Qed.

(* the clauses of overlay_machine; no invariant of the commit overlay is needed (Vinv is True) *)
Lemma fsm_H_init d : True /\ agree d bstate0 (fsm_v0 d) /\ fsm_flush d (fsm_v0 d) = d.
Proof.
  split; [exact I|]. split; [|reflexivity]. split.
  - intro hs. reflexivity.
  - intro k. reflexivity.
Qed.

Lemma fsm_H_op d v d' v' o :
  good_wop o -> True -> True -> store_eqv (fsm_flush d v) (fsm_flush d' v') ->
  sim_ores fsm_flush store_eqv (fun _ _ => True) d d' (fsm_run_op d v o) (fsm_run_op d' v' o).
Proof.
  intros G _ _ E. rewrite (run_op_good d v o G), (run_op_good d' v' o G). cbn.
  split; [|split; exact I]. apply eff_eqv. exact E.
Qed.

Lemma fsm_H_finish d v cs : True ->
  exists v', run_ops fsm_run_op d v (fsm_finish cs) = OOk v' /\ store_eqv (fsm_flush d v') (fsm_flush d v) /\ True.
Proof.
  intros _. unfold fsm_finish. destruct (rev cs) as [|c r].
  - exists v. cbn. split; [reflexivity|]. split; [apply store_eqv_refl|exact I].
  - destruct (fc_index c =? 0).
    + exists v. cbn. split; [reflexivity|]. split; [apply store_eqv_refl|exact I].
    + eexists. cbn [run_ops]. rewrite run_op_good by exact I. split; [reflexivity|].
      split; [|exact I]. cbn. repeat split.
Qed.

(* loadOrCreateMigrationState / stageMigrationOutbox / stageMigrationFence / applyMigrationOutboxAck
   read the store and the staging state only through the migration state [lx] of the hash slot *)
Definition loc_view (cfg : fsm_cfg) (lx : option hs_state) (hs target : N) : hs_state * list wop :=
  let x := match lx with Some x => x | None => fresh_state cfg hs target end in
  if negb (hs_source x =? cfg_slot cfg) || negb (hs_target x =? target)
  then (fresh_state cfg hs target, [WStateDelete hs; WOutboxDeleteAll hs])
  else (x, []).

Lemma loc_eq cfg d b hs target :
  loadOrCreateMigrationState cfg d b hs target = loc_view cfg (load_state d b hs) hs target.
Proof. reflexivity. Qed.

Definition fenced_view (cfg : fsm_cfg) (lx : option hs_state) (hs : N) : bool :=
  match lx with
  | None => false
  | Some x =>
    if negb (hs_source x =? cfg_slot cfg) || (hs_fence_index x =? 0) then false
    else match mig_get (cfg_migs cfg) hs with
         | Some (target, _) => negb (negb (target =? 0) && negb (target =? hs_target x))
         | None => true
         end
  end.

Lemma fenced_eq cfg d b hs : isHashSlotFenced cfg d b hs = fenced_view cfg (load_state d b hs) hs.
Proof. reflexivity. Qed.

Definition outbox_view (cfg : fsm_cfg) (lx : option hs_state) (c : fcmd) (hs : N)
  : option (hs_state * list wop * list forward) :=
  if isApplyDelta (fc_cmd c) then None
  else
    match mig_get (cfg_migs cfg) hs with
    | None => None
    | Some (t, ph) =>
      if negb ((ph =? migrationPhaseDelta) || (ph =? migrationPhaseSwitching)) then None
      else
        let '(x, ops0) := loc_view cfg lx hs t in
        let x' := HsState (hs_hash_slot x) (hs_source x) (hs_target x) ph (hs_fence_index x)
                          (maxN (hs_last_outbox x) (fc_index c)) (hs_last_acked x) in
        Some (x', ops0 ++ [WOutboxUpsert (Outbox hs (cfg_slot cfg) t (fc_index c) (fc_data c)); WStateUpsert x'],
              [Forward t hs (fc_index c) (fc_data c)])
    end.

Definition upd_b (b : bstate) (hs : N) (u : option hs_state) : bstate :=
  match u with
  | Some x => set_bs_states b (pend_put (bs_states b) hs x)
  | None => b
  end.

Lemma outbox_eq cfg d b c hs :
  stageMigrationOutbox cfg d b c hs =
  match outbox_view cfg (load_state d b hs) c hs with
  | None => (b, [], [])
  | Some (x', ops, fw) => (upd_b b hs (Some x'), ops, fw)
  end.
Proof.
  unfold stageMigrationOutbox, outbox_view. destruct (isApplyDelta (fc_cmd c)); [reflexivity|].
  destruct (mig_get (cfg_migs cfg) hs) as [[t ph]|]; [|reflexivity].
  destruct (negb ((ph =? migrationPhaseDelta) || (ph =? migrationPhaseSwitching))); [reflexivity|].
  rewrite loc_eq. destruct (loc_view cfg (load_state d b hs) hs t) as [x ops0]. reflexivity.
Qed.

(* the target and phase a fence is staged for; None: ErrInvalidArgument, whatever the state *)
Definition fence_target (cfg : fsm_cfg) (hs target : N) : option (N * N) :=
  match migrationForFence cfg hs target with
  | Some (t, ph) => if t =? 0 then None else Some (t, ph)
  | None => None
  end.

Definition fence_view (cfg : fsm_cfg) (lx : option hs_state) (c : fcmd) (hs t ph : N)
  : option hs_state * list wop * list forward :=
  let '(x, ops0) := loc_view cfg lx hs t in
  if negb (hs_fence_index x =? 0) then (None, ops0, [])
  else
    let x' := HsState (hs_hash_slot x) (hs_source x) (hs_target x) migrationPhaseSwitching (fc_index c)
                      (maxN (hs_last_outbox x) (fc_index c)) (hs_last_acked x) in
    (Some x', ops0 ++ [WOutboxUpsert (Outbox hs (cfg_slot cfg) t (fc_index c) (fc_data c)); WStateUpsert x'],
     if ph <? migrationPhaseDelta then [] else [Forward t hs (fc_index c) (fc_data c)]).

Lemma fence_eq cfg d b c hs target :
  stageMigrationFence cfg d b c hs target =
  match fence_target cfg hs target with
  | None => None
  | Some (t, ph) => let '(u, ops, fw) := fence_view cfg (load_state d b hs) c hs t ph in Some (upd_b b hs u, ops, fw)
  end.
Proof.
  unfold stageMigrationFence, fence_target, fence_view. destruct (migrationForFence cfg hs target) as [[t ph]|]; [|reflexivity].
  destruct (t =? 0); [reflexivity|]. rewrite loc_eq.
  destruct (loc_view cfg (load_state d b hs) hs t) as [x ops0].
  destruct (negb (hs_fence_index x =? 0)); reflexivity.
Qed.

(* the argument check of an ack: true = ErrInvalidArgument, whatever the state *)
Definition ack_invalid (cfg : fsm_cfg) (hashSlot hs src tgt idx : N) : bool :=
  negb (hs =? hashSlot) || negb (src =? cfg_slot cfg) || (tgt =? 0) || (idx =? 0).

Definition ack_view (lx : option hs_state) (hashSlot src tgt idx : N) : option hs_state * list wop :=
  match lx with
  | None => (None, [])
  | Some x =>
    if negb (hs_source x =? src) || negb (hs_target x =? tgt) || (hs_last_outbox x <? idx) then (None, [])
    else
      let x' := if hs_last_acked x <? idx then set_acked x idx else x in
      (Some x', [WStateUpsert x'; WOutboxDelete hashSlot src tgt idx])
  end.

Lemma ack_eq cfg d b hashSlot hs src tgt idx :
  applyMigrationOutboxAck cfg d b hashSlot hs src tgt idx =
  if ack_invalid cfg hashSlot hs src tgt idx then None
  else let '(u, ops) := ack_view (load_state d b hashSlot) hashSlot src tgt idx in Some (upd_b b hashSlot u, ops).
Proof.
  unfold applyMigrationOutboxAck, ack_invalid, ack_view.
  destruct (negb (hs =? hashSlot) || negb (src =? cfg_slot cfg) || (tgt =? 0) || (idx =? 0)); [reflexivity|].
  destruct (load_state d b hashSlot) as [x|]; [|reflexivity].
  destruct (negb (hs_source x =? src) || negb (hs_target x =? tgt) || (hs_last_outbox x <? idx)); reflexivity.
Qed.

(* the operations a good command's own apply stages *)
Definition plain_ops (hs : N) (c : hcmd) : list wop :=
  match c with
  | HUser create uid token flag level => [WUser create (URow hs uid token flag level)]
  | _ => []
  end.

Lemma plain_ops_good hs k : Forall good_wop (plain_ops hs k).
Proof. destruct k; cbn; repeat constructor. Qed.

Lemma plain_apply_inner b hs o : inner_ok hs o = true -> cmd_apply_plain b hs o = AOk b (plain_ops hs o).
Proof.
  destruct o; cbn [inner_ok cmd_apply_plain plain_ops]; intro H; try discriminate; try reflexivity.
  - destruct create; [reflexivity|]. cbn in H. rewrite H. reflexivity.
  - rewrite H. reflexivity.
  - apply orb_true_iff in H. destruct H as [H|H]; rewrite H; cbn; [reflexivity|].
    destruct (negb (hash_slot =? 0)); reflexivity.
  - apply orb_true_iff in H. destruct H as [H|H]; rewrite H; cbn; [reflexivity|].
    destruct (negb (hash_slot =? 0)); reflexivity.
Qed.

(* one loop iteration on a good command, in terms of the two reads *)
Inductive view_res :=
| PFatal (e : N)
| PDone (key : option dkey) (upd : option hs_state) (ops : list wop) (r : fres).

Definition stage_view (cfg : fsm_cfg) (L : N -> option hs_state) (M : dkey -> bool) (c : fcmd) : view_res :=
  if negb (fc_slot_ok c) then PFatal E_INVALID
  else
    match resolveHashSlot cfg c with
    | None => PFatal E_INVALID
    | Some hs =>
      match fc_cmd c with
      | HAck h s t i =>
          if ack_invalid cfg hs h s t i then PFatal E_INVALID
          else let '(u, ops) := ack_view (L hs) hs s t i in PDone None u ops (R_OK, [])
      | HFence h target =>
          if h =? hs then
            match fence_target cfg hs target with
            | None => PFatal E_INVALID
            | Some (t, ph) => let '(u, ops, fw) := fence_view cfg (L hs) c hs t ph in PDone None u ops (R_OK, fw)
            end
          else PFatal E_INVALID
      | HDelta s i _ (Some o) =>
          if M (DKey hs s i) then PDone None None [] (R_OK, [])
          else PDone (Some (DKey hs s i)) None (plain_ops hs o ++ [WMarkApplied (DKey hs s i)]) (R_OK, [])
      | k =>
          if fenced_view cfg (L hs) hs then PDone None None [] (R_FENCED, [])
          else
            match outbox_view cfg (L hs) c hs with
            | None => PDone None None (plain_ops hs k) (R_OK, [])
            | Some (x', ops, fw) => PDone None (Some x') (plain_ops hs k ++ ops) (R_OK, fw)
            end
      end
    end.

(* the resolved hash slot; the default is never used: a PDone result has resolveHashSlot = Some _
   (stage_view_resolves) *)
Definition hs_of (cfg : fsm_cfg) (c : fcmd) : N := match resolveHashSlot cfg c with Some hs => hs | None => 0 end.

Definition lift_view (cfg : fsm_cfg) (b : bstate) (c : fcmd) (r : view_res) : @sres bstate wop fres :=
  match r with
  | PFatal e => SFatal e
  | PDone key upd ops res =>
      let b1 := match key with Some k => set_bs_delta b (k :: bs_delta b) | None => b end in
      SDone (upd_b b1 (hs_of cfg c) upd) ops res
  end.

Lemma stage_good_view cfg d b c :
  good_cmd c ->
  fsm_stage cfg d b c = lift_view cfg b c (stage_view cfg (load_state d b) (delta_seen d b) c).
Proof.
  unfold good_cmd. intro G. unfold fsm_stage, stage_view, lift_view, hs_of.
  destruct (negb (fc_slot_ok c)); [reflexivity|].
  destruct (resolveHashSlot cfg c) as [hs|] eqn:R; [|reflexivity].
  destruct (fc_cmd c) as [|create uid token flag level|cm|s i h orig|h target|h s t i|h s t i|k] eqn:K;
    cbn [good_hcmd] in G; try discriminate.
  - cbn [isMigrationMaintenanceCommand negb andb]. rewrite fenced_eq.
    destruct (fenced_view cfg (load_state d b hs) hs); [reflexivity|].
    cbn [cmd_apply cmd_apply_plain plain_ops app]. rewrite outbox_eq.
    destruct (outbox_view cfg (load_state d b hs) c hs) as [[[x' ops] fw]|]; reflexivity.
  - cbn [isMigrationMaintenanceCommand negb andb]. rewrite fenced_eq.
    destruct (fenced_view cfg (load_state d b hs) hs); [reflexivity|].
    cbn [cmd_apply]. rewrite (plain_apply_inner b hs (HUser create uid token flag level) G), outbox_eq.
    destruct (outbox_view cfg (load_state d b hs) c hs) as [[[x' ops] fw]|]; reflexivity.
  - destruct orig as [o|]; [|discriminate].
    apply andb_true_iff in G. destruct G as (G1 & Gi). apply andb_true_iff in G1. destruct G1 as (Gs & Gidx).
    cbn [isMigrationMaintenanceCommand negb andb].
    assert (Hh : h = hs).
    { unfold resolveHashSlot in R. rewrite K in R. destruct (h =? fc_hs c); inversion R. reflexivity. }
    subst h. unfold delta_seen.
    destruct (dkey_mem (DKey hs s i) (bs_delta b)) eqn:Pm; cbn [orb].
    + reflexivity.
    + cbn [dk_src dk_idx]. apply negb_true_iff in Gs, Gidx. rewrite Gs, Gidx. cbn [orb].
      destruct (dkey_mem (DKey hs s i) (st_applied d)); [reflexivity|].
      cbn [cmd_apply]. rewrite N.eqb_refl. cbn [negb].
      rewrite (plain_apply_inner b hs o Gi).
      unfold stageMigrationOutbox. rewrite K. cbn [isApplyDelta]. reflexivity.
  - cbn [isMigrationMaintenanceCommand negb andb].
    cbn [cmd_apply cmd_apply_plain].
    destruct (h =? hs); [|reflexivity].
    rewrite fence_eq. destruct (fence_target cfg hs target) as [[t ph]|]; [|reflexivity].
    destruct (fence_view cfg (load_state d b hs) c hs t ph) as [[u ops] fw]. reflexivity.
  - cbn [isMigrationMaintenanceCommand negb andb]. rewrite ack_eq.
    destruct (ack_invalid cfg hs h s t i); [reflexivity|].
    destruct (ack_view (load_state d b hs) hs s t i) as [u ops]. reflexivity.
Qed.

Lemma stage_view_ext cfg L M L' M' c :
  (forall hs, L hs = L' hs) -> (forall k, M k = M' k) -> stage_view cfg L M c = stage_view cfg L' M' c.
Proof.
  intros HL HM. unfold stage_view.
  destruct (negb (fc_slot_ok c)); [reflexivity|].
  destruct (resolveHashSlot cfg c) as [hs|]; [|reflexivity].
  rewrite <- (HL hs). destruct (fc_cmd c) as [| | |s i h [o|]| | | |]; try reflexivity.
  rewrite <- HM. reflexivity.
Qed.

Lemma stage_view_fatal_static cfg L M L' M' c e :
  stage_view cfg L M c = PFatal e -> stage_view cfg L' M' c = PFatal e.
Proof.
  unfold stage_view.
  destruct (negb (fc_slot_ok c)); [auto|].
  destruct (resolveHashSlot cfg c) as [hs|]; [|auto].
  destruct (fc_cmd c) as [|create uid token flag level|cm|s i h [o|]|h target|h s t i|h s t i|k].
  (* the kinds staged as ordinary commands never fail once the hash slot is resolved *)
  all: try (destruct (fenced_view cfg (L hs) hs); [discriminate|];
            destruct (outbox_view cfg (L hs) c hs) as [[[? ?] ?]|]; discriminate).
  - (* apply_delta of a decodable original *) destruct (M (DKey hs s i)); discriminate.
  - (* enter_fence *) destruct (h =? hs); [|auto]. destruct (fence_target cfg hs target) as [[t ph]|]; [|auto].
    destruct (fence_view cfg (L hs) c hs t ph) as [[u ops] fw]. discriminate.
  - (* ack *) destruct (ack_invalid cfg hs h s t i); [auto|].
    destruct (ack_view (L hs) hs s t i) as [u ops]. discriminate.
Qed.

Lemma fsm_H_fatal cfg d b c e :
  good_cmd c -> fsm_stage cfg d b c = SFatal e -> forall d' b', fsm_stage cfg d' b' c = SFatal e.
Proof.
  intros G H d' b'. rewrite (stage_good_view cfg d b c G) in H. rewrite (stage_good_view cfg d' b' c G).
  destruct (stage_view cfg (load_state d b) (delta_seen d b) c) as [e0|key upd ops r] eqn:S; [|discriminate].
  cbn in H. inversion H; subst e0.
  rewrite (stage_view_fatal_static cfg _ _ (load_state d' b') (delta_seen d' b') c e S). reflexivity.
Qed.

Lemma state_get_key l hs x : state_get l hs = Some x -> hs_hash_slot x = hs.
Proof.
  induction l as [|y l IH]; cbn [state_get]; [discriminate|].
  destruct (hs_hash_slot y =? hs) eqn:E; [|exact IH].
  intro H. inversion H; subst. apply N.eqb_eq. exact E.
Qed.

Lemma plain_ops_states hs k sts : fold_left eff_states (plain_ops hs k) sts = sts.
Proof. destruct k; reflexivity. Qed.
Lemma plain_ops_applied hs k apl : fold_left eff_applied (plain_ops hs k) apl = apl.
Proof. destruct k; reflexivity. Qed.

(* What one iteration staged, with the update [upd] of the migration state of [hs] and the replay
   key [key]: good operations, which do this to the two tables staging reads, on every table whose
   row of [hs] is the [lx] that was read *)
Definition staged_ok (lx : option hs_state) (hs : N) (key : option dkey) (upd : option hs_state) (ops : list wop) : Prop :=
  Forall good_wop ops
  /\ forall sts apl, lx = state_get sts hs ->
     (forall hs', state_get (fold_left eff_states ops sts) hs' =
                  match upd with
                  | Some x' => if hs =? hs' then Some x' else state_get sts hs'
                  | None => state_get sts hs'
                  end)
     /\ fold_left eff_applied ops apl = match key with Some k => dkey_insert apl k | None => apl end.

Lemma staged_nil lx hs : staged_ok lx hs None None [].
Proof. split; [constructor|]. split; reflexivity. Qed.

Lemma staged_plain lx hs k key upd ops :
  staged_ok lx hs key upd ops -> staged_ok lx hs key upd (plain_ops hs k ++ ops).
Proof.
  intros (G & E). split; [apply Forall_app; split; [apply plain_ops_good|exact G]|].
  intros sts apl Hl. destruct (E sts apl Hl) as (St & Ap).
  split; [intro hs'|]; rewrite fold_left_app, ?plain_ops_states, ?plain_ops_applied; auto.
Qed.

(* loc_view continues with a state of the hash slot; its operations only delete that row, and
   only when it continues with a fresh (unfenced) state *)
Lemma loc_view_spec cfg lx hs t x ops0 :
  loc_view cfg lx hs t = (x, ops0) ->
  Forall good_wop ops0 /\ (ops0 = [] \/ hs_fence_index x = 0)
  /\ forall sts, lx = state_get sts hs ->
       hs_hash_slot x = hs
       /\ (forall hs', (hs =? hs') = false -> state_get (fold_left eff_states ops0 sts) hs' = state_get sts hs')
       /\ forall apl, fold_left eff_applied ops0 apl = apl.
Proof.
  unfold loc_view. intro H. destruct lx as [y|].
  - destruct (negb (hs_source y =? cfg_slot cfg) || negb (hs_target y =? t)); inversion H; subst; clear H.
    + split; [repeat constructor|]. split; [right; reflexivity|]. intros sts _. repeat split.
      intros hs' E. cbn. rewrite state_get_del, E. reflexivity.
    + split; [constructor|]. split; [left; reflexivity|]. intros sts Y.
      split; [exact (state_get_key _ _ _ (eq_sym Y))|]. split; reflexivity.
  - cbn in H. rewrite !N.eqb_refl in H. inversion H; subst; clear H.
    split; [constructor|]. split; [left; reflexivity|]. intros sts _. repeat split.
Qed.

Lemma staged_upsert cfg lx hs t x ops0 x' row :
  loc_view cfg lx hs t = (x, ops0) -> hs_hash_slot x' = hs_hash_slot x ->
  staged_ok lx hs None (Some x') (ops0 ++ [WOutboxUpsert row; WStateUpsert x']).
Proof.
  intros Lv Hk. destruct (loc_view_spec _ _ _ _ _ _ Lv) as (G0 & _ & Hs).
  split; [apply Forall_app; split; [exact G0|repeat constructor]|].
  intros sts apl Hl. destruct (Hs sts Hl) as (Hx & S0 & A0). split.
  - intro hs'. rewrite fold_left_app. cbn [fold_left eff_states]. rewrite state_get_put, Hk, Hx.
    destruct (hs =? hs') eqn:E; [reflexivity|]. apply S0. exact E.
  - rewrite fold_left_app, A0. reflexivity.
Qed.

Lemma outbox_view_ok cfg lx c hs x' ops fw :
  outbox_view cfg lx c hs = Some (x', ops, fw) -> staged_ok lx hs None (Some x') ops.
Proof.
  unfold outbox_view. destruct (isApplyDelta (fc_cmd c)); [discriminate|].
  destruct (mig_get (cfg_migs cfg) hs) as [[t ph]|]; [|discriminate].
  destruct (negb ((ph =? migrationPhaseDelta) || (ph =? migrationPhaseSwitching))); [discriminate|].
  destruct (loc_view cfg lx hs t) as [x ops0] eqn:Lv. intro H. inversion H; subst; clear H.
  apply (staged_upsert cfg lx hs t x ops0); [exact Lv|reflexivity].
Qed.

Lemma fence_view_ok cfg lx c hs t ph u ops fw :
  fence_view cfg lx c hs t ph = (u, ops, fw) -> staged_ok lx hs None u ops.
Proof.
  unfold fence_view. destruct (loc_view cfg lx hs t) as [x ops0] eqn:Lv.
  destruct (loc_view_spec _ _ _ _ _ _ Lv) as (_ & Hz & _).
  destruct (negb (hs_fence_index x =? 0)) eqn:F; intro H; inversion H; subst; clear H.
  - (* already fenced: the state was not replaced, nothing was staged *)
    destruct Hz as [->|Hz]; [apply staged_nil|]. rewrite Hz in F. discriminate.
  - apply (staged_upsert cfg lx hs t x ops0); [exact Lv|reflexivity].
Qed.

Lemma ack_view_ok lx hashSlot src tgt idx u ops :
  ack_view lx hashSlot src tgt idx = (u, ops) -> staged_ok lx hashSlot None u ops.
Proof.
  unfold ack_view. destruct lx as [x|]; [|intro H; inversion H; apply staged_nil].
  destruct (negb (hs_source x =? src) || negb (hs_target x =? tgt) || (hs_last_outbox x <? idx));
    intro H; inversion H; subst; clear H; [apply staged_nil|].
  split; [repeat constructor|]. intros sts apl Hl. split; [|reflexivity].
  intro hs'. cbn [fold_left eff_states]. rewrite state_get_put.
  replace (hs_hash_slot (if hs_last_acked x <? idx then set_acked x idx else x)) with hashSlot; [reflexivity|].
  rewrite <- (state_get_key _ _ _ (eq_sym Hl)). destruct (hs_last_acked x <? idx); reflexivity.
Qed.

Lemma stage_view_resolves cfg L M c key upd ops r :
  stage_view cfg L M c = PDone key upd ops r -> exists hs, resolveHashSlot cfg c = Some hs.
Proof.
  unfold stage_view. destruct (negb (fc_slot_ok c)); [discriminate|].
  destruct (resolveHashSlot cfg c) as [hs|]; [eauto|discriminate].
Qed.

Lemma stage_view_ok cfg L M c key upd ops r hs :
  resolveHashSlot cfg c = Some hs ->
  stage_view cfg L M c = PDone key upd ops r ->
  staged_ok (L hs) hs key upd ops.
Proof.
  intros R S. unfold stage_view in S. destruct (negb (fc_slot_ok c)); [discriminate|]. rewrite R in S.
  assert (Hplain : forall k,
             (if fenced_view cfg (L hs) hs then PDone None None [] (R_FENCED, [])
              else match outbox_view cfg (L hs) c hs with
                   | None => PDone None None (plain_ops hs k) (R_OK, [])
                   | Some (x', ops0, fw) => PDone None (Some x') (plain_ops hs k ++ ops0) (R_OK, fw)
                   end) = PDone key upd ops r -> staged_ok (L hs) hs key upd ops).
  { intros k H. destruct (fenced_view cfg (L hs) hs); [inversion H; apply staged_nil|].
    destruct (outbox_view cfg (L hs) c hs) as [[[x' ops'] fw]|] eqn:Ov; inversion H; subst; clear H.
    - apply staged_plain. exact (outbox_view_ok _ _ _ _ _ _ _ Ov).
    - rewrite <- (app_nil_r (plain_ops hs k)). apply staged_plain, staged_nil. }
  destruct (fc_cmd c) as [| | |s i h [o|]|h target|h s t i| |]; try exact (Hplain _ S).
  - destruct (M (DKey hs s i)); inversion S; subst; clear S; [apply staged_nil|].
    apply staged_plain. split; [repeat constructor|]. intros sts apl _. split; reflexivity.
  - destruct (h =? hs); [|discriminate]. destruct (fence_target cfg hs target) as [[t ph]|]; [|discriminate].
    destruct (fence_view cfg (L hs) c hs t ph) as [[u ops'] fw] eqn:Fv. inversion S; subst; clear S.
    exact (fence_view_ok _ _ _ _ _ _ _ _ _ Fv).
  - destruct (ack_invalid cfg hs h s t i); [discriminate|].
    destruct (ack_view (L hs) hs s t i) as [u ops'] eqn:Av. inversion S; subst; clear S.
    exact (ack_view_ok _ _ _ _ _ _ _ Av).
Qed.

Lemma stage_view_ops_good cfg L M c key upd ops r :
  stage_view cfg L M c = PDone key upd ops r -> Forall good_wop ops.
Proof. intro S. destruct (stage_view_resolves _ _ _ _ _ _ _ _ S) as (hs & R). exact (proj1 (stage_view_ok _ _ _ _ _ _ _ _ _ R S)). Qed.

Lemma stage_view_agree cfg d b v c key upd ops r :
  agree d b v ->
  stage_view cfg (load_state d b) (delta_seen d b) c = PDone key upd ops r ->
  forall v', run_ops fsm_run_op d v ops = OOk v' ->
  agree d (upd_b (match key with Some k => set_bs_delta b (k :: bs_delta b) | None => b end) (hs_of cfg c) upd) v'.
Proof.
  intros (AL & AM) S v' Hrun. destruct (stage_view_resolves _ _ _ _ _ _ _ _ S) as (hs & R).
  destruct (stage_view_ok _ _ _ _ _ _ _ _ _ R S) as (G & Eff).
  rewrite (run_ops_good ops d v G) in Hrun. inversion Hrun; subst v'. clear Hrun.
  destruct (Eff (st_states (ca_pend v)) (st_applied (ca_pend v)) (AL hs)) as (St & Ap).
  unfold agree. cbn [ca_pend]. rewrite st_states_fold_eff, st_applied_fold_eff. unfold hs_of. rewrite R.
  split.
  - intro hs'. rewrite St.
    destruct upd as [x'|]; cbn [upd_b].
    + rewrite load_state_put. destruct (hs =? hs'); [reflexivity|].
      destruct key; apply AL.
    + destruct key; apply AL.
  - intro k. rewrite Ap. unfold delta_seen.
    replace (bs_delta (upd_b (match key with Some k0 => set_bs_delta b (k0 :: bs_delta b) | None => b end) hs upd))
      with (match key with Some k0 => k0 :: bs_delta b | None => bs_delta b end) by (destruct upd, key; reflexivity).
    destruct key as [k0|]; [|apply AM].
    rewrite dkey_mem_insert. unfold dkey_mem at 1. cbn [existsb]. fold (dkey_mem k (bs_delta b)).
    rewrite <- orb_assoc. f_equal. apply AM.
Qed.

Lemma fsm_H_stage cfg d b v d1 c :
  good_cmd c -> True -> agree d b v -> store_eqv d1 (fsm_flush d v) ->
  match fsm_stage cfg d b c, fsm_stage cfg d1 bstate0 c with
  | SFatal e, SFatal e' => e = e'
  | SDone b' ops r, SDone _ ops' r' =>
      ops = ops' /\ r = r' /\ Forall good_wop ops /\
      (forall v', run_ops fsm_run_op d v ops = OOk v' -> agree d b' v')
  | _, _ => False
  end.
Proof.
  intros G _ A E. rewrite (stage_good_view cfg d b c G), (stage_good_view cfg d1 bstate0 c G).
  (* over d1 the fresh staging state reads what (d, b) reads through the overlay *)
  assert (X : stage_view cfg (load_state d1 bstate0) (delta_seen d1 bstate0) c
              = stage_view cfg (load_state d b) (delta_seen d b) c).
  { destruct A as (AL & AM). destruct E as (_ & _ & Es & _ & Ea). unfold fsm_flush in Es, Ea. apply stage_view_ext.
    - intro hs. rewrite AL, <- Es. reflexivity.
    - intro k. rewrite AM, <- Ea. reflexivity. }
  rewrite X.
  destruct (stage_view cfg (load_state d b) (delta_seen d b) c) as [e|key upd ops r] eqn:S; cbn [lift_view]; [reflexivity|].
  exact (conj eq_refl (conj eq_refl (conj (stage_view_ops_good _ _ _ _ _ _ _ _ S) (stage_view_agree cfg d b v c key upd ops r A S)))).
Qed.

Theorem fsm_overlay_machine cfg :
  overlay_machine (fsm_stage cfg) bstate0 fsm_finish fsm_v0 fsm_run_op fsm_flush
                  store_eqv good_cmd good_wop (fun _ _ => True) agree.
Proof.
  exact (conj store_eqv_refl (conj store_eqv_sym (conj store_eqv_trans (conj fsm_H_init (conj fsm_H_op
        (conj (fsm_H_stage cfg) (conj (fsm_H_fatal cfg) fsm_H_finish))))))).
Qed.
