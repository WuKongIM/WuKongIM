(* Proof/WorkQueue_dpool.v — BoundedPool / BoundedBatchPool: the monitor of every model history
   is 0 or [dcode], the known-finding code of the configuration.  Every admitted task is in
   exactly one place (executor / run / cancelled, hand / released, queue), and the places,
   in that order, are in admission order. *)
From WK Require Import Base.Base Model.WorkQueue Model.WorkQueue_dpool Proof.WorkQueue.
Open Scope N_scope.

Definition k_items (k : rpc) : list N := match k with RIdle => [] | RGot l | RRun l _ => l end.
Definition held (wk : list rpc) : list N := flat_map k_items wk.

Lemma length_set_nth {A} i (x d : A) : forall l, (i < length l)%nat -> length (set_nth i x d l) = length l.
Proof. exact (set_nth_length i x d). Qed.

Lemma held_all_idle wk : all_idle wk = true -> held wk = [].
Proof.
  induction wk as [|k r IH]; [reflexivity|]. cbn [all_idle forallb held flat_map].
  intro H. apply andb_true_iff in H. destruct H as [Hk Hr]. destruct k; try discriminate.
  cbn [k_items app]. apply IH. exact Hr.
Qed.

Lemma all_idle_nth wk i : all_idle wk = true -> nth i wk RIdle = RIdle.
Proof.
  intro H. pose proof (forallb_nth _ wk i RIdle H eq_refl) as X. cbv beta in X.
  destruct (nth i wk RIdle); try discriminate X. reflexivity.
Qed.

Lemma map_task_mk_runs l rb re pos : map r_task (mk_runs l rb re pos) = l.
Proof. revert pos. induction l as [|x r IH]; intro pos; cbn [mk_runs map r_task]; [reflexivity|]. rewrite IH. reflexivity. Qed.

Lemma mk_runs_spec l rb re : forall pos r, In r (mk_runs l rb re pos) ->
  r_b r = rb /\ r_e r = re /\ r_shard r = 0 /\ pos <= r_pos r < pos + N.of_nat (length l).
Proof.
  induction l as [|x l IH]; intros pos r Hin; [destruct Hin|].
  cbn [mk_runs] in Hin. destruct Hin as [<-|Hin].
  - cbn. repeat split; lia.
  - destruct (IH _ _ Hin) as (A & B & C & D). repeat split; auto; try lia.
    cbn [length]. lia.
Qed.

Lemma map_task_cans (l : list N) at_ : map k_task (map (fun x => Can x at_) l) = l.
Proof. induction l as [|x r IH]; cbn [map k_task]; [reflexivity|]. rewrite IH. reflexivity. Qed.


Definition before (subs : list sub) (A B : list N) : Prop :=
  forall sa sc, In sa subs -> In sc subs -> In (s_task sa) A -> In (s_task sc) B -> s_e sa < s_e sc.

Lemma before_incl subs A B A' B' : incl A' A -> incl B' B -> before subs A B -> before subs A' B'.
Proof. intros HA HB H sa sc Ha Hc Ia Ic. apply H; auto. Qed.

Lemma before_nil_l subs B : before subs [] B.
Proof. intros sa sc _ _ []. Qed.

Lemma before_nil_r subs A : before subs A [].
Proof. intros sa sc _ _ _ []. Qed.

Lemma before_app_l subs A1 A2 B : before subs A1 B -> before subs A2 B -> before subs (A1 ++ A2) B.
Proof. intros H1 H2 sa sc Ha Hc Ia Ic. apply in_app_or in Ia. destruct Ia; [apply H1|apply H2]; auto. Qed.

Lemma before_app_r subs A B1 B2 : before subs A B1 -> before subs A B2 -> before subs A (B1 ++ B2).
Proof. intros H1 H2 sa sc Ha Hc Ia Ic. apply in_app_or in Ic. destruct Ic; [apply H1|apply H2]; auto. Qed.

Lemma before_cons_fresh subs sb A B : ~ In (s_task sb) A -> ~ In (s_task sb) B ->
  before subs A B -> before (sb :: subs) A B.
Proof.
  intros HA HB H sa sc [<-|Ha] [<-|Hc] Ia Ic; try contradiction. apply H; assumption.
Qed.

Lemma before_enqueue subs sbn A B : ~ In (s_task sbn) A ->
  (forall sb, In sb subs -> s_task sb <> s_task sbn /\ s_e sb < s_e sbn) ->
  before subs A B -> before (sbn :: subs) A (B ++ [s_task sbn]).
Proof.
  intros HA Hnew H sa sc [<-|Ha] [<-|Hc] Ia Ic; try contradiction.
  - apply Hnew. exact Ha.
  - apply in_app_or in Ic. destruct Ic as [Ic|[E|[]]]; [apply H; assumption|].
    destruct (Hnew sc Hc) as [Hne _]. congruence.
Qed.

Definition qsorted (subs : list sub) (q : list N) : Prop :=
  forall l1 a l2, q = l1 ++ a :: l2 -> before subs [a] l2.

Lemma qsorted_tail subs a q : qsorted subs (a :: q) -> qsorted subs q.
Proof. intros H l1 a' l2 E. apply (H (a :: l1) a' l2). rewrite E. reflexivity. Qed.

Lemma qsorted_split subs pre q : qsorted subs (pre ++ q) -> before subs pre q /\ qsorted subs q.
Proof.
  induction pre as [|a pre IH]; cbn [app]; intro H.
  - split; [apply before_nil_l|exact H].
  - destruct (IH (qsorted_tail _ _ _ H)) as (B1 & B2). split; [|exact B2].
    change (a :: pre) with ([a] ++ pre). apply before_app_l; [|exact B1].
    eapply before_incl; [apply incl_refl| |apply (H [] a (pre ++ q) eq_refl)].
    intros y Hy. apply in_or_app. right; exact Hy.
Qed.

Lemma qsorted_snoc subs sbn q : ~ In (s_task sbn) q ->
  (forall sb, In sb subs -> s_task sb <> s_task sbn /\ s_e sb < s_e sbn) ->
  qsorted subs q -> qsorted (sbn :: subs) (q ++ [s_task sbn]).
Proof.
  intros Hq Hnew Hs l1 a l2 E.
  destruct l2 as [|z l2'] using rev_ind; [apply before_nil_r|]. clear IHl2'.
  rewrite app_comm_cons, app_assoc in E. apply app_inj_tail in E. destruct E as [E <-].
  apply before_enqueue; [|exact Hnew|exact (Hs l1 a l2' E)].
  intros [Ea|[]]. apply Hq. rewrite E, <- Ea. apply in_or_app. right. left. reflexivity.
Qed.

(* what was taken earlier was admitted earlier: [done] went to the executor or the hook,
   [mid] is in the dispatcher's hand or was released from it *)
Record fifo_ok (subs : list sub) (done mid queue : list N) : Prop := {
  f_done : before subs done (mid ++ queue);
  f_mid : before subs mid queue;
  f_queue : qsorted subs queue }.

Lemma fifo_incl subs done mid done' mid' q : incl done' done -> incl mid' mid ->
  fifo_ok subs done mid q -> fifo_ok subs done' mid' q.
Proof.
  intros Hd Hm [A B C]. constructor; [|eapply before_incl; [exact Hm|apply incl_refl|exact B]|exact C].
  eapply before_incl; [exact Hd| |exact A]. apply incl_app; [apply incl_appl; exact Hm|apply incl_appr, incl_refl].
Qed.

Lemma fifo_take subs done mid x r : fifo_ok subs done mid (x :: r) -> fifo_ok subs done (mid ++ [x]) r.
Proof.
  intros [A B C]. constructor.
  - rewrite <- app_assoc. exact A.
  - apply before_app_l; [|exact (C [] x r eq_refl)].
    eapply before_incl; [apply incl_refl|apply incl_tl, incl_refl|exact B].
  - exact (qsorted_tail _ _ _ C).
Qed.

Lemma fifo_flush subs done mid pre q : fifo_ok subs done mid (pre ++ q) -> fifo_ok subs (done ++ mid ++ pre) [] q.
Proof.
  intros [A B C]. destruct (qsorted_split _ _ _ C) as [D E]. constructor; [|apply before_nil_l|exact E].
  cbn [app]. apply before_app_l; [|apply before_app_l; [|exact D]].
  - eapply before_incl; [apply incl_refl| |exact A]. apply incl_appr, incl_appr, incl_refl.
  - eapply before_incl; [apply incl_refl| |exact B]. apply incl_appr, incl_refl.
Qed.

Lemma fifo_cons_fresh subs sb done mid q : ~ In (s_task sb) (done ++ mid ++ q) ->
  fifo_ok subs done mid q -> fifo_ok (sb :: subs) done mid q.
Proof.
  intros Hf [A B C]. rewrite !in_app_iff in Hf. constructor.
  - apply before_cons_fresh; [tauto|rewrite in_app_iff; tauto|exact A].
  - apply before_cons_fresh; [tauto|tauto|exact B].
  - intros l1 a l2 E. rewrite E, in_app_iff in Hf. cbn [In] in Hf.
    apply before_cons_fresh; [cbn [In]; tauto|tauto|exact (C l1 a l2 E)].
Qed.

Lemma fifo_enqueue subs sbn done mid q : ~ In (s_task sbn) (done ++ mid ++ q) ->
  (forall sb, In sb subs -> s_task sb <> s_task sbn /\ s_e sb < s_e sbn) ->
  fifo_ok subs done mid q -> fifo_ok (sbn :: subs) done mid (q ++ [s_task sbn]).
Proof.
  intros Hf Hnew [A B C]. rewrite !in_app_iff in Hf. constructor.
  - rewrite app_assoc. apply before_enqueue; [tauto|exact Hnew|exact A].
  - apply before_enqueue; [tauto|exact Hnew|exact B].
  - apply qsorted_snoc; [tauto|exact Hnew|exact C].
Qed.

Section DPoolProof.
Variable cf : cfg.

Notation d_step := (d_step cf).
Notation d_run := (d_run cf).
Notation d_hist := (d_hist cf).
Notation is_batch := (is_batch cf).
Notation ca := (ca cf).
Notation cr := (cr cf).
Notation bmax := (bmax cf).

Definition pc_task (p : ppc) : option (N * N) :=
  match p with
  | PIdle => None
  | PCheck x st _ | PSlot x st _ | PLock x st | PSend x st _ => Some (x, st)
  end.

Definition pc_past (p : ppc) : option N :=
  match p with
  | PSlot _ st _ | PLock _ st | PSend _ st _ => Some st
  | _ => None
  end.

Definition pc_locked (p : ppc) : bool := match p with PSend _ _ true => true | _ => false end.

(* PSend is locked exactly in the batch pool *)
Definition pc_kind_ok (p : ppc) : Prop :=
  match p with
  | PSend _ _ l => l = is_batch
  | PLock _ _ => is_batch = true
  | _ => True
  end.

Definition disp_late (d : dpc) : bool :=
  match d with
  | DIdle dr | DCollect _ dr | DSubmit _ dr | DInvoke _ dr | DRetry _ dr => dr
  | DCancelQ | DExit => true
  end.

Definition disp_has_hand (d : dpc) : bool :=
  match d with DCollect _ _ | DSubmit _ _ | DInvoke _ _ | DRetry _ _ => true | _ => false end.

Definition done (s : dstate) : list N := held (d_wk s) ++ map r_task (d_runs s) ++ map k_task (d_cans s).
Definition mid (s : dstate) : list N := d_lost s ++ hand_of (d_disp s).
Definition places (s : dstate) : list N := done s ++ mid s ++ d_queue s.

Definition close_flags (s : dstate) : Prop :=
  match d_close s with
  | CIdle => d_closed s = false /\ d_stopped s = false /\ d_ctxdone s = false /\ d_clos s = []
  | CStart cb => d_closed s = false /\ d_stopped s = false /\ d_ctxdone s = false /\ d_clos s = [] /\ cb = d_cb s
  (* batch: closed and stop published together under admissionMu; pool: close(stop) one step later (K1) *)
  | CMid cb => d_closed s = true /\ d_stopped s = is_batch /\ d_ctxdone s = false /\ d_clos s = [] /\ cb = d_cb s
  | CWait cb => d_closed s = true /\ d_stopped s = true /\ d_clos s = [] /\ cb = d_cb s
  | CDone => d_closed s = true /\ d_stopped s = true
  end.

Definition returned (s : dstate) (c : clo) : Prop :=
  d_disp s = DExit /\ all_idle (d_wk s) = true /\ d_closed s = true /\ l_b c = d_cb s /\ l_b c < l_e c
  /\ (forall r, In r (d_runs s) -> r_e r < l_e c)
  /\ (forall k, In k (d_cans s) -> k_at k < l_e c)
  /\ (forall sb, In sb (d_subs s) -> s_res sb = ROk -> s_b sb < l_e c)
  /\ (forall t st, pc_past (d_pc s t) = Some st -> st < l_e c).

Record DInvB (b : N) (s : dstate) : Prop := {
  j_prod : producers PIdle pc_task (fun k => k = 0) b (d_subs s) (d_pcs s);
  j_pck : forall t, pc_kind_ok (d_pc s t);
  (* Close stores closed under admissionMu.Lock: no reader left *)
  j_lock : d_closed s = true -> forall t, pc_locked (d_pc s t) = false;
  j_runs : forall r, In r (d_runs s) -> r_b r < r_e r /\ r_e r <= b /\ r_pos r < N.max 1 (c_batch cf);
  j_cans : forall k, In k (d_cans s) -> k_at k <= b;
  j_krun : forall i l rb, d_k s i = RRun l rb -> rb <= b;
  j_cons : conserved (d_subs s) (places s);
  j_fifo : fifo_ok (d_subs s) (done s) (mid s) (d_queue s);
  j_hand_len : (length (hand_of (d_disp s)) <= bmax)%nat;
  j_hand_ne : disp_has_hand (d_disp s) = true -> hand_of (d_disp s) <> [];
  j_k_len : forall i, (length (k_items (d_k s i)) <= bmax)%nat;
  j_ctx : d_ctxdone s = true -> cr = true /\ d_closed s = true;
  (* program points reached only after close(stop) was seen *)
  j_late : disp_late (d_disp s) = true -> d_closed s = true;
  j_cq : d_disp s = DCancelQ -> ca = true;
  j_cans_cfg : d_cans s <> [] -> ca = true;
  (* ghost: filled only by [d_drop], which exits *)
  j_lost : d_lost s <> [] -> ca = false /\ cr = true;
  j_lost_exit : d_lost s <> [] -> d_disp s = DExit;
  (* what remains queued once the dispatcher has left: K3/K4 (batch), K1 (pool) *)
  j_exit_b : is_batch = true -> d_disp s = DExit -> d_queue s <> [] ->
             (ca = true /\ d_cans s <> []) \/ (ca = false /\ cr = true);
  j_exit_p : is_batch = false -> d_disp s = DExit -> forall x, In x (d_queue s) ->
             exists sb, In sb (d_subs s) /\ s_task sb = x /\ s_res sb = ROk /\ d_cb s < s_e sb;
  j_close : close_flags s;
  j_cb : d_cb s <= b;
  j_ret : forall c, In c (d_clos s) -> returned s c }.

Definition DInv (s : dstate) : Prop := DInvB (d_now s) s.

Lemma any_locked_false pcs : any_locked pcs = false -> forall t, pc_locked (nth t pcs PIdle) = false.
Proof.
  intros H t. destruct (nth_In_or_default t pcs PIdle) as [Hin|E]; [|rewrite E; reflexivity].
  apply not_true_is_false. intro Hl. apply not_true_iff_false in H. apply H.
  unfold any_locked. apply existsb_exists. exists (nth t pcs PIdle). split; [exact Hin|].
  destruct (nth t pcs PIdle) as [| | | |x st [|]]; try discriminate. reflexivity.
Qed.

Ltac prj := unfold places, mid, done, d_pc, d_k;
            cbn [d_now d_closed d_stopped d_ctxdone d_used d_queue d_pcs d_disp d_wk d_close d_cb d_lost
                 d_subs d_runs d_cans d_clos
                 d_set_pc d_ret d_upd_pcs d_uq d_set_disp d_set_k d_cancel d_drop d_set_close d_tick].

Lemma stopped_closed b s : DInvB b s -> d_stopped s = true -> d_closed s = true.
Proof.
  intros HI Hst. pose proof (j_close _ _ HI) as F. unfold close_flags in F.
  destruct (d_close s); try apply F; destruct F as (_ & E & _); congruence.
Qed.

Lemma disp_running b s : DInvB b s -> d_disp s <> DExit -> d_clos s = [] /\ d_lost s = [].
Proof.
  intros HI Hne. split.
  - destruct (d_clos s) as [|c l] eqn:E; [reflexivity|]. exfalso. apply Hne.
    apply (j_ret _ _ HI c). rewrite E. left. reflexivity.
  - destruct (d_lost s) eqn:E; [reflexivity|]. exfalso. apply Hne, (j_lost_exit _ _ HI). rewrite E. discriminate.
Qed.

Lemma work_running b s i : DInvB b s -> (i < length (d_wk s))%nat -> d_k s i <> RIdle -> d_clos s = [].
Proof.
  intros HI Hi Hk. destruct (d_clos s) as [|c l] eqn:E; [reflexivity|]. exfalso. apply Hk.
  apply all_idle_nth. apply (j_ret _ _ HI c). rewrite E. left. reflexivity.
Qed.

Lemma cnt_held_set s i k y : (i < length (d_wk s))%nat ->
  (cnt y (held (set_nth i k RIdle (d_wk s))) + cnt y (k_items (d_k s i)) = cnt y (held (d_wk s)) + cnt y (k_items k))%nat.
Proof. apply cnt_flat_map_set_nth. Qed.

Lemma inv_mono b b' s : b <= b' -> DInvB b s -> DInvB b' s.
Proof.
  intros Hb [ ]. constructor; try assumption.
  - eapply producers_mono; eassumption.
  - intros r Hr. destruct (j_runs0 r Hr) as (A & B & C). repeat split; auto; lia.
  - intros k Hk. specialize (j_cans0 k Hk). lia.
  - intros i l rb E. specialize (j_krun0 i l rb E). lia.
  - lia.
Qed.

Lemma inv_tick s : DInv s -> DInvB (d_now s) (d_tick s).
Proof. intros [ ]. constructor; assumption. Qed.

(* a producer step touches only pcs, slots, queue and Submit records *)
Lemma inv_thread b s t p used' q' subs' :
  DInvB b s ->
  producers PIdle pc_task (fun k => k = 0) b subs' (set_nth t p PIdle (d_pcs s)) ->
  pc_kind_ok p -> (d_closed s = true -> pc_locked p = false) ->
  (forall c st, In c (d_clos s) -> pc_past p = Some st -> st < l_e c) ->
  (forall c sb, In c (d_clos s) -> In sb subs' -> s_res sb = ROk -> s_b sb < l_e c) ->
  conserved subs' (done s ++ mid s ++ q') -> fifo_ok subs' (done s) (mid s) q' ->
  (is_batch = true -> d_disp s = DExit -> q' <> [] -> (ca = true /\ d_cans s <> []) \/ (ca = false /\ cr = true)) ->
  (is_batch = false -> d_disp s = DExit -> forall x, In x q' ->
     exists sb, In sb subs' /\ s_task sb = x /\ s_res sb = ROk /\ d_cb s < s_e sb) ->
  DInvB b (d_upd_pcs (d_uq s used' q') (set_nth t p PIdle (d_pcs s)) subs').
Proof.
  intros [ ] HP Hk Hl Hpast Hsubs HC HF Eb Ep. constructor; try assumption.
  - exact (set_nth_forall (fun _ p => pc_kind_ok p) t p PIdle _ Hk j_pck0).
  - intro Hc. exact (set_nth_forall (fun _ p => pc_locked p = false) t p PIdle _ (Hl Hc) (j_lock0 Hc)).
  - intros c Hc. destruct (j_ret0 c Hc) as (A & B & C & D & E & F & G & _ & H). repeat split; try assumption.
    + exact (fun sb => Hsubs c sb Hc).
    + exact (set_nth_forall (fun _ p => forall st, pc_past p = Some st -> st < l_e c) t p PIdle _
               (fun st => Hpast c st Hc) H).
Qed.

Lemma inv_call b s t wait : DInvB b s -> b < d_now s ->
  DInv (d_set_pc s t (PCheck (d_now s) (d_now s) wait)).
Proof.
  intros HI Hb. pose proof (inv_mono b (d_now s) s ltac:(lia) HI) as HM.
  refine (inv_thread _ s t (PCheck (d_now s) (d_now s) wait) (d_used s) (d_queue s) (d_subs s) HM _ I (fun _ => eq_refl) _ _ _ _ _ _);
    try apply HM; try discriminate.
  - apply (producers_call _ _ _ b); [apply HI|exact Hb|reflexivity].
  - intros c sb Hc. apply (j_ret _ _ HM c Hc).
Qed.

Lemma inv_pc_move b s t p used' : DInvB b s -> pc_task p = pc_task (d_pc s t) -> pc_kind_ok p ->
  (d_closed s = true -> pc_locked p = false) ->
  (forall st, pc_past p = Some st -> pc_past (d_pc s t) = Some st \/ d_closed s = false) ->
  DInvB b (d_set_pc (d_uq s used' (d_queue s)) t p).
Proof.
  intros HI Hp Hk Hl Hpast.
  refine (inv_thread _ s t p used' (d_queue s) (d_subs s) HI _ Hk Hl _ _ _ _ _ _); try apply HI.
  - apply producers_move; [apply HI|exact Hp].
  - intros c st Hc E. destruct (j_ret _ _ HI c Hc) as (_ & _ & Hcl & _ & _ & _ & _ & _ & H).
    destruct (Hpast st E) as [Hold|Hf]; [exact (H t st Hold)|congruence].
  - intros c sb Hc. apply (j_ret _ _ HI c Hc).
Qed.

Lemma inv_ret_rej b s t x st r used' : DInvB b s -> b < d_now s -> pc_task (d_pc s t) = Some (x, st) ->
  r <> ROk -> DInv (d_ret (d_uq s used' (d_queue s)) t x st r).
Proof.
  intros HI Hb Hpc Hr. pose proof (inv_mono b (d_now s) s ltac:(lia) HI) as HM.
  destruct (p_pcs _ _ _ _ _ _ (j_prod _ _ HI) _ _ _ Hpc) as (_ & _ & Hfresh).
  refine (inv_thread _ s t PIdle used' (d_queue s) _ HM _ I (fun _ => eq_refl) _ _ _ _ _ _); try apply HM; try discriminate.
  - exact (producers_ret PIdle pc_task _ b _ _ _ t PIdle x st 0 r (j_prod _ _ HI) Hb Hpc eq_refl eq_refl).
  - intros c sb Hc [<-|Hin] Hok; [contradiction|]. revert Hok. apply (j_ret _ _ HM c Hc). exact Hin.
  - apply conserved_rej; [exact Hr|apply HM].
  - apply fifo_cons_fresh; [exact (conserved_fresh _ _ _ (j_cons _ _ HM) Hfresh)|apply HM].
  - intros Hb0 Hd y Hy. destruct (j_exit_p _ _ HM Hb0 Hd y Hy) as (sb & A & B). exists sb. split; [right; exact A|exact B].
Qed.

Lemma inv_ret_ok b s t x st used' : DInvB b s -> b < d_now s -> pc_task (d_pc s t) = Some (x, st) ->
  pc_past (d_pc s t) = Some st -> (is_batch = true -> d_closed s = false) ->
  DInv (d_ret (d_uq s used' (d_queue s ++ [x])) t x st ROk).
Proof.
  intros HI Hb Hpc Hpast Hbc. pose proof (inv_mono b (d_now s) s ltac:(lia) HI) as HM.
  destruct (p_pcs _ _ _ _ _ _ (j_prod _ _ HI) _ _ _ Hpc) as (_ & _ & Hfresh).
  assert (Hnew : forall sb, In sb (d_subs s) -> s_task sb <> x /\ s_e sb < d_now s).
  { intros sb Hsb. split; [intro E; apply Hfresh; rewrite <- E; apply in_map; exact Hsb|].
    destruct (p_subs _ _ _ _ _ _ (j_prod _ _ HI) sb Hsb) as (_ & _ & X & _). lia. }
  refine (inv_thread _ s t PIdle used' (d_queue s ++ [x]) _ HM _ I (fun _ => eq_refl) _ _ _ _ _ _); try discriminate.
  - exact (producers_ret PIdle pc_task _ b _ _ _ t PIdle x st 0 ROk (j_prod _ _ HI) Hb Hpc eq_refl eq_refl).
  - intros c sb Hc [<-|Hin] Hok; [|revert Hok; apply (j_ret _ _ HM c Hc); exact Hin].
    apply (j_ret _ _ HM c Hc) in Hpast. exact Hpast.
  - apply conserved_ok with (pl := places s); [exact Hfresh| |apply HM].
    intro y. unfold places. rewrite !cnt_app, cnt_cons, cnt_nil. lia.
  - apply (fifo_enqueue _ (Sub x 0 st (d_now s) ROk));
      [exact (conserved_fresh _ _ _ (j_cons _ _ HM) Hfresh)|exact Hnew|apply HM].
  - intros Hb0 Hd _. pose proof (j_late _ _ HM) as L. rewrite Hd in L. specialize (L eq_refl). specialize (Hbc Hb0). congruence.
  - intros Hb0 Hd y Hy. apply in_app_or in Hy. destruct Hy as [Hy|[<-|[]]].
    + destruct (j_exit_p _ _ HM Hb0 Hd y Hy) as (sb & A & B). exists sb. split; [right; exact A|exact B].
    + eexists. split; [left; reflexivity|]. cbn [s_task s_res s_e]. repeat split. pose proof (j_cb _ _ HI). prj. lia.
Qed.

Lemma inv_disp_pc b s d' : DInvB b s -> d_disp s <> DExit -> hand_of d' = hand_of (d_disp s) ->
  (disp_has_hand d' = true -> hand_of d' <> []) ->
  (disp_late d' = true -> d_closed s = true) -> (d' = DCancelQ -> ca = true) ->
  (d' = DExit -> d_queue s = []) ->
  DInvB b (d_set_disp s d').
Proof.
  intros HI Hne Hh Hhn Hl Hq He. destruct (disp_running _ _ HI Hne) as [Hclos Hlost]. destruct HI as [ ].
  constructor; prj; rewrite ?Hh; try assumption; try (rewrite Hclos; intros c []).
  - rewrite <- Hh. exact Hhn.
  - rewrite Hlost. congruence.
  - intros _ Hd Hqn. destruct (Hqn (He Hd)).
  - intros _ Hd x Hx. rewrite (He Hd) in Hx. destruct Hx.
Qed.

Lemma inv_disp_take b s x r d' : DInvB b s -> d_disp s <> DExit -> d_queue s = x :: r ->
  hand_of d' = hand_of (d_disp s) ++ [x] -> (length (hand_of d') <= bmax)%nat ->
  disp_late d' = disp_late (d_disp s) -> d' <> DExit -> d' <> DCancelQ ->
  DInvB b (d_set_disp (d_uq s (d_used s) r) d').
Proof.
  intros HI Hne Hq Hh Hlen Hl Hx1 Hx2. destruct (disp_running _ _ HI Hne) as [Hclos Hlost]. destruct HI as [ ].
  constructor; prj; try assumption; try (intros; contradiction); try (rewrite Hclos; intros c []).
  - apply (conserved_same _ (places s)); [|exact j_cons0]. intro y. prj. rewrite Hh, Hq, !cnt_app, !cnt_cons, cnt_nil. lia.
  - rewrite Hh, (app_assoc (d_lost s)). apply fifo_take. rewrite <- Hq. exact j_fifo0.
  - intros _. rewrite Hh. destruct (hand_of (d_disp s)); discriminate.
  - rewrite Hl. exact j_late0.
Qed.

(* cancelTasks.  [l], [pre], [q'], [used0] are separate so that the conclusion matches the
   model's call sites as written; [pre] is [] or [x]. *)
Lemma inv_cancel s pre q' used0 l d' : DInv s -> d_disp s <> DExit -> d_queue s = pre ++ q' ->
  hand_of (d_disp s) ++ pre = l -> l <> [] -> hand_of d' = [] -> disp_has_hand d' = false ->
  ca = true -> d_closed s = true ->
  DInv (d_cancel (d_uq s used0 q') l d').
Proof.
  intros HI Hne Hq Hl Hln Hh Hhh Hca Hcl. destruct (disp_running _ _ HI Hne) as [Hclos Hlost]. destruct HI as [ ].
  assert (Hb' : is_batch = true) by (pose proof Hca as X; apply andb_true_iff in X; apply X).
  unfold DInv. constructor; prj; rewrite ?Hh; try assumption; try (intros; assumption); try (rewrite Hclos; intros c []).
  - intros k Hk. apply in_app_or in Hk. destruct Hk as [Hk|Hk]; [|apply j_cans0; exact Hk].
    apply in_map_iff in Hk. destruct Hk as (y & <- & _). apply N.le_refl.
  - apply (conserved_same _ (places s)); [|exact j_cons0]. intro y. prj.
    rewrite map_app, map_task_cans, Hq, <- Hl, !cnt_app, ?cnt_nil. lia.
  - rewrite Hlost. rewrite Hq in j_fifo0. apply fifo_flush in j_fifo0. revert j_fifo0.
    apply fifo_incl; [|apply incl_refl]. apply incl_cnt. intro y. prj.
    rewrite map_app, map_task_cans, <- Hl, !cnt_app, ?cnt_nil. lia.
  - cbn. lia.
  - rewrite Hhh. discriminate.
  - rewrite Hlost. congruence.
  - intros _ _ _. left. split; [exact Hca|]. destruct l; [congruence|discriminate].
  - congruence.
Qed.

(* retryExecutor on ctx.Done without CancelAcceptedOnClose *)
Lemma inv_drop b s h : DInvB b s -> d_disp s <> DExit -> h = hand_of (d_disp s) ->
  d_ctxdone s = true -> should_cancel cf s = false ->
  DInvB b (d_drop s h DExit).
Proof.
  intros HI Hne -> Hctx Hsc. destruct (disp_running _ _ HI Hne) as [Hclos Hlost]. destruct HI as [ ].
  destruct (j_ctx0 Hctx) as (Hcr & Hcl). unfold should_cancel in Hsc. rewrite Hcl, andb_true_r in Hsc.
  constructor; prj; try assumption; try discriminate; try (intros; assumption); try (rewrite Hclos; intros c []).
  - apply (conserved_same _ (places s)); [|exact j_cons0]. intro y. prj. cbn [hand_of]. rewrite !cnt_app, cnt_nil. lia.
  - revert j_fifo0. apply fifo_incl; [apply incl_refl|]. apply incl_cnt. intro y. prj. cbn [hand_of].
    rewrite !cnt_app, cnt_nil. lia.
  - cbn. lia.
  - intros _. split; assumption.
  - reflexivity.
  - intros _ _ _. right. split; assumption.
  - intros Hb0. exfalso. unfold Model.WorkQueue_dpool.cr in Hcr. rewrite Hb0 in Hcr. discriminate.
Qed.

Lemma inv_invoke_ok b s h dr i used' : DInvB b s -> d_disp s = DInvoke h dr -> (i < length (d_wk s))%nat ->
  d_k s i = RIdle ->
  DInvB b (d_set_k (d_set_disp (d_uq s used' (d_queue s)) (DIdle dr)) i (RGot h)).
Proof.
  intros HI Hd Hi Hk. destruct (disp_running _ _ HI) as [Hclos Hlost]; [rewrite Hd; discriminate|].
  pose proof (fun y => cnt_held_set s i (RGot h) y Hi) as Hcnt. rewrite Hk in Hcnt. cbn [k_items] in Hcnt.
  destruct HI as [ ]. rewrite Hd in j_late0, j_hand_len0.
  constructor; prj; try assumption; try discriminate; try (rewrite Hclos; intros c []).
  - apply (set_nth_forall (fun _ k => forall l rb, k = RRun l rb -> rb <= b)); [discriminate|exact j_krun0].
  - apply (conserved_same _ (places s)); [|exact j_cons0]. intro y. specialize (Hcnt y). prj.
    rewrite Hd. cbn [hand_of]. rewrite !cnt_app, cnt_nil in *. lia.
  - rewrite Hlost. apply (fifo_incl _ (done s ++ mid s ++ []) []); [|apply incl_refl|apply fifo_flush, j_fifo0].
    apply incl_cnt. intro y. specialize (Hcnt y). prj. rewrite Hd. cbn [hand_of]. rewrite !cnt_app, cnt_nil in *. lia.
  - cbn. lia.
  - apply (set_nth_forall (fun _ k => (length (k_items k) <= bmax)%nat)); [exact j_hand_len0|exact j_k_len0].
  - rewrite Hlost. congruence.
Qed.

Lemma inv_work_start s i l : DInv s -> (i < length (d_wk s))%nat -> d_k s i = RGot l ->
  DInv (d_set_k s i (RRun l (d_now s))).
Proof.
  intros HI Hi Hk. pose proof (work_running _ s i HI Hi ltac:(rewrite Hk; discriminate)) as Hclos.
  pose proof (fun y => cnt_held_set s i (RRun l (d_now s)) y Hi) as Hcnt. rewrite Hk in Hcnt. cbn [k_items] in Hcnt.
  pose proof (j_k_len _ _ HI i) as Hlen. rewrite Hk in Hlen.
  destruct HI as [ ]. unfold DInv. constructor; prj; try assumption; try (rewrite Hclos; intros c []).
  - apply (set_nth_forall (fun _ k => forall l0 rb, k = RRun l0 rb -> rb <= d_now s)); [|exact j_krun0].
    intros l0 rb E. inversion E. apply N.le_refl.
  - apply (conserved_same _ (places s)); [|exact j_cons0]. intro y. specialize (Hcnt y). prj. rewrite !cnt_app, ?cnt_nil. lia.
  - revert j_fifo0. apply fifo_incl; [|apply incl_refl]. apply incl_cnt. intro y. specialize (Hcnt y). prj.
    rewrite !cnt_app, ?cnt_nil. lia.
  - apply (set_nth_forall (fun _ k => (length (k_items k) <= bmax)%nat)); [exact Hlen|exact j_k_len0].
Qed.

Lemma inv_work_end b s i l rb : DInvB b s -> b < d_now s -> (i < length (d_wk s))%nat -> d_k s i = RRun l rb ->
  let s' := d_set_k s i RIdle in
  DInv (DSt (d_now s') (d_closed s') (d_stopped s') (d_ctxdone s') (d_used s') (d_queue s') (d_pcs s') (d_disp s') (d_wk s')
          (d_close s') (d_cb s') (d_lost s') (d_subs s') (mk_runs l rb (d_now s) 0 ++ d_runs s') (d_cans s') (d_clos s')).
Proof.
  intros HI Hb Hi Hk s'. pose proof (j_krun _ _ HI i l rb Hk) as Hrb.
  pose proof (work_running _ s i HI Hi ltac:(rewrite Hk; discriminate)) as Hclos.
  pose proof (fun y => cnt_held_set s i RIdle y Hi) as Hcnt. rewrite Hk in Hcnt. cbn [k_items] in Hcnt.
  pose proof (j_k_len _ _ HI i) as Hlen. rewrite Hk in Hlen. cbn [k_items] in Hlen.
  apply (inv_mono b (d_now s)) in HI; [|lia]. destruct HI as [ ].
  unfold DInv, s'. constructor; prj; try assumption; try (rewrite Hclos; intros c []).
  - intros r Hr. apply in_app_or in Hr. destruct Hr as [Hr|Hr]; [|apply j_runs0; exact Hr].
    destruct (mk_runs_spec _ _ _ _ _ Hr) as (A & B & C & D). rewrite A, B. repeat split; try lia.
    unfold Model.WorkQueue_dpool.bmax in Hlen. lia.
  - apply (set_nth_forall (fun _ k => forall l0 rb0, k = RRun l0 rb0 -> rb0 <= d_now s)); [discriminate|exact j_krun0].
  - apply (conserved_same _ (places s)); [|exact j_cons0]. intro y. specialize (Hcnt y). prj.
    rewrite map_app, map_task_mk_runs, !cnt_app, cnt_nil in *. lia.
  - revert j_fifo0. apply fifo_incl; [|apply incl_refl]. apply incl_cnt. intro y. specialize (Hcnt y). prj.
    rewrite map_app, map_task_mk_runs, !cnt_app, cnt_nil in *. lia.
  - apply (set_nth_forall (fun _ k => (length (k_items k) <= bmax)%nat)); [cbn; lia|exact j_k_len0].
Qed.

Lemma inv_close_call b s : DInvB b s -> b < d_now s -> d_close s = CIdle ->
  DInv (d_set_close s (d_closed s) (d_stopped s) (d_ctxdone s) (CStart (d_now s)) (d_now s) (d_clos s)).
Proof.
  intros HI Hb Hc. apply (inv_mono b (d_now s)) in HI; [|lia]. destruct HI as [ ].
  unfold close_flags in j_close0. rewrite Hc in j_close0. destruct j_close0 as (A & B & C & D).
  unfold DInv. constructor; unfold close_flags; prj; try assumption.
  - intros _ Hd. rewrite Hd in j_late0. specialize (j_late0 eq_refl). congruence.
  - repeat split; assumption.
  - apply N.le_refl.
  - rewrite D. intros c [].
Qed.

Lemma inv_close_store b s cb : DInvB b s -> d_close s = CStart cb ->
  (is_batch = true -> any_locked (d_pcs s) = false) ->
  DInvB b (d_set_close s true (if is_batch then true else d_stopped s) (d_ctxdone s) (CMid cb) (d_cb s) (d_clos s)).
Proof.
  intros [ ] Hc Hl. unfold close_flags in j_close0. rewrite Hc in j_close0. destruct j_close0 as (A & B & C & D & E).
  constructor; unfold close_flags; prj; try assumption; try (intros; reflexivity).
  - intros _ t. destruct is_batch eqn:Hb; [apply any_locked_false, Hl; reflexivity|].
    specialize (j_pck0 t). unfold d_pc in j_pck0. destruct (nth t (d_pcs s) PIdle) as [| | | |x st [|]]; try reflexivity.
    cbn [pc_kind_ok] in j_pck0. congruence.
  - rewrite C. discriminate.
  - rewrite B. repeat split; try assumption. destruct is_batch; reflexivity.
  - rewrite D. intros c [].
Qed.

Lemma inv_close_mid b s cb : DInvB b s -> d_close s = CMid cb ->
  DInvB b (d_set_close s (d_closed s) (if is_batch then d_stopped s else true)
                       (if is_batch then d_ctxdone s || cr else d_ctxdone s) (CWait cb) (d_cb s) (d_clos s)).
Proof.
  intros [ ] Hc. unfold close_flags in j_close0. rewrite Hc in j_close0. destruct j_close0 as (A & B & C & D & E).
  constructor; unfold close_flags; prj; try assumption; try (intros; assumption).
  - rewrite C. destruct is_batch; cbn [orb]; [|discriminate]. intro Hcr. split; [exact Hcr|exact A].
  - rewrite B. repeat split; try assumption. destruct is_batch; reflexivity.
Qed.

Lemma inv_close_done b s cb : DInvB b s -> b < d_now s -> d_close s = CWait cb -> d_disp s = DExit ->
  all_idle (d_wk s) = true ->
  DInv (d_set_close s (d_closed s) (d_stopped s) (d_ctxdone s) CDone (d_cb s) (Clo cb (d_now s) true :: d_clos s)).
Proof.
  intros HI Hb Hc Hd Hidle. pose proof (j_close _ _ HI) as F. unfold close_flags in F. rewrite Hc in F.
  destruct F as (A & B & C & D).
  destruct (inv_mono b (d_now s) s ltac:(lia) HI) as [ ].
  unfold DInv. constructor; unfold close_flags; prj; try assumption.
  - split; assumption.
  - rewrite C. intros c [<-|[]]. unfold returned. prj. cbn [l_b l_e]. pose proof (j_cb _ _ HI) as Hcb.
    repeat split; try assumption; try lia.
    + intros r Hr. destruct (j_runs _ _ HI r Hr) as (_ & X & _). lia.
    + intros k Hk. pose proof (j_cans _ _ HI k Hk). lia.
    + intros sb Hsb _. destruct (p_subs _ _ _ _ _ _ (j_prod _ _ HI) sb Hsb) as (_ & X & Y & _). lia.
    + intros t st Hp. assert (Ht : exists x, pc_task (nth t (d_pcs s) PIdle) = Some (x, st)).
      { destruct (nth t (d_pcs s) PIdle); try discriminate; cbn [pc_past pc_task] in *; inversion Hp; subst; eexists; reflexivity. }
      destruct Ht as (x & Ht). destruct (p_pcs _ _ _ _ _ _ (j_prod _ _ HI) _ _ _ Ht) as (_ & X & _). lia.
Qed.

Lemma bmax_pos : (1 <= bmax)%nat.
Proof. unfold Model.WorkQueue_dpool.bmax. lia. Qed.

Lemma should_cancel_true s : should_cancel cf s = true -> ca = true /\ d_closed s = true.
Proof. unfold should_cancel. intro H. apply andb_true_iff in H. exact H. Qed.

(* [HB] bounds the ticked state by the old clock (for fresh stamps), [HM] by its own *)
Lemma inv_thread_step s t alt : DInv s -> let s1 := d_tick s in DInv (d_thread_step cf s1 t alt).
Proof.
  intros HI0 s1. pose proof (inv_tick s HI0) as HB.
  assert (Hb : d_now s < d_now s1) by (unfold s1; cbn; lia).
  assert (HM : DInv s1) by (apply (inv_mono (d_now s)); [lia|exact HB]).
  fold s1 in HB. unfold d_thread_step.
  assert (Hrej : forall x st r used', pc_task (d_pc s1 t) = Some (x, st) -> r <> ROk ->
                   DInv (d_ret (d_uq s1 used' (d_queue s1)) t x st r))
    by (intros; apply (inv_ret_rej (d_now s)); assumption).
  pose proof (j_pck _ _ HM t) as K.
  destruct (d_pc s1 t) as [|x st wait|x st wait|x st|x st locked] eqn:Hpc; [exact HM| | | |]; cbn [pc_kind_ok] in K.
  - destruct (d_closed s1) eqn:Hcl.
    + apply (Hrej x st RClosed (d_used s1)); [reflexivity|discriminate].
    + apply (inv_pc_move _ s1 t _ (d_used s1) HM); rewrite ?Hpc; try reflexivity; try exact I. right; exact Hcl.
  - destruct alt.
    + destruct (d_stopped s1); [|exact HM]. apply (Hrej x st RClosed (d_used s1)); [reflexivity|discriminate].
    + destruct (d_used s1 <? dcap cf).
      * apply (inv_pc_move _ s1 t _ _ HM); rewrite ?Hpc; destruct is_batch eqn:Hbt; cbn [pc_kind_ok]; auto.
      * destruct (d_stopped s1); [exact HM|]. destruct wait; [exact HM|].
        apply (Hrej x st RFull (d_used s1)); [reflexivity|discriminate].
  - destruct (d_closed s1) eqn:Hcl.
    + apply Hrej; [reflexivity|discriminate].
    + apply (inv_pc_move _ s1 t _ (d_used s1) HM); rewrite ?Hpc; try reflexivity; auto; congruence.
  - destruct alt.
    + destruct (d_stopped s1); [|exact HM]. apply Hrej; [reflexivity|discriminate].
    + destruct (room cf s1).
      * apply (inv_ret_ok (d_now s)); auto; rewrite ?Hpc; try reflexivity.
        intro Hbt. destruct (d_closed s1) eqn:Hcl; [|reflexivity].
        pose proof (j_lock _ _ HM Hcl t) as L. rewrite Hpc in L. rewrite K, Hbt in L. discriminate.
      * destruct (d_stopped s1); [exact HM|]. apply Hrej; [reflexivity|discriminate].
Qed.


(* submitToExecutor / retryExecutor: same batch, same drain flag *)
Lemma inv_disp_next s d' : DInv s -> disp_has_hand (d_disp s) = true -> disp_has_hand d' = true ->
  hand_of d' = hand_of (d_disp s) -> disp_late d' = disp_late (d_disp s) -> DInv (d_set_disp s d').
Proof.
  intros HI Hh Hh' Eh El. apply inv_disp_pc.
  - exact HI.
  - intro E. rewrite E in Hh. discriminate.
  - exact Eh.
  - intros _. rewrite Eh. exact (j_hand_ne _ _ HI Hh).
  - rewrite El. exact (j_late _ _ HI).
  - intro E. rewrite E in Hh'. discriminate.
  - intro E. rewrite E in Hh'. discriminate.
Qed.

Lemma inv_disp_exit s : DInv s -> d_disp s <> DExit -> hand_of (d_disp s) = [] -> disp_late (d_disp s) = true ->
  d_queue s = [] -> DInv (d_set_disp s DExit).
Proof.
  intros HI Hne Eh Hl Hq. apply inv_disp_pc; try assumption; try discriminate.
  - symmetry. exact Eh.
  - intros _. exact (j_late _ _ HI Hl).
  - intros _. exact Hq.
Qed.

(* dispatch sees stop *)
Lemma inv_disp_stop s : DInv s -> d_disp s = DIdle false -> d_closed s = true ->
  DInv (d_set_disp s (if ca then DCancelQ else DIdle true)).
Proof.
  intros HI Hd Hcl. apply inv_disp_pc; rewrite ?Hd; try assumption; try discriminate.
  - destruct ca; reflexivity.
  - destruct ca; discriminate.
  - intros _. exact Hcl.
  - destruct ca; [reflexivity|discriminate].
  - destruct ca; discriminate.
Qed.

Lemma inv_take_first s x r dr : DInv s -> d_disp s = DIdle dr -> d_queue s = x :: r ->
  DInv (d_set_disp (d_uq s (d_used s) r) (DCollect [x] dr)).
Proof.
  intros HI Hd Hq. apply (inv_disp_take _ _ x r); rewrite ?Hd; try assumption; try discriminate; try reflexivity.
  exact bmax_pos.
Qed.

(* collectBatch / extendBatchReady *)
Lemma inv_take_more s x r d' : DInv s -> disp_has_hand (d_disp s) = true -> disp_has_hand d' = true ->
  d_queue s = x :: r -> hand_of d' = hand_of (d_disp s) ++ [x] -> (length (hand_of (d_disp s)) < bmax)%nat ->
  disp_late d' = disp_late (d_disp s) -> DInv (d_set_disp (d_uq s (d_used s) r) d').
Proof.
  intros HI Hh Hh' Hq Eh Hlen El. apply (inv_disp_take _ _ x r); try assumption.
  - intro E. rewrite E in Hh. discriminate.
  - rewrite Eh, app_length. cbn [length]. lia.
  - intro E. rewrite E in Hh'. discriminate.
  - intro E. rewrite E in Hh'. discriminate.
Qed.

Lemma inv_cancel_hand s h d' : DInv s -> disp_has_hand (d_disp s) = true -> hand_of (d_disp s) = h ->
  hand_of d' = [] -> disp_has_hand d' = false -> ca = true -> d_closed s = true -> DInv (d_cancel s h d').
Proof.
  intros HI Hh <- Eh Eh' Hca Hcl. apply (inv_cancel s [] (d_queue s) (d_used s) _ d'); try assumption.
  - intro E. rewrite E in Hh. discriminate.
  - reflexivity.
  - apply app_nil_r.
  - exact (j_hand_ne _ _ HI Hh).
Qed.

(* cancelTasks on the queue head *)
Lemma inv_cancel_head s x r : DInv s -> d_disp s <> DExit -> hand_of (d_disp s) = [] -> d_queue s = x :: r ->
  ca = true -> d_closed s = true -> DInv (d_cancel (d_uq s (d_used s) r) [x] DCancelQ).
Proof.
  intros HI Hne Eh Hq Hca Hcl. apply (inv_cancel s [x] r (d_used s) [x] DCancelQ); try assumption; try reflexivity.
  - rewrite Eh. reflexivity.
  - discriminate.
Qed.

Lemma inv_disp_step s c : DInv s -> let s1 := d_tick s in DInv (d_disp_step cf s1 c).
Proof.
  intros HI0 s1. pose proof (inv_tick s HI0) as HB.
  assert (HM : DInv s1) by (apply (inv_mono (d_now s)); [unfold s1; cbn; lia|exact HB]).
  clear HB HI0. unfold d_disp_step.
  destruct (d_disp s1) as [dr|h dr|h dr|h dr|h dr| |] eqn:Hd.
  - (* dispatch / drainQueue *)
    destruct dr.
    + destruct (d_queue s1) as [|x r] eqn:Hq; [|exact (inv_take_first _ _ _ _ HM Hd Hq)].
      apply inv_disp_exit; rewrite ?Hd; try assumption; try reflexivity. discriminate.
    + destruct c; try exact HM.
      * destruct (d_queue s1) as [|x r] eqn:Hq; [exact HM|].
        destruct (should_cancel cf s1) eqn:Hsc; [|exact (inv_take_first _ _ _ _ HM Hd Hq)].
        destruct (should_cancel_true _ Hsc) as (Hca & Hcl).
        apply inv_cancel_head; rewrite ?Hd; try assumption; [discriminate|reflexivity].
      * destruct (d_stopped s1) eqn:Hst; [|exact HM].
        pose proof (inv_disp_stop s1 HM Hd (stopped_closed _ _ HM Hst)) as X. destruct ca; exact X.
  - (* collectBatch *)
    destruct c; try exact HM.
    + destruct (d_queue s1) as [|x r] eqn:Hq; [exact HM|].
      destruct (Nat.ltb_spec (length h) bmax) as [Hl|Hge]; [|exact HM].
      apply (inv_take_more _ x r); rewrite ?Hd; try assumption; reflexivity.
    + destruct (should_cancel cf s1) eqn:Hsc; [|apply inv_disp_next; rewrite ?Hd; try assumption; reflexivity].
      destruct (should_cancel_true _ Hsc) as (Hca & Hcl).
      apply inv_cancel_hand; rewrite ?Hd; try assumption; reflexivity.
  - (* submitToExecutor, top of the loop *)
    destruct (should_cancel cf s1) eqn:Hsc; [|apply inv_disp_next; rewrite ?Hd; try assumption; reflexivity].
    destruct (should_cancel_true _ Hsc) as (Hca & Hcl).
    apply inv_cancel_hand; rewrite ?Hd; try assumption; reflexivity.
  - (* extendBatchReady, pool.Invoke *)
    destruct c; try exact HM.
    + destruct (d_queue s1) as [|x r] eqn:Hq; [exact HM|].
      destruct (Nat.ltb_spec (length h) bmax) as [Hl|Hge]; [|exact HM].
      apply (inv_take_more _ x r); rewrite ?Hd; try assumption; reflexivity.
    + destruct (Nat.ltb_spec i (length (d_wk s1))) as [Hi|Hi]; [|exact HM].
      destruct (d_k s1 i) eqn:Hk; try exact HM. exact (inv_invoke_ok _ _ _ _ _ _ HM Hd Hi Hk).
    + apply inv_disp_next; rewrite ?Hd; try assumption; reflexivity.
  - (* retryExecutor *)
    destruct c; try exact HM.
    + destruct (ca && d_stopped s1) eqn:Hcs; [|exact HM]. apply andb_true_iff in Hcs. destruct Hcs as (Hca & Hst).
      pose proof (stopped_closed _ _ HM Hst) as Hcl. apply inv_cancel_hand; rewrite ?Hd; try assumption; reflexivity.
    + apply inv_disp_next; rewrite ?Hd; try assumption; reflexivity.
    + destruct (d_ctxdone s1) eqn:Hctx; [|exact HM].
      destruct (should_cancel cf s1) eqn:Hsc.
      * destruct (should_cancel_true _ Hsc) as (Hca & Hcl). apply inv_cancel_hand; rewrite ?Hd; try assumption; reflexivity.
      * apply inv_drop; rewrite ?Hd; try assumption; [discriminate|reflexivity].
  - (* cancelQueued *)
    pose proof (j_cq _ _ HM Hd) as Hca. pose proof (j_late _ _ HM) as Hcl. rewrite Hd in Hcl. specialize (Hcl eq_refl).
    destruct (d_queue s1) as [|x r] eqn:Hq.
    + apply inv_disp_exit; rewrite ?Hd; try assumption; try reflexivity. discriminate.
    + apply inv_cancel_head; rewrite ?Hd; try assumption; [discriminate|reflexivity].
  - exact HM.
Qed.

Lemma inv_step s e : DInv s -> DInv (d_step s e).
Proof.
  intro HI0. pose proof (inv_tick s HI0) as HB. unfold Model.WorkQueue_dpool.d_step.
  destruct e as [t wait|t alt|c|i| |]; [| apply inv_thread_step; exact HI0 | apply inv_disp_step; exact HI0 | | |].
  all: set (s1 := d_tick s) in *; assert (Hb : d_now s < d_now s1) by (unfold s1; cbn; lia);
       assert (HM : DInv s1) by (apply (inv_mono (d_now s)); [lia|exact HB]).
  - destruct (d_pc s1 t) eqn:Hpc; try exact HM. apply (inv_call (d_now s)); auto.
  - unfold d_work_step. destruct (Nat.ltb_spec i (length (d_wk s1))) as [Hi|Hi]; cbn [negb]; [|exact HM].
    destruct (d_k s1 i) as [|l|l rb] eqn:Hk; [exact HM| |].
    + apply inv_work_start; auto.
    + apply (inv_work_end (d_now s)); auto.
  - destruct (d_close s1) eqn:Hc; try exact HM. apply (inv_close_call (d_now s)); auto.
  - unfold d_close_step. destruct (d_close s1) as [|cb|cb|cb|] eqn:Hc; try exact HM.
    + destruct is_batch eqn:Hbt.
      * destruct (any_locked (d_pcs s1)) eqn:Hal; [exact HM|].
        pose proof (inv_close_store _ s1 cb HM Hc) as X. rewrite Hbt in X. apply X. intros _. exact Hal.
      * pose proof (inv_close_store _ s1 cb HM Hc) as X. rewrite Hbt in X. apply X. discriminate.
    + pose proof (inv_close_mid _ s1 cb HM Hc) as X. destruct is_batch; exact X.
    + destruct (d_disp s1) eqn:Hd; try exact HM.
      destruct (all_idle (d_wk s1)) eqn:Hid; [|exact HM].
      apply (inv_close_done (d_now s)); auto.
Qed.

Lemma inv_init : DInv (d_init cf).
Proof.
  assert (Hp : forall t, nth t [] PIdle = PIdle) by (intros [|t]; reflexivity).
  constructor; unfold close_flags; prj; cbn [d_init d_pcs d_wk d_subs d_runs d_cans d_clos d_lost d_disp d_queue d_closed
                                              d_stopped d_ctxdone d_close d_cb d_now hand_of map app];
    unfold held; rewrite ?(flat_map_repeat_nil k_items RIdle) by reflexivity; try discriminate; try solve [intros ? []]; try (intros; congruence).
  - apply producers_init. reflexivity.
  - intro t. rewrite Hp. exact I.
  - intros i l rb. rewrite nth_repeat. discriminate.
  - split; [intro; cbn; lia|]. intro x. split; [intros []|intros (sb & [] & _)].
  - constructor; [apply before_nil_l|apply before_nil_l|intros l1 a l2 E; destruct l1; discriminate].
  - cbn. lia.
  - intro i. rewrite nth_repeat. cbn. lia.
  - repeat split; reflexivity.
Qed.

Theorem inv_run evs : DInv (d_run evs).
Proof. apply (fold_left_inv DInv); [exact inv_step|exact inv_init]. Qed.

Lemma d_at_most_once s : DInv s -> NoDup (map r_task (d_runs s) ++ map k_task (d_cans s)).
Proof.
  intro HI. apply NoDup_cnt. intro x. pose proof (proj1 (j_cons _ _ HI) x) as H.
  unfold places, done in H. rewrite !cnt_app in *. lia.
Qed.

Lemma d_rejected_never_runs s sb : DInv s ->
  In sb (d_subs s) -> s_res sb <> ROk -> ~ In (s_task sb) (map r_task (d_runs s) ++ map k_task (d_cans s)).
Proof.
  intros HI Hin Hr Hran.
  assert (Hpl : In (s_task sb) (places s)) by (unfold places, done; rewrite !in_app_iff in *; tauto).
  apply (j_cons _ _ HI) in Hpl. destruct Hpl as (sb' & Hin' & Et & Er).
  rewrite (producers_sub_unique _ _ _ _ _ _ sb' sb (j_prod _ _ HI) Hin' Hin Et) in Er. contradiction.
Qed.

Lemma d_close_waits_or_stranded s c sb : DInv s -> In c (d_clos s) -> In sb (d_subs s) -> s_res sb = ROk ->
  (exists r, In r (d_runs s) /\ r_task r = s_task sb /\ r_e r < l_e c)
  \/ (exists k, In k (d_cans s) /\ k_task k = s_task sb /\ k_at k < l_e c)
  \/ (~ In (s_task sb) (map r_task (d_runs s) ++ map k_task (d_cans s))
      /\ d_disp s = DExit /\ s_b sb < l_e c /\ l_b c = d_cb s
      /\ (In (s_task sb) (d_queue s) \/ In (s_task sb) (d_lost s))
      /\ (forall x, In x (d_subs s) -> s_e sb < s_b x ->
            ~ In (s_task x) (map r_task (d_runs s) ++ map k_task (d_cans s)))).
Proof.
  intros HI Hc Hin Hr.
  destruct (j_ret _ _ HI c Hc) as (Hd & Hidle & _ & Hcb & _ & Hruns & Hcans & Hsubs & _).
  assert (Hpl : In (s_task sb) (places s)) by (apply (j_cons _ _ HI); exists sb; auto).
  pose proof (proj1 (j_cons _ _ HI) (s_task sb)) as Honce.
  unfold places, done, mid in Hpl, Honce. rewrite Hd, (held_all_idle _ Hidle) in Hpl, Honce.
  cbn [hand_of app] in Hpl, Honce. rewrite app_nil_r, !cnt_app in Honce. rewrite app_nil_r, !in_app_iff in Hpl.
  assert (Hstranded : In (s_task sb) (d_lost s ++ d_queue s) ->
            ~ In (s_task sb) (map r_task (d_runs s) ++ map k_task (d_cans s))
            /\ forall x, In x (d_subs s) -> s_e sb < s_b x ->
                 ~ In (s_task x) (map r_task (d_runs s) ++ map k_task (d_cans s))).
  { intro Hw. split.
    - intro Ht. apply cnt_In in Ht. apply cnt_In in Hw. rewrite cnt_app in Ht, Hw. lia.
    - intros x Hx Hlt Ht. assert (X : s_e x < s_e sb).
      { apply (f_done _ _ _ _ (j_fifo _ _ HI) x sb Hx Hin); unfold done, mid; rewrite !in_app_iff in *; tauto. }
      destruct (p_subs _ _ _ _ _ _ (j_prod _ _ HI) x Hx) as (_ & Y & _). lia. }
  rewrite in_app_iff in Hstranded.
  destruct Hpl as [[Hran|Hcan]|[Hl|Hq]].
  - left. apply in_map_iff in Hran. destruct Hran as (r & Er & Hr'). exists r. auto.
  - right; left. apply in_map_iff in Hcan. destruct Hcan as (k & Ek & Hk'). exists k. auto.
  - right; right. destruct Hstranded as [A B]; [left; exact Hl|].
    exact (conj A (conj Hd (conj (Hsubs sb Hin Hr) (conj Hcb (conj (or_intror Hl) B))))).
  - right; right. destruct Hstranded as [A B]; [right; exact Hq|].
    exact (conj A (conj Hd (conj (Hsubs sb Hin Hr) (conj Hcb (conj (or_introl Hq) B))))).
Qed.

Hypothesis kind_dp : c_kind cf = KPool \/ c_kind cf = KBatch.

Definition dcode : N := if is_batch then (if ca then 5 else if cr then 4 else 0) else 2.

Theorem d_monitor s : DInv s -> allowed dcode (C37_monitor (d_hist s)).
Proof.
  intro HI.
  apply monitor_allowed; [unfold dcode; destruct is_batch, ca, cr; discriminate| | | | |].
  - apply ok_once_intro. apply d_at_most_once. exact HI.
  - apply ok_rejected_intro. intros sb Hin Hr. apply d_rejected_never_runs; [exact HI|exact Hin|].
    intro E. rewrite E in Hr. discriminate.
  - unfold ok_cancel_cfg, d_hist. cbn [h_cans h_cfg]. destruct (d_cans s) eqn:Ec; [reflexivity|].
    assert (Hca : ca = true) by (apply (j_cans_cfg _ _ HI); rewrite Ec; discriminate). exact Hca.
  - unfold ok_mailbox, d_hist. cbn [h_cfg]. destruct kind_dp as [E|E]; rewrite E; reflexivity.
  - intros c Hc _ sb Hin Hr.
    assert (Er : s_res sb = ROk) by (destruct (s_res sb); try discriminate; reflexivity).
    destruct (d_close_waits_or_stranded s c sb HI Hc Hin Er) as [(r & A & B & C)|[(k & A & B & C)|(Hnt & Hd & Hsb & Hcb & Hwhere & Hlater)]].
    + left. apply task_code_zero. eapply terminal_before_run; eauto.
    + left. apply task_code_zero. eapply terminal_before_can; eauto.
    + unfold task_code.
      rewrite (terminal_before_false (d_hist s) _ _ Hnt), (has_terminal_false (d_hist s) _ Hnt).
      assert (Hnl : no_later_terminal (d_hist s) sb = true).
      { unfold no_later_terminal. apply forallb_forall. intros x Hx. apply negb_true_iff.
        destruct (is_ok (s_res x)); [|reflexivity]. destruct (N.ltb_spec (s_e sb) (s_b x)) as [Hl|Hl]; [|reflexivity].
        cbn [andb]. apply has_terminal_false. apply (Hlater x Hx Hl). }
      rewrite Hnl.
      (* stranded: queued, or released by retryExecutor *)
      assert (Hwhy : In (s_task sb) (d_queue s) \/ (ca = false /\ cr = true)).
      { destruct Hwhere as [Hq|Hl]; [left; exact Hq|right]. apply (j_lost _ _ HI). intro E0. rewrite E0 in Hl. destruct Hl. }
      unfold Model.WorkQueue_dpool.d_hist. cbn [h_cfg h_cans h_clos]. unfold dcode.
      assert (Hib : is_batch = kind_eqb (c_kind cf) KBatch) by reflexivity.
      destruct kind_dp as [Ek|Ek]; rewrite Ek in *; cbn [kind_eqb] in Hib; rewrite Hib; right.
      *
        destruct Hwhy as [Hq|[_ Hcr]]; [|unfold Model.WorkQueue_dpool.cr in Hcr; rewrite Hib in Hcr; discriminate].
        destruct (j_exit_p _ _ HI Hib Hd _ Hq) as (sb' & Hin' & Et & _ & Hse).
        rewrite (producers_sub_unique _ _ _ _ _ _ sb' sb (j_prod _ _ HI) Hin' Hin Et) in Hse.
        replace (existsb (fun c' => (s_b sb <? l_e c') && (l_b c' <? s_e sb)) (d_clos s)) with true; [reflexivity|].
        symmetry. apply existsb_exists. exists c. split; [exact Hc|].
        apply andb_true_iff. split; apply N.ltb_lt; [exact Hsb|rewrite Hcb; exact Hse].
      *
        assert (Eca : c_cancel_acc cf = ca) by (unfold Model.WorkQueue_dpool.ca; rewrite Hib; reflexivity).
        assert (Ecr : c_cancel_run cf = cr) by (unfold Model.WorkQueue_dpool.cr; rewrite Hib; reflexivity).
        rewrite Eca, Ecr.
        assert (Hb : (ca = true /\ d_cans s <> []) \/ (ca = false /\ cr = true)).
        { destruct Hwhy as [Hq|H]; [|right; exact H]. apply (j_exit_b _ _ HI Hib Hd). intro E0. rewrite E0 in Hq. destruct Hq. }
        destruct Hb as [(-> & Hcn)|(-> & ->)]; [destruct (d_cans s); [congruence|reflexivity]|reflexivity].
Qed.

Corollary d_monitor_plain s : DInv s -> is_batch = true -> ca = false -> cr = false ->
  C37_monitor (d_hist s) = 0.
Proof.
  intros HI Hb Hca Hcr. pose proof (d_monitor s HI) as H. unfold dcode in H. rewrite Hb, Hca, Hcr in H.
  exact (allowed_0 _ H).
Qed.

Theorem d_accepts s : DInv s -> C37_mismatch (d_hist s) = false.
Proof.
  intro HI. apply accepts_intro; cbn [d_hist h_subs h_runs h_clos h_drains h_cfg].
  - apply (p_nd _ _ _ _ _ _ (j_prod _ _ HI)).
  - intros sb Hin. destruct (p_subs _ _ _ _ _ _ (j_prod _ _ HI) sb Hin) as (_ & A & _ & E). rewrite E. split; [exact A|lia].
  - intros r Hin. destruct (j_runs _ _ HI r Hin) as (A & _ & B). split; assumption.
  - intros c Hc. apply (j_ret _ _ HI c Hc).
  - intros d [].
Qed.

End DPoolProof.
