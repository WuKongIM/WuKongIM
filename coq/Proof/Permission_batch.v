(* Proof/Permission_batch.v — full-level theorems of C36: the read list, addRead
   de-duplication and index plans of permission_batch.go are transparent (every plan
   evaluates on the answers of exactly its own reads, for batches of any length and
   content), request coalescing is transparent, and a SendBatch item is decided as Send()
   decides it — except on the two known divergences C36-K1 / C36-K2. *)
From WK Require Import Base.Base Base.Lists Model.ChannelId Proof.ChannelId Model.Permission Proof.Permission.
From WK Require Import Gen.Consts_C35 Gen.Consts_C36.
Open Scope N_scope.

Lemma pread_eqb_eq a b : pread_eqb a b = true -> a = b.
Proof.
  destruct a as [a1 a2 a3 a4 a5 a6], b as [b1 b2 b3 b4 b5 b6]. unfold pread_eqb.
  cbn [rd_kind rd_list rd_ltype rd_id rd_type rd_uid].
  intro H. repeat (apply andb_true_iff in H; destruct H as [H ?]).
  repeat match goal with
         | E : (_ =? _) = true |- _ => apply N.eqb_eq in E
         | E : bytes_eqb _ _ = true |- _ => apply bytes_eqb_eq in E
         end.
  subst. reflexivity.
Qed.

Lemma pcmd_eqb_eq a b : pcmd_eqb a b = true -> a = b.
Proof.
  destruct a as [a1 a2 a3 a4 a5 a6 a7], b as [b1 b2 b3 b4 b5 b6 b7]. unfold pcmd_eqb.
  cbn [c_from c_dev c_chan c_type c_norm c_req c_scoped].
  intro H. repeat (apply andb_true_iff in H; destruct H as [H ?]).
  repeat match goal with
         | E : (_ =? _) = true |- _ => apply N.eqb_eq in E
         | E : bytes_eqb _ _ = true |- _ => apply bytes_eqb_eq in E
         | E : Bool.eqb _ _ = true |- _ => apply eqb_prop in E
         end.
  subst. reflexivity.
Qed.

Lemma pcmd_eqb_refl a : pcmd_eqb a a = true.
Proof.
  destruct a as [a1 a2 a3 a4 a5 a6 a7]. unfold pcmd_eqb.
  cbn [c_from c_dev c_chan c_type c_norm c_req c_scoped].
  rewrite !bytes_eqb_refl, !N.eqb_refl, !eqb_reflx. reflexivity.
Qed.

Definition has (reads : list pread) (i : nat) (r : pread) : Prop := nth_error reads i = Some r.

Lemma index_of_has r : forall l i, index_of r l = Some i -> has l i r.
Proof.
  induction l as [|x t IH]; intros i H; cbn in H; [discriminate|].
  destruct (pread_eqb x r) eqn:E.
  - inversion H. subst. apply pread_eqb_eq in E. subst. reflexivity.
  - destruct (index_of r t) as [j|] eqn:Ej; [|discriminate]. inversion H. subst.
    cbn. apply IH. reflexivity.
Qed.

Lemma addRead_has reads r reads' i : addRead reads r = (reads', i) ->
  exists ext, reads' = reads ++ ext /\ has reads' i r.
Proof.
  unfold addRead. destruct (index_of r reads) as [j|] eqn:E; intro H; inversion H; subst.
  - exists []. rewrite app_nil_r. split; [reflexivity|]. apply index_of_has. exact E.
  - exists [r]. split; [reflexivity|]. unfold has.
    rewrite nth_error_app2 by lia. rewrite Nat.sub_diag. reflexivity.
Qed.

(* results[index] is the answer of the read the index was handed out for *)
Lemma slot_has_app (rd : reader) pre i r post : has pre i r ->
  slot (map rd (pre ++ post)) (Some i) = Some (rd r).
Proof.
  unfold has, slot. intro H. f_equal. apply nth_error_nth. apply map_nth_error.
  rewrite nth_error_app1; [exact H|]. apply nth_error_Some. rewrite H. discriminate.
Qed.

(* the planning loops of checkGroupSendPermissionsBatch and checkPersonSendPermissionsBatch have
   one shape: when an iteration only appends reads, and its plan evaluates to [spec c] on every
   extension of the read list, the plans of the whole loop evaluate to [map spec] *)
Lemma plan_loop {C P} (plan : list pread -> C -> list pread * P)
      (plans : list pread -> list C -> list pread * list P)
      (eval : P -> list rresult -> outcome) (spec : C -> outcome) (good : C -> Prop) (rd : reader) :
  (forall reads, plans reads [] = (reads, [])) ->
  (forall reads c rest, plans reads (c :: rest)
     = let '(reads1, p) := plan reads c in
       let '(reads2, ps) := plans reads1 rest in (reads2, p :: ps)) ->
  (forall reads c reads' p, good c -> plan reads c = (reads', p) ->
     (exists ext, reads' = reads ++ ext) /\ forall ext', eval p (map rd (reads' ++ ext')) = spec c) ->
  forall cs reads reads' ps, Forall good cs -> plans reads cs = (reads', ps) ->
  (exists ext, reads' = reads ++ ext)
  /\ forall ext', map (fun p => eval p (map rd (reads' ++ ext'))) ps = map spec cs.
Proof.
  intros Hnil Hcons Hplan. induction cs as [|c rest IH]; intros reads reads' ps HF H.
  - rewrite Hnil in H. inversion H. subst. split; [exists []; rewrite app_nil_r; reflexivity|reflexivity].
  - rewrite Hcons in H. destruct (plan reads c) as [reads1 p] eqn:E1.
    destruct (plans reads1 rest) as [reads2 ps'] eqn:E2.
    inversion H. subst. clear H. inversion HF as [|? ? Hc Hrest]. subst.
    destruct (Hplan _ _ _ _ Hc E1) as [[e1 ->] Hp]. destruct (IH _ _ _ Hrest E2) as [[e2 ->] Hps].
    split; [exists (e1 ++ e2); rewrite app_assoc; reflexivity|].
    intro ext'. cbn [map]. f_equal; [rewrite <- app_assoc; apply Hp|apply Hps].
Qed.

(* [plan_returns] opens a return point of a planner: the returned pair is the plan built so far.
   [step_add E] replaces the result list of the addRead [E] by [reads ++ ext] and keeps
   [E : has (reads ++ ext) i r] *)
Ltac plan_returns := let H := fresh in intro H; inversion H; subst; clear H.
Ltac step_add E :=
  apply addRead_has in E; destruct E as [? [-> E]].

(* [plan_done], once every addRead has been unfolded by [step_add]: the read list only grew; what
   is left are the slots.  [slot E] then reads the slot of the addRead [E], newest first: its list
   is a prefix of the final list, and moving one appended segment to the right makes the list
   of the addRead before it a prefix in turn *)
Ltac slot E := rewrite (slot_has_app _ _ _ _ _ E); try rewrite <- app_assoc.
Ltac plan_done :=
  split; [eexists; rewrite <- ?app_assoc; reflexivity|]; intro;
  unfold groupSlotsOfPlan, personSlotsOfPlan;
  cbn [gp_command pp_channel gp_trusted gp_senderChannel gp_groupChannel gp_denied gp_subscriber gp_hasAllowlist
       gp_allowlistEntry pp_planErr pp_trusted pp_systemDevice pp_receiverTrusted pp_senderChannel
       pp_terminalChannel pp_denied pp_allowlistEntry pp_receiverChannel].

Definition group_outcome (rd : reader) (cfg : pcfg) (cmd : pcmd) : outcome :=
  (c_chan cmd, evaluateGroupPermissionReadPlan (groupSlotsOf (facts_at rd cfg cmd false (group_id cmd)))).

Lemma planGroup_correct (rd : reader) (cfg : pcfg) reads cmd reads' p :
  c_type cmd = channelTypeGroup ->
  planGroup cfg reads cmd = (reads', p) ->
  (exists ext, reads' = reads ++ ext) /\
  forall ext', (c_chan (gp_command p),
                evaluateGroupPermissionReadPlan (groupSlotsOfPlan p (map rd (reads' ++ ext'))))
               = group_outcome rd cfg cmd.
Proof.
  intros Ht. unfold planGroup, group_outcome, group_id.
  set (src := fst (FromCommandChannel (c_chan cmd))).
  destruct (addRead reads (chanRead src (c_type cmd))) as [r1 gi] eqn:E1.
  unfold groupSlotsOf, facts_at.
  cbn [f_sender_sys f_device_sys f_sender f_target f_denied f_sub f_hasallow f_allowentry f_type].
  (* [classify] reduces only on the concrete type; afterwards the reads must mention [c_type cmd]
     again, as planGroup builds them *)
  rewrite Ht. change (classify channelTypeGroup) with TGroup. cbn [is_person]. rewrite <- Ht. fold src.
  destruct (IsSystemUID cfg (c_from cmd)) eqn:Es.
  { plan_returns. step_add E1. plan_done. slot E1. reflexivity. }
  destruct (addRead r1 (chanRead (c_from cmd) channelTypePerson)) as [r2 si] eqn:E2.
  destruct (is_system_device cfg cmd) eqn:Ed.
  { plan_returns. step_add E1. step_add E2. plan_done. slot E2. slot E1. reflexivity. }
  destruct (addRead r2 (containsRead 1 (c_type cmd) src (c_type cmd) (c_from cmd))) as [r3 di] eqn:E3.
  destruct (addRead r3 (containsRead 0 0 src (c_type cmd) (c_from cmd))) as [r4 ui] eqn:E4.
  destruct (addRead r4 (hasAnyRead 2 (c_type cmd) src (c_type cmd))) as [r5 hi] eqn:E5.
  destruct (addRead r5 (containsRead 2 (c_type cmd) src (c_type cmd) (c_from cmd))) as [r6 ai] eqn:E6.
  plan_returns.
  step_add E1. step_add E2. step_add E3. step_add E4. step_add E5. step_add E6. plan_done.
  slot E6. slot E5. slot E4. slot E3. slot E2. slot E1. reflexivity.
Qed.

Lemma checkGroupSendPermissionsBatch_correct (rd : reader) (cfg : pcfg) cmds :
  Forall (fun c => c_type c = channelTypeGroup) cmds ->
  checkGroupSendPermissionsBatch rd cfg cmds = map (group_outcome rd cfg) cmds.
Proof.
  intro HF. unfold checkGroupSendPermissionsBatch.
  destruct (planGroups cfg [] cmds) as [reads plans] eqn:E.
  destruct (plan_loop (planGroup cfg) (planGroups cfg)
              (fun p res => (c_chan (gp_command p), evaluateGroupPermissionReadPlan (groupSlotsOfPlan p res)))
              _ _ rd (fun _ => eq_refl) (fun _ _ _ => eq_refl) (planGroup_correct rd cfg) _ _ _ _ HF E)
    as [_ H].
  specialize (H []). rewrite app_nil_r in H. exact H.
Qed.

Definition person_outcome (rd : reader) (cfg : pcfg) (cmd : pcmd) : outcome :=
  (batch_out cmd,
   evaluatePersonPermissionReadPlan
     (personSlotsOf (facts_at rd cfg cmd (is_none (person_batch_id cmd)) (id_or_nil (person_batch_id cmd))))).

Lemma planPerson_correct (rd : reader) (cfg : pcfg) reads cmd reads' p :
  c_type cmd = channelTypePerson ->
  planPerson cfg reads cmd = (reads', p) ->
  (exists ext, reads' = reads ++ ext) /\
  forall ext', (pp_channel p,
                evaluatePersonPermissionReadPlan (personSlotsOfPlan p (map rd (reads' ++ ext'))))
               = person_outcome rd cfg cmd.
Proof.
  intros Ht. unfold planPerson, person_outcome, batch_out, person_batch_id, person_batch_normalized, person_batch_cid.
  rewrite Ht, N.eqb_refl.
  destruct (FromCommandChannel (c_chan cmd)) as [src cc] eqn:Efrom. cbn [fst snd].
  unfold personSlotsOf, facts_at.
  cbn [f_norm f_norm_err f_sender_sys f_device_sys f_decode_err f_recv_sys f_whitelist
       f_sender f_target f_recv f_denied f_allowentry f_type].
  rewrite Ht. change (classify channelTypePerson) with TPerson. cbn [is_person].
  destruct (if c_norm cmd then NormalizePersonChannel (c_from cmd) src else Some src) as [nid|] eqn:En.
  2:{ plan_returns.
      assert (Hn : c_norm cmd = true) by (destruct (c_norm cmd); [reflexivity|discriminate]).
      rewrite Hn. cbn [is_none andb].
      split; [exists []; rewrite app_nil_r; reflexivity|]. reflexivity. }
  cbn [is_none id_or_nil]. rewrite andb_false_r.
  set (cid := if cc then ToCommandChannel nid else nid).
  set (pid := fst (FromCommandChannel cid)).
  destruct (addRead reads (chanRead pid channelTypePerson)) as [r1 ti] eqn:E1.
  destruct (IsSystemUID cfg (c_from cmd)) eqn:Es.
  { plan_returns. step_add E1. plan_done. slot E1. reflexivity. }
  destruct (addRead r1 (chanRead (c_from cmd) channelTypePerson)) as [r2 si] eqn:E2.
  destruct (is_system_device cfg cmd) eqn:Ed.
  { plan_returns. step_add E1. step_add E2. plan_done. slot E2. slot E1. reflexivity. }
  destruct (person_receiver (c_from cmd) pid) as [receiver|] eqn:Er.
  2:{ plan_returns. step_add E1. step_add E2. plan_done. slot E2. slot E1. reflexivity. }
  destruct (IsSystemUID cfg receiver) eqn:Ers.
  { plan_returns. step_add E1. step_add E2. plan_done. slot E2. slot E1. reflexivity. }
  destruct (addRead r2 (containsRead 1 channelTypePerson receiver channelTypePerson (c_from cmd)))
    as [r3 di] eqn:E3.
  destruct (cfg_wl cfg) eqn:Ew.
  - destruct (addRead r3 (containsRead 2 channelTypePerson receiver channelTypePerson (c_from cmd)))
      as [r4 ai] eqn:E4.
    destruct (addRead r4 (chanRead receiver channelTypePerson)) as [r5 ri] eqn:E5.
    plan_returns.
    step_add E1. step_add E2. step_add E3. step_add E4. step_add E5. plan_done.
    slot E5. slot E4. slot E3. slot E2. slot E1. reflexivity.
  - plan_returns. step_add E1. step_add E2. step_add E3. plan_done. slot E3. slot E2. slot E1. reflexivity.
Qed.

Lemma checkPersonSendPermissionsBatch_correct (rd : reader) (cfg : pcfg) cmds :
  Forall (fun c => c_type c = channelTypePerson) cmds ->
  checkPersonSendPermissionsBatch rd cfg cmds = map (person_outcome rd cfg) cmds.
Proof.
  intro HF. unfold checkPersonSendPermissionsBatch.
  destruct (planPersons cfg [] cmds) as [reads plans] eqn:E.
  destruct (plan_loop (planPerson cfg) (planPersons cfg)
              (fun p res => (pp_channel p, evaluatePersonPermissionReadPlan (personSlotsOfPlan p res)))
              _ _ rd (fun _ => eq_refl) (fun _ _ _ => eq_refl) (planPerson_correct rd cfg) _ _ _ _ HF E)
    as [_ H].
  specialize (H []). rewrite app_nil_r in H. exact H.
Qed.

Lemma representatives_complete : forall items seen c,
  In c items -> In c seen \/ In c (representatives seen items).
Proof.
  induction items as [|x rest IH]; intros seen c H; [destruct H|].
  cbn [representatives]. destruct (existsb (pcmd_eqb x) seen) eqn:E.
  - destruct H as [->|H]; [|apply IH; exact H]. left.
    apply existsb_exists in E. destruct E as (y & Hy & E). apply pcmd_eqb_eq in E. subst. exact Hy.
  - destruct H as [->|H]; [right; left; reflexivity|].
    destruct (IH (x :: seen) c H) as [[->|Hs]|Hr].
    + right. left. reflexivity.
    + left. exact Hs.
    + right. right. exact Hr.
Qed.

Lemma lookup_map (g : pcmd -> outcome) c : forall reps,
  In c reps -> lookup_outcome c reps (map g reps) = Some (g c).
Proof.
  induction reps as [|r reps IH]; intro H; [destruct H|]. cbn [map lookup_outcome].
  destruct (pcmd_eqb r c) eqn:E.
  - apply pcmd_eqb_eq in E. subst. reflexivity.
  - destruct H as [->|H]; [rewrite pcmd_eqb_refl in E; discriminate|apply IH; exact H].
Qed.

Lemma batched_group_inv c : batched_group c = true ->
  cmd_batchable c = true /\ c_type c = channelTypeGroup.
Proof. unfold batched_group. rewrite andb_true_iff, N.eqb_eq. auto. Qed.
Lemma batched_person_inv c : batched_person c = true ->
  cmd_batchable c = true /\ c_type c = channelTypePerson.
Proof. unfold batched_person. rewrite andb_true_iff, N.eqb_eq. auto. Qed.

Lemma batched_exclusive c : batched_group c = true -> batched_person c = false.
Proof.
  intro H. unfold batched_person. rewrite (proj2 (batched_group_inv c H)). apply andb_false_r.
Qed.

Lemma permission_free_facts_at rd cfg cmd nerr id :
  permission_free (facts_at rd cfg cmd nerr id) = cmd_permission_free cmd.
Proof. reflexivity. Qed.

Lemma batchable_facts_at rd cfg cmd nerr id :
  batchable (facts_at rd cfg cmd nerr id) = cmd_batchable cmd.
Proof.
  unfold batchable, facts_at, cmd_batchable. cbn [f_request_scoped f_scoped_uids].
  f_equal. destruct (c_scoped cmd); reflexivity.
Qed.

Lemma group_outcome_is_batch1 rd cfg c : batched_group c = true ->
  group_outcome rd cfg c = batch_outcome1 rd cfg c.
Proof.
  intro H. unfold batch_outcome1, group_outcome. rewrite H. destruct (batched_group_inv c H) as [Hb Ht].
  unfold batch_out, facts_batch, decide_batch. rewrite Ht.
  change (channelTypeGroup =? channelTypePerson) with false. cbv iota.
  rewrite batchable_facts_at, Hb. cbn [f_type facts_at]. rewrite Ht. reflexivity.
Qed.

Lemma person_outcome_is_batch1 rd cfg c : batched_person c = true ->
  person_outcome rd cfg c = batch_outcome1 rd cfg c.
Proof.
  intro H. unfold batch_outcome1, person_outcome. rewrite H, orb_true_r.
  destruct (batched_person_inv c H) as [Hb Ht].
  unfold facts_batch, decide_batch. rewrite Ht, N.eqb_refl, batchable_facts_at, Hb.
  cbn [f_type facts_at]. rewrite Ht. reflexivity.
Qed.

(* a SendBatch of any length and content decides every item as if it were alone *)
Lemma batch_outcomes_itemwise (rd : reader) (cfg : pcfg) (items : list pcmd) :
  batch_outcomes rd cfg items = map (batch_outcome1 rd cfg) items.
Proof.
  unfold batch_outcomes.
  set (reps := representatives [] items).
  rewrite checkGroupSendPermissionsBatch_correct
    by (apply Forall_forall; intros x Hx; apply filter_In in Hx; apply batched_group_inv, Hx).
  rewrite checkPersonSendPermissionsBatch_correct
    by (apply Forall_forall; intros x Hx; apply filter_In in Hx; apply batched_person_inv, Hx).
  apply map_ext_in. intros c Hc.
  assert (Hrep : In c reps).
  { destruct (representatives_complete items [] c Hc) as [[]|H]. exact H. }
  destruct (batched_group c) eqn:Eg.
  - rewrite lookup_map by (apply filter_In; split; assumption).
    apply group_outcome_is_batch1. exact Eg.
  - destruct (batched_person c) eqn:Ep.
    + rewrite lookup_map by (apply filter_In; split; assumption).
      apply person_outcome_is_batch1. exact Ep.
    + unfold batch_outcome1. rewrite Eg, Ep. reflexivity.
Qed.

(* group: same keys always; the channel id handed on differs only under C36-K1 *)
Lemma group_out_agree c : c_type c = channelTypeGroup -> cmd_permission_free c = false ->
  IsCommandChannel (group_id c) = false -> single_out c = c_chan c.
Proof.
  intros Ht Hf Hk. unfold single_out, single_id. rewrite Hf, Ht.
  change (channelTypeGroup =? channelTypePerson) with false. cbn [andb id_or_nil].
  unfold group_id in Hk.
  destruct (from_command_spec (c_chan c)) as [[_ E]|[_ [y [E Hx]]]]; rewrite E in *; cbn [fst snd] in *.
  - reflexivity.
  - unfold ToCommandChannel. rewrite Hk. symmetry. exact Hx.
Qed.

Lemma person_ids_agree c : c_type c = channelTypePerson ->
  match single_id c with Some id => IsCommandChannel id | None => false end = false ->
  person_batch_id c = single_id c.
Proof.
  intros Ht Hk. unfold person_batch_id, person_batch_normalized, person_batch_cid, single_id in *.
  rewrite Ht, N.eqb_refl in *. cbn [andb] in *.
  destruct (if c_norm c then NormalizePersonChannel (c_from c) (fst (FromCommandChannel (c_chan c)))
            else Some (fst (FromCommandChannel (c_chan c)))) as [nid|]; [|reflexivity].
  destruct (snd (FromCommandChannel (c_chan c))).
  - rewrite (from_to_command nid Hk). reflexivity.
  - rewrite (from_command_plain nid Hk). reflexivity.
Qed.

Lemma person_out_agree c : c_type c = channelTypePerson -> cmd_permission_free c = false ->
  is_none (single_id c) = false -> batch_out c = single_out c.
Proof.
  intros Ht Hf Hn. unfold batch_out, single_out, person_batch_normalized, person_batch_cid, single_id in *.
  rewrite Hf. rewrite Ht, N.eqb_refl in *. cbn [andb] in *.
  destruct (if c_norm c then NormalizePersonChannel (c_from c) (fst (FromCommandChannel (c_chan c)))
            else Some (fst (FromCommandChannel (c_chan c)))) as [nid|]; [reflexivity|discriminate].
Qed.

Lemma cmd_batchable_not_free c : cmd_batchable c = true -> cmd_permission_free c = false.
Proof.
  unfold cmd_batchable, cmd_permission_free. intro H. apply andb_true_iff in H. destruct H as [H1 H2].
  apply negb_true_iff in H1. apply N.eqb_eq in H2. rewrite H1, H2. reflexivity.
Qed.

Lemma sig_k1_false_inv c : cmd_batchable c = true ->
  c_type c = channelTypeGroup \/ c_type c = channelTypePerson -> sig_k1 c = false ->
  match single_id c with Some id => IsCommandChannel id | None => false end = false.
Proof. unfold sig_k1. intros -> [E|E]; rewrite E; exact (fun H => H). Qed.

(* outside C36-K1 the batch planners read the same facts and hand on the same channel id as Send *)
Lemma batch_keys_agree rd cfg c : sig_k1 c = false -> batched_group c || batched_person c = true ->
  facts_batch rd cfg c = facts_single rd cfg c
  /\ (is_none (single_id c) = false -> batch_out c = single_out c).
Proof.
  intros Hk1 Hb. apply orb_true_iff in Hb. destruct Hb as [Hb|Hb].
  - destruct (batched_group_inv c Hb) as [Hc Ht].
    pose proof (sig_k1_false_inv c Hc (or_introl Ht) Hk1) as Hid.
    unfold facts_batch, batch_out, facts_single. unfold single_id in *. rewrite Ht in *.
    change (channelTypeGroup =? channelTypePerson) with false in *. cbn [andb] in Hid.
    split; [reflexivity|]. intros _. symmetry.
    exact (group_out_agree c Ht (cmd_batchable_not_free c Hc) Hid).
  - destruct (batched_person_inv c Hb) as [Hc Ht].
    pose proof (sig_k1_false_inv c Hc (or_intror Ht) Hk1) as Hid.
    unfold facts_batch. rewrite Ht, N.eqb_refl, (person_ids_agree c Ht Hid).
    split; [reflexivity|exact (person_out_agree c Ht (cmd_batchable_not_free c Hc))].
Qed.

(* when normalisation fails, Send reports the error: not ok, so no channel is reported *)
Lemma single_norm_failed rd cfg c : cmd_permission_free c = false -> is_none (single_id c) = true ->
  ok (checkSendPermission (facts_single rd cfg c)) = false.
Proof.
  intros Hf Hn. unfold checkSendPermission, facts_single.
  rewrite permission_free_facts_at, Hf, Hn. cbn [f_type f_norm f_norm_err facts_at].
  unfold single_id in Hn. destruct ((c_type c =? channelTypePerson) && c_norm c) eqn:E; [|discriminate].
  apply andb_true_iff in E. destruct E as [Et ->]. apply N.eqb_eq in Et. rewrite Et. reflexivity.
Qed.

(* one item: SendBatch reports what Send reports, outside the two known divergences *)
Lemma batch1_agrees_single (rd : reader) (cfg : pcfg) (c : pcmd) :
  sig_k1 c = false -> k2_cond (facts_single rd cfg c) = false ->
  obs_of (batch_outcome1 rd cfg c) = obs_of (single_outcome rd cfg c).
Proof.
  intros Hk1 Hk2. unfold batch_outcome1.
  destruct (batched_group c || batched_person c) eqn:Eb; [|reflexivity].
  destruct (batch_keys_agree rd cfg c Hk1 Eb) as [-> Hout].
  rewrite (paths_agree _ Hk2). unfold single_outcome, decide_single, obs_of.
  destruct (is_none (single_id c)) eqn:En; [|rewrite (Hout eq_refl); reflexivity].
  rewrite single_norm_failed; [reflexivity| |exact En].
  apply cmd_batchable_not_free. apply orb_true_iff in Eb.
  destruct Eb as [Eb|Eb]; [apply (batched_group_inv c Eb)|apply (batched_person_inv c Eb)].
Qed.

Lemma batch_agrees_single (rd : reader) (cfg : pcfg) (items : list pcmd) :
  (forall c, In c items -> sig_k1 c = false /\ k2_cond (facts_single rd cfg c) = false) ->
  map obs_of (batch_outcomes rd cfg items) = map (fun c => obs_of (single_outcome rd cfg c)) items.
Proof.
  intro H. rewrite batch_outcomes_itemwise, map_map.
  apply map_ext_in. intros c Hc. destruct (H c Hc) as [H1 H2].
  apply batch1_agrees_single; assumption.
Qed.

(* ---- witnesses of the two divergences (replayed on the code: corpus/C36/k*.json) ----------- *)

Definition hs (s : string) : bytes := map (fun a => N_of_ascii a) (list_ascii_of_string s).

(* C36-K1, person: a@b____cmd____cmd sent by a; b has a in its denylist, b____cmd has not *)
Definition k1_cmd : pcmd := PCmd (hs "a") (hs "d") (hs "a@b____cmd____cmd") channelTypePerson false false 0.
Definition k1_reader : reader :=
  fun r => if pread_eqb r (containsRead 1 channelTypePerson (hs "b") channelTypePerson (hs "a"))
           then RR false false false false false true false else zero_result.
Definition k1_cfg : pcfg := PCfg [] [] false.

(* C36-K1, group: g____cmd____cmd is handed on as g____cmd by Send, unchanged by SendBatch *)
Definition k1g_cmd : pcmd := PCmd (hs "a") (hs "d") (hs "g____cmd____cmd") channelTypeGroup false false 0.
Definition k1g_reader : reader := fun r => RR true false false false false (negb (rd_list r =? 1)) false.

(* C36-K2: undecodable person id "peer", sender send-banned *)
Definition k2_cmd : pcmd := PCmd (hs "a") (hs "d") (hs "peer") channelTypePerson false false 0.
Definition k2_reader : reader :=
  fun r => if pread_eqb r (chanRead (hs "a") channelTypePerson)
           then RR true true false false false false false else zero_result.
