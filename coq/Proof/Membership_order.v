(* Proof/Membership_order.v — the key order of the activation index
   (entry_compare) is a strict total order inside one (slot, uid) prefix;
   insertion sort yields the unique strictly sorted arrangement; filtering a
   sorted list by "strictly after e" returns the part behind e. *)
From WK Require Import Base.Base Base.Lists.
From Coq Require Import Sorting.Sorted.
From WK Require Import Gen.Consts_C16 Model.Membership Proof.Membership.
Open Scope N_scope.

(* every order here is lexicographic, [match cmp x y with Eq => p' | c => c end]: [Lt] is
   transitive when it is in both components and [Eq] in the first means equal arguments *)
Lemma lex_lt_trans {A} (cmp : A -> A -> comparison) (x y z : A) (p' q' r' : comparison) :
  (forall a b, cmp a b = Eq -> a = b) ->
  (cmp x y = Lt -> cmp y z = Lt -> cmp x z = Lt) -> (p' = Lt -> q' = Lt -> r' = Lt) ->
  match cmp x y with Eq => p' | Lt => Lt | Gt => Gt end = Lt ->
  match cmp y z with Eq => q' | Lt => Lt | Gt => Gt end = Lt ->
  match cmp x z with Eq => r' | Lt => Lt | Gt => Gt end = Lt.
Proof.
  intros Heq T T'. destruct (cmp x y) eqn:P, (cmp y z) eqn:Q; intros H1 H2;
    try discriminate H1; try discriminate H2.
  - apply Heq in P. subst y. rewrite Q. exact (T' H1 H2).
  - apply Heq in P. subst y. rewrite Q. reflexivity.
  - apply Heq in Q. subst z. rewrite P. reflexivity.
  - rewrite T; reflexivity.
Qed.

Lemma lex_compare_refl a : lex_compare a a = Eq.
Proof. induction a as [|x a IH]; [reflexivity|]. cbn [lex_compare]. rewrite N.compare_refl. exact IH. Qed.

Lemma lex_compare_eq : forall a b, lex_compare a b = Eq -> a = b.
Proof.
  induction a as [|x a IH]; destruct b as [|y b]; cbn [lex_compare]; intro H; try discriminate; [reflexivity|].
  destruct (N.compare x y) eqn:C; try discriminate.
  apply N.compare_eq_iff in C. subst. f_equal. apply IH. exact H.
Qed.

Lemma lex_compare_antisym : forall a b, lex_compare b a = CompOpp (lex_compare a b).
Proof.
  induction a as [|x a IH]; destruct b as [|y b]; cbn [lex_compare]; try reflexivity.
  rewrite (N.compare_antisym x y). destruct (N.compare x y); cbn [CompOpp]; [apply IH|reflexivity|reflexivity].
Qed.

Lemma lex_compare_trans : forall a b c, lex_compare a b = Lt -> lex_compare b c = Lt -> lex_compare a c = Lt.
Proof.
  induction a as [|x a IH]; destruct b as [|y b]; destruct c as [|z c]; cbn [lex_compare];
    try discriminate; try reflexivity.
  apply lex_lt_trans; [exact N.compare_eq|rewrite !N.compare_lt_iff; lia|apply IH].
Qed.

Lemma keystring_compare_refl a : keystring_compare a a = Eq.
Proof. unfold keystring_compare. rewrite Nat.compare_refl. apply lex_compare_refl. Qed.

Lemma keystring_compare_eq a b : keystring_compare a b = Eq -> a = b.
Proof.
  unfold keystring_compare. destruct (Nat.compare (length a) (length b)); try discriminate.
  apply lex_compare_eq.
Qed.

Lemma keystring_compare_antisym a b : keystring_compare b a = CompOpp (keystring_compare a b).
Proof.
  unfold keystring_compare. rewrite (Nat.compare_antisym (length a) (length b)).
  destruct (Nat.compare (length a) (length b)); cbn [CompOpp]; [apply lex_compare_antisym|reflexivity|reflexivity].
Qed.

Lemma keystring_compare_trans a b c :
  keystring_compare a b = Lt -> keystring_compare b c = Lt -> keystring_compare a c = Lt.
Proof.
  apply (lex_lt_trans Nat.compare (length a) (length b) (length c));
    [exact Nat.compare_eq|rewrite !Nat.compare_lt_iff; lia|apply lex_compare_trans].
Qed.

Lemma entry_compare_refl a : entry_compare a a = Eq.
Proof. unfold entry_compare. rewrite Z.compare_refl, keystring_compare_refl, Z.compare_refl. reflexivity. Qed.

Definition same_prefix (slot : N) (uid : bytes) (e : idx_entry) : Prop :=
  ie_slot e = slot /\ ie_uid e = uid.

Lemma entry_compare_eq slot uid a b :
  same_prefix slot uid a -> same_prefix slot uid b -> entry_compare a b = Eq -> a = b.
Proof.
  intros [Sa Ua] [Sb Ub]. unfold entry_compare.
  destruct (Z.compare (ie_activated_at b) (ie_activated_at a)) eqn:C1; try discriminate.
  destruct (keystring_compare (ie_channel_id a) (ie_channel_id b)) eqn:C2; try discriminate.
  intro C3. apply Z.compare_eq_iff in C1. apply keystring_compare_eq in C2. apply Z.compare_eq_iff in C3.
  destruct a, b. cbn in *. subst. reflexivity.
Qed.

Lemma entry_compare_antisym a b : entry_compare b a = CompOpp (entry_compare a b).
Proof.
  unfold entry_compare.
  rewrite (Z.compare_antisym (ie_activated_at b) (ie_activated_at a)).
  destruct (Z.compare (ie_activated_at b) (ie_activated_at a)); cbn [CompOpp]; try reflexivity.
  rewrite (keystring_compare_antisym (ie_channel_id a) (ie_channel_id b)).
  destruct (keystring_compare (ie_channel_id a) (ie_channel_id b)); cbn [CompOpp]; try reflexivity.
  apply Z.compare_antisym.
Qed.

Definition elt (a b : idx_entry) : Prop := entry_compare a b = Lt.

Lemma elt_trans a b c : elt a b -> elt b c -> elt a c.
Proof.
  apply (lex_lt_trans (fun u v => Z.compare v u) (ie_activated_at a) (ie_activated_at b) (ie_activated_at c));
    [intros u v E; symmetry; exact (Z.compare_eq _ _ E)|rewrite !Z.compare_lt_iff; lia|].
  apply (lex_lt_trans keystring_compare);
    [exact keystring_compare_eq|apply keystring_compare_trans|rewrite !Z.compare_lt_iff; lia].
Qed.

Lemma elt_irrefl a : ~ elt a a.
Proof. unfold elt. rewrite entry_compare_refl. discriminate. Qed.

Lemma elt_asym a b : elt a b -> ~ elt b a.
Proof. intros H1 H2. exact (elt_irrefl a (elt_trans _ _ _ H1 H2)). Qed.

Lemma entry_ltb_true a b : entry_ltb a b = true <-> elt a b.
Proof. unfold entry_ltb, elt. destruct (entry_compare a b); split; intro H; try reflexivity; discriminate. Qed.

Lemma entry_ltb_false_elt a b : elt a b -> entry_ltb b a = false.
Proof.
  intro H. destruct (entry_ltb b a) eqn:E; [|reflexivity].
  apply entry_ltb_true in E. exfalso. exact (elt_asym _ _ H E).
Qed.

Lemma entry_ltb_irrefl a : entry_ltb a a = false.
Proof. unfold entry_ltb. rewrite entry_compare_refl. reflexivity. Qed.

Lemma not_ltb_elt slot uid a b :
  same_prefix slot uid a -> same_prefix slot uid b -> a <> b -> entry_ltb a b = false -> elt b a.
Proof.
  intros Pa Pb Hne Hlt. unfold elt. rewrite entry_compare_antisym.
  unfold entry_ltb in Hlt. destruct (entry_compare a b) eqn:C; try discriminate.
  - exfalso. apply Hne. eapply entry_compare_eq; eassumption.
  - reflexivity.
Qed.

(* insertion by a boolean order only rearranges: for [entry_insert] and for the monitor's
   [row_insert], which compares rows by their entries *)
Section Insert.
  Context {A} (ltb : A -> A -> bool) (ins : A -> list A -> list A).
  Hypothesis ins_nil : forall a, ins a [] = [a].
  Hypothesis ins_cons : forall a x r, ins a (x :: r) = if ltb x a then x :: ins a r else a :: x :: r.

  Lemma insert_In a : forall l x, In x (ins a l) <-> x = a \/ In x l.
  Proof.
    induction l as [|y r IH]; intro x; [rewrite ins_nil; cbn; intuition|].
    rewrite ins_cons. destruct (ltb y a); cbn [In]; [rewrite IH|]; intuition.
  Qed.

  Lemma insert_sort_In : forall l x, In x (fold_right ins [] l) <-> In x l.
  Proof.
    induction l as [|a r IH]; intro x; [reflexivity|].
    cbn [fold_right]. rewrite insert_In, IH. cbn. intuition.
  Qed.
End Insert.

Lemma entry_insert_In e l x : In x (entry_insert e l) <-> x = e \/ In x l.
Proof. exact (insert_In entry_ltb entry_insert (fun _ => eq_refl) (fun _ _ _ => eq_refl) e l x). Qed.

Lemma entry_sort_In l x : In x (entry_sort l) <-> In x l.
Proof. exact (insert_sort_In entry_ltb entry_insert (fun _ => eq_refl) (fun _ _ _ => eq_refl) l x). Qed.

Lemma entry_insert_length e : forall l, length (entry_insert e l) = S (length l).
Proof.
  induction l as [|x r IH]; [reflexivity|]. cbn [entry_insert].
  destruct (entry_ltb x e); cbn [length]; [rewrite IH|]; reflexivity.
Qed.

Lemma entry_sort_length : forall l, length (entry_sort l) = length l.
Proof.
  induction l as [|e r IH]; [reflexivity|]. cbn [entry_sort fold_right]. fold (entry_sort r).
  rewrite entry_insert_length, IH. reflexivity.
Qed.

Lemma entry_insert_sorted slot uid e : forall l,
  same_prefix slot uid e -> Forall (same_prefix slot uid) l -> ~ In e l ->
  StronglySorted elt l -> StronglySorted elt (entry_insert e l).
Proof.
  induction l as [|y r IH]; intros Pe Pl Hnin Hs; cbn [entry_insert].
  - constructor; constructor.
  - inversion Hs as [|? ? Hsr Hall]; subst. inversion Pl as [|? ? Py Pr]; subst.
    destruct (entry_ltb y e) eqn:Hlt.
    + constructor.
      * apply IH; auto. intro C. apply Hnin. right. exact C.
      * apply Forall_forall. intros x Hx. apply entry_insert_In in Hx. destruct Hx as [->|Hx].
        -- apply entry_ltb_true. exact Hlt.
        -- rewrite Forall_forall in Hall. apply Hall. exact Hx.
    + assert (elt e y) as Hey.
      { eapply not_ltb_elt; eauto. intro C. apply Hnin. left. exact C. }
      constructor; [exact Hs|]. constructor; [exact Hey|].
      apply Forall_forall. intros x Hx. rewrite Forall_forall in Hall.
      eapply elt_trans; [exact Hey|apply Hall; exact Hx].
Qed.

Lemma entry_sort_sorted slot uid : forall l,
  Forall (same_prefix slot uid) l -> NoDup l -> StronglySorted elt (entry_sort l).
Proof.
  induction l as [|e r IH]; intros Pl Hnd; [constructor|].
  cbn [entry_sort fold_right]. fold (entry_sort r).
  inversion Pl as [|? ? Pe Pr]; subst. inversion Hnd as [|? ? Hnin Hndr]; subst.
  apply (entry_insert_sorted slot uid e (entry_sort r) Pe).
  - apply Forall_forall. intros x Hx. apply (proj1 (entry_sort_In r x)) in Hx. rewrite Forall_forall in Pr. apply Pr. exact Hx.
  - intro C. apply (proj1 (entry_sort_In r e)) in C. contradiction.
  - apply IH; assumption.
Qed.

Lemma sorted_unique : forall l1 l2,
  StronglySorted elt l1 -> StronglySorted elt l2 -> (forall x, In x l1 <-> In x l2) -> l1 = l2.
Proof.
  induction l1 as [|h1 t1 IH]; intros l2 S1 S2 Hin.
  - destruct l2 as [|h2 t2]; [reflexivity|]. exfalso. apply (proj2 (Hin h2)). left. reflexivity.
  - destruct l2 as [|h2 t2]; [exfalso; apply (proj1 (Hin h1)); left; reflexivity|].
    inversion S1 as [|? ? S1t F1]; subst. inversion S2 as [|? ? S2t F2]; subst.
    rewrite Forall_forall in F1, F2.
    assert (h1 = h2) as ->.
    { destruct (proj1 (Hin h1) (or_introl eq_refl)) as [E|E]; [symmetry; exact E|].
      destruct (proj2 (Hin h2) (or_introl eq_refl)) as [E'|E']; [exact E'|].
      exfalso. exact (elt_asym _ _ (F1 _ E') (F2 _ E)). }
    f_equal. apply IH; auto. intro x. split; intro Hx.
    + destruct (proj1 (Hin x) (or_intror Hx)) as [E|E]; [|exact E].
      subst x. exfalso. exact (elt_irrefl _ (F1 _ Hx)).
    + destruct (proj2 (Hin x) (or_intror Hx)) as [E|E]; [|exact E].
      subst x. exfalso. exact (elt_irrefl _ (F2 _ Hx)).
Qed.

Lemma filter_after_last P e S :
  StronglySorted elt (P ++ e :: S) -> filter (entry_ltb e) (P ++ e :: S) = S.
Proof.
  intro H. apply sorted_app_inv in H. destruct H as (_ & HS & HP).
  apply StronglySorted_inv in HS. destruct HS as [_ HS]. rewrite Forall_forall in HS.
  rewrite filter_app. cbn [filter]. rewrite entry_ltb_irrefl, filter_none, filter_all; [reflexivity| |].
  - intros x Hx. apply entry_ltb_true, HS, Hx.
  - intros x Hx. apply entry_ltb_false_elt, HP; [exact Hx|left; reflexivity].
Qed.
