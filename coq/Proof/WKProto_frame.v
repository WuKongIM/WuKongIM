(* Proof/WKProto_frame.v — composition: EncodeFrame / encodedFrameSize / DecodeFrame
   on whole frames, for every frame type and every version; the boolean equalities of
   frames; the C22 monitor on the model's own cases. *)
From WK Require Import Base.Base Base.Bytes Base.Lists Gen.Consts_C22 Model.WKProto Proof.WKProto Proof.WKProto_types.
From Coq Require Import ZifyBool ZifyN ZifyNat.
Open Scope N_scope.

(* the wire bytes of a frame within limits *)
Definition frame_bytes (f : frame) (v : N) : bytes :=
  if is_pingpong f then [(frame_type f * 16) mod 256]
  else ToFixHeaderUint8 f :: encodeVariable2 (blen (body_bytes f v)) ++ body_bytes f v.

Definition remlen_of (f : frame) (v : N) : N :=
  if is_pingpong f then 0 else blen (body_bytes f v).

Lemma frame_bytes_nonempty f v : frame_bytes f v <> [].
Proof. unfold frame_bytes. destruct (is_pingpong f); discriminate. Qed.

Lemma within_limits_split v f : within_limits v f = true ->
  fields_ok v f = true /\ fst (encodedFrameBodySize f v) <= MaxRemaingLength.
Proof. unfold within_limits. rewrite andb_true_iff, N.leb_le. trivial. Qed.

Lemma body_bounds v f : within_limits v f = true -> is_pingpong f = false ->
  3 <= blen (body_bytes f v) <= MaxRemaingLength.
Proof.
  intros H NP. destruct (within_limits_split v f H) as [F L].
  rewrite (body_size_ok v f F) in L. split; [apply body_min, NP|exact L].
Qed.

(* the payload limit EncodeFrame checks first is the one encodedFrameBodySize reports *)
Lemma send_precheck v f : snd (encodedFrameBodySize f v) = true ->
  match f with
  | FSend _ _ _ _ _ _ _ _ _ _ pl => if PayloadMaxSize <? blen pl then WErr else W []
  | _ => W []
  end = W [].
Proof.
  destruct f; try reflexivity. cbn [encodedFrameBodySize].
  destruct (PayloadMaxSize <? blen payload); [discriminate|reflexivity].
Qed.

Lemma EncodeFrame_ok v f : within_limits v f = true -> EncodeFrame f v = EncOk (frame_bytes f v).
Proof.
  intro H. unfold EncodeFrame, frame_bytes.
  destruct (is_pingpong f) eqn:NP; [reflexivity|].
  destruct (within_limits_split v f H) as [F _]. destruct (body_bounds v f H NP) as [_ B].
  rewrite (send_precheck v f (body_size_accepts v f F NP)), (encodeBody_ok v f F), (body_size_ok v f F).
  rewrite wrap32_small by (unfold u32, u32max, MaxRemaingLength in *; lia).
  reflexivity.
Qed.

Lemma encodedFrameSize_ok v f : within_limits v f = true ->
  encodedFrameSize f v = blen (frame_bytes f v).
Proof.
  intro H. unfold encodedFrameSize, frame_bytes.
  destruct (is_pingpong f) eqn:NP; [reflexivity|].
  destruct (within_limits_split v f H) as [F _]. destruct (body_bounds v f H NP) as [_ B].
  pose proof (body_size_ok v f F) as S. pose proof (body_size_accepts v f F NP) as OK.
  destruct (encodedFrameBodySize f v) as [sz ok]. cbn [fst snd] in *. subst ok sz.
  rewrite wrap32_small by (unfold u32, u32max, MaxRemaingLength in *; lia).
  unfold encodedVariableSize. autorewrite with blen. lia.
Qed.

Lemma type_not_unknown f : (frame_type f =? UNKNOWN) = false.
Proof. destruct f; reflexivity. Qed.

(* DecodeFrame on a non-empty buffer, by the type nibble of its first byte *)
Lemma DecodeFrame_pingpong b rest v ft fl :
  FramerFromUint8 b = (ft, fl) -> (ft =? PING) || (ft =? PONG) = true ->
  DecodeFrame (b :: rest) v
  = DFrame (if ft =? PING then FPing fl else FPong fl) (Meta ft 0 (1 + blen rest) false) 1.
Proof.
  intros FB PP. unfold DecodeFrame. rewrite FB, PP, blen_cons.
  apply orb_prop in PP. destruct PP as [P|P]; apply N.eqb_eq in P; subst ft; reflexivity.
Qed.

Lemma DecodeFrame_body b rest v ft fl :
  FramerFromUint8 b = (ft, fl) -> (ft =? PING) || (ft =? PONG) = false ->
  DecodeFrame (b :: rest) v
  = match decodeLength rest with
    | None => DNeed
    | Some (rl, rll) =>
      if ft =? UNKNOWN then DNeed
      else if MaxRemaingLength <? rl then DErr
      else if 1 + blen rest <? rl + 1 + rll then DNeed
      else match packetDecodeMap ft with
           | None => DErr
           | Some dec =>
             match dec fl (firstn (N.to_nat rl) (skipn (N.to_nat rll) rest)) v with
             | None => DErr
             | Some f => DFrame f (Meta ft rl (1 + blen rest) false) (1 + rll + rl)
             end
           end
    end.
Proof.
  intros FB PP. unfold DecodeFrame. rewrite FB, PP, blen_cons.
  apply orb_false_iff in PP. destruct PP as [-> ->].
  destruct (decodeLength rest) as [[rl rll]|]; [|reflexivity]. rewrite N2Nat.inj_add. reflexivity.
Qed.

(* behind the header byte of a frame that has a body *)
Lemma DecodeFrame_after_header f rest v : is_pingpong f = false ->
  DecodeFrame (ToFixHeaderUint8 f :: rest) v
  = match decodeLength rest with
    | None => DNeed
    | Some (rl, rll) =>
      if MaxRemaingLength <? rl then DErr
      else if 1 + blen rest <? rl + 1 + rll then DNeed
      else match packetDecodeMap (frame_type f) with
           | None => DErr
           | Some dec =>
             match dec (normalize_flags (frame_type f) (frame_flags f))
                       (firstn (N.to_nat rl) (skipn (N.to_nat rll) rest)) v with
             | None => DErr
             | Some f' => DFrame f' (Meta (frame_type f) rl (1 + blen rest) false) (1 + rll + rl)
             end
           end
    end.
Proof.
  intro NP. rewrite (DecodeFrame_body _ rest v _ _ (header_roundtrip f NP) NP), type_not_unknown. reflexivity.
Qed.

Lemma DecodeFrame_ok v f tail : within_limits v f = true ->
  DecodeFrame (frame_bytes f v ++ tail) v
  = DFrame (normalize v f)
           (Meta (frame_type f) (remlen_of f v) (blen (frame_bytes f v) + blen tail) false)
           (blen (frame_bytes f v)).
Proof.
  intro H. unfold frame_bytes, remlen_of.
  destruct (is_pingpong f) eqn:NP.
  - (* PING / PONG: one byte, flags not encoded *)
    destruct f; try discriminate NP; cbn [frame_type app];
      [rewrite (DecodeFrame_pingpong ((PING * 16) mod 256) tail v PING (Flags false false false false false) eq_refl eq_refl)
      |rewrite (DecodeFrame_pingpong ((PONG * 16) mod 256) tail v PONG (Flags false false false false false) eq_refl eq_refl)];
      reflexivity.
  - destruct (within_limits_split v f H) as [F _]. destruct (body_bounds v f H NP) as [B1 B2].
    destruct (decode_body_rt v f F NP) as [dec [D R]].
    set (body := body_bytes f v) in *. cbn [app]. rewrite <- app_assoc.
    rewrite (DecodeFrame_after_header f _ v NP), decodeLength_enc by (unfold MaxRemaingLength in *; lia).
    replace (MaxRemaingLength <? blen body) with false by lia.
    autorewrite with blen.
    match goal with |- context [?a <? ?b] => replace (a <? b) with false by lia end.
    rewrite skipn_blen, firstn_blen, D, R. f_equal; [f_equal|]; lia.
Qed.

Lemma flags_eqb_eq a b : flags_eqb a b = true <-> a = b.
Proof.
  destruct a as [a1 a2 a3 a4 a5], b as [b1 b2 b3 b4 b5]. unfold flags_eqb. cbn [f_nopersist f_reddot f_synconce f_dup f_hsv].
  rewrite !andb_true_iff, !Bool.eqb_true_iff. split; [intros [[[[-> ->] ->] ->] ->]; reflexivity|].
  intro H. inversion H. auto.
Qed.

Lemma frame_eqb_refl f : frame_eqb f f = true.
Proof.
  destruct f; cbn [frame_eqb]; rewrite (proj2 (flags_eqb_eq _ _) eq_refl), ?N.eqb_refl, ?bytes_eqb_refl; reflexivity.
Qed.

Lemma frame_eqb_eq a b : frame_eqb a b = true -> a = b.
Proof.
  destruct a, b; cbn [frame_eqb]; intro H; try discriminate; split_ok H;
    repeat match goal with
           | E : flags_eqb _ _ = true |- _ => apply flags_eqb_eq in E
           | E : (_ =? _) = true |- _ => apply N.eqb_eq in E
           | E : bytes_eqb _ _ = true |- _ => apply bytes_eqb_eq in E
           end; subst; reflexivity.
Qed.

Lemma model_satisfies_monitor v f tail :
  C22_monitor (C22Case v f tail (encodedFrameSize f v) (EncodeFrame f v)
                 (match EncodeFrame f v with EncOk bs => Some (DecodeFrame (bs ++ tail) v) | _ => None end)
                 true) = 0.
Proof.
  unfold C22_monitor. cbn [c22_v c22_f c22_tail c22_size c22_enc c22_dec c22_unchanged].
  destruct (within_limits v f) eqn:H; [|reflexivity].
  rewrite (EncodeFrame_ok v f H), (DecodeFrame_ok v f tail H), (encodedFrameSize_ok v f H).
  cbn [m_type]. rewrite frame_eqb_refl, !N.eqb_refl. reflexivity.
Qed.
