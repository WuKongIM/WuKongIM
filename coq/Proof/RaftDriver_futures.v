(* Proof/RaftDriver_futures.v — C12: a future that reports success for (index,
   term) belongs to the entry applied there — PROVIDED the entries a Ready asks to
   persist while futures wait in submittedProposals are this node's own proposals in
   submission order (LocalAppend, LA) and Log Matching holds for those entries (LM, which
   turns "same index and term" into "same entry").  slot.trackReadyEntries does not check that, and
   etcd/raft forwards a proposal made on a follower: without LocalAppend the
   statement is false (c12_future_index_refuted, Properties/C12.v). *)
From WK Require Import Base.Base Model.RaftDriver Proof.RaftDriver_lists Proof.RaftDriver_exec
  Proof.RaftDriver_inv Proof.RaftDriver_steps.
From Coq Require Import Sorted ZifyBool ZifyN ZifyNat.
Open Scope N_scope.

(* which future slot.trackReadyEntries gives to which entry *)
Fixpoint assigned (ents : list entry) (sub : list N) : list (entry * N) :=
  match ents with
  | [] => []
  | e :: r =>
      match e_kind e, sub with
      | KNormal, f :: sub' => (e, f) :: assigned r sub'
      | _, _ => assigned r sub
      end
  end.

Section Futures.

Variable clog : N -> entry.
Hypothesis clog_idx : forall i, e_idx (clog i) = i.
Variable GS : entry -> Prop.

(* Log Matching against the committed log: an entry with the index and the term of a committed
   entry IS that entry *)
Definition LM (ents : list entry) : Prop :=
  forall e, In e ents -> e_term e = e_term (clog (e_idx e)) -> e = clog (e_idx e).

(* LocalAppend: every entry that takes a waiting future carries that future's command *)
Definition LA (sub : list N) (ents : list entry) : Prop :=
  forall e f, In (e, f) (assigned ents sub) -> e_cmd e = f.

Definition TrackFut (s : node) (ents : list entry) : Prop := LM ents /\ LA (v_submitted s) ents.

Lemma TrackFut_submitted s s' ents : v_submitted s' = v_submitted s -> TrackFut s ents -> TrackFut s' ents.
Proof. unfold TrackFut. intros ->. auto. Qed.

Notation INV := (INV clog GS).
Notation mop_valid := (mop_valid clog GS TrackFut).

(* a pending binding index -> (term, future) is harmless unless the term is the committed entry's, and then that
   entry is the future's own command *)
Definition bound_ok (i t f : N) : Prop :=
  t = e_term (clog i) -> clog i = Entry i t KNormal f.

Record FINV (s : node) : Prop := mkFINV {
  f_pending : forall i t f, pend_get (v_pending s) i = Some (t, f) -> bound_ok i t f;
  f_done : forall f i t d, In (f, FutOk i t d) (n_futs s) ->
             clog i = Entry i t KNormal f /\ d = Some f /\ In (clog i) (applied_tr (n_tr s))
}.

Lemma pend_get_del p i j : pend_get (pend_del p i) j = if i =? j then None else pend_get p j.
Proof.
  unfold pend_del. induction p as [|[k v] p IH]; cbn [filter pend_get fst].
  - destruct (i =? j); reflexivity.
  - destruct (N.eqb_spec k i) as [->|Hki]; cbn [negb].
    + rewrite IH. destruct (i =? j); reflexivity.
    + cbn [pend_get]. rewrite IH. destruct (N.eqb_spec k j) as [->|Hkj].
      * destruct (N.eqb_spec i j) as [->|_]; [congruence | reflexivity].
      * reflexivity.
Qed.

Lemma pend_get_set p i v j : pend_get (pend_set p i v) j = if i =? j then Some v else pend_get p j.
Proof.
  unfold pend_set. cbn [pend_get]. destruct (i =? j) eqn:E; [reflexivity|].
  rewrite pend_get_del, E. reflexivity.
Qed.

Definition bind (p : list (N * (N * N))) (ef : entry * N) : list (N * (N * N)) :=
  pend_set p (e_idx (fst ef)) (e_term (fst ef), snd ef).

Lemma track_assigned ents : forall sub pend,
  snd (trackReadyEntries ents sub pend) = fold_left bind (assigned ents sub) pend.
Proof.
  induction ents as [|e r IH]; intros sub pend; cbn [trackReadyEntries assigned]; [reflexivity|].
  destruct (e_kind e), sub; cbn [fold_left]; apply IH.
Qed.

Lemma pend_get_binds l : forall pend i t f,
  pend_get (fold_left bind l pend) i = Some (t, f) ->
  pend_get pend i = Some (t, f) \/ exists e, In (e, f) l /\ e_idx e = i /\ e_term e = t.
Proof.
  induction l as [|[e f0] l IH]; intros pend i t f H; [left; exact H|]. cbn [fold_left] in H.
  destruct (IH _ _ _ _ H) as [A|(x & A & B)]; [|right; exists x; split; [right; exact A | exact B]].
  unfold bind in A. cbn [fst snd] in A. rewrite pend_get_set in A.
  destruct (N.eqb_spec (e_idx e) i) as [E|_]; [|left; exact A].
  injection A as <- <-. right. exists e. split; [left; reflexivity | split; [exact E | reflexivity]].
Qed.

Lemma assigned_In ents : forall sub e f, In (e, f) (assigned ents sub) -> In e ents /\ e_kind e = KNormal.
Proof.
  induction ents as [|x r IH]; intros sub e f H; [destruct H|]. cbn [assigned] in H.
  destruct (e_kind x) eqn:K, sub as [|f0 sub'];
    try (destruct (IH _ _ _ H) as [A B]; split; [right; exact A | exact B]).
  destruct H as [H|H]; [injection H as <- <-; split; [left; reflexivity | exact K]|].
  destruct (IH _ _ _ H) as [A B]. split; [right; exact A | exact B].
Qed.

Lemma FINV_grow s s' :
  v_pending s' = v_pending s -> n_futs s' = n_futs s ->
  (forall x, In x (applied_tr (n_tr s)) -> In x (applied_tr (n_tr s'))) ->
  FINV s -> FINV s'.
Proof.
  intros Ep Ef Ht [A B]. constructor.
  - rewrite Ep. exact A.
  - rewrite Ef. intros f i t d H. destruct (B f i t d H) as (X & Y & Z). repeat split; auto.
Qed.

Lemma resolveProposal_FINV e s :
  e = clog (e_idx e) -> In e (applied_tr (n_tr s)) -> FINV s -> FINV (resolveProposal e s).
Proof.
  intros He Hin [A B]. unfold resolveProposal.
  destruct (pend_get (v_pending s) (e_idx e)) as [[t f]|] eqn:P; [|constructor; assumption].
  destruct (t =? e_term e) eqn:Et; [|constructor; assumption].
  apply N.eqb_eq in Et. constructor; nsimpl.
  - intros i t' f' H. rewrite pend_get_del in H. destruct (e_idx e =? i); [discriminate|]. apply (A _ _ _ H).
  - intros f' i t' d H. apply in_app_or in H. destruct H as [H|[H|[]]]; [apply (B _ _ _ _ H)|].
    injection H as <- <- <- <-.
    assert (Hb : clog (e_idx e) = Entry (e_idx e) t KNormal f).
    { apply (A _ _ _ P). rewrite Et. f_equal. exact He. }
    split; [rewrite <- Et; exact Hb|]. split.
    + rewrite He, Hb. reflexivity.
    + rewrite <- He. exact Hin.
Qed.

Lemma completeResolutions_FINV ents : forall s,
  (forall e, In e ents -> e = clog (e_idx e) /\ In e (applied_tr (n_tr s))) ->
  FINV s -> FINV (completeResolutions ents s).
Proof.
  unfold completeResolutions. induction ents as [|e r IH]; intros s Hv H; cbn [fold_left]; [exact H|].
  apply IH.
  - intros x Hx. destruct (Hv x (or_intror Hx)) as [A B]. split; [exact A|].
    destruct (resolveProposal_core e s) as (sub & pend & l & out & ->). exact B.
  - destruct (Hv e (or_introl eq_refl)) as [A B]. apply resolveProposal_FINV; assumption.
Qed.

Lemma failLeadershipDependent_FINV s : FINV s -> FINV (failLeadershipDependent s).
Proof.
  intros [A B]. unfold failLeadershipDependent. constructor; nsimpl.
  - intros i t f H. discriminate.
  - intros f i t d H. apply in_app_or in H. destruct H as [H|H]; [apply (B _ _ _ _ H)|].
    apply in_app_or in H. destruct H as [H|H]; apply in_map_iff in H; destruct H as (x & Hx & _); discriminate.
Qed.

Lemma refreshStatus_FINV l s : FINV s -> FINV (refreshStatus l s).
Proof.
  intro H. unfold refreshStatus. destruct (v_leader s && negb l).
  - pose proof (failLeadershipDependent_FINV s H) as [A B]. constructor; nsimpl; assumption.
  - destruct H as [A B]. constructor; nsimpl; assumption.
Qed.

Lemma FINV_exec o s : INV s -> FINV s -> live s -> mop_valid o s -> FINV (exec o s).
Proof.
  intros I H L V. destruct (futs_op o) eqn:F.
  - exec_on L. destruct o; try discriminate F; cbn [RaftDriver_inv.mop_valid] in V.
    + destruct V as [Vlm Vla].
      destruct (trackReadyEntries ents (v_submitted s) (v_pending s)) as [sub pend] eqn:E.
      destruct H as [A B]. constructor; nsimpl; [|exact B].
      intros i t f Hg.
      assert (Hg' : pend_get (fold_left bind (assigned ents (v_submitted s)) (v_pending s)) i = Some (t, f))
        by (rewrite <- track_assigned, E; exact Hg).
      destruct (pend_get_binds _ _ _ _ _ Hg') as [Hold|(e & Has & Hi & Ht)]; [apply (A _ _ _ Hold)|].
      destruct (assigned_In _ _ _ _ Has) as [Hin Hk].
      intro Hterm. subst i t.
      assert (He : e = clog (e_idx e)) by (apply Vlm; [exact Hin | exact Hterm]).
      rewrite <- He, <- (Vla e f Has), <- Hk. destruct e; reflexivity.
    + apply completeResolutions_FINV; assumption.
    + apply refreshStatus_FINV, H.
  - (* the other operations leave the futures alone, and what was applied stays applied *)
    destruct (exec_futs o s F) as (_ & Ep & Ef). apply (FINV_grow s); [exact Ep | exact Ef | | exact H].
    intros x Hx. rewrite (exec_applied o s L). apply in_or_app. left. exact Hx.
Qed.

Lemma FINV_crash hard s : INV s -> FINV s -> FINV (crash hard s).
Proof.
  intros I H. unfold crash. destruct (v_up s); cbn [negb]; [|exact H].
  pose proof (failLeadershipDependent_FINV s H) as [A B].
  constructor; nsimpl.
  - intros i t f Hg. discriminate.
  - intros f i t d Hin. destruct (B f i t d Hin) as (X & Y & Z). split; [exact X|]. split; [exact Y|].
    rewrite applied_tr_app. apply in_or_app. left. exact Z.
Qed.

Lemma FINV_newSlot first s : INV s -> FINV s -> v_up s = false -> FINV (newSlot first s).
Proof.
  intros I H U. apply (FINV_grow s); [| | |exact H].
  - rewrite (newSlot_down first s U). cbn zeta. destruct (negb (d_snap s =? 0)); reflexivity.
  - rewrite (newSlot_down first s U). cbn zeta. destruct (negb (d_snap s =? 0)); reflexivity.
  - intros x Hx. rewrite (newSlot_tr first s U), applied_tr_app. apply in_or_app. left. exact Hx.
Qed.

Lemma FINV_propose cmd acc s : INV s -> FINV s -> FINV (step_node (SPropose cmd acc) s).
Proof.
  intros I [A B]. cbn [step_node]. destruct (v_up s && negb (v_failed s)); [|constructor; assumption].
  destruct acc; constructor; nsimpl; try assumption.
  intros f i t d H. apply in_app_or in H. destruct H as [H|[H|[]]]; [apply (B _ _ _ _ H) | discriminate].
Qed.

Lemma FINV_preserved : preserved clog GS TrackFut FINV.
Proof. exact (conj FINV_exec (conj FINV_crash (conj FINV_newSlot FINV_propose))). Qed.

Theorem run_FINV sched :
  sched_ok clog GS TrackFut sched start_node -> FINV (run true sched).
Proof.
  intro Hok. apply (preserved_run clog clog_idx GS TrackFut TrackFut_submitted FINV FINV_preserved sched Hok).
  constructor; unfold init_node; nsimpl.
  - intros i t f H. discriminate.
  - intros f i t d [].
Qed.

End Futures.
