(* Proof/RaftDriver_monitor.v — C12: a cluster of driver models, every replica
   stepping on its own under the library hypotheses, produces a case on which the
   property monitor C12_monitor returns 0. *)
From WK Require Import Base.Base Base.Lists Model.RaftDriver Proof.RaftDriver_lists Proof.RaftDriver_exec
  Proof.RaftDriver_inv Proof.RaftDriver_steps Proof.RaftDriver_trace Proof.RaftDriver_futures.
From Coq Require Import Sorted ZifyBool ZifyN ZifyNat.
Open Scope N_scope.

Lemma upd_split {A} (l : list A) : forall i x n,
  nth_error l i = Some n -> exists a b, l = a ++ n :: b /\ upd l i x = a ++ x :: b.
Proof.
  induction l as [|y l IH]; intros [|k] x n H; try discriminate H.
  - injection H as <-. exists [], l. split; reflexivity.
  - destruct (IH k x n H) as (a & b & -> & E). exists (y :: a), b. cbn [upd app]. rewrite E. split; reflexivity.
Qed.

Section Monitor.

Variable clog : N -> entry.
Hypothesis clog_idx : forall i, e_idx (clog i) = i.

Notation TrackFut := (TrackFut clog).

Definition Gall (ns : list node) : list entry := flat_map (fun n => applied_tr (n_tr n)) ns.
Definition GSof (ns : list node) : entry -> Prop := fun e => In e (Gall ns).

(* everything known of one replica, and of a cluster with GS = what any of its replicas has applied *)
Record NINV (GS : entry -> Prop) (n : node) : Prop := mkNINV {
  ni_inv : INV clog GS n;
  ni_binv : live n -> BINV clog n;
  ni_ord : ORD clog n;
  ni_pers : PERS n;
  ni_fut : FINV clog n
}.

Definition CINV (ns : list node) : Prop := forall n, In n ns -> NINV (GSof ns) n.

Lemma INV_mono (GS GS' : entry -> Prop) s :
  (forall e, GS e -> GS' e) -> INV clog GS s -> INV clog GS' s.
Proof.
  intros H I. destruct I. constructor; try assumption.
  - intros e He. destruct (i_hist_known e He) as [A|B]; [left; exact A | right; apply H, B].
  - intros e He. destruct (i_snap_known e He) as [A|B]; [left; exact A | right; apply H, B].
Qed.

Lemma NINV_mono (GS GS' : entry -> Prop) n : (forall e, GS e -> GS' e) -> NINV GS n -> NINV GS' n.
Proof. intros H [A B C D E]. constructor; try assumption. eapply INV_mono; eassumption. Qed.

Lemma In_Gall ns e : In e (Gall ns) <-> exists n, In n ns /\ In e (applied_tr (n_tr n)).
Proof. unfold Gall. rewrite in_flat_map. reflexivity. Qed.

Lemma applied_kept (GS : entry -> Prop) (A : list entry) :
  preserved clog GS TrackFut (fun s => forall x, In x A -> In x (applied_tr (n_tr s))).
Proof.
  split; [|split; [|split]].
  - intros o s _ H L _ x Hx. rewrite (exec_applied o s L). apply in_or_app. left. apply H, Hx.
  - intros hard s _ H x Hx. unfold crash. destruct (v_up s); cbn [negb]; [|apply H, Hx].
    change (In x (applied_tr (n_tr s ++ [EvDown hard]))). rewrite applied_tr_app. apply in_or_app. left. apply H, Hx.
  - intros first s _ H U x Hx. rewrite (newSlot_tr first s U), applied_tr_app. apply in_or_app. left. apply H, Hx.
  - intros cmd acc s _ H. destruct (propose_core cmd acc s) as (sub & pend & l & out & ->). exact H.
Qed.

Definition cstep_ok (ns : list node) (cs : nat * step) : Prop :=
  match nth_error ns (fst cs) with
  | Some n => step_ok clog (GSof ns) TrackFut (snd cs) n
  | None => True
  end.

Lemma cstep_CINV ns cs : CINV ns -> cstep_ok ns cs -> CINV (cstep_apply ns cs).
Proof.
  intros C Hok. unfold cstep_apply, cstep_ok in *. destruct cs as [i st]. cbn [fst snd] in *.
  destruct (nth_error ns i) as [n|] eqn:En; [|exact C].
  assert (Hn : In n ns) by (eapply nth_error_In; exact En).
  destruct (C n Hn) as [I B O P F].
  set (n' := step_node st n).
  assert (S : SINV clog (GSof ns) n) by (split; assumption).
  assert (N' : NINV (GSof ns) n').
  { destruct (step_SINV clog clog_idx (GSof ns) TrackFut (TrackFut_submitted clog) st n S Hok) as [I' B'].
    destruct (preserved_step clog clog_idx (GSof ns) TrackFut (TrackFut_submitted clog) _
                (preserved_and _ _ _ _ _ (ORD_preserved clog clog_idx (GSof ns) TrackFut)
                   (preserved_and _ _ _ _ _ (PERS_preserved clog clog_idx (GSof ns) TrackFut) (FINV_preserved clog (GSof ns))))
                st n S Hok (conj O (conj P F))) as (O' & P' & F').
    constructor; assumption. }
  destruct (upd_split ns i n' n En) as (a & b & Ens & ->).
  assert (Mono : forall e, GSof ns e -> GSof (a ++ n' :: b) e).
  { unfold GSof. intros e He. apply In_Gall in He. destruct He as (m & Hm & Hx). apply In_Gall.
    rewrite Ens in Hm. apply in_app_or in Hm. destruct Hm as [Hm|[<-|Hm]].
    - exists m. split; [apply in_or_app; left; exact Hm | exact Hx].
    - exists n'. split; [apply in_or_app; right; left; reflexivity|].
      exact (preserved_step clog clog_idx (GSof ns) TrackFut (TrackFut_submitted clog) _
               (applied_kept (GSof ns) (applied_tr (n_tr n))) st n S Hok (fun x H => H) e Hx).
    - exists m. split; [apply in_or_app; right; right; exact Hm | exact Hx]. }
  intros m Hm. apply (NINV_mono _ _ _ Mono). apply in_app_or in Hm. destruct Hm as [Hm|[<-|Hm]]; [|exact N'|].
  - apply C. rewrite Ens. apply in_or_app. left. exact Hm.
  - apply C. rewrite Ens. apply in_or_app. right. right. exact Hm.
Qed.

Fixpoint csched_ok (sched : list (nat * step)) (ns : list node) : Prop :=
  match sched with
  | [] => True
  | cs :: r => cstep_ok ns cs /\ csched_ok r (cstep_apply ns cs)
  end.

Lemma crun_from_CINV sched : forall ns, CINV ns -> csched_ok sched ns -> CINV (fold_left cstep_apply sched ns).
Proof.
  induction sched as [|cs r IH]; intros ns C Hok; [exact C|].
  cbn [csched_ok] in Hok. destruct Hok as [H1 H2]. cbn [fold_left].
  apply IH; [apply cstep_CINV; assumption | exact H2].
Qed.

Lemma start_NINV GS : NINV GS start_node.
Proof.
  destruct (start_SINV clog clog_idx GS TrackFut (TrackFut_submitted clog)) as [I B].
  constructor; [exact I | exact B | | |].
  - apply (run_ORD clog clog_idx GS TrackFut (TrackFut_submitted clog) []). exact Logic.I.
  - apply (run_PERS clog clog_idx GS TrackFut (TrackFut_submitted clog) []). exact Logic.I.
  - apply (run_FINV clog clog_idx GS []). exact Logic.I.
Qed.

Lemma init_CINV k : CINV (cluster_init true k).
Proof.
  intros n Hn. unfold cluster_init in Hn. apply repeat_spec in Hn. subst n. apply start_NINV.
Qed.

Theorem crun_CINV k sched : csched_ok sched (cluster_init true k) -> CINV (crun true k sched).
Proof. intro H. unfold crun. apply crun_from_CINV; [apply init_CINV | exact H]. Qed.

(* what a replica stores as its snapshot satisfies what the theorems assume of a received snapshot *)
Lemma CINV_snapshot ns n :
  CINV ns -> In n ns -> d_snap n <> 0 ->
  snap_good clog (d_snap n) (d_snapc n) /\ (forall e, In e (d_snapc n) -> In e (Gall ns)).
Proof.
  intros C Hn Hs. destruct (C n Hn) as [I _ _ _ _]. split; [apply (i_snap _ _ _ I Hs)|].
  intros e He. destruct (i_snap_known _ _ _ I e He) as [A|B]; [|exact B].
  apply In_Gall. exists n. split; assumption.
Qed.

Lemma applied_all_case ns : applied_all (case_of ns) = Gall ns.
Proof.
  unfold applied_all, case_of, Gall. cbn [c_nodes]. rewrite flat_map_concat_map, map_map, <- flat_map_concat_map.
  reflexivity.
Qed.

Lemma Gall_sound ns : CINV ns -> Gsound clog (Gall ns).
Proof.
  intros C g Hg. apply In_Gall in Hg. destruct Hg as (n & Hn & Hx).
  destruct (C n Hn) as [I _ _ _ _]. apply (i_applied_sound _ _ _ I), Hx.
Qed.

Lemma find_idx_sound G e :
  Gsound clog G -> In e G -> find_idx G (e_idx e) = Some e.
Proof.
  intros HG. induction G as [|g G IH]; intro He; [destruct He|]. cbn [find_idx].
  destruct (N.eqb_spec (e_idx g) (e_idx e)) as [E|NE].
  - f_equal. destruct (HG g (or_introl eq_refl)) as (A & _). destruct (HG e He) as (B & _). congruence.
  - destruct He as [->|He]; [congruence|]. apply IH; [|exact He].
    intros x Hx. apply HG. right. exact Hx.
Qed.

Lemma find_idx_In G i g : find_idx G i = Some g -> In g G /\ e_idx g = i.
Proof.
  induction G as [|x G IH]; cbn [find_idx]; [discriminate|].
  destruct (N.eqb_spec (e_idx x) i) as [E|NE].
  - intro H. injection H as <-. split; [left; reflexivity | exact E].
  - intro H. destruct (IH H) as [A B]. split; [right; exact A | exact B].
Qed.

Lemma check_same_sound G : Gsound clog G -> check_same G = true.
Proof.
  intro HG. unfold check_same. apply forallb_forall. intros e He. unfold same_entry.
  rewrite (find_idx_sound G e HG He), !N.eqb_refl. reflexivity.
Qed.

Lemma increasing_from_N c : forall cur, increasing_N cur (map e_idx c) = increasing_from cur c.
Proof. induction c as [|x c IH]; intro cur; [reflexivity|]. cbn [map increasing_N increasing_from]. rewrite IH. reflexivity. Qed.

Lemma check_final_ok ns n : CINV ns -> In n ns -> check_final (Gall ns) (obs_of n) = true.
Proof.
  intros C Hn. pose proof (Gall_sound ns C) as HG. destruct (C n Hn) as [I _ _ _ _]. destruct I.
  unfold check_final, obs_of. cbn [o_hist o_smidx].
  apply andb_true_iff. split; [apply andb_true_iff; split|].
  - rewrite map_map. cbn [fst]. rewrite increasing_from_N. apply increasing_from_sorted; [exact i_sorted|].
    intros e He. destruct (i_sound e He) as (_ & _ & H). lia.
  - apply forallb_forall. intros p Hp. apply in_map_iff in Hp. destruct Hp as (e & <- & He). cbn [fst snd].
    destruct (i_sound e He) as (_ & _ & Hb). apply andb_true_iff. split; [apply N.leb_le; lia|].
    assert (HeG : In e (Gall ns)).
    { destruct (i_hist_known e He) as [A|B]; [apply In_Gall; exists n; split; assumption | exact B]. }
    rewrite (find_idx_sound _ e HG HeG). apply N.eqb_refl.
  - apply forallb_forall. intros g Hg. destruct (e_idx g <=? sm_idx n) eqn:E; [|reflexivity].
    apply N.leb_le in E. destruct (HG g Hg) as (A & B & Cg).
    assert (In (clog (e_idx g)) (sm_hist n)).
    { apply i_complete; [lia | rewrite <- A; exact B]. }
    unfold hist_has. apply existsb_exists. exists (e_idx g, e_cmd g). split; [|cbn [fst]; apply N.eqb_refl].
    apply in_map_iff. exists g. split; [reflexivity | rewrite A at 1; exact H].
Qed.

Lemma futs_from_In ns : forall i f,
  In f (futs_from i ns) -> exists n p, In n ns /\ In p (n_futs n) /\ f_cmd f = fst p /\ f_res f = snd p.
Proof.
  induction ns as [|n r IH]; intros i f H; cbn [futs_from] in H; [destruct H|].
  apply in_app_or in H. destruct H as [H|H].
  - apply in_map_iff in H. destruct H as (p & <- & Hp). exists n, p. cbn. repeat split; auto.
  - destruct (IH _ _ H) as (m & p & A & B). exists m, p. split; [right; exact A | exact B].
Qed.

Theorem CINV_monitor ns : CINV ns -> C12_monitor (case_of ns) = 0.
Proof.
  intro C. pose proof (Gall_sound ns C) as HG.
  unfold C12_monitor, check_C12_nodes. rewrite applied_all_case. cbn [c_nodes case_of c_futs].
  assert (E1 : check_same (Gall ns) = true) by (apply check_same_sound, HG).
  assert (E2 : forallb (fun n => check_order (Gall ns) 0 (o_events n)) (map obs_of ns) = true).
  { apply forallb_forall. intros o Ho. apply in_map_iff in Ho. destruct Ho as (n & <- & Hn).
    destruct (C n Hn) as [_ _ O _ _]. cbn [obs_of o_events]. apply (ORD_check clog); assumption. }
  assert (E3 : forallb (fun n => check_persist dur0 (o_events n)) (map obs_of ns) = true).
  { apply forallb_forall. intros o Ho. apply in_map_iff in Ho. destruct Ho as (n & <- & Hn).
    destruct (C n Hn) as [_ _ _ P _]. cbn [obs_of o_events]. apply PERS_check, P. }
  assert (E4 : forallb (check_final (Gall ns)) (map obs_of ns) = true).
  { apply forallb_forall. intros o Ho. apply in_map_iff in Ho. destruct Ho as (n & <- & Hn).
    apply check_final_ok; assumption. }
  rewrite E1, E2, E3, E4. cbn [andb negb].
  assert (E5 : filter (fun f => negb (fut_ok (Gall ns) f)) (futs_from 0 ns) = []).
  { apply filter_none. intros f Hf. apply negb_false_iff.
    destruct (futs_from_In ns 0 f Hf) as (n & p & Hn & Hp & Ec & Er).
    destruct (C n Hn) as [_ _ _ _ F]. unfold fut_ok. rewrite Er.
    destruct p as [cmd res]. cbn [fst snd] in *. destruct res as [i t d| |]; try reflexivity.
    destruct (f_done _ _ F cmd i t d Hp) as (Hb & Hd & Hin).
    assert (HinG : In (clog i) (Gall ns)) by (apply In_Gall; exists n; split; assumption).
    pose proof (find_idx_sound _ _ HG HinG) as Hfi. rewrite clog_idx in Hfi. rewrite Hfi.
    rewrite Hb. cbn [e_term e_cmd]. rewrite Hd, Ec, !N.eqb_refl. reflexivity. }
  rewrite E5. reflexivity.
Qed.

End Monitor.
