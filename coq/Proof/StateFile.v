(* Proof/StateFile.v — C19: the state file is replaced atomically; Decode accepts only
   self-consistent files.  [old_or_new]: from a settled main path, a crash after ANY prefix of
   Save's steps, with ANY prefix of the pending directory operations on disk and ANY bytes in
   unsynced inodes, leaves the main path reading the old or the new bytes, settled again; hence
   [history_reads].  Without a crash: [visible_switch], [hook_failure_keeps_old], and from a
   state that need not be settled [vis_full], [vis_kill], [vis_fail].  The codec
   ([decode_consistent], [encode_decode]) has JSON and CRC abstract. *)
From WK Require Import Base.Base Base.Lists.
From WK Require Import Gen.Consts_C18 Model.CtrlFSM Model.StateFile Proof.CtrlFSM_norm Proof.CtrlFSM_getset.
From Coq Require Import ZifyBool ZifyN ZifyNat.
Open Scope N_scope.

Lemma dir_get_del d n m : dir_get (dir_del d n) m = if n =? m then None else dir_get d m.
Proof.
  induction d as [|[k i] d IH]; cbn [dir_del dir_get].
  - destruct (n =? m); reflexivity.
  - destruct (k =? n) eqn:E1.
    + rewrite IH. destruct (n =? m) eqn:E2; [reflexivity|].
      assert (E3 : (k =? m) = false) by lia. rewrite E3. reflexivity.
    + cbn [dir_get]. rewrite IH. destruct (k =? m) eqn:E3; [|reflexivity].
      assert (E2 : (n =? m) = false) by lia. rewrite E2. reflexivity.
Qed.

Lemma dir_get_set d n i m : dir_get (dir_set d n i) m = if n =? m then Some i else dir_get d m.
Proof.
  unfold dir_set. cbn [dir_get]. destruct (n =? m) eqn:E; [reflexivity|]. rewrite dir_get_del, E. reflexivity.
Qed.

Definition crash_inode (junk : N -> bytes) (p : N * inode) : N * inode :=
  (fst p, if i_synced (snd p) then snd p else IN (junk (fst p)) true).

Lemma ino_get_crash junk t i :
  ino_get (map (crash_inode junk) t) i
  = match ino_get t i with
    | Some x => Some (if i_synced x then x else IN (junk i) true)
    | None => None
    end.
Proof.
  induction t as [|[k x] t IH]; [reflexivity|]. cbn [map ino_get crash_inode fst snd].
  destruct (k =? i) eqn:E; [|exact IH]. assert (k = i) by lia. subst k. reflexivity.
Qed.

(* the main path reads the same through a directory that agrees on name 0 and an inode table
   that agrees on the inode it points to *)
Lemma read_main_keep s d dd pend tab nxt :
  (forall i, dir_get (f_dir s) 0 = Some i -> ino_get tab i = ino_get (f_inodes s) i) ->
  dir_get d 0 = dir_get (f_dir s) 0 -> read (FS d dd pend tab nxt) 0 = read s 0.
Proof.
  intros Ht Hd. unfold read. cbn [f_dir f_inodes]. rewrite Hd.
  destruct (dir_get (f_dir s) 0) as [i|]; [|reflexivity]. rewrite (Ht i eq_refl). reflexivity.
Qed.

Lemma run_snoc s l o : run s (l ++ [o]) = step (run s l) o.
Proof. unfold run. rewrite fold_left_app. reflexivity. Qed.

Definition dir_bounded (d : dir) (b : N) : Prop := forall n i, dir_get d n = Some i -> i < b.

Definition vis_ok (s : fs) : Prop := dir_bounded (f_dir s) (f_next s).

(* The first steps of Save from ANY state, and what stays visible while no crash happens.  A Save
   killed or failed inside the hook leaves its DLink pending, so the next Save of the same process
   starts from a state that is not settled: only [vis_ok] is known of it. *)
Section SaveSteps.
  Variable s : fs.
  Variable t : N.
  Variable data : bytes.

  Definition save_mid (pend : list dirop) (tab : list (N * inode)) : fs :=
    FS (dir_set (f_dir s) t (f_next s)) (f_ddir s) (pend ++ [DLink t (f_next s)]) tab (f_next s + 1).
  Definition save_tab1 := ino_set (f_inodes s) (f_next s) (IN [] true).
  Definition save_tab2 := ino_set save_tab1 (f_next s) (IN data (is_empty data)).
  Definition save_tab3 := ino_set save_tab2 (f_next s) (IN data true).

  Lemma save_run_create : run s [Create t] = save_mid (f_pending s) save_tab1.
  Proof. reflexivity. Qed.

  Lemma save_step_write pend : step (save_mid pend save_tab1) (Write t data) = save_mid pend save_tab2.
  Proof.
    unfold step, save_mid. cbn [f_dir f_ddir f_pending f_inodes f_next].
    rewrite dir_get_set, N.eqb_refl. unfold save_tab1 at 1, ino_set at 1. cbn [ino_get]. rewrite N.eqb_refl.
    cbn [i_data i_synced app]. rewrite andb_true_r. reflexivity.
  Qed.

  Lemma save_step_fsync pend : step (save_mid pend save_tab2) (Fsync t) = save_mid pend save_tab3.
  Proof.
    unfold step, save_mid. cbn [f_dir f_ddir f_pending f_inodes f_next].
    rewrite dir_get_set, N.eqb_refl. unfold save_tab2 at 1, ino_set at 1. cbn [ino_get]. rewrite N.eqb_refl.
    reflexivity.
  Qed.

  Lemma save_run3 : run s [Create t; Write t data; Fsync t] = save_mid (f_pending s) save_tab3.
  Proof.
    change [Create t; Write t data; Fsync t] with (([Create t] ++ [Write t data]) ++ [Fsync t]).
    rewrite !run_snoc, save_run_create, save_step_write. apply save_step_fsync.
  Qed.

  Definition save_extends (tab : list (N * inode)) : Prop :=
    forall i, i < f_next s -> ino_get tab i = ino_get (f_inodes s) i.

  Lemma extends_tab0 : save_extends (f_inodes s). Proof. intros i _. reflexivity. Qed.
  Lemma extends_set tab x : save_extends tab -> save_extends (ino_set tab (f_next s) x).
  Proof.
    intros H i Hi. unfold ino_set. cbn [ino_get].
    rewrite (proj2 (N.eqb_neq (f_next s) i)) by (intro E; rewrite E in Hi; exact (N.lt_irrefl _ Hi)). apply H. exact Hi.
  Qed.
  Definition extends_tab1 : save_extends save_tab1 := extends_set _ _ extends_tab0.
  Definition extends_tab2 : save_extends save_tab2 := extends_set _ _ extends_tab1.
  Definition extends_tab3 : save_extends save_tab3 := extends_set _ _ extends_tab2.

  Lemma tab3_new : ino_get save_tab3 (f_next s) = Some (IN data true).
  Proof. unfold save_tab3, ino_set. cbn [ino_get]. rewrite N.eqb_refl. reflexivity. Qed.

  Hypothesis Hvis : vis_ok s.
  Hypothesis Ht0 : t <> 0.

  Lemma t_nz : (t =? 0) = false.
  Proof. apply N.eqb_neq, Ht0. Qed.

  Lemma read_keep d dd pend tab nxt :
    save_extends tab -> dir_get d 0 = dir_get (f_dir s) 0 -> read (FS d dd pend tab nxt) 0 = read s 0.
  Proof. intros H Hd. apply read_main_keep; [|exact Hd]. intros i E. apply H, (Hvis 0 i E). Qed.

  Lemma mid_dir_bounded : dir_bounded (dir_set (f_dir s) t (f_next s)) (f_next s + 1).
  Proof.
    intros m i. rewrite dir_get_set. destruct (t =? m); intro E.
    - inversion E. apply N.lt_add_pos_r. reflexivity.
    - apply N.lt_lt_add_r, (Hvis m i E).
  Qed.

  Lemma read_mid pend tab : save_extends tab -> read (save_mid pend tab) 0 = read s 0.
  Proof. intro H. apply read_keep; [exact H|]. rewrite dir_get_set, t_nz. reflexivity. Qed.

  (* the process dies inside the hook *)
  Lemma vis_kill :
    read (run s (firstn 4 (save_ops t data))) 0 = read s 0 /\ vis_ok (run s (firstn 4 (save_ops t data))).
  Proof.
    change (firstn 4 (save_ops t data)) with ([Create t; Write t data; Fsync t] ++ [Hook]).
    rewrite run_snoc, save_run3. cbn [step].
    split; [apply read_mid, extends_tab3|exact mid_dir_bounded].
  Qed.

  (* the hook fails: the temp file is removed *)
  Lemma vis_fail :
    read (run s (save_ops_hook_fails t data)) 0 = read s 0 /\ vis_ok (run s (save_ops_hook_fails t data)).
  Proof.
    change (save_ops_hook_fails t data) with (([Create t; Write t data; Fsync t] ++ [Hook]) ++ [Remove t]).
    rewrite !run_snoc, save_run3. cbn [step save_mid f_dir f_ddir f_pending f_inodes f_next]. split.
    - apply read_keep; [apply extends_tab3|]. rewrite dir_get_del, dir_get_set, !t_nz. reflexivity.
    - intros m i. cbn [f_dir f_next]. rewrite dir_get_del. destruct (t =? m); [discriminate|apply mid_dir_bounded].
  Qed.

  Lemma vis_full :
    read (run s (save_ops t data)) 0 = Some data /\ vis_ok (run s (save_ops t data)).
  Proof.
    change (save_ops t data) with ((([Create t; Write t data; Fsync t] ++ [Hook]) ++ [Rename t 0]) ++ [FsyncDir]).
    rewrite !run_snoc, save_run3. cbn [step save_mid f_dir f_ddir f_pending f_inodes f_next dir_apply].
    rewrite dir_get_set, N.eqb_refl. split.
    - unfold read. cbn [f_dir f_inodes]. rewrite dir_get_set. cbn [N.eqb]. rewrite tab3_new. reflexivity.
    - intros m i. cbn [f_dir f_next]. rewrite dir_get_set. destruct (0 =? m); intro E.
      + inversion E. apply N.lt_add_pos_r. reflexivity.
      + rewrite dir_get_del in E. destruct (t =? m); [discriminate|apply (mid_dir_bounded m i E)].
  Qed.
End SaveSteps.

Section Save.
  Variable s0 : fs.
  Variable t : N.                 (* the temp name *)
  Variable data : bytes.          (* state.Encode's output *)

  Hypothesis Hsettled : settled s0 = true.
  Hypothesis Hbound : bounded s0.
  Hypothesis Ht0 : t <> 0.

  Let inew := f_next s0.
  Let d0 := f_dir s0.
  Let dd0 := f_ddir s0.
  Let tab0 := f_inodes s0.

  (* s0 is settled: nothing was pending before the DLink *)
  Notation mid := (save_mid s0 t []).
  Notation tab1 := (save_tab1 s0).
  Notation tab2 := (save_tab2 s0 data).
  Notation tab3 := (save_tab3 s0 data).
  Notation extends := (save_extends s0).
  Definition d5 := dir_set (dir_del (dir_set d0 t inew) t) 0 inew.
  Definition s5 : fs := FS d5 dd0 [DLink t inew; DRename t 0] tab3 (inew + 1).
  Definition s6 : fs := FS d5 d5 [] tab3 (inew + 1).

  Lemma pending0 : f_pending s0 = [].
  Proof.
    unfold settled in Hsettled. apply andb_true_iff in Hsettled. destruct Hsettled as [H _].
    destruct (f_pending s0); [reflexivity|discriminate H].
  Qed.

  Lemma s0_eta : s0 = FS d0 dd0 [] tab0 inew.
  Proof. subst d0 dd0 tab0 inew. rewrite <- pending0. destruct s0; reflexivity. Qed.

  Lemma run1 : run s0 (firstn 1 (save_ops t data)) = mid tab1.
  Proof. cbn [firstn save_ops]. rewrite save_run_create, pending0. reflexivity. Qed.

  Lemma step_rename : step (mid tab3) (Rename t 0) = s5.
  Proof.
    unfold step, save_mid, s5, d5. cbn [f_dir f_ddir f_pending f_inodes f_next dir_apply app].
    rewrite dir_get_set, N.eqb_refl. reflexivity.
  Qed.

  (* k = number of ops of save_ops done: 1 Create, 2 Write, 3 Fsync, 4 Hook (no change),
     5 Rename, 6 FsyncDir *)
  Lemma run_k k : run s0 (firstn k (save_ops t data))
                  = match k with
                    | 0 => s0 | 1 => mid tab1 | 2 => mid tab2 | 3 => mid tab3 | 4 => mid tab3 | 5 => s5 | _ => s6
                    end%nat.
  Proof.
    assert (R2 : run s0 (firstn 2 (save_ops t data)) = mid tab2).
    { change (firstn 2 (save_ops t data)) with (firstn 1 (save_ops t data) ++ [Write t data]).
      rewrite run_snoc, run1. apply save_step_write. }
    assert (R3 : run s0 (firstn 3 (save_ops t data)) = mid tab3).
    { change (firstn 3 (save_ops t data)) with (firstn 2 (save_ops t data) ++ [Fsync t]).
      rewrite run_snoc, R2. apply save_step_fsync. }
    assert (R4 : run s0 (firstn 4 (save_ops t data)) = mid tab3).
    { change (firstn 4 (save_ops t data)) with (firstn 3 (save_ops t data) ++ [Hook]).
      rewrite run_snoc, R3. reflexivity. }
    assert (R5 : run s0 (firstn 5 (save_ops t data)) = s5).
    { change (firstn 5 (save_ops t data)) with (firstn 4 (save_ops t data) ++ [Rename t 0]).
      rewrite run_snoc, R4. exact step_rename. }
    assert (R6 : run s0 (save_ops t data) = s6).
    { change (save_ops t data) with (firstn 5 (save_ops t data) ++ [FsyncDir]).
      rewrite run_snoc, R5. reflexivity. }
    destruct k as [|[|[|[|[|[|k]]]]]]; try assumption; try reflexivity; try exact run1.
    rewrite firstn_all2 by (cbn; clear; lia). exact R6.
  Qed.

  (* the old inode of the main path, if any, is below inew, exists and is synced *)
  Lemma old_inode :
    (dir_get d0 0 = None /\ dir_get dd0 0 = None)
    \/ (exists i x, dir_get d0 0 = Some i /\ dir_get dd0 0 = Some i /\ ino_get tab0 i = Some x
                    /\ i_synced x = true /\ i < inew).
  Proof.
    unfold settled in Hsettled. apply andb_true_iff in Hsettled. destruct Hsettled as [_ H].
    fold d0 dd0 tab0 in H.
    destruct (dir_get d0 0) as [i|] eqn:E1; destruct (dir_get dd0 0) as [k|] eqn:E2; try discriminate H.
    - right. apply andb_true_iff in H. destruct H as [Hik Hx]. apply N.eqb_eq in Hik. subst k.
      destruct (ino_get tab0 i) as [x|] eqn:E3; [|discriminate Hx].
      exists i, x. repeat split; try assumption. apply (Hbound 0). left. exact E1.
    - left. split; reflexivity.
  Qed.

  Definition reads_old (s : fs) : Prop := read s 0 = read s0 0.
  Definition reads_new (s : fs) : Prop := read s 0 = Some data.

  Lemma vis0 : vis_ok s0.
  Proof. intros n i E. apply (Hbound n i). left. exact E. Qed.

  (* a rebooted disk reads the old bytes if its directory agrees with the old durable one on the
     main path, the new bytes if the main path is the new, synced inode; settled either way *)
  Lemma crash_old d tab nxt junk :
    extends tab -> dir_get d 0 = dir_get dd0 0 ->
    let s := FS d d [] (map (crash_inode junk) tab) nxt in (reads_old s \/ reads_new s) /\ settled s = true.
  Proof.
    intros Hext Hd. cbv zeta. unfold reads_old, read, settled. cbn [f_dir f_ddir f_pending f_inodes is_empty andb].
    rewrite Hd. fold d0 tab0.
    destruct old_inode as [[E1 E2]|(i & x & E1 & E2 & E3 & E4 & E5)]; rewrite E1, E2.
    - split; [left|]; reflexivity.
    - rewrite N.eqb_refl, ino_get_crash, (Hext i E5). fold tab0. rewrite E3, E4. split; [left; reflexivity|exact E4].
  Qed.

  Lemma crash_new d tab nxt junk :
    ino_get tab inew = Some (IN data true) -> dir_get d 0 = Some inew ->
    let s := FS d d [] (map (crash_inode junk) tab) nxt in (reads_old s \/ reads_new s) /\ settled s = true.
  Proof.
    intros Hi Hd. cbv zeta. unfold reads_new, read, settled. cbn [f_dir f_ddir f_pending f_inodes is_empty andb].
    rewrite Hd, N.eqb_refl, ino_get_crash, Hi. split; [right|]; reflexivity.
  Qed.

  Lemma link_keeps_main d : dir_get (dir_apply d (DLink t inew)) 0 = dir_get d 0.
  Proof. cbn [dir_apply]. rewrite dir_get_set, (t_nz t Ht0). reflexivity. Qed.

  Lemma crash_fold_one d j : dir_get (fold_left dir_apply (firstn j [DLink t inew]) d) 0 = dir_get d 0.
  Proof. destruct j as [|j]; [reflexivity|]. cbn [firstn fold_left]. rewrite firstn_nil. cbn [fold_left]. apply link_keeps_main. Qed.

  Lemma crash_mid tab j junk :
    extends tab -> let s := crash (mid tab) j junk in (reads_old s \/ reads_new s) /\ settled s = true.
  Proof. intro H. apply crash_old; [exact H|apply crash_fold_one]. Qed.

  Lemma read_d5 dd pend : read (FS d5 dd pend tab3 (inew + 1)) 0 = Some data.
  Proof. unfold read, d5. cbn [f_dir f_inodes]. rewrite dir_get_set. cbn [N.eqb]. rewrite tab3_new. reflexivity. Qed.

  Theorem old_or_new k j junk :
    let s := crash (run s0 (firstn k (save_ops t data))) j junk in
    (reads_old s \/ reads_new s) /\ settled s = true.
  Proof.
    cbv zeta. rewrite run_k.
    destruct k as [|[|[|[|[|[|k]]]]]].
    - unfold crash. rewrite pending0, firstn_nil. apply crash_old; [apply extends_tab0|reflexivity].
    - apply crash_mid, extends_tab1.
    - apply crash_mid, extends_tab2.
    - apply crash_mid, extends_tab3.
    - apply crash_mid, extends_tab3.
    - (* the rename is pending *)
      unfold crash, s5. cbn [f_pending f_ddir f_inodes f_next].
      destruct j as [|[|j]]; cbn [firstn fold_left].
      + apply crash_old; [apply extends_tab3|reflexivity].
      + apply crash_old; [apply extends_tab3|apply link_keeps_main].
      + rewrite firstn_nil. cbn [fold_left dir_apply]. rewrite dir_get_set, N.eqb_refl. cbv iota.
        apply crash_new; [apply tab3_new|rewrite dir_get_set; reflexivity].
    - unfold crash, s6. cbn [f_pending f_ddir f_inodes f_next]. rewrite firstn_nil. cbn [fold_left].
      apply crash_new; [apply tab3_new|unfold d5; rewrite dir_get_set; reflexivity].
  Qed.

  (* without a crash: readers see the old bytes until the rename and the new bytes from then on *)
  Theorem visible_switch k :
    read (run s0 (firstn k (save_ops t data))) 0 = if (k <? 5)%nat then read s0 0 else Some data.
  Proof.
    rewrite run_k. destruct k as [|[|[|[|[|[|k]]]]]]; cbn [Nat.ltb Nat.leb].
    - reflexivity.
    - apply (read_mid s0 t vis0 Ht0), extends_tab1.
    - apply (read_mid s0 t vis0 Ht0), extends_tab2.
    - apply (read_mid s0 t vis0 Ht0), extends_tab3.
    - apply (read_mid s0 t vis0 Ht0), extends_tab3.
    - apply read_d5.
    - apply read_d5.
  Qed.

  (* the hook fails: Save removes the temp file and the main path still reads the old bytes *)
  Theorem hook_failure_keeps_old :
    read (run s0 (save_ops_hook_fails t data)) 0 = read s0 0
    /\ dir_get (f_dir (run s0 (save_ops_hook_fails t data))) t = None.
  Proof.
    change (save_ops_hook_fails t data) with (firstn 4 (save_ops t data) ++ [Remove t]).
    rewrite run_snoc, run_k. cbn [step save_mid f_dir f_ddir f_pending f_inodes f_next].
    split.
    - apply (read_keep s0 vis0); [apply extends_tab3|].
      rewrite dir_get_del, dir_get_set, !(t_nz t Ht0). reflexivity.
    - rewrite dir_get_del, N.eqb_refl. reflexivity.
  Qed.

  Lemma dir_bounded_del d n b : dir_bounded d b -> dir_bounded (dir_del d n) b.
  Proof. intros H m i. rewrite dir_get_del. destruct (n =? m); [discriminate|apply H]. Qed.
  Lemma dir_bounded_set d n i b : dir_bounded d b -> i < b -> dir_bounded (dir_set d n i) b.
  Proof. intros H Hi m k. rewrite dir_get_set. destruct (n =? m); [intro E; inversion E; subst; exact Hi|apply H]. Qed.
  Lemma dir_bounded_apply d o b :
    dir_bounded d b -> (forall n i, o = DLink n i -> i < b) -> dir_bounded (dir_apply d o) b.
  Proof.
    intros H Ho. destruct o as [n i|a c|n]; cbn [dir_apply].
    - apply dir_bounded_set; [exact H|apply (Ho n i eq_refl)].
    - destruct (dir_get d a) as [i|] eqn:E; [|exact H].
      apply dir_bounded_set; [apply dir_bounded_del; exact H|apply (H a i E)].
    - apply dir_bounded_del. exact H.
  Qed.
  Lemma dir_bounded_fold ops : forall d b,
    dir_bounded d b -> (forall o n i, In o ops -> o = DLink n i -> i < b) -> dir_bounded (fold_left dir_apply ops d) b.
  Proof.
    induction ops as [|o ops IH]; intros d b H Ho; [exact H|]. cbn [fold_left]. apply IH.
    - apply dir_bounded_apply; [exact H|]. intros n i E. apply (Ho o n i); [left; reflexivity|exact E].
    - intros o' n i Hin E. apply (Ho o' n i); [right; exact Hin|exact E].
  Qed.

  (* the crashed state is bounded again *)
  Theorem crash_bounded k j junk : bounded (crash (run s0 (firstn k (save_ops t data))) j junk).
  Proof.
    rewrite run_k.
    assert (Hnew : inew < inew + 1) by (apply N.lt_add_pos_r; reflexivity).
    assert (Hdd : dir_bounded dd0 (inew + 1)).
    { intros n i E. apply N.lt_lt_add_r, (Hbound n i). right. exact E. }
    assert (Hd5 : dir_bounded d5 (inew + 1)).
    { unfold d5. apply dir_bounded_set; [|exact Hnew]. apply dir_bounded_del. apply dir_bounded_set; [|exact Hnew].
      intros n i E. apply N.lt_lt_add_r, (Hbound n i). left. exact E. }
    assert (Hgen : forall s, f_next s = inew + 1 -> dir_bounded (f_ddir s) (inew + 1) ->
                             (forall o n i, In o (f_pending s) -> o = DLink n i -> i < inew + 1) ->
                             bounded (crash s j junk)).
    { intros s Hn Hb Hp n i H. unfold crash in *. cbn [f_dir f_ddir f_next] in *. rewrite Hn.
      assert (B : dir_bounded (fold_left dir_apply (firstn j (f_pending s)) (f_ddir s)) (inew + 1)).
      { apply dir_bounded_fold; [exact Hb|]. intros o n' i' Hin E. apply (Hp o n' i'); [|exact E].
        apply (In_firstn _ j _ Hin). }
      destruct H as [H|H]; exact (B n i H). }
    assert (Hlink : forall o n i, In o [DLink t inew] -> o = DLink n i -> i < inew + 1).
    { intros o n i [<-|[]] E. inversion E; subst. exact Hnew. }
    assert (Hlink2 : forall o n i, In o [DLink t inew; DRename t 0] -> o = DLink n i -> i < inew + 1).
    { intros o n i [<-|[<-|[]]] E; inversion E; subst. exact Hnew. }
    destruct k as [|[|[|[|[|[|k]]]]]]; try (apply Hgen; [reflexivity|assumption|assumption]).
    - intros n i H. unfold crash in H. cbn [f_dir f_ddir f_next] in H. rewrite pending0, firstn_nil in H.
      cbn [fold_left] in H. unfold crash. cbn [f_next]. apply (Hbound n i). right. destruct H as [H|H]; exact H.
    - apply Hgen; [reflexivity|exact Hd5|intros o n i []].
  Qed.
End Save.

Theorem history_reads junk : forall l s0 n,
  settled s0 = true -> bounded s0 -> Forall (fun a => a_t a <> 0) l ->
  In (read (history s0 junk n l) 0) (read s0 0 :: map (fun a => Some (a_data a)) l)
  /\ settled (history s0 junk n l) = true.
Proof.
  induction l as [|a l IH]; intros s0 n Hs Hb Hl.
  - cbn [history map]. split; [left; reflexivity|exact Hs].
  - inversion Hl as [|? ? Ha Hl']; subst. cbn [history].
    destruct (old_or_new s0 (a_t a) (a_data a) Hs Hb Ha (a_k a) (a_j a) (junk n)) as [Hr Hs'].
    pose proof (crash_bounded s0 (a_t a) (a_data a) Hs Hb (a_k a) (a_j a) (junk n)) as Hb'.
    destruct (IH _ (S n) Hs' Hb' Hl') as [Hin Hset]. split; [|exact Hset].
    cbn [map]. destruct Hin as [Hin|Hin].
    + destruct Hr as [Hr|Hr]; unfold reads_old, reads_new in Hr; rewrite Hr in Hin.
      * left. exact Hin.
      * right. left. exact Hin.
    + right. right. exact Hin.
Qed.

Section DecodeFacts.
  Variable parse : bytes -> option CState.
  Variable ck : CState -> bytes.

  (* a file is accepted only if it parses to a state that carries the checksum of its own content,
     has the current schema and validates: every other file is rejected *)
  Theorem decode_consistent data s :
    Decode parse ck data = Some s ->
    exists st, parse data = Some st
               /\ s_schema st = CurrentSchemaVersion
               /\ s_checksum st <> [] /\ s_checksum st = ck st
               /\ s = set_checksum (Normalize st) (ck st) /\ Validate s = true.
  Proof.
    unfold Decode. destruct (parse data) as [st|]; [|discriminate].
    destruct (s_schema st =? CurrentSchemaVersion) eqn:E1; cbn [negb]; [|discriminate].
    destruct (is_empty (s_checksum st)) eqn:E2; [discriminate|].
    destruct (bytes_eqb (s_checksum st) (ck st)) eqn:E3; cbn [negb]; [|discriminate].
    destruct (Validate (set_checksum (Normalize st) (ck st))) eqn:E4; [|discriminate].
    intro H. inversion H; subst s. exists st.
    split; [reflexivity|]. split; [lia|]. split; [intro X; rewrite X in E2; discriminate E2|].
    split; [apply bytes_eqb_eq; exact E3|]. split; [reflexivity|exact E4].
  Qed.

End DecodeFacts.

Section CodecFacts.
  Variable parse : bytes -> option CState.
  Variable render : CState -> bytes.
  Variable ck : CState -> bytes.

  (* JSON round trip and the two facts about state.Checksum used by Encode/Decode *)
  Hypothesis parse_render : forall s, parse (render s) = Some s.
  Hypothesis ck_blind : forall s x, ck (set_checksum s x) = ck s.
  Hypothesis ck_nonempty : forall s, ck s <> [].

  Theorem encode_decode st data :
    Encode render ck st = Some data ->
    Decode parse ck data = Some (set_checksum (Normalize st) (ck (Normalize st))).
  Proof.
    unfold Encode. destruct (Validate (Normalize st)) eqn:V; [|discriminate].
    intro H. inversion H; subst data. unfold Decode. rewrite parse_render.
    assert (Hs : s_schema (set_checksum (Normalize st) (ck (Normalize st))) = CurrentSchemaVersion)
      by exact (Validate_schema _ V).
    rewrite Hs, N.eqb_refl, s_checksum_set_checksum, ck_blind, bytes_eqb_refl. cbn [negb].
    destruct (ck (Normalize st)) as [|b r] eqn:Ec; [exfalso; exact (ck_nonempty _ Ec)|].
    cbn [is_empty]. rewrite <- Ec.
    rewrite Normalize_set_checksum, Normalize_idem, set_checksum_set_checksum.
    rewrite Validate_set_checksum, V. reflexivity.
  Qed.
End CodecFacts.
