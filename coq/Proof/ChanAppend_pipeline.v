(* Proof/ChanAppend_pipeline.v — the append pipeline of one channel ([pstep]), in ANY
   interleaving of its events and for ANY ports satisfying the appender contract.
   [PInv]: nothing is lost or duplicated between submission and delivery, delivered
   successes are backed by the channel log, the log holds no sender + client number
   twice.  [POrd] (at most one append in flight, the default
   AppendInflightBatchesPerChannel): committed completions are ordered like their tags. *)
From WK Require Import Base.Base Base.Lists Gen.Consts_C29 Model.ChanAppend Model.ChanAppend_C29
     Proof.ChanAppend_coalesce Proof.ChanAppend_expand Proof.ChanAppend_writer Proof.ChanAppend_run.
From Coq Require Import Sorted Permutation.
Open Scope N_scope.

Lemma sorted_remove_mid (a b c : list psend) :
  StronglySorted tag_lt (a ++ b ++ c) -> StronglySorted tag_lt (a ++ c).
Proof.
  intro H. destruct (sorted_app_inv _ _ _ H) as [H1 [H2 H3]]. destruct (sorted_app_inv _ _ _ H2) as [H4 [H5 H6]].
  apply sorted_app_intro; auto. intros x y Hx Hy. apply H3; [exact Hx|apply in_or_app; right; exact Hy].
Qed.

Lemma sorted_tags_nodup (l : list psend) : StronglySorted tag_lt l -> NoDup (map ps_tag l).
Proof.
  induction 1 as [|x l Hs IH Hall]; cbn [map]; constructor; [|exact IH].
  intro Hin. apply in_map_iff in Hin. destruct Hin as [y [E Hy]].
  rewrite Forall_forall in Hall. specialize (Hall y Hy). unfold tag_lt in Hall. lia.
Qed.

Lemma nth_error_split_remove {A} (l : list A) k x :
  nth_error l k = Some x -> exists l1 l2, l = l1 ++ x :: l2 /\ remove_nth k l = l1 ++ l2 /\ length l1 = k.
Proof.
  revert k. induction l as [|y l IH]; intros k H; [destruct k; discriminate|].
  destruct k as [|k]; cbn [nth_error remove_nth] in *.
  - inversion H; subst. exists [], l. auto.
  - destruct (IH k H) as [l1 [l2 [E1 [E2 E3]]]]. exists (y :: l1), l2. cbn [app length]. rewrite <- E1, E2. auto.
Qed.

Lemma tag_items_spec call : forall raw idx tag,
  let items := tag_items call idx tag raw in
  length items = length raw
  /\ StronglySorted tag_lt items
  /\ (forall it, In it items -> tag <= ps_tag it /\ ps_tag it < tag + N.of_nat (length raw)).
Proof.
  induction raw as [|[[[c mid] al] dead] raw IH]; intros idx tag; cbn [tag_items length].
  - split; [reflexivity|]. split; [constructor|]. intros it [].
  - destruct (IH (idx + 1) (tag + 1)) as [I1 [I2 I3]].
    split; [cbn [length]; f_equal; exact I1|]. split.
    + constructor; [exact I2|]. apply Forall_forall. intros y Hy. destruct (I3 y Hy) as [Y1 _].
      unfold tag_lt. cbn [ps_tag]. lia.
    + intros it [E|Hin].
      * subst it. cbn [ps_tag]. lia.
      * destruct (I3 it Hin). lia.
Qed.

Lemma flat_map_snoc {A B} (f : A -> list B) l x : flat_map f (l ++ [x]) = flat_map f l ++ f x.
Proof. rewrite flat_map_app. cbn [flat_map]. rewrite app_nil_r. reflexivity. Qed.

Lemma cmd_eq_dec (a b : cmd) : {a = b} + {a <> b}.
Proof. decide equality; apply (list_eq_dec N.eq_dec). Defined.

Lemma psend_eq_dec (a b : psend) : {a = b} + {a <> b}.
Proof. decide equality; try apply N.eq_dec; try apply bool_dec; apply cmd_eq_dec. Defined.

Notation cnt := (count_occ psend_eq_dec).

Lemma cnt_perm l1 l2 : Permutation l1 l2 -> forall x, cnt l1 x = cnt l2 x.
Proof. intro H. apply (Permutation_count_occ psend_eq_dec). exact H. Qed.

Section Pipe.
  Variable St : Type.
  Variable do_append : St -> areq -> areply * St.
  Variable do_nlookup : St -> bytes -> bytes -> nreply * St.
  Variable hashf : bytes -> N.
  Variable fp : cmd -> N.
  Variable slog : St -> list prec.
  Variable Wf : list prec -> Prop.
  Hypothesis Happ : append_contract St do_append slog Wf.
  Hypothesis Hlook : lookup_contract St do_nlookup hashf slog.

  Definition step := pstep St do_append do_nlookup hashf fp.

  Definition inflight_events (p : pstate St) : list event := p_done p ++ buffered (p_ws p).
  Definition all_comps (p : pstate St) : list comp := p_delivered p ++ flat_map ev_items (inflight_events p).
  Definition queued (p : pstate St) : list psend := flat_map ef_items (p_running p) ++ ws_pending (p_ws p).
  Definition eff_seqs (p : pstate St) : list N := map ef_seq (p_running p) ++ map ev_seq (inflight_events p).
  Definition outstanding (p : pstate St) : nat := (length (p_running p) + length (inflight_events p))%nat.

  Record PInv (p : pstate St) : Prop := {
    pi_log : LogOK (slog (p_store p));
    pi_wf : Wf (slog (p_store p));
    (* conservation: every submitted item is queued, in flight or delivered — exactly once *)
    pi_cons : forall x, cnt (map cp_item (all_comps p) ++ queued p) x = cnt (p_submitted p) x;
    pi_sorted : StronglySorted tag_lt (p_submitted p);
    pi_bound : forall it, In it (p_submitted p) -> ps_tag it < p_next_tag p;
    pi_queue : StronglySorted tag_lt (queued p);
    pi_backed : forall c, In c (all_comps p) -> backed hashf (slog (p_store p)) c;
    pi_commit : forall c, In c (all_comps p) -> cp_committed c = true ->
                is_success (cp_res c) = true
                /\ In (PRec (r_seq (cp_res c)) (r_id (cp_res c)) (tagof c) (ps_cmd (cp_item c))) (slog (p_store p));
    pi_logtags : forall r, In r (slog (p_store p)) ->
                 exists c, In c (all_comps p) /\ tagof c = pr_tag r /\ ps_cmd (cp_item c) = pr_cmd r;
    pi_buf : BufOK (p_ws p);
    pi_seqs : NoDup (eff_seqs p);
    pi_seqb : forall q, In q (eff_seqs p) -> ws_drain (p_ws p) <= q /\ q < ws_next (p_ws p);
    pi_dn : ws_drain (p_ws p) <= ws_next (p_ws p);
    pi_inflight : N.of_nat (outstanding p) <= ws_inflight (p_ws p) }.

  Lemma delivered_in p c : In c (p_delivered p) -> In c (all_comps p).
  Proof. intro H. apply in_or_app. left. exact H. Qed.

  Lemma conservation p : PInv p -> Permutation (map cp_item (all_comps p) ++ queued p) (p_submitted p).
  Proof. intro I. apply (Permutation_count_occ psend_eq_dec). apply (pi_cons _ I). Qed.

  Lemma in_submitted p x : PInv p -> In x (map cp_item (all_comps p) ++ queued p) -> In x (p_submitted p).
  Proof. intros I. apply Permutation_in, conservation, I. Qed.

  Lemma comp_tag_bound p c : PInv p -> In c (all_comps p) -> tagof c < p_next_tag p.
  Proof.
    intros I H. apply (pi_bound _ I). apply (in_submitted _ _ I). apply in_or_app. left.
    apply in_map. exact H.
  Qed.

  Lemma queued_tag_bound p it : PInv p -> In it (queued p) -> ps_tag it < p_next_tag p.
  Proof. intros I H. apply (pi_bound _ I). apply (in_submitted _ _ I). apply in_or_app. right. exact H. Qed.

  Lemma tags_nodup p : PInv p -> NoDup (map tagof (all_comps p) ++ map ps_tag (queued p)).
  Proof.
    intro I. rewrite <- (map_map cp_item ps_tag), <- map_app.
    apply (Permutation_NoDup (Permutation_map ps_tag (Permutation_sym (conservation _ I)))).
    apply sorted_tags_nodup, (pi_sorted _ I).
  Qed.

  Lemma comps_tags_nodup p : PInv p -> NoDup (map tagof (all_comps p)).
  Proof. intro I. exact (NoDup_app_l _ _ (tags_nodup _ I)). Qed.

  Lemma delivered_tags_nodup p : PInv p -> NoDup (map tagof (p_delivered p)).
  Proof.
    intro I. pose proof (comps_tags_nodup _ I) as H. unfold all_comps in H. rewrite map_app in H.
    exact (NoDup_app_l _ _ H).
  Qed.

  Lemma comp_not_queued p c it : PInv p -> In c (all_comps p) -> In it (queued p) -> tagof c <> ps_tag it.
  Proof.
    intros I Hc Hq E. apply (NoDup_app_disjoint _ _ (tagof c) (tags_nodup _ I)); [apply in_map; exact Hc|].
    rewrite E. apply in_map. exact Hq.
  Qed.

  Lemma enqueue_buffered s items : buffered (enqueuePrepared s items) = buffered s.
  Proof. reflexivity. Qed.

  Lemma errcomps_failed items cls c :
    In c (appendBatchErrorCompletions items cls) -> cls <> 0 -> is_success (cp_res c) = false /\ cp_committed c = false.
  Proof.
    intros Hc Hn. apply in_map_iff in Hc. destruct Hc as [it [E _]]. subst c.
    split; [apply errcomp_fail; exact Hn|reflexivity].
  Qed.

  (* the successor states of [pstep], one per outcome of an event *)
  Definition tagged (p : pstate St) raw : list psend := tag_items (p_next_call p) 0 (p_next_tag p) raw.

  Definition after_admit (p : pstate St) (items : list psend) : pstate St :=
    PS (p_store p) (enqueuePrepared (p_ws p) items) (p_running p) (p_done p) (p_delivered p)
       (p_next_tag p + N.of_nat (length items)) (p_next_call p + 1) (p_submitted p ++ items).
  Definition after_reject (p : pstate St) (items : list psend) : pstate St :=
    PS (p_store p) (p_ws p) (p_running p) (p_done p)
       (p_delivered p ++ appendBatchErrorCompletions items E_CHANNEL_BUSY)
       (p_next_tag p + N.of_nat (length items)) (p_next_call p + 1) (p_submitted p ++ items).
  Definition after_advance (p : pstate St) sq items ws' : pstate St :=
    PS (p_store p) ws' (p_running p ++ [Eff sq items]) (p_done p) (p_delivered p)
       (p_next_tag p) (p_next_call p) (p_submitted p).
  Definition after_run (p : pstate St) (k : nat) ev s' : pstate St :=
    PS s' (p_ws p) (remove_nth k (p_running p)) (p_done p ++ [ev]) (p_delivered p)
       (p_next_tag p) (p_next_call p) (p_submitted p).
  Definition after_apply (p : pstate St) (k : nat) evs ws' : pstate St :=
    PS (p_store p) ws' (p_running p) (remove_nth k (p_done p)) (p_delivered p ++ flat_map ev_items evs)
       (p_next_tag p) (p_next_call p) (p_submitted p).

  Lemma step_cases (Q : pstate St -> Prop) p e :
    Q p ->
    (forall raw, Q (after_admit p (tagged p raw))) ->
    (forall raw, Q (after_reject p (tagged p raw))) ->
    (forall sq items ws', nextAppendBatch (p_ws p) = (Some (sq, items), ws') -> Q (after_advance p sq items ws')) ->
    (forall k ef ev s', nth_error (p_running p) k = Some ef ->
       run St do_append do_nlookup hashf fp (p_store p) ef = (ev, s') -> Q (after_run p k ev s')) ->
    (forall k ev evs ws', nth_error (p_done p) k = Some ev ->
       applyAppendCompletion (p_ws p) ev = (evs, ws') -> Q (after_apply p k evs ws')) ->
    Q (step p e).
  Proof.
    intros H0 Hadm Hrej Hadv Hrun Happly. destruct e as [raw| |k|k]; unfold step; cbn [pstep]; cbv zeta.
    - destruct (canAdmit _ _); [apply Hadm|apply Hrej].
    - destruct (nextAppendBatch (p_ws p)) as [[[sq items]|] ws'] eqn:NB in |- *; [exact (Hadv _ _ _ NB)|exact H0].
    - destruct (nth_error (p_running p) k) as [ef|] eqn:Nk; [|exact H0].
      destruct (run St do_append do_nlookup hashf fp (p_store p) ef) as [ev s'] eqn:R. exact (Hrun _ _ _ _ Nk R).
    - destruct (nth_error (p_done p) k) as [ev|] eqn:Nk; [|exact H0].
      destruct (applyAppendCompletion (p_ws p) ev) as [evs ws'] eqn:A. exact (Happly _ _ _ _ Nk A).
  Qed.

  (* a rejected submission: its items are answered at once, with failures *)
  Lemma rejected_comps p items c :
    In c (all_comps (after_reject p items))
    <-> In c (all_comps p) \/ In c (appendBatchErrorCompletions items E_CHANNEL_BUSY).
  Proof. unfold all_comps, inflight_events, after_reject. cbn [p_delivered p_done p_ws]. rewrite !in_app_iff. tauto. Qed.

  (* issuing the next effect moves the pending items into it *)
  Lemma advance_frame p sq items ws' :
    nextAppendBatch (p_ws p) = (Some (sq, items), ws') ->
    let p' := after_advance p sq items ws' in
    inflight_events p' = inflight_events p /\ all_comps p' = all_comps p /\ queued p' = queued p.
  Proof.
    intros NB p'. destruct (nextAppendBatch_some _ _ _ _ NB) as [_ [E2 [E3 [_ [_ [_ [E7 [E8 _]]]]]]]].
    assert (Eb : inflight_events p' = inflight_events p).
    { unfold inflight_events, buffered, p', after_advance. cbn [p_done p_ws]. rewrite E7, E8. reflexivity. }
    split; [exact Eb|]. split; [unfold all_comps; rewrite Eb; reflexivity|].
    unfold queued, p', after_advance. cbn [p_running p_ws]. rewrite flat_map_snoc, E3, app_nil_r. cbn [ef_items]. rewrite E2. reflexivity.
  Qed.

  Lemma perm_move_seq (a1 a2 d b : list N) x :
    Permutation ((a1 ++ x :: a2) ++ (d ++ b)) ((a1 ++ a2) ++ ((d ++ [x]) ++ b)).
  Proof.
    apply (Permutation_count_occ N.eq_dec). intro q.
    rewrite !count_occ_app. cbn [count_occ]. destruct (N.eq_dec x q); lia.
  Qed.

  (* the items of the k-th effect leave the queue; its completions join the in-flight ones *)
  Lemma run_frame p k ef :
    PInv p -> nth_error (p_running p) k = Some ef ->
    exists a b, queued p = a ++ ef_items ef ++ b /\ StronglySorted tag_lt (ef_items ef)
      /\ (k = 0%nat -> a = [])
      /\ forall s ev,
         let p' := after_run p k ev s in
         queued p' = a ++ b
         /\ (forall x, cnt (map cp_item (all_comps p')) x
                       = (cnt (map cp_item (all_comps p)) x + cnt (map cp_item (ev_items ev)) x)%nat)
         /\ (forall c, In c (all_comps p') <-> In c (all_comps p) \/ In c (ev_items ev))
         /\ (ev_seq ev = ef_seq ef -> Permutation (eff_seqs p) (eff_seqs p'))
         /\ outstanding p' = outstanding p.
  Proof.
    intros I Nk. destruct (nth_error_split_remove _ _ _ Nk) as [r1 [r2 [E1 [E2 E3]]]].
    exists (flat_map ef_items r1), (flat_map ef_items r2 ++ ws_pending (p_ws p)).
    assert (Eq : queued p = flat_map ef_items r1 ++ ef_items ef ++ flat_map ef_items r2 ++ ws_pending (p_ws p)).
    { unfold queued. rewrite E1, flat_map_app. cbn [flat_map]. rewrite <- !app_assoc. reflexivity. }
    split; [exact Eq|]. split.
    { pose proof (pi_queue _ I) as Hq. rewrite Eq in Hq.
      apply sorted_app_inv in Hq. destruct Hq as [_ [Hq _]]. apply sorted_app_inv in Hq. tauto. }
    split; [intro Hk; destruct r1; [reflexivity|subst k; discriminate]|].
    intros s ev p'. unfold p', after_run.
    assert (Ea : all_comps (after_run p k ev s) = p_delivered p ++ (flat_map ev_items (p_done p) ++ ev_items ev)
                                 ++ flat_map ev_items (buffered (p_ws p))).
    { unfold all_comps, inflight_events, after_run. cbn [p_delivered p_done p_ws].
      rewrite flat_map_app, flat_map_snoc. reflexivity. }
    assert (Ea0 : all_comps p = p_delivered p ++ flat_map ev_items (p_done p)
                                ++ flat_map ev_items (buffered (p_ws p))).
    { unfold all_comps, inflight_events. rewrite flat_map_app. reflexivity. }
    fold (after_run p k ev s).
    split; [unfold queued, after_run; cbn [p_running p_ws]; rewrite E2, flat_map_app, <- app_assoc; reflexivity|].
    split; [intro x; rewrite Ea, Ea0, !map_app, !count_occ_app; lia|].
    split; [intro c; rewrite Ea, Ea0, !in_app_iff; tauto|]. split.
    - intro X3. unfold eff_seqs, inflight_events, after_run. cbn [p_running p_done p_ws].
      rewrite E2, E1, !map_app. cbn [map]. rewrite X3. apply perm_move_seq.
    - unfold outstanding, inflight_events, after_run. cbn [p_running p_done p_ws].
      rewrite E2, E1, !app_length. cbn [length]. lia.
  Qed.

  Lemma perm_apply_shape {A} (d1 d2 B B' evs : list A) ev :
    Permutation (ev :: B) (evs ++ B') -> Permutation ((d1 ++ ev :: d2) ++ B) (evs ++ (d1 ++ d2) ++ B').
  Proof.
    intro H. rewrite <- app_assoc. cbn [app].
    eapply perm_trans; [apply Permutation_sym; apply Permutation_middle|].
    rewrite app_assoc.
    eapply perm_trans; [apply Permutation_middle|].
    eapply perm_trans; [apply Permutation_app_head; exact H|].
    apply Permutation_app_swap_app.
  Qed.

  (* nothing in flight is lost or duplicated when a completion is applied *)
  Lemma apply_frame p k ev evs ws' :
    PInv p -> nth_error (p_done p) k = Some ev -> applyAppendCompletion (p_ws p) ev = (evs, ws') ->
    let p' := after_apply p k evs ws' in
    Permutation (inflight_events p) (evs ++ inflight_events p')
    /\ Permutation (all_comps p) (all_comps p')
    /\ queued p' = queued p /\ BufOK ws'.
  Proof.
    intros I Nk A p'.
    destruct (nth_error_split_remove _ _ _ Nk) as [d1 [d2 [E1 [E2 _]]]].
    pose proof (pi_seqs _ I) as Hnd. unfold eff_seqs, inflight_events in Hnd.
    rewrite E1, !map_app in Hnd. cbn [map] in Hnd.
    apply NoDup_app_r in Hnd. rewrite <- app_assoc in Hnd. apply NoDup_app_r in Hnd.
    assert (Hge : ws_drain (p_ws p) <= ev_seq ev).
    { apply (pi_seqb _ I). unfold eff_seqs, inflight_events. rewrite E1, !map_app. cbn [map].
      rewrite !in_app_iff. cbn [In]. tauto. }
    assert (Hnew : ~ In (ev_seq ev) (map ev_seq (buffered (p_ws p)))).
    { cbn [app] in Hnd. inversion Hnd as [|x l Hx _]; subst. intro Hin. apply Hx. apply in_or_app. right. exact Hin. }
    destruct (apply_perm _ _ _ _ (pi_buf _ I) Hge Hnew A) as [Hperm HB'].
    destruct (apply_fields _ _ _ _ A) as [F1 _].
    assert (Hev : Permutation (inflight_events p) (evs ++ inflight_events p')).
    { unfold inflight_events, p', after_apply. cbn [p_done p_ws]. rewrite E2, E1. apply perm_apply_shape. exact Hperm. }
    split; [exact Hev|]. split; [|split; [unfold queued, p', after_apply; cbn [p_running p_ws]; rewrite F1; reflexivity|exact HB']].
    unfold all_comps at 2. unfold p' at 1, after_apply at 1. cbn [p_delivered]. unfold all_comps.
    rewrite <- app_assoc. apply Permutation_app_head. rewrite <- flat_map_app.
    apply Permutation_flat_map. exact Hev.
  Qed.

  Lemma submit_tags p raw :
    PInv p -> let items := tagged p raw in
    StronglySorted tag_lt items
    /\ (forall a b, In a (p_submitted p) -> In b items -> ps_tag a < ps_tag b)
    /\ StronglySorted tag_lt (p_submitted p ++ items)
    /\ (forall it, In it (p_submitted p ++ items) -> ps_tag it < p_next_tag p + N.of_nat (length items)).
  Proof.
    intros I items.
    destruct (tag_items_spec (p_next_call p) raw 0 (p_next_tag p)) as [T1 [T2 T3]]. fold (tagged p raw) in T1, T2, T3. fold items in T1, T2, T3.
    assert (Hnew : forall a b, In a (p_submitted p) -> In b items -> ps_tag a < ps_tag b).
    { intros a b Ha Hb. pose proof (pi_bound _ I a Ha). destruct (T3 b Hb). lia. }
    split; [exact T2|]. split; [exact Hnew|]. split.
    - apply sorted_app_intro; [apply (pi_sorted _ I)|exact T2|exact Hnew].
    - intros it Hit. apply in_app_iff in Hit. destruct Hit as [Hit|Hit].
      + pose proof (pi_bound _ I it Hit). lia.
      + destruct (T3 it Hit). rewrite T1. lia.
  Qed.

  Lemma inv_admit p raw : PInv p -> PInv (after_admit p (tagged p raw)).
  Proof.
    intros I. destruct (submit_tags p raw I) as [T2 [Hnew [Hsorted' Hbound']]].
    set (items := tagged p raw) in *. set (p' := after_admit p items).
    pose proof (fun x => in_submitted p x I) as Hsub.
    assert (Eq : queued p' = queued p ++ items).
    { unfold queued, p', after_admit. cbn [p_running p_ws ws_pending enqueuePrepared]. apply app_assoc. }
    destruct I as [Ilog Iwf Icons Isorted Ibound Iqueue Ibacked Icommit Ilogtags Ibuf Iseqs Iseqb Idn Iinfl].
    constructor; try assumption.
    - intro x. change (all_comps p') with (all_comps p). rewrite Eq. unfold p', after_admit. cbn [p_submitted].
      specialize (Icons x). rewrite !count_occ_app in *. lia.
    - rewrite Eq. apply sorted_app_intro; [exact Iqueue|exact T2|].
      intros a b Ha Hb. apply Hnew; [|exact Hb]. apply Hsub. apply in_or_app. right. exact Ha.
    - destruct Ibuf as [B1 B2 B3]. constructor; assumption.
  Qed.

  Lemma inv_reject p raw : PInv p -> PInv (after_reject p (tagged p raw)).
  Proof.
    intros I. destruct (submit_tags p raw I) as [_ [_ [Hsorted' Hbound']]].
    set (items := tagged p raw) in *. set (p' := after_reject p items).
    pose proof (rejected_comps p items) as Hin. fold p' in Hin.
    pose proof (fun c Hc => errcomps_failed items E_CHANNEL_BUSY c Hc ltac:(discriminate)) as HE.
    destruct I as [Ilog Iwf Icons Isorted Ibound Iqueue Ibacked Icommit Ilogtags Ibuf Iseqs Iseqb Idn Iinfl].
    (* the new completions are failures: they are counted once, need no record and claim none *)
    constructor; try assumption.
    - intro x. unfold all_comps, inflight_events, queued, p', after_reject in *.
      cbn [p_delivered p_done p_ws p_running p_submitted]. specialize (Icons x).
      rewrite !map_app in *. rewrite errcomps_items. rewrite !count_occ_app in *. lia.
    - intros c Hc. apply Hin in Hc. destruct Hc as [Hc|Hc]; [apply Ibacked; exact Hc|].
      intro Hs. rewrite (proj1 (HE c Hc)) in Hs. discriminate.
    - intros c Hc K. apply Hin in Hc. destruct Hc as [Hc|Hc]; [apply Icommit; assumption|].
      rewrite (proj2 (HE c Hc)) in K. discriminate.
    - intros r Hr. destruct (Ilogtags r Hr) as [c [C1 C2]]. exists c. split; [apply Hin; left; exact C1|exact C2].
  Qed.

  Lemma inv_advance p sq items ws' :
    PInv p -> nextAppendBatch (p_ws p) = (Some (sq, items), ws') -> PInv (after_advance p sq items ws').
  Proof.
    intros I NB.
    destruct (nextAppendBatch_some _ _ _ _ NB) as [E1 [E2 [E3 [E4 [E5 [E6 [E7 [E8 [E9 _]]]]]]]]].
    destruct (advance_frame _ _ _ _ NB) as [Eb [Ea Eq]].
    set (p' := after_advance p sq items ws') in *.
    assert (Es : forall q, In q (eff_seqs p') <-> q = sq \/ In q (eff_seqs p)).
    { intro q. unfold eff_seqs. rewrite Eb. unfold p', after_advance. cbn [p_running].
      rewrite map_app. cbn [map ef_seq]. rewrite !in_app_iff. cbn [In]. intuition. }
    destruct I as [Ilog Iwf Icons Isorted Ibound Iqueue Ibacked Icommit Ilogtags Ibuf Iseqs Iseqb Idn Iinfl].
    (* what changes: the buffer's state record, and the new effect's sequence number
       [ws_next], which is fresh because everything in flight lies below it *)
    constructor; rewrite ?Ea, ?Eq; try assumption.
    - destruct Ibuf as [B1 B2 B3]. unfold p', after_advance. cbn [p_ws]. constructor.
      + intros k e Hin. rewrite E8 in Hin. apply (B1 _ _ Hin).
      + rewrite E8. exact B2.
      + intros e He. rewrite E7 in He. rewrite E6. apply B3. exact He.
    - unfold eff_seqs. rewrite Eb. unfold p', after_advance. cbn [p_running].
      rewrite map_app. cbn [map ef_seq]. rewrite <- app_assoc. cbn [app].
      apply (NoDup_Add (a := sq) (l := eff_seqs p)); [unfold eff_seqs; apply Add_app|].
      split; [exact Iseqs|]. intro Hin. destruct (Iseqb _ Hin) as [_ Hlt]. lia.
    - intros q Hq. apply Es in Hq. unfold p', after_advance. cbn [p_ws]. rewrite E6, E4.
      destruct Hq as [Hq|Hq]; [subst q; lia|]. destruct (Iseqb q Hq). lia.
    - unfold p', after_advance. cbn [p_ws]. rewrite E6, E4. lia.
    - unfold outstanding in *. rewrite Eb. unfold p', after_advance. cbn [p_running p_ws]. rewrite E5, app_length. cbn [length]. lia.
  Qed.

  Lemma inv_run p k ef ev s' :
    PInv p -> nth_error (p_running p) k = Some ef ->
    run St do_append do_nlookup hashf fp (p_store p) ef = (ev, s') -> PInv (after_run p k ev s').
  Proof.
    intros I Nk R.
    destruct (run_frame p k ef I Nk) as [a [b [Eq [Hefs [_ Hfr]]]]].
    destruct (Hfr s' ev) as [Eq' [Hcnt [Hin [Hsq Hout]]]]. clear Hfr.
    set (p' := after_run p k ev s') in *.
    destruct (run_spec St do_append do_nlookup hashf fp slog Wf Happ Hlook _ _ _ _ (pi_wf _ I) (pi_log _ I) Hefs R)
      as [ext [X1 [XW [X2 [X3 [X4 [X5 X6]]]]]]].
    specialize (Hsq X3).
    assert (Hsub : forall r, In r (slog (p_store p)) -> In r (slog s')).
    { intros r Hr. rewrite X1. apply in_or_app. left. exact Hr. }
    rewrite Forall_forall in X5.
    destruct I as [Ilog Iwf Icons Isorted Ibound Iqueue Ibacked Icommit Ilogtags Ibuf Iseqs Iseqb Idn Iinfl].
    constructor; try assumption.
    - unfold p', after_run. cbn [p_store]. rewrite X1. eapply LogOK_ext; eauto.
    - (* the items of the effect leave the queue and come back as the items of its completions *)
      intro x. rewrite Eq'. specialize (Icons x). rewrite Eq in Icons.
      pose proof (cnt_perm _ _ X4 x) as Hx. unfold p' at 2, after_run. cbn [p_submitted]. rewrite <- Icons.
      rewrite !count_occ_app in *. rewrite Hcnt. lia.
    - rewrite Eq'. eapply sorted_remove_mid. rewrite <- Eq. exact Iqueue.
    - intros c Hc. apply Hin in Hc. unfold p', after_run. cbn [p_store]. destruct Hc as [Hc|Hc].
      + eapply backed_mono; [exact Hsub|apply Ibacked; exact Hc].
      + rewrite X1. eapply eorigin_backed. apply X5. exact Hc.
    - intros c Hc K. apply Hin in Hc. unfold p', after_run. cbn [p_store]. destruct Hc as [Hc|Hc].
      + destruct (Icommit c Hc K) as [S1 S2]. split; [exact S1|apply Hsub; exact S2].
      + destruct (eorigin_committed _ _ _ _ _ _ _ (X5 c Hc) K) as [S1 S2].
        split; [exact S1|]. rewrite X1. apply in_or_app. right. exact S2.
    - (* a new record was taken from an item of the effect, which now has a completion *)
      intros r Hr. unfold p', after_run in Hr. cbn [p_store] in Hr. rewrite X1 in Hr. apply in_app_iff in Hr.
      destruct Hr as [Hr|Hr].
      + destruct (Ilogtags r Hr) as [c [C1 C2]]. exists c. split; [apply Hin; left; exact C1|exact C2].
      + destruct (eo_from _ _ _ X2 r Hr) as [it [T1 [T2 T3]]].
        apply (Permutation_in _ (Permutation_sym X4)) in T1. apply in_map_iff in T1.
        destruct T1 as [c [C1 C2]]. exists c. split; [apply Hin; right; exact C2|].
        unfold tagof. rewrite C1. split; symmetry; assumption.
    - apply (Permutation_NoDup Hsq Iseqs).
    - intros q Hq'. apply Iseqb. apply (Permutation_in _ (Permutation_sym Hsq)). exact Hq'.
    - rewrite Hout. exact Iinfl.
  Qed.

  Lemma inv_apply p k ev evs ws' :
    PInv p -> nth_error (p_done p) k = Some ev ->
    applyAppendCompletion (p_ws p) ev = (evs, ws') -> PInv (after_apply p k evs ws').
  Proof.
    intros I Nk A.
    destruct (apply_frame p k ev evs ws' I Nk A) as [Hev [Hac [Eq HB']]].
    set (p' := after_apply p k evs ws') in *.
    pose proof (pi_seqs _ I) as Hnd.
    destruct (apply_fields _ _ _ _ A) as [_ [F2 [_ [_ F5]]]].
    destruct (apply_spec _ _ _ _ (bo_entries _ (pi_buf _ I)) A) as [Hc [Hd _]].
    assert (Hin : forall c, In c (all_comps p') <-> In c (all_comps p)).
    { intro c. split; apply Permutation_in; [apply Permutation_sym|]; exact Hac. }
    assert (Hsq : Permutation (eff_seqs p) (map ev_seq evs ++ eff_seqs p')).
    { unfold eff_seqs. unfold p' at 1, after_apply at 1. cbn [p_running].
      eapply perm_trans; [apply Permutation_app_head; apply Permutation_map; exact Hev|].
      rewrite map_app. rewrite !app_assoc. apply Permutation_app_tail. apply Permutation_app_comm. }
    pose proof (Permutation_NoDup Hsq Hnd) as Hnd2.
    destruct I as [Ilog Iwf Icons Isorted Ibound Iqueue Ibacked Icommit Ilogtags Ibuf Iseqs Iseqb Idn Iinfl].
    constructor; try assumption.
    - intro x. rewrite Eq. unfold p' at 2, after_apply. cbn [p_submitted]. rewrite <- Icons.
      rewrite !count_occ_app. f_equal. apply cnt_perm. apply Permutation_map. apply Permutation_sym. exact Hac.
    - rewrite Eq. exact Iqueue.
    - intros c Hcc. apply Ibacked. apply Hin. exact Hcc.
    - intros c Hcc K. apply Icommit; [apply Hin; exact Hcc|exact K].
    - intros r Hr. destruct (Ilogtags r Hr) as [c [C1 C2]]. exists c. split; [apply Hin; exact C1|exact C2].
    - eapply NoDup_app_r. exact Hnd2.
    - (* what stays in flight was not popped, so it lies beyond the new drain position *)
      intros q Hq. unfold p', after_apply. cbn [p_ws]. rewrite F2, Hd.
      assert (Hq0 : In q (eff_seqs p)).
      { apply (Permutation_in _ (Permutation_sym Hsq)). apply in_or_app. right. exact Hq. }
      destruct (Iseqb q Hq0) as [Q1 Q2]. split; [|exact Q2].
      destruct (N.lt_ge_cases q (ws_drain (p_ws p) + N.of_nat (length evs))) as [L|L]; [|exact L].
      exfalso. apply (NoDup_app_disjoint _ _ q Hnd2); [|exact Hq].
      apply (consec_in _ _ _ Hc). rewrite map_length. lia.
    - (* drain <= next: the last popped sequence number was issued *)
      unfold p', after_apply. cbn [p_ws]. rewrite F2, Hd.
      destruct evs as [|e0 evs0] eqn:Ee; [cbn [length]; lia|]. rewrite <- Ee in *.
      assert (Hlast : In (ws_drain (p_ws p) + N.of_nat (length evs) - 1) (map ev_seq evs)).
      { apply (consec_in _ _ _ Hc). rewrite map_length, Ee. cbn [length]. lia. }
      destruct (Iseqb _ (Permutation_in _ (Permutation_sym Hsq) (in_or_app _ _ _ (or_introl Hlast)))) as [_ Q2].
      rewrite Ee in *. cbn [length] in *. lia.
    - (* every popped event gives back one in-flight slot *)
      change (p_ws p') with ws'.
      assert (Hl : outstanding p = (length evs + outstanding p')%nat).
      { unfold outstanding. pose proof (Permutation_length Hev) as L. rewrite app_length in L.
        unfold p' at 1, after_apply at 1. cbn [p_running]. lia. }
      rewrite Hl, Nnat.Nat2N.inj_add in Iinfl. lia.
  Qed.

  Theorem step_inv p e : PInv p -> PInv (step p e).
  Proof.
    intro I. apply step_cases; [exact I|intro; apply inv_admit, I|intro; apply inv_reject, I|..].
    - intros sq items ws'. apply inv_advance, I.
    - intros k ef ev s'. apply inv_run, I.
    - intros k ev evs ws'. apply inv_apply, I.
  Qed.

  (* at most one append in flight: committed completions are ordered *)
  Record POrd (p : pstate St) : Prop := {
    po_limit : (ws_limit (p_ws p) <= 1)%Z;
    po_one : (outstanding p <= 1)%nat;
    (* everything committed so far precedes everything still queued *)
    po_before : forall c it, In c (all_comps p) -> cp_committed c = true -> In it (queued p) -> tagof c < ps_tag it;
    po_order : forall c1 c2, In c1 (all_comps p) -> In c2 (all_comps p) ->
               cp_committed c1 = true -> cp_committed c2 = true -> tagof c1 < tagof c2 ->
               r_seq (cp_res c1) < r_seq (cp_res c2) }.

  Lemma ord_admit p raw : PInv p -> POrd p -> POrd (after_admit p (tagged p raw)).
  Proof.
    intros I [O1 O2 O3 O4].
    destruct (tag_items_spec (p_next_call p) raw 0 (p_next_tag p)) as [_ [_ T3]]. fold (tagged p raw) in T3.
    constructor; try assumption.
    (* a new item is queued behind everything, with a tag above every completion's *)
    intros c it Hc K Hit. change (all_comps (after_admit p (tagged p raw))) with (all_comps p) in Hc.
    unfold queued, after_admit in Hit. cbn [p_running p_ws ws_pending enqueuePrepared] in Hit.
    rewrite app_assoc in Hit. apply in_app_iff in Hit. destruct Hit as [Hit|Hit].
    - apply O3; assumption.
    - pose proof (comp_tag_bound _ _ I Hc). destruct (T3 it Hit). lia.
  Qed.

  Lemma ord_reject p raw : POrd p -> POrd (after_reject p (tagged p raw)).
  Proof.
    intros [O1 O2 O3 O4]. pose proof (rejected_comps p (tagged p raw)) as Hin.
    pose proof (fun c Hc => proj2 (errcomps_failed (tagged p raw) E_CHANNEL_BUSY c Hc ltac:(discriminate))) as HE.
    (* the new completions are uncommitted *)
    constructor; try assumption.
    - intros c it Hc K Hit. apply Hin in Hc. destruct Hc as [Hc|Hc]; [apply O3; assumption|].
      rewrite (HE c Hc) in K. discriminate.
    - intros c1 c2 H1 H2 K1 K2. apply Hin in H1. apply Hin in H2.
      destruct H1 as [H1|H1]; [|rewrite (HE c1 H1) in K1; discriminate].
      destruct H2 as [H2|H2]; [|rewrite (HE c2 H2) in K2; discriminate].
      apply O4; assumption.
  Qed.

  Lemma ord_advance p sq items ws' :
    PInv p -> POrd p -> nextAppendBatch (p_ws p) = (Some (sq, items), ws') -> POrd (after_advance p sq items ws').
  Proof.
    intros I [O1 O2 O3 O4] NB.
    destruct (nextAppendBatch_some _ _ _ _ NB) as [_ [_ [_ [_ [_ [_ [_ [_ [E9 CS]]]]]]]]].
    destruct (advance_frame _ _ _ _ NB) as [Eb [Ea Eq]].
    set (p' := after_advance p sq items ws') in *.
    constructor; rewrite ?Ea, ?Eq; auto.
    - unfold p', after_advance. cbn [p_ws]. rewrite E9. exact O1.
    - (* an append may start only when none is in flight *)
      unfold canStartAppend in CS. destruct (is_nil (ws_pending (p_ws p))); [discriminate|].
      apply Z.ltb_lt in CS.
      assert (H0 : ws_inflight (p_ws p) = 0).
      { destruct (ws_limit (p_ws p) <=? 0)%Z; lia. }
      pose proof (pi_inflight _ I) as Hin. rewrite H0 in Hin.
      unfold outstanding in *. rewrite Eb. unfold p', after_advance. cbn [p_running]. rewrite app_length. cbn [length]. lia.
  Qed.

  Lemma ord_run p k ef ev s' :
    PInv p -> POrd p -> nth_error (p_running p) k = Some ef ->
    run St do_append do_nlookup hashf fp (p_store p) ef = (ev, s') -> POrd (after_run p k ev s').
  Proof.
    intros I [O1 O2 O3 O4] Nk R.
    destruct (run_frame p k ef I Nk) as [a [b [Eq [Hefs [Ha0 Hfr]]]]].
    destruct (Hfr s' ev) as [Eq' [_ [Hin [_ Hout]]]]. clear Hfr.
    set (p' := after_run p k ev s') in *.
    pose proof (pi_queue _ I) as Hq. rewrite Eq in Hq.
    destruct (sorted_app_inv _ _ _ Hq) as [_ [Hq2 _]]. destruct (sorted_app_inv _ _ _ Hq2) as [_ [_ Hlt]].
    destruct (run_spec St do_append do_nlookup hashf fp slog Wf Happ Hlook _ _ _ _ (pi_wf _ I) (pi_log _ I) Hefs R)
      as [ext [X1 [XW [X2 [X3 [X4 [X5 X6]]]]]]].
    assert (Hnewtag : forall c, In c (ev_items ev) -> In (cp_item c) (ef_items ef)).
    { intros c Hc. apply (Permutation_in _ X4). apply in_map. exact Hc. }
    (* the effect is the only outstanding one: nothing is queued before it *)
    assert (Ha : a = []).
    { apply Ha0. assert (k < length (p_running p))%nat by (apply nth_error_Some; congruence).
      unfold outstanding in O2. lia. }
    rewrite Forall_forall in X5.
    constructor; [exact O1|rewrite Hout; exact O2| |].
    - intros c it Hc K Hit. rewrite Eq' in Hit. apply Hin in Hc. destruct Hc as [Hc|Hc].
      + apply O3; [exact Hc|exact K|]. rewrite Eq. rewrite in_app_iff in *. rewrite in_app_iff. tauto.
      + subst a. apply Hlt; [apply Hnewtag; exact Hc|exact Hit].
    - intros c1 c2 H1 H2 K1 K2 Ht. apply Hin in H1. apply Hin in H2.
      destruct H1 as [H1|H1]; destruct H2 as [H2|H2].
      + apply O4; assumption.
      + (* old before new: the new record lies above the whole old log *)
        destruct (pi_commit _ I c1 H1 K1) as [_ S1].
        destruct (eorigin_committed _ _ _ _ _ _ _ (X5 c2 H2) K2) as [_ S2].
        pose proof (eo_above _ _ _ X2 _ _ S1 S2) as Hab. cbn [pr_seq] in Hab. exact Hab.
      + (* new before old is impossible: the new item was still queued when the old one committed *)
        exfalso. assert (Hq1 : In (cp_item c1) (queued p)).
        { rewrite Eq. apply in_or_app. right. apply in_or_app. left. apply Hnewtag. exact H1. }
        pose proof (O3 c2 (cp_item c1) H2 K2 Hq1) as Hb'. unfold tagof in *. lia.
      + apply X6; assumption.
  Qed.

  Lemma ord_apply p k ev evs ws' :
    PInv p -> POrd p -> nth_error (p_done p) k = Some ev ->
    applyAppendCompletion (p_ws p) ev = (evs, ws') -> POrd (after_apply p k evs ws').
  Proof.
    intros I [O1 O2 O3 O4] Nk A.
    destruct (apply_frame p k ev evs ws' I Nk A) as [Hev [Hac [Eq _]]].
    set (p' := after_apply p k evs ws') in *.
    destruct (apply_fields _ _ _ _ A) as [_ [_ [F3 _]]].
    assert (Hin : forall c, In c (all_comps p') -> In c (all_comps p)).
    { intro c. apply Permutation_in, Permutation_sym, Hac. }
    constructor.
    - unfold p', after_apply. cbn [p_ws]. rewrite F3. exact O1.
    - unfold outstanding in *. pose proof (Permutation_length Hev) as L. rewrite app_length in L.
      unfold p' at 1, after_apply at 1. cbn [p_running]. lia.
    - intros c it Hc K Hit. rewrite Eq in Hit. apply O3; auto.
    - intros c1 c2 H1 H2. apply O4; auto.
  Qed.

  Lemma step_ord p e : PInv p -> POrd p -> POrd (step p e).
  Proof.
    intros I O. apply step_cases; [exact O|intro; apply ord_admit; assumption|intro; apply ord_reject, O|..].
    - intros sq items ws'. apply ord_advance; assumption.
    - intros k ef ev s'. apply ord_run; assumption.
    - intros k ev evs ws'. apply ord_apply; assumption.
  Qed.

  (* holds when failed appends commit nothing; it turns [is_fresh] into [cp_committed],
     which is what [po_order] speaks about *)
  Definition PFresh (p : pstate St) : Prop :=
    forall c, In c (all_comps p) -> is_success (cp_res c) = true ->
    forall r, In r (slog (p_store p)) -> pr_seq r = r_seq (cp_res c) -> pr_tag r = tagof c ->
    cp_committed c = true.

  Lemma fresh_run p k ef ev s' :
    atomic_failures St do_append slog -> PInv p -> PFresh p -> nth_error (p_running p) k = Some ef ->
    run St do_append do_nlookup hashf fp (p_store p) ef = (ev, s') -> PFresh (after_run p k ev s').
  Proof.
    intros At I F Nk R.
    pose proof (pi_log _ (inv_run p k ef ev s' I Nk R)) as HL'. unfold after_run in HL'. cbn [p_store] in HL'.
    destruct (run_frame p k ef I Nk) as [a [b [Eq [Hefs [_ Hfr]]]]].
    destruct (Hfr s' ev) as [_ [_ [Hin _]]]. clear Hfr.
    destruct (run_spec St do_append do_nlookup hashf fp slog Wf Happ Hlook _ _ _ _ (pi_wf _ I) (pi_log _ I) Hefs R)
      as [ext [X1 [XW [X2 [X3 [X4 [X5 X6]]]]]]].
    rewrite Forall_forall in X5.
    intros c Hc Hs r Hr Hseq Htag. unfold after_run in Hr. cbn [p_store] in Hr.
    destruct (proj1 (Hin c) Hc) as [Hc0|Hc0].
    - (* an older completion: its record was already in the log *)
      destruct (pi_backed _ I c Hc0 Hs) as [r0 [R1 [R2 _]]].
      assert (r0 = r).
      { apply (NoDup_map_inj pr_seq _ _ _ (lo_seqs _ HL')); [rewrite X1; apply in_or_app; left; exact R1|exact Hr|congruence]. }
      subst r0. apply (F c Hc0 Hs r R1 Hseq Htag).
    - (* a completion of this run: no older record carries its tag, its item was still queued *)
      rewrite X1 in Hr, HL'.
      eapply (eorigin_fresh St do_append hashf slog (slog (p_store p)) ext c At (lo_seqs _ HL')); eauto.
      intros r0 Hr0 E0. destruct (pi_logtags _ I r0 Hr0) as [c0 [C1 [C2 _]]].
      apply (comp_not_queued p c0 (cp_item c) I C1).
      + rewrite Eq. apply in_or_app. right. apply in_or_app. left.
        apply (Permutation_in _ X4). apply in_map. exact Hc0.
      + unfold tagof in *. congruence.
  Qed.

  Lemma step_fresh p e :
    atomic_failures St do_append slog -> PInv p -> PFresh p -> PFresh (step p e).
  Proof.
    intros At I F. apply step_cases; [exact F|intro; exact F| | | |].
    - intros raw c Hc Hs. apply rejected_comps in Hc. destruct Hc as [Hc|Hc]; [apply F; assumption|].
      rewrite (proj1 (errcomps_failed _ _ _ Hc ltac:(discriminate))) in Hs. discriminate.
    - intros sq items ws' NB. destruct (advance_frame _ _ _ _ NB) as [_ [Ea _]]. intros c Hc. apply F. rewrite <- Ea. exact Hc.
    - intros k ef ev s'. apply fresh_run; assumption.
    - intros k ev evs ws' Nk A. destruct (apply_frame p k ev evs ws' I Nk A) as [_ [Hac _]].
      intros c Hc. apply F. apply (Permutation_in _ (Permutation_sym Hac)). exact Hc.
  Qed.

  Definition reach (s0 : St) (hw limit : Z) (evs : list pev) : pstate St :=
    prun St do_append do_nlookup hashf fp s0 hw limit evs.

  Lemma PInv_init s0 hw limit : slog s0 = [] -> Wf [] -> PInv (pinit St s0 hw limit).
  Proof.
    intros E W. constructor; cbn [pinit p_store p_ws p_submitted p_next_tag]; rewrite ?E.
    - constructor; [constructor|intros r r' []].
    - exact W.
    - intro x. reflexivity.
    - constructor.
    - intros it [].
    - constructor.
    - intros c [].
    - intros c [].
    - intros r [].
    - constructor; cbn; [intros k e []|constructor|discriminate].
    - constructor.
    - intros q [].
    - cbn. lia.
    - cbn. lia.
  Qed.

  Lemma fold_inv (P : pstate St -> Prop) :
    (forall p e, PInv p -> P p -> P (step p e)) ->
    forall evs p, PInv p -> P p -> PInv (fold_left step evs p) /\ P (fold_left step evs p).
  Proof.
    intros Hstep. induction evs as [|e evs IH]; intros p I H; cbn [fold_left]; [auto|].
    apply IH; [apply step_inv; exact I|apply Hstep; assumption].
  Qed.

  Theorem reach_inv s0 hw limit evs : slog s0 = [] -> Wf [] -> PInv (reach s0 hw limit evs).
  Proof.
    intros E W. unfold reach, prun.
    apply (fold_inv (fun _ => True) (fun _ _ _ _ => I) evs _ (PInv_init s0 hw limit E W) I).
  Qed.

  Theorem reach_ord s0 hw limit evs :
    slog s0 = [] -> Wf [] -> (limit <= 1)%Z -> POrd (reach s0 hw limit evs).
  Proof.
    intros E W L. unfold reach, prun.
    apply (fold_inv POrd (fun p e => step_ord p e) evs _ (PInv_init s0 hw limit E W)).
    constructor; cbn; [exact L|lia|intros c it []|intros c1 c2 []].
  Qed.

  Theorem reach_fresh s0 hw limit evs :
    slog s0 = [] -> Wf [] -> atomic_failures St do_append slog -> PFresh (reach s0 hw limit evs).
  Proof.
    intros E W A. unfold reach, prun.
    apply (fold_inv PFresh (fun p e => step_fresh p e A) evs _ (PInv_init s0 hw limit E W)).
    intros c [].
  Qed.

  Theorem inv_exactly_one p :
    PInv p ->
    NoDup (map tagof (p_delivered p))
    /\ (forall c, In c (p_delivered p) -> In (cp_item c) (p_submitted p))
    /\ (quiescent St p = true -> Permutation (map cp_item (p_delivered p)) (p_submitted p)).
  Proof.
    intro I. split; [|split].
    - exact (delivered_tags_nodup _ I).
    - intros c Hc. apply (in_submitted _ _ I). apply in_or_app. left. apply in_map. apply delivered_in. exact Hc.
    - intro Q. pose proof (conservation _ I) as Hp.
      unfold quiescent in Q. repeat (apply andb_true_iff in Q; destruct Q as [Q ?]).
      destruct (ws_pending (p_ws p)) eqn:E1; [|discriminate].
      destruct (p_running p) eqn:E2; [|discriminate].
      destruct (p_done p) eqn:E3; [|discriminate].
      destruct (ws_ready (p_ws p)) eqn:E4; [discriminate|].
      destruct (ws_completed (p_ws p)) eqn:E5; [|discriminate].
      unfold all_comps, inflight_events, queued, buffered in Hp. rewrite E1, E2, E3, E4, E5 in Hp.
      cbn [app flat_map map] in Hp. rewrite !app_nil_r in Hp. exact Hp.
  Qed.

  Lemma key_record_unique log r1 r2 (c1 c2 : cmd) :
    LogOK log -> In r1 log -> In r2 log ->
    c_uid (pr_cmd r1) = c_uid c1 -> c_cno (pr_cmd r1) = c_cno c1 ->
    c_uid (pr_cmd r2) = c_uid c2 -> c_cno (pr_cmd r2) = c_cno c2 ->
    keyed c1 = true -> same_key c1 c2 = true -> r1 = r2.
  Proof.
    intros HL H1 H2 U1 N1 U2 N2 K Hk. destruct (proj1 (same_key_eq _ _) Hk) as [Hu Hc].
    apply (lo_keys _ HL); auto.
    - rewrite (keyed_fields _ c1 U1 N1). exact K.
    - apply same_key_eq. split; congruence.
  Qed.

  Theorem inv_retry_same_result p c1 c2 :
    PInv p ->
    In c1 (p_delivered p) -> In c2 (p_delivered p) ->
    is_success (cp_res c1) = true -> is_success (cp_res c2) = true ->
    keyed (ps_cmd (cp_item c1)) = true ->
    same_key (ps_cmd (cp_item c1)) (ps_cmd (cp_item c2)) = true ->
    r_id (cp_res c1) = r_id (cp_res c2) /\ r_seq (cp_res c1) = r_seq (cp_res c2).
  Proof.
    intros I H1 H2 S1 S2 K Hk.
    destruct (pi_backed _ I c1 (delivered_in _ _ H1) S1) as [r1 [A1 [A2 [A3 [A4 [A5 _]]]]]].
    destruct (pi_backed _ I c2 (delivered_in _ _ H2) S2) as [r2 [B1 [B2 [B3 [B4 [B5 _]]]]]].
    assert (r1 = r2) by (apply (key_record_unique _ _ _ _ _ (pi_log _ I) A1 B1 A4 A5 B4 B5 K Hk)). subst r2. split; congruence.
  Qed.

  Theorem inv_reuse_rejected p c1 c2 :
    PInv p ->
    In c1 (p_delivered p) -> In c2 (p_delivered p) ->
    is_success (cp_res c1) = true ->
    keyed (ps_cmd (cp_item c1)) = true ->
    same_key (ps_cmd (cp_item c1)) (ps_cmd (cp_item c2)) = true ->
    hashf (c_pay (ps_cmd (cp_item c1))) <> hashf (c_pay (ps_cmd (cp_item c2))) ->
    hashf (c_pay (ps_cmd (cp_item c1))) <> 0 -> hashf (c_pay (ps_cmd (cp_item c2))) <> 0 ->
    is_success (cp_res c2) = false.
  Proof.
    intros I H1 H2 S1 K Hk Hne Hz1 Hz2.
    destruct (is_success (cp_res c2)) eqn:S2; [|reflexivity]. exfalso.
    destruct (pi_backed _ I c1 (delivered_in _ _ H1) S1) as [r1 [A1 [A2 [A3 [A4 [A5 A6]]]]]].
    destruct (pi_backed _ I c2 (delivered_in _ _ H2) S2) as [r2 [B1 [B2 [B3 [B4 [B5 B6]]]]]].
    assert (r1 = r2) by (apply (key_record_unique _ _ _ _ _ (pi_log _ I) A1 B1 A4 A5 B4 B5 K Hk)). subst r2.
    assert (X1 : hashf (c_pay (pr_cmd r1)) = hashf (c_pay (ps_cmd (cp_item c1)))).
    { destruct A6 as [[_ A6]|[_ [A6|[A6|A6]]]]; congruence. }
    assert (X2 : hashf (c_pay (pr_cmd r1)) = hashf (c_pay (ps_cmd (cp_item c2)))).
    { destruct B6 as [[_ B6]|[_ [B6|[B6|B6]]]]; congruence. }
    congruence.
  Qed.

  (* a NEW message: a success whose record was appended for this very submission *)
  Definition is_fresh (p : pstate St) (c : comp) : Prop :=
    is_success (cp_res c) = true /\
    exists r, In r (slog (p_store p)) /\ pr_seq r = r_seq (cp_res c) /\ pr_tag r = tagof c.

  Theorem fresh_increasing p c1 c2 :
    POrd p -> PFresh p ->
    In c1 (p_delivered p) -> In c2 (p_delivered p) ->
    is_fresh p c1 -> is_fresh p c2 -> tagof c1 < tagof c2 ->
    r_seq (cp_res c1) < r_seq (cp_res c2).
  Proof.
    intros O F H1 H2 [S1 [r1 [R1 [R2 R3]]]] [S2 [r2 [Q1 [Q2 Q3]]]].
    apply (po_order _ O); try (apply delivered_in; assumption).
    - apply (F c1 (delivered_in _ _ H1) S1 r1 R1 R2 R3).
    - apply (F c2 (delivered_in _ _ H2) S2 r2 Q1 Q2 Q3).
  Qed.
End Pipe.
