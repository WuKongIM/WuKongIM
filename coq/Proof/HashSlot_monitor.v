(* Proof/HashSlot_monitor.v — the property monitor evaluated on traces produced by
   the model: every step has code 0, except add / remove plans whose code is the
   balance classification (0, or 2 = known finding C20-K1, or 3 = C20-K2), and the
   classification is 0 whenever the theorems promise balance.  Also: every model
   operation keeps the assignment as long as the count (model_step_wf), and
   BuildInitialHashSlotTable lays the hash slots out as NewHashSlotTable does. *)
From WK Require Import Base.Base Base.Bytes Base.Lists Gen.Consts_C20 Model.HashSlot.
From WK Require Import Proof.HashSlot_table Proof.HashSlot_codec Proof.HashSlot_lists Proof.HashSlot_plan Proof.HashSlot_balance.
From Coq Require Import ZifyBool ZifyN ZifyNat Sorting.Sorted Sorting.Permutation.
Open Scope N_scope.

Lemma mig_eqb_refl m : mig_eqb m m = true.
Proof. unfold mig_eqb. rewrite !N.eqb_refl. reflexivity. Qed.

Lemma nlist_eqb_refl l : nlist_eqb l l = true.
Proof. apply list_eqb_refl, N.eqb_refl. Qed.

Lemma nlist_eqb_eq a b : nlist_eqb a b = true <-> a = b.
Proof. apply list_eqb_spec. intros. apply N.eqb_eq. Qed.

Lemma table_eqb_refl t : table_eqb t t = true.
Proof. unfold table_eqb. rewrite !N.eqb_refl, nlist_eqb_refl, (list_eqb_refl _ mig_eqb_refl). reflexivity. Qed.

Lemma content_eqb_refl t : content_eqb t t = true.
Proof. unfold content_eqb. rewrite !N.eqb_refl, nlist_eqb_refl, (list_eqb_refl _ mig_eqb_refl). reflexivity. Qed.

Lemma version_ok_of_lt t t' : (t' <> t -> t_version t < t_version t') -> version_ok t t' = true.
Proof.
  intro H. unfold version_ok. destruct (content_eqb t t') eqn:C; [reflexivity|].
  apply orb_true_iff. right. apply N.ltb_lt, H. intro E. rewrite E, content_eqb_refl in C. discriminate.
Qed.

Lemma version_ok_effect t t' : effect t t' -> t_version t < ver_small -> version_ok t t' = true.
Proof.
  intros E L. apply version_ok_of_lt. intro D. destruct E as [E|[E _]]; [contradiction|].
  rewrite E, bump_lt by (unfold ver_small, u64max in *; lia). lia.
Qed.

Lemma good_keep t t' (k : bool) : (k = true -> fully_assigned t -> fully_assigned t') ->
  negb (good t && k) || good t' = true.
Proof.
  intro H. destruct (good t) eqn:G; [|reflexivity]. destruct k; [|reflexivity]. cbn [andb negb orb].
  apply good_iff. apply H; [reflexivity|]. apply good_iff. exact G.
Qed.

Lemma basic_effect t t' k : effect t t' -> t_version t < ver_small -> t_count t' = t_count t ->
  (k = true -> fully_assigned t -> fully_assigned t') -> basic t t' k = true.
Proof.
  intros E L C G. unfold basic. rewrite C, N.eqb_refl, (version_ok_effect t t' E L), (good_keep t t' k G). reflexivity.
Qed.

Lemma plan_code_rebalance t : wf t -> plan_code t PRebalance (compute_rebalance_plan t) = 0.
Proof.
  intro W. unfold plan_code. rewrite (moves_ok_of t _ _ _ W (rebalance_plan_struct t)). cbn [negb].
  destruct (all_nz (t_assign t)) eqn:NZ; [|reflexivity]. cbn [negb]. apply all_nz_iff in NZ.
  rewrite (balanced_perm _ _ _ _ (Permutation_sym (active_perm t))).
  assert (B : balanced (t_count t) (apply_moves (compute_rebalance_plan t) (t_assign t)) (active_slot_ids t) = true).
  { apply balanced_iff. intros s Is. rewrite (rebalance_exact t W NZ s Is). lia. }
  rewrite B. reflexivity.
Qed.

Lemma filter_perm {A} (f : A -> bool) l l' : Permutation l l' -> Permutation (filter f l) (filter f l').
Proof.
  induction 1 as [|x l l' P IH|x y l|l l' l'' P1 IH1 P2 IH2]; cbn [filter].
  - constructor.
  - destruct (f x); [constructor; exact IH|exact IH].
  - destruct (f x); destruct (f y); try apply Permutation_refl. apply perm_swap.
  - eapply Permutation_trans; eassumption.
Qed.

Lemma plan_code_add t n : wf t ->
  let c := plan_code t (PAdd n) (compute_add_slot_plan t n) in
  (c = 0 \/ c = 2)
  /\ (balanced (t_count t) (t_assign t) (distinct_nz (t_assign t)) = true -> c = 0).
Proof.
  intro W. cbn zeta. unfold plan_code.
  rewrite (moves_ok_of t _ _ _ W (add_plan_struct t n)). cbn [negb].
  destruct (all_nz (t_assign t)) eqn:NZ; [|split; [left; reflexivity|reflexivity]]. cbn [negb]. apply all_nz_iff in NZ.
  destruct (n =? 0) eqn:E0; [split; [left; reflexivity|reflexivity]|]. cbn [orb]. apply N.eqb_neq in E0.
  destruct (mem n (distinct_nz (t_assign t))) eqn:M; [split; [left; reflexivity|reflexivity]|].
  assert (Nnew : ~ In n (active_slot_ids t)).
  { apply mem_false in M. intro I. apply M. apply (Permutation_in n (active_perm t) I). }
  destruct (add_plan_result t n W NZ E0 Nnew) as [_ [_ BAL]].
  rewrite (balanced_perm _ (t_assign t) _ _ (Permutation_sym (active_perm t))).
  rewrite (balanced_perm _ _ (n :: distinct_nz (t_assign t)) (n :: active_slot_ids t)) by (constructor; apply Permutation_sym, active_perm).
  destruct (balanced (t_count t) (t_assign t) (active_slot_ids t)) eqn:PRE.
  - rewrite (BAL eq_refl). split; [left; reflexivity|reflexivity].
  - destruct (balanced (t_count t) (apply_moves (compute_add_slot_plan t n) (t_assign t)) (n :: active_slot_ids t));
      (split; [|discriminate]); [left|right]; reflexivity.
Qed.

Lemma plan_code_remove t x : wf t ->
  let c := plan_code t (PRemove x) (compute_remove_slot_plan t x) in
  (c = 0 \/ c = 2 \/ c = 3)
  /\ (c = 2 -> balanced (t_count t) (t_assign t) (distinct_nz (t_assign t)) = false)
  /\ (c = 3 -> balanced (t_count t) (t_assign t) (distinct_nz (t_assign t)) = true).
Proof.
  intro W. cbn zeta. unfold plan_code.
  rewrite (moves_ok_of t _ _ _ W (remove_plan_struct t x)). cbn [negb].
  assert (NIL : forall P Q : Prop, (0 = 0 \/ 0 = 2 \/ 0 = 3) /\ (0 = 2 -> P) /\ (0 = 3 -> Q)).
  { intros P Q. split; [left; reflexivity|]. split; intro H; discriminate. }
  destruct (all_nz (t_assign t)) eqn:NZ; [|apply NIL]. cbn [negb]. apply all_nz_iff in NZ.
  destruct (mem x (distinct_nz (t_assign t))) eqn:M; [|apply NIL]. cbn [negb].
  assert (Xin : In x (active_slot_ids t)).
  { apply mem_iff in M. apply (Permutation_in x (Permutation_sym (active_perm t)) M). }
  set (rem := filter (fun y => negb (y =? x)) (distinct_nz (t_assign t))).
  assert (PR : Permutation rem (active_slot_ids_excluding t x)).
  { unfold rem, active_slot_ids_excluding. apply filter_perm, Permutation_sym, active_perm. }
  destruct rem as [|r0 rr] eqn:ER; [apply NIL|]. rewrite <- ER in *.
  assert (RNE : active_slot_ids_excluding t x <> []).
  { intro Q. rewrite Q in PR. apply Permutation_sym, Permutation_nil in PR. rewrite ER in PR. discriminate. }
  destruct (remove_plan_result t x W NZ Xin RNE) as [EMP [_ NOV]].
  set (post := apply_moves (compute_remove_slot_plan t x) (t_assign t)) in *.
  rewrite EMP. cbn [N.leb N.eqb]. rewrite andb_true_r.
  rewrite (balanced_perm _ (t_assign t) _ _ (Permutation_sym (active_perm t))).
  destruct (balanced (t_count t) post rem); [apply NIL|].
  destruct (balanced (t_count t) (t_assign t) (active_slot_ids t)) eqn:PRE; cbn [negb].
  - assert (NO : not_over (t_count t) post rem = true).
    { rewrite (not_over_perm _ _ _ _ PR). apply NOV. reflexivity. }
    rewrite NO. cbn [andb]. split; [right; right; reflexivity|]. split; [discriminate|reflexivity].
  - split; [right; left; reflexivity|]. split; [reflexivity|discriminate].
Qed.

Definition mstep (t : table) (o : op) : step :=
  Step o (fst (model_step t o)) (SFull (snd (model_step t o))).

Fixpoint model_trace (t : table) (ops : list op) : list step :=
  match ops with
  | [] => []
  | o :: r => mstep t o :: model_trace (snd (model_step t o)) r
  end.

(* arguments within the ranges of their Go types; payloads from outside (ODecode)
   are not part of the property's quantifier *)
Definition op_ok (o : op) : Prop :=
  match o with
  | OReassign _ s => u64 s
  | OStart _ a b => u64 a /\ u64 b
  | OAdvance _ ph => ph < 256
  | OAdd n _ => u64 n
  | ODecode _ => False
  | _ => True
  end.

Definition is_add_remove (o : op) : bool :=
  match o with OAdd _ _ | ORemove _ _ => true | _ => false end.

(* at least the version bumps of one step for count < 2^16: an applied plan bumps once per move and
   has at most plan_fuel t = count + 1 moves, a mutator bumps once *)
Definition step_budget : N := 65537.

Lemma active_u64 t s : codec_ok t -> In s (active_slot_ids t) -> u64 s.
Proof.
  intros H I. apply in_active in I. destruct I as [_ I]. pose proof (co_assign t H) as F.
  rewrite Forall_forall in F. apply F. exact I.
Qed.

Lemma lookup_obs_eq t hs : wf t -> lookup t hs = lookup_obs t hs.
Proof.
  intro W. destruct (lookup_total t hs W) as [A B]. unfold lookup_obs.
  destruct (hs <? t_count t) eqn:E; [apply A|apply B]; lia.
Qed.

Lemma mutator_step t t' k : t_version t + step_budget < ver_small ->
  mutated t t' -> codec_ok t' -> (k = true -> fully_assigned t -> fully_assigned t') ->
  t_version t' <= t_version t + step_budget
  /\ (if negb (snap_wf t') then 1 else if basic t t' k then 0 else 1) = 0.
Proof.
  intros V M CO' G. assert (VS : t_version t < ver_small) by (unfold step_budget in V; lia).
  pose proof (mutated_effect t t' M) as E. split.
  { destruct E as [->|[E _]]; [lia|]. rewrite E, bump_lt by (unfold ver_small, u64max in *; lia). unfold step_budget. lia. }
  rewrite (proj2 (snap_wf_iff _) (co_wf _ CO')), (basic_effect t t' k E VS (mutated_count t t' M) G). reflexivity.
Qed.

Lemma plan_step_code t k p dom ap : codec_ok t -> t_version t + step_budget < ver_small ->
  plan_ok (t_assign t) dom (plan_fuel t) p -> (forall s, In s dom -> u64 s) ->
  let t' := snd (plan_step t p ap) in
  codec_ok t' /\ t_version t' <= t_version t + step_budget
  /\ (if negb (snap_wf t') then 1 else plan_obs_code t t' k ap p) = plan_code t k p.
Proof.
  intros CO V [F [ND LEN]] DOM. unfold plan_step. cbn [snd].
  assert (Q : forall t', codec_ok t' -> basic t t' true = true ->
                nlist_eqb (t_assign t') (if ap then apply_moves p (t_assign t) else t_assign t) = true ->
                (if negb (snap_wf t') then 1 else plan_obs_code t t' k ap p) = plan_code t k p).
  { intros t' CO' B AS. rewrite (proj2 (snap_wf_iff _) (co_wf _ CO')). unfold plan_obs_code. rewrite B, AS. reflexivity. }
  destruct ap.
  - assert (LV : t_version t + N.of_nat (length p) < u64max).
    { pose proof (co_wf t CO) as W. pose proof (co_count t CO). unfold plan_fuel, wf, step_budget, ver_small, u64max in *. lia. }
    destruct (apply_plan_version p t LV) as [[V1 V2] [V3 V4]].
    assert (CO' : codec_ok (apply_plan t p)).
    { apply apply_plan_codec_ok; [|exact CO]. eapply Forall_impl; [|exact F]. intros m (_ & _ & _ & _ & _ & M). apply DOM, M. }
    split; [exact CO'|]. split.
    { pose proof (co_wf t CO). pose proof (co_count t CO). unfold plan_fuel, wf, step_budget in *. lia. }
    apply Q; [exact CO'| |rewrite apply_plan_assign; apply nlist_eqb_refl].
    unfold basic. rewrite apply_plan_count, N.eqb_refl. cbn [andb].
    rewrite (good_keep t (apply_plan t p) true).
    + rewrite andb_true_r. apply version_ok_of_lt, V3.
    + intros _ G. apply apply_plan_fully; [|exact G]. eapply Forall_impl; [|exact F]. intros m (_ & _ & _ & M & _). exact M.
  - split; [exact CO|]. split; [unfold step_budget; lia|]. apply Q; [exact CO| |apply nlist_eqb_refl].
    apply basic_effect; [left; reflexivity|unfold step_budget in V; lia|reflexivity|intros _ G; exact G].
Qed.

Lemma step_code_model t o : codec_ok t -> t_version t + step_budget < ver_small -> op_ok o ->
  let t' := snd (model_step t o) in
  codec_ok t' /\ t_version t' <= t_version t + step_budget
  /\ step_code t (mstep t o) =
     match o with
     | OAdd n _ => plan_code t (PAdd n) (compute_add_slot_plan t n)
     | ORemove x _ => plan_code t (PRemove x) (compute_remove_slot_plan t x)
     | _ => 0
     end.
Proof.
  intros CO V OK. pose proof (co_wf t CO) as W.
  assert (ACT : forall s, In s (active_slot_ids t) -> u64 s) by (intros s Q; apply (active_u64 t s CO Q)).
  (* a query leaves the table as it is; [b] is what the monitor checks of its answer *)
  assert (QRY : forall b : bool, b = true ->
            codec_ok t /\ t_version t <= t_version t + step_budget
            /\ (if negb (snap_wf t) then 1 else if b then 0 else 1) = 0).
  { intros b ->. rewrite (proj2 (snap_wf_iff t) W). split; [exact CO|]. split; [lia|reflexivity]. }
  unfold mstep, step_code, after. cbn [s_snap s_op s_res unsnap].
  destruct o as [hs slot|hs src tgt|hs phase|hs|hs|hs|slot| |hs| |data|slot apply|slot apply|apply
                |total slots|largest cur tgt cands|slots count| ]; cbn [model_step fst snd op_ok] in *.
  - (* OReassign: stays physical when the new owner is not 0 *)
    pose proof (reassign_codec_ok t hs slot OK CO) as CO'. split; [exact CO'|].
    apply (mutator_step t _ _ V (reassign_mutated t hs slot) CO').
    intros K G. apply reassign_fully; [|exact G]. apply negb_true_iff, N.eqb_neq in K. exact K.
  - (* OStart *)
    pose proof (start_codec_ok t hs src tgt (proj1 OK) (proj2 OK) CO) as CO'. split; [exact CO'|].
    apply (mutator_step t _ _ V (start_mutated t hs src tgt) CO'). intros _. apply start_fully.
  - (* OAdvance *)
    pose proof (advance_codec_ok t hs phase OK CO) as CO'. split; [exact CO'|].
    apply (mutator_step t _ _ V (advance_mutated t hs phase) CO'). intros _. apply advance_fully.
  - (* OFinalize *)
    pose proof (finalize_codec_ok t hs CO) as CO'. split; [exact CO'|].
    apply (mutator_step t _ _ V (finalize_mutated t hs) CO'). intros _. apply finalize_fully.
  - (* OAbort *)
    pose proof (abort_codec_ok t hs CO) as CO'. split; [exact CO'|].
    apply (mutator_step t _ _ V (abort_mutated t hs) CO'). intros _. apply abort_fully.
  - (* OLookup: the answer is the observed assignment entry *) apply QRY. rewrite table_eqb_refl, (lookup_obs_eq t hs W). apply N.eqb_refl.
  - (* OOwners: the answer is indices_of itself *) apply QRY. rewrite table_eqb_refl. apply nlist_eqb_refl.
  - (* OAssigned *) apply QRY, table_eqb_refl.
  - (* OGetMig *) apply QRY, table_eqb_refl.
  - (* OEncDec: the round trip returns the table *) rewrite (decode_encode t CO). cbn [option_map fst snd unsnap]. apply QRY. rewrite table_eqb_refl. reflexivity.
  - (* ODecode: excluded by op_ok *) destruct OK.
  - (* OAdd: the new slot is in range by op_ok, the active ones by codec_ok *)
    apply (plan_step_code t (PAdd slot) _ _ apply CO V (add_plan_struct t slot)).
    intros s [<-|Q]; [exact OK|exact (ACT s Q)].
  - (* ORemove *) apply (plan_step_code t (PRemove slot) _ _ apply CO V (remove_plan_struct t slot) ACT).
  - (* ORebalance: classified 0 *)
    rewrite <- (plan_code_rebalance t W). apply (plan_step_code t PRebalance _ _ apply CO V (rebalance_plan_struct t) ACT).
  - (* OIdeal *) apply QRY, table_eqb_refl.
  - (* OSelect *) apply QRY, table_eqb_refl.
  - (* OBuildInit *) apply QRY, table_eqb_refl.
  - (* OClone *) apply QRY, table_eqb_refl.
Qed.

Definition code_fine (c : N) : Prop := c = 0 \/ c = 2 \/ c = 3.

Lemma join_fine a b : code_fine a -> code_fine b -> code_fine (join_code a b).
Proof.
  unfold code_fine, join_code. intros [A|[A|A]] [B|[B|B]]; subst; cbn; auto.
Qed.

Lemma step_code_fine t o : codec_ok t -> t_version t + step_budget < ver_small -> op_ok o ->
  code_fine (step_code t (mstep t o)) /\ (is_add_remove o = false -> step_code t (mstep t o) = 0).
Proof.
  intros CO V OK. destruct (step_code_model t o CO V OK) as [_ [_ E]]. pose proof (co_wf t CO) as W.
  rewrite E. destruct o; try (split; [left; reflexivity|reflexivity]).
  - destruct (plan_code_add t slot W) as [[A|A] _]; cbn zeta in A; rewrite A;
      (split; [unfold code_fine; auto|cbn; discriminate]).
  - destruct (plan_code_remove t slot W) as [[A|[A|A]] _]; cbn zeta in A; rewrite A;
      (split; [unfold code_fine; auto|cbn; discriminate]).
Qed.

Lemma monitor_steps_model : forall ops t, codec_ok t ->
  t_version t + step_budget * N.of_nat (length ops) < ver_small -> Forall op_ok ops ->
  code_fine (monitor_steps t (model_trace t ops))
  /\ (forallb (fun o => negb (is_add_remove o)) ops = true -> monitor_steps t (model_trace t ops) = 0).
Proof.
  induction ops as [|o ops IH]; intros t CO V OK; cbn [model_trace monitor_steps].
  - split; [left; reflexivity|reflexivity].
  - inversion OK as [|? ? O1 O2]; subst. cbn [length] in V.
    assert (V1 : t_version t + step_budget < ver_small) by (unfold step_budget in *; lia).
    destruct (step_code_model t o CO V1 O1) as [CO' [V' _]].
    destruct (step_code_fine t o CO V1 O1) as [F1 Z1].
    assert (AF : after t (mstep t o) = snd (model_step t o)) by reflexivity. rewrite AF.
    destruct (IH (snd (model_step t o)) CO') as [F2 Z2]; [unfold step_budget in *; lia|exact O2|].
    split; [apply join_fine; assumption|].
    cbn [forallb]. intro H. apply andb_true_iff in H. destruct H as [H1 H2]. apply negb_true_iff in H1.
    rewrite (Z1 H1), (Z2 H2). reflexivity.
Qed.

(* the monitor on a complete model trace from NewHashSlotTable *)
Theorem model_satisfies_monitor count phys ops : count < 65536 -> Forall op_ok ops ->
  1 + step_budget * N.of_nat (length ops) < ver_small ->
  let c := C20_monitor (C20Case count phys (new_hash_slot_table count phys)
                                (model_trace (new_hash_slot_table count phys) ops)) in
  c <> 1 /\ (forallb (fun o => negb (is_add_remove o)) ops = true -> c = 0).
Proof.
  intros C OK V. cbn zeta. unfold C20_monitor.
  assert (CO : codec_ok (new_hash_slot_table count phys)) by (apply new_codec_ok; exact C).
  assert (IO : init_ok (C20Case count phys (new_hash_slot_table count phys)
                                (model_trace (new_hash_slot_table count phys) ops)) = true).
  { unfold init_ok. cbn [c_init c_count c_phys].
    rewrite (proj2 (snap_wf_iff _) (co_wf _ CO)). cbn [andb].
    rewrite new_count, N.eqb_refl. cbn [andb].
    destruct ((1 <=? count) && (1 <=? phys)%Z) eqn:G; [|reflexivity]. cbn [negb orb].
    apply good_iff, new_fully_assigned. lia. }
  rewrite IO. cbn [c_init c_steps].
  destruct (monitor_steps_model ops _ CO) as [F Z]; [rewrite new_version; exact V|exact OK|].
  split; [|exact Z]. destruct F as [F|[F|F]]; rewrite F; discriminate.
Qed.

Lemma model_step_wf t o : wf t -> wf (snd (model_step t o)).
Proof.
  intro W. destruct o; cbn [model_step snd fst]; try exact W;
    try (unfold plan_step; cbn [snd]; destruct apply; [apply apply_plan_wf|]; exact W).
  1-5: refine (mutated_wf _ _ _ W).
  - apply reassign_mutated.
  - apply start_mutated.
  - apply advance_mutated.
  - apply finalize_mutated.
  - apply abort_mutated.
  - destruct (decode_hash_slot_table (encode t)) as [t'|] eqn:D; cbn [snd]; [apply (decode_wf _ _ D)|exact W].
  - destruct (decode_hash_slot_table data) as [t'|] eqn:D; cbn [snd]; [apply (decode_wf _ _ D)|exact W].
Qed.

(* the assignment that a list of inclusive ranges denotes *)
Definition expand_ranges (rs : list range) : list N :=
  flat_map (fun r => repeat (r_slot r) (N.to_nat (r_to r + 1 - r_from r))) rs.

(* 1 <= base: with truncated subtraction a range of width 0 would have to = next and denote one entry *)
Lemma build_ranges_expand base rem : 1 <= base -> forall fuel i next,
  expand_ranges (build_ranges fuel (i + 1) next base rem) = new_fill fuel i base rem.
Proof.
  intro B. induction fuel as [|f IH]; intros i next; cbn [build_ranges new_fill]; [reflexivity|].
  unfold expand_ranges. cbn [flat_map r_slot r_to r_from]. fold (expand_ranges (build_ranges f (i + 1 + 1)
    (next + (base + (if i + 1 <=? rem then 1 else 0)) - 1 + 1) base rem)).
  rewrite IH. f_equal. f_equal.
  destruct (i + 1 <=? rem) eqn:E1; destruct (i <? rem) eqn:E2; lia.
Qed.

Lemma initial_layout_agrees slots count c rs :
  build_initial_hash_slot_table slots count = Some (c, rs) ->
  c = count /\ expand_ranges rs = t_assign (new_hash_slot_table count (Z.of_N slots)).
Proof.
  unfold build_initial_hash_slot_table.
  destruct ((slots =? 0) || (count =? 0) || (count <? slots)) eqn:G; [discriminate|].
  intro H. inversion H; subst. split; [reflexivity|].
  rewrite new_table_eq, N2Z.id, (N.min_l slots c) by lia. cbn [t_assign].
  refine (build_ranges_expand _ _ _ (N.to_nat slots) 0 0). apply N.div_le_lower_bound; lia.
Qed.
