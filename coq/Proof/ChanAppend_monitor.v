(* Proof/ChanAppend_monitor.v — the property monitor of the case files accepts every
   complete history the pipeline model produces (at most one append in flight,
   failed appends commit nothing): the boolean the harness evaluates on
   implementation histories is the predicate the C29 theorems are about. *)
From WK Require Import Base.Base Base.Lists Gen.Consts_C29 Model.ChanAppend Model.ChanAppend_C29
     Proof.ChanAppend_coalesce Proof.ChanAppend_expand Proof.ChanAppend_writer Proof.ChanAppend_run
     Proof.ChanAppend_pipeline.
From Coq Require Import Sorted Permutation.
Open Scope N_scope.

Lemma find_rec_unique log r : NoDup (map pr_seq log) -> In r log -> find_rec log (pr_seq r) = Some r.
Proof.
  unfold find_rec. induction log as [|x l IH]; intros Hnd Hr; [contradiction|].
  cbn [map] in Hnd. inversion Hnd as [|y m Hx Hnd']; subst. cbn [find].
  destruct (pr_seq x =? pr_seq r) eqn:E.
  - apply N.eqb_eq in E. destruct Hr as [Hr|Hr]; [congruence|].
    exfalso. apply Hx. rewrite E. apply in_map. exact Hr.
  - apply N.eqb_neq in E. destruct Hr as [Hr|Hr]; [congruence|]. apply IH; assumption.
Qed.

Lemma find_rec_some log sq r : find_rec log sq = Some r -> In r log /\ pr_seq r = sq.
Proof. unfold find_rec. intro H. apply find_some in H. destruct H as [H1 H2]. apply N.eqb_eq in H2. auto. Qed.

Lemma filter_unique {A} (f : A -> N) (l : list A) t :
  NoDup (map f l) -> In t (map f l) -> exists y, filter (fun z => f z =? t) l = [y] /\ f y = t.
Proof.
  induction l as [|x l IH]; intros Hnd Hin; [contradiction|].
  cbn [map] in Hnd, Hin. inversion Hnd as [|y m Hx Hnd']; subst. cbn [filter].
  destruct (f x =? t) eqn:E.
  - apply N.eqb_eq in E. exists x. split; [|exact E]. f_equal.
    apply filter_none. intros z Hz. apply N.eqb_neq. intro Ez. apply Hx. rewrite E, <- Ez. apply in_map. exact Hz.
  - apply N.eqb_neq in E. destruct Hin as [Hin|Hin]; [congruence|]. apply IH; assumption.
Qed.

Lemma join_code_zero : join_code 0 0 = 0.
Proof. reflexivity. Qed.

Lemma all_pairs_zero h l :
  (forall a b, In a l -> In b l -> pair_code h a b = 0) -> all_pairs h l = 0.
Proof.
  induction l as [|a r IH]; intro H; cbn [all_pairs]; [reflexivity|].
  rewrite IH by (intros x y Hx Hy; apply H; right; assumption).
  assert (E : forall acc, acc = 0 ->
    fold_left (fun acc b => join_code acc (join_code (pair_code h a b) (pair_code h b a))) r acc = 0).
  { assert (Hr : forall b, In b r -> pair_code h a b = 0 /\ pair_code h b a = 0).
    { intros b Hb. split; apply H; auto; [left|right|right|left]; auto. }
    clear -Hr. induction r as [|b r IHr]; intros acc Ha; cbn [fold_left]; [exact Ha|].
    apply IHr; [intros x Hx; apply Hr; right; exact Hx|].
    destruct (Hr b (or_introl eq_refl)) as [E1 E2]. rewrite Ha, E1, E2. reflexivity. }
  rewrite (E 0 eq_refl). reflexivity.
Qed.

Section Mon.
  Variable St : Type.
  Variable do_append : St -> areq -> areply * St.
  Variable do_nlookup : St -> bytes -> bytes -> nreply * St.
  Variable fp : cmd -> N.
  Variable slog : St -> list prec.
  Variable Wf : list prec -> Prop.
  Hypothesis Happ : append_contract St do_append slog Wf.
  Hypothesis Hlook : lookup_contract St do_nlookup idempotencyPayloadHash slog.

  (* the history a pipeline state stands for: every submitted item is a call of its
     own, made at the time of its tag (so "submitted before" is the tag order) *)
  Definition hsend_of (c : comp) : hsend :=
    HSend (tagof c) 0 (tagof c) (tagof c) 0 (tagof c) (ps_cmd (cp_item c)) (cp_res c).

  Definition hist_of (p : pstate St) : hist :=
    Hist true (map (fun it => HCall (ps_tag it) 1 1) (p_submitted p))
         (map hsend_of (p_delivered p)) [(0, slog (p_store p))].

  Local Notation PInvH := (PInv St idempotencyPayloadHash slog Wf).

  Lemma log_of_hist p : log_of (hist_of p) 0 = slog (p_store p).
  Proof. reflexivity. Qed.

  (* H2 on the model's history *)
  Lemma model_send_ok p c : PInvH p -> In c (p_delivered p) -> send_ok (hist_of p) (hsend_of c) = true.
  Proof.
    intros I Hc. unfold send_ok. cbn [h_res h_ch h_cmd h_tag hsend_of]. rewrite log_of_hist.
    destruct (is_success (cp_res c)) eqn:S; [|reflexivity].
    assert (Hac : In c (all_comps St p)) by (apply in_or_app; left; exact Hc).
    destruct (pi_backed _ _ _ _ _ I c Hac S) as [r [R1 [R2 [R3 [R4 [R5 R6]]]]]].
    pose proof (lo_seqs _ (pi_log _ _ _ _ _ I)) as Hnd.
    rewrite <- R2. rewrite (find_rec_unique _ _ Hnd R1).
    rewrite R3, N.eqb_refl, R4, R5, !bytes_eqb_refl. cbn [andb].
    destruct (pr_tag r =? tagof c) eqn:T.
    - apply N.eqb_eq in T. apply bytes_eqb_eq.
      destruct R6 as [[_ R6]|_]; [exact R6|].
      destruct (pi_logtags _ _ _ _ _ I r R1) as [c' [C1 [C2 C3]]].
      assert (c' = c).
      { apply (NoDup_map_inj tagof (all_comps St p)); auto; [apply (comps_tags_nodup _ _ _ _ _ I)|congruence]. }
      subst c'. rewrite <- C3. reflexivity.
    - apply N.eqb_neq in T. destruct R6 as [[R6 _]|[K R6]]; [congruence|].
      rewrite K. cbn [andb].
      destruct R6 as [R6|[R6|R6]].
      + rewrite R6, bytes_eqb_refl. reflexivity.
      + rewrite R6, N.eqb_refl. apply orb_true_iff. left. apply orb_true_r.
      + rewrite R6. cbn [N.eqb]. apply orb_true_r.
  Qed.

  (* H1 on the model's history: nothing in flight, so every submitted item has its one result *)
  Lemma model_call_ok p it :
    PInvH p -> Permutation (map cp_item (p_delivered p)) (p_submitted p) -> In it (p_submitted p) ->
    call_ok (map hsend_of (p_delivered p)) (HCall (ps_tag it) 1 1) = true.
  Proof.
    intros I Hp Hit. unfold call_ok. cbn [hc_items hc_results hc_id].
    rewrite filter_map_comm. cbn [h_call hsend_of].
    pose proof (delivered_tags_nodup _ _ _ _ _ I) as Hnd.
    assert (Hin : In (ps_tag it) (map tagof (p_delivered p))).
    { apply (Permutation_in _ (Permutation_sym Hp)) in Hit. apply in_map_iff in Hit.
      destruct Hit as [c [E Hc]]. apply in_map_iff. exists c. unfold tagof. rewrite E. auto. }
    destruct (filter_unique tagof _ _ Hnd Hin) as [y [Ey _]]. rewrite Ey. reflexivity.
  Qed.

  Lemma fresh_is_fresh p c :
    In c (p_delivered p) -> fresh (hist_of p) (hsend_of c) = true -> is_fresh St slog p c.
  Proof.
    intros Hc H. unfold fresh in H. cbn [h_res h_ch h_tag hsend_of] in H. rewrite log_of_hist in H.
    apply andb_true_iff in H. destruct H as [S H]. split; [exact S|].
    destruct (find_rec (slog (p_store p)) (r_seq (cp_res c))) as [r|] eqn:F; [|discriminate].
    apply find_rec_some in F. destruct F as [F1 F2]. apply N.eqb_eq in H. exists r. auto.
  Qed.

  (* the monitor accepts the history of every quiescent reachable state *)
  Theorem model_hist_monitor s0 hw limit evs :
    slog s0 = [] -> Wf [] -> (limit <= 1)%Z -> atomic_failures St do_append slog ->
    let p := reach St do_append do_nlookup idempotencyPayloadHash fp s0 hw limit evs in
    quiescent St p = true -> hist_monitor (hist_of p) = 0.
  Proof.
    intros E W L A p Q.
    pose proof (reach_inv St do_append do_nlookup idempotencyPayloadHash fp slog Wf Happ Hlook s0 hw limit evs E W) as I.
    fold p in I.
    destruct (inv_exactly_one _ _ _ _ _ I) as [_ [_ Hq]]. specialize (Hq Q).
    unfold hist_monitor. cbn [hi_sends hi_calls hi_ordered hist_of].
    assert (C1 : forallb (call_ok (map hsend_of (p_delivered p)))
                         (map (fun it => HCall (ps_tag it) 1 1) (p_submitted p)) = true).
    { apply forallb_forall. intros c Hc. apply in_map_iff in Hc. destruct Hc as [it [Ec Hit]]. subst c.
      apply model_call_ok; assumption. }
    assert (C2 : forallb (send_ok (hist_of p)) (map hsend_of (p_delivered p)) = true).
    { apply forallb_forall. intros s Hs. apply in_map_iff in Hs. destruct Hs as [c [Ec Hc]]. subst s.
      apply model_send_ok; assumption. }
    fold (hist_of p). rewrite C1, C2.
    rewrite all_pairs_zero; [reflexivity|].
    intros a b Ha Hb. apply filter_In in Ha. apply filter_In in Hb.
    destruct Ha as [Ha Fa]. destruct Hb as [Hb Fb].
    apply in_map_iff in Ha. apply in_map_iff in Hb.
    destruct Ha as [c1 [E1 H1]]. destruct Hb as [c2 [E2 H2]]. subst a b.
    assert (Eb : before (hsend_of c1) (hsend_of c2) = (tagof c1 <? tagof c2)).
    { unfold before, hsend_of. cbn [h_end h_start h_call h_pos].
      replace (0 <? 0) with false by reflexivity. rewrite andb_false_r, orb_false_r. reflexivity. }
    unfold pair_code. rewrite Eb. cbn [h_ch h_res hsend_of]. rewrite N.eqb_refl. cbn [andb].
    destruct (tagof c1 <? tagof c2) eqn:T; [|reflexivity]. apply N.ltb_lt in T.
    pose proof (fresh_increasing St slog p c1 c2
                  (reach_ord St do_append do_nlookup idempotencyPayloadHash fp slog Wf Happ Hlook s0 hw limit evs E W L)
                  (reach_fresh St do_append do_nlookup idempotencyPayloadHash fp slog Wf Happ Hlook s0 hw limit evs E W A)
                  H1 H2 (fresh_is_fresh p c1 H1 Fa) (fresh_is_fresh p c2 H2 Fb) T) as Hlt.
    apply N.ltb_lt in Hlt. rewrite Hlt. reflexivity.
  Qed.
End Mon.
