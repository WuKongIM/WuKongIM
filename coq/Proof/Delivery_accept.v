(* Proof/Delivery_accept.v — the monitors of C31 hold on every observation the
   models produce: plan processing (coverage, offline-once, exact retries) and
   PushOwner (partition). *)
From WK Require Import Base.Base Base.Lists Gen.Consts_C31 Model.Delivery Model.Delivery_C31
     Proof.Delivery_local Proof.Delivery_retry Proof.Delivery_cover Proof.Delivery_monitor.
From Coq Require Import Permutation.
Open Scope N_scope.

Theorem push_model_accepted c st : push_monitor (push_model c st) = true.
Proof.
  unfold push_model. destruct (ps_closed st); [reflexivity|].
  unfold local_attempt. rewrite pushOwnerLocal_eq.
  destruct ((c_local c =? 0) || (a_owner (ps_obs st) =? 0) || negb (a_owner (ps_obs st) =? c_local c)).
  { reflexivity. }
  unfold push_monitor. cbn [fst a_err a_acc a_retry a_drop a_routes a_writes N.eqb].
  apply andb_true_iff. split; [apply andb_true_iff; split|].
  - apply same_routes_perm. apply lspec_partition.
  - apply sub_routes_intro. intros x. apply lspec_writes_count.
  - apply routes_eqb_eq. apply lspec_acc.
Qed.

Lemma fold_add_acc l : forall a, fold_left N.add l a = a + fold_left N.add l 0.
Proof.
  induction l as [|x l IH]; intros a; simpl; [lia|].
  rewrite (IH (a + x)), (IH x). lia.
Qed.

Section Firsts.
Variables (c : cfg) (ev : event) (o : N).

Lemma firsts_sum bs firsts :
  Forall2 (first_of c ev o) bs firsts ->
  fold_left N.add (map obs_routes firsts) 0 = nlen (concat bs).
Proof.
  induction 1 as [|b a bs firsts Hf _ IH]; [reflexivity|].
  cbn [map fold_left concat]. rewrite fold_add_acc, IH.
  destruct Hf as (_ & _ & Hn & _). rewrite Hn. unfold nlen. rewrite app_length. lia.
Qed.

Lemma firsts_routes_remote bs firsts :
  Forall2 (first_of c ev o) bs firsts -> (o =? c_local c) = false ->
  concat (map att_routes firsts) = concat bs.
Proof.
  intros H Hl. induction H as [|b a bs firsts Hf _ IH]; [reflexivity|].
  cbn [map concat]. rewrite IH. f_equal.
  destruct Hf as (_ & Hloc & _ & Hr & _). rewrite Hl in Hloc.
  unfold att_routes. rewrite Hloc. apply Hr. exact Hloc.
Qed.

Lemma firsts_routes_local bs firsts :
  Forall2 (first_of c ev o) bs firsts -> (o =? c_local c) = true ->
  c_has_writer c = true -> (forall a, In a firsts -> att_cancel a = false) ->
  concat (map att_routes firsts) = filter (route_valid (e_msgid ev) o) (concat bs).
Proof.
  intros H Hl Hw Hc. induction H as [|b a bs firsts Hf _ IH]; [reflexivity|].
  cbn [map concat]. rewrite filter_app, IH by (intros a0 Ha0; apply Hc; right; exact Ha0). f_equal.
  destruct Hf as (_ & Hloc & _ & _ & Hr). rewrite Hl in Hloc.
  apply Hr; [exact Hloc| exact Hw| apply Hc; left; reflexivity].
Qed.

(* the monitor's clause for one owner, from the walk over its attempts and the first
   attempt of every batch *)
Lemma owner_ok_intro expected atts firsts :
  walk (c_retry c) 0 None (by_owner o atts) = (true, firsts) ->
  (existsb att_cancel atts = false ->
   Forall2 (first_of c ev o) (chunks (c_batch c) (filter (fun r => r_owner r =? o) expected)) firsts) ->
  owner_ok c ev expected atts (existsb att_cancel atts) o = true.
Proof.
  intros W Wf. unfold owner_ok. rewrite W. cbn [andb].
  destruct (existsb att_cancel atts) eqn:Hc; [reflexivity|]. cbn [orb]. specialize (Wf eq_refl).
  set (exp_o := filter (fun r => r_owner r =? o) expected) in *.
  pose proof (chunks_concat (c_batch c) exp_o (c_batch_pos c)) as Hcc.
  apply andb_true_iff. split.
  - rewrite (firsts_sum _ _ Wf), Hcc. apply N.eqb_refl.
  - destruct (o =? c_local c) eqn:Hl.
    + destruct (c_has_writer c) eqn:Hw; [|reflexivity]. cbn [negb orb].
      rewrite (firsts_routes_local _ _ Wf Hl Hw), Hcc; [apply same_routes_refl|].
      intros a Ha. apply (proj1 (existsb_false _ _) Hc).
      pose proof (walk_firsts_incl _ _ _ _ _ _ W a Ha) as Hin.
      unfold by_owner in Hin. apply filter_In in Hin. exact (proj1 Hin).
    + destruct (c_has_remote c); [|reflexivity]. cbn [negb orb].
      rewrite (firsts_routes_remote _ _ Wf Hl), Hcc. apply same_routes_refl.
Qed.

End Firsts.

(* what the theorem asks of the ports: the ACK tracker grants reservations
   (no per-session limit configured) and a remote owner reports as Retryable
   only routes of this plan that are addressed to it *)
Definition plan_contract (p : plan) (ans : list answer) (orc : N -> list oout) : Prop :=
  (forall o, orc_ok (orc o))
  /\ (forall o acc retry drop err, In (ORemote acc retry drop err) (orc o) ->
      forall r, In r retry ->
        In r (expected_routes (p_event p) (resolved_pairs (p_targets p) ans)) /\ r_owner r = o).

(* no presence answer was used: nothing is expected, so doing nothing is accepted *)
Lemma plan_monitor_nothing c p ans panic cx0 n cl :
  cx0 || negb (c_has_presence c) || panic = true -> n <= 1 ->
  plan_monitor c p ans panic cx0 (PRes n [] [] cl) = true.
Proof.
  intros H Hn. unfold plan_monitor, effective_pairs. rewrite H. cbn [po_presence po_offline po_atts].
  rewrite (proj2 (N.leb_le _ _) Hn). cbn. rewrite orb_true_r. reflexivity.
Qed.

Theorem plan_model_accepted c p ans panic cx0 orc :
  plan_contract p ans orc ->
  plan_monitor c p ans panic cx0 (fst (processPlan c p ans panic orc cx0)) = true.
Proof.
  intros [OK RC]. unfold processPlan.
  destruct cx0; [apply plan_monitor_nothing; [reflexivity| apply N.le_0_l]|].
  destruct (c_has_presence c) eqn:Hp; cbn [negb];
    [|apply plan_monitor_nothing; [rewrite Hp; reflexivity| apply N.le_0_l]].
  destruct panic; [apply plan_monitor_nothing; [apply orb_true_r| apply N.le_refl]|].
  set (ev := p_event p). set (pairs := resolved_pairs (p_targets p) ans).
  set (expected := expected_routes ev pairs).
  destruct (resolve_plan_spec c p ans) as [GI OFF]. fold ev pairs in GI, OFF. fold expected in GI.
  set (rs := resolve_plan c p ans) in *.
  pose proof (g_inv_keys_ok ev _ _ GI) as KO.
  destruct (run_owners c ev (rs_groups rs) orc false) as [[atts st] cx] eqn:ER.
  destruct (run_owners_facts c ev _ _ _ _ _ _ ER KO OK) as (Ccx & _ & Cf). cbn [orb] in Ccx.
  assert (RC' : forall o, In o (g_keys (rs_groups rs)) -> remote_contract (g_get o (rs_groups rs)) (orc o)).
  { intros o _ acc retry drop err Hin x Hx. rewrite (gi_get _ _ GI).
    destruct (RC o acc retry drop err Hin x Hx) as [A B].
    apply filter_In. split; [exact A| apply N.eqb_eq; exact B]. }
  pose proof (run_owners_incl c ev _ _ _ _ _ _ ER KO OK RC') as Cincl.
  cbn [fst]. unfold plan_monitor, effective_pairs. rewrite Hp.
  cbn [orb negb po_presence po_offline po_atts]. fold ev. fold pairs. fold expected.
  apply andb_true_iff. split; [apply andb_true_iff; split; [apply andb_true_iff; split|]|].
  - reflexivity.
  - rewrite OFF. apply (offline_ok_model (track_offline c p) pairs).
  - unfold exact_ok. apply forallb_forall. intros a Ha. apply forallb_forall. intros r Hr.
    rewrite Forall_forall in Cincl. pose proof (Cincl a Ha r Hr) as Ia. rewrite (gi_get _ _ GI) in Ia. apply filter_In in Ia.
    destruct Ia as [I1 I2]. rewrite I2. rewrite andb_true_r. apply mem_route_in. exact I1.
  - apply forallb_forall. intros o _. destruct (Cf o) as (firsts & W & Wf).
    apply (owner_ok_intro c ev o expected atts firsts W). intros Hc.
    rewrite <- (gi_get _ _ GI). apply Wf. rewrite Ccx. exact Hc.
Qed.
