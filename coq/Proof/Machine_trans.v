(* Proof/Machine_trans.v — every transition of Model/Machine.v establishes [step_facts]; the
   no-op lemmas for stale fences, rejected metadata and acks above LEO (C06). *)
From WK Require Import Base.Base Gen.Consts_C06 Model.Machine Proof.Machine Proof.Machine_steps.
Open Scope N_scope.

Lemma WM_set_leo_max s p o i last :
  WM s -> WM (set_leo (set_app s p o i) (N.max (s_leo s) last)).
Proof.
  unfold WM, prog_le. intros [H1 [H2 H3]]. st. split; [exact H1|]. split.
  - eapply N.le_trans; [exact H2|apply N.le_max_l].
  - intro n. eapply N.le_trans; [apply H3|apply N.le_max_l].
Qed.

Lemma WM_set_progress s n v :
  WM s -> v <= s_leo s -> WM (set_progress s (pr_set n v (s_progress s))).
Proof.
  unfold WM, prog_le. intros [H1 [H2 H3]] Hv. st. split; [exact H1|]. split; [exact H2|].
  intro k. rewrite pr_get_set. destruct (k =? n); [exact Hv|apply H3].
Qed.

Lemma WM_set_hw s h : WM s -> s_hw s <= h -> h <= s_leo s -> WM (set_hw s h).
Proof.
  unfold WM, prog_le. intros [H1 [H2 H3]] Hh Hl. st.
  split; [exact (N.le_trans _ _ _ H1 Hh)|]. split; [exact Hl|exact H3].
Qed.

Lemma WM_set_app s p o i : WM s -> WM (set_app s p o i).
Proof. apply WM_same. apply same_but_app_set_app. Qed.

(* a transition that answers and deletes some waiters of an intermediate state [m]: [s] with
   watermarks raised and waiters updated in place; a successful reply is the waiter's records,
   ending at its target, which HW covers for a quorum-mode waiter *)
Lemma facts_via_sweep s e m s' d :
  Inv s -> WM m -> Forall tgt_ok (s_pending m) ->
  (forall a w', find_w a (s_pending m) = Some w' ->
                exists w, find_w a (s_pending s) = Some w /\ w_mode w' = w_mode w) ->
  s_hw s <= s_hw m -> s_leo s <= s_leo m -> s_cp m = s_cp s ->
  same_but_app m s' -> s_pending s' = del_ids (map r_op (d_replies d)) (s_pending m) ->
  NoDup (map r_op (d_replies d)) ->
  (forall r, In r (d_replies d) -> exists w', find_w (r_op r) (s_pending m) = Some w' /\
     (r_err r = 0 -> r = mk_reply w' /\ w_target w' <> 0
                     /\ (w_mode w' = CommitModeQuorum -> w_target w' <= s_hw m))) ->
  (forall d0, admitted_ids e d0 = []) -> step_facts s e s' d.
Proof.
  intros HI Wm Tm Hm Hh Hl Hc S B D C Ha.
  destruct (same_watermarks _ _ S) as [Hh' [Hl' Hc']].
  assert (P : forall w, In w (s_pending s') -> In w (s_pending m)).
  { intros w Hw. rewrite B in Hw. apply del_ids_In in Hw. tauto. }
  constructor.
  - split; [eapply WM_same; eassumption|]. unfold TG. rewrite Forall_forall in *.
    intros w Hw. apply Tm, P, Hw.
  - rewrite Hh'. exact Hh.
  - rewrite Hl'. exact Hl.
  - rewrite Hc'. exact Hc.
  - intros r Hr. destruct (C r Hr) as [w' [F' Q]]. destruct (Hm _ _ F') as [w [F M]].
    exists w. split; [exact F|]. split.
    + rewrite B. intro Hin. apply ids_del_ids in Hin. destruct Hin as [_ Hin]. apply Hin, in_map, Hr.
    + intro E0. destruct (Q E0) as [E [T Hq]]. exists w'.
      split; [exact (find_w_op _ _ _ F')|]. split; [exact M|]. subst r. cbn [mk_reply r_items].
      split; [reflexivity|]. split; [exact T|]. split.
      * intros q Hq'. rewrite Forall_forall in Tm. exact (Tm w' (find_w_In _ _ _ F') T q Hq').
      * intro Mq. rewrite Hh'. apply Hq. rewrite M. exact Mq.
  - exact D.
  - intros x Hx. left. unfold pend_ids in Hx. apply in_map_iff in Hx. destruct Hx as [w [E Hw]].
    apply P in Hw. assert (Hi : In x (pend_ids (s_pending m))) by (subst x; apply in_map; exact Hw).
    destruct (ids_find_some _ _ Hi) as [w' F']. destruct (Hm _ _ F') as [w0 [F0 _]].
    exact (find_w_some_ids _ _ _ F0).
  - rewrite Ha. intros x [].
  - rewrite Ha. constructor.
Qed.

Lemma facts_via_fail s e err s' d :
  err <> 0 -> fail_inflight s err = (s', d) -> (forall d0, admitted_ids e d0 = []) ->
  Inv s -> step_facts s e s' d.
Proof.
  intros He Hf Ha HI. destruct (fail_inflight_spec _ _ _ _ Hf) as [S [B [D C]]].
  apply (facts_via_sweep s e s s' d); try assumption; try apply N.le_refl; try reflexivity; try apply HI.
  - intros a w' F. exists w'. split; [exact F|reflexivity].
  - intros r Hr. destruct (C r Hr) as [[w F] [E _]]. exists w. split; [exact F|].
    intro E0. destruct He. rewrite <- E. exact E0.
Qed.

Lemma facts_via_complete s e m order s' rs d :
  Inv s -> WM m -> Forall tgt_ok (s_pending m) ->
  (forall a w', find_w a (s_pending m) = Some w' ->
                exists w, find_w a (s_pending s) = Some w /\ w_mode w' = w_mode w) ->
  s_hw s <= s_hw m -> s_leo s <= s_leo m -> s_cp m = s_cp s ->
  complete_waiters m order = (s', rs) -> d_replies d = rs -> (forall d0, admitted_ids e d0 = []) ->
  step_facts s e s' d.
Proof.
  intros HI Wm Tm Hm Hh Hl Hc Hcw Hd Ha. subst rs.
  destruct (complete_waiters_spec _ _ _ _ Hcw) as [S [_ [B [D C]]]].
  apply (facts_via_sweep s e m s' d); try assumption.
  intros r Hr. destruct (C r Hr) as [w' [F' [E [T Q]]]]. exists w'. split; [exact F'|]. intros _. auto.
Qed.

Lemma apply_meta_error s m : validate_meta s m <> 0 -> apply_meta s m = (s, dec_err (validate_meta s m)).
Proof. intro He. unfold apply_meta. destruct (validate_meta s m); [destruct He; reflexivity|reflexivity]. Qed.

Lemma validate_meta_rejects s m :
  meta_older s m || meta_leader_switch s m = true -> validate_meta s m <> 0.
Proof.
  unfold meta_older, meta_leader_switch, validate_meta. intro H.
  destruct (negb (m_key m =? 0) && negb (m_key m =? s_key s)); [discriminate|].
  destruct (negb (s_id s =? 0) && negb (m_id m =? s_id s)); [discriminate|].
  destruct ((m_epoch m <? s_epoch s) || (m_epoch m =? s_epoch s) && (m_lepoch m <? s_lepoch s));
    [discriminate|].
  cbn [orb] in H. rewrite H. discriminate.
Qed.

Lemma meta_rejected s m :
  meta_older s m || meta_leader_switch s m = true ->
  exists e, e <> 0 /\ apply_meta s m = (s, dec_err e).
Proof.
  intro H. exists (validate_meta s m). pose proof (validate_meta_rejects s m H) as V.
  split; [exact V|]. exact (apply_meta_error s m V).
Qed.

Lemma apply_meta_facts s m s' d :
  apply_meta s m = (s', d) -> Inv s -> step_facts s (EvMeta m) s' d.
Proof.
  intros H HI. unfold apply_meta in H. destruct (validate_meta s m) eqn:V;
    [|inversion H; subst s' d; apply unchanged_facts; [exact HI|reflexivity|reflexivity]].
  destruct HI as [[W1 [W2 W3]] T].
  (* LEO, HW and CP stay; PendingAppends stays or is cleared; a new leader's own match becomes LEO *)
  assert (Tc : Forall tgt_ok (if should_clear s m then [] else s_pending s))
    by (destruct (should_clear s m); [constructor|exact T]).
  assert (Pc : forall x, In x (pend_ids (if should_clear s m then [] else s_pending s)) ->
                         In x (pend_ids (s_pending s)))
    by (destruct (should_clear s m); [intros x []|auto]).
  destruct (m_status m =? StatusDeleted); inversion H; subst s' d; clear H;
    apply quiet_facts; st; try apply N.le_refl; try reflexivity; try exact Pc;
    (split; [|exact Tc]); unfold WM, prog_le; st; (split; [exact W1|]); (split; [exact W2|]); [exact W3|].
  destruct (m_leader m =? s_local s); [|exact W3].
  intro n. rewrite pr_get_set. destruct (n =? s_local s); [apply N.le_refl|apply W3].
Qed.

Lemma propose_facts s batch ws e s' d :
  propose_batch s batch ws = (s', d) ->
  (forall d0, admitted_ids e d0 = if accepted d0 then map b_op ws else []) ->
  Inv s -> step_facts s e s' d.
Proof.
  intros H Ha HI.
  destruct (propose_cases s batch ws) as [[d0 [E [Ht Hr]]]|[pend' [ord' [t [C [A E]]]]]];
    rewrite E in H; inversion H; subst s' d; clear H E.
  { apply unchanged_facts; [exact HI|exact Hr|]. rewrite Ha. unfold accepted. rewrite Ht, andb_false_r. reflexivity. }
  destruct (propose_check_ok _ _ _ C) as [ND F].
  destruct (propose_admit_spec _ _ _ _ _ A) as [P T].
  destruct HI as [W TGs].
  assert (Hadm : admitted_ids e (Decision 0 false (Some t) [] 0) = map b_op ws) by (rewrite Ha; reflexivity).
  constructor; st.
  - split; [apply WM_set_app; exact W|]. unfold TG; st. apply T. exact TGs.
  - apply N.le_refl.
  - apply N.le_refl.
  - reflexivity.
  - cbn [d_replies]. intros r [].
  - cbn [d_replies map]. constructor.
  - intros x Hx. rewrite Hadm. apply P. exact Hx.
  - intros x Hx. rewrite Hadm in Hx. apply in_map_iff in Hx. destruct Hx as [b [E Hb]].
    subst x. apply (F b Hb).
  - rewrite Hadm. exact ND.
Qed.

Lemma cancel_facts s op s' d :
  cancel_waiter s op = (s', d) -> Inv s -> step_facts s (EvCancel op) s' d.
Proof.
  intros H HI. unfold cancel_waiter in H. destruct (find_w op (s_pending s)) as [w0|].
  - inversion H; subst s' d. clear H. apply quiet_facts; st; try apply N.le_refl; try reflexivity.
    + eapply Inv_same; [apply same_but_app_set_app| |exact HI]. st.
      intros w Hw. apply del_w_In in Hw. tauto.
    + intros x Hx. apply ids_del_w in Hx. tauto.
  - inversion H; subst s' d. apply unchanged_facts; [exact HI|reflexivity|reflexivity].
Qed.

Lemma abort_facts s batch s' d :
  abort_batch s batch = (s', d) -> Inv s -> step_facts s (EvAbort batch) s' d.
Proof.
  intros H HI. unfold abort_batch in H. destruct (s_infl s) as [f|].
  - destruct (f_op f =? batch).
    + inversion H; subst s' d. clear H. apply quiet_facts; st; try apply N.le_refl; try reflexivity.
      * eapply Inv_same; [apply same_but_app_set_app| |exact HI]. st.
        intros w Hw. apply del_ids_In in Hw. tauto.
      * intros x Hx. apply ids_del_ids in Hx. tauto.
    + inversion H; subst s' d. apply unchanged_facts; [exact HI|reflexivity|reflexivity].
  - inversion H; subst s' d. apply unchanged_facts; [exact HI|reflexivity|reflexivity].
Qed.

Lemma stale_stored s f base last err :
  matches_fence s f = false -> apply_stored s f base last err = (s, dec_empty).
Proof. intro H. unfold apply_stored. rewrite H. reflexivity. Qed.

Lemma stale_quorum s f first last hw err :
  matches_fence s f = false -> apply_quorum s f first last hw err = (s, dec_empty).
Proof. intro H. unfold apply_quorum. rewrite H. reflexivity. Qed.

(* Committing the in-flight batch [i]: offsets are assigned from [base] and LEO is raised to [last]
   ([assigned]); the caller moves the watermarks in its own way, to a state [s2]; then InflightAppend
   is reset and the waiters are completed ([finish]). *)
Definition assigned (s : state) (i : inflight) (base last : N) : state :=
  set_leo (set_app s (assign_loop (assign_offsets (f_recs i) base) 0 (f_ids i) (f_counts i) (s_pending s))
                   (s_order s) (Some i)) (N.max (s_leo s) last).

Definition finish (s2 : state) (i : inflight) (signals : N) : state * decision :=
  let (s', rs) := complete_waiters (set_app s2 (s_pending s2) (s_order s2) None) (f_ids i) in
  (s', Decision 0 false None rs signals).

Lemma stored_cases s f base last err :
  apply_stored s f base last err = (s, dec_empty)
  \/ (err <> 0 /\ apply_stored s f base last err = fail_inflight s err)
  \/ exists i, s_infl s = Some i /\
      apply_stored s f base last err =
      finish (let s1 := assigned s i base last in
              if s_role s1 =? RoleLeader
              then advance_hw (set_progress s1 (pr_set (s_local s1) (s_leo s1) (s_progress s1)))
              else s1) i 1.
Proof.
  unfold apply_stored. destruct (negb (matches_fence s f)); [left; reflexivity|].
  destruct (negb (err =? 0)) eqn:E; [right; left; split; [apply N.eqb_neq, negb_true_iff, E|reflexivity]|].
  destruct (s_infl s) as [i|]; [|left; reflexivity].
  right. right. exists i. split; reflexivity.
Qed.

Lemma quorum_cases s f first last hw err :
  apply_quorum s f first last hw err = (s, dec_empty)
  \/ (exists err', err' <> 0 /\ apply_quorum s f first last hw err = fail_inflight s err')
  \/ exists i, s_infl s = Some i /\ hw = last /\
      apply_quorum s f first last hw err =
      finish (let s1 := assigned s i first last in
              let s2 := set_hw s1 (N.max (s_hw s1) last) in
              set_progress s2 (pr_set (s_local s2) (N.max (pr_get (s_local s2) (s_progress s2)) last)
                                      (s_progress s2))) i 0.
Proof.
  unfold apply_quorum. destruct (negb (matches_fence s f)); [left; reflexivity|].
  destruct (negb (err =? 0)) eqn:E;
    [right; left; exists err; split; [apply N.eqb_neq, negb_true_iff, E|reflexivity]|].
  destruct (s_infl s) as [i|]; [|left; reflexivity]. cbv zeta.
  destruct ((first =? 0) || (N.of_nat (length (f_recs i)) =? 0) || (last <? first)
            || negb (last - first + 1 =? N.of_nat (length (f_recs i))) || negb (hw =? last)) eqn:C;
    [right; left; exists ELogConflict; split; [discriminate|reflexivity]|].
  apply orb_false_iff in C. destruct C as [_ C]. apply negb_false_iff, N.eqb_eq in C. subst hw.
  right. right. exists i. split; [reflexivity|]. split; [reflexivity|].
  (* both sides are the same term once [finish] and [assigned] are unfolded; left to conversion, the
     kernel unfolds the setters of one side first and compares normal forms *)
  unfold finish, assigned. cbv zeta. reflexivity.
Qed.

Lemma commit_facts s e i base last s2 signals s' d :
  finish s2 i signals = (s', d) -> Inv s ->
  (WM (assigned s i base last) -> WM s2) -> s_pending s2 = s_pending (assigned s i base last) ->
  s_hw (assigned s i base last) <= s_hw s2 -> s_leo s2 = s_leo (assigned s i base last) ->
  s_cp s2 = s_cp (assigned s i base last) ->
  (forall d0, admitted_ids e d0 = []) -> step_facts s e s' d.
Proof.
  unfold finish. intros H [W T] W2 P2 H2 L2 C2 Ha.
  destruct (complete_waiters (set_app s2 (s_pending s2) (s_order s2) None) (f_ids i)) as [s4 rs] eqn:CW.
  inversion H; subst s' d. clear H.
  destruct (assign_loop_spec (assign_offsets (f_recs i) base) (f_ids i) 0%nat (f_counts i) (s_pending s))
    as [_ [AF AT]].
  eapply facts_via_complete with (m := set_app s2 (s_pending s2) (s_order s2) None);
    [split; assumption| | | | | | |exact CW|reflexivity|exact Ha]; st.
  - apply WM_set_app, W2, WM_set_leo_max, W.
  - rewrite P2. apply AT, T.
  - rewrite P2. exact AF.
  - exact H2.
  - rewrite L2. apply N.le_max_l.
  - exact C2.
Qed.

Lemma apply_stored_facts s f base last err s' d :
  apply_stored s f base last err = (s', d) -> Inv s ->
  step_facts s (EvStored f base last err) s' d.
Proof.
  intros H HI. destruct (stored_cases s f base last err) as [E|[[Ne E]|[i [I E]]]]; rewrite E in H.
  - inversion H; subst. apply unchanged_facts; [exact HI|reflexivity|reflexivity].
  - eapply facts_via_fail; [exact Ne|exact H|reflexivity|exact HI].
  - eapply commit_facts; [exact H|exact HI| | | | | |reflexivity]; cbv zeta;
      (destruct (s_role _ =? RoleLeader); [|first [exact (fun W => W)|reflexivity|apply N.le_refl]]).
    (* the leader records its own LEO and advances HW: WM, PendingAppends, HW, LEO, CP in turn *)
    + intro W1. apply WM_advance_hw, WM_set_progress; [exact W1|apply N.le_refl].
    + rewrite advance_hw_eq. reflexivity.
    + eapply N.le_trans; [|apply advance_hw_mono]. apply N.le_refl.
    + rewrite advance_hw_eq. reflexivity.
    + rewrite advance_hw_eq. reflexivity.
Qed.

Lemma apply_quorum_facts s f first last hw err s' d :
  apply_quorum s f first last hw err = (s', d) -> Inv s ->
  step_facts s (EvQuorum f first last hw err) s' d.
Proof.
  intros H HI.
  destruct (quorum_cases s f first last hw err) as [E|[[e' [Ne E]]|[i [I [-> E]]]]]; rewrite E in H.
  - inversion H; subst. apply unchanged_facts; [exact HI|reflexivity|reflexivity].
  - eapply facts_via_fail; [exact Ne|exact H|reflexivity|exact HI].
  - eapply commit_facts; [exact H|exact HI| | | | | |reflexivity]; cbv zeta;
      [|unfold assigned; st; try reflexivity; apply N.le_max_l..].
    (* HW := max HW last <= max LEO last; the local match := max match last <= max LEO last *)
    intro W1. pose proof W1 as [_ [Wb Wc]].
    apply WM_set_progress; [apply WM_set_hw; [exact W1|apply N.le_max_l|]|]; unfold assigned in *; st.
    + apply N.max_le_compat_r. destruct HI as [[_ [Hb _]] _]. exact Hb.
    + apply N.max_lub; [|apply N.le_max_r]. exact (Wc (s_local s)).
Qed.

Lemma apply_follower_ack_facts s e follower off s' d :
  apply_follower_ack s follower off = (s', d) -> off <= s_leo s ->
  (forall d0, admitted_ids e d0 = []) -> Inv s -> step_facts s e s' d.
Proof.
  intros H Ho Ha HI. unfold apply_follower_ack in H.
  destruct (negb (s_role s =? RoleLeader) || negb (mem follower (s_replicas s)));
    [inversion H; subst; apply unchanged_facts; [exact HI|reflexivity|apply Ha]|].
  cbv zeta in H.
  match type of H with (match complete_waiters (advance_hw ?x) _ with _ => _ end) = _ =>
    set (s1 := x) in * end.
  destruct (complete_waiters (advance_hw s1) (s_order (advance_hw s1))) as [s3 rs] eqn:CW.
  inversion H; subst s' d. clear H.
  destruct HI as [W T].
  assert (H1 : WM s1 /\ s_pending s1 = s_pending s /\ s_hw s1 = s_hw s /\ s_leo s1 = s_leo s
               /\ s_cp s1 = s_cp s).
  { unfold s1. destruct (pr_get follower (s_progress s) <? off).
    - st. split; [apply WM_set_progress; assumption|]. repeat split.
    - split; [exact W|]. repeat split. }
  destruct H1 as [W1 [P1 [Hh1 [Hl1 Hc1]]]].
  pose proof (advance_hw_mono s1) as Mo.
  eapply facts_via_complete with (m := advance_hw s1); try exact CW.
  - split; assumption.
  - apply WM_advance_hw. exact W1.
  - rewrite advance_hw_eq; st. rewrite P1. exact T.
  - rewrite advance_hw_eq; st. rewrite P1. intros a w' F. exists w'. split; [exact F|reflexivity].
  - rewrite <- Hh1. exact Mo.
  - rewrite advance_hw_eq; st. rewrite Hl1. apply N.le_refl.
  - rewrite advance_hw_eq; st. exact Hc1.
  - reflexivity.
  - exact Ha.
Qed.

(* every route either rejects the ack, ignores a zero offset, or is ApplyFollowerAck under the
   reactor's guard [off <= LEO] *)
Definition ack_outcome (s : state) (follower off : N) (x : state * decision) : Prop :=
  (exists e, e <> 0 /\ x = (s, dec_err e)) \/ (off = 0 /\ x = (s, dec_empty))
  \/ (off <= s_leo s /\ x = apply_follower_ack s follower off).

Lemma step_ack_cases s r key epoch lepoch follower off ver_ok :
  ack_outcome s follower off (step_ack s r key epoch lepoch follower off ver_ok).
Proof.
  assert (R : forall e, e <> 0 -> ack_outcome s follower off (s, dec_err e)).
  { intros e He. left. exists e. split; [exact He|reflexivity]. }
  assert (A : off <= s_leo s -> ack_outcome s follower off (apply_follower_ack s follower off)).
  { intro G. right. right. split; [exact G|reflexivity]. }
  (* the common tail of the progress and pull routes *)
  assert (T : ack_outcome s follower off
                (if off =? 0 then (s, dec_empty)
                 else if negb (off <=? s_leo s) then (s, dec_err EStaleMeta)
                 else apply_follower_ack s follower off)).
  { destruct (off =? 0) eqn:Z; [right; left; split; [apply N.eqb_eq, Z|reflexivity]|].
    destruct (off <=? s_leo s) eqn:G; [apply A, N.leb_le, G|apply R; discriminate]. }
  unfold step_ack, ack_guard. destruct r.
  - destruct (off <=? s_leo s) eqn:G; [apply A, N.leb_le, G|apply R; discriminate].
  - destruct (_ || _ || _); [apply R; discriminate|exact T].
  - destruct (_ || _ || _); [apply R; discriminate|].
    destruct (negb ver_ok || negb (off =? s_leo s)) eqn:G; [apply R; discriminate|].
    destruct (follower =? s_local s); [apply R; discriminate|].
    apply orb_false_iff in G. destruct G as [_ G]. apply negb_false_iff, N.eqb_eq in G.
    apply A. rewrite G. apply N.le_refl.
  - destruct (negb (s_role s =? RoleLeader)); [apply R; discriminate|].
    destruct (negb (fence_cur s key epoch lepoch)); [apply R; discriminate|].
    destruct (wrap64 (s_leo s + 1) =? 0); [apply R; discriminate|].
    destruct (negb (mem follower (s_replicas s))); [apply R; discriminate|exact T].
Qed.

Lemma step_ack_facts s r key epoch lepoch follower off ver_ok s' d :
  step_ack s r key epoch lepoch follower off ver_ok = (s', d) -> Inv s ->
  step_facts s (EvAck r key epoch lepoch follower off ver_ok) s' d.
Proof.
  intros H HI.
  destruct (step_ack_cases s r key epoch lepoch follower off ver_ok) as [[e [_ E]]|[[_ E]|[G E]]];
    rewrite E in H.
  - inversion H; subst. apply unchanged_facts; [exact HI|reflexivity|reflexivity].
  - inversion H; subst. apply unchanged_facts; [exact HI|reflexivity|reflexivity].
  - eapply apply_follower_ack_facts; [exact H|exact G|reflexivity|exact HI].
Qed.

(* the reactor's guard: an ack above LEO changes nothing on any route *)
Lemma ack_over_leo_noop s r key epoch lepoch follower off ver_ok :
  s_leo s < off ->
  exists e, e <> 0 /\ step s (EvAck r key epoch lepoch follower off ver_ok) = (s, dec_err e).
Proof.
  intro Hlt. cbn [step].
  destruct (step_ack_cases s r key epoch lepoch follower off ver_ok) as [[e [N E]]|[[Z _]|[G _]]].
  - exists e. split; assumption.
  - subst off. destruct (N.nlt_0_r _ Hlt).
  - destruct (N.lt_irrefl _ (N.lt_le_trans _ _ _ Hlt G)).
Qed.

Theorem step_establishes_facts s e s' d : Inv s -> step s e = (s', d) -> step_facts s e s' d.
Proof.
  intros HI H. destruct e; cbn [step] in H.
  - apply apply_meta_facts; assumption.
  - eapply propose_facts; [exact H| |exact HI]. reflexivity.
  - eapply propose_facts; [exact H| |exact HI]. reflexivity.
  - apply apply_stored_facts; assumption.
  - apply apply_quorum_facts; assumption.
  - apply step_ack_facts; assumption.
  - apply cancel_facts; assumption.
  - apply abort_facts; assumption.
Qed.

Lemma Inv_init key local gen id leo hw cp :
  cp <= hw -> hw <= leo -> Inv (init_state key local gen id leo hw cp).
Proof.
  intros H1 H2. split.
  - unfold WM, prog_le, init_state; st. split; [exact H1|]. split; [exact H2|].
    intro n. cbn [pr_get]. apply N.le_0_l.
  - unfold TG, init_state; st. constructor.
Qed.

Lemma Inv_run_state : forall evs s, Inv s -> Inv (run_state s evs).
Proof.
  apply run_state_preserves. intros s e HI. destruct (step s e) as [s' d] eqn:E.
  exact (sf_inv _ _ _ _ (step_establishes_facts _ _ _ _ HI E)).
Qed.
