(* Proof/ReadBounds_trim.v — C10, part 2: the trim gate, monotone boundaries,
   and what a step may delete. *)
From WK Require Import Base.Base Base.Lists Gen.Consts_C10 Model.ReadBounds Proof.ReadBounds.
Open Scope N_scope.

Lemma fold_min_le (f : N -> N) : forall l a,
  fold_left (fun m x => if f x <? m then f x else m) l a <= a
  /\ forall n, In n l -> fold_left (fun m x => if f x <? m then f x else m) l a <= f n.
Proof.
  induction l as [|x l IH]; intros a; cbn [fold_left].
  - split; [lia | intros n []].
  - destruct (IH (if f x <? a then f x else a)) as [H1 H2].
    destruct (f x <? a) eqn:E.
    + apply N.ltb_lt in E. split; [lia|]. intros n [Hn|Hn]; [subst; exact H1 | apply H2; exact Hn].
    + apply N.ltb_ge in E. split; [exact H1|]. intros n [Hn|Hn]; [subst; lia | apply H2; exact Hn].
Qed.

Lemma minISR_le st n : In n (r_isr st) -> minISRMatchOffset st <= isr_match st n.
Proof.
  unfold minISRMatchOffset. destruct (r_isr st) as [|a l]; [intros []|].
  destruct (fold_min_le (isr_match st) l (isr_match st a)) as [H1 H2].
  intros [Hn|Hn]; [subst; exact H1 | apply H2; exact Hn].
Qed.

Theorem trim_gated st through c :
  retentionTrimDecision st through = (true, c) ->
  through <> 0 /\ r_phys st < through
  /\ through <= r_hw st /\ through <= r_ckpt st /\ through <= r_leo st
  /\ (r_role st = RoleLeader -> forall n, In n (r_isr st) -> through <= isr_match st n).
Proof.
  unfold retentionTrimDecision.
  destruct (through =? 0) eqn:E0; [discriminate|].
  destruct (through <=? r_phys st) eqn:E1; [discriminate|].
  destruct (r_hw st <? through) eqn:E2; [discriminate|].
  destruct (r_ckpt st <? through) eqn:E3; [discriminate|].
  destruct (r_leo st <? through) eqn:E4; [discriminate|].
  destruct ((r_role st =? RoleLeader) && (minISRMatchOffset st <? through)) eqn:E5; [discriminate|].
  intros _. apply N.eqb_neq in E0. apply N.leb_gt in E1.
  apply N.ltb_ge in E2, E3, E4.
  repeat split; auto.
  intros Hr n Hn. apply andb_false_iff in E5. destruct E5 as [E5|E5].
  - rewrite Hr, N.eqb_refl in E5. discriminate.
  - apply N.ltb_ge in E5. pose proof (minISR_le st n Hn). lia.
Qed.

Lemma known_progress_match st n m : known_progress st n = Some m -> isr_match st n = m.
Proof.
  unfold known_progress, isr_match. destruct (n =? r_node st).
  - intro H; inversion H; reflexivity.
  - intro H; rewrite H; reflexivity.
Qed.

Theorem trim_gated_known_progress st through c :
  retentionTrimDecision st through = (true, c) -> r_role st = RoleLeader ->
  forall n m, In n (r_isr st) -> known_progress st n = Some m -> through <= m.
Proof.
  intros H Hr n m Hn Hk. apply trim_gated in H. destruct H as (_ & _ & _ & _ & _ & H).
  rewrite <- (known_progress_match st n m Hk). apply H; assumption.
Qed.

(* the decision does not read RetentionThroughSeq except through unknown members *)
Lemma known_progress_with_retention st v n : known_progress (with_retention st v) n = known_progress st n.
Proof. reflexivity. Qed.

Lemma trim_gated_gate_ok st v through c d :
  retentionTrimDecision (with_retention st v) through = (true, c) -> d <= through -> gate_ok st d = true.
Proof.
  intros H Hd. pose proof (trim_gated_known_progress _ _ _ H) as Hk.
  apply trim_gated in H. destruct H as (_ & _ & H1 & H2 & H3 & _). cbn in H1, H2, H3.
  unfold gate_ok. repeat (apply andb_true_iff; split); try (apply N.leb_le; lia).
  destruct (r_role st =? RoleLeader) eqn:Er; [|reflexivity]. cbn [negb orb].
  apply N.eqb_eq in Er. apply forallb_forall. intros n Hn.
  destruct (known_progress st n) as [m|] eqn:Ek; [|reflexivity].
  apply N.leb_le. specialize (Hk Er n m Hn Ek). lia.
Qed.

Lemma StoreCheckpoint_same s hw :
  s_rows (StoreCheckpoint s hw) = s_rows s /\ s_local (StoreCheckpoint s hw) = s_local s
  /\ s_phys (StoreCheckpoint s hw) = s_phys s /\ s_leo (StoreCheckpoint s hw) = s_leo s
  /\ s_rmax (StoreCheckpoint s hw) = s_rmax s /\ s_ckpt s <= s_ckpt (StoreCheckpoint s hw).
Proof.
  unfold StoreCheckpoint. destruct (hw <=? s_ckpt s) eqn:E; cbn; repeat split; try lia.
  all: apply N.leb_gt in E; lia.
Qed.

Lemma Adopt_spec s through s1 e rmax :
  AdoptRetentionBoundary s through = (s1, e, rmax) ->
  s_rows s1 = s_rows s /\ s_local s <= s_local s1 /\ s_phys s1 = s_phys s
  /\ s_leo s <= s_leo s1 /\ s_ckpt s1 = s_ckpt s /\ s_rmax s <= s_rmax s1
  /\ (e = 0 -> through <= s_local s1 /\ rmax = s_rmax s1).
Proof.
  unfold AdoptRetentionBoundary. destruct (through =? 0) eqn:E0.
  - intro H; inversion H; subst. repeat split; try lia; try (intro; discriminate).
  - intro H; inversion H; subst; clear H. cbn.
    repeat split; try lia.
    destruct (s_leo s <? N.max (s_rmax s) (N.max (s_leo s) through)) eqn:E; [apply N.ltb_lt in E|]; lia.
Qed.

Lemma last_seq_le bound : forall l d,
  d <= bound -> (forall r, In r l -> row_seq r <= bound) -> last_seq l d <= bound.
Proof.
  induction l as [|x l IH]; intros d Hd H; cbn [last_seq]; [exact Hd|].
  apply IH; [apply H; left; reflexivity | intros r Hr; apply H; right; exact Hr].
Qed.

Lemma filter_mem_seq_gone rows del r :
  In r rows -> ~ In r (filter (fun r => negb (mem_seq (row_seq r) del)) rows) ->
  exists d, In d del /\ row_seq d = row_seq r.
Proof.
  intros Hr Hn. destruct (mem_seq (row_seq r) del) eqn:Em.
  - apply existsb_exists in Em. destruct Em as (d & Hd & E). apply N.eqb_eq in E. eauto.
  - exfalso. apply Hn, filter_In. split; [exact Hr | rewrite Em; reflexivity].
Qed.

(* only rows in (physical, through] are deleted, and only below the adopted boundary *)
Definition trim_post (s : store) (through : N) (s1 : store) (e : N) : Prop :=
  s_local s1 = s_local s /\ s_phys s <= s_phys s1 /\ s_leo s <= s_leo s1
  /\ s_ckpt s1 = s_ckpt s /\ s_rmax s <= s_rmax s1 /\ s_phys s1 <= N.max (s_phys s) through
  /\ (forall r, In r (s_rows s1) -> In r (s_rows s))
  /\ (forall r, In r (s_rows s) -> ~ In r (s_rows s1) ->
        e = 0 /\ s_phys s < row_seq r /\ row_seq r <= through /\ through <= s_local s).

Lemma trim_post_refl s through e : trim_post s through s e.
Proof. unfold trim_post. repeat split; try lia; auto; contradiction. Qed.

Lemma Trim_spec s through mm mb s1 e tr :
  TrimMessagesThrough s through mm mb = (s1, e, tr) -> trim_post s through s1 e.
Proof.
  unfold TrimMessagesThrough.
  destruct (through =? 0) eqn:E0; [intros [= <- <- _]; apply trim_post_refl|].
  destruct (s_local s <? through) eqn:E1; [intros [= <- <- _]; apply trim_post_refl|].
  destruct (s_phys s =? MaxUint64); [intros [= <- <- _]; apply trim_post_refl|].
  apply N.eqb_neq in E0. apply N.ltb_ge in E1.
  set (rows := readRows s (s_phys s + 1) through _ mb).
  set (over := (0 <? mm)%Z && (mm <? Z.of_nat (length rows))%Z).
  set (deleteRows := if over then firstn (Z.to_nat mm) rows else rows).
  set (more := over || _).
  set (rmax := if s_rmax s <? s_leo s then s_leo s else s_rmax s).
  set (phys := if negb more && (s_phys s <? through) then through
               else if s_phys s <? last_seq deleteRows 0 then last_seq deleteRows 0 else s_phys s).
  (* every deleted row was read from (physical, through] *)
  assert (Hdel : forall r, In r deleteRows -> In r (s_rows s) /\ s_phys s < row_seq r /\ row_seq r <= through).
  { intros r Hr. assert (Hr' : In r rows) by (unfold deleteRows in Hr; destruct over; [apply In_firstn in Hr|]; exact Hr).
    apply readRows_spec in Hr'. destruct Hr' as (A & B & C). repeat split; auto; lia. }
  assert (Hlast : last_seq deleteRows 0 <= through) by (apply last_seq_le; [lia | intros r Hr; apply Hdel, Hr]).
  assert (Hphys : s_phys s <= phys /\ phys <= N.max (s_phys s) through).
  { unfold phys. destruct (negb more && (s_phys s <? through)) eqn:Ea.
    - apply andb_true_iff in Ea. destruct Ea as [_ Ea]. apply N.ltb_lt in Ea. lia.
    - destruct (s_phys s <? last_seq deleteRows 0) eqn:Eb; [apply N.ltb_lt in Eb|]; lia. }
  assert (Hrmax : s_rmax s <= rmax) by (unfold rmax; destruct (s_rmax s <? s_leo s) eqn:Ea; [apply N.ltb_lt in Ea|]; lia).
  destruct (negb (validateRetentionState (s_local s) phys rmax)); [intros [= <- <- _]; apply trim_post_refl|].
  intros [= <- <- _]. unfold trim_post. cbn [s_rows s_leo s_ckpt s_local s_phys s_rmax].
  do 6 (split; [lia|]). split; [intros r Hr; apply filter_In in Hr; tauto|].
  intros r Hr Hn. destruct (filter_mem_seq_gone _ _ r Hr Hn) as (d & Hd & Ed).
  destruct (Hdel d Hd) as (_ & A & B). repeat split; lia.
Qed.

Definition boundaries_le (y y1 : sys) : Prop :=
  s_local (y_store y) <= s_local (y_store y1)
  /\ s_phys (y_store y) <= s_phys (y_store y1)
  /\ r_retention (y_r y) <= r_retention (y_r y1)
  /\ r_local (y_r y) <= r_local (y_r y1)
  /\ r_phys (y_r y) <= r_phys (y_r y1).

(* what a row deleted by a step satisfies; for an Apply, [deletion_ok_decision] gives the usable form *)
Definition deletion_ok (y : sys) (o : op) (r : row) : Prop :=
  match o with
  | OApply through _ _ =>
      exists c, retentionTrimDecision
                  (if r_retention (y_r y) <? through then with_retention (y_r y) through else y_r y)
                  through = (true, c)
                /\ row_seq r <= through
  | OTrim through _ _ => row_seq r <= through /\ through <= s_local (y_store y)
  | _ => False
  end.

(* the trim of an Apply runs only when the decision allows it, and deletes at or below the request *)
Lemma optional_trim_spec (allowed : bool) s1 through mm mb s2 e2 tr :
  (if allowed then TrimMessagesThrough s1 through mm mb else (s1, 0, no_trim)) = (s2, e2, tr) ->
  s_local s2 = s_local s1 /\ s_phys s1 <= s_phys s2 /\ s_leo s1 <= s_leo s2
  /\ (forall r, In r (s_rows s2) -> In r (s_rows s1))
  /\ (forall r, In r (s_rows s1) -> ~ In r (s_rows s2) -> allowed = true /\ row_seq r <= through).
Proof.
  intro E. destruct allowed.
  - destruct (Trim_spec _ _ _ _ _ _ _ E) as (T1 & T2 & T3 & _ & _ & _ & T6 & T7).
    repeat split; auto. apply (T7 r); assumption.
  - injection E as <- _ _. repeat split; auto; try lia; contradiction.
Qed.

Lemma optional_checkpoint_same (b : bool) s hw :
  let s3 := if b then StoreCheckpoint s hw else s in
  s_rows s3 = s_rows s /\ s_local s3 = s_local s /\ s_phys s3 = s_phys s /\ s_leo s3 = s_leo s.
Proof. destruct b; cbn zeta; [|auto]. destruct (StoreCheckpoint_same s hw) as (? & ? & ? & ? & _). auto. Qed.

Definition is_RApply (r : res) : bool :=
  match r with RApply _ _ _ _ _ _ _ _ _ _ _ => true | _ => false end.

(* the one walk through the branches of [apply_retention] *)
Lemma apply_retention_spec y through mm mb y1 res :
  apply_retention y through mm mb = (y1, res) ->
  boundaries_le y y1
  /\ s_leo (y_store y) <= s_leo (y_store y1)
  /\ (forall r, In r (s_rows (y_store y1)) -> In r (s_rows (y_store y)))
  /\ (forall r, In r (s_rows (y_store y)) -> ~ In r (s_rows (y_store y1)) -> deletion_ok y (OApply through mm mb) r)
  /\ is_RApply res = true
  /\ (through <> 0 -> r_retention (y_r y1) = N.max (r_retention (y_r y)) through).
Proof.
  unfold apply_retention, boundaries_le.
  destruct (through =? 0) eqn:E0.
  { apply N.eqb_eq in E0. intros [= <- <-]. repeat split; auto; try lia; contradiction. }
  set (st1 := if r_retention (y_r y) <? through then with_retention (y_r y) through else y_r y).
  assert (Hst1 : r_retention st1 = N.max (r_retention (y_r y)) through
                 /\ r_local st1 = r_local (y_r y) /\ r_phys st1 = r_phys (y_r y)).
  { unfold st1. destruct (r_retention (y_r y) <? through) eqn:E; [apply N.ltb_lt in E | apply N.ltb_ge in E]; cbn;
      repeat split; lia. }
  destruct Hst1 as (Hr1 & Hr2 & Hr3).
  destruct (_ && _); [intros [= <- <-]; cbn; repeat split; auto; try lia; contradiction|].
  destruct (retentionTrimDecision st1 through) as [allowed reason] eqn:Ed.
  destruct (AdoptRetentionBoundary (y_store y) through) as [[s1 e1] rmax1] eqn:Ea.
  destruct (Adopt_spec _ _ _ _ _ Ea) as (A1 & A2 & A3 & A4 & _).
  destruct (if allowed then _ else _) as [[s2 e2] tr] eqn:Et.
  destruct (optional_trim_spec _ _ _ _ _ _ _ _ Et) as (T1 & T2 & T3 & T6 & T7).
  (* the retention-owned checkpoint touches neither rows nor boundaries *)
  destruct (optional_checkpoint_same ((reason =? 2) && (through <=? r_leo st1)) s2 through) as (S1 & S2 & S3 & S4).
  cbv zeta in S1, S2, S3, S4.
  destruct (negb (e2 =? 0)); intros [= <- <-]; cbn [y_store y_r r_retention r_local r_phys is_RApply];
    (split; [repeat split; lia|]; split; [lia|]; split; [|split; [|split; [reflexivity | intros _; exact Hr1]]];
     [ intros r Hr; rewrite S1 in Hr; rewrite <- A1; auto
     | intros r Hr Hn; rewrite S1 in Hn; rewrite <- A1 in Hr;
       destruct (T7 r Hr Hn) as (-> & Hle); exists reason; split; [exact Ed | exact Hle] ]).
Qed.

(* what one step of any kind does to the boundaries and to the rows: boundaries and LEO never
   decrease, a row disappears only as [deletion_ok] allows, an append adds its rows at the end
   and no other step adds any *)
Lemma step_spec y o y1 res :
  step y o = (y1, res) ->
  boundaries_le y y1
  /\ s_leo (y_store y) <= s_leo (y_store y1)
  /\ (forall r, In r (s_rows (y_store y)) -> ~ In r (s_rows (y_store y1)) -> deletion_ok y o r)
  /\ match o with
     | OAppend sizes flags =>
         s_rows (y_store y1) = s_rows (y_store y) ++ new_rows (s_leo (y_store y)) sizes flags
         /\ s_leo (y_store y1) = s_leo (y_store y) + N.of_nat (length sizes)
         /\ res = RAppend 0 (s_leo (y_store y) + 1) (s_leo (y_store y) + N.of_nat (length sizes))
     | _ => forall r, In r (s_rows (y_store y1)) -> In r (s_rows (y_store y))
     end.
Proof.
  unfold boundaries_le. destruct o; cbn [step].
  - unfold AppendLeader. intros [= <- <-]. cbn. repeat split; try lia.
    intros r Hr Hn. apply Hn, in_or_app. left; exact Hr.
  - intros [= <- <-]. cbn. repeat split; try lia; auto; contradiction.
  - pose proof (StoreCheckpoint_same (y_store y) v) as (C1 & C2 & C3 & C4 & _).
    intros [= <- <-]. cbn [y_store y_r r_retention r_local r_phys]. rewrite C1. repeat split; try lia; auto; contradiction.
  - intros [= <- <-]. cbn. repeat split; try lia; auto; contradiction.
  - intro H. apply apply_retention_spec in H. unfold boundaries_le in H. tauto.
  - destruct (AdoptRetentionBoundary (y_store y) through) as [[s1 e] rmax] eqn:Ea.
    destruct (Adopt_spec _ _ _ _ _ Ea) as (A1 & A2 & A3 & A4 & _).
    intros [= <- <-]. cbn [y_store y_r]. rewrite A1. repeat split; try lia; auto; contradiction.
  - destruct (TrimMessagesThrough (y_store y) through maxMessages maxBytes) as [[s1 e] tr] eqn:Et.
    destruct (Trim_spec _ _ _ _ _ _ _ Et) as (T1 & T2 & T3 & _ & _ & _ & T6 & T7).
    intros [= <- <-]. cbn [y_store y_r]. split; [repeat split; lia|]. split; [lia|]. split; [|exact T6].
    intros r Hr Hn. destruct (T7 r Hr Hn) as (_ & _ & A & B). split; assumption.
  - destruct (readLocalCommitted (y_store y) q retention minISR) as [msgs nx].
    intros [= <- <-]. repeat split; try lia; auto; contradiction.
  - destruct (SyncMessages (y_store y) (mkQuery start endSeq minSeq limit mode) retention minISR) as [seqs more].
    intros [= <- <-]. repeat split; try lia; auto; contradiction.
Qed.

Fixpoint run (y : sys) (ops : list op) : sys :=
  match ops with
  | [] => y
  | o :: rest => run (fst (step y o)) rest
  end.

Theorem run_boundaries_le : forall ops y, boundaries_le y (run y ops).
Proof.
  induction ops as [|o ops IH]; intro y; cbn [run].
  - unfold boundaries_le. repeat split; lia.
  - destruct (step y o) as [y1 res] eqn:E. cbn [fst].
    apply step_spec in E. destruct E as (A & _). specialize (IH y1).
    unfold boundaries_le in *. intuition lia.
Qed.

(* the decision of an Apply runs on the runtime state it started from, RetentionThroughSeq possibly raised *)
Lemma deletion_ok_decision y through mm mb r :
  deletion_ok y (OApply through mm mb) r ->
  exists v c, retentionTrimDecision (with_retention (y_r y) v) through = (true, c) /\ row_seq r <= through.
Proof.
  cbn [deletion_ok]. intros (c & Hd & Hle). destruct (r_retention (y_r y) <? through).
  - exists through, c. auto.
  - exists (r_retention (y_r y)), c. destruct (y_r y); auto.
Qed.

Theorem apply_deletion_gated y through mm mb r :
  deletion_ok y (OApply through mm mb) r ->
  let st := y_r y in
  row_seq r <= r_hw st /\ row_seq r <= r_ckpt st /\ row_seq r <= r_leo st
  /\ (r_role st = RoleLeader ->
      forall n m, In n (r_isr st) -> known_progress st n = Some m -> row_seq r <= m).
Proof.
  intro H. destruct (deletion_ok_decision _ _ _ _ _ H) as (v & c & Hd & Hle). cbv zeta.
  pose proof (trim_gated_known_progress _ _ _ Hd) as Hk.
  apply trim_gated in Hd. destruct Hd as (_ & _ & H1 & H2 & H3 & _). cbn in H1, H2, H3.
  repeat split; try lia.
  intros Hr n m Hn Hkn. specialize (Hk Hr n m Hn Hkn). lia.
Qed.
