(* Proof/Membership_monitor.v —
   (1) every [c16_step] is a [reach] over [op_muts op], hence preserves [st_inv] and the
       coverage of the rows by the key alphabet;
   (2) each clause of [step_ok] holds of the model's step (the [*_model] lemmas), so
       [C16_monitor] is 0 on model runs, and on the pure resolvers;
   (3) a boundary classified by the folds contains a delete or a newer-source Upsert /
       Ensure of the key (for CMD rows: a live Upsert);
   (4) [listing_exact] / [pagination_exact] from any state satisfying [st_inv];
   and the concrete rows the Examples of Properties/C16.v use. *)
From WK Require Import Base.Base Base.Lists.
From Coq Require Import Sorting.Sorted.
From WK Require Import Gen.Consts_C16 Model.Membership Model.Membership_C16
  Proof.Membership Proof.Membership_C16 Proof.Membership_order Proof.Membership_scan.
Open Scope N_scope.

Lemma scan_pass_reach slot uid limits : forall fuel st between i cursor ps es st',
  scan_pass fuel st slot uid limits between i cursor = (ps, es, st') -> reach st between st'.
Proof.
  induction fuel as [|fuel IH]; intros st between i cursor ps es st'; cbn [scan_pass].
  { intros [= _ _ <-]. apply reach_all_skipped. }
  destruct (listUserChannelMembershipPage st slot uid cursor (nth_limit limits i)) as [[[rows next] done] err].
  destruct err; [|intros [= _ _ <-]; apply reach_all_skipped].
  destruct done; [intros [= _ _ <-]; apply reach_all_skipped|].
  destruct between as [|u between'].
  - destruct (scan_pass fuel st slot uid limits [] (S i) next) as [[ps' es'] st1] eqn:Hrec.
    intros [= _ _ <-]. exact (IH _ _ _ _ _ _ _ Hrec).
  - destruct (direct_apply st u) as [eu st1] eqn:Hdir.
    destruct (scan_pass fuel st1 slot uid limits between' (S i) next) as [[ps' es'] st2] eqn:Hrec.
    intros [= _ _ <-]. apply direct_apply_reach. rewrite Hdir. exact (IH _ _ _ _ _ _ _ Hrec).
Qed.

Lemma c16_step_reach st op o st' : c16_step st op = (o, st') -> reach st (op_muts op) st'.
Proof.
  destruct op as [u|ops|slot uid limits between]; cbn [c16_step op_muts].
  - destruct (direct_apply st u) as [e st1] eqn:Hd. intros [= _ <-].
    apply direct_apply_reach. rewrite Hd. constructor.
  - destruct (batch_build st ops) as [e w] eqn:Hb.
    destruct (db_err_eqb e ENone); intros [= _ <-]; [exact (batch_build_reach _ _ _ _ Hb)|apply reach_all_skipped].
  - destruct (scan_pass scan_fuel st slot uid limits between 0 page_cursor_zero) as [[ps es] st1] eqn:Hp.
    intros [= _ <-]. exact (scan_pass_reach _ _ _ _ _ _ _ _ _ _ _ Hp).
Qed.

Lemma exec_reach : forall ops st, reach st (flat_map op_muts ops) (c16_exec st ops).
Proof.
  induction ops as [|op r IH]; intro st; cbn [c16_exec flat_map]; [constructor|].
  destruct (c16_step st op) as [o st'] eqn:Hstep.
  exact (reach_app _ _ _ _ _ (c16_step_reach _ _ _ _ Hstep) (IH st')).
Qed.

Lemma reachable_inv ops : st_inv (c16_exec mstate_empty ops).
Proof. exact (reach_inv _ _ _ (exec_reach ops mstate_empty) st_inv_empty). Qed.

Lemma c16_exec_app : forall a b st, c16_exec st (a ++ b) = c16_exec (c16_exec st a) b.
Proof. induction a as [|op r IH]; intros b st; [reflexivity|]. cbn [app c16_exec]. apply IH. Qed.

(* every membership key a valid mutation addresses is in the alphabet *)
Definition mut_covered (mkeys : list mkey) (u : mut) : Prop :=
  forall k, mut_mkey u = Some k -> mut_valid u = true -> In k mkeys.

Definition op_covered (mkeys : list mkey) (op : c16_op) : Prop :=
  forall u, In u (op_muts op) -> mut_covered mkeys u.

Lemma mut_apply_covered mkeys st u :
  st_inv st -> rows_covered mkeys st -> mut_valid u = true -> mut_covered mkeys u ->
  rows_covered mkeys (snd (mut_apply st u)).
Proof.
  intros Hinv Hcov V Hu.
  destruct (mut_apply_effect st u Hinv) as [Er Ei|k next Hk Hkey ->|k Hk ->]; intros k' row H.
  - unfold get_row in H. rewrite Er in H. exact (Hcov k' row H).
  - rewrite get_row_stage in H.
    destruct (mkey_eqb_spec k k') as [<-|]; [exact (Hu k Hk V)|exact (Hcov k' row H)].
  - rewrite get_row_delete in H. destruct (mkey_eqb k k'); [discriminate|exact (Hcov k' row H)].
Qed.

Lemma reach_covered mkeys st us st' :
  reach st us st' -> st_inv st -> rows_covered mkeys st ->
  (forall u, In u us -> mut_covered mkeys u) -> rows_covered mkeys st'.
Proof.
  induction 1 as [st|st u r st' _ IH|st u r st' V _ IH]; intros Hinv Hcov Hus; [exact Hcov| |];
    apply IH; auto using mut_apply_inv, mut_apply_covered, in_eq, in_cons.
Qed.

Lemma membership_advances_iff a b : membership_advances a b = true <-> m_advances a b.
Proof.
  unfold membership_advances. rewrite !andb_true_iff, !N.leb_le. split.
  - intros [[H1 H2] H3]. constructor; assumption.
  - intros [H1 H2 H3]. repeat split; assumption.
Qed.

Lemma snapshot_eqb_refl s : snapshot_eqb s s = true.
Proof.
  unfold snapshot_eqb.
  rewrite !list_eqb_refl; auto using option_eqb_refl, membership_eqb_refl, cmd_membership_eqb_refl.
Qed.

Lemma snapshot_get_map {V} (f : mkey -> option V) keys k :
  snapshot_get keys (map f keys) k = if existsb (fun k' => mkey_eqb k' k) keys then f k else None.
Proof.
  induction keys as [|k' keys IH]; cbn [map snapshot_get existsb]; [reflexivity|].
  destruct (mkey_eqb_spec k' k) as [->|]; [reflexivity|exact IH].
Qed.

Lemma rows_step_ok_model us st st' : reach st us st' ->
  forall keys, rows_step_ok us keys (map (get_row st) keys) (map (get_row st') keys) = true.
Proof.
  intros Hreach. induction keys as [|k keys IH]; [reflexivity|].
  cbn [map rows_step_ok]. rewrite IH, andb_true_r.
  unfold row_step_ok. destruct (get_row st k) as [a|] eqn:Ha; [|reflexivity].
  destruct (membership_boundary k a us) eqn:Hb; [reflexivity|].
  destruct (membership_boundary_sound k a us st st' Hreach Ha Hb) as (b & -> & Hadv).
  apply membership_advances_iff. exact Hadv.
Qed.

Lemma cmds_step_ok_model us st st' : reach st us st' ->
  forall keys, cmds_step_ok us keys (map (get_cmd st) keys) (map (get_cmd st') keys) = true.
Proof.
  intros Hreach. induction keys as [|k keys IH]; [reflexivity|].
  cbn [map cmds_step_ok]. rewrite IH, andb_true_r.
  unfold cmd_step_ok. destruct (get_cmd st k) as [a|] eqn:Ha; [|reflexivity].
  destruct (cmd_boundary k a us) eqn:Hb; [reflexivity|].
  destruct (cmd_boundary_sound k a us st st' Hreach Ha Hb) as (b & -> & Hack).
  apply N.leb_le. exact Hack.
Qed.

Lemma upsert_stale_row st slot m a :
  get_row st (membership_key slot m) = Some a -> m_source_version m < m_source_version a ->
  get_row (snd (direct_apply st (MUpsert slot m))) (membership_key slot m) = Some a.
Proof.
  intros Hg Hlt. unfold direct_apply. destruct (mut_valid (MUpsert slot m)); [|exact Hg].
  cbn [mut_apply]. rewrite get_row_upsertWith, mkey_eqb_refl, Hg, resolve_upsert_stale by exact Hlt. reflexivity.
Qed.

Lemma ensure_stale_row st slot m a :
  get_row st (membership_key slot m) = Some a -> m_source_version m <= m_source_version a ->
  get_row (snd (direct_apply st (MEnsure slot m))) (membership_key slot m) = Some a.
Proof.
  intros Hg Hle. unfold direct_apply. destruct (mut_valid (MEnsure slot m)); [|exact Hg].
  cbn [mut_apply]. rewrite get_row_upsertWith, mkey_eqb_refl, Hg, resolve_ensure_stale by exact Hle. reflexivity.
Qed.

(* the clause for a key [k] whose row is kept whenever it passes the test [c] *)
Lemma stale_clause mkeys st st' k (c : membership -> bool) :
  (forall a, get_row st k = Some a -> c a = true -> get_row st' k = Some a) ->
  match snapshot_get mkeys (map (get_row st) mkeys) k with
  | Some a => if c a then option_eqb membership_eqb (snapshot_get mkeys (map (get_row st') mkeys) k) (Some a)
              else true
  | None => true
  end = true.
Proof.
  intro H. rewrite !snapshot_get_map. destruct (existsb _ mkeys); [|reflexivity].
  destruct (get_row st k) as [a|] eqn:Hg; [|reflexivity]. destruct (c a) eqn:C; [|reflexivity].
  rewrite (H a eq_refl C). apply membership_eqb_refl.
Qed.

Lemma stale_source_ok_model mkeys st op o st' :
  c16_step st op = (o, st') ->
  stale_source_ok mkeys (map (get_row st) mkeys) (map (get_row st') mkeys) op = true.
Proof.
  destruct op as [u| |]; try reflexivity. cbn [c16_step].
  destruct (direct_apply st u) as [e st1] eqn:Hd. intros [= _ <-].
  destruct u; try reflexivity; cbn [stale_source_ok].
  - apply (stale_clause mkeys st st1 _ (fun a => m_source_version m <? m_source_version a)).
    intros a Hg C. apply N.ltb_lt in C. pose proof (upsert_stale_row st slot m a Hg C) as H.
    rewrite Hd in H. exact H.
  - apply (stale_clause mkeys st st1 _ (fun a => m_source_version m <=? m_source_version a)).
    intros a Hg C. apply N.leb_le in C. pose proof (ensure_stale_row st slot m a Hg C) as H.
    rewrite Hd in H. exact H.
Qed.

Lemma c16_step_failed st op o st' : c16_step st op = (o, st') -> obs_failed o = true -> st' = st.
Proof.
  destruct op as [u|ops|slot uid limits between]; cbn [c16_step].
  - unfold direct_apply. destruct (mut_valid u); [|intros [= <- <-]; reflexivity].
    destruct (mut_apply st u) as [e st1] eqn:Hu. intros [= <- <-] C.
    apply (mut_apply_error _ _ _ _ Hu). intros ->. discriminate.
  - destruct (batch_build st ops) as [e w].
    destruct (db_err_eqb e ENone) eqn:He; intros [= <- <-]; [discriminate|reflexivity].
  - destruct (scan_pass scan_fuel st slot uid limits between 0 page_cursor_zero) as [[ps es] st1].
    intros [= <- <-]. discriminate.
Qed.

(* the guard under which [scan_ok] judges a pass, conjunct by conjunct *)
Lemma scan_guard_true uid limits between (rows : list membership) :
  validateKeyString uid && forallb (fun l => (0 <? l)%Z) limits
  && forallb (fun u => negb (bytes_eqb (mut_uid u) uid)) between
  && Nat.ltb (length rows) scan_fuel && forallb (fun m => (0 <=? m_activated_at m)%Z) rows = true ->
  validateKeyString uid = true /\ Forall (fun l => (0 < l)%Z) limits
  /\ Forall (fun u => bytes_eqb (mut_uid u) uid = false) between
  /\ (length rows < scan_fuel)%nat /\ forallb (fun m => (0 <=? m_activated_at m)%Z) rows = true.
Proof.
  rewrite !andb_true_iff, Nat.ltb_lt, !Forall_forall, !forallb_forall.
  intros [[[[Huid Hlimits] Hbetween] Hlen] Hact]. repeat split; auto.
  - intros l H. apply Z.ltb_lt, Hlimits, H.
  - intros u H. apply negb_true_iff, Hbetween, H.
Qed.

Lemma scan_ok_model mkeys st op o st' :
  NoDup mkeys -> st_inv st -> rows_covered mkeys st ->
  c16_step st op = (o, st') -> scan_ok mkeys (map (get_row st) mkeys) op o = true.
Proof.
  intros Hnd Hinv Hcov. destruct op as [u|ops|slot uid limits between]; cbn [c16_step].
  - destruct (direct_apply st u). intros [= <- _]. reflexivity.
  - destruct (batch_build st ops) as [e w]. destruct (db_err_eqb e ENone); intros [= <- _]; reflexivity.
  - destruct (scan_pass scan_fuel st slot uid limits between 0 page_cursor_zero) as [[ps es] st1] eqn:Hpass.
    intros [= <- _]. cbn [scan_ok].
    destruct (validateKeyString uid && _ && _ && _ && _) eqn:G; [|reflexivity].
    apply scan_guard_true in G. destruct G as (Huid & Hlimits & Hbetween & Hlen & Hact).
    rewrite (present_length st slot uid mkeys Hinv Hcov Hnd) in Hlen.
    destruct (scan_pass_spec slot uid limits Huid Hlimits scan_fuel st between 0 []
                (uid_entries st slot uid) ps es st1 Hinv Hbetween eq_refl
                (present_activation_nonneg st slot uid mkeys Hinv Hcov Hnd Hact) Hlen Hpass) as (-> & ->).
    rewrite (expected_listing_model st slot uid mkeys Hinv Hcov Hnd).
    apply list_eqb_refl, membership_eqb_refl.
Qed.

Lemma step_ok_model mkeys ckeys st op o st' :
  NoDup mkeys -> st_inv st -> rows_covered mkeys st -> c16_step st op = (o, st') ->
  step_ok mkeys ckeys (snapshot mkeys ckeys st) (op, o, snapshot mkeys ckeys st') = true.
Proof.
  intros Hnd Hinv Hcov Hstep. pose proof (c16_step_reach st op o st' Hstep) as Hreach.
  unfold step_ok, snapshot. cbn [fst snd].
  rewrite (rows_step_ok_model _ _ _ Hreach), (cmds_step_ok_model _ _ _ Hreach),
    (stale_source_ok_model mkeys st op o st' Hstep), (scan_ok_model mkeys st op o st' Hnd Hinv Hcov Hstep).
  cbn [andb]. rewrite andb_true_r.
  destruct (obs_failed o) eqn:Hf; [|reflexivity].
  rewrite (c16_step_failed st op o st' Hstep Hf). apply snapshot_eqb_refl.
Qed.

Definition ops_covered (mkeys : list mkey) (ops : list c16_op) : Prop :=
  forall op, In op ops -> op_covered mkeys op.

Lemma history_ok_model mkeys ckeys : NoDup mkeys -> forall ops st,
  st_inv st -> rows_covered mkeys st -> ops_covered mkeys ops ->
  history_ok mkeys ckeys (snapshot mkeys ckeys st) (c16_run mkeys ckeys st ops) = true.
Proof.
  intros Hnd. induction ops as [|op r IH]; intros st Hinv Hcov Hops; [reflexivity|].
  cbn [c16_run]. destruct (c16_step st op) as [o st'] eqn:Hstep.
  pose proof (c16_step_reach st op o st' Hstep) as Hreach.
  cbn [history_ok snd]. rewrite (step_ok_model mkeys ckeys st op o st' Hnd Hinv Hcov Hstep).
  apply IH; [exact (reach_inv _ _ _ Hreach Hinv)| |intros op' Hin; apply Hops; right; exact Hin].
  exact (reach_covered mkeys _ _ _ Hreach Hinv Hcov (Hops op (or_introl eq_refl))).
Qed.

Lemma history_model_satisfies_monitor mkeys ckeys ops :
  NoDup mkeys -> ops_covered mkeys ops ->
  C16_monitor (C16History mkeys ckeys (c16_run mkeys ckeys mstate_empty ops)) = 0.
Proof.
  intros Hnd Hops. cbn [C16_monitor].
  assert (E : (map (fun _ : mkey => @None membership) mkeys, map (fun _ : mkey => @None cmd_membership) ckeys)
              = snapshot mkeys ckeys mstate_empty).
  { unfold snapshot. f_equal; apply map_ext; intro k; reflexivity. }
  rewrite E, (history_ok_model mkeys ckeys Hnd ops mstate_empty st_inv_empty) by (auto; intros k row [=]).
  reflexivity.
Qed.

Lemma orb_unless (b c : bool) : (b = false -> c = true) -> b || c = true.
Proof. destruct b; auto. Qed.

Lemma resolve_model_satisfies_monitor ex exists_ inc :
  C16_monitor (C16Resolve ex exists_ inc (resolveUserChannelMembership ex exists_ inc)
                 (resolveEnsuredUserChannelMembership ex exists_ inc)) = 0.
Proof.
  cbn [C16_monitor]. destruct (bytes_eqb _ _ && _ && _) eqn:Hid; [|reflexivity].
  rewrite !andb_true_iff, !bytes_eqb_eq, Z.eqb_eq in Hid. destruct Hid as [[H1 H2] H3].
  unfold resolve_ok. destruct exists_; cbn [negb]; [|reflexivity].
  assert (Hk : mkey_eqb (membership_key 0 inc) (membership_key 0 ex) = true).
  { apply mkey_eqb_eq. unfold membership_key. rewrite H1, H2, H3. reflexivity. }
  unfold membership_boundary. rewrite !boundary_fold_cons. cbn [boundary_fold head_boundary].
  rewrite !orb_false_r, Hk. cbn [andb].
  (* not a boundary: the result follows the existing row *)
  assert (Cov : covers (m_tombstone ex) (negb (m_source_version ex =? 0)) ex) by (split; auto).
  rewrite (orb_unless _ _ (fun B => proj2 (membership_advances_iff _ _)
                                     (fo_advances _ _ _ _ (upsert_follows ex inc _ _ _ (N.le_refl _) Cov B)))).
  rewrite (orb_unless _ _ (fun B => proj2 (membership_advances_iff _ _)
                                     (fo_advances _ _ _ _ (ensure_follows ex inc _ _ _ (N.le_refl _) Cov B)))).
  cbn [andb].
  (* a source version that is not newer leaves the row as it is *)
  destruct (N.ltb_spec (m_source_version inc) (m_source_version ex)) as [L|L]; cbn [negb orb].
  - rewrite (resolve_upsert_stale ex inc L), (resolve_ensure_stale ex inc) by lia.
    rewrite (proj2 (N.leb_le _ _)) by lia. rewrite membership_eqb_refl. reflexivity.
  - destruct (N.leb_spec (m_source_version inc) (m_source_version ex)) as [L'|L']; [|reflexivity].
    rewrite (resolve_ensure_stale ex inc L'), membership_eqb_refl. reflexivity.
Qed.

Lemma resolve_cmd_model_satisfies_monitor ex exists_ inc :
  C16_monitor (C16ResolveCmd ex exists_ inc (resolveUserCMDChannelMembership ex exists_ inc)) = 0.
Proof.
  cbn [C16_monitor]. unfold resolve_cmd_ok. destruct exists_; cbn [negb]; [|reflexivity].
  destruct (resolve_cmd_spec ex inc) as [(T1 & T2) | (A & _)].
  - rewrite T1, T2. reflexivity.
  - unfold cmd_advances. apply N.leb_le in A. rewrite A, orb_true_r. reflexivity.
Qed.

Lemma boundary_needs_newer_source k asv : forall us mt ms,
  boundary_fold k asv mt ms us = true ->
  exists u, In u us /\
    (u = MDelete k
     \/ exists slot m, (u = MUpsert slot m \/ u = MEnsure slot m)
                       /\ membership_key slot m = k /\ asv < m_source_version m).
Proof.
  induction us as [|u r IH]; intros mt ms H; [discriminate|].
  rewrite boundary_fold_cons in H. apply orb_true_iff in H. destruct H as [H|H].
  - exists u. split; [left; reflexivity|]. destruct u; cbn [head_boundary] in H; try discriminate;
      rewrite ?andb_true_iff, mkey_eqb_eq, ?N.ltb_lt in H.
    + right. exists slot, m. intuition.
    + right. exists slot, m. intuition.
    + left. congruence.
  - destruct (IH _ _ H) as (u' & Hin & Hu'). exists u'. split; [right; exact Hin|exact Hu'].
Qed.

Lemma cmd_boundary_needs_rebind k : forall us mt,
  cmd_boundary_fold k mt us = true ->
  exists slot c, In (MCmdUpsert slot c) us /\ cmd_membership_key slot c = k /\ c_tombstone c = false.
Proof.
  induction us as [|u r IH]; intros mt H; [discriminate|].
  rewrite cmd_boundary_fold_cons in H. apply orb_true_iff in H. destruct H as [H|H].
  - destruct u; cbn [cmd_head_boundary] in H; try discriminate.
    rewrite !andb_true_iff, mkey_eqb_eq, negb_true_iff in H.
    exists slot, c. split; [left; reflexivity|]. tauto.
  - destruct (IH _ H) as (slot & c & Hin & Hc). exists slot, c. split; [right; exact Hin|exact Hc].
Qed.

Definition personal_call (u : mut) (k : mkey) : Prop :=
  (exists r upd, u = MAdvanceRead k r upd) \/ (exists a upd, u = MSetActivated k a upd)
  \/ (exists a upd, u = MActivate k a upd) \/ (exists d upd, u = MHide k d upd).

Lemma tombstone_ignores_personal st u k a :
  get_row st k = Some a -> m_tombstone a = true -> personal_call u k ->
  snd (direct_apply st u) = st.
Proof.
  intros Hg Ht Hu. unfold direct_apply. destruct (mut_valid u); [|reflexivity].
  destruct Hu as [(r & upd & ->) | [(x & upd & ->) | [(x & upd & ->) | (d & upd & ->)]]];
    cbn [mut_apply]; unfold mutateUserChannelMembership; rewrite Hg, Ht; reflexivity.
Qed.

Lemma pagination_exact st slot uid limits between fuel :
  st_inv st ->
  validateKeyString uid = true ->
  Forall (fun l => (0 < l)%Z) limits ->
  Forall (fun u => bytes_eqb (mut_uid u) uid = false) between ->
  (forall m, In m (directory_listing st slot uid) -> (0 <= m_activated_at m)%Z) ->
  (length (directory_listing st slot uid) < fuel)%nat ->
  let '(ps, _, _) := scan_pass fuel st slot uid limits between 0 page_cursor_zero in
  pages_well_formed ps = true /\ pages_rows ps = directory_listing st slot uid.
Proof.
  intros Hinv Huid Hlimits Hbetween Hact Hlen.
  destruct (scan_pass fuel st slot uid limits between 0 page_cursor_zero) as [[ps es] st'] eqn:Hpass.
  pose proof (directory_listing_entries st slot uid Hinv) as HE.
  apply (scan_pass_spec slot uid limits Huid Hlimits fuel st between 0 [] _ ps es st' Hinv Hbetween eq_refl);
    [| |exact Hpass].
  - intros e He. rewrite <- HE in He. apply in_map_iff in He. destruct He as (m & <- & Hm). exact (Hact m Hm).
  - rewrite <- HE, map_length. exact Hlen.
Qed.

Lemma listing_exact st slot uid : st_inv st ->
  (forall m, In m (directory_listing st slot uid) <->
             exists k, k_slot k = slot /\ k_uid k = uid /\ get_row st k = Some m)
  /\ NoDup (directory_listing st slot uid)
  /\ StronglySorted (fun a b => entry_compare (activation_entry slot a) (activation_entry slot b) = Lt)
       (directory_listing st slot uid).
Proof.
  intro Hinv. split; [intro m; apply directory_listing_In; exact Hinv|].
  pose proof (uid_entries_sorted st slot uid Hinv) as Hs.
  rewrite <- (directory_listing_entries st slot uid Hinv) in Hs.
  induction (directory_listing st slot uid) as [|x l IH]; [split; constructor|].
  cbn [map] in Hs. apply StronglySorted_inv in Hs. destruct Hs as [Hl Hall].
  destruct (IH Hl) as [N S]. rewrite Forall_forall in Hall. split.
  - constructor; [|exact N]. intro C. exact (elt_irrefl _ (Hall _ (in_map _ _ _ C))).
  - constructor; [exact S|]. apply Forall_forall. intros y Hy. exact (Hall _ (in_map _ _ _ Hy)).
Qed.

(* user "u1", channel [ch] of type 2, in hash slot 5 *)
Definition example_row (ch : bytes) (read del : N) (act : Z) (tomb : bool) (sv : N) : membership :=
  Membership (hx "7531") ch 2%Z 1 read del act tomb 0%Z sv 100%Z.
Definition example_key (ch : bytes) : mkey := MKey 5 (hx "7531") ch 2%Z.
