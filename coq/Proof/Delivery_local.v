(* Proof/Delivery_local.v — equality and multiset facts for routes (route_eqb, same_routes,
   sub_routes, prefix_routes) that the later files use; then pushOwnerLocal: the result
   partitions the pushed routes, only pushed routes are written, shape of the retry set. *)
From WK Require Import Base.Base Gen.Consts_C31 Model.Delivery Model.Delivery_C31.
From Coq Require Import Permutation.
Open Scope N_scope.

Lemma route_eqb_eq a b : route_eqb a b = true <-> a = b.
Proof.
  destruct a as [u o b0 q s d f l], b as [u' o' b0' q' s' d' f' l'].
  unfold route_eqb. cbn [r_uid r_owner r_boot r_oseq r_sess r_dev r_flag r_level].
  rewrite !andb_true_iff, !bytes_eqb_eq, !N.eqb_eq. split.
  - intros [[[[[[[-> ->] ->] ->] ->] ->] ->] ->]. reflexivity.
  - intros E. inversion E. subst. repeat split.
Qed.

Lemma route_eqb_refl a : route_eqb a a = true.
Proof. apply route_eqb_eq. reflexivity. Qed.

Lemma routes_eqb_eq a b : routes_eqb a b = true <-> a = b.
Proof. apply list_eqb_spec. apply route_eqb_eq. Qed.

Lemma routes_eqb_refl a : routes_eqb a a = true.
Proof. apply routes_eqb_eq. reflexivity. Qed.

Lemma mem_route_in r l : mem_route r l = true <-> In r l.
Proof.
  unfold mem_route. rewrite existsb_exists. split.
  - intros (x & Hx & E). apply route_eqb_eq in E. subst. exact Hx.
  - intros H. exists r. split; [exact H| apply route_eqb_refl].
Qed.

Lemma count_r_app x a b : count_r x (a ++ b) = (count_r x a + count_r x b)%nat.
Proof. unfold count_r. rewrite filter_app, app_length. reflexivity. Qed.

Lemma count_r_cons x y l :
  count_r x (y :: l) = ((if route_eqb x y then 1 else 0) + count_r x l)%nat.
Proof. unfold count_r. simpl. destruct (route_eqb x y); reflexivity. Qed.

Lemma perm_count x a b : Permutation a b -> count_r x a = count_r x b.
Proof.
  induction 1 as [|y a b _ IH|y z a|a b c _ IH1 _ IH2].
  - reflexivity.
  - rewrite !count_r_cons, IH. reflexivity.
  - rewrite !count_r_cons. lia.
  - congruence.
Qed.

Lemma same_routes_perm a b : Permutation a b -> same_routes a b = true.
Proof.
  intros P. unfold same_routes. apply forallb_forall. intros x _.
  apply Nat.eqb_eq. apply perm_count. exact P.
Qed.

Lemma same_routes_refl a : same_routes a a = true.
Proof. apply same_routes_perm. apply Permutation_refl. Qed.

Lemma sub_routes_intro a b :
  (forall x, (count_r x a <= count_r x b)%nat) -> sub_routes a b = true.
Proof.
  intros H. unfold sub_routes. apply forallb_forall. intros x _. apply Nat.leb_le. apply H.
Qed.

Lemma prefix_routes_refl a : prefix_routes a a = true.
Proof. induction a as [|x a IH]; simpl; [reflexivity| rewrite route_eqb_refl, IH; reflexivity]. Qed.

Lemma prefix_routes_nil a : prefix_routes [] a = true.
Proof. destruct a; reflexivity. Qed.

Definition wclass (k : N) (w : route * N * bool) : bool := disp_class (w_disp w) =? k.

(* The ACK tracker grants every reservation.  The oracle the plan checks replay is built by
   att_out from the observed writes, so it holds no LReject; the harness configures no
   per-session ACK limit. *)
Definition no_reject (orc : list lout) : Prop := ~ In LReject orc.

Definition orc_next (orc : list lout) : lout :=
  match orc with o :: _ => o | [] => LWrite c31_write_accepted false end.
Definition orc_rest (orc : list lout) : list lout :=
  match orc with _ :: t => t | [] => [] end.

(* what the loop does with one route: its class (numbered like disp_class: 1 Accepted,
   2 Retryable, 3 Dropped), the WriteSession call made for it, the oracle and the
   context afterwards *)
Definition lstep (hw : bool) (msgid owner : N) (r : route) (orc : list lout) (cx : bool)
  : N * list (route * N * bool) * list lout * bool :=
  if cx then (2, [], orc, true)
  else if negb (route_valid msgid owner r) then (3, [], orc, false)
  else match orc_next orc with
       | LReject => (3, [], orc_rest orc, false)
       | LWrite d c => if hw then (disp_class d, [(r, d, c)], orc_rest orc, c)
                       else (2, [], orc_rest orc, false)
       end.

(* the outcome of the first route in front of the result for the rest *)
Definition lput (k : N) (r : route) (w : list (route * N * bool)) (s : lres) : lres :=
  LRes (if k =? 1 then r :: l_acc s else l_acc s)
       (if k =? 2 then r :: l_retry s else l_retry s)
       (if (k =? 1) || (k =? 2) then l_drop s else r :: l_drop s)
       (w ++ l_writes s) (l_cx s).

(* local_loop written head-first: with accumulator a it returns lres_app a (lspec ...), see local_loop_lspec *)
Fixpoint lspec (hw : bool) (msgid owner : N) (rs : list route) (orc : list lout) (cx : bool) : lres :=
  match rs with
  | [] => LRes [] [] [] [] cx
  | r :: rs' =>
      let '(k, w, orc', cx') := lstep hw msgid owner r orc cx in
      lput k r w (lspec hw msgid owner rs' orc' cx')
  end.

Definition lres_app (a s : lres) : lres :=
  LRes (l_acc a ++ l_acc s) (l_retry a ++ l_retry s) (l_drop a ++ l_drop s)
       (l_writes a ++ l_writes s) (l_cx s).

Lemma snoc_app {A} (x : list A) (r : A) (y : list A) : (x ++ [r]) ++ y = x ++ r :: y.
Proof. rewrite <- app_assoc. reflexivity. Qed.

(* One branch of local_loop against the lstep case it corresponds to: after the induction
   hypothesis both sides are the same record up to (x ++ [r]) ++ y = x ++ r :: y. *)
Local Ltac same_outcome IH :=
  rewrite IH; unfold lres_app, lput; cbn [l_acc l_retry l_drop l_writes l_cx N.eqb Pos.eqb orb app];
  rewrite ?snoc_app; reflexivity.

Lemma local_loop_lspec hw msgid owner rs : forall orc a,
  local_loop hw msgid owner rs orc a = lres_app a (lspec hw msgid owner rs orc (l_cx a)).
Proof.
  induction rs as [|r rs IH]; intros orc a.
  - destruct a. unfold lres_app. simpl. rewrite !app_nil_r. reflexivity.
  - cbn [local_loop lspec]. unfold lstep. fold (orc_next orc). fold (orc_rest orc).
    destruct (l_cx a). { same_outcome IH. }
    destruct (negb (route_valid msgid owner r)). { same_outcome IH. }
    destruct (orc_next orc) as [|d c]. { same_outcome IH. }
    destruct hw. 2:{ same_outcome IH. }
    cbv beta iota zeta delta [lput].
    destruct (N.eqb_spec (disp_class d) 1) as [E1|_]. { rewrite E1. same_outcome IH. }
    destruct (disp_class d =? 2); same_outcome IH.
Qed.

(* a route is written at most once, and then it is valid and classed by the write's disposition *)
Lemma lstep_spec hw msgid owner r orc cx k w orc' cx' :
  lstep hw msgid owner r orc cx = (k, w, orc', cx') ->
  (w = [] /\ (k = 2 \/ k = 3))
  \/ exists d, w = [(r, d, cx')] /\ k = disp_class d /\ route_valid msgid owner r = true.
Proof.
  unfold lstep. destruct cx; [intros [= <- <- _ _]; auto|].
  destruct (route_valid msgid owner r); cbn [negb]; [|intros [= <- <- _ _]; auto].
  destruct (orc_next orc) as [|d c]; [intros [= <- <- _ _]; auto|].
  destruct hw; intros [= <- <- _ <-]; [right; exists d|]; auto.
Qed.

Lemma no_reject_rest orc : no_reject orc -> no_reject (orc_rest orc).
Proof. destruct orc; simpl; [auto|]. unfold no_reject. simpl. tauto. Qed.

Lemma no_reject_next orc : no_reject orc -> orc_next orc <> LReject.
Proof.
  destruct orc as [|o t]; simpl; [discriminate|]. unfold no_reject. simpl.
  intros H E. apply H. left. exact E.
Qed.

Lemma lspec_partition hw msgid owner rs : forall orc cx,
  Permutation (l_acc (lspec hw msgid owner rs orc cx) ++ l_retry (lspec hw msgid owner rs orc cx)
               ++ l_drop (lspec hw msgid owner rs orc cx)) rs.
Proof.
  induction rs as [|r rs IH]; intros orc cx; cbn [lspec]; [constructor|].
  destruct (lstep hw msgid owner r orc cx) as [[[k w] orc'] cx'].
  specialize (IH orc' cx'). unfold lput. cbn [l_acc l_retry l_drop].
  destruct (N.eqb_spec k 1) as [->|_]; [|destruct (k =? 2)]; cbn [orb N.eqb Pos.eqb].
  - simpl. constructor. exact IH.
  - simpl. apply Permutation_sym, Permutation_cons_app, Permutation_sym, IH.
  - rewrite app_assoc. apply Permutation_sym, Permutation_cons_app. rewrite <- app_assoc.
    apply Permutation_sym, IH.
Qed.

Lemma lspec_acc hw msgid owner rs : forall orc cx,
  l_acc (lspec hw msgid owner rs orc cx)
  = map w_route (filter (wclass 1) (l_writes (lspec hw msgid owner rs orc cx))).
Proof.
  induction rs as [|r rs IH]; intros orc cx; cbn [lspec]; [reflexivity|].
  destruct (lstep hw msgid owner r orc cx) as [[[k w] orc'] cx'] eqn:E.
  specialize (IH orc' cx'). unfold lput. cbn [l_acc l_writes].
  destruct (lstep_spec _ _ _ _ _ _ _ _ _ _ E) as [(-> & [-> | ->])|(d & -> & -> & _)]; cbn [app N.eqb Pos.eqb];
    try exact IH.
  cbn [filter]. unfold wclass at 1, w_disp at 1. cbn [fst snd].
  destruct (disp_class d =? 1); [cbn [map]; unfold w_route at 1; cbn [fst]; f_equal|]; exact IH.
Qed.

Lemma lspec_writes_count hw msgid owner rs x : forall orc cx,
  (count_r x (map w_route (l_writes (lspec hw msgid owner rs orc cx))) <= count_r x rs)%nat.
Proof.
  induction rs as [|r rs IH]; intros orc cx; cbn [lspec]; [apply Nat.le_refl|].
  destruct (lstep hw msgid owner r orc cx) as [[[k w] orc'] cx'] eqn:E.
  specialize (IH orc' cx'). unfold lput. cbn [l_writes]. rewrite count_r_cons.
  destruct (lstep_spec _ _ _ _ _ _ _ _ _ _ E) as [(-> & _)|(d & -> & _)]; cbn [app map]; [lia|].
  unfold w_route at 1. cbn [fst]. rewrite count_r_cons. lia.
Qed.

Lemma lspec_writes hw msgid owner rs : forall orc cx w,
  In w (l_writes (lspec hw msgid owner rs orc cx)) ->
  In (w_route w) rs /\ route_valid msgid owner (w_route w) = true.
Proof.
  induction rs as [|r rs IH]; intros orc cx w0; cbn [lspec]; [intros []|].
  destruct (lstep hw msgid owner r orc cx) as [[[k w] orc'] cx'] eqn:E.
  unfold lput. cbn [l_writes].
  destruct (lstep_spec _ _ _ _ _ _ _ _ _ _ E) as [(-> & _)|(d & -> & _ & Hv)]; cbn [app].
  - intros H. destruct (IH _ _ _ H). split; [right|]; assumption.
  - intros [<-|H]; [split; [left; reflexivity| exact Hv]|]. destruct (IH _ _ _ H). split; [right|]; assumption.
Qed.

Lemma lspec_cancelled hw msgid owner rs orc :
  lspec hw msgid owner rs orc true = LRes [] rs [] [] true.
Proof.
  induction rs as [|r rs IH]; cbn [lspec lstep]; [reflexivity|]. rewrite IH. reflexivity.
Qed.

(* SessionWriter == nil *)
Lemma lspec_nowriter msgid owner rs : forall orc,
  no_reject orc ->
  let s := lspec false msgid owner rs orc false in
  l_writes s = [] /\ l_retry s = filter (route_valid msgid owner) rs /\ l_cx s = false /\ l_acc s = [].
Proof.
  induction rs as [|r rs IH]; intros orc NR; cbn [lspec filter].
  - auto.
  - unfold lstep. destruct (route_valid msgid owner r) eqn:Hv; cbn [negb].
    + pose proof (no_reject_next orc NR) as Hn.
      destruct (orc_next orc) as [|d c]; [congruence|].
      destruct (IH (orc_rest orc) (no_reject_rest _ NR)) as (A & B & C & D).
      cbn [lput l_acc l_retry l_writes l_cx N.eqb Pos.eqb app]. rewrite B. auto.
    + exact (IH orc NR).
Qed.

(* with a writer: the writes follow the valid routes in order, up to the write
   during which the context ended; without cancellation every valid route is
   written and the retry set is exactly the writes classified retryable *)
Lemma lspec_writer msgid owner rs : forall orc,
  no_reject orc ->
  let s := lspec true msgid owner rs orc false in
  prefix_routes (map w_route (l_writes s)) (filter (route_valid msgid owner) rs) = true
  /\ l_cx s = existsb w_cancel (l_writes s)
  /\ (l_cx s = false ->
      map w_route (l_writes s) = filter (route_valid msgid owner) rs
      /\ l_retry s = map w_route (filter (wclass 2) (l_writes s))).
Proof.
  induction rs as [|r rs IH]; intros orc NR; cbn [lspec filter].
  - simpl. auto.
  - unfold lstep. destruct (route_valid msgid owner r) eqn:Hv; cbn [negb]; [|exact (IH orc NR)].
    pose proof (no_reject_next orc NR) as Hn.
    destruct (orc_next orc) as [|d c]; [congruence|].
    pose proof (no_reject_rest _ NR) as NR'.
    assert (Hgen :
      let s := lspec true msgid owner rs (orc_rest orc) c in
      prefix_routes (r :: map w_route (l_writes s)) (r :: filter (route_valid msgid owner) rs) = true
      /\ l_cx s = (c || existsb w_cancel (l_writes s))
      /\ (l_cx s = false ->
          r :: map w_route (l_writes s) = r :: filter (route_valid msgid owner) rs
          /\ l_retry s = map w_route (filter (wclass 2) (l_writes s)))).
    { destruct c.
      - rewrite lspec_cancelled. cbn [l_writes l_cx l_retry map]. simpl.
        rewrite route_eqb_refl. split; [reflexivity|]. split; [reflexivity| discriminate].
      - destruct (IH (orc_rest orc) NR') as (A & B & C). cbn zeta.
        split; [simpl; rewrite route_eqb_refl; exact A|].
        split; [exact B|]. intros H. destruct (C H) as [C1 C2]. rewrite C1. auto. }
    cbn zeta in Hgen. destruct Hgen as (G1 & G2 & G3).
    cbn [lput l_retry l_writes l_cx app map existsb filter].
    unfold w_route at 1, w_cancel at 1, wclass at 1, w_disp at 1. cbn [fst snd].
    split; [exact G1|]. split; [exact G2|].
    intros H. destruct (G3 H) as [C1 C2]. split; [exact C1|].
    destruct (disp_class d =? 2); [cbn [map]; unfold w_route at 1; cbn [fst]; f_equal|]; exact C2.
Qed.

Lemma lspec_retry_in hw msgid owner rs orc cx x :
  In x (l_retry (lspec hw msgid owner rs orc cx)) -> In x rs.
Proof.
  intros H. pose proof (lspec_partition hw msgid owner rs orc cx) as P.
  apply (Permutation_in x P). apply in_or_app. right. apply in_or_app. left. exact H.
Qed.

Lemma pushOwnerLocal_eq c ev owner rs orc cx :
  pushOwnerLocal c ev owner rs orc cx
  = if (c_local c =? 0) || (owner =? 0) || negb (owner =? c_local c) then (1, lres0 cx)
    else (0, lspec (c_has_writer c) (e_msgid ev) owner rs orc cx).
Proof.
  unfold pushOwnerLocal.
  destruct ((c_local c =? 0) || (owner =? 0) || negb (owner =? c_local c)); [reflexivity|].
  rewrite local_loop_lspec. unfold lres_app, lres0. cbn [l_acc l_retry l_drop l_writes l_cx app].
  destruct (lspec (c_has_writer c) (e_msgid ev) owner rs orc cx). reflexivity.
Qed.

Lemma pushOwnerLocal_ok c ev owner rs orc cx r :
  pushOwnerLocal c ev owner rs orc cx = (0, r) ->
  r = lspec (c_has_writer c) (e_msgid ev) owner rs orc cx.
Proof.
  rewrite pushOwnerLocal_eq.
  destruct ((c_local c =? 0) || (owner =? 0) || negb (owner =? c_local c)); intros [= <-]. reflexivity.
Qed.
