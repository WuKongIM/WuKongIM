(* Proof/ReplicaLog_WF.v — the per-replica invariant of C02 and its preservation by every
   store operation of Model/ReplicaLog.v (both back ends):

     WF rp    the log is an unbroken predecessor hash chain from genesis (entry k at index k,
              naming entry k-1's index, term and digest), committed <= log end, and every
              by-last-offset index row names the digest / term of the entry stored at that offset;
     keeps rp rp'   committed never moves backwards and no entry identity at or below the old committed
              watermark changes.

   sync, replace and storeCheckpoint (for a watermark within the log) all satisfy
   rep_ok rp rp' := WF rp -> WF rp' /\ keeps rp rp'. *)
From WK Require Import Base.Base Base.Lists.
From WK Require Import Model.ReplicaLog Proof.ReplicaLog.
From Coq Require Import ZifyBool ZifyN.
Open Scope N_scope.

(* [l] is a chain whose first entry has index [idx] and names (pt, pidx, pd) — term, index and digest —
   as its predecessor *)
Fixpoint chain_raw (idx pt pidx : N) (pd : digest) (l : list (ident * record)) : Prop :=
  match l with
  | [] => True
  | (e, _) :: r => i_idx e = idx /\ i_pidx e = pidx /\ i_pt e = pt /\ i_pd e = pd /\
                   chain_raw (idx + 1) (i_t e) (i_idx e) (i_dg e) r
  end.

(* predecessor parameters after a log: those of its last entry, or the ones it started from *)
Fixpoint tail_params (pt pidx : N) (pd : digest) (l : list (ident * record)) : N * N * digest :=
  match l with
  | [] => (pt, pidx, pd)
  | (e, _) :: r => tail_params (i_t e) (i_idx e) (i_dg e) r
  end.

Lemma chain_raw_app : forall l1 l2 idx pt pidx pd,
  chain_raw idx pt pidx pd l1 ->
  (let '(pt', pidx', pd') := tail_params pt pidx pd l1 in chain_raw (idx + lenN l1) pt' pidx' pd' l2) ->
  chain_raw idx pt pidx pd (l1 ++ l2).
Proof.
  induction l1 as [|[e r] l1 IH]; intros l2 idx pt pidx pd H1 H2.
  - cbn [tail_params app] in *.
    replace (idx + lenN (@nil (ident * record))) with idx in H2 by (unfold lenN; cbn; lia). exact H2.
  - cbn [chain_raw tail_params app] in *.
    destruct H1 as (A & B & C & D & E). repeat (split; [assumption|]).
    apply IH; [exact E|]. rewrite lenN_cons in H2.
    destruct (tail_params (i_t e) (i_idx e) (i_dg e) l1) as [[a b] c].
    replace (idx + 1 + lenN l1) with (idx + (lenN l1 + 1)) by lia. exact H2.
Qed.

Lemma chain_raw_firstn : forall k l idx pt pidx pd,
  chain_raw idx pt pidx pd l -> chain_raw idx pt pidx pd (firstn k l).
Proof.
  induction k as [|k IH]; intros l idx pt pidx pd H; cbn; [exact I|].
  destruct l as [|[e r] l]; cbn in *; [exact I|].
  destruct H as (A & B & C & D & E). repeat (split; [assumption|]). apply IH. exact E.
Qed.

Lemma chain_raw_index : forall l idx pt pidx pd k e r,
  chain_raw idx pt pidx pd l -> nth_error l k = Some (e, r) -> i_idx e = idx + N.of_nat k.
Proof.
  induction l as [|[e0 r0] l IH]; intros idx pt pidx pd k e r H Hk; [destruct k; discriminate|].
  cbn in H. destruct H as (A & _ & _ & _ & E). destruct k as [|k]; cbn in Hk.
  - inversion Hk; subst. lia.
  - rewrite (IH _ _ _ _ _ _ _ E Hk). lia.
Qed.

Lemma tail_params_last : forall l pt pidx pd e r,
  nth_error l (length l - 1) = Some (e, r) -> tail_params pt pidx pd l = (i_t e, i_idx e, i_dg e).
Proof.
  induction l as [|[e0 r0] l IH]; intros pt pidx pd e r Hn; [discriminate|].
  cbn [tail_params]. destruct l as [|x l'].
  - cbn in Hn. inversion Hn; subst. reflexivity.
  - apply (IH _ _ _ e r). cbn [length] in *.
    replace (S (S (length l')) - 1)%nat with (S (length l')) in Hn by lia.
    replace (S (length l') - 1)%nat with (length l') by lia. exact Hn.
Qed.

Lemma derive_loop_chain m : forall recs idx pt pidx pd es,
  derive_loop m idx pt pidx pd recs = Some es -> chain_raw idx pt pidx pd (combine es recs).
Proof.
  induction recs as [|r rest IH]; intros idx pt pidx pd es H; cbn in H.
  - inversion H; subst. exact I.
  - destruct (tag_is_zero (r_id r) || negb (r_epoch r =? m_e m) || (r_ts r =? 0)); [discriminate|].
    destruct (derive_loop m (idx + 1) (m_t m) idx _ rest) as [es'|] eqn:E; [|discriminate].
    inversion H; subst. cbn. repeat (split; [reflexivity|]). apply IH. exact E.
Qed.

(* the by-last-offset index, which the memory store consults instead of the log for the predecessor *)
Definition bylast_ok (rp : replica) : Prop :=
  forall k m, by_last (rp_bylast rp) k = Some m ->
    m_last m = k /\ exists e, ent_at rp k = Some e /\ i_dg e = m_dg m /\ i_t e = m_t m.

Definition WF (rp : replica) : Prop :=
  chain_raw 1 0 0 D0 (rp_log rp) /\ rp_hw rp <= rp_leo rp /\ bylast_ok rp.

Definition keeps (rp rp' : replica) : Prop :=
  rp_hw rp <= rp_hw rp' /\ forall idx, idx <= rp_hw rp -> ent_at rp' idx = ent_at rp idx.

Lemma WF_empty : WF replica_empty.
Proof. split; [exact I|]. split; [unfold rp_leo, lenN; cbn; lia|]. intros k m H. discriminate. Qed.

Lemma keeps_refl rp : keeps rp rp.
Proof. split; [lia | auto]. Qed.

Lemma keeps_trans a b c : keeps a b -> keeps b c -> keeps a c.
Proof.
  intros [H1 H2] [H3 H4]. split; [lia|]. intros idx Hi. rewrite H4 by lia. apply H2. exact Hi.
Qed.

Lemma WF_tail_params rp : WF rp ->
  tail_params 0 0 D0 (rp_log rp) =
  match ent_at rp (rp_leo rp) with Some t => (i_t t, rp_leo rp, i_dg t) | None => (0, 0, D0) end.
Proof.
  intros (Hc & _). unfold ent_at, log_at, rp_leo, lenN. destruct (rp_log rp) as [|x l] eqn:El; [reflexivity|].
  replace (N.of_nat (length (x :: l)) =? 0) with false by (cbn [length]; lia).
  replace (N.to_nat (N.of_nat (length (x :: l)) - 1)) with (length (x :: l) - 1)%nat by lia.
  destruct (nth_error (x :: l) (length (x :: l) - 1)) as [[e r]|] eqn:E.
  - rewrite (tail_params_last _ _ _ _ _ _ E).
    rewrite (chain_raw_index _ _ _ _ _ _ _ _ Hc E). cbn [option_map fst length]. do 2 f_equal. lia.
  - apply nth_error_None in E. cbn [length] in E. lia.
Qed.

(* the shape every operation's lemma takes; reflexive and transitive, so composite operations compose *)
Definition rep_ok (rp rp' : replica) : Prop := WF rp -> WF rp' /\ keeps rp rp'.

Lemma rep_ok_refl rp : rep_ok rp rp.
Proof. intro H. split; [exact H | apply keeps_refl]. Qed.

Lemma rep_ok_trans a b c : rep_ok a b -> rep_ok b c -> rep_ok a c.
Proof.
  intros H1 H2 Ha. destruct (H1 Ha) as [Hb K1]. destruct (H2 Hb) as [Hc K2].
  split; [exact Hc | eapply keeps_trans; eauto].
Qed.

Lemma set_hw_ok rp hw : rp_hw rp <= hw <= rp_leo rp -> rep_ok rp (set_hw rp hw).
Proof.
  intros Hh (Hc & _ & Hbl). split; [exact (conj Hc (conj (proj2 Hh) Hbl))|]. split; [apply Hh | reflexivity].
Qed.

Lemma ValidFor_genesis m base count : ValidFor m base count = true -> m_base m = 0 -> m_pt m = 0 /\ m_pd m = D0.
Proof.
  unfold ValidFor, StructurallyValid. intros H Hb. rewrite Hb in H. cbn in H.
  destruct (_ || _ || _ || _ || _ || _ || _) in H; [discriminate|].
  rewrite !andb_true_iff in H. destruct H as [[[H _] _] _]. destruct H as [H1 H2].
  split; [lia|]. destruct (m_pd m); [reflexivity | discriminate].
Qed.

(* the predecessor fields of a proposal name the entry at its base (none at genesis) *)
Definition pred_at (rp : replica) (m : manifest) : Prop :=
  m_base m = 0 \/ exists t, ent_at rp (m_base m) = Some t /\ i_t t = m_pt m /\ i_dg t = m_pd m.

Lemma put_proposal_ok rp m recs es :
  WF rp -> derives m recs es -> rp_leo rp = m_base m ->
  pred_at rp m ->
  let rp' := put_proposal rp m es recs in
  WF rp' /\ keeps rp rp' /\ rp_leo rp' = m_last m /\ ent_at rp' (m_last m) = Some (last_ident es).
Proof.
  intros HWF (Hv & Hd & Hdg) Hleo Hpred rp'. pose proof HWF as (Hc & Hb & Hbl).
  destruct (DeriveProposalEntries_loop _ _ _ Hd) as (Hloop & Hne & Hlast).
  pose proof (derive_loop_length _ _ _ _ _ _ _ Hloop) as Hlen.
  pose proof (derive_loop_chain _ _ _ _ _ _ _ Hloop) as Hnew.
  assert (Hpos : (0 < length recs)%nat) by (destruct recs; [congruence | cbn; lia]).
  assert (Hold : forall idx, idx <= rp_leo rp -> ent_at rp' idx = ent_at rp idx)
    by (intro idx; apply (ent_at_app rp rp' (combine es recs)); reflexivity).
  assert (Hleo' : rp_leo rp' = m_last m).
  { unfold rp', rp_leo, put_proposal, lenN in *. cbn. rewrite app_length, combine_length, Hlen. lia. }
  (* the last derived entry sits at the new log end *)
  assert (Hle : nth_error es (length es - 1) = Some (last_ident es)).
  { apply last_nth_error. intros ->. cbn in Hlen. lia. }
  destruct (appended_ent_at rp rp' m recs es _ _ Hd Hleo eq_refl Hle) as [Hidx Hlast_ent].
  replace (i_idx (last_ident es)) with (m_last m) in Hlast_ent by (unfold lenN in Hlast; lia).
  split; [|split; [|split; [exact Hleo' | exact Hlast_ent]]].
  - split; [|split; [rewrite Hleo'; cbn; lia|]].
    + (* the derived entries start from the tail parameters of the old log *)
      apply chain_raw_app; [exact Hc|]. rewrite (WF_tail_params rp HWF), Hleo.
      replace (1 + lenN (rp_log rp)) with (m_base m + 1) by (unfold rp_leo in Hleo; lia).
      destruct Hpred as [E0 | (t & Ht & P1 & P2)]; [|rewrite Ht, P1, P2; exact Hnew].
      destruct (ValidFor_genesis _ _ _ Hv E0) as [P1 P2]. rewrite P1, P2, E0 in Hnew. rewrite E0. exact Hnew.
    + (* the new by-last row names the last derived entry, the others are untouched *)
      intros k m' Hk. unfold rp', put_proposal in Hk. cbn [rp_bylast] in Hk. rewrite by_last_set_last in Hk.
      destruct (N.eqb_spec k (m_last m)) as [-> | _].
      * injection Hk as <-. split; [reflexivity|]. exists (last_ident es). split; [exact Hlast_ent|].
        destruct (derive_loop_entries _ _ _ _ _ _ _ Hloop _ _ Hle) as (_ & _ & Hit & _).
        split; [apply digest_eqb_eq; exact Hdg | exact Hit].
      * destruct (Hbl _ _ Hk) as (A & e & B & C). split; [exact A|]. exists e. split; [|exact C].
        rewrite Hold; [exact B | apply (ent_at_Some_le _ _ _ B)].
  - split; [reflexivity|]. intros idx Hi. apply Hold. lia.
Qed.

(* the memory store finds the predecessor through its by-last index, which the invariant ties to the log *)
Lemma by_last_predecessor rp m : WF rp ->
  m_base m = 0 \/ (exists p, by_last (rp_bylast rp) (m_base m) = Some p /\ m_t p = m_pt m /\ m_dg p = m_pd m) ->
  pred_at rp m.
Proof.
  intros (_ & _ & Hbl) [E0 | (p & Ep & Pt & Pd)]; [left; exact E0 | right].
  destruct (Hbl _ _ Ep) as (_ & t & Ht & Hd & Htt). exists t. split; [exact Ht|]. split; congruence.
Qed.

Lemma validateDurableProposalPredecessor_at rp m :
  validateDurableProposalPredecessor rp m = true ->
  pred_at rp m.
Proof.
  unfold validateDurableProposalPredecessor. destruct (N.eqb_spec (m_base m) 0) as [E0 | _]; intro H; [left; exact E0 | right].
  destruct (pair_by_last rp (m_base m)) as [[p|]|]; try discriminate.
  rewrite !andb_true_iff in H. destruct H as [[[_ H1] H2] H3].
  destruct (ent_at rp (m_base m)) as [t|]; [|discriminate]. exists t. split; [reflexivity|].
  rewrite !andb_true_iff in H3. destruct H3 as [[[[[_ _] T] _] _] D].
  apply digest_eqb_eq in H2, D. split; [lia | congruence].
Qed.

Lemma appendLeaderExactLocked_WF rp m recs rp' o nf :
  WF rp -> appendLeaderExactLocked rp m recs = (rp', o, nf) ->
  WF rp' /\ keeps rp rp' /\ rp_hw rp' = rp_hw rp /\ (outcome_durable o = true -> m_last m <= rp_leo rp').
Proof.
  intros HWF H. apply appendLeaderExactLocked_cases in H.
  destruct o; try (subst rp'; split; [exact HWF|]; split; [apply keeps_refl|]; split; [reflexivity | discriminate]).
  - destruct H as (es & -> & Hd & Hleo & _ & Hp).
    destruct (put_proposal_ok rp m recs es HWF Hd Hleo (by_last_predecessor _ _ HWF Hp)) as (A & B & C & _).
    split; [exact A|]. split; [exact B|]. split; [reflexivity|]. intros _. rewrite C. lia.
  - destruct H as (-> & _ & Hl & _). split; [exact HWF|]. split; [apply keeps_refl|]. split; [reflexivity | auto].
Qed.

(* every Sync preserves the invariant, never lowers the committed watermark and never touches
   an entry at or below it *)
Lemma sync_rep_ok k rp mu rp' o nf : sync k rp mu = (rp', o, nf) -> rep_ok rp rp'.
Proof.
  intros H HWF. pose proof HWF as (_ & Hhw & _). apply sync_cases in H. cbv zeta in H.
  destruct o; try (subst rp'; apply rep_ok_refl; exact HWF).
  - destruct H as (es & -> & Hd & Hleo & Hcm & Hp & _).
    assert (Hpred : pred_at rp (mu_manifest mu))
      by (destruct k; [apply by_last_predecessor | apply validateDurableProposalPredecessor_at]; assumption).
    destruct (ValidFor_last _ _ _ (proj1 Hd)) as (_ & Hlast & Hcount).
    destruct (put_proposal_ok rp _ _ es HWF Hd Hleo Hpred) as (A & B & C & _).
    apply (rep_ok_trans _ (put_proposal rp (mu_manifest mu) es (mu_records mu))); [intros _; auto | | exact HWF].
    apply set_hw_ok. rewrite C. cbn [rp_hw put_proposal]. lia.
  - destruct H as (-> & Hcm & _). apply set_hw_ok; [lia | exact HWF].
Qed.

Lemma storeCheckpoint_rep_ok rp w : w <= rp_leo rp -> rep_ok rp (storeCheckpoint rp w).
Proof.
  intros Hw HWF. unfold storeCheckpoint.
  destruct (rp_hw rp <? w) eqn:E; [apply set_hw_ok; [lia | exact HWF] | apply rep_ok_refl; exact HWF].
Qed.

Lemma by_last_filter l keep k m :
  by_last (filter (fun p => fst p <=? keep) l) k = Some m -> by_last l k = Some m /\ k <= keep.
Proof.
  induction l as [|[k0 m0] l IH]; cbn; [discriminate|].
  destruct (k0 <=? keep) eqn:E; cbn.
  - destruct (k =? k0) eqn:Ek.
    + intro H. inversion H; subst. apply N.eqb_eq in Ek. split; [reflexivity | lia].
    + exact IH.
  - intro H. destruct (IH H) as [A B]. destruct (k =? k0) eqn:Ek; [apply N.eqb_eq in Ek; lia | auto].
Qed.

Lemma ent_at_firstn rp keep idx hw bc bl :
  idx <= keep -> ent_at (Replica (firstn (N.to_nat keep) (rp_log rp)) bc bl hw) idx = ent_at rp idx.
Proof.
  intros Hi. unfold ent_at, log_at. cbn [rp_log]. destruct (idx =? 0) eqn:E; [reflexivity|].
  rewrite nth_error_firstn_lt by lia. reflexivity.
Qed.

(* cutting the log back to a proposal boundary at or above the committed watermark; both stores
   cut the log and the by-last index alike and differ in the by-command index, which WF ignores *)
Lemma truncated_WF rp keep bc :
  WF rp -> rp_hw rp <= keep -> keep <= rp_leo rp ->
  let rp' := Replica (firstn (N.to_nat keep) (rp_log rp)) bc (filter (fun p => fst p <=? keep) (rp_bylast rp)) (rp_hw rp) in
  WF rp' /\ keeps rp rp' /\ rp_leo rp' = keep /\ rp_hw rp' = rp_hw rp.
Proof.
  intros (Hc & Hhw & Hbl) H1 H2 rp'.
  assert (Hleo : rp_leo rp' = keep).
  { unfold rp', rp_leo, lenN. cbn. rewrite firstn_length. unfold rp_leo, lenN in H2. lia. }
  split; [|split; [|split; [exact Hleo | reflexivity]]].
  - split; [apply chain_raw_firstn; exact Hc|]. split; [rewrite Hleo; exact H1|].
    intros k m Hk. unfold rp' in Hk. cbn [rp_bylast] in Hk. apply by_last_filter in Hk. destruct Hk as [Hk Hle].
    destruct (Hbl _ _ Hk) as (A & e & B & C). split; [exact A|]. exists e. split; [|exact C].
    unfold rp'. rewrite (ent_at_firstn rp keep k _ _ _ Hle). exact B.
  - split; [cbn; lia|]. intros idx Hi. unfold rp'. apply ent_at_firstn. lia.
Qed.

Lemma set_hw_same rp : set_hw rp (rp_hw rp) = rp.
Proof. destruct rp. reflexivity. Qed.

Lemma replace_append_mem_WF : forall ps rp base rp' final,
  WF rp -> replace_append_mem rp ps base = inr (rp', final) -> base <= rp_leo rp ->
  WF rp' /\ keeps rp rp' /\ final <= rp_leo rp' /\ rp_hw rp' = rp_hw rp.
Proof.
  induction ps as [|[m recs] ps IH]; intros rp base rp' final HWF H Hb; cbn in H.
  - injection H as <- <-. split; [exact HWF|]. split; [apply keeps_refl|]. split; [exact Hb | reflexivity].
  - destruct (negb (m_base m =? base)); [discriminate|].
    destruct (appendLeaderExactLocked rp m recs) as [[rp1 o] nf] eqn:E.
    destruct (appendLeaderExactLocked_WF _ _ _ _ _ _ HWF E) as (A & B & C & D).
    destruct (outcome_durable o); [|destruct o; discriminate].
    destruct (IH _ _ _ _ A H (D eq_refl)) as (I1 & I2 & I3 & I4).
    split; [exact I1|]. split; [eapply keeps_trans; eauto|]. split; [exact I3 | congruence].
Qed.

(* staging what replace_prepare_pebble prepared, on a log that ends in [previous] at [base] *)
Lemma replace_prepare_pebble_fold : forall ps rp keep base previous sc sl sr staged final acc,
  replace_prepare_pebble rp keep ps base previous sc sl sr = Some (staged, final) ->
  WF acc -> rp_leo acc = base ->
  (if base =? 0 then previous = ident_zero else ent_at acc base = Some previous) ->
  let acc' := fold_left stage staged acc in
  WF acc' /\ keeps acc acc' /\ rp_leo acc' = final /\ rp_hw acc' = rp_hw acc /\ base <= final.
Proof.
  induction ps as [|[m recs] ps IH]; intros rp keep base previous sc sl sr staged final acc H HWF Hleo Hprev.
  - injection H as <- <-. split; [exact HWF|]. split; [apply keeps_refl|]. split; [exact Hleo|]. split; [reflexivity | lia].
  - apply replace_prepare_pebble_cons in H. destruct H as (es & sr' & staged' & -> & Hb & Hd & Pt & Pd & Hrest).
    subst base. destruct (ValidFor_last _ _ _ (proj1 Hd)) as (_ & Hlast & Hcount).
    assert (Hpred : pred_at acc m).
    { destruct (N.eqb_spec (m_base m) 0) as [E0 | _]; [left; exact E0 | right; exists previous; auto]. }
    destruct (put_proposal_ok acc m recs es HWF Hd Hleo Hpred) as (A & B & C & D).
    destruct (IH _ _ _ _ _ _ _ _ _ _ Hrest A C) as (I1 & I2 & I3 & I4 & I5).
    { replace (m_last m =? 0) with false by lia. exact D. }
    split; [exact I1|]. split; [eapply keeps_trans; eauto|]. split; [exact I3|]. split; [exact I4 | lia].
Qed.

Lemma replace_rep_ok k rp q rp' lo : replace k rp q = inr (rp', lo) -> rep_ok rp rp'.
Proof.
  intros H HWF. apply replace_cases in H. destruct H as ([K1 K2] & K3 & rp1 & -> & H).
  assert (Hcut : forall bc, let cut := Replica (firstn (N.to_nat (rq_keep q)) (rp_log rp)) bc
                                      (filter (fun p => fst p <=? rq_keep q) (rp_bylast rp)) (rp_hw rp) in
            WF cut /\ keeps rp cut /\ rp_leo cut = rq_keep q /\ rp_hw cut = rp_hw rp)
    by (intro bc; apply truncated_WF; assumption).
  assert (Hfin : forall cut, WF cut -> keeps rp cut -> WF rp1 /\ keeps cut rp1 /\ lo <= rp_leo rp1 /\ rp_hw rp1 = rp_hw rp ->
            WF (set_hw rp1 (rq_committed q)) /\ keeps rp (set_hw rp1 (rq_committed q))).
  { intros cut W1 T (W2 & A & L & Hh). apply (rep_ok_trans _ cut); [intros _; auto | | exact HWF].
    apply (rep_ok_trans _ rp1); [intros _; auto | apply set_hw_ok; lia]. }
  destruct k.
  - destruct (Hcut (filter (fun p => m_last (snd p) <=? rq_keep q) (rp_bycmd rp))) as (T1 & T2 & T3 & T4).
    apply (Hfin _ T1 T2). destruct (replace_append_mem_WF _ _ _ _ _ T1 H) as (A1 & A2 & A3 & A4); [lia|].
    split; [exact A1|]. split; [exact A2|]. split; [exact A3 | congruence].
  - destruct H as (pv & staged & cut & Hpv & Hprep & Hc & ->).
    apply stageTruncateDurableProposals_cut in Hc. destruct Hc as [bc ->].
    destruct (Hcut bc) as (T1 & T2 & T3 & T4). apply (Hfin _ T1 T2).
    destruct (replace_prepare_pebble_fold _ _ _ _ _ _ _ _ _ _ _ Hprep T1 T3) as (A1 & A2 & A3 & A4 & _).
    { destruct (rq_keep q =? 0); [exact Hpv|]. rewrite ent_at_firstn; [exact Hpv | lia]. }
    split; [exact A1|]. split; [exact A2|]. split; [lia | congruence].
Qed.
