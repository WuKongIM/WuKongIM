(* Proof/ChanMigration_monitor.v — the per-command and frame clauses of the C17 monitor hold on
   every step of the model's trace of one-command batches. *)
From WK Require Import Base.Base Base.Lists.
From WK Require Import Gen.Consts_C15 Gen.Consts_C17 Model.RuntimeMeta Model.ChanMigration Model.ChanMigration_C17.
From WK Require Import Proof.RuntimeMeta Proof.ChanMigration Proof.ChanMigration_cmds Proof.ChanMigration_inv
                       Proof.ChanMigration_step Proof.ChanMigration_meta Proof.ChanMigration_trace.
Open Scope N_scope.

(* the channel alphabet of the observations names the meta row a command reads *)
Definition covers (chs : list chan_key) (c : cmd) : Prop :=
  match cmd_meta_chan c with Some ch => In ch chs | None => True end.

Lemma trans_tguard c h : cmd_trans c = Some h -> cmd_tguard c = Some (tr_guard h).
Proof. destruct c; cbn [cmd_trans cmd_tguard]; try discriminate; intro H; inversion H; reflexivity. Qed.

Lemma trans_meta_chan c h : cmd_trans c = Some h -> cmd_meta_chan c = Some (rguard_chan (tr_rguard h)).
Proof. destruct c; cbn [cmd_trans cmd_meta_chan]; try discriminate; intro H; inversion H; reflexivity. Qed.

Lemma trans_not_claim c h : cmd_trans c = Some h -> is_claim_advance c = false.
Proof. destruct c; cbn [cmd_trans is_claim_advance]; try discriminate; reflexivity. Qed.

Lemma trans_not_upsert c h : cmd_trans c = Some h -> is_upsert c = false.
Proof. destruct c; cbn [cmd_trans is_upsert]; try discriminate; reflexivity. Qed.

Section OneStep.
  Variable chs : list chan_key.
  Variable p : snap.
  Variable d : db.
  Variable c : cmd.
  Hypothesis Sh : shows chs p d.
  Hypothesis I : db_inv d.
  Hypothesis Nm : metas_normalized d.
  Hypothesis Cov : covers chs c.

  Let d' := fst (apply_one d c).
  Let x := snd (apply_one d c).
  Let okc := if accepted x then [c] else [].
  Let cur := snap_of (obs_of chs d' (bres_of x)).

  Lemma snap_task_p k : snap_task p k = task_get (db_tasks d) k.
  Proof. unfold snap_task. rewrite (proj1 Sh). reflexivity. Qed.

  Lemma snap_meta_p ch : In ch chs -> snap_meta p ch = meta_get d ch.
  Proof. intro H. apply (proj2 Sh ch H). Qed.

  Lemma step_cases : (okc = [c] /\ apply_one d c = (d', Ok 0)) \/ (okc = [] /\ d' = d).
  Proof.
    unfold okc. destruct (accepted x) eqn:A; [left|right]; (split; [reflexivity|]);
      [exact (accepted_eq d c A)|exact (not_accepted_same d c A)].
  Qed.

  Lemma commit_clause_holds : accepted x = true -> commit_clause p c = true.
  Proof.
    intro A. pose proof (accepted_eq d c A) as E. fold d' in E.
    destruct c; try reflexivity;
      destruct (accepted_taskmeta _ _ _ h E eq_refl) as (t & m & nt & nm & Lt & Lm & M & Out);
      destruct (cutover_mutated _ _ _ _ _ _ M eq_refl eq_refl) as [Core Ne];
      (destruct Out as [Eq|[Mg Mr]]; [contradiction|]);
      cbn [commit_clause]; rewrite snap_task_p, Lt, snap_meta_p, Lm by exact Cov;
      unfold cutover_proof_matches; cbn [cutover_now] in Core; rewrite Core, Mg, Mr; reflexivity.
  Qed.

  Lemma abort_clause_holds : accepted x = true -> abort_clause p c = true.
  Proof.
    intro A. pose proof (accepted_eq d c A) as E. fold d' in E.
    destruct c; try reflexivity.
    destruct (accepted_taskmeta _ _ _ h E eq_refl) as (t & m & nt & nm & Lt & _ & M & _).
    cbn [mutate_task_meta] in M. apply mutAbort_ok in M. destruct M as [T P].
    cbn [abort_clause]. rewrite snap_task_p, Lt, T, P. reflexivity.
  Qed.

  Lemma tasks_frame_holds : tasks_frame okc p cur = true.
  Proof.
    unfold tasks_frame. apply andb_true_iff.
    destruct step_cases as [[OK E]|[OK D]]; rewrite OK.
    - split; apply forallb_forall.
      + intros t Ht. cbn [cur snap_of obs_of s_tasks o_tasks] in Ht.
        pose proof (tasks_wf_get _ _ (proj1 (apply_one_fst_inv d c I : db_inv d')) Ht) as Gt.
        rewrite snap_task_p.
        destruct (row_change_frame _ _ _ _ (step_row_change d c d' (task_key t) I E))
          as [S|[[Tg _]|(_ & Hn & _)]].
        * rewrite <- S, Gt, task_eqb_refl. reflexivity.
        * cbn [existsb]. rewrite Tg. destruct (task_get (db_tasks d) (task_key t)); [apply orb_true_r|reflexivity].
        * congruence.
      + intros t0 Ht0. rewrite (proj1 Sh) in Ht0.
        pose proof (tasks_wf_get _ _ (proj1 I) Ht0) as G0.
        unfold snap_task. cbn [cur snap_of obs_of s_tasks o_tasks].
        destruct (row_change_frame _ _ _ _ (step_row_change d c d' (task_key t0) I E))
          as [S|[[_ Pr]|(Gc & Hn & t1 & G1 & T1)]].
        * rewrite S, G0. reflexivity.
        * destruct (task_get (db_tasks d') (task_key t0)); [reflexivity|contradiction].
        * rewrite Hn. cbn [existsb]. rewrite Gc. assert (t1 = t0) by congruence. subst t1.
          rewrite T1. reflexivity.
    - split; apply forallb_forall.
      + intros t Ht. cbn [cur snap_of obs_of s_tasks o_tasks] in Ht. rewrite D in Ht.
        rewrite snap_task_p, (tasks_wf_get _ _ (proj1 I) Ht), task_eqb_refl. reflexivity.
      + intros t0 Ht0. rewrite (proj1 Sh) in Ht0.
        unfold snap_task. cbn [cur snap_of obs_of s_tasks o_tasks]. rewrite D.
        rewrite (tasks_wf_get _ _ (proj1 I) Ht0). reflexivity.
  Qed.

  Lemma in_cur_metas ch v : In (ch, v) (s_metas cur) -> In ch chs /\ v = meta_get d' ch.
  Proof.
    cbn [cur snap_of obs_of s_metas o_metas]. intro Hin. apply in_map_iff in Hin.
    destruct Hin as [ch0 [Ev Hch]]. inversion Ev; subst. auto.
  Qed.

  Lemma token_owned_free_or h t m :
    cmd_trans c = Some h -> tguard_matches (tr_guard h) t = true ->
    fence_free_or m (t_task_id t) -> token_owned [c] (rm_write_fence_token m) = true.
  Proof.
    intros Hh Mg [F|F]; unfold token_owned; rewrite F.
    - reflexivity.
    - cbn [existsb]. rewrite (trans_tguard _ _ Hh), (trans_not_claim _ _ Hh).
      unfold tguard_matches in Mg. b2p.
      match goal with Hb : bytes_eqb (t_task_id t) _ = true |- _ => apply bytes_eqb_eq in Hb; rewrite Hb end.
      rewrite bytes_eqb_refl. destruct (is_empty (tg_task_id (tr_guard h))); reflexivity.
  Qed.

  Lemma metas_frame_holds : metas_frame okc p cur = true.
  Proof.
    unfold metas_frame. apply forallb_forall. intros [ch v] Hin.
    destruct (in_cur_metas _ _ Hin) as [Hch ->]. cbn [fst snd]. rewrite (snap_meta_p _ Hch).
    destruct step_cases as [[OK E]|[OK D]]; rewrite OK.
    - cbn [existsb].
      destruct (step_meta_change d c d' ch Nm E) as [S|m0 next Hc Hk Gn Nn|h t m nt nm Hh Hk Gt Gm Mg Mu V Gn].
      + rewrite S. destruct (meta_get d ch); [rewrite runtime_meta_eqb_refl|]; reflexivity.
      + rewrite Gn. subst c. cbn [cmd_meta_chan is_upsert]. rewrite <- Hk, chan_key_eqb_refl. cbn [orb andb].
        destruct (meta_get d ch); [rewrite orb_true_r|]; reflexivity.
      + rewrite Gn, Gm. rewrite (trans_meta_chan _ _ Hh), <- Hk, chan_key_eqb_refl. cbn [orb andb].
        apply orb_true_iff. right.
        destruct (mutate_fence_ownership _ _ _ _ _ Mu) as [F|[F1 F2]].
        * rewrite (fence_eqb_trans _ _ _ F (fence_stored m nm)). rewrite orb_true_r. reflexivity.
        * rewrite (token_owned_free_or h t m Hh Mg F1).
          assert (F3 : fence_free_or (stored_meta m nm) (t_task_id t)).
          { pose proof (proj1 (fence_eqb_fields _ _) (fence_stored m nm)) as Tk. inversion Tk as [Tk'].
            unfold fence_free_or. rewrite <- Tk'. exact F2. }
          rewrite (token_owned_free_or h t _ Hh Mg F3). rewrite !orb_true_r. reflexivity.
    - rewrite D. destruct (meta_get d ch); [rewrite runtime_meta_eqb_refl|]; reflexivity.
  Qed.

  Lemma metas_valid_holds : metas_valid okc p cur = true.
  Proof.
    unfold metas_valid. apply forallb_forall. intros [ch v] Hin.
    destruct (in_cur_metas _ _ Hin) as [Hch ->]. cbn [fst snd]. rewrite (snap_meta_p _ Hch).
    destruct step_cases as [[OK E]|[OK D]]; rewrite OK.
    - cbn [existsb].
      destruct (step_meta_change d c d' ch Nm E) as [S|m0 next Hc Hk Gn Nn|h t m nt nm Hh Hk Gt Gm Mg Mu V Gn].
      + rewrite S. destruct (meta_get d ch); [rewrite runtime_meta_eqb_refl|]; reflexivity.
      + rewrite Gn. subst c. cbn [is_upsert]. destruct (meta_get d ch); [rewrite orb_true_r|]; reflexivity.
      + rewrite Gn, Gm. apply orb_true_iff. right.
        destruct (Nm _ _ Gm) as (_ & Si & _).
        destruct (mutate_isr _ _ _ _ _ Si Mu) as [Mi Li].
        destruct (stored_isr m nm) as [Es Em].
        rewrite V, Em, Mi, Z.eqb_refl, Es. cbn [andb]. apply Nat.leb_le. exact Li.
    - rewrite D. destruct (meta_get d ch); [rewrite runtime_meta_eqb_refl|]; reflexivity.
  Qed.

  Lemma rejected_holds :
    let r := bres_of x in
    negb (all_stale r || match r with BErr _ => true | _ => false end) || snap_unchanged p cur = true.
  Proof.
    cbn zeta. destruct (accepted x) eqn:A.
    - destruct x as [n|e]; [|discriminate]. destruct n; [|discriminate]. reflexivity.
    - assert (D : d' = d) by (apply not_accepted_same; exact A).
      unfold cur. rewrite D, (snap_unchanged_shows chs p d _ Sh). apply orb_true_r.
  Qed.
  Lemma state_clauses_hold :
    let r := bres_of x in
    negb (all_stale r || match r with BErr _ => true | _ => false end) || snap_unchanged p cur = true
    /\ forallb (commit_clause p) okc = true /\ forallb (abort_clause p) okc = true
    /\ tasks_frame okc p cur && metas_frame okc p cur = true /\ metas_valid okc p cur = true.
  Proof.
    split; [exact rejected_holds|].
    rewrite tasks_frame_holds, metas_frame_holds, metas_valid_holds. unfold okc.
    destruct (accepted x) eqn:A; cbn [forallb]; [|auto].
    rewrite (commit_clause_holds A), (abort_clause_holds A). auto.
  Qed.
End OneStep.
