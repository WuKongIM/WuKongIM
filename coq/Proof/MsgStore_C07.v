(* Proof/MsgStore_C07.v — C07: the model refines the plain sequential logs.  Every
   step of the model, with the observations the harness takes after it, is
   accepted by the specification step [spec_step] and re-establishes the
   relation [R]; hence the monitor accepts every trace the model can produce. *)
From WK Require Import Base.Base Base.Lists Model.KV Gen.Consts_C07 Model.MsgStore Model.MsgStore_C07
     Proof.KV Proof.MsgStore_base Proof.MsgStore_rel Proof.MsgStore_reads Proof.MsgStore_frame
     Proof.MsgStore_mut Proof.MsgStore_step Proof.MsgStore_ops Proof.MsgStore_batch.
From Coq Require Import Sorting.Permutation Sorting.Sorted.

Section C07.
  Variable F : Type.
  Variable f_empty : F.
  Variable f_may : F -> bytes * bytes -> bool.
  Variable f_add : F -> bytes * bytes -> F.

  Notation mstate := (mstate F).
  Notation R := (R F).
  Notation step := (step F f_empty f_may f_add).
  Notation step_dump := (step_dump F f_empty f_may f_add).
  Notation run := (run F f_empty f_may f_add).

  (* the histories the refinement theorems talk about: every channel an op (or an
     item of a multi-channel StoreAppendBatch) names is in the harness' table *)
  Definition op_okb (o : op) : Prop :=
    match o with
    | OCBatch items => Forall (fun it : item => In (fst (fst it)) all_chans) items
    | ODiscard _ => False      (* the paged DiscardForRestore: Proof/MsgStore_discard.v *)
    | _ => In (op_chan o) all_chans
    end.

  (* the same without the multi-channel StoreAppendBatch (the C08 uniqueness
     theorems exclude it: C08-K1) *)
  Definition op_ok (o : op) : Prop :=
    In (op_chan o) all_chans /\ match o with OCBatch _ | ODiscard _ => False | _ => True end.

  Lemma op_ok_b o : op_ok o -> op_okb o.
  Proof. intros [H1 H2]. destruct o; try contradiction; exact H1. Qed.

  Lemma Rchan_init c : Rchan [] as_init c [].
  Proof.
    constructor.
    - reflexivity.
    - constructor.
    - intros q r. split; [intro H; discriminate H|intros [[] _]].
    - constructor.
    - reflexivity.
    - constructor.
    - exact I.
    - intros q Hq. cbn in Hq. lia.
    - intros n q. split; [intro H; exfalso; apply H; reflexivity|intros [r [[] _]]].
    - intros u q. split; [intro H; exfalso; apply H; reflexivity|intros [r [[] _]]].
    - intros n u q i h H. discriminate H.
    - intros r [].
    - reflexivity.
    - reflexivity.
  Qed.

  Lemma R_init : R (st_init F f_empty) as_init.
  Proof.
    split.
    - constructor.
      + constructor.
      + intro c. exists []. apply Rchan_init.
      + intros i c q H. discriminate H.
      + intros c q r H. discriminate H.
      + intros c q v H. discriminate H.
    - intros c H. discriminate H.
  Qed.

  Lemma step_read st s o :
    R st s -> is_read o = true ->
    R (fst (step st o)) s /\ spec_check_read s o (snd (step st o)) = true.
  Proof.
    intros HR Hr. destruct o; try discriminate Hr; cbn [MsgStore.step fst snd].
    - split; [exact HR|apply check_read; exact HR].
    - pose proof (check_rread F st s c fromSeq limit maxb HR) as H.
      destruct (ReadReverse F st c fromSeq limit maxb) as [st' r]. destruct H as [H1 [_ [_ H2]]].
      split; assumption.
    - split; [exact HR|apply check_get; exact HR].
    - split; [exact HR|apply check_byid; exact HR].
    - split; [exact HR|]. pose proof (check_bycno F st s c cno before limit HR) as H.
      destruct (ListByClientMsgNo F st c cno before limit) as [[[rs more] nb]|e]; exact H.
    - split; [exact HR|apply check_idem; exact HR].
    - split; [exact HR|apply check_lasts; exact HR].
    - destruct (loadLEO_R F st s c HR) as [H1 [H2 _]].
      destruct (loadLEOLocked F st c) as [st' leo]. cbn [fst snd] in *. split; [exact H2|].
      cbn [spec_check_read]. rewrite H1. apply N.eqb_refl.
    - split; [exact HR|reflexivity].
    - split; [exact HR|apply check_lck; exact HR].
    - split; [exact HR|apply check_hist; exact HR].
  Qed.

  Lemma R_reopen st s : R st s -> R (reopen F f_empty st) s.
  Proof. intros [Hk _]. split; [exact Hk|]. intros c H. discriminate. Qed.

  Lemma step_mut st s o :
    R st s -> op_okb o -> is_read o = false ->
    exists s', spec_mutate s o (snd (step st o)) = Some s' /\ R (fst (step st o)) s'.
  Proof.
    intros HR Hc Hr. destruct o; try discriminate Hr; cbn [op_okb op_chan] in Hc.
    - apply step_append; assumption.
    - apply step_apply; assumption.
    - apply step_capp; assumption.
    - apply step_cbatch; assumption.
    - apply step_trunc; assumption.
    - apply step_ctrunc; assumption.
    - apply step_trim; assumption.
    - apply step_ckpt; assumption.
    - apply step_ckptm; assumption.
    - exists s. split; [reflexivity|exact HR].
    - exists s. split; [reflexivity|apply R_reopen; exact HR].
    - contradiction.
  Qed.

  Lemma dump_chans_ok cs : forall st s, R st s ->
    R (fst (dump_chans F st cs)) s /\ forallb (spec_check_dump s None) (snd (dump_chans F st cs)) = true.
  Proof.
    induction cs as [|c cs IH]; intros st s HR; cbn [dump_chans fst snd]; [split; [exact HR|reflexivity]|].
    destruct (dump_chan_ok F st s c None HR) as [H1 [_ [_ H2]]].
    destruct (dump_chan F st c None) as [st1 d]. cbn [fst snd] in *.
    destruct (IH st1 s H1) as [H3 H4]. destruct (dump_chans F st1 cs) as [st2 ds]. cbn [fst snd] in *.
    split; [exact H3|]. cbn [forallb]. rewrite H2, H4. reflexivity.
  Qed.

  Lemma spec_step_read s o x ds :
    is_read o = true -> spec_check_read s o x = true -> spec_step s (E o x ds) = Some s.
  Proof. intros H1 H2. cbn [spec_step]. rewrite H1, H2. reflexivity. Qed.

  Lemma spec_step_mut s s' o x ds :
    is_read o = false -> spec_mutate s o x = Some s' ->
    forallb (spec_check_dump s' (new_range o x)) ds = true -> spec_step s (E o x ds) = Some s'.
  Proof. intros H1 H2 H3. cbn [spec_step]. rewrite H1, H2, H3. reflexivity. Qed.

  Theorem step_sim compact st s o :
    R st s -> op_okb o ->
    let '(st', x, ds) := step_dump compact st o in
    exists s', spec_step s (E o x ds) = Some s' /\ R st' s'.
  Proof.
    intros HR Hok. rewrite step_dump_eq.
    destruct (is_read o) eqn:Hr.
    - destruct (step_read st s o HR Hr) as [H1 H2].
      destruct (step st o) as [st1 x]. cbn [fst snd] in *.
      rewrite (dumps_of_read F compact o x st1 Hr). exists s. split; [apply spec_step_read; assumption|exact H1].
    - destruct (step_mut st s o HR Hok Hr) as [s' [H1 H2]].
      destruct (step st o) as [st1 x]. cbn [fst snd] in *.
      destruct (dumps_of_cases F compact o x st1) as [E|[[E En]|E]]; rewrite E.
      + exists s'. split; [apply spec_step_mut; [exact Hr|exact H1|reflexivity]|exact H2].
      + destruct (dump_chans_ok all_chans st1 s' H2) as [H3 H4].
        destruct (dump_chans F st1 all_chans) as [st2 ds]. cbn [fst snd] in *.
        exists s'. split; [apply spec_step_mut; [exact Hr|exact H1|rewrite En; exact H4]|exact H3].
      + destruct (dump_chan_ok F st1 s' (op_chan o) (new_range o x) H2) as [H3 [_ [_ H4]]].
        destruct (dump_chan F st1 (op_chan o) (new_range o x)) as [st2 d]. cbn [fst snd] in *.
        exists s'. split; [apply spec_step_mut; [exact Hr|exact H1|cbn [forallb]; rewrite H4; reflexivity]|exact H3].
  Qed.

  Lemma step_dump_out compact st o : snd (fst (step_dump compact st o)) = snd (step st o).
  Proof.
    rewrite step_dump_eq. destruct (step st o) as [st1 x]. destruct (dumps_of F compact o x st1). reflexivity.
  Qed.

  Fixpoint entries (ops : list op) (tr : list (out * list dump)) : list entry :=
    match ops, tr with
    | o :: ops', (x, ds) :: tr' => E o x ds :: entries ops' tr'
    | _, _ => []
    end.

  Lemma run_sim compact ops : forall st s,
    R st s -> Forall op_okb ops ->
    spec_run s (entries ops (snd (run compact st ops))) = true
    /\ exists s', R (fst (run compact st ops)) s'.
  Proof.
    induction ops as [|o ops IH]; intros st s HR Hok; cbn [MsgStore.run entries snd fst spec_run].
    - split; [reflexivity|exists s; exact HR].
    - inversion Hok as [|? ? Ho Hrest]; subst.
      pose proof (step_sim compact st s o HR Ho) as H.
      destruct (step_dump compact st o) as [[st1 x] ds]. destruct H as [s' [H1 H2]].
      destruct (IH st1 s' H2 Hrest) as [H3 H4].
      destruct (run compact st1 ops) as [st2 tr]. cbn [fst snd entries spec_run] in *.
      rewrite H1. split; [exact H3|exact H4].
  Qed.

  (* C07: the monitor accepts every trace of the model *)
  Theorem model_satisfies_monitor compact ops :
    Forall op_okb ops ->
    spec_run as_init (entries ops (snd (run compact (st_init F f_empty) ops))) = true.
  Proof. intro H. apply (run_sim compact ops _ _ R_init H). Qed.

  (* contiguity: in every reachable state the rows of a channel are strictly
     ascending, lie between 1 and the log end, and every sequence above the
     logical retention boundary up to the log end is present *)
  Theorem contiguous st s c :
    R st s ->
    let rows := rows_of (st_kv F st) c in
    let leo := snd (loadLEOLocked F st c) in
    sorted_lt r_seq rows
    /\ Forall (fun r => 1 <= r_seq r <= leo) rows
    /\ (forall q, local_of (st_kv F st) c < q <= leo -> exists r, In r rows /\ r_seq r = q)
    /\ leo = recoverLEO (st_kv F st) c.
  Proof.
    intros HR. destruct (loadLEO_R F st s c HR) as [H1 _]. cbv zeta. rewrite H1.
    destruct HR as [Hk _]. destruct (rk_chan _ _ Hk c) as [rows Rc].
    rewrite (Rchan_rows_of _ _ _ _ (rk_wf _ _ Hk) Rc).
    split; [apply Rc|]. split; [|split; [apply Rc|symmetry; apply Rc]].
    apply Forall_forall. intros r Hr.
    assert (Hok : row_ok c r) by (eapply Forall_forall; [apply Rc|exact Hr]).
    pose proof (rc_le_leo _ _ _ _ Rc) as Hle. eapply Forall_forall in Hle; [|exact Hr].
    destruct Hok as [_ [_ [_ H]]]. split; assumption.
  Qed.

  (* closing and reopening the whole database changes nothing the API can see:
     same store, same recovered log end *)
  Theorem reopen_identity st s c :
    R st s ->
    R (reopen F f_empty st) s
    /\ st_kv F (reopen F f_empty st) = st_kv F st
    /\ snd (loadLEOLocked F (reopen F f_empty st) c) = snd (loadLEOLocked F st c).
  Proof.
    intro HR. split; [apply R_reopen; exact HR|]. split; [reflexivity|].
    destruct (loadLEO_R F st s c HR) as [H1 _].
    destruct (loadLEO_R F _ s c (R_reopen st s HR)) as [H2 _]. congruence.
  Qed.

  Theorem reads_total st s c f lim mb :
    R st s -> exists rs, Read F st c f lim mb = ok rs.
  Proof.
    intros [Hk _]. destruct (rk_chan _ _ Hk c) as [rows Rc]. unfold Read.
    destruct (readForward_spec_read _ _ _ _ f lim mb (rk_wf _ _ Hk) Rc) as [X [E _]].
    exists X. exact E.
  Qed.
End C07.

Lemma accepted_byid_sound s c i m :
  spec_check_read s (OById c i) (XMsgO (Some m)) = true -> In m (amsgs (as_log s c)) /\ m_id m = i.
Proof.
  cbn [spec_check_read]. destruct (existsb (N.eqb i) (as_tids s)).
  - intro H. apply andb_true_iff in H. destruct H as [H1 H2]. apply N.eqb_eq in H2. split; [|exact H2].
    unfold in_msgs in H1. apply existsb_exists in H1. destruct H1 as [m' [Hm' E]]. apply msg_eqb_eq in E. subst. exact Hm'.
  - destruct (find (fun m0 => m_id m0 =? i) (amsgs (as_log s c))) as [m'|] eqn:Fd; cbn [option_eqb]; [|discriminate].
    intro E. apply msg_eqb_eq in E. subst m'. apply find_some in Fd. destruct Fd as [H1 H2]. apply N.eqb_eq in H2. split; assumption.
Qed.

Lemma accepted_idem_sound s c uid cno q i off h :
  spec_check_read s (OIdem c uid cno) (XHit (Some (q, i, off, h))) = true ->
  exists m, In m (amsgs (as_log s c)) /\ m_seq m = q /\ m_id m = i /\ m_hash m = h /\ m_uid m = uid /\ m_cno m = cno.
Proof.
  cbn [spec_check_read]. intro H. apply andb_true_iff in H. destruct H as [_ H].
  apply existsb_exists in H. destruct H as [m [Hm E]]. exists m. split; [exact Hm|].
  repeat (apply andb_true_iff in E; destruct E as [E ?]).
  repeat match goal with
         | H : (_ =? _) = true |- _ => apply N.eqb_eq in H
         | H : bytes_eqb _ _ = true |- _ => apply bytes_eqb_eq in H
         end. repeat split; assumption.
Qed.

Lemma accepted_dump_exact s nr c leo rows news :
  spec_check_dump s nr (D c (inl leo) (inl rows) (inl news)) = true ->
  leo = al_leo (as_log s c) /\ rows = map mcompact (amsgs (as_log s c)).
Proof.
  cbn [spec_check_dump]. intro H. apply andb_true_iff in H. destruct H as [H _].
  apply andb_true_iff in H. destruct H as [H1 H2]. apply N.eqb_eq in H1. split; [exact H1|].
  apply (list_eqb_spec triple_eqb); [|exact H2].
  intros [[a1 a2] a3] [[b1 b2] b3]. cbn. rewrite !andb_true_iff, !N.eqb_eq. split; [intros [[-> ->] ->]; reflexivity|intro E; injection E as -> -> ->; repeat split].
Qed.

(* the executable instance used by the correspondence check: the refinement part
   of the monitor (the retry clause needs the soundness of the filter: Proof/MsgStore_C08.v) *)
Lemma spec_run_on_model (compact : bool) (ops : list op) :
  Forall op_okb ops ->
  spec_run as_init (entries ops (snd (xrun compact ops))) = true.
Proof.
  intro H. unfold xrun, xinit. apply (model_satisfies_monitor xfilter [] x_may x_add compact ops H).
Qed.
