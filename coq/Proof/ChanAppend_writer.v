(* Proof/ChanAppend_writer.v — the per-channel writer's reorder buffer (state.go
   recordAppendCompletion / popNextAppendCompletion, the pop loop of writer.go
   applyAppendCompletion).  The model functions are used through three relations:
   [recorded], [popped] (their outcomes) and [drains] (the pop loop without its fuel);
   every property of the loop is an induction over [drains]. *)
From WK Require Import Base.Base Base.Lists Gen.Consts_C29 Model.ChanAppend.
From Coq Require Import Permutation.
Open Scope N_scope.

Definition keys {A} (m : list (N * A)) : list N := map fst m.

Lemma map_get_in {A} k (m : list (N * A)) v : map_get k m = Some v -> In (k, v) m.
Proof.
  induction m as [|[k' v'] m IH]; cbn [map_get]; intro H; [discriminate|].
  destruct (k =? k') eqn:E.
  - apply N.eqb_eq in E. inversion H; subst. left; reflexivity.
  - right; auto.
Qed.

Lemma map_get_none {A} k (m : list (N * A)) : map_get k m = None <-> ~ In k (keys m).
Proof.
  induction m as [|[k' v'] m IH]; cbn [map_get keys map fst]; [tauto|].
  destruct (k =? k') eqn:E.
  - apply N.eqb_eq in E. subst. split; [discriminate|]. intro H; exfalso; apply H; left; reflexivity.
  - apply N.eqb_neq in E. rewrite IH. unfold keys. split; intro H.
    + intros [H1|H1]; [congruence|tauto].
    + intro H1. apply H. right; exact H1.
Qed.

Lemma map_get_some_key {A} k (m : list (N * A)) v : map_get k m = Some v -> In k (keys m).
Proof. intro H. apply map_get_in in H. apply (in_map fst) in H. exact H. Qed.

Lemma in_map_del {A} k (m : list (N * A)) p : In p (map_del k m) <-> In p m /\ fst p <> k.
Proof. unfold map_del. rewrite filter_In, negb_true_iff, N.eqb_neq. reflexivity. Qed.

Lemma filter_len_le {A} (f : A -> bool) (l : list A) : (length (filter f l) <= length l)%nat.
Proof. induction l as [|x l IH]; cbn [filter length]; [lia|]. destruct (f x); cbn [length]; lia. Qed.

Lemma map_del_length_lt {A} k (m : list (N * A)) :
  In k (keys m) -> (length (map_del k m) < length m)%nat.
Proof.
  induction m as [|[k' v] m IH]; cbn [keys map fst]; intro H; [contradiction|].
  unfold map_del. cbn [filter fst]. destruct (k' =? k) eqn:E; cbn [negb].
  - pose proof (filter_len_le (fun p : N * A => negb (fst p =? k)) m). cbn [length]. lia.
  - apply N.eqb_neq in E. destruct H as [H|H]; [congruence|].
    cbn [length]. specialize (IH H). unfold map_del in IH. lia.
Qed.

Lemma map_del_length_le {A} k (m : list (N * A)) : (length (map_del k m) <= length m)%nat.
Proof. unfold map_del. apply filter_len_le. Qed.

Lemma map_del_absent {A} k (m : list (N * A)) : ~ In k (keys m) -> map_del k m = m.
Proof.
  induction m as [|[k' v] m IH]; intro H; [reflexivity|].
  unfold map_del. cbn [filter fst]. cbn [keys map fst] in H.
  destruct (k' =? k) eqn:E.
  - apply N.eqb_eq in E. exfalso. apply H. left. exact E.
  - cbn [negb]. f_equal. apply IH. intro Hin. apply H. right. exact Hin.
Qed.

Lemma map_get_perm {A} k (m : list (N * A)) v :
  NoDup (keys m) -> map_get k m = Some v -> Permutation m ((k, v) :: map_del k m).
Proof.
  induction m as [|[k' v'] m IH]; intros Hnd H; [discriminate|].
  cbn [keys map fst] in Hnd. inversion Hnd as [|x l Hx Hnd']; subst.
  cbn [map_get] in H. destruct (k =? k') eqn:E.
  - apply N.eqb_eq in E. subst k'. inversion H; subst v'.
    unfold map_del. cbn [filter fst]. rewrite N.eqb_refl. cbn [negb].
    fold (map_del k m). rewrite map_del_absent by exact Hx. apply Permutation_refl.
  - unfold map_del. cbn [filter fst]. rewrite N.eqb_sym, E. cbn [negb]. fold (map_del k m).
    eapply perm_trans; [apply perm_skip; apply IH; assumption|]. apply perm_swap.
Qed.

Fixpoint consec (k : N) (l : list N) : Prop :=
  match l with
  | [] => True
  | x :: r => x = k /\ consec (k + 1) r
  end.

Lemma consec_app k l1 l2 : consec k l1 -> consec (k + N.of_nat (length l1)) l2 -> consec k (l1 ++ l2).
Proof.
  revert k. induction l1 as [|x l1 IH]; intros k H1 H2; cbn [app length] in *.
  - replace (k + N.of_nat 0) with k in H2 by lia. exact H2.
  - destruct H1 as [E H1]. split; [exact E|]. apply IH; [exact H1|].
    replace (k + 1 + N.of_nat (length l1)) with (k + N.of_nat (S (length l1))) by lia. exact H2.
Qed.

Lemma consec_in k l x : consec k l -> (In x l <-> k <= x < k + N.of_nat (length l)).
Proof.
  revert k. induction l as [|y l IH]; intros k H; cbn [In length]; [lia|].
  destruct H as [E H]. rewrite (IH _ H). lia.
Qed.

Lemma consec_nodup k l : consec k l -> NoDup l.
Proof.
  revert k. induction l as [|y l IH]; intros k H; [constructor|].
  destruct H as [E H]. constructor; [|eapply IH; eauto].
  intro Hin. apply (consec_in _ _ _ H) in Hin. lia.
Qed.

Lemma consec_nseq n k l : consec k l -> length l = n -> l = map (fun i => k + N.of_nat i) (seq 0 n).
Proof.
  revert k l. induction n as [|n IH]; intros k l H L.
  - destruct l; [reflexivity|discriminate].
  - destruct l as [|x l]; [discriminate|]. cbn [consec] in H. destruct H as [E H]. subst x.
    cbn [seq map]. f_equal; [lia|]. rewrite <- seq_shift, map_map.
    rewrite (IH (k + 1) l H); [|cbn [length] in L; lia].
    apply map_ext. intro i. lia.
Qed.

Definition buffered (s : wstate) : list event :=
  (match ws_ready s with Some e => [e] | None => [] end) ++ map snd (ws_completed s).

Definition entries_ok (s : wstate) : Prop := forall k e, In (k, e) (ws_completed s) -> ev_seq e = k.

Record BufOK (s : wstate) : Prop := {
  bo_entries : entries_ok s;
  bo_nodup : NoDup (keys (ws_completed s));
  bo_ready : forall e, ws_ready s = Some e -> ev_seq e = ws_drain s }.

Lemma entries_ok_init hw limit : entries_ok (newChannelState hw limit).
Proof. intros k e H. contradiction. Qed.

Lemma entries_ok_del s k : entries_ok s -> forall k' e, In (k', e) (map_del k (ws_completed s)) -> ev_seq e = k'.
Proof. intros H k' e Hin. apply in_map_del in Hin. apply (H _ _ (proj1 Hin)). Qed.

Lemma entries_ok_put s ev : entries_ok s -> forall k e, In (k, e) (map_put (ev_seq ev) ev (ws_completed s)) -> ev_seq e = k.
Proof. intros H k e [Hin|Hin]; [inversion Hin; reflexivity|exact (entries_ok_del _ _ H _ _ Hin)]. Qed.

Lemma completed_seqs s : entries_ok s -> map ev_seq (map snd (ws_completed s)) = keys (ws_completed s).
Proof. intro H. rewrite map_map. apply map_ext_in. intros [k e] Hin. exact (H k e Hin). Qed.

(* [s] with drain position [d], ready slot [r] and map [m]: what record and pop change *)
Definition set_buffer (s : wstate) (d : N) (r : option event) (m : list (N * event)) : wstate :=
  WS (ws_hw s) (ws_limit s) (ws_pending s) (ws_inflight s) (ws_inflight_items s) (ws_next s) d r m.

(* stale: dropped; awaited and the ready slot free: ready slot; otherwise: the map *)
Inductive recorded (s : wstate) (ev : event) : wstate -> Prop :=
| RecStale : ev_seq ev < ws_drain s -> recorded s ev s
| RecReady : ev_seq ev = ws_drain s -> ws_ready s = None ->
    recorded s ev (set_buffer s (ws_drain s) (Some ev) (ws_completed s))
| RecMap : ws_drain s <= ev_seq ev -> (ev_seq ev = ws_drain s -> ws_ready s <> None) ->
    recorded s ev (set_buffer s (ws_drain s) (ws_ready s) (map_put (ev_seq ev) ev (ws_completed s))).

Lemma record_recorded s ev : recorded s ev (recordAppendCompletion s ev).
Proof.
  unfold recordAppendCompletion. destruct (N.ltb_spec (ev_seq ev) (ws_drain s)) as [L|L]; [apply RecStale; exact L|].
  destruct (N.eqb_spec (ev_seq ev) (ws_drain s)) as [E|E]; cbn [andb]; [|apply RecMap; [exact L|intro; contradiction]].
  destruct (ws_ready s) as [r|] eqn:R; cbn [negb]; [|apply RecReady; assumption].
  rewrite <- R. apply RecMap; [exact L|]. intros _. rewrite R. discriminate.
Qed.

Lemma record_entries_ok s ev : entries_ok s -> entries_ok (recordAppendCompletion s ev).
Proof. intro H. destruct (record_recorded s ev); [exact H|exact H|exact (entries_ok_put s ev H)]. Qed.

Lemma record_buffered s ev e : In e (buffered (recordAppendCompletion s ev)) -> e = ev \/ In e (buffered s).
Proof.
  destruct (record_recorded s ev) as [L|E R|L W]; [auto| |]; unfold buffered; cbn [set_buffer ws_ready ws_completed].
  - rewrite R. cbn [app]. intros [H|H]; [left; auto|right; auto].
  - rewrite !in_app_iff. intros [H|H]; [right; left; exact H|].
    unfold map_put in H. cbn [map snd] in H. destruct H as [H|H]; [left; auto|].
    right. right. apply in_map_iff in H. destruct H as [p [E1 H]]. apply in_map_del in H.
    apply in_map_iff. exists p. tauto.
Qed.

Lemma record_fields s ev :
  ws_pending (recordAppendCompletion s ev) = ws_pending s /\ ws_next (recordAppendCompletion s ev) = ws_next s
  /\ ws_limit (recordAppendCompletion s ev) = ws_limit s /\ ws_hw (recordAppendCompletion s ev) = ws_hw s
  /\ ws_inflight (recordAppendCompletion s ev) = ws_inflight s.
Proof. destruct (record_recorded s ev); repeat split. Qed.

Lemma record_drain s ev : ws_drain (recordAppendCompletion s ev) = ws_drain s.
Proof. destruct (record_recorded s ev); reflexivity. Qed.

(* a completion whose sequence number is new and not yet drained is kept *)
Lemma record_perm s ev :
  BufOK s -> ws_drain s <= ev_seq ev -> ~ In (ev_seq ev) (map ev_seq (buffered s)) ->
  Permutation (buffered (recordAppendCompletion s ev)) (ev :: buffered s)
  /\ BufOK (recordAppendCompletion s ev).
Proof.
  intros [B1 B2 B3] Hge Hnew.
  destruct (record_recorded s ev) as [L|E R|L W]; [lia| |]; unfold buffered; cbn [set_buffer ws_ready ws_completed].
  - rewrite R. split; [apply Permutation_refl|].
    constructor; cbn [set_buffer ws_ready ws_completed ws_drain]; auto. intros x Hx. inversion Hx; subst. exact E.
  - assert (Hk : ~ In (ev_seq ev) (keys (ws_completed s))).
    { intro Hin. apply Hnew. unfold buffered. rewrite map_app, completed_seqs by exact B1.
      apply in_or_app. right. exact Hin. }
    unfold map_put. rewrite map_del_absent by exact Hk. split.
    + cbn [map snd]. apply Permutation_sym. apply Permutation_middle.
    + constructor; cbn [set_buffer ws_ready ws_completed ws_drain keys map fst]; auto.
      * intros k x [Hx|Hx]; [inversion Hx; reflexivity|apply (B1 _ _ Hx)].
      * constructor; assumption.
Qed.

Lemma finish_fields s n :
  ws_drain (finishAppend s n) = ws_drain s /\ ws_ready (finishAppend s n) = ws_ready s
  /\ ws_completed (finishAppend s n) = ws_completed s /\ ws_next (finishAppend s n) = ws_next s
  /\ ws_pending (finishAppend s n) = ws_pending s.
Proof. repeat split. Qed.

Lemma finish_entries_ok s n : entries_ok s -> entries_ok (finishAppend s n).
Proof. intros H k e Hin. apply (H k e Hin). Qed.

Lemma finish_buffered s n : buffered (finishAppend s n) = buffered s.
Proof. reflexivity. Qed.

Lemma finish_bufok s n : BufOK s -> BufOK (finishAppend s n).
Proof. intros [B1 B2 B3]. constructor; auto. Qed.

Lemma finish_pop s n :
  fst (popNextAppendCompletion (finishAppend s n)) = fst (popNextAppendCompletion s).
Proof.
  unfold popNextAppendCompletion, pop_map. cbn [ws_ready ws_drain ws_completed finishAppend].
  destruct (ws_ready s) as [r|].
  - destruct (ev_seq r =? ws_drain s); [reflexivity|].
    destruct (map_get (ws_drain s) (ws_completed s)); reflexivity.
  - destruct (map_get (ws_drain s) (ws_completed s)); reflexivity.
Qed.

(* the ready slot does not hold the completion the drain position waits for *)
Definition ready_waits (s : wstate) : Prop := forall r, ws_ready s = Some r -> ev_seq r <> ws_drain s.

Inductive popped (s : wstate) : option event -> wstate -> Prop :=
| PopReady e : ws_ready s = Some e -> ev_seq e = ws_drain s ->
    popped s (Some e) (set_buffer s (ws_drain s + 1) None (ws_completed s))
| PopMap e : ready_waits s -> map_get (ws_drain s) (ws_completed s) = Some e ->
    popped s (Some e) (set_buffer s (ws_drain s + 1) (ws_ready s) (map_del (ws_drain s) (ws_completed s)))
| PopNone : ready_waits s -> map_get (ws_drain s) (ws_completed s) = None -> popped s None s.

Lemma pop_popped s o s' : popNextAppendCompletion s = (o, s') -> popped s o s'.
Proof.
  unfold popNextAppendCompletion.
  assert (M : ready_waits s -> pop_map s = (o, s') -> popped s o s').
  { intros W. unfold pop_map. destruct (map_get (ws_drain s) (ws_completed s)) eqn:G;
      intro H; inversion H; subst; [apply PopMap|apply PopNone]; assumption. }
  destruct (ws_ready s) as [r|] eqn:R.
  - destruct (ev_seq r =? ws_drain s) eqn:E.
    + apply N.eqb_eq in E. intro H. inversion H; subst. apply PopReady; assumption.
    + apply M. intros r' Hr'. rewrite R in Hr'. inversion Hr'; subst. apply N.eqb_neq. exact E.
  - apply M. intros r' Hr'. rewrite R in Hr'. discriminate.
Qed.

Lemma pop_none_state s s' : popNextAppendCompletion s = (None, s') -> s' = s.
Proof. intro P. apply pop_popped in P. inversion P. reflexivity. Qed.

Lemma pop_fields s o s' :
  popNextAppendCompletion s = (o, s') ->
  ws_pending s' = ws_pending s /\ ws_next s' = ws_next s /\ ws_limit s' = ws_limit s /\ ws_hw s' = ws_hw s
  /\ ws_inflight s' = ws_inflight s.
Proof. intro P. apply pop_popped in P. destruct P; repeat split. Qed.

(* nextAppendBatch: nothing changes, or all pending items leave under the next sequence number *)
Lemma nextAppendBatch_none s s' : nextAppendBatch s = (None, s') -> s' = s.
Proof.
  unfold nextAppendBatch. destruct (is_nil (ws_pending s)); [intro H; inversion H; reflexivity|].
  destruct (negb (canStartAppend s)); intro H; inversion H; reflexivity.
Qed.

Lemma nextAppendBatch_some s sq items s' :
  nextAppendBatch s = (Some (sq, items), s') ->
  sq = ws_next s /\ items = ws_pending s /\ ws_pending s' = [] /\ ws_next s' = ws_next s + 1
  /\ ws_inflight s' = ws_inflight s + 1 /\ ws_drain s' = ws_drain s /\ ws_ready s' = ws_ready s
  /\ ws_completed s' = ws_completed s /\ ws_limit s' = ws_limit s /\ canStartAppend s = true.
Proof.
  unfold nextAppendBatch. destruct (is_nil (ws_pending s)); [discriminate|].
  destruct (canStartAppend s) eqn:C; cbn [negb]; [|discriminate].
  intro H. inversion H; subst. cbn. repeat split; reflexivity.
Qed.

Lemma nextAppendBatch_buffer s sq items s' :
  nextAppendBatch s = (Some (sq, items), s') -> buffered s' = buffered s /\ (entries_ok s -> entries_ok s').
Proof.
  intro H. destruct (nextAppendBatch_some _ _ _ _ H) as [_ [_ [_ [_ [_ [_ [E7 [E8 _]]]]]]]].
  unfold buffered, entries_ok. rewrite E7, E8. auto.
Qed.

(* the number of buffered events: every pop decreases it, which is why [drain_fuel] suffices *)
Definition wmeasure (s : wstate) : nat :=
  (length (ws_completed s) + match ws_ready s with Some _ => 1 | None => 0 end)%nat.

Lemma popped_measure s e s' : popped s (Some e) s' -> (wmeasure s' < wmeasure s)%nat.
Proof.
  intro P. inversion P as [e' R E| e' W G|]; subst; unfold wmeasure; cbn [set_buffer ws_completed ws_ready].
  - rewrite R. lia.
  - pose proof (map_del_length_lt _ _ (map_get_some_key _ _ _ G)). lia.
Qed.

Lemma popped_some s e s' :
  entries_ok s -> popped s (Some e) s' ->
  ev_seq e = ws_drain s /\ ws_drain s' = ws_drain s + 1 /\ entries_ok s' /\ In e (buffered s)
  /\ (forall x, In x (buffered s') -> In x (buffered s)).
Proof.
  intros Hok P. inversion P as [e' R E| e' W G|]; subst; unfold buffered; cbn [set_buffer ws_drain ws_ready ws_completed].
  - rewrite R. cbn [app]. repeat split; auto; [left; reflexivity|right; assumption].
  - pose proof (map_get_in _ _ _ G) as Hin.
    split; [apply (Hok _ _ Hin)|]. split; [reflexivity|]. split; [exact (entries_ok_del _ _ Hok)|]. split.
    + apply in_or_app. right. apply (in_map snd) in Hin. exact Hin.
    + intro x. rewrite !in_app_iff, !in_map_iff. intros [Hx|[p [E1 Hx]]]; [left; exact Hx|].
      right. exists p. apply in_map_del in Hx. tauto.
Qed.

Lemma pop_some s e s' :
  entries_ok s -> popNextAppendCompletion s = (Some e, s') ->
  ev_seq e = ws_drain s /\ ws_drain s' = ws_drain s + 1 /\ entries_ok s' /\ In e (buffered s)
  /\ (forall x, In x (buffered s') -> In x (buffered s)).
Proof. intros Hok P. apply popped_some; [exact Hok|apply pop_popped; exact P]. Qed.

Lemma popped_perm s e s' :
  BufOK s -> popped s (Some e) s' -> Permutation (buffered s) (e :: buffered s') /\ BufOK s'.
Proof.
  intros [B1 B2 B3] P. inversion P as [e' R E| e' W G|]; subst; unfold buffered; cbn [set_buffer ws_ready ws_completed].
  - rewrite R. split; [apply Permutation_refl|]. constructor; cbn [set_buffer ws_ready ws_completed]; auto. discriminate.
  - split.
    + pose proof (Permutation_map snd (map_get_perm _ _ _ B2 G)) as Pm. cbn [map snd] in Pm.
      eapply perm_trans; [apply Permutation_app_head; exact Pm|].
      apply Permutation_sym. apply Permutation_middle.
    + constructor; cbn [set_buffer ws_ready ws_completed ws_drain].
      * exact (entries_ok_del _ _ B1).
      * apply NoDup_map_filter. exact B2.
      * intros x Hx. destruct (W x Hx (B3 x Hx)).
Qed.

Lemma stopped_absent s : BufOK s -> popped s None s -> ~ In (ws_drain s) (map ev_seq (buffered s)).
Proof.
  intros [B1 B2 B3] P. inversion P as [| |W G]. unfold buffered. rewrite map_app, completed_seqs by exact B1.
  intro Hin. apply in_app_or in Hin. destruct Hin as [Hin|Hin]; [|apply map_get_none in G; exact (G Hin)].
  destruct (ws_ready s) as [r|] eqn:R; [|destruct Hin]. exact (W r R (B3 r eq_refl)).
Qed.

(* every popped event finishes its append; the loop ends when nothing can be popped *)
Inductive drains : wstate -> list event -> wstate -> Prop :=
| DrStop s : popped s None s -> drains s [] s
| DrPop s e s1 out s' : popped s (Some e) s1 ->
    drains (finishAppend s1 (N.of_nat (length (ev_items e)))) out s' -> drains s (e :: out) s'.

Lemma drain_drains fuel : forall s out s',
  (wmeasure s < fuel)%nat -> drain fuel s = (out, s') -> drains s out s'.
Proof.
  induction fuel as [|fuel IH]; intros s out s' Hf H; [lia|]. cbn [drain] in H.
  destruct (popNextAppendCompletion s) as [[e|] s1] eqn:P; apply pop_popped in P.
  - destruct (drain fuel (finishAppend s1 (N.of_nat (length (ev_items e))))) as [evs s2] eqn:D.
    inversion H; subst. apply (DrPop _ _ _ _ _ P). apply IH; [|exact D].
    pose proof (popped_measure _ _ _ P) as Hm. unfold wmeasure in *. cbn [finishAppend ws_completed ws_ready]. lia.
  - inversion H; subst. inversion P; subst. apply DrStop. exact P.
Qed.

(* the fuel of applyAppendCompletion is enough *)
Lemma apply_drains s ev out s' :
  applyAppendCompletion s ev = (out, s') -> drains (recordAppendCompletion s ev) out s'.
Proof.
  apply drain_drains. unfold wmeasure, drain_fuel. destruct (ws_ready (recordAppendCompletion s ev)); lia.
Qed.

Lemma drains_stopped s out s' : drains s out s' -> popped s' None s'.
Proof. induction 1; assumption. Qed.

Lemma drains_spec s out s' :
  drains s out s' -> entries_ok s ->
  consec (ws_drain s) (map ev_seq out)
  /\ ws_drain s' = ws_drain s + N.of_nat (length out)
  /\ entries_ok s'
  /\ (forall e, In e out -> In e (buffered s))
  /\ (forall e, In e (buffered s') -> In e (buffered s)).
Proof.
  induction 1 as [s P|s e s1 out s' P D IH]; intro Hok; cbn [map consec length].
  - repeat split; auto; try contradiction. lia.
  - destruct (popped_some _ _ _ Hok P) as [Hs [Hd [Hok1 [Hin Hsub]]]].
    destruct (IH (finish_entries_ok _ _ Hok1)) as [Hc [Hd2 [Hok2 [Hin2 Hsub2]]]].
    rewrite finish_buffered in Hin2, Hsub2. cbn [ws_drain finishAppend] in Hc, Hd2. rewrite Hd in Hc, Hd2.
    split; [split; auto|]. split; [lia|]. split; [exact Hok2|]. split.
    + intros x [Hx|Hx]; [subst; exact Hin|]. apply Hsub. apply Hin2. exact Hx.
    + intros x Hx. apply Hsub. apply Hsub2. exact Hx.
Qed.

Lemma drains_perm s out s' :
  drains s out s' -> BufOK s -> Permutation (buffered s) (out ++ buffered s') /\ BufOK s'.
Proof.
  induction 1 as [s P|s e s1 out s' P D IH]; intro HB; [split; [apply Permutation_refl|exact HB]|].
  destruct (popped_perm _ _ _ HB P) as [P1 HB1].
  destruct (IH (finish_bufok _ _ HB1)) as [P2 HB2]. rewrite finish_buffered in P2.
  split; [|exact HB2]. cbn [app]. eapply perm_trans; [exact P1|]. apply perm_skip. exact P2.
Qed.

Lemma drains_fields s out s' :
  drains s out s' ->
  ws_pending s' = ws_pending s /\ ws_next s' = ws_next s /\ ws_limit s' = ws_limit s /\ ws_hw s' = ws_hw s
  /\ ws_inflight s - N.of_nat (length out) <= ws_inflight s'.
Proof.
  induction 1 as [s P|s e s1 out s' P D IH]; cbn [length]; [repeat split; lia|].
  destruct IH as [B1 [B2 [B3 [B4 B5]]]]. cbn [finishAppend ws_pending ws_next ws_limit ws_hw ws_inflight] in *.
  destruct P; cbn [set_buffer ws_pending ws_next ws_limit ws_hw ws_inflight] in *; repeat split; try assumption; lia.
Qed.

Lemma apply_spec s ev out s' :
  entries_ok s -> applyAppendCompletion s ev = (out, s') ->
  consec (ws_drain s) (map ev_seq out)
  /\ ws_drain s' = ws_drain s + N.of_nat (length out)
  /\ entries_ok s'
  /\ (forall e, In e out -> e = ev \/ In e (buffered s))
  /\ (forall e, In e (buffered s') -> e = ev \/ In e (buffered s))
  /\ popped s' None s'.
Proof.
  intros Hok H. apply apply_drains in H.
  destruct (drains_spec _ _ _ H (record_entries_ok s ev Hok)) as [Hc [Hd [Hok2 [Hin Hsub]]]].
  rewrite record_drain in Hc, Hd.
  split; [exact Hc|]. split; [exact Hd|]. split; [exact Hok2|]. split; [|split].
  - intros e He. apply record_buffered. apply Hin. exact He.
  - intros e He. apply record_buffered. apply Hsub. exact He.
  - exact (drains_stopped _ _ _ H).
Qed.

Lemma apply_perm s ev out s' :
  BufOK s -> ws_drain s <= ev_seq ev -> ~ In (ev_seq ev) (map ev_seq (buffered s)) ->
  applyAppendCompletion s ev = (out, s') ->
  Permutation (ev :: buffered s) (out ++ buffered s') /\ BufOK s'.
Proof.
  intros HB Hge Hnew H. apply apply_drains in H.
  destruct (record_perm _ _ HB Hge Hnew) as [P1 HB1].
  destruct (drains_perm _ _ _ H HB1) as [P2 HB2].
  split; [|exact HB2]. eapply perm_trans; [apply Permutation_sym; exact P1|exact P2].
Qed.

Lemma apply_fields s ev out s' :
  applyAppendCompletion s ev = (out, s') ->
  ws_pending s' = ws_pending s /\ ws_next s' = ws_next s /\ ws_limit s' = ws_limit s /\ ws_hw s' = ws_hw s
  /\ ws_inflight s - N.of_nat (length out) <= ws_inflight s'.
Proof.
  intro H. apply apply_drains in H.
  destruct (record_fields s ev) as [A1 [A2 [A3 [A4 A5]]]].
  destruct (drains_fields _ _ _ H) as [B1 [B2 [B3 [B4 B5]]]].
  rewrite A5 in B5. repeat split; try congruence; exact B5.
Qed.

(* completions arriving one after the other, each applied by applyAppendCompletion *)
Fixpoint apply_all (s : wstate) (evs : list event) : list event * wstate :=
  match evs with
  | [] => ([], s)
  | ev :: r =>
      let '(o1, s1) := applyAppendCompletion s ev in
      let '(o2, s2) := apply_all s1 r in
      (o1 ++ o2, s2)
  end.

Theorem drain_in_order_any : forall evs s out s',
  entries_ok s -> apply_all s evs = (out, s') ->
  consec (ws_drain s) (map ev_seq out)
  /\ ws_drain s' = ws_drain s + N.of_nat (length out)
  /\ entries_ok s'
  /\ (forall e, In e out -> In e evs \/ In e (buffered s))
  /\ NoDup (map ev_seq out).
Proof.
  induction evs as [|ev r IH]; intros s out s' Hok H; cbn [apply_all] in H.
  - inversion H; subst. cbn [map consec length]. repeat split; auto; try contradiction; try lia. constructor.
  - destruct (applyAppendCompletion s ev) as [o1 s1] eqn:A1.
    destruct (apply_all s1 r) as [o2 s2] eqn:A2. inversion H; subst. clear H.
    destruct (apply_spec _ _ _ _ Hok A1) as [Hc1 [Hd1 [Hok1 [Hin1 [Hsub1 _]]]]].
    destruct (IH _ _ _ Hok1 A2) as [Hc2 [Hd2 [Hok2 [Hin2 _]]]].
    assert (Hc : consec (ws_drain s) (map ev_seq (o1 ++ o2))).
    { rewrite map_app. apply consec_app; [exact Hc1|]. rewrite map_length, <- Hd1. exact Hc2. }
    split; [exact Hc|]. split; [rewrite app_length; lia|]. split; [exact Hok2|]. split.
    + intros e He. apply in_app_or in He. destruct He as [He|He].
      * destruct (Hin1 _ He) as [E|E]; [left; left; auto|right; exact E].
      * destruct (Hin2 _ He) as [E|E]; [left; right; exact E|].
        destruct (Hsub1 _ E) as [E1|E1]; [left; left; auto|right; exact E1].
    + eapply consec_nodup; eauto.
Qed.

(* between two arrivals, [A] being the sequence numbers that arrived so far *)
Record Settled (s : wstate) (A : list N) : Prop := {
  st_buf : BufOK s;
  st_arrived : forall e, In e (buffered s) -> In (ev_seq e) A;
  st_below : forall k, k < ws_drain s -> In k A;
  st_stopped : popped s None s }.

Lemma apply_settled s A ev out s' :
  Settled s A -> ~ In (ev_seq ev) A -> applyAppendCompletion s ev = (out, s') ->
  Settled s' (ev_seq ev :: A) /\ Permutation (ev :: buffered s) (out ++ buffered s').
Proof.
  intros [B Ha Hb _] Hn H.
  assert (Hge : ws_drain s <= ev_seq ev).
  { destruct (N.le_gt_cases (ws_drain s) (ev_seq ev)) as [L|L]; [exact L|]. destruct (Hn (Hb _ L)). }
  assert (Hnew : ~ In (ev_seq ev) (map ev_seq (buffered s))).
  { intro Hin. apply in_map_iff in Hin. destruct Hin as [e [E He]]. apply Hn. rewrite <- E. apply Ha. exact He. }
  destruct (apply_perm _ _ _ _ B Hge Hnew H) as [P B'].
  destruct (apply_spec _ _ _ _ (bo_entries _ B) H) as [Hc [Hd [_ [Hin [Hsub Hstop]]]]].
  assert (Harr : forall e, e = ev \/ In e (buffered s) -> In (ev_seq e) (ev_seq ev :: A)).
  { intros e [E|He]; [left; congruence|right; apply Ha; exact He]. }
  split; [|exact P]. constructor; [exact B'|intros e He; apply Harr, Hsub, He| |exact Hstop].
  intros k Hk. rewrite Hd in Hk. destruct (N.lt_ge_cases k (ws_drain s)) as [L|L]; [right; apply Hb; exact L|].
  assert (Hk' : In k (map ev_seq out)) by (apply (consec_in _ _ _ Hc); rewrite map_length; lia).
  apply in_map_iff in Hk'. destruct Hk' as [e [E He]]. subst k. apply Harr, Hin, He.
Qed.

Lemma apply_all_settled : forall evs s A out s',
  Settled s A -> NoDup (map ev_seq evs) -> (forall e, In e evs -> ~ In (ev_seq e) A) ->
  apply_all s evs = (out, s') ->
  (exists A', Settled s' A') /\ Permutation (evs ++ buffered s) (out ++ buffered s').
Proof.
  induction evs as [|ev r IH]; intros s A out s' HS Hnd Hfresh H; cbn [apply_all] in H.
  - inversion H; subst. split; [exists A; exact HS|apply Permutation_refl].
  - destruct (applyAppendCompletion s ev) as [o1 s1] eqn:A1.
    destruct (apply_all s1 r) as [o2 s2] eqn:A2. inversion H; subst. clear H.
    cbn [map] in Hnd. inversion Hnd as [|x l Hx Hnd']; subst.
    destruct (apply_settled _ _ _ _ _ HS (Hfresh ev (or_introl eq_refl)) A1) as [HS1 P1].
    assert (Hf : forall e, In e r -> ~ In (ev_seq e) (ev_seq ev :: A)).
    { intros e He [E|E]; [apply Hx; rewrite E; apply in_map; exact He|exact (Hfresh e (or_intror He) E)]. }
    destruct (IH s1 _ o2 s' HS1 Hnd' Hf A2) as [HS2 P2]. split; [exact HS2|].
    cbn [app]. eapply perm_trans; [apply Permutation_middle|].
    eapply perm_trans; [apply Permutation_app_head; exact P1|].
    eapply perm_trans; [apply Permutation_app_swap_app|].
    rewrite <- app_assoc. apply Permutation_app_head. exact P2.
Qed.

Definition nseq (n : nat) : list N := map N.of_nat (seq 0 n).

Theorem drain_in_order_perm : forall hw limit evs out s',
  NoDup (map ev_seq evs) ->
  (forall k, k < N.of_nat (length evs) -> In k (map ev_seq evs)) ->
  apply_all (newChannelState hw limit) evs = (out, s') ->
  map ev_seq out = nseq (length evs)
  /\ Permutation out evs
  /\ ws_drain s' = N.of_nat (length evs)
  /\ ws_ready s' = None /\ ws_completed s' = [].
Proof.
  intros hw limit evs out s' Hnd Hall H.
  set (s0 := newChannelState hw limit) in *.
  assert (S0 : Settled s0 []).
  { constructor; [constructor; cbn; [apply entries_ok_init|constructor|discriminate]|intros e []|cbn; lia|].
    apply PopNone; [discriminate|reflexivity]. }
  destruct (apply_all_settled evs s0 [] out s' S0 Hnd (fun _ _ F => F) H) as [[A' [B _ _ Stop]] P].
  change (buffered s0) with (@nil event) in P. rewrite app_nil_r in P.
  destruct (drain_in_order_any evs s0 out s' (entries_ok_init hw limit) H) as [Hc [Hd _]].
  change (ws_drain s0) with 0 in Hc, Hd. rewrite N.add_0_l in Hd.
  pose proof (Permutation_length P) as L. rewrite app_length in L.
  (* nothing stays buffered: otherwise the drain position is below n, so it has
     arrived, but it is neither among the (smaller) delivered ones nor buffered *)
  assert (Hb : buffered s' = []).
  { destruct (buffered s') as [|b l] eqn:Eb; [reflexivity|]. exfalso. cbn [length] in L.
    assert (Hm : In (ws_drain s') (map ev_seq evs)) by (apply Hall; lia).
    apply (Permutation_in _ (Permutation_map ev_seq P)) in Hm. rewrite map_app in Hm.
    apply in_app_or in Hm. destruct Hm as [Hm|Hm].
    - apply (consec_in _ _ _ Hc) in Hm. rewrite map_length in Hm. lia.
    - rewrite <- Eb in Hm. exact (stopped_absent _ B Stop Hm). }
  rewrite Hb, app_nil_r in P. rewrite Hb in L. cbn [length] in L.
  unfold buffered in Hb. apply app_eq_nil in Hb. destruct Hb as [Hr Hm].
  split; [|split; [apply Permutation_sym; exact P|split; [lia|split]]].
  - rewrite (consec_nseq (length evs) 0 _ Hc) by (rewrite map_length; lia). reflexivity.
  - destruct (ws_ready s'); [discriminate|reflexivity].
  - destruct (ws_completed s'); [reflexivity|discriminate].
Qed.
