(* Proof/QuorumLog_C01.v — acknowledged appends: a receipt is backed by the leader and a write
   quorum of voters holding the identical entries; recovery fails closed when the local
   committed watermark exceeds the selected prefix; the F1 and K2 witnesses (acknowledged entries
   lost) with their fail-closed controls, and the bounded checks of the monitor. *)
From WK Require Import Base.Base Base.Lists.
From WK Require Import Model.ReplicaLog Model.QuorumLog Model.Cluster Model.Monitor_C01.
From WK Require Import Proof.ReplicaLog Proof.QuorumLog_Commit Proof.QuorumLog_C04 Proof.Sweep.
From Coq Require Import ZifyBool ZifyN.
Open Scope N_scope.

(* every entry the proposal derives is stored, identical, at its index *)
Definition holds_proposal (rp : replica) (m : manifest) (recs : list record) : bool :=
  match DeriveProposalEntries m recs with
  | Some es => entries_persisted rp es
  | None => false
  end.

Lemma appended_entries_persisted rp rp' m recs es :
  DeriveProposalEntries m recs = Some es -> rp_leo rp = m_base m ->
  rp_log rp' = rp_log rp ++ combine es recs -> entries_persisted rp' es = true.
Proof.
  intros Hd Hleo Hlog. apply forallb_forall. intros e Hin. apply In_nth_error in Hin. destruct Hin as [k Hk].
  destruct (appended_ent_at _ _ _ _ _ _ _ Hd Hleo Hlog Hk) as [_ ->]. apply ident_eqb_refl.
Qed.

(* a durable Sync leaves the replica holding the proposal: it appended the derived entries, or it
   answered AlreadyDurable after checking every one of them *)
Lemma sync_durable_holds k rp mu rp' o nf :
  sync k rp mu = (rp', o, nf) -> outcome_durable o = true ->
  holds_proposal rp' (mu_manifest mu) (mu_records mu) = true.
Proof.
  intros H Hdur. apply sync_cases in H. unfold holds_proposal. destruct o; try discriminate.
  - destruct H as (es & -> & (_ & Hd & _) & Hleo & _). rewrite Hd.
    eapply appended_entries_persisted; eauto.
  - destruct H as (-> & _ & _ & _ & es & Hd & Hp). rewrite Hd. exact Hp.
Qed.

Lemma NoDup_app_r {A} (a b : list A) : NoDup (a ++ b) -> NoDup b.
Proof. apply Lists.NoDup_app_r. Qed.

Lemma countb_cons {A} (f : A -> bool) x l : countb f (x :: l) = (if f x then 1 else 0) + countb f l.
Proof. unfold countb. cbn. destruct (f x); unfold lenN; cbn [length]; lia. Qed.

Lemma countb_snoc {A} (f : A -> bool) l x : countb f (l ++ [x]) = countb f l + (if f x then 1 else 0).
Proof. unfold countb. rewrite filter_app, lenN_app. cbn. destruct (f x); reflexivity. Qed.

Section Round.
  Variables (local : N) (p : dproposal).

  Definition holdsP (n : net) (w : N) : bool :=
    holds_proposal (net_rep n w) (dp_manifest p) (dp_records p).
  Definition H_count (n : net) (S : list N) : N := countb (holdsP n) S.
  Definition durable_in_queue (q : list (bool * outcome)) : N := countb (fun x => outcome_durable (snd x)) q.

  Lemma H_count_ext n n' S : (forall w, In w S -> net_rep n' w = net_rep n w) -> H_count n' S = H_count n S.
  Proof.
    intro Hs. unfold H_count, countb.
    assert (E : filter (holdsP n') S = filter (holdsP n) S)
      by (apply filter_ext_in; intros w Hw; unfold holdsP; rewrite (Hs w Hw); reflexivity).
    rewrite E. reflexivity.
  Qed.

  Lemma submitReplica_holds n v n' o :
    submitReplica n local v p = (n', o) -> outcome_durable o = true -> holdsP n' v = true.
  Proof.
    unfold submitReplica, holdsP. intros H Hd.
    destruct (unreachable n local v); [inversion H; subst; discriminate|].
    destruct (negb (net_known n v) || negb (replicate_request_valid (dp_leader p) v p)); [inversion H; subst; discriminate|].
    destruct (sync (nt_kind n) (net_rep n v) (dp_mutation p)) as [[rp o1] nf] eqn:E.
    destruct (memN v (fl_lose (nt_flt n))); [inversion H; subst; discriminate|].
    assert (Ho : o = o1 /\ n' = net_set n v rp).
    { destruct o1; try (inversion H; subst; auto). destruct (0 <? nf); inversion H; subst; discriminate. }
    destruct Ho as [-> ->]. rewrite net_rep_set, N.eqb_refl.
    exact (sync_durable_holds _ _ _ _ _ _ E Hd).
  Qed.

  (* the invariant of a round: the durable votes counted or still queued are backed by holders among the
     voters already submitted to, [done]; [done ++ next] is the fixed list of voters, only the split moves *)
  Lemma submit_all_inv : forall vs n q n' q' done votes,
    submit_all n local p vs q = (n', q') -> NoDup (done ++ vs) ->
    votes + durable_in_queue q <= H_count n done -> votes + durable_in_queue q' <= H_count n' (done ++ vs).
  Proof.
    induction vs as [|v vs IH]; intros n q n' q' done votes H Hnd Hinv; cbn in H.
    - injection H as <- <-. rewrite app_nil_r. exact Hinv.
    - destruct (submitReplica n local v p) as [n1 o] eqn:E.
      replace (done ++ v :: vs) with ((done ++ [v]) ++ vs) in * by (rewrite <- app_assoc; reflexivity).
      apply (IH _ _ _ _ _ _ H Hnd).
      unfold durable_in_queue, H_count in *. rewrite !countb_snoc. cbn [snd].
      replace (countb (holdsP n1) done) with (countb (holdsP n) done).
      + destruct (outcome_durable o) eqn:Ho; [rewrite (submitReplica_holds _ _ _ _ E Ho) | destruct (holdsP n1 v)]; lia.
      + symmetry. apply H_count_ext. intros w Hw. eapply submitReplica_other; eauto. intros ->.
        apply NoDup_app_l in Hnd. exact (NoDup_app_disjoint _ _ _ Hnd Hw (or_introl eq_refl)).
  Qed.

  Lemma round_loop_inv : forall fuel n wq queue next ld votes out cf lf n' res done,
    round_loop fuel n local wq p queue next ld votes out cf lf = (n', res) ->
    NoDup (done ++ next) -> votes + durable_in_queue queue <= H_count n done ->
    rr_ok res = true -> exists S, NoDup S /\ incl S (done ++ next) /\ wq <= H_count n' S.
  Proof.
    induction fuel as [|fuel IH]; intros n wq queue next ld votes out cf lf n' res done H Hnd Hinv Hok; cbn in H;
      [injection H as _ <-; discriminate|].
    destruct queue as [|[isLocal o] queue']; [injection H as _ <-; discriminate|].
    set (votes' := if outcome_durable o then votes + 1 else votes) in *.
    assert (Hinv' : votes' + durable_in_queue queue' <= H_count n done).
    { unfold durable_in_queue in *. rewrite countb_cons in Hinv. cbn [snd] in Hinv. unfold votes'. destruct (outcome_durable o); lia. }
    destruct (_ && (wq <=? votes')) eqn:Hq.
    - (* quorum reached: the trailing submissions do not touch [done] *)
      destruct (submit_all n local p next []) as [n1 q1] eqn:Hs. injection H as <- _.
      exists done. split; [eapply NoDup_app_l; eauto|]. split; [apply incl_appl, incl_refl|].
      rewrite (H_count_ext n n1 done); [apply andb_true_iff in Hq; lia|].
      intros w Hw. eapply submit_all_other; eauto. exact (NoDup_app_disjoint _ _ _ Hnd Hw).
    - destruct (isLocal && negb (outcome_durable o)).
      + destruct (submit_all n local p next queue') as [n1 q1] eqn:Hs.
        pose proof (submit_all_inv _ _ _ _ _ _ _ Hs Hnd Hinv') as I1.
        rewrite <- (app_nil_r (done ++ next)) in Hnd |- *. eapply IH; eauto.
      + destruct (_ && _ && _); [|eapply IH; eauto].
        destruct next as [|v next']; [eapply IH; eauto|].
        destruct (submitReplica n local v p) as [n1 o1] eqn:Hs.
        assert (Hsa : submit_all n local p [v] queue' = (n1, queue' ++ [(false, o1)])) by (cbn; rewrite Hs; reflexivity).
        replace (done ++ v :: next') with ((done ++ [v]) ++ next') in * by (rewrite <- app_assoc; reflexivity).
        eapply IH; eauto. eapply submit_all_inv; eauto. eapply NoDup_app_l; eauto.
  Qed.
End Round.

Lemma nodupN_NoDup l : nodupN l = true -> NoDup l.
Proof.
  induction l as [|x l IH]; cbn; [constructor|]. rewrite andb_true_iff. intros [H1 H2].
  constructor; [|auto]. intro Hin. apply negb_true_iff in H1.
  assert (existsb (N.eqb x) l = true) by (apply existsb_exists; exists x; split; [exact Hin | apply N.eqb_refl]).
  congruence.
Qed.

(* c01_receipt_implies_quorum, on one round: success means that the local node and at least wq
   distinct voters (local included) hold every entry of the proposal, identical, after the round *)
Lemma runDurableRound_quorum n local voters wq rot p n' res :
  NoDup voters -> runDurableRound n local voters wq rot p = (n', res) -> rr_ok res = true ->
  holdsP p n' local = true /\
  exists S, NoDup S /\ incl S (local :: round_followers voters local rot) /\ wq <= H_count p n' S.
Proof.
  intros Hnd H Hok.
  destruct (runDurableRound_local _ _ _ _ _ _ _ _ H) as (n1 & o1 & Hsl & Hrep & Hres & Hdur).
  destruct (Hres Hok) as (Hl & _). specialize (Hdur Hl).
  assert (Hlocal1 : holdsP p n1 local = true).
  { destruct (submitLocal_effect _ _ _ _ _ Hsl) as [[_ X] | (rp & o & nf & Hsync & Hrp & Ho)]; [congruence|].
    unfold holdsP. rewrite Hrp. specialize (Ho Hdur). subst o.
    exact (sync_durable_holds _ _ _ _ _ _ Hsync Hdur). }
  split; [unfold holdsP in *; rewrite Hrep; exact Hlocal1|].
  unfold runDurableRound in H. cbv zeta in H. rewrite Hsl in H.
  set (fs := round_followers voters local rot) in *. set (k := N.to_nat (wq - 1)) in *.
  destruct (submit_all n1 local p (firstn k fs) [(true, o1)]) as [n2 queue] eqn:Hs.
  (* the voters of the round, split at the followers submitted before the loop starts *)
  assert (Hall : NoDup (([local] ++ firstn k fs) ++ skipn k fs)).
  { rewrite <- app_assoc, firstn_skipn. constructor; [apply round_followers_not_local | apply round_followers_NoDup; exact Hnd]. }
  assert (Hinv0 : 0 + durable_in_queue [(true, o1)] <= H_count p n1 [local]).
  { unfold durable_in_queue, H_count. rewrite !countb_cons. cbn [snd]. rewrite Hdur, Hlocal1. unfold countb. cbn. lia. }
  pose proof (submit_all_inv local p _ _ _ _ _ _ _ Hs (NoDup_app_l _ _ Hall) Hinv0) as I1.
  destruct (round_loop_inv local p _ _ _ _ _ _ _ _ _ _ _ _ _ H Hall I1 Hok) as (S & S1 & S2 & S3).
  rewrite <- app_assoc, firstn_skipn in S2. eauto.
Qed.

(* whenever the local replica's persisted committed watermark exceeds the selected prefix, repair
   returns an error and writes nothing *)
Lemma repair_fails_closed n local voters q sel maxBytes s es :
  load (nt_kind n) (net_rep n local) [] = Some (s, es) -> sl_index sel < rs_committed s ->
  exists e, repairQuorumPrefix n local voters q sel maxBytes = (n, inl e).
Proof.
  intros Hload Hlt. unfold repairQuorumPrefix.
  destruct (negb (memN local voters) || negb (validRecoveryRepairSelection sel voters q)); [eauto|].
  unfold loadRecoveryReplicaState. rewrite Hload.
  destruct (validReplicaState s && listN_eqb (map pb_idx es) []); [|eauto].
  replace (sl_index sel <? rs_committed s) with true by lia. eauto.
Qed.

(* ... hence Install returns an error and writes nothing, unless it never reached recovery because the owner
   was already ready under this authority (the witness of [exists e] is then immaterial) *)
Lemma Install_fails_closed cfg n st local a s es sel :
  load (nt_kind n) (net_rep n local) [] = Some (s, es) ->
  recoverQuorumPrefix n local (a_voters a) (a_q a) = inr sel -> sl_index sel < rs_committed s ->
  forall n' st' r, Install cfg n st local a = (n', st', r) -> n' = n /\ exists e, r = IErr e \/
    (exists x leo hw, r = IOk x leo hw /\ st' = st /\ qc_ready st = true).
Proof.
  intros Hload Hrec Hlt n' st' r H.
  destruct (repair_fails_closed n local (a_voters a) (a_q a) sel (cf_pagebytes cfg) s es Hload Hlt) as [e He].
  assert (Hrun : install_run cfg n local a = (n, inl e)) by (unfold install_run; rewrite Hrec, He; reflexivity).
  apply Install_shape in H.
  destruct H as [ | | | | cur _ _ _ _ Hrd | | st1 n' e' _ _ Hrun' | st1 n' fr _ _ Hrun'];
    try (split; [reflexivity|]; eexists; left; reflexivity).
  - split; [reflexivity|]. exists EOk. right. do 3 eexists. split; [reflexivity|]. split; [reflexivity | exact Hrd].
  - rewrite Hrun in Hrun'. injection Hrun' as <- <-. split; [reflexivity|]. exists e. left. reflexivity.
  - congruence.
Qed.

(* ---- the F1 witness (DESIGN §0 F1, corpus/C01/f1_bare_quorum_then_failover.json) ---------------------- *)

Definition f1_cfg : qconfig := QCfg SMem 3 2 2 3 65536 0.
Definition f1_r1 : record := Rec (TUser 1) 1 1 11 1 false 1.
Definition f1_r2 : record := Rec (TUser 2) 1 2 22 1 false 1.
(* leader 1 commits with node 3 down: acknowledged on {1, 2}; node 1 goes down, node 3 (empty) is
   back; authority (1,2,2) is installed on node 2: every install reaches Q = 2 voters, never more
   than N - Q = 1 node is down *)
Definition f1_ops : list qop :=
  [ OInstall 1 (1, 1, 1) false 2 no_faults; ODown 3;
    OCommit 1 (1, 1, 1) (TUser 1) [f1_r1] false no_faults; ODown 1; OUp 3;
    OInstall 2 (1, 2, 2) false 2 no_faults ].
(* two commits: the replica-persisted watermark now protects the first, the install fails closed;
   once node 1 is back the install succeeds with a barrier at 3 *)
Definition f1_two_commits_ops : list qop :=
  [ OInstall 1 (1, 1, 1) false 2 no_faults; ODown 3;
    OCommit 1 (1, 1, 1) (TUser 1) [f1_r1] false no_faults;
    OCommit 1 (1, 1, 1) (TUser 2) [f1_r2] false no_faults; ODown 1; OUp 3;
    OInstall 2 (1, 2, 2) false 2 no_faults; OUp 1; OInstall 2 (1, 2, 2) false 2 no_faults ].

Lemma f1_acked_entry_lost :
  fst (run_model f1_cfg (cluster_init f1_cfg) f1_ops) =
    [ RInstalled (1, 1, 1) 0 0; RNone; RReceipt (1, 1, 1) (TUser 1) 1 1 1; RNone; RNone;
      RInstalled (1, 2, 2) 0 0 ] /\
  rp_leo (net_rep (cl_net (snd (run_model f1_cfg (cluster_init f1_cfg) f1_ops))) 2) = 0 /\
  C01_monitor (model_case f1_cfg f1_ops) = 2.
Proof. repeat split; vm_compute; reflexivity. Qed.

Lemma f1_two_commits_fail_closed :
  fst (run_model f1_cfg (cluster_init f1_cfg) f1_two_commits_ops) =
    [ RInstalled (1, 1, 1) 0 0; RNone; RReceipt (1, 1, 1) (TUser 1) 1 1 1; RReceipt (1, 1, 1) (TUser 2) 2 2 2;
      RNone; RNone; RErr EConflict; RNone; RInstalled (1, 2, 2) 3 3 ] /\
  C01_monitor (model_case f1_cfg f1_two_commits_ops) = 0.
Proof. repeat split; vm_compute; reflexivity. Qed.

(* ---- the K2 witness (C01-K2, corpus/C01/k2_shrunk_lost_page_reply_guard_holds.json) ------------------- *)

(* leader 3 (term 1) stores X locally only (both followers unreachable: never acknowledged); leader 1
   (term 2) is installed (quorum LEO 0: nothing to recover, no barrier) and commits Y: acknowledged at
   index 1, held by {1,2} (node 3 answers Conflict).  Authority (1,3,3) is installed on node 2: all three
   voters answer the frontier round (LEOs 1,1,1), the identity-page reply of node 1 is lost; the stable
   voters {2,3} still have quorum LEO 1 and quorum watermark 0, so the guard of recoverQuorumPrefix holds;
   at index 1 they differ (Y, X): selection 0, node 2 truncates Y and is writable at LEO 0 *)
Definition k2_ops : list qop :=
  [ OInstall 3 (1, 1, 1) false 2 no_faults;
    OCommit 3 (1, 1, 1) (TUser 1) [f1_r1] false (Flt [] [1; 2] None []);
    OInstall 1 (1, 2, 2) false 2 no_faults;
    OCommit 1 (1, 2, 2) (TUser 2) [f1_r2] false no_faults;
    OInstall 2 (1, 3, 3) false 2 (Flt [] [] None [1]) ].
(* without the divergent longer log on node 3 the stable voters {2,3} have quorum LEO 0 <> 1: the guard
   fails closed (ErrRecoveryProbeIncomplete) *)
Definition k2_closed_ops : list qop :=
  [ OInstall 3 (1, 1, 1) false 2 no_faults;
    OInstall 1 (1, 2, 2) false 2 no_faults;
    OCommit 1 (1, 2, 2) (TUser 2) [f1_r2] false (Flt [] [3] None []);
    OInstall 2 (1, 3, 3) false 2 (Flt [] [] None [1]) ].

Lemma k2_acked_entry_lost :
  fst (run_model f1_cfg (cluster_init f1_cfg) k2_ops) =
    [ RInstalled (1, 1, 1) 0 0; RErr EQuorumUnavailable; RInstalled (1, 2, 2) 0 0;
      RReceipt (1, 2, 2) (TUser 2) 1 1 1; RInstalled (1, 3, 3) 0 0 ] /\
  rp_leo (net_rep (cl_net (snd (run_model f1_cfg (cluster_init f1_cfg) k2_ops))) 2) = 0 /\
  C01_monitor (model_case f1_cfg k2_ops) = 3.
Proof. repeat split; vm_compute; reflexivity. Qed.

Lemma k2_guard_false_fails_closed :
  fst (run_model f1_cfg (cluster_init f1_cfg) k2_closed_ops) =
    [ RInstalled (1, 1, 1) 0 0; RInstalled (1, 2, 2) 0 0;
      RReceipt (1, 2, 2) (TUser 2) 1 1 1; RErr EProbeIncomplete ] /\
  rp_leo (net_rep (cl_net (snd (run_model f1_cfg (cluster_init f1_cfg) k2_closed_ops))) 2) = 1 /\
  C01_monitor (model_case f1_cfg k2_closed_ops) = 0.
Proof. repeat split; vm_compute; reflexivity. Qed.

(* ---- bounded exhaustive checks of the monitor on the model's own traces ------------------------------------ *)

Fixpoint schedules01 (alphabet : list qop) (len : nat) : list (list qop) :=
  match len with
  | O => [[]]
  | S k => [] :: flat_map (fun s => map (fun op => op :: s) alphabet) (schedules01 alphabet k)
  end.

Definition f1_r3 : record := Rec (TUser 3) 1 3 33 1 false 1.
(* failover alphabet, 3 voters, quorum 2: commits by leader 1 (one on the bare quorum {1,2}), nodes 1
   and 3 going down / coming back, the next authority installed on node 2, a commit by node 2 *)
Definition c01_alphabet (with_outages : bool) : list qop :=
  [ OCommit 1 (1, 1, 1) (TUser 1) [f1_r1] false (Flt [] [3] None []);
    OCommit 1 (1, 1, 1) (TUser 2) [f1_r2] false no_faults;
    OInstall 2 (1, 2, 2) false 2 no_faults;
    OCommit 2 (1, 2, 2) (TUser 3) [f1_r3] false no_faults;
    ORestart 2 ] ++
  (if with_outages then [ODown 1; OUp 1; ODown 3; OUp 3] else []).

Definition c01_codes_in (allowed : list N) (alphabet : list qop) (len : nat) : bool :=
  forallb (fun s => existsb (N.eqb (C01_monitor (model_case f1_cfg (OInstall 1 (1, 1, 1) false 2 no_faults :: s)))) allowed)
          (schedules01 alphabet len).

(* every voter answers every probe (no outages): all acknowledged entries survive, monitor 0 *)
Lemma c01_bounded_all_answer : c01_codes_in [0] (c01_alphabet false) 5 = true.
Proof. apply (sweep_sound f1_cfg (codes_in C01_monitor [0]) [_] _ (schedules01 _) eq_refl (fun _ => eq_refl)). vm_compute. reflexivity. Qed.

(* with outages: only 0 or the known-finding code 2, never 1 *)
Lemma c01_bounded_with_outages : c01_codes_in [0; 2] (c01_alphabet true) 4 = true.
Proof. apply (sweep_sound f1_cfg (codes_in C01_monitor [0; 2]) [_] _ (schedules01 _) eq_refl (fun _ => eq_refl)). vm_compute. reflexivity. Qed.

(* lost identity-page replies: after leader 3's install, a local-only write X by leader 3, installs of
   (1,2,2) on node 1 and of (1,3,3) on node 2 (with and without node 1's page reply lost), commits by
   nodes 1 and 2, node 1 going down / coming back *)
Definition k2_alphabet : list qop :=
  [ OCommit 3 (1, 1, 1) (TUser 1) [f1_r1] false (Flt [] [1; 2] None []);
    OInstall 1 (1, 2, 2) false 2 no_faults;
    OCommit 1 (1, 2, 2) (TUser 2) [f1_r2] false no_faults;
    OInstall 2 (1, 3, 3) false 2 (Flt [] [] None [1]);
    OInstall 2 (1, 3, 3) false 2 no_faults;
    OCommit 2 (1, 3, 3) (TUser 3) [f1_r3] false no_faults;
    ODown 1; OUp 1 ].
Definition c01_codes_in_from (first : qop) (allowed : list N) (alphabet : list qop) (len : nat) : bool :=
  forallb (fun s => existsb (N.eqb (C01_monitor (model_case f1_cfg (first :: s)))) allowed) (schedules01 alphabet len).

(* 37449 schedules: only 0 and the known-finding codes 2 and 3, never 1 *)
Lemma c01_bounded_lost_page_replies :
  c01_codes_in_from (OInstall 3 (1, 1, 1) false 2 no_faults) [0; 2; 3] k2_alphabet 5 = true.
Proof. apply (sweep_sound f1_cfg (codes_in C01_monitor [0; 2; 3]) [_] _ (schedules01 _) eq_refl (fun _ => eq_refl)). vm_compute. reflexivity. Qed.
