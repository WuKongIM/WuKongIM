(* Proof/MsgStore_batch.v — the multi-channel StoreAppendBatch (OCBatch): appends
   to pairwise different channels commute on the plain logs (up to the ORDER of
   the taint list), so the one physical batch the model commits in channel order
   refines the item-by-item specification. *)
From WK Require Import Base.Base Base.Lists Model.KV Gen.Consts_C07 Model.MsgStore Model.MsgStore_C07
     Proof.KV Proof.MsgStore_base Proof.MsgStore_rel Proof.MsgStore_reads Proof.MsgStore_frame
     Proof.MsgStore_mut Proof.MsgStore_step Proof.MsgStore_ops.
From Coq Require Import Sorting.Permutation Sorting.Sorted.

(* the same logs, the same SET of tainted ids *)
Definition seqv (s s' : aspec) : Prop :=
  (forall c, as_log s c = as_log s' c) /\ (forall i, In i (as_tids s) <-> In i (as_tids s')).

Lemma seqv_refl s : seqv s s.
Proof. split; [reflexivity|tauto]. Qed.

Lemma seqv_sym s s' : seqv s s' -> seqv s' s.
Proof. intros [H1 H2]. split; [intro; symmetry; apply H1|intro; symmetry; apply H2]. Qed.

Lemma seqv_trans a b c : seqv a b -> seqv b c -> seqv a c.
Proof. intros [H1 H2] [H3 H4]. split; [intro; rewrite H1; apply H3|intro; rewrite H2; apply H4]. Qed.

Lemma id_stored_seqv s s' i : seqv s s' -> id_stored s i = id_stored s' i.
Proof.
  intros [H _]. unfold id_stored. induction all_chans as [|c l IH]; cbn [existsb]; [reflexivity|]. rewrite H, IH. reflexivity.
Qed.

Lemma spec_append_one_seqv s s' c a : seqv s s' -> seqv (spec_append s c [a]) (spec_append s' c [a]).
Proof.
  intros Hs. pose proof Hs as [Hl Ht]. rewrite !spec_append_one. split.
  - intro c'. cbn [as_log]. destruct (c' =? c); [rewrite Hl; reflexivity|apply Hl].
  - intro i. cbn [as_tids]. rewrite (id_stored_seqv s s' _ Hs).
    destruct (id_stored s' (m_id (a_msg a))); cbn [In]; rewrite Ht; tauto.
Qed.

Lemma spec_append_seqv c l : forall s s', seqv s s' -> seqv (spec_append s c l) (spec_append s' c l).
Proof.
  induction l as [|a l IH]; intros s s' H; [exact H|].
  rewrite !(spec_append_cons _ c a l). apply IH. apply spec_append_one_seqv. exact H.
Qed.

Lemma Rkv_seqv kv s s' : seqv s s' -> Rkv kv s -> Rkv kv s'.
Proof. intros [Hl Ht]. apply Rkv_same_logs; [intro; symmetry; apply Hl|intro; apply Ht]. Qed.

Definition app_log (l : alog) (a : arow) : alog :=
  AL (al_rows l ++ [a]) (m_seq (a_msg a)) (al_ck l) (al_hist l)
     (if both_nonempty (m_uid (a_msg a)) (m_cno (a_msg a)) && pair_stored l (m_uid (a_msg a)) (m_cno (a_msg a))
      then (m_uid (a_msg a), m_cno (a_msg a)) :: al_tpairs l else al_tpairs l).

Lemma app_log_one s c a : as_log (spec_append s c [a]) c = app_log (as_log s c) a.
Proof. rewrite spec_append_one. cbn [as_log]. rewrite N.eqb_refl. reflexivity. Qed.

Lemma swap_rows s c1 c2 a b :
  c1 <> c2 -> In c1 all_chans -> In c2 all_chans ->
  seqv (spec_append (spec_append s c1 [a]) c2 [b]) (spec_append (spec_append s c2 [b]) c1 [a]).
Proof.
  intros Hne H1 H2.
  assert (E12 : (c1 =? c2) = false) by (apply N.eqb_neq; exact Hne).
  assert (E21 : (c2 =? c1) = false) by (apply N.eqb_neq; intro X; apply Hne; symmetry; exact X).
  split.
  - intro c. destruct (N.eq_dec c c2) as [->|Hn2]; [|destruct (N.eq_dec c c1) as [->|Hn1]].
    + rewrite (spec_append_other (spec_append s c2 [b]) c1 [a] c2) by (intro X; apply Hne; symmetry; exact X).
      rewrite !app_log_one. rewrite (spec_append_other s c1 [a] c2) by (intro X; apply Hne; symmetry; exact X). reflexivity.
    + rewrite (spec_append_other (spec_append s c1 [a]) c2 [b] c1) by exact Hne.
      rewrite !app_log_one. rewrite (spec_append_other s c2 [b] c1) by exact Hne. reflexivity.
    + rewrite !spec_append_other by assumption. reflexivity.
  - intro i.
    rewrite (spec_append_one (spec_append s c1 [a]) c2 b), (spec_append_one (spec_append s c2 [b]) c1 a). cbn [as_tids].
    rewrite (id_stored_one s c1 a _ H1), (id_stored_one s c2 b _ H2).
    rewrite (spec_append_one s c1 a), (spec_append_one s c2 b). cbn [as_tids].
    set (ia := m_id (a_msg a)). set (ib := m_id (a_msg b)).
    destruct (N.eq_dec ia ib) as [E|NE].
    + rewrite E, !N.eqb_refl. destruct (id_stored s ib); cbn [orb In]; tauto.
    + assert (E1 : (ia =? ib) = false) by (apply N.eqb_neq; exact NE).
      assert (E2 : (ib =? ia) = false) by (apply N.eqb_neq; intro X; apply NE; symmetry; exact X).
      rewrite E1, E2, !orb_false_r.
      destruct (id_stored s ia); destruct (id_stored s ib); cbn [In]; tauto.
Qed.

Lemma swap_row_list c1 c2 a l2 : c1 <> c2 -> In c1 all_chans -> In c2 all_chans -> forall s,
  seqv (spec_append (spec_append s c1 [a]) c2 l2) (spec_append (spec_append s c2 l2) c1 [a]).
Proof.
  intros Hne H1 H2. induction l2 as [|b l2 IH]; intro s; [apply seqv_refl|].
  rewrite (spec_append_cons _ c2 b l2).
  eapply seqv_trans; [apply spec_append_seqv; apply swap_rows; assumption|].
  eapply seqv_trans; [apply IH|]. rewrite (spec_append_cons s c2 b l2). apply seqv_refl.
Qed.

Lemma swap_lists c1 c2 l1 l2 : c1 <> c2 -> In c1 all_chans -> In c2 all_chans -> forall s,
  seqv (spec_append (spec_append s c1 l1) c2 l2) (spec_append (spec_append s c2 l2) c1 l1).
Proof.
  intros Hne H1 H2. induction l1 as [|a l1 IH]; intro s; [apply seqv_refl|].
  rewrite (spec_append_cons s c1 a l1).
  eapply seqv_trans; [apply IH|].
  rewrite (spec_append_cons (spec_append s c2 l2) c1 a l1).
  apply spec_append_seqv. apply swap_row_list; assumption.
Qed.

Definition block := (N * list arow)%type.

Definition fold_blocks (s : aspec) (bl : list block) : aspec :=
  fold_left (fun s b => spec_append s (fst b) (snd b)) bl s.

Lemma fold_blocks_seqv bl : forall s s', seqv s s' -> seqv (fold_blocks s bl) (fold_blocks s' bl).
Proof.
  induction bl as [|b bl IH]; intros s s' H; [exact H|]. cbn [fold_blocks fold_left]. apply IH. apply spec_append_seqv. exact H.
Qed.

Lemma fold_blocks_perm bl1 bl2 :
  Permutation bl1 bl2 -> NoDup (map fst bl1) -> Forall (fun b => In (fst b) all_chans) bl1 ->
  forall s, seqv (fold_blocks s bl1) (fold_blocks s bl2).
Proof.
  induction 1 as [|x l l' P IH|x y l|l l' l'' P1 IH1 P2 IH2]; intros Hnd Hch s.
  - apply seqv_refl.
  - cbn [fold_blocks fold_left]. cbn [map] in Hnd. inversion Hnd; subst. inversion Hch; subst. apply IH; assumption.
  - cbn [fold_blocks fold_left]. apply fold_blocks_seqv.
    cbn [map] in Hnd. inversion Hnd as [|? ? Hn1 Hn2]; subst. inversion Hch as [|? ? Hy Hrest]; subst. inversion Hrest as [|? ? Hx _]; subst.
    apply swap_lists; [|exact Hy|exact Hx]. intro E. apply Hn1. left. symmetry. exact E.
  - eapply seqv_trans; [apply IH1; assumption|]. apply IH2.
    + eapply Permutation_NoDup; [apply Permutation_map; exact P1|exact Hnd].
    + eapply Permutation_Forall; eassumption.
Qed.

Lemma fold_blocks_other bl c : ~ In c (map fst bl) -> forall s, as_log (fold_blocks s bl) c = as_log s c.
Proof.
  induction bl as [|b bl IH]; intros Hn s; [reflexivity|].
  change (fold_blocks s (b :: bl)) with (fold_blocks (spec_append s (fst b) (snd b)) bl).
  cbn [map In] in Hn. rewrite IH by tauto. apply spec_append_other. intro E. apply Hn. left. symmetry. exact E.
Qed.

Lemma insert_by_map {A B} (f : B -> N) (g : A -> B) x l :
  insert_by f (g x) (map g l) = map g (insert_by (fun a => f (g a)) x l).
Proof.
  induction l as [|y l IH]; cbn [insert_by map]; [reflexivity|].
  destruct (f (g x) <=? f (g y)); cbn [map]; [reflexivity|]. rewrite IH. reflexivity.
Qed.

Lemma sort_by_map {A B} (f : B -> N) (g : A -> B) l :
  sort_by f (map g l) = map g (sort_by (fun a => f (g a)) l).
Proof.
  induction l as [|x l IH]; cbn [sort_by map]; [reflexivity|]. rewrite IH. apply insert_by_map.
Qed.

Section CBatch.
  Variable F : Type.
  Variable f_empty : F.
  Variable f_may : F -> bytes * bytes -> bool.
  Variable f_add : F -> bytes * bytes -> F.

  Notation mstate := (mstate F).
  Notation R := (MsgStore_reads.R F).
  Notation st_kv := (st_kv F).
  Notation st_cache := (st_cache F).

  (* an accepted, non-empty item: its channel and validated rows *)
  Definition rblock := (N * list row)%type.
  Definition ablock (b : rblock) : block := (fst b, map arow_of (snd b)).
  Definition kblock (b : rblock) : N * kbatch :=
    (fst b, stageMessageRows (fst b) (snd b) ++ stageCatalogForAppend (fst b) (first_seq (snd b))).
  Definition lblock (b : rblock) : N * N := (fst b, last_seq (snd b)).

  Definition good_block (s : aspec) (all : list item) (b : rblock) : Prop :=
    snd b <> [] /\ count_chan all (fst b) = 1%nat /\ In (fst b) all_chans
    /\ consec (al_leo (as_log s (fst b)) + 1) (snd b) /\ Forall (row_ok (fst b)) (snd b).

  Lemma count_chan_app l1 l2 c : count_chan (l1 ++ l2) c = (count_chan l1 c + count_chan l2 c)%nat.
  Proof. unfold count_chan. rewrite filter_app, app_length. reflexivity. Qed.

  Lemma count_chan_in l c m recs : In (c, m, recs) l -> (1 <= count_chan l c)%nat.
  Proof.
    intro H. unfold count_chan. induction l as [|x l IH]; [destruct H|]. cbn [filter].
    destruct H as [->|H]; [cbn [fst]; rewrite N.eqb_refl; cbn [length]; lia|].
    destruct (fst (fst x) =? c); cbn [length]; specialize (IH H); lia.
  Qed.

  (* what the item loop has established: the accepted non-empty items are good
     blocks on pairwise different channels, and the specification, run item by item
     on the reported results, has appended exactly these blocks *)
  Definition items_post (s : aspec) (all : list item) (Bpre : list rblock) (items : list item)
             (res : mstate * list (N * N * N) * list (N * kbatch) * list (N * N)) : Prop :=
    let '(st1, rs, bs, ls) := res in
    R st1 s
    /\ exists B : list rblock,
         bs = map kblock B /\ ls = map lblock B
         /\ Forall (good_block s all) B
         /\ (forall b, In b B -> exists m recs, In (fst b, m, recs) items)
         /\ NoDup (map fst B)
         /\ spec_batch (fold_blocks s (map ablock Bpre)) items rs
            = Some (fold_blocks (fold_blocks s (map ablock Bpre)) (map ablock B)).

  (* an item that contributes no block *)
  Lemma items_post_skip s all Bpre it items st1 r rs bs ls :
    spec_batch (fold_blocks s (map ablock Bpre)) (it :: items) (r :: rs) = spec_batch (fold_blocks s (map ablock Bpre)) items rs ->
    items_post s all Bpre items (st1, rs, bs, ls) -> items_post s all Bpre (it :: items) (st1, r :: rs, bs, ls).
  Proof.
    intros Hsp [H3 [B [E1 [E2 [E3 [E4 [E5 E6]]]]]]]. split; [exact H3|]. exists B.
    split; [exact E1|]. split; [exact E2|]. split; [exact E3|].
    split; [intros b Hb; destruct (E4 b Hb) as [m0 [r0 H0]]; exists m0, r0; right; exact H0|]. split; [exact E5|].
    rewrite Hsp. exact E6.
  Qed.

  Lemma cbatch_items_sim s all : forall items pre st (Bpre : list rblock),
    all = pre ++ items ->
    R st s ->
    Forall (fun it : item => In (fst (fst it)) all_chans) items ->
    (forall b, In b Bpre -> count_chan all (fst b) = 1%nat /\ exists m recs, In (fst b, m, recs) pre) ->
    items_post s all Bpre items (cbatch_items F f_may f_add st all items).
  Proof.
    induction items as [|[[c m] recs] items IH]; intros pre st Bpre Hall HR Hch Hpre; cbn [cbatch_items].
    - split; [exact HR|]. exists []. repeat split; try constructor. intros b [].
    - inversion Hch as [|? ? Hc Hch']; subst. cbn [fst] in Hc. unfold item in *.
      assert (Hall' : pre ++ (c, m, recs) :: items = (pre ++ [(c, m, recs)]) ++ items) by (rewrite <- app_assoc; reflexivity).
      (* blocks of the prefix stay blocks of the longer prefix *)
      assert (Hpre' : forall b, In b Bpre -> count_chan (pre ++ (c, m, recs) :: items) (fst b) = 1%nat
                                 /\ exists m0 recs0, In (fst b, m0, recs0) (pre ++ [(c, m, recs)])).
      { intros b Hb. destruct (Hpre b Hb) as [H1 [m0 [recs0 H2]]]. split; [exact H1|]. exists m0, recs0. apply in_or_app. left. exact H2. }
      destruct (1 <? count_chan (pre ++ (c, m, recs) :: items) c)%nat eqn:Ecnt.
      { (* the channel occurs twice: rejected *)
        specialize (IH (pre ++ [(c, m, recs)]) st Bpre Hall' HR Hch' Hpre').
        destruct (cbatch_items F f_may f_add st (pre ++ (c, m, recs) :: items) items) as [[[st1 rs] bs] ls].
        apply items_post_skip; [reflexivity|exact IH]. }
      apply Nat.ltb_ge in Ecnt.
      assert (Hcnt : count_chan (pre ++ (c, m, recs) :: items) c = 1%nat).
      { pose proof (count_chan_in (pre ++ (c, m, recs) :: items) c m recs) as H. specialize (H ltac:(apply in_or_app; right; left; reflexivity)). lia. }
      (* the channel is not among the blocks of the prefix *)
      assert (Hfresh : ~ In c (map fst (map ablock Bpre))).
      { intro Hin. rewrite map_map in Hin. apply in_map_iff in Hin. destruct Hin as [b [Eb Hb]]. cbn [ablock fst] in Eb. subst c.
        destruct (Hpre b Hb) as [_ [m0 [r0 H0]]].
        pose proof (count_chan_in pre (fst b) m0 r0 H0) as H1. rewrite count_chan_app in Hcnt.
        pose proof (count_chan_in ((fst b, m, recs) :: items) (fst b) m recs (or_introl eq_refl)) as H2. lia. }
      set (scur := fold_blocks s (map ablock Bpre)).
      assert (Hlog : as_log scur c = as_log s c) by (apply fold_blocks_other; exact Hfresh).
      destruct (loadLEO_R F st s c HR) as [H1 [H2 _]].
      destruct (loadLEOLocked F st c) as [st1 base]. cbn [fst snd] in H1, H2. subst base.
      destruct recs as [|x recs].
      { (* an empty item: accepted, no block *)
        specialize (IH (pre ++ [(c, m, [])]) st1 Bpre Hall' H2 Hch' Hpre').
        destruct (cbatch_items F f_may f_add st1 (pre ++ (c, m, []) :: items) items) as [[[st2 rs] bs] ls].
        apply items_post_skip; [|exact IH]. cbn [spec_batch]. fold scur.
        rewrite N.eqb_refl, Hlog, N.eqb_refl. cbn [length N.of_nat]. rewrite N.add_0_r, N.eqb_refl. reflexivity. }
      destruct (compatibilityRowsFromRecords c (al_leo (as_log s c) + 1) (x :: recs)) as [rows|e] eqn:Ec.
      2:{ specialize (IH (pre ++ [(c, m, x :: recs)]) st1 Bpre Hall' H2 Hch' Hpre').
          destruct (cbatch_items F f_may f_add st1 (pre ++ (c, m, x :: recs) :: items) items) as [[[st2 rs] bs] ls].
          apply items_post_skip; [|exact IH]. cbn [spec_batch].
          rewrite (proj2 (N.eqb_neq e 0)) by (eapply compat_err_nonzero; exact Ec). reflexivity. }
      destruct (compat_rows _ _ _ _ Ec) as [Hcs [Har [Hlen Hf]]].
      pose proof (validate_rows_volatile F f_may f_add rows st1 c (Seen [] []) (if m =? 1 then AppendServerAllocatedMessageID else AppendStrict)) as Hv.
      destruct (validate_rows F f_may f_add st1 c rows (Seen [] []) (if m =? 1 then AppendServerAllocatedMessageID else AppendStrict))
        as [st2 [sn|e]] eqn:Ev; cbn [fst] in Hv.
      2:{ assert (HR2 : R st2 s) by (eapply volatile_R; eassumption).
          specialize (IH (pre ++ [(c, m, x :: recs)]) st2 Bpre Hall' HR2 Hch' Hpre').
          destruct (cbatch_items F f_may f_add st2 (pre ++ (c, m, x :: recs) :: items) items) as [[[st3 rs] bs] ls].
          apply items_post_skip; [|exact IH]. cbn [spec_batch].
          assert (Ee : (toChannelError e =? 0) = false).
          { apply N.eqb_neq. unfold toChannelError. destruct (e =? EConflict); [discriminate|]. eapply (validate_err_nonzero F f_may f_add); exact Ev. }
          rewrite Ee. reflexivity. }
      (* an accepted block *)
      assert (HR2 : R st2 s) by (eapply volatile_R; eassumption).
      assert (Hne : rows <> []) by (intro X; subst rows; discriminate Hlen).
      assert (Hok : Forall (row_ok c) rows) by (eapply consec_ok; [|exact Hcs|exact Hf]; lia).
      set (blk := (c, rows) : rblock).
      assert (Hpre2 : forall b, In b (Bpre ++ [blk]) -> count_chan (pre ++ (c, m, x :: recs) :: items) (fst b) = 1%nat
                                 /\ exists m0 recs0, In (fst b, m0, recs0) (pre ++ [(c, m, x :: recs)])).
      { intros b Hb. apply in_app_or in Hb. destruct Hb as [Hb|[<-|[]]]; [apply Hpre'; exact Hb|].
        split; [exact Hcnt|]. exists m, (x :: recs). apply in_or_app. right. left. reflexivity. }
      specialize (IH (pre ++ [(c, m, x :: recs)]) st2 (Bpre ++ [blk]) Hall' HR2 Hch' Hpre2).
      destruct (cbatch_items F f_may f_add st2 (pre ++ (c, m, x :: recs) :: items) items) as [[[st3 rs] bs] ls].
      destruct IH as [H3 [B [E1 [E2 [E3 [E4 [E5 E6]]]]]]]. split; [exact H3|]. exists (blk :: B).
      assert (Hnotin : ~ In c (map fst B)).
      { intro Hin. apply in_map_iff in Hin. destruct Hin as [b [Eb Hb]]. destruct (E4 b Hb) as [m0 [r0 H0]]. rewrite Eb in H0.
        pose proof (count_chan_in items c m0 r0 H0) as Hc1. rewrite count_chan_app in Hcnt. unfold count_chan in Hcnt at 2. cbn [filter fst] in Hcnt.
        rewrite N.eqb_refl in Hcnt. cbn [length] in Hcnt. fold (count_chan items c) in Hcnt. lia. }
      split; [cbn [map kblock fst snd blk]; rewrite E1; reflexivity|].
      assert (El : last_seq rows = al_leo (as_log s c) + N.of_nat (length (x :: recs))).
      { pose proof (consec_last _ _ Hcs Hne) as Hl. rewrite Hlen in Hl. lia. }
      split; [cbn [map]; unfold lblock at 1; cbn [fst snd blk]; rewrite E2, El; reflexivity|].
      split; [constructor; [|exact E3]; unfold good_block; cbn [fst snd blk]; repeat split; assumption|].
      split; [intros b [<-|Hb]; [exists m, (x :: recs); left; reflexivity|destruct (E4 b Hb) as [m0 [r0 H0]]; exists m0, r0; right; exact H0]|].
      split; [cbn [map fst blk]; constructor; assumption|].
      cbn [spec_batch]. rewrite N.eqb_refl. fold scur. rewrite Hlog, N.eqb_refl, N.eqb_refl. cbn [andb].
      rewrite <- Har. rewrite map_app in E6. unfold fold_blocks in E6. rewrite fold_left_app in E6. cbn [fold_left map ablock fst snd blk] in E6.
      unfold scur, fold_blocks. refine (eq_trans E6 _). cbn [map fold_left ablock fst snd blk]. reflexivity.
  Qed.

  Lemma blocks_Rkv all : forall (B : list rblock) kv s,
    Rkv kv s -> NoDup (map fst B) -> Forall (good_block s all) B ->
    Rkv (kapply kv (flat_map snd (map kblock B))) (fold_blocks s (map ablock B)).
  Proof.
    induction B as [|[c rows] B IH]; intros kv s HR Hnd Hg; [exact HR|].
    inversion Hnd as [|? ? Hni Hnd']; subst. inversion Hg as [|? ? Hb Hg']; subst.
    destruct Hb as [Hne [_ [Hc [Hcs Hok]]]]. cbn [fst snd] in *.
    cbn [map flat_map kblock fst snd]. rewrite kapply_app.
    change (fold_blocks s (ablock (c, rows) :: map ablock B))
      with (fold_blocks (spec_append s c (map arow_of rows)) (map ablock B)).
    apply IH; [|exact Hnd'|].
    - rewrite kapply_app. apply Rkv_irrelevant; [apply irrelevant_catalog_for_append|].
      apply add_rows_Rkv; assumption.
    - apply Forall_forall. intros b Hb. pose proof (proj1 (Forall_forall _ _) Hg' b Hb) as [H1 [H2 [H3 [H4 H5]]]].
      assert (Hnc : fst b <> c) by (intro X; apply Hni; rewrite <- X; apply in_map; exact Hb).
      unfold good_block. rewrite spec_append_other by exact Hnc. repeat split; assumption.
  Qed.

  Lemma fold_set_leo_kv (ls : list (N * N)) : forall st : mstate,
    st_kv (fold_left (fun s cl => set_leo F s (fst cl) (snd cl)) ls st) = st_kv st.
  Proof. induction ls as [|x ls IH]; intro st; cbn [fold_left]; [reflexivity|]. rewrite IH. reflexivity. Qed.

  Lemma fold_set_leo_cache : forall (B : list rblock) (st : mstate) s,
    Forall (fun b : rblock => snd b <> []) B -> Rcache F st s ->
    Rcache F (fold_left (fun s cl => set_leo F s (fst cl) (snd cl)) (map lblock B) st) (fold_blocks s (map ablock B)).
  Proof.
    induction B as [|[c rows] B IH]; intros st s Hne Hc; [exact Hc|].
    inversion Hne as [|? ? Hn Hne']; subst. cbn [snd] in Hn.
    cbn [map fold_left lblock fst snd].
    change (fold_blocks s (ablock (c, rows) :: map ablock B))
      with (fold_blocks (spec_append s c (map arow_of rows)) (map ablock B)).
    apply IH; [exact Hne'|].
    intros c' Hld. unfold set_leo, set_cache in *. cbn [MsgStore.st_cache] in *.
    destruct (c' =? c) eqn:E.
    - apply N.eqb_eq in E. subst c'. cbn [cc_leo]. symmetry. apply spec_append_leo. exact Hn.
    - apply N.eqb_neq in E. rewrite spec_append_other by exact E. apply Hc. exact Hld.
  Qed.

  Lemma step_cbatch st s items :
    R st s -> Forall (fun it : item => In (fst (fst it)) all_chans) items ->
    sim F s (OCBatch items) (step F f_empty f_may f_add st (OCBatch items)).
  Proof.
    intros HR Hch. apply (sim_of_call F s _ _ XBatch). unfold CBatch.
    pose proof (cbatch_items_sim s items items [] st [] eq_refl HR Hch ltac:(intros b [])) as H.
    destruct (cbatch_items F f_may f_add st items items) as [[[st1 rs] bs] ls].
    destruct H as [HR1 [B [E1 [E2 [Hg [_ [Hnd Hs]]]]]]]. cbn [map] in Hs.
    change (fold_blocks s []) with s in Hs.
    destruct bs as [|b0 bs0] eqn:Ebs.
    - destruct B; [|discriminate E1]. exists s. split; [exact Hs|exact HR1].
    - rewrite <- Ebs in *. clear Ebs b0 bs0.
      exists (fold_blocks s (map ablock B)). split; [exact Hs|]. cbn [fst].
      subst bs ls. rewrite (sort_by_map (fun x : N * kbatch => fst x) kblock B).
      set (B' := sort_by (fun a : rblock => fst (kblock a)) B).
      assert (P : Permutation B' B) by apply sort_by_perm.
      assert (Hnd' : NoDup (map fst B')).
      { eapply Permutation_NoDup; [|exact Hnd]. apply Permutation_map. apply Permutation_sym. exact P. }
      assert (Hg' : Forall (good_block s items) B') by (eapply Permutation_Forall; [apply Permutation_sym; exact P|exact Hg]).
      pose proof (blocks_Rkv items B' (st_kv st1) s (proj1 HR1) Hnd' Hg') as Hk.
      assert (Hsv : seqv (fold_blocks s (map ablock B')) (fold_blocks s (map ablock B))).
      { apply fold_blocks_perm.
        - apply Permutation_map. exact P.
        - rewrite map_map. exact Hnd'.
        - apply Forall_forall. intros b Hb. apply in_map_iff in Hb. destruct Hb as [b' [<- Hb']].
          pose proof (proj1 (Forall_forall _ _) Hg' b' Hb') as [_ [_ [H3 _]]]. exact H3. }
      split.
      + rewrite fold_set_leo_kv. cbn [MsgStore.st_kv commit]. eapply Rkv_seqv; [exact Hsv|exact Hk].
      + apply fold_set_leo_cache.
        * apply Forall_forall. intros b Hb. pose proof (proj1 (Forall_forall _ _) Hg b Hb) as [H1 _]. exact H1.
        * exact (proj2 HR1).
  Qed.
End CBatch.
