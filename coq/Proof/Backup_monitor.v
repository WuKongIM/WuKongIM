(* Proof/Backup_monitor.v — C11: the rejection clauses of the case monitor are consequences of
   the theorems: on what the model answers, the monitor holds. *)
From WK Require Import Base.Base Base.Bytes Base.Lists Gen.Consts_C11 Model.Crc32 Model.Backup Model.Backup_C11.
From WK Require Import Proof.Backup Proof.Backup_import.
Open Scope N_scope.

Lemma mdb_eqb_refl db : mdb_eqb db db = true.
Proof. apply list_eqb_refl. intro e. unfold kv_eqb. rewrite !bytes_eqb_refl. reflexivity. Qed.

(* message importer, empty target, no cancellation: whatever the stream and the tables are, if the
   model rejects then the rejection clause of the monitor holds on the model's answer *)
Theorem monitor_reject_msg orc stream tgt' e :
  import_reader crc None orc stream [] = (tgt', Err e) ->
  mstep_monitor (MImport true [] stream orc None (Err e) tgt') = 0.
Proof.
  intro H. destruct (import_into_absent crc orc stream [] tgt' (Err e)) as [(e' & _ & Et)|(st & _ & _ & Es & _)].
  - intro key. reflexivity.
  - exact H.
  - subst tgt'. cbn [mstep_monitor all_empty forallb andb negb]. rewrite andb_false_r. reflexivity.
  - discriminate.
Qed.

(* metadata importer without token invalidation (modes 0, 1, 2), any target, no cancellation *)
Theorem monitor_reject_meta mode req stream before db' e :
  mode <= 2 ->
  import_meta crc None req (1 <=? mode) false stream before = (db', Err e) ->
  xstep_monitor (XImport mode before req stream None (Err e) db') = 0.
Proof.
  intros Hm H. cbn [xstep_monitor].
  destruct (e =? EOther) eqn:Ee; [reflexivity|]. cbn [orb].
  assert (db' = before).
  { eapply import_meta_rejected_untouched; [exact H|]. apply N.eqb_neq. exact Ee. }
  subst db'. rewrite mdb_eqb_refl. reflexivity.
Qed.

Theorem model_satisfies_monitor :
  (forall orc stream tgt' e,
     import_reader crc None orc stream [] = (tgt', Err e) ->
     mstep_monitor (MImport true [] stream orc None (Err e) tgt') = 0)
  /\ (forall mode req stream before db' e, mode <= 2 ->
        import_meta crc None req (1 <=? mode) false stream before = (db', Err e) ->
        xstep_monitor (XImport mode before req stream None (Err e) db') = 0).
Proof. split; [exact monitor_reject_msg|exact monitor_reject_meta]. Qed.
