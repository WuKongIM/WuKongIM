(* Proof/GatewaySend_acct.v — [stepT] (a step without its clock tick), the steps of submitter,
   drain worker and drain caller by kind and what they leave alone, and the accounting
   invariant: the admission WaitGroup counts exactly the SENDs between the gate and their
   completeAdmission; a non-empty shard queue has a scheduled drain; mailbox closed ->
   drained -> admission closed and nothing admitted. *)
From WK Require Import Base.Base Model.GatewaySend Proof.GatewaySend_lib Proof.GatewaySend_split.
Open Scope N_scope.

Definition wk_items (p : wpc) : list task :=
  match p with
  | WCollect i | WConsumeShard i | WConsume i => i
  | WDisp _ cur _ rest | WErr _ _ cur rest => cur ++ concat rest
  | _ => []
  end.

Definition whold (p : wpc) : N :=
  match p with
  | WCollect i | WConsumeShard i | WConsume i => len i
  | WDisp n _ _ _ | WErr n _ _ _ => n
  | WComplete r => r
  | _ => 0
  end.

Definition shold (p : spc) : N :=
  match p with
  | SReserve _ _ _ | SReserveShard _ _ _ | SEnqueue _ _ _
  | SUndoShard _ _ _ | SUndoQueue _ _ _ | SUndoAdm _ _ _ => 1
  | _ => 0
  end.

Definition cfg_ok (c : cfg) : Prop := (0 < c_shards c)%nat.

Lemma shard_lt c s : cfg_ok c -> (shard_of c s < c_shards c)%nat.
Proof. intro H. unfold shard_of. apply Nat.mod_upper_bound. unfold cfg_ok in H. lia. Qed.

(* copy of the [match] of [step]; [step_eq] guards it *)
Definition stepT (c : cfg) (st : state) (e : ev) : state :=
  match e with
  | ESend s b =>
      match spcs st s with
      | SIdle =>
          if (s <? c_nsess c)%nat && negb (sclosed st s)
          then set_spc s (SGate (nextq st s) b (now st)) (set_nextq (upd (nextq st) s (nextq st s + 1)) st)
          else st
      | _ => st
      end
  | ESub s => if (s <? c_nsess c)%nat then sub_step c s st else st
  | EWork k ch => if (k <? c_shards c)%nat then work_step c k ch st else st
  | EDrainCall d stop =>
      match dpcs st d with DIdle => set_dpc d (DSet (now st) stop) st | _ => st end
  | EDrain d timeout => drain_step d timeout st
  | EWaiter =>
      if dstarted st && negb (drained st) && (admitted st =? 0) then set_drained true st else st
  | ECloser =>
      if cstarted st && drained st && negb (mclosed st)
      then set_shq (fun _ => 0) (set_queued 0 (set_mclosed true st)) else st
  | EClose s => if (s <? c_nsess c)%nat then set_sclosed (upd (sclosed st) s true) st else st
  | EPush s w tag =>
      if (s <? c_nsess c)%nat && negb (w =? 0) then
        if sclosed st s then set_issues (issues st ++ [HIssue s w tag (now st) (now st) false]) st
        else set_issues (issues st ++ [HIssue s w tag (now st) (now st) true])
               (set_wire (wire st ++ [HWire s w tag (now st)]) st)
      else st
  end.

Definition tick (st : state) : state := set_now (now st + 1) st.

Lemma step_eq c st e : step c st e = stepT c (tick st) e.
Proof. reflexivity. Qed.

(* settings of the two depth counters, which no invariant reads *)
Definition depths (q : N) (f : nat -> N) (st : state) : state := set_queued q (set_shq f st).

Lemma depths_id st : st = depths (queued st) (shq st) st.
Proof. destruct st; reflexivity. Qed.
Lemma depths_shq f st : set_shq f st = depths (queued st) f st.
Proof. destruct st; reflexivity. Qed.
Lemma depths_queued q st : set_queued q st = depths q (shq st) st.
Proof. destruct st; reflexivity. Qed.

Ltac sp :=
  cbn [now closed admitted queued shq mbox mclosed dstarted drained cstarted spcs wpcs dpcs
       nextq sclosed sends disps drains issues wire
       set_now set_closed set_admitted set_queued set_shq set_mbox set_mclosed set_dstarted
       set_drained set_cstarted set_spcs set_wpcs set_dpcs set_nextq set_sclosed set_sends
       set_disps set_drains set_issues set_wire set_spc set_wpc set_dpc tick
       advance drop_items drain_return depths] in *.

Definition next_unit (n : N) (rest : list (list task)) : wpc :=
  match rest with [] => WComplete n | b :: r => WDisp n b b r end.

Lemma advance_eq k n rest st : advance k n rest st = set_wpc k (next_unit n rest) st.
Proof. destruct rest; reflexivity. Qed.

Lemma next_unit_hold n rest : whold (next_unit n rest) = n.
Proof. destruct rest; reflexivity. Qed.

Lemma next_unit_busy n rest : next_unit n rest <> WIdle.
Proof. destruct rest; discriminate. Qed.

Lemma next_unit_items n rest : wk_items (next_unit n rest) = concat rest.
Proof. destruct rest; reflexivity. Qed.

Lemma handler_cases (P : state -> Prop) ch (go fail panic : state) :
  P go -> P fail -> (ch = CPanic -> P panic) ->
  P match ch with CFail => fail | CPanic => panic | _ => go end.
Proof. destruct ch; auto. Qed.

(* SubmitHash schedules a drain unless one is scheduled *)
Definition wake (p : wpc) : wpc := if is_widle p then WPending else p.

Lemma wake_hold p : whold (wake p) = whold p.
Proof. destruct p; reflexivity. Qed.
Lemma wake_items p : wk_items (wake p) = wk_items p.
Proof. destruct p; reflexivity. Qed.
Lemma wake_busy p : wake p <> WIdle.
Proof. destruct p; discriminate. Qed.

Local Ltac step_cases :=
  repeat match goal with
         | |- context [match ?x with _ => _ end] => destruct x eqn:?
         end.

Lemma sub_step_frame c s st :
  let st' := sub_step c s st in
  (now st' = now st /\ closed st' = closed st /\ dstarted st' = dstarted st /\ drained st' = drained st)
  /\ (disps st' = disps st /\ drains st' = drains st /\ issues st' = issues st /\ wire st' = wire st)
  /\ (closed st = true -> admitted st' <= admitted st)
  /\ (sends st' = sends st \/
      exists x, sends st' = sends st ++ [x] /\ (hs_acc x = true -> shold (spcs st s) = 1)).
Proof.
  unfold sub_step. destruct (spcs st s) eqn:Hpc; [|destruct (closed st) eqn:Hcl|..]; step_cases; sp;
    (split; [repeat split; try reflexivity; assumption|]); (split; [repeat split; reflexivity|]);
    (split; [intros; try discriminate; lia|]); try (left; reflexivity);
    right; eexists; (split; [reflexivity|]); cbn; congruence.
Qed.

Lemma work_step_frame c k ch st :
  let st' := work_step c k ch st in
  (now st' = now st /\ closed st' = closed st /\ dstarted st' = dstarted st /\ drained st' = drained st)
  /\ (sends st' = sends st /\ spcs st' = spcs st /\ drains st' = drains st /\ issues st' = issues st)
  /\ admitted st' <= admitted st
  /\ (exists items, disps st' = disps st ++ map (fun x => HDisp (t_s x) (t_q x) (now st)) items)
  /\ (wire st' = wire st \/ exists x, wire st' = wire st ++ [HWire (t_s x) 0 (t_q x) (now st)]).
Proof.
  unfold work_step. step_cases; rewrite ?advance_eq; sp;
    (split; [repeat split; reflexivity|]); (split; [repeat split; reflexivity|]); (split; [lia|]);
    (split; [first [exists []; symmetry; apply app_nil_r | eexists; reflexivity]|]);
    first [left; reflexivity | right; eexists; reflexivity].
Qed.

(* a drain-worker step by kind, with the new state *)
Inductive wk_step (c : cfg) (k : nat) (ch : choice) (st st' : state) : Prop :=
| WkStay : st' = st -> wk_step c k ch st st'
| WkInternal w q f :
    st' = set_wpc k w (depths q f st) ->
    wk_items w = wk_items (wpcs st k) -> whold w = whold (wpcs st k) -> w <> WIdle ->
    (forall n cur ca rest, w = WDisp n cur ca rest -> cur = ca) ->
    (forall n tc cur rest, w <> WErr n tc cur rest) ->
    wk_step c k ch st st'
| WkDequeue x r its :
    st' = set_wpc k (WCollect (its ++ [x])) (set_mbox (upd (mbox st) k r) st) ->
    mbox st k = x :: r -> wk_items (wpcs st k) = its -> whold (wpcs st k) = len its ->
    wk_step c k ch st st'
| WkFail n cur ca rest :
    st' = set_wpc k (WErr n (if c_closeonerr c then dedup (map t_s ca) else []) cur rest) st ->
    wpcs st k = WDisp n cur ca rest -> wk_step c k ch st st'
| WkHead n x cur ca rest :
    st' = set_wpc k (WDisp n cur ca rest)
            (drop_items [x] (if sclosed st (t_s x) then st
                             else set_wire (wire st ++ [HWire (t_s x) 0 (t_q x) (now st)]) st)) ->
    wpcs st k = WDisp n (x :: cur) ca rest -> wk_step c k ch st st'
| WkPanic n cur ca rest :
    st' = set_wpc k (next_unit n rest) (drop_items cur st) ->
    ch = CPanic -> wpcs st k = WDisp n cur ca rest -> wk_step c k ch st st'
| WkGiveUp n cur rest :
    st' = set_wpc k (next_unit n rest) (drop_items cur st) ->
    wpcs st k = WErr n [] cur rest -> wk_step c k ch st st'
| WkClose n s tc cur rest :
    st' = set_wpc k (WErr n tc cur rest) (set_sclosed (upd (sclosed st) s true) st) ->
    wpcs st k = WErr n (s :: tc) cur rest -> wk_step c k ch st st'
| WkRelease r :
    st' = set_wpc k (WComplete (r - 1)) (set_admitted (admitted st - 1) st) ->
    wpcs st k = WComplete r -> r <> 0 -> wk_step c k ch st st'
| WkIdle :
    st' = set_wpc k WIdle st ->
    wpcs st k = WFinish -> mbox st k = [] \/ mclosed st = true -> wk_step c k ch st st'.

Lemma work_step_cases c k ch st : wk_step c k ch st (work_step c k ch st).
Proof.
  assert (Int : forall w st1 q f, st1 = depths q f st ->
            wk_items w = wk_items (wpcs st k) -> whold w = whold (wpcs st k) -> w <> WIdle ->
            (forall n cur ca rest, w = WDisp n cur ca rest -> cur = ca) ->
            (forall n tc cur rest, w <> WErr n tc cur rest) -> wk_step c k ch st (set_wpc k w st1)).
  { intros w st1 q f -> H1 H2 H3 H4 H5. exact (WkInternal c k ch st _ w q f eq_refl H1 H2 H3 H4 H5). }
  assert (Nxt : forall n rest n0 cur ca rest0, next_unit n rest = WDisp n0 cur ca rest0 -> cur = ca)
    by (intros n [|b r] ? ? ? ? H; inversion H; reflexivity).
  unfold work_step. destruct (wpcs st k) as [| | |items|items|items|n cur ca rest|n tc cur rest|r|] eqn:Hw.
  - apply WkStay. reflexivity.
  - apply (Int _ _ _ _ (depths_id st)); try reflexivity; discriminate.
  - destruct (mbox st k) as [|x r] eqn:Hm.
    + apply (Int _ _ _ _ (depths_id st)); try reflexivity; discriminate.
    + apply (WkDequeue c k ch st _ x r []); [reflexivity | exact Hm | rewrite Hw; reflexivity..].
  - assert (Hshard : wk_step c k ch st (set_wpc k (WConsumeShard items) st))
      by (apply (Int _ _ _ _ (depths_id st)); try reflexivity; discriminate).
    destruct (eff_maxrec (c_maxrec c) <=? length items)%nat; [exact Hshard|].
    destruct ch; try exact Hshard; (destruct (mbox st k) as [|x r] eqn:Hm; [apply WkStay; reflexivity|]);
      apply (WkDequeue c k _ st _ x r items); try reflexivity; try exact Hm; rewrite Hw; reflexivity.
  - apply (Int _ _ _ _ (depths_shq _ st)); try reflexivity; discriminate.
  - rewrite advance_eq. apply (Int _ _ _ _ (depths_queued _ st)).
    + rewrite next_unit_items, units_concat. reflexivity.
    + apply next_unit_hold.
    + apply next_unit_busy.
    + apply Nxt.
    + intros ? ? ? ? H. destruct (units c t_b items); discriminate H.
  - apply handler_cases.
    + destruct cur as [|x cur'].
      * rewrite advance_eq. apply (Int _ _ _ _ (depths_id st));
          [apply next_unit_items | apply next_unit_hold | apply next_unit_busy | apply Nxt
          | intros ? ? ? ? H; destruct rest; discriminate H].
      * apply (WkHead c k ch st _ n x cur' ca rest); [reflexivity | exact Hw].
    + apply (WkFail c k ch st _ n cur ca rest); [reflexivity | exact Hw].
    + intro E. rewrite advance_eq. apply (WkPanic c k ch st _ n cur ca rest); [reflexivity | exact E | exact Hw].
  - destruct tc as [|s tc].
    + rewrite advance_eq. apply (WkGiveUp c k ch st _ n cur rest); [reflexivity | exact Hw].
    + apply (WkClose c k ch st _ n s tc cur rest); [reflexivity | exact Hw].
  - destruct (r =? 0) eqn:Hr.
    + apply N.eqb_eq in Hr. subst r. apply (Int _ _ _ _ (depths_id st)); try reflexivity; discriminate.
    + apply N.eqb_neq in Hr. apply (WkRelease c k ch st _ r); [reflexivity | exact Hw | exact Hr].
  - destruct (mbox st k) eqn:Hm.
    + apply WkIdle; [reflexivity | exact Hw | left; exact Hm].
    + destruct (mclosed st) eqn:Hmc.
      * apply WkIdle; [reflexivity | exact Hw | right; exact Hmc].
      * apply (Int _ _ _ _ (depths_id st)); try reflexivity; discriminate.
Qed.

Definition spc_send (p : spc) : option (N * N * N) :=
  match p with
  | SIdle => None
  | SGate q b t | SReserve q b t | SReserveShard q b t | SEnqueue q b t
  | SUndoShard q b t | SUndoQueue q b t | SUndoAdm q b t | SReject q b t => Some (q, b, t)
  end.

Lemma counters_id st : st = set_admitted (admitted st) (depths (queued st) (shq st) st).
Proof. destruct st; reflexivity. Qed.
Lemma counters_admitted a st : set_admitted a st = set_admitted a (depths (queued st) (shq st) st).
Proof. destruct st; reflexivity. Qed.
Lemma counters_queued q st : set_queued q st = set_admitted (admitted st) (depths q (shq st) st).
Proof. destruct st; reflexivity. Qed.
Lemma counters_shq f st : set_shq f st = set_admitted (admitted st) (depths (queued st) f st).
Proof. destruct st; reflexivity. Qed.

(* a submitter step by kind; it takes an admission only at the open gate *)
Inductive sub_kind (c : cfg) (s : nat) (st st' : state) : Prop :=
| SbStay : st' = st -> sub_kind c s st st'
| SbMove p a q f :
    st' = set_spc s p (set_admitted a (depths q f st)) ->
    spc_send p = spc_send (spcs st s) -> p <> SIdle ->
    a = admitted st /\ shold p = shold (spcs st s)
    \/ closed st = false /\ a = admitted st + 1 /\ shold (spcs st s) = 0 /\ shold p = 1
    \/ a = admitted st - 1 /\ shold (spcs st s) = 1 /\ shold p = 0 ->
    sub_kind c s st st'
| SbEnqueue q b t0 :
    st' = set_spc s SIdle
            (set_sends (sends st ++ [HSend s q b t0 (now st) true])
               (set_wpc (shard_of c s) (wake (wpcs st (shard_of c s)))
                  (set_mbox (upd (mbox st) (shard_of c s) (mbox st (shard_of c s) ++ [T s q b])) st))) ->
    spcs st s = SEnqueue q b t0 -> sub_kind c s st st'
| SbReject q b t0 :
    st' = set_spc s SIdle (set_sends (sends st ++ [HSend s q b t0 (now st) false])
                             (set_sclosed (upd (sclosed st) s true) st)) ->
    spcs st s = SReject q b t0 -> sub_kind c s st st'.

Lemma sub_step_cases c s st : sub_kind c s st (sub_step c s st).
Proof.
  assert (Mv : forall p st1 a q f, st1 = set_admitted a (depths q f st) ->
            spc_send p = spc_send (spcs st s) -> p <> SIdle ->
            a = admitted st /\ shold p = shold (spcs st s)
            \/ closed st = false /\ a = admitted st + 1 /\ shold (spcs st s) = 0 /\ shold p = 1
            \/ a = admitted st - 1 /\ shold (spcs st s) = 1 /\ shold p = 0 ->
            sub_kind c s st (set_spc s p st1)).
  { intros p st1 a q f -> H1 H2 H3. exact (SbMove c s st _ p a q f eq_refl H1 H2 H3). }
  unfold sub_step. destruct (spcs st s) as [|q b t0|q b t0|q b t0|q b t0|q b t0|q b t0|q b t0|q b t0] eqn:Hpc.
  - apply SbStay. reflexivity.
  - destruct (closed st) eqn:Hcl.
    + apply (Mv _ _ _ _ _ (counters_id st)); [reflexivity | discriminate | left; split; reflexivity].
    + apply (Mv _ _ _ _ _ (counters_admitted _ st)); [reflexivity | discriminate | right; left; repeat split; reflexivity].
  - destruct (c_cap c <=? queued st);
      [apply (Mv _ _ _ _ _ (counters_id st)) | apply (Mv _ _ _ _ _ (counters_queued _ st))];
      try reflexivity; try discriminate; left; split; reflexivity.
  - destruct (c_shardcap c <=? shq st (shard_of c s));
      [apply (Mv _ _ _ _ _ (counters_id st)) | apply (Mv _ _ _ _ _ (counters_shq _ st))];
      try reflexivity; try discriminate; left; split; reflexivity.
  - destruct (mclosed st || (c_shardcap c <=? len (mbox st (shard_of c s)))).
    + apply (Mv _ _ _ _ _ (counters_id st)); [reflexivity | discriminate | left; split; reflexivity].
    + apply (SbEnqueue c s st _ q b t0); [reflexivity | exact Hpc].
  - apply (Mv _ _ _ _ _ (counters_shq _ st)); [reflexivity | discriminate | left; split; reflexivity].
  - apply (Mv _ _ _ _ _ (counters_queued _ st)); [reflexivity | discriminate | left; split; reflexivity].
  - apply (Mv _ _ _ _ _ (counters_admitted _ st)); [reflexivity | discriminate | right; right; repeat split; reflexivity].
  - apply (SbReject c s st _ q b t0); [reflexivity | exact Hpc].
Qed.

Lemma drain_step_cases d timeout st :
  drain_step d timeout st = st
  \/ (exists t0 stop, dpcs st d = DSet t0 stop
                      /\ drain_step d timeout st = set_dpc d (DOnce t0 stop) (set_closed true st))
  \/ (exists t0 stop, dpcs st d = DOnce t0 stop
                      /\ drain_step d timeout st = set_dpc d (DWait t0 stop) (set_dstarted true st))
  \/ (exists t0 stop ok, dpcs st d = DWait t0 stop /\ (ok = true -> drained st = true)
                         /\ drain_step d timeout st = drain_return d t0 stop ok st).
Proof.
  unfold drain_step. destruct (dpcs st d) as [|t0 stop|t0 stop|t0 stop];
    [left; reflexivity | right; left; eauto | right; right; left; eauto |].
  destruct (drained st) eqn:Hd; [right; right; right; exists t0, stop, true; auto|].
  destruct timeout; [|left; reflexivity].
  right. right. right. exists t0, stop, false. split; [reflexivity | split; [discriminate | reflexivity]].
Qed.

Lemma stepT_ctrl c st e :
  now (stepT c st e) = now st
  /\ (closed st = true -> closed (stepT c st e) = true /\ admitted (stepT c st e) <= admitted st)
  /\ (dstarted st = true -> dstarted (stepT c st e) = true)
  /\ (drained st = true -> drained (stepT c st e) = true).
Proof.
  destruct e as [s b|s|k ch|d stop|d timeout| | |s|s w tag]; cbn [stepT].
  2: { destruct (s <? c_nsess c)%nat; [|repeat split; auto; lia].
       destruct (sub_step_frame c s st) as ((-> & -> & -> & ->) & _ & H & _). repeat split; auto. }
  2: { destruct (k <? c_shards c)%nat; [|repeat split; auto; lia].
       destruct (work_step_frame c k ch st) as ((-> & -> & -> & ->) & _ & H & _). repeat split; auto. }
  all: unfold drain_step, drain_return; step_cases; sp; repeat split; auto; lia.
Qed.

Lemma step_now c st e : now (step c st e) = now st + 1.
Proof. rewrite step_eq. apply stepT_ctrl. Qed.

Definition ctl_ev (e : ev) : Prop := match e with ESend _ _ | ESub _ | EWork _ _ => False | _ => True end.

Lemma ctl_step_frame c st e :
  ctl_ev e -> let st' := stepT c st e in
  (sends st' = sends st /\ disps st' = disps st /\ spcs st' = spcs st /\ nextq st' = nextq st)
  /\ (wpcs st' = wpcs st /\ mbox st' = mbox st /\ admitted st' = admitted st)
  /\ (forall s, ackq (wire st') s = ackq (wire st) s)
  /\ (forall s, sclosed st s = true -> sclosed st' s = true).
Proof.
  destruct e; try contradiction; intros _; cbn [stepT]; unfold drain_step, drain_return; step_cases; sp;
    repeat split; auto; intro s0; try apply upd_true_mono.
  apply ackq_push. match goal with H : _ && negb (w =? 0) = true |- _ => apply andb_true_iff in H; destruct H as [_ H] end.
  apply N.eqb_neq, negb_true_iff. assumption.
Qed.

(* admissions held by shard k *)
Definition wload (st : state) (k : nat) : N := len (mbox st k) + whold (wpcs st k).

Definition flags (st : state) := (closed st, dstarted st, drained st, mclosed st, dpcs st).

Record Acct (c : cfg) (st : state) : Prop := {
  a_sp : forall s, (c_nsess c <= s)%nat -> spcs st s = SIdle;
  a_wp : forall k, (c_shards c <= k)%nat -> wpcs st k = WIdle /\ mbox st k = [];
  a_adm : admitted st = sumf (fun s => shold (spcs st s)) (c_nsess c) + sumf (wload st) (c_shards c);
  (* <=: the admissions of a mailbox batch are held until WComplete *)
  a_hold : forall k, len (wk_items (wpcs st k)) <= whold (wpcs st k);
  a_sched : forall k, mbox st k <> [] -> wpcs st k <> WIdle;
  a_drained : drained st = true -> dstarted st = true /\ admitted st = 0;
  a_dstarted : dstarted st = true -> closed st = true;
  a_mclosed : mclosed st = true -> drained st = true;
  a_dpc : closed st = false -> forall d, match dpcs st d with DIdle | DSet _ _ => True | _ => False end }.

Lemma acct_init c : Acct c init.
Proof.
  constructor; cbn; intros; try discriminate; try (split; reflexivity); try congruence; try exact I.
  rewrite !sumf_all_zero; reflexivity.
Qed.

Lemma acct_shold_le c st s : Acct c st -> shold (spcs st s) <= admitted st.
Proof.
  intros A. rewrite (a_adm c st A). destruct (Nat.lt_ge_cases s (c_nsess c)) as [Hs|Hs].
  - pose proof (sumf_ge (fun s => shold (spcs st s)) _ s Hs). cbn beta in *. lia.
  - rewrite (a_sp c st A s Hs). cbn [shold]. lia.
Qed.

Lemma acct_holds c st s k : Acct c st -> (k < c_shards c)%nat -> shold (spcs st s) + wload st k <= admitted st.
Proof.
  intros A Hk. rewrite (a_adm c st A). pose proof (sumf_ge (wload st) _ k Hk).
  destruct (Nat.lt_ge_cases s (c_nsess c)) as [Hs|Hs].
  - pose proof (sumf_ge (fun s => shold (spcs st s)) _ s Hs). cbn beta in *. lia.
  - rewrite (a_sp c st A s Hs). cbn [shold]. lia.
Qed.

Lemma acct_zero c st k : Acct c st -> admitted st = 0 -> mbox st k = [] /\ wk_items (wpcs st k) = [].
Proof.
  intros A H0. destruct (Nat.lt_ge_cases k (c_shards c)) as [Hk|Hk].
  - pose proof (acct_holds c st 0 k A Hk) as H. pose proof (a_hold c st A k). unfold wload in H.
    split; apply len_zero; lia.
  - destruct (a_wp c st A k Hk) as [H1 H2]. rewrite H1, H2. split; reflexivity.
Qed.

Lemma acct_flags c st st' :
  Acct c st ->
  spcs st' = spcs st -> wpcs st' = wpcs st -> mbox st' = mbox st -> admitted st' = admitted st ->
  (drained st' = true -> dstarted st' = true /\ admitted st' = 0) ->
  (dstarted st' = true -> closed st' = true) ->
  (mclosed st' = true -> drained st' = true) ->
  (closed st' = false -> forall d, match dpcs st' d with DIdle | DSet _ _ => True | _ => False end) ->
  Acct c st'.
Proof.
  intros [] Hs Hw Hm Ha Hd ? ? ?. rewrite Ha in Hd. constructor; unfold wload; rewrite ?Hs, ?Hw, ?Hm, ?Ha; assumption.
Qed.

Lemma acct_frame c st st' :
  Acct c st -> spcs st' = spcs st -> wpcs st' = wpcs st -> mbox st' = mbox st -> admitted st' = admitted st ->
  flags st' = flags st -> Acct c st'.
Proof.
  intros A Hs Hw Hm Ha Hf. injection Hf as Hc Hds Hdr Hmc Hd.
  apply (acct_flags c st st' A Hs Hw Hm Ha); rewrite ?Hc, ?Hds, ?Hdr, ?Hmc, ?Hd, ?Ha; apply A.
Qed.

Lemma acct_tick c st : Acct c st -> Acct c (tick st).
Proof. intro A. apply (acct_frame c st _ A); reflexivity. Qed.

(* submitter s goes to p, shard k to (w, m); the premise of the equation makes a decrement exact *)
Lemma acct_move c st st' s k p w m :
  Acct c st -> (k < c_shards c)%nat -> (s < c_nsess c)%nat \/ p = spcs st s ->
  (forall i, spcs st' i = upd (spcs st) s p i) ->
  (forall i, wpcs st' i = upd (wpcs st) k w i) ->
  (forall i, mbox st' i = upd (mbox st) k m i) ->
  flags st' = flags st ->
  (shold (spcs st s) + wload st k <= admitted st ->
   admitted st' + (shold (spcs st s) + wload st k) = admitted st + (shold p + (len m + whold w))) ->
  (len (wk_items (wpcs st k)) <= whold (wpcs st k) -> len (wk_items w) <= whold w) ->
  (m <> [] -> w <> WIdle) ->
  (closed st = true -> admitted st' <= admitted st) ->
  Acct c st'.
Proof.
  intros A Hk Hs Hsp Hwp Hmb Hf Hadm Hhold Hsched Hcl.
  specialize (Hadm (acct_holds c st s k A Hk)). injection Hf as Hc Hds Hdr Hmc Hd.
  destruct A. constructor.
  - intros i Hi. rewrite Hsp. destruct (Nat.eq_dec i s) as [->|Hne].
    + rewrite upd_same. destruct Hs as [Hs| ->]; [lia | auto].
    + rewrite upd_other by exact Hne. auto.
  - intros i Hi. rewrite Hwp, Hmb, !upd_other by lia. auto.
  - assert (H1 : sumf (fun i => shold (spcs st' i)) (c_nsess c) + shold (spcs st s)
                 = sumf (fun i => shold (spcs st i)) (c_nsess c) + shold p).
    { rewrite <- (upd_same (spcs st) s p), <- Hsp. apply (sumf_change (fun i => shold (spcs st i))).
      - intros i Hi. rewrite Hsp, upd_other by exact Hi. reflexivity.
      - destruct Hs as [Hs| ->]; [left; exact Hs | right; rewrite Hsp, upd_same; reflexivity]. }
    assert (H2 : sumf (wload st') (c_shards c) + wload st k = sumf (wload st) (c_shards c) + (len m + whold w)).
    { rewrite <- (upd_same (mbox st) k m), <- (upd_same (wpcs st) k w), <- Hmb, <- Hwp.
      apply (sumf_change (wload st)); [|left; exact Hk].
      intros i Hi. unfold wload. rewrite Hmb, Hwp, !upd_other by exact Hi. reflexivity. }
    lia.
  - intro i. rewrite Hwp. destruct (Nat.eq_dec i k) as [->|Hne].
    + rewrite upd_same. apply Hhold, a_hold0.
    + rewrite upd_other by exact Hne. apply a_hold0.
  - intro i. rewrite Hwp, Hmb. destruct (Nat.eq_dec i k) as [->|Hne].
    + rewrite !upd_same. exact Hsched.
    + rewrite !upd_other by exact Hne. apply a_sched0.
  - rewrite Hdr, Hds. intro H. destruct (a_drained0 H) as [H1 H2]. split; [exact H1|].
    specialize (Hcl (a_dstarted0 H1)). lia.
  - rewrite Hds, Hc. exact a_dstarted0.
  - rewrite Hmc, Hdr. exact a_mclosed0.
  - rewrite Hc, Hd. exact a_dpc0.
Qed.

(* the thread that stands still is index 0, updated with its own value *)
Lemma acct_sub_move c st st' s p :
  Acct c st -> cfg_ok c -> (s < c_nsess c)%nat ->
  spcs st' = upd (spcs st) s p -> wpcs st' = wpcs st -> mbox st' = mbox st -> flags st' = flags st ->
  (shold (spcs st s) <= admitted st -> admitted st' + shold (spcs st s) = admitted st + shold p) ->
  (closed st = true -> admitted st' <= admitted st) ->
  Acct c st'.
Proof.
  intros A Hc Hs Hsp Hw Hm Hf Hadm Hcl.
  apply (acct_move c st st' s 0 p (wpcs st 0%nat) (mbox st 0%nat) A Hc (or_introl Hs)); try assumption.
  - intro i. rewrite Hsp. reflexivity.
  - intro i. rewrite Hw, upd_id. reflexivity.
  - intro i. rewrite Hm, upd_id. reflexivity.
  - unfold wload. lia.
  - auto.
  - apply (a_sched c st A).
Qed.

Lemma acct_wk_move c st st' k w m :
  Acct c st -> (k < c_shards c)%nat ->
  spcs st' = spcs st -> flags st' = flags st -> wpcs st' = upd (wpcs st) k w ->
  (forall i, mbox st' i = upd (mbox st) k m i) ->
  (wload st k <= admitted st -> admitted st' + wload st k = admitted st + (len m + whold w)) ->
  (len (wk_items (wpcs st k)) <= whold (wpcs st k) -> len (wk_items w) <= whold w) ->
  (m <> [] -> w <> WIdle) ->
  admitted st' <= admitted st ->
  Acct c st'.
Proof.
  intros A Hk Hsp Hf Hwp Hmb Hadm Hhold Hsched Hle.
  apply (acct_move c st st' 0 k (spcs st 0%nat) w m A Hk (or_intror eq_refl)); try assumption.
  - intro i. rewrite Hsp, upd_id. reflexivity.
  - intro i. rewrite Hwp. reflexivity.
  - lia.
  - intros _. exact Hle.
Qed.

Lemma acct_wk_pc c st st' k w :
  Acct c st -> (k < c_shards c)%nat ->
  spcs st' = spcs st -> flags st' = flags st -> wpcs st' = upd (wpcs st) k w -> mbox st' = mbox st ->
  (wload st k <= admitted st -> admitted st' + whold (wpcs st k) = admitted st + whold w) ->
  (len (wk_items (wpcs st k)) <= whold (wpcs st k) -> len (wk_items w) <= whold w) ->
  (mbox st k <> [] -> w <> WIdle) ->
  admitted st' <= admitted st ->
  Acct c st'.
Proof.
  intros A Hk Hsp Hf Hwp Hmb Hadm. apply (acct_wk_move c st st' k w (mbox st k) A Hk Hsp Hf Hwp).
  - intro i. rewrite Hmb, upd_id. reflexivity.
  - unfold wload in *. lia.
Qed.

Lemma acct_send c st s b : cfg_ok c -> Acct c st -> Acct c (stepT c st (ESend s b)).
Proof.
  intros Hc A. cbn [stepT]. destruct (spcs st s) eqn:Hpc; try exact A.
  destruct ((s <? c_nsess c)%nat && negb (sclosed st s)) eqn:Hs; [|exact A].
  apply andb_true_iff in Hs. destruct Hs as [Hs _]. apply Nat.ltb_lt in Hs.
  apply (acct_sub_move c st _ s (SGate (nextq st s) b (now st)) A Hc Hs); try reflexivity.
  rewrite Hpc. cbn. lia.
Qed.

Lemma acct_sub c st s : cfg_ok c -> (s < c_nsess c)%nat -> Acct c st -> Acct c (sub_step c s st).
Proof.
  intros Hc Hs A.
  destruct (sub_step_cases c s st) as [-> | p a q f -> _ _ Ha | q b t0 -> Hpc | q b t0 -> Hpc].
  - exact A.
  - apply (acct_sub_move c st _ s p A Hc Hs); try reflexivity; unfold depths; sp; [lia|]. intro Hcl. destruct Ha as [Ha|[Ha|Ha]]; [lia | destruct Ha; congruence | lia].
  - apply (acct_move c st _ s (shard_of c s) SIdle (wake (wpcs st (shard_of c s))) (mbox st (shard_of c s) ++ [T s q b]) A
             (shard_lt c s Hc) (or_introl Hs)); try reflexivity.
    + rewrite Hpc, wake_hold. unfold wload. sp. cbn [shold]. autorewrite with len. lia.
    + rewrite wake_items, wake_hold. auto.
    + intros _. apply wake_busy.
  - apply (acct_sub_move c st _ s SIdle A Hc Hs); try reflexivity. rewrite Hpc. reflexivity.
Qed.

Lemma acct_work c st k ch : (k < c_shards c)%nat -> Acct c st -> Acct c (work_step c k ch st).
Proof.
  intros Hk A. pose proof (fun st' w => acct_wk_pc c st st' k w A Hk) as Pc. unfold wload in Pc.
  destruct (work_step_cases c k ch st)
    as [-> | w q f -> Hi Hh Hb _ _ | x r its -> Hm Hi Hh | n cur ca rest -> Hw | n x cur ca rest -> Hw
        | n cur ca rest -> _ Hw | n cur rest -> Hw | n s tc cur rest -> Hw | r -> Hw Hr | -> Hw Hm];
    try (rewrite Hw in Pc; cbn [whold wk_items] in Pc).
  - exact A.
  - eapply Pc; try reflexivity; [rewrite Hh; reflexivity | rewrite Hi, Hh; auto | intros _; exact Hb].
  - apply (acct_wk_move c st _ k (WCollect (its ++ [x])) r A Hk); try reflexivity; try discriminate;
      unfold wload; sp; rewrite ?Hm, ?Hh; cbn [whold wk_items]; autorewrite with len; lia.
  - eapply Pc; try reflexivity; auto; discriminate.
  - destruct (sclosed st (t_s x)); eapply Pc; try reflexivity; try discriminate;
      cbn [wk_items whold app]; autorewrite with len; lia.
  - eapply Pc; try reflexivity; rewrite ?next_unit_hold, ?next_unit_items;
      [reflexivity | autorewrite with len; lia | intros _; apply next_unit_busy].
  - eapply Pc; try reflexivity; rewrite ?next_unit_hold, ?next_unit_items;
      [reflexivity | autorewrite with len; lia | intros _; apply next_unit_busy].
  - eapply Pc; try reflexivity; auto; discriminate.
  - eapply Pc; try reflexivity; try discriminate; sp; cbn [whold wk_items]; autorewrite with len; lia.
  - eapply Pc; try reflexivity. destruct Hm as [Hm|Hmc]; [congruence|].
    (* a closed mailbox is empty *)
    destruct (acct_zero c st k A) as [Hz _]; [|congruence].
    apply (a_drained c st A), (a_mclosed c st A), Hmc.
Qed.

Lemma acct_caller_closed c st d : Acct c st -> (forall t0 stop, dpcs st d <> DSet t0 stop) -> dpcs st d <> DIdle -> closed st = true.
Proof.
  intros A H1 H2. destruct (closed st) eqn:E; [reflexivity|]. pose proof (a_dpc c st A E d) as H.
  destruct (dpcs st d); [congruence | exfalso; eapply H1; reflexivity | contradiction..].
Qed.

Lemma acct_drain c st d timeout : Acct c st -> Acct c (drain_step d timeout st).
Proof.
  intros A. unfold drain_step. destruct (dpcs st d) as [|t0 stop|t0 stop|t0 stop] eqn:Hd; try exact A.
  - apply (acct_flags c st _ A); try reflexivity; sp; try apply A; discriminate.
  - assert (Hcl : closed st = true) by (apply (acct_caller_closed c st d A); rewrite Hd; discriminate).
    apply (acct_flags c st _ A); try reflexivity; sp; try apply A; try congruence.
    intro H. split; [reflexivity | apply (a_drained c st A H)].
  - assert (Hcl : closed st = true) by (apply (acct_caller_closed c st d A); rewrite Hd; discriminate).
    assert (Hret : forall ok, Acct c (drain_return d t0 stop ok st)).
    { intro ok. apply (acct_flags c st _ A); try reflexivity; sp; try apply A. congruence. }
    destruct (drained st); [apply Hret|]. destruct timeout; [apply Hret|exact A].
Qed.

Lemma acct_stepT c st e : cfg_ok c -> Acct c st -> Acct c (stepT c st e).
Proof.
  intros Hc A. destruct e as [s b|s|k ch|d stop|d timeout| | |s|s w tag]; cbn [stepT].
  - apply acct_send; assumption.
  - destruct (s <? c_nsess c)%nat eqn:Hs; [|exact A]. apply Nat.ltb_lt in Hs. apply acct_sub; assumption.
  - destruct (k <? c_shards c)%nat eqn:Hk; [|exact A]. apply Nat.ltb_lt in Hk. apply acct_work; assumption.
  - destruct (dpcs st d) eqn:Hd; try exact A.
    apply (acct_flags c st _ A); try reflexivity; sp; try apply A.
    intros Hcl d0. pose proof (a_dpc c st A Hcl d0) as H. unfold upd. destruct (Nat.eqb d0 d); [exact I|exact H].
  - apply acct_drain. exact A.
  - destruct (dstarted st && negb (drained st) && (admitted st =? 0)) eqn:Hw; [|exact A].
    apply andb_true_iff in Hw. destruct Hw as [Hw H0]. apply andb_true_iff in Hw. destruct Hw as [Hds _].
    apply N.eqb_eq in H0. apply (acct_flags c st _ A); try reflexivity; sp; try apply A; auto.
  - destruct (cstarted st && drained st && negb (mclosed st)) eqn:Hw; [|exact A].
    apply andb_true_iff in Hw. destruct Hw as [Hw _]. apply andb_true_iff in Hw. destruct Hw as [_ Hdr].
    apply (acct_flags c st _ A); try reflexivity; sp; try apply A; auto.
  - destruct (s <? c_nsess c)%nat; [|exact A]. apply (acct_frame c st _ A); reflexivity.
  - destruct ((s <? c_nsess c)%nat && negb (w =? 0)); [|exact A].
    destruct (sclosed st s); apply (acct_frame c st _ A); reflexivity.
Qed.

Lemma acct_step c st e : cfg_ok c -> Acct c st -> Acct c (step c st e).
Proof. intros Hc A. rewrite step_eq. apply acct_stepT; [exact Hc|]. apply acct_tick. exact A. Qed.

Lemma run_inv_ev c (E : ev -> Prop) (P : state -> Prop) :
  P init -> (forall st e, E e -> P st -> P (step c st e)) -> forall evs, Forall E evs -> P (run c evs).
Proof.
  intros H0 Hs evs HE. unfold run. rewrite <- fold_left_rev_right.
  apply Forall_rev in HE. induction HE as [|e l He _ IH]; cbn [fold_right]; [exact H0 | apply (Hs _ _ He IH)].
Qed.

Lemma run_inv c (P : state -> Prop) :
  P init -> (forall st e, P st -> P (step c st e)) -> forall evs, P (run c evs).
Proof.
  intros H0 Hs evs. apply (run_inv_ev c (fun _ => True) P H0 (fun st e _ => Hs st e)).
  apply Forall_forall. intros; exact I.
Qed.

Lemma acct_run c evs : cfg_ok c -> Acct c (run c evs).
Proof. intro Hc. apply run_inv; [apply acct_init | intros st e; apply acct_step, Hc]. Qed.
