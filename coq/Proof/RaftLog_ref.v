(* Proof/RaftLog_ref.v — the reference Raft storage on Raft-valid requests:
   well-formedness is preserved and an accepted save has a closed form
   ([save_spec]) that the two implementations are compared against. *)
From WK Require Import Base.Base Base.Lists Gen.Consts_C14 Model.RaftLog Proof.RaftLog_lists.
From Coq Require Import ZifyBool ZifyN ZifyNat.
Open Scope N_scope.

(* Clauses 3-5 mirror the code: [r_sidx r < MaxUint64] keeps save_snapshot_step off its
   saturating branch; a missing manifest row reads as [snap0]; snapshotStore.prepare refuses
   index or term 0, and restore_conf needs sorted positive voters ([conf_ok]). *)
Definition wf (r : rstate) : Prop :=
  contiguous_from (r_sidx r + 1) (r_ents r) = true
  /\ forallb (fun e => e_idx e <? c14_MaxUint64) (r_ents r) = true
  /\ r_sidx r < c14_MaxUint64
  /\ (r_sidx r = 0 -> r_snap r = snap0)
  /\ (0 < r_sidx r -> conf_ok (s_conf (r_snap r)) = true /\ 0 < s_term (r_snap r))
  /\ (exists cs, ref_conf r = Some cs).

Lemma wf_contig r : wf r -> contiguous_from (r_sidx r + 1) (r_ents r) = true.
Proof. intros (H & _). exact H. Qed.

Lemma wf_conf r : wf r -> exists cs, ref_conf r = Some cs.
Proof. intros (_ & _ & _ & _ & _ & H). exact H. Qed.

Lemma wf_rstate0 : wf rstate0.
Proof.
  unfold wf, r_sidx. cbn [rstate0 r_snap r_ents snap0 s_idx].
  repeat split; try reflexivity; try lia. exists []. reflexivity.
Qed.

Lemma r_last_len r : r_last r = r_sidx r + len (r_ents r).
Proof. reflexivity. Qed.

Lemma req_valid_save r hs ents snap :
  req_valid r (WSave hs ents snap) = true ->
  forallb entry_ok ents = true
  /\ match ents with [] => true | e0 :: _ => contiguous_from (e_idx e0) ents end = true
  /\ match snap with
     | Some s => snapshot_ok r s
     | None => match ents with [] => true | e0 :: _ => r_sidx r <? e_idx e0 end
     end = true
  /\ match ref_save false r hs ents snap with
     | ROk r' => exists cs, ref_conf r' = Some cs
     | RRej _ => True
     | RInvalid => False
     end.
Proof.
  cbn [req_valid]. rewrite !andb_true_iff. intros [[[H1 H2] H3] H4]. repeat split; try assumption.
  destruct (ref_save false r hs ents snap) as [r'|e|]; [|exact I|discriminate].
  destruct (ref_conf r'); [eexists; reflexivity|discriminate].
Qed.

Lemma req_valid_not_invalid r q : req_valid r q = true -> ref_req false r q <> RInvalid.
Proof.
  destruct q as [hs ents snap|i|i]; cbn [ref_req]; [|discriminate..]. intros H E.
  apply req_valid_save in H. rewrite E in H. tauto.
Qed.

Lemma snapshot_ok_inv r s :
  snapshot_ok r s = true ->
  0 < s_idx s /\ s_idx s < c14_MaxUint64 /\ 0 < s_term s /\ conf_ok (s_conf s) = true.
Proof. unfold snapshot_ok. rewrite !andb_true_iff, !N.ltb_lt. tauto. Qed.

(* the last clause of [snapshot_ok]: at the stored index planSnapshotSave's manifest
   comparison and [same_snapshot] agree *)
Lemma same_snapshot_manifest r s :
  snapshot_ok r s = true -> s_idx s = r_sidx r ->
  negb (s_term s =? s_term (r_snap r)) || negb (conf_eqb (s_conf s) (s_conf (r_snap r)))
  || negb (blen (s_data s) =? blen (s_data (r_snap r))) || negb (s_sum s =? s_sum (r_snap r))
  = negb (same_snapshot s (r_snap r)).
Proof.
  unfold snapshot_ok, same_snapshot, snap_eqb. intros H Hi. apply andb_true_iff in H. destruct H as [_ H].
  rewrite Hi in *. unfold r_sidx in *. rewrite N.eqb_refl in *. cbn [andb] in *.
  destruct (s_term s =? s_term (r_snap r)); [|reflexivity].
  destruct (conf_eqb (s_conf s) (s_conf (r_snap r))); [|reflexivity].
  cbn [andb negb orb] in *. apply eqb_prop in H. rewrite H. symmetry. apply negb_andb.
Qed.

Lemma same_snapshot_eq r s :
  snapshot_ok r s = true -> s_idx s = r_sidx r -> same_snapshot s (r_snap r) = true -> s = r_snap r.
Proof.
  intros Hok Hi Hs. pose proof (same_snapshot_manifest r s Hok Hi) as Hm. rewrite Hs in Hm.
  apply orb_false_iff in Hm. destruct Hm as [_ Hsum]. apply negb_false_iff, N.eqb_eq in Hsum.
  destruct (snap_eqb_fields _ _ Hs) as (? & ? & ? & ?). destruct s, (r_snap r). cbn in *. congruence.
Qed.

Definition append_spec (sidx : N) (base ents : list entry) : list entry :=
  match filterEntriesAfterSnapshot ents sidx with
  | [] => base
  | e0 :: es => firstn (N.to_nat (e_idx e0 - sidx - 1)) base ++ e0 :: es
  end.

(* what the code relies on: the retained entries continue the log without a hole *)
Definition append_ok (sidx : N) (base ents : list entry) : Prop :=
  match filterEntriesAfterSnapshot ents sidx with
  | [] => True
  | e0 :: es => contiguous_from (e_idx e0) (e0 :: es) = true
                /\ sidx + 1 <= e_idx e0 /\ e_idx e0 <= sidx + 1 + len base
  end.

Definition raise_commit (h : hardstate) (snap : option snapshot) : hardstate :=
  match snap with
  | Some s => if hs_commit h <? s_idx s then set_commit h (s_idx s) else h
  | None => h
  end.

(* an accepted snapshot at the stored index is the stored one ([same_snapshot_eq]), so
   cutting the log at the new index covers every accepted case *)
Definition spec_snapshot (r : rstate) (snap : option snapshot) : snapshot :=
  match snap with Some s => s | None => r_snap r end.
Definition spec_base (r : rstate) (snap : option snapshot) : list entry :=
  match snap with
  | Some s => skipn (N.to_nat (s_idx s - r_sidx r)) (r_ents r)
  | None => r_ents r
  end.

Definition save_spec (r : rstate) (hs : option hardstate) (ents : list entry) (snap : option snapshot) : rstate :=
  RS (raise_commit (match hs with Some h => h | None => r_hs r end) snap) (r_applied r) (r_cfg r)
     (spec_snapshot r snap) (append_spec (s_idx (spec_snapshot r snap)) (spec_base r snap) ents).

Lemma spec_base_contig r snap :
  contiguous_from (r_sidx r + 1) (r_ents r) = true -> r_sidx r <= s_idx (spec_snapshot r snap) ->
  contiguous_from (s_idx (spec_snapshot r snap) + 1) (spec_base r snap) = true.
Proof.
  intros Hc Hle. destruct snap as [s|]; [|exact Hc]. cbn [spec_snapshot spec_base fst snd] in *.
  replace (s_idx s + 1) with (r_sidx r + 1 + N.of_nat (N.to_nat (s_idx s - r_sidx r))) by lia.
  apply contig_skipn. exact Hc.
Qed.

Lemma spec_base_last r snap :
  r_sidx r <= s_idx (spec_snapshot r snap) ->
  N.max (s_idx (spec_snapshot r snap)) (r_last r)
  = s_idx (spec_snapshot r snap) + len (spec_base r snap).
Proof.
  rewrite r_last_len. destruct snap as [s|]; cbn [spec_snapshot spec_base fst snd]; rewrite ?len_skipn; unfold r_sidx; lia.
Qed.

Lemma ms_Append_spec h ap cf sn base ents r2 :
  contiguous_from (s_idx sn + 1) base = true ->
  match ents with [] => true | e0 :: _ => contiguous_from (e_idx e0) ents end = true ->
  ms_Append (RS h ap cf sn base) ents = Some r2 ->
  r2 = RS h ap cf sn (append_spec (s_idx sn) base ents) /\ append_ok (s_idx sn) base ents.
Proof.
  intros Hc He H. unfold ms_Append, r_first, r_sidx in H. cbn [r_hs r_applied r_cfg r_snap r_ents] in H.
  unfold append_spec, append_ok, filterEntriesAfterSnapshot.
  destruct ents as [|e0 ents0].
  { injection H as <-. split; [reflexivity|exact I]. }
  set (ents := e0 :: ents0) in *. set (a := s_idx sn) in *.
  rewrite (filter_gt_skipn (e_idx e0) ents a He).
  destruct (e_idx e0 + N.of_nat (length ents) - 1 <? a + 1) eqn:Hl.
  { injection H as <-. rewrite skipn_all2 by lia. split; [reflexivity|exact I]. }
  assert (Hsk : (if e_idx e0 <? a + 1 then skipn (N.to_nat (a + 1 - e_idx e0)) ents else ents)
                = skipn (N.to_nat (a + 1 - e_idx e0)) ents).
  { destruct (e_idx e0 <? a + 1) eqn:E; [reflexivity|].
    replace (N.to_nat (a + 1 - e_idx e0)) with O by lia. reflexivity. }
  rewrite Hsk in H. clear Hsk.
  pose proof (contig_skipn (e_idx e0) ents (N.to_nat (a + 1 - e_idx e0)) He) as Hcs.
  destruct (skipn (N.to_nat (a + 1 - e_idx e0)) ents) as [|e1 es].
  { injection H as <-. split; [reflexivity|exact I]. }
  pose proof (contig_first_idx _ _ _ Hcs) as He1.
  destruct (e_idx e1 - a <=? N.of_nat (length base) + 1) eqn:Ho; [|discriminate].
  injection H as <-. split; [reflexivity|]. rewrite He1. unfold len. split; [exact Hcs|lia].
Qed.

Lemma append_spec_contig a base ents :
  contiguous_from (a + 1) base = true -> append_ok a base ents ->
  contiguous_from (a + 1) (append_spec a base ents) = true.
Proof.
  intros Hb Ho. unfold append_spec, append_ok in *.
  destruct (filterEntriesAfterSnapshot ents a) as [|e0 es]; [assumption|].
  destruct Ho as (Hc & Hlo & Hhi).
  apply contig_app. split; [apply contig_firstn; assumption|].
  rewrite len_firstn by lia. replace (a + 1 + (e_idx e0 - a - 1)) with (e_idx e0) by lia. assumption.
Qed.

Lemma append_spec_bound a base ents :
  forallb (fun e => e_idx e <? c14_MaxUint64) base = true ->
  forallb entry_ok ents = true ->
  forallb (fun e => e_idx e <? c14_MaxUint64) (append_spec a base ents) = true.
Proof.
  intros Hb He. unfold append_spec.
  destruct (filterEntriesAfterSnapshot ents a) as [|e0 es] eqn:E; [assumption|].
  rewrite forallb_app. apply andb_true_iff. split.
  { revert Hb. apply forallb_incl. intro x. apply In_firstn. }
  rewrite <- E. apply (forallb_incl _ ents); [apply incl_filter|].
  rewrite forallb_forall in *. intros x Hx. specialize (He x Hx).
  unfold entry_ok in He. apply andb_true_iff in He. tauto.
Qed.

Lemma r_term_in_range r i t :
  r_term r i = Some t -> r_sidx r <= i /\ i <= r_last r.
Proof.
  unfold r_term, r_last. destruct (i <? r_sidx r) eqn:E1; [discriminate|].
  destruct (i =? r_sidx r) eqn:E2; [intros _; lia|].
  destruct (nth_error (r_ents r) (N.to_nat (i - r_sidx r - 1))) eqn:En; [|discriminate].
  intros _. assert (N.to_nat (i - r_sidx r - 1) < length (r_ents r))%nat
    by (apply nth_error_Some; rewrite En; discriminate). lia.
Qed.

Lemma r_term_find r i :
  contiguous_from (r_sidx r + 1) (r_ents r) = true ->
  match r_term r i with Some t => t | None => 0 end =
  match find (fun e => e_idx e =? i) (r_ents r) with
  | Some e => e_term e
  | None => if r_sidx r =? i then s_term (r_snap r) else 0
  end.
Proof.
  intro Hc. rewrite (find_idx_contig _ _ i Hc). unfold r_term, len.
  destruct ((r_sidx r + 1 <=? i) && (i <? r_sidx r + 1 + N.of_nat (length (r_ents r)))) eqn:Ein.
  - replace (i <? r_sidx r) with false by lia. replace (i =? r_sidx r) with false by lia.
    replace (N.to_nat (i - r_sidx r - 1)) with (N.to_nat (i - (r_sidx r + 1))) by lia.
    destruct (nth_error (r_ents r) (N.to_nat (i - (r_sidx r + 1)))) eqn:En; [reflexivity|].
    apply nth_error_None in En. lia.
  - destruct (i <? r_sidx r) eqn:E1; [replace (r_sidx r =? i) with false by lia; reflexivity|].
    destruct (i =? r_sidx r) eqn:E2; [replace (r_sidx r =? i) with true by lia; reflexivity|].
    replace (r_sidx r =? i) with false by lia.
    destruct (nth_error (r_ents r) (N.to_nat (i - r_sidx r - 1))) eqn:En; [|reflexivity].
    assert (N.to_nat (i - r_sidx r - 1) < length (r_ents r))%nat
      by (apply nth_error_Some; rewrite En; discriminate). lia.
Qed.

Lemma judge_term_iff i t r :
  judge_term i t r = true <-> t = match r_term r i with Some t' => t' | None => 0 end.
Proof. unfold judge_term. destruct (r_term r i); apply N.eqb_eq. Qed.

Lemma append_result r1 ents r' :
  match ms_Append r1 ents with Some r2 => ROk r2 | None => RInvalid end = ROk r' ->
  ms_Append r1 ents = Some r'.
Proof. destruct (ms_Append r1 ents); [congruence|discriminate]. Qed.

(* with the K1 signature excluded the reference drops the whole log only at or beyond its
   last index, where the cut leaves nothing either *)
Lemma ref_save_snap r hs ents snap r' :
  match snap with Some s => snapshot_ok r s = true | None => True end ->
  k1_signature r (WSave hs ents snap) = false ->
  ref_save false r hs ents snap = ROk r' ->
  r_sidx r <= s_idx (spec_snapshot r snap)
  /\ ms_Append (RS (raise_commit (match hs with Some h => h | None => r_hs r end) snap) (r_applied r) (r_cfg r)
                   (spec_snapshot r snap) (spec_base r snap)) ents = Some r'.
Proof.
  unfold ref_save. intros Hok Hk H.
  destruct snap as [s|]; cbn [spec_snapshot spec_base raise_commit fst snd k1_signature] in *.
  2:{ split; [apply N.le_refl|]. apply append_result. exact H. }
  destruct (s_idx s <? r_sidx r) eqn:E1; [discriminate|].
  destruct (s_idx s =? r_sidx r) eqn:E2.
  - destruct (same_snapshot s (r_snap r)) eqn:Es; [|discriminate].
    assert (Hs : s = r_snap r) by (apply (same_snapshot_eq r s Hok); [lia|exact Es]).
    rewrite <- Hs in H. replace (N.to_nat (s_idx s - r_sidx r)) with O by lia.
    split; [lia|]. apply append_result. exact H.
  - split; [lia|]. apply append_result.
    destruct (r_match_term r (s_idx s) (s_term s)) eqn:Em; [exact H|].
    rewrite skipn_all2 by (unfold r_last in Hk; lia). exact H.
Qed.

Lemma ref_save_ok r hs ents snap r' :
  wf r ->
  req_valid r (WSave hs ents snap) = true ->
  k1_signature r (WSave hs ents snap) = false ->
  ref_save false r hs ents snap = ROk r' ->
  r' = save_spec r hs ents snap
  /\ r_sidx r <= s_idx (spec_snapshot r snap)
  /\ append_ok (s_idx (spec_snapshot r snap)) (spec_base r snap) ents
  /\ wf r'.
Proof.
  intros (Hc & Hb & Hmax & Hz & Hpos & _) Hv Hk H.
  destruct (req_valid_save _ _ _ _ Hv) as (Hok & Hcont & Hsn & Hconf). rewrite H in Hconf.
  assert (Hsn' : match snap with Some s => snapshot_ok r s = true | None => True end)
    by (destruct snap; [exact Hsn|exact I]).
  destruct (ref_save_snap r hs ents snap r' Hsn' Hk H) as [Hle Happ].
  pose proof (spec_base_contig r snap Hc Hle) as Hc1.
  destruct (ms_Append_spec _ _ _ _ _ ents r' Hc1 Hcont Happ) as (-> & Hao).
  split; [reflexivity|]. split; [exact Hle|]. split; [exact Hao|].
  unfold wf, r_sidx. cbn [r_snap r_ents].
  split; [apply append_spec_contig; assumption|].
  split.
  { apply append_spec_bound; [|assumption]. destruct snap as [s|]; [|exact Hb].
    revert Hb. apply forallb_incl. intro x. apply In_skipn. }
  destruct snap as [s|]; [|exact (conj Hmax (conj Hz (conj Hpos Hconf)))]. cbn [spec_snapshot spec_base fst] in *.
  destruct (snapshot_ok_inv r s Hsn) as (Hi & Him & Ht & Hcf).
  split; [exact Him|]. split; [clear - Hi; lia|]. split; [intros _; split; assumption|exact Hconf].
Qed.

Lemma ref_save_rej r hs ents snap c :
  ref_save false r hs ents snap = RRej c ->
  exists s, snap = Some s /\
    ((s_idx s <? r_sidx r = true /\ c = errSnapOutOfDate)
     \/ (s_idx s = r_sidx r /\ same_snapshot s (r_snap r) = false /\ c = errOther)).
Proof.
  unfold ref_save. intro H. destruct snap as [s|].
  - exists s. split; [reflexivity|].
    destruct (s_idx s <? r_sidx r) eqn:E1.
    + inversion H. left. split; reflexivity.
    + destruct (s_idx s =? r_sidx r) eqn:E2.
      * destruct (same_snapshot s (r_snap r)) eqn:Es.
        -- destruct (ms_Append _ ents); discriminate.
        -- inversion H. right. repeat split. lia.
      * destruct (r_match_term r (s_idx s) (s_term s) || false); destruct (ms_Append _ ents); discriminate.
  - destruct (ms_Append _ ents); discriminate.
Qed.

Lemma ref_save_accepts r hs ents s r' :
  ref_save false r hs ents (Some s) = ROk r' ->
  (s_idx s = r_sidx r /\ same_snapshot s (r_snap r) = true) \/ r_sidx r < s_idx s.
Proof.
  unfold ref_save. destruct (s_idx s <? r_sidx r) eqn:E1; [discriminate|].
  destruct (s_idx s =? r_sidx r) eqn:E2; [|intros _; right; lia].
  destruct (same_snapshot s (r_snap r)); [|discriminate]. intros _. left. split; [lia|reflexivity].
Qed.

Lemma ref_req_rej_nonzero r q e : ref_req false r q = RRej e -> e <> 0.
Proof.
  destruct q as [hs ents snap|i|i]; cbn [ref_req]; [|discriminate..].
  intro H. destruct (ref_save_rej r hs ents snap e H) as (s & _ & [[_ ->]|[_ [_ ->]]]); discriminate.
Qed.

Lemma ref_req_wf r q r' :
  wf r -> req_valid r q = true -> k1_signature r q = false -> ref_req false r q = ROk r' -> wf r'.
Proof.
  intros Hwf Hv Hk H. destruct q as [hs ents snap|i|i]; cbn [ref_req] in H.
  - apply (ref_save_ok r hs ents snap r' Hwf Hv Hk H).
  - injection H as <-. exact Hwf.
  - injection H as <-. exact Hwf.
Qed.
