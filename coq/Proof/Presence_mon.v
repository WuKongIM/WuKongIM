(* Proof/Presence_mon.v — the monitor of C33 accepts every trace of the model *)
From WK Require Import Base.Base Base.Lists Gen.Consts_C33 Model.Presence Proof.AckTracker_map Proof.Presence_map
     Proof.Presence_inv Proof.Presence_ops Proof.Presence_dir Proof.Presence.
From Coq Require Import Permutation Sorted.
Open Scope N_scope.

Lemma filter_flat_map {A B} (p : B -> bool) (f : A -> list B) l :
  filter p (flat_map f l) = flat_map (fun x => filter p (f x)) l.
Proof.
  induction l as [|a l IH]; simpl; [reflexivity|]. rewrite filter_app, IH. reflexivity.
Qed.

Lemma brief_eqb_spec x y : brief_eqb x y = true <-> x = y.
Proof.
  destruct x as [[[h k] s] z]. destruct y as [[[h2 k2] s2] z2]. unfold brief_eqb.
  rewrite !andb_true_iff, !N.eqb_eq, Z.eqb_eq, ikey_eqb_spec. split; [intros [[[-> ->] ->] ->]; reflexivity|].
  intro H. inversion H. auto.
Qed.

Definition brief_mem_in : forall x l, brief_mem x l = true <-> In x l := set_mem_in brief_eqb brief_eqb_spec.

Lemma brief_same_refl l : brief_same l l = true.
Proof.
  unfold brief_same. rewrite Nat.eqb_refl. simpl.
  assert (X : forallb (fun x => brief_mem x l) l = true).
  { apply forallb_forall. intros x Hx. apply brief_mem_in. exact Hx. }
  rewrite X. reflexivity.
Qed.

Definition slot_brief (hs : N) (s : slot) : list brief :=
  map (fun kr : ikey * route => (hs, fst kr, r_oseq (snd kr), r_seen (snd kr))) (sl_active s).

Lemma active_brief_flat d : active_brief d = flat_map (fun hs_s => slot_brief (fst hs_s) (snd hs_s)) (d_slots d).
Proof. reflexivity. Qed.

Lemma in_active_brief d x :
  In x (active_brief d) <->
  exists hs s k r, In (hs, s) (d_slots d) /\ In (k, r) (sl_active s) /\ x = (hs, k, r_oseq r, r_seen r).
Proof.
  rewrite active_brief_flat, in_flat_map. split.
  - intros [[hs s] [H1 H2]]. unfold slot_brief in H2. simpl in H2. apply in_map_iff in H2.
    destruct H2 as [[k r] [E H3]]. exists hs, s, k, r. simpl in E. auto.
  - intros [hs [s [k [r [H1 [H2 E]]]]]]. exists (hs, s). split; [exact H1|].
    unfold slot_brief. simpl. apply in_map_iff. exists (k, r). auto.
Qed.

(* briefs of one hash slot come from that slot only *)
Lemma active_brief_of_slot d hs s (p : brief -> bool) :
  DInv d -> nget hs (d_slots d) = Some s ->
  (forall x, p x = true -> let '(h, _, _, _) := x in h = hs) ->
  filter p (active_brief d) = filter p (slot_brief hs s).
Proof.
  intros I G P. rewrite active_brief_flat, filter_flat_map.
  pose proof (di_nodup d I) as ND. revert G ND. generalize (d_slots d). intro l.
  induction l as [|[h s0] rest IH]; intros G ND; simpl in *; [discriminate|].
  inversion ND as [|? ? Hn ND']. subst.
  assert (OTHER : forall h' s', h' <> hs -> filter p (slot_brief h' s') = []).
  { intros h' s' Hne. apply (filter_none p). intros x Hx. unfold slot_brief in Hx. apply in_map_iff in Hx.
    destruct Hx as [[k r] [E _]]. simpl in E. subst x. destruct (p (h', k, r_oseq r, r_seen r)) eqn:PX; [|reflexivity].
    apply P in PX. congruence. }
  destruct (N.eqb_spec hs h) as [E|E].
  - subst h. inversion G. subst s0.
    assert (REST : flat_map (fun x : N * slot => filter p (slot_brief (fst x) (snd x))) rest = []).
    { clear IH G ND ND'. induction rest as [|[h2 s2] r2 IHr]; simpl; [reflexivity|].
      rewrite OTHER; [|intro X; subst; apply Hn; left; reflexivity]. simpl. apply IHr.
      intro X. apply Hn. right. exact X. }
    rewrite REST, app_nil_r. reflexivity.
  - rewrite (OTHER h s0) by congruence. simpl. apply IH; assumption.
Qed.

(* what the monitor tracks from the trace alone agrees with the model: the installed authority of
   every hash slot, and, per slot, the unregister fences of the current tenure *)
Record MonRel (d : directory) (a : auth) (tb : tombs) : Prop := {
  mr_inv : DInv d;
  mr_auth : forall hs, nget hs a = match nget hs (d_slots d) with Some s => Some (sl_target s) | None => None end;
  mr_tomb : forall hs s, nget hs (d_slots d) = Some s -> forall k, iget k (tomb_of tb hs) = iget k (sl_tomb s) }.

Lemma MonRel_new l : MonRel (NewDirectory l) [] [].
Proof. constructor; [apply DInv_new|reflexivity|discriminate]. Qed.

Lemma accepted_validate d a tb g :
  MonRel d a tb -> accepted (d_local d) a g = target_ok d g.
Proof.
  intros M. unfold accepted, target_ok, validateTargetLocked. rewrite (mr_auth d a tb M).
  destruct (negb (d_local d =? 0) && negb (g_leader g =? d_local d)); [reflexivity|]. simpl.
  destruct (nget (g_hs g) (d_slots d)) as [s|]; [|reflexivity].
  destruct (sameAuthorityIdentity (sl_target s) g); reflexivity.
Qed.

Definition brief_id (x : brief) : N * ikey := let '(h, k, _, _) := x in (h, k).

Lemma brief_keys_nodup_of l : NoDup (map brief_id l) -> brief_keys_nodup l = true.
Proof.
  induction l as [|[[[h k] s] z] r IH]; simpl; intro ND; [reflexivity|].
  inversion ND as [|? ? Hn ND']. subst. rewrite IH by exact ND'. rewrite andb_true_r. apply negb_true_iff.
  match goal with |- existsb ?f r = false => destruct (existsb f r) eqn:E end; [|reflexivity].
  exfalso. apply existsb_exists in E.
  destruct E as [[[[h2 k2] s2] z2] [H1 H2]]. apply andb_true_iff in H2. destruct H2 as [H2 H3].
  apply N.eqb_eq in H2. apply ikey_eqb_spec in H3. subst. apply Hn.
  apply (in_map brief_id) in H1. exact H1.
Qed.

Lemma active_brief_nodup d : DInv d -> brief_keys_nodup (active_brief d) = true.
Proof.
  intro I. apply brief_keys_nodup_of. rewrite active_brief_flat.
  pose proof (di_nodup d I) as ND. pose proof (di_slots d I) as SL.
  assert (SL' : forall hs s, In (hs, s) (d_slots d) -> NoDup (al_keys (sl_active s))).
  { intros hs s Hin. apply (sv_act_nodup s). apply (SL hs). apply (n_in_get _ _ _ ND Hin). }
  clear SL I. revert ND SL'. generalize (d_slots d). intro l.
  induction l as [|[h s] rest IH]; intros ND SL; simpl; [constructor|].
  inversion ND as [|? ? Hn ND']. subst. rewrite map_app. apply NoDup_app_intro.
  - unfold slot_brief. rewrite map_map. simpl.
    specialize (SL h s (or_introl eq_refl)). unfold al_keys in SL.
    rewrite <- (map_map fst (fun k : ikey => (h, k))). apply FinFun.Injective_map_NoDup; [|exact SL].
    intros a b E. inversion E. reflexivity.
  - apply IH; [exact ND'|]. intros hs s' Hin. apply (SL hs). right. exact Hin.
  - intros x Hx Hy. apply in_map_iff in Hx. destruct Hx as [b1 [E1 H1]]. unfold slot_brief in H1.
    apply in_map_iff in H1. destruct H1 as [[k r] [E2 _]]. subst b1. simpl in E1. subst x.
    apply in_map_iff in Hy. destruct Hy as [b2 [E3 H3]]. apply in_flat_map in H3. destruct H3 as [[h2 s2] [H4 H5]].
    unfold slot_brief in H5. apply in_map_iff in H5. destruct H5 as [[k2 r2] [E4 _]]. subst b2. simpl in E3. inversion E3. subst.
    apply Hn. apply (in_map fst) in H4. exact H4.
Qed.

Lemma tomb_respected_ok d a tb : MonRel d a tb -> tomb_respected a tb (active_brief d) = true.
Proof.
  intros M. pose proof (mr_inv d a tb M) as I. unfold tomb_respected. apply forallb_forall. intros x Hx.
  apply in_active_brief in Hx. destruct Hx as [hs [s [k [r [H1 [H2 E]]]]]]. subst x.
  pose proof (n_in_get _ _ _ (di_nodup d I) H1) as G. destruct (di_slots d I _ _ G) as [IS _].
  rewrite (mr_auth d a tb M), G. rewrite (mr_tomb d a tb M hs s G).
  pose proof (sv_tomb s IS _ _ (i_in_get _ _ _ (sv_act_nodup s IS) H2)) as T.
  destruct (iget k (sl_tomb s)) as [t|] eqn:E; [|reflexivity].
  apply N.ltb_lt, (proj1 (tombstoned_false_iff s k _) T t E).
Qed.

(* an accepted call is never answered "not leader" *)
Lemma registerLocked_err s r : snd (fst (fst (registerLocked s r))) <> ENotLeader.
Proof.
  unfold registerLocked. destruct (tombstoned _ _ _); [simpl; discriminate|].
  destruct (_ <? _); [simpl; discriminate|]. destruct (conflictsLocked _ _); simpl; discriminate.
Qed.

Lemma commitRouteLocked_err s tok : snd (commitRouteLocked s tok) <> ENotLeader.
Proof.
  unfold commitRouteLocked. destruct (nget tok (sl_pending s)) as [[r acked]|]; [|simpl; discriminate].
  destruct (tombstoned _ _ _); [simpl; discriminate|]. destruct (_ <? _); [simpl; discriminate|].
  destruct (negb _); simpl; discriminate.
Qed.

Lemma accepted_err d o g s :
  op_target o = Some g -> validateTargetLocked d g = Some s ->
  exists e, out_err (snd (step d o)) = Some e /\ e <> ENotLeader.
Proof.
  intros T V. destruct o; try discriminate T; inversion T; subst; cbn [step].
  - unfold RegisterRoute. rewrite V. pose proof (registerLocked_err s r) as E.
    destruct (registerLocked s r) as [[[s' e] tok] acts]. exists e. auto.
  - unfold CommitRoute. rewrite V. pose proof (commitRouteLocked_err s tok) as E.
    destruct (commitRouteLocked s tok) as [s' e]. exists e. auto.
  - unfold AbortRoute. rewrite V. destruct (nget tok (sl_pending s)); eexists; (split; [reflexivity|discriminate]).
  - unfold UnregisterRoute. rewrite V. eexists. split; [reflexivity|discriminate].
  - unfold TouchRoutes. rewrite V. eexists. split; [reflexivity|discriminate].
  - unfold EndpointsByUIDs. rewrite V. eexists. split; [reflexivity|discriminate].
  - unfold EndpointsByUID. rewrite V. eexists. split; [reflexivity|discriminate].
Qed.

Lemma StronglySorted_map {A B} (f : A -> B) (R : B -> B -> Prop) l :
  StronglySorted (fun a b => R (f a) (f b)) l -> StronglySorted R (map f l).
Proof.
  induction 1 as [|a l HS IH HF]; simpl; constructor; [exact IH|].
  rewrite Forall_forall in *. intros y Hy. apply in_map_iff in Hy. destruct Hy as [x [E Hx]]. subst. apply HF. exact Hx.
Qed.

Lemma lookup_ok_model d hs s uids :
  DInv d -> nget hs (d_slots d) = Some s ->
  lookup_ok hs (active_brief d) uids (flat_map (endpointsByUIDLocked s) uids) = true.
Proof.
  intros I G. destruct (di_slots d I _ _ G) as [IS _].
  induction uids as [|u rest IH]; [reflexivity|]. cbn [lookup_ok flat_map].
  set (p := fun x : brief => let '(h, k, _, _) := x in (h =? hs) && (let '(ku, _, _, _) := k in ku =? u)).
  destruct (endpoints_sorted s u IS) as [PERM SORT].
  assert (CNT : length (filter p (active_brief d)) = length (endpointsByUIDLocked s u)).
  { rewrite (active_brief_of_slot d hs s p I G).
    - rewrite (Permutation_length PERM), map_length. unfold slot_brief. rewrite filter_map_comm, map_length.
      f_equal. apply filter_ext_in. intros [k r] Hin. simpl. rewrite N.eqb_refl. simpl.
      destruct (sv_act_key s IS _ _ (i_in_get _ _ _ (sv_act_nodup s IS) Hin)) as [K _]. subst k. reflexivity.
    - intros [[[h k] q] z] PX. unfold p in PX. apply andb_true_iff in PX. apply N.eqb_eq. apply PX. }
  rewrite CNT, firstn_app_exact, skipn_app_exact, Nat.eqb_refl, IH. rewrite andb_true_r. cbn [andb].
  apply andb_true_iff. split.
  - apply forallb_forall. intros r Hr.
    eapply Permutation_in in Hr; [|exact PERM]. apply in_map_iff in Hr. destruct Hr as [[k r'] [E Hin]]. simpl in E. subst r'.
    apply filter_In in Hin. destruct Hin as [Hin U]. simpl in U. rewrite U. simpl.
    apply brief_mem_in. apply in_active_brief. exists hs, s, k, r.
    split; [apply (n_get_some_in _ _ _ G)|]. split; [exact Hin|].
    unfold brief_of_route. destruct (sv_act_key s IS _ _ (i_in_get _ _ _ (sv_act_nodup s IS) Hin)) as [K _]. rewrite K. reflexivity.
  - apply strictly_sorted_of_strong. apply StronglySorted_map. exact SORT.
Qed.

Lemma lookup_result_model d a tb g uids :
  MonRel d a tb ->
  lookup_result_ok (d_local d) a (active_brief d) g uids (fst (EndpointsByUIDs d g uids)) (snd (EndpointsByUIDs d g uids)) = true.
Proof.
  intros M. unfold lookup_result_ok. rewrite (accepted_validate d a tb g M). unfold target_ok, EndpointsByUIDs.
  destruct (validateTargetLocked d g) as [s|] eqn:V; [|reflexivity]. simpl.
  apply lookup_ok_model; [apply (mr_inv d a tb M)|apply (validate_some _ _ _ V)].
Qed.

Lemma groups_model d a tb gs :
  MonRel d a tb -> groups_ok (d_local d) a (active_brief d) gs (EndpointsByTargets d gs) = true.
Proof.
  intros M. induction gs as [|g rest IH]; [reflexivity|]. cbn [groups_ok EndpointsByTargets map].
  fold (EndpointsByTargets d rest). rewrite IH, andb_true_r. apply (lookup_result_model d a tb (fst g) (snd g) M).
Qed.

Definition exp1 (r : Z * Z * Z * Z * Z) : Z := let '(a, _, _, _, _) := r in a.

Lemma exp1_add5 a b : exp1 (add5 a b) = (exp1 a + exp1 b)%Z.
Proof. destruct a as [[[[a1 a2] a3] a4] a5]. destruct b as [[[[b1 b2] b3] b4] b5]. reflexivity. Qed.

Lemma brief_due_route nowS nowN ttl hs k r :
  brief_due nowS nowN ttl (hs, k, r_oseq r, r_seen r) = route_due nowS nowN ttl r.
Proof. reflexivity. Qed.

Lemma expire_slots_brief slots nowS nowN ttl :
  (forall hs s, In (hs, s) slots -> SInv s) ->
  flat_map (fun hs_s => slot_brief (fst hs_s) (snd hs_s)) (fst (expire_slots slots nowS nowN ttl))
  = filter (fun x => negb (brief_due nowS nowN ttl x)) (flat_map (fun hs_s => slot_brief (fst hs_s) (snd hs_s)) slots)
  /\ exp1 (snd (expire_slots slots nowS nowN ttl))
     = Z.of_nat (length (filter (brief_due nowS nowN ttl) (flat_map (fun hs_s => slot_brief (fst hs_s) (snd hs_s)) slots))).
Proof.
  induction slots as [|[hs s] rest IH]; intro H; [split; reflexivity|].
  cbn [expire_slots].
  pose proof (expireLocked_spec s nowS nowN ttl (H hs s (or_introl eq_refl))) as E.
  destruct (expireLocked s nowS nowN ttl) as [s' [[[[a1 b1] c1] e1] f1]].
  destruct E as [_ [E2 [E3 _]]].
  destruct (IH (fun h x Hin => H h x (or_intror Hin))) as [IH1 IH2].
  destruct (expire_slots rest nowS nowN ttl) as [rest' r2]. cbn [fst snd flat_map] in *.
  assert (SB : forall (q : brief -> bool) (g : route -> bool),
             (forall k r, q (hs, k, r_oseq r, r_seen r) = g r) ->
             filter q (slot_brief hs s) = map (fun kr : ikey * route => (hs, fst kr, r_oseq (snd kr), r_seen (snd kr)))
                                              (filter (fun kr : ikey * route => g (snd kr)) (sl_active s))).
  { intros q g Q. unfold slot_brief. rewrite filter_map_comm. f_equal. apply filter_ext. intros [k r]. apply Q. }
  split.
  - rewrite filter_app, <- IH1. f_equal. unfold slot_brief at 1. rewrite E2.
    symmetry. apply (SB (fun x => negb (brief_due nowS nowN ttl x)) (fun r => negb (route_due nowS nowN ttl r))).
    intros k r. reflexivity.
  - rewrite exp1_add5, IH2, filter_app, app_length, Nat2Z.inj_add. f_equal. cbn [exp1]. rewrite E3.
    rewrite (SB (brief_due nowS nowN ttl) (route_due nowS nowN ttl)) by (intros; reflexivity).
    rewrite map_length. reflexivity.
Qed.

Lemma fold_add_lengths {A B} (f : A -> list B) l : forall acc,
  fold_left Z.add (map (fun x => Z.of_nat (length (f x))) l) acc = (acc + Z.of_nat (length (flat_map f l)))%Z.
Proof.
  induction l as [|a l IH]; intro acc; simpl; [lia|]. rewrite IH, app_length, Nat2Z.inj_add. lia.
Qed.

Lemma snapshot_active d :
  (let '(a, _, _, _, _, _) := Snapshot d in a) = Z.of_nat (length (active_brief d)).
Proof.
  unfold Snapshot. cbv zeta. rewrite map_map. rewrite active_brief_flat.
  rewrite (map_ext _ (fun x : N * slot => Z.of_nat (length (slot_brief (fst x) (snd x))))).
  - rewrite (fold_add_lengths (fun hs_s : N * slot => slot_brief (fst hs_s) (snd hs_s)) (d_slots d) 0%Z). reflexivity.
  - intros [hs s]. unfold slot_brief. rewrite map_length. reflexivity.
Qed.

Lemma tomb_of_set tb hs m hs' : tomb_of (al_set N.eqb hs m tb) hs' = if hs' =? hs then m else tomb_of tb hs'.
Proof.
  unfold tomb_of. destruct (N.eqb_spec hs' hs) as [E|E].
  - subst. rewrite n_get_set_same. reflexivity.
  - rewrite n_get_set_other by congruence. reflexivity.
Qed.

Lemma tomb_of_del tb hs hs' : tomb_of (al_del N.eqb hs tb) hs' = if hs' =? hs then [] else tomb_of tb hs'.
Proof.
  unfold tomb_of. destruct (N.eqb_spec hs' hs) as [E|E].
  - subst. rewrite n_get_del_same. reflexivity.
  - rewrite n_get_del_other by congruence. reflexivity.
Qed.

(* BecomeAuthority installs a slot under target g and the monitor records g *)
Lemma MonRel_install d a tb tb' g s' :
  MonRel d a tb -> SInv s' -> sl_target s' = g ->
  (forall k, iget k (tomb_of tb' (g_hs g)) = iget k (sl_tomb s')) ->
  (forall hs, hs <> g_hs g -> tomb_of tb' hs = tomb_of tb hs) ->
  MonRel (put_slot d (g_hs g) s') (al_set N.eqb (g_hs g) g a) tb'.
Proof.
  intros M IS T TB OTH. constructor.
  - apply put_slot_inv; [apply (mr_inv d a tb M)|exact IS|rewrite T; reflexivity].
  - intro hs. rewrite put_slot_get. destruct (N.eqb_spec hs (g_hs g)) as [E|E].
    + subst hs. rewrite n_get_set_same, T. reflexivity.
    + rewrite n_get_set_other by congruence. apply (mr_auth d a tb M).
  - intros hs s0. rewrite put_slot_get. destruct (N.eqb_spec hs (g_hs g)) as [E|E].
    + subst hs. intro X. inversion X. subst s0. exact TB.
    + intros G k. rewrite (OTH hs E). apply (mr_tomb d a tb M hs s0 G).
Qed.

(* a call that neither installs nor drops a slot: the monitor tracks no change of authority,
   and the one fence an accepted unregister raises *)
Lemma MonRel_slot_call d a tb o :
  MonRel d a tb -> slot_call o = true ->
  MonRel (fst (step d o)) (auth_step a o) (tomb_step (d_local d) a tb o).
Proof.
  intros M L. pose proof (mr_inv d a tb M) as I. destruct (slot_call_keeps d o I L) as [_ [_ H]].
  assert (A : auth_step a o = a) by (destruct o; try discriminate L; reflexivity).
  rewrite A. constructor.
  - apply (step_inv d o I).
  - intro hs. rewrite (mr_auth d a tb M). specialize (H hs).
    destruct (nget hs (d_slots d)), (nget hs (d_slots (fst (step d o)))); try contradiction; [|reflexivity].
    destruct H as [_ [H2 _]]. rewrite H2. reflexivity.
  - intros hs s' G k. specialize (H hs). rewrite G in H.
    destruct (nget hs (d_slots d)) as [s|] eqn:G0; [|contradiction]. destruct H as [_ [_ H3]].
    rewrite H3. pose proof (mr_tomb d a tb M hs s G0) as T. unfold fences_after.
    destruct o; try discriminate L; try exact (T k).
    cbn [tomb_step]. rewrite (accepted_validate d a tb g M).
    destruct (target_ok d g); [|rewrite andb_false_r; exact (T k)]. rewrite andb_true_r, tomb_of_set.
    destruct (hs =? g_hs g) eqn:E; [|exact (T k)]. apply N.eqb_eq in E. subst hs.
    rewrite !raise_fence_get, !T. reflexivity.
Qed.

Lemma MonRel_become d a tb g :
  MonRel d a tb ->
  MonRel (BecomeAuthority d g) (auth_step a (OBecome g)) (tomb_step (d_local d) a tb (OBecome g)).
Proof.
  intro M. pose proof (mr_inv d a tb M) as I. cbn [auth_step tomb_step]. unfold BecomeAuthority.
  rewrite (mr_auth d a tb M).
  assert (FRESH : MonRel (put_slot d (g_hs g) (newAuthoritySlot g)) (al_set N.eqb (g_hs g) g a) (al_del N.eqb (g_hs g) tb)).
  { apply (MonRel_install d a tb); [exact M|apply SInv_new|reflexivity| |].
    - intro k. rewrite tomb_of_del, N.eqb_refl. reflexivity.
    - intros hs E. rewrite tomb_of_del. apply N.eqb_neq in E. rewrite E. reflexivity. }
  destruct (nget (g_hs g) (d_slots d)) as [cur|] eqn:G; [|exact FRESH].
  destruct (sameAuthorityIdentity (sl_target cur) g); [|exact FRESH].
  destruct (g_rev (sl_target cur) <=? g_rev g); [|exact M].
  destruct (di_slots d I _ _ G) as [IS _].
  apply (MonRel_install d a tb); [exact M| |reflexivity|intro k; apply (mr_tomb d a tb M _ _ G)|reflexivity].
  apply (SInv_ext cur); try reflexivity. exact IS.
Qed.

Lemma MonRel_lose d a tb hs :
  MonRel d a tb -> MonRel (LoseAuthority d hs) (al_del N.eqb hs a) (al_del N.eqb hs tb).
Proof.
  intro M. constructor.
  - apply (step_inv d (OLose hs) (mr_inv d a tb M)).
  - intro h. simpl. destruct (N.eq_dec hs h) as [E|E].
    + subst. rewrite !n_get_del_same. reflexivity.
    + rewrite !n_get_del_other by exact E. apply (mr_auth d a tb M).
  - intros h s0. simpl. rewrite tomb_of_del. destruct (N.eqb_spec h hs) as [E|E].
    + subst. rewrite n_get_del_same. discriminate.
    + rewrite n_get_del_other by congruence. apply (mr_tomb d a tb M).
Qed.

Lemma MonRel_step d a tb o :
  MonRel d a tb ->
  MonRel (fst (step d o)) (auth_step a o) (tomb_step (d_local d) a tb o) /\ d_local (fst (step d o)) = d_local d.
Proof.
  intro M. destruct (slot_call o) eqn:L.
  - split; [apply (MonRel_slot_call d a tb o M L)|].
    apply (slot_call_keeps d o (mr_inv d a tb M) L).
  - destruct o; try discriminate L; cbn [step fst].
    + split; [apply MonRel_become, M|]. unfold BecomeAuthority.
      destruct (nget (g_hs g) (d_slots d)) as [cur|]; [|reflexivity].
      destruct (sameAuthorityIdentity (sl_target cur) g); [|reflexivity].
      destruct (g_rev (sl_target cur) <=? g_rev g); reflexivity.
    + split; [apply MonRel_lose, M|reflexivity].
Qed.


Lemma err_eqb_nl e : e <> ENotLeader -> negb (err_eqb e ENotLeader) = true.
Proof. destruct e; simpl; congruence. Qed.

Lemma mon_step_ok d a tb o :
  MonRel d a tb ->
  mon_step (d_local d) a tb (active_brief d) o (snd (step d o)) (active_brief (fst (step d o))) = true.
Proof.
  intro M. destruct (MonRel_step d a tb o M) as [M1 L1].
  pose proof (active_brief_nodup _ (mr_inv _ _ _ M1)) as ND.
  pose proof (tomb_respected_ok _ _ _ M1) as TR.
  unfold mon_step. rewrite ND, TR. cbn [andb]. clear ND TR M1 L1. apply andb_true_iff. split.
  - (* a targeted call is rejected, changing nothing, exactly when its target is not installed *)
    destruct (op_target o) as [g|] eqn:T; [|reflexivity]. rewrite (accepted_validate d a tb g M). unfold target_ok.
    destruct (validateTargetLocked d g) as [s|] eqn:V.
    + destruct (accepted_err d o g s T V) as [e [E1 E2]]. rewrite E1. apply err_eqb_nl, E2.
    + destruct (fenced d o g T V) as [F1 [F2 _]]. rewrite F2, F1. apply brief_same_refl.
  - destruct o; try reflexivity; cbn [step].
    + unfold ExpireRoutesDetailed.
      pose proof (expire_slots_brief (d_slots d) nowS nowN ttl) as EB.
      destruct (expire_slots (d_slots d) nowS nowN ttl) as [slots' [[[[e1 e2] e3] e4] e5]]. cbn [fst snd exp1] in *.
      destruct EB as [EB1 EB2].
      { intros hs s Hin. apply (di_slots d (mr_inv d a tb M) hs).
        apply (n_in_get _ _ _ (di_nodup d (mr_inv d a tb M)) Hin). }
      rewrite !active_brief_flat. cbn [d_slots]. rewrite EB1, EB2, brief_same_refl, Z.eqb_refl. reflexivity.
    + pose proof (lookup_result_model d a tb g uids M) as L.
      destruct (EndpointsByUIDs d g uids) as [e rs]. cbn [fst snd] in *. rewrite L. apply brief_same_refl.
    + pose proof (lookup_result_model d a tb g [uid] M) as L.
      assert (EQ : EndpointsByUID d g uid = EndpointsByUIDs d g [uid]).
      { unfold EndpointsByUID, EndpointsByUIDs. destruct (validateTargetLocked d g); [|reflexivity].
        simpl. rewrite app_nil_r. reflexivity. }
      rewrite EQ. destruct (EndpointsByUIDs d g [uid]) as [e rs]. cbn [fst snd] in *. rewrite L. apply brief_same_refl.
    + cbn [fst snd]. rewrite (groups_model d a tb groups M). apply brief_same_refl.
    + pose proof (snapshot_active d) as S. destruct (Snapshot d) as [[[[[x1 x2] x3] x4] x5] x6]. cbn [fst snd].
      rewrite S, Z.eqb_refl. apply brief_same_refl.
Qed.

Lemma mon_run_ok ops : forall d a tb,
  MonRel d a tb -> mon_run (d_local d) a tb (active_brief d) (snd (run d ops)) = true.
Proof.
  induction ops as [|o rest IH]; intros d a tb M; [reflexivity|].
  cbn [run]. pose proof (mon_step_ok d a tb o M) as S. destruct (MonRel_step d a tb o M) as [M1 L1].
  destruct (step d o) as [d1 r]. cbn [fst snd] in *.
  specialize (IH d1 _ _ M1). destruct (run d1 rest) as [d' tr]. cbn [snd mon_run] in *.
  rewrite S. rewrite L1 in IH. exact IH.
Qed.

(* the encoding of a model trace as a case ("Some": the active routes are given explicitly) *)
Definition encode_steps (tr : list (op * out * list brief)) : list (op * out * option (list brief)) :=
  map (fun s => (fst (fst s), snd (fst s), Some (snd s))) tr.

Lemma expand_encode tr : forall prev, expand_steps prev (encode_steps tr) = tr.
Proof.
  induction tr as [|[[o r] b] rest IH]; intro prev; simpl; [reflexivity|]. rewrite IH. reflexivity.
Qed.

(* C33_monitor reads neither c_shards nor c_final (C33_mismatch compares them), hence any values *)
Lemma model_satisfies_monitor localNode shards ops final :
  C33_monitor (C33Case localNode shards (encode_steps (snd (run (NewDirectory localNode) ops))) final) = 0.
Proof.
  unfold C33_monitor. cbn [c_local c_steps]. rewrite expand_encode.
  pose proof (mon_run_ok ops (NewDirectory localNode) [] [] (MonRel_new localNode)) as R.
  change (active_brief (NewDirectory localNode)) with (@nil brief) in R.
  change (d_local (NewDirectory localNode)) with localNode in R. rewrite R. reflexivity.
Qed.
