(* Base/Lists.v — facts about lists and the boolean equalities of Base.v that
   proofs of several models need; nothing here mentions a model. *)
From WK Require Import Base.Base.
From Coq Require Import Sorting.Sorted.

Lemma list_eqb_refl {A} (eqb : A -> A -> bool) (R : forall x, eqb x x = true) l : list_eqb eqb l l = true.
Proof. induction l as [|x l IH]; cbn [list_eqb]; [reflexivity|]. rewrite R, IH. reflexivity. Qed.

Lemma option_eqb_refl {A} (eqb : A -> A -> bool) (R : forall x, eqb x x = true) o : option_eqb eqb o o = true.
Proof. destruct o; [apply R|reflexivity]. Qed.

Lemma option_eqb_spec {A} (eqb : A -> A -> bool) (H : forall x y, eqb x y = true <-> x = y) a b :
  option_eqb eqb a b = true <-> a = b.
Proof.
  destruct a, b; cbn [option_eqb]; try (split; [discriminate|congruence]); [|tauto].
  rewrite H. split; congruence.
Qed.

Lemma bytes_eqb_refl a : bytes_eqb a a = true.
Proof. apply bytes_eqb_eq. reflexivity. Qed.

Lemma bytes_eqb_neq a b : bytes_eqb a b = false <-> a <> b.
Proof. rewrite <- bytes_eqb_eq. destruct (bytes_eqb a b); split; congruence. Qed.

Lemma bytes_eq_dec (a b : bytes) : {a = b} + {a <> b}.
Proof. apply list_eq_dec, N.eq_dec. Qed.

Lemma filter_none {A} (f : A -> bool) l : (forall x, In x l -> f x = false) -> filter f l = [].
Proof.
  induction l as [|a l IH]; intro H; cbn [filter]; [reflexivity|].
  rewrite (H a (or_introl eq_refl)). apply IH. intros x Hx. apply H. right. exact Hx.
Qed.

Lemma filter_all {A} (f : A -> bool) l : (forall x, In x l -> f x = true) -> filter f l = l.
Proof.
  induction l as [|a l IH]; intro H; cbn [filter]; [reflexivity|].
  rewrite (H a (or_introl eq_refl)), IH; [reflexivity|]. intros x Hx. apply H. right. exact Hx.
Qed.

Lemma filter_map_comm {A B} (g : A -> B) (f : B -> bool) l :
  filter f (map g l) = map g (filter (fun x => f (g x)) l).
Proof. induction l as [|x l IH]; cbn [map filter]; [reflexivity|]. destruct (f (g x)); cbn [map]; rewrite IH; reflexivity. Qed.

Lemma existsb_false {A} (f : A -> bool) l : existsb f l = false <-> forall x, In x l -> f x = false.
Proof.
  rewrite <- not_true_iff_false, existsb_exists. split.
  - intros H x Hx. apply not_true_iff_false. intro E. apply H. exists x. split; assumption.
  - intros H [x [Hx E]]. rewrite (H x Hx) in E. discriminate.
Qed.

Lemma forallb_incl {A} (p : A -> bool) l l' : incl l' l -> forallb p l = true -> forallb p l' = true.
Proof. rewrite !forallb_forall. intros Hi H x Hx. apply H, Hi, Hx. Qed.

Lemma NoDup_app_r {A} (a b : list A) : NoDup (a ++ b) -> NoDup b.
Proof. induction a as [|x a IH]; cbn [app]; intro H; [exact H|]. inversion H; auto. Qed.

Lemma NoDup_app_l {A} (a b : list A) : NoDup (a ++ b) -> NoDup a.
Proof.
  induction a as [|x a IH]; cbn [app]; intro H; [constructor|]. inversion H as [|? ? Hx Hn]; subst.
  constructor; [intro Y; apply Hx, in_or_app; left; exact Y|exact (IH Hn)].
Qed.

Lemma NoDup_app_disjoint {A} (a b : list A) x : NoDup (a ++ b) -> In x a -> ~ In x b.
Proof.
  induction a as [|y a IH]; cbn [app]; intros H Hx; [destruct Hx|]. inversion H as [|? ? Hy Hn]; subst.
  destruct Hx as [-> | Hx]; [intro Y; apply Hy, in_or_app; right; exact Y | apply IH; assumption].
Qed.

Lemma NoDup_app_intro {A} (a b : list A) :
  NoDup a -> NoDup b -> (forall x, In x a -> ~ In x b) -> NoDup (a ++ b).
Proof.
  induction 1 as [|x a Hx Ha IH]; intros Hb Hd; cbn [app]; [exact Hb|]. constructor.
  - intro H. apply in_app_or in H. destruct H as [H|H]; [exact (Hx H)|exact (Hd x (or_introl eq_refl) H)].
  - apply IH; [exact Hb|]. intros y Hy. apply Hd. right. exact Hy.
Qed.

Lemma NoDup_map_inj {A B} (f : A -> B) l x y : NoDup (map f l) -> In x l -> In y l -> f x = f y -> x = y.
Proof.
  induction l as [|a l IH]; cbn [map]; intros ND Hx Hy E; [destruct Hx|]. inversion ND as [|? ? Ha Hl]; subst.
  destruct Hx as [-> | Hx], Hy as [-> | Hy]; [reflexivity| | |exact (IH Hl Hx Hy E)];
    exfalso; apply Ha; [rewrite E|rewrite <- E]; apply in_map; assumption.
Qed.

Lemma NoDup_map_filter {A B} (g : A -> B) (f : A -> bool) l : NoDup (map g l) -> NoDup (map g (filter f l)).
Proof.
  induction l as [|x l IH]; cbn [map filter]; intro H; [constructor|]. inversion H as [|? ? Hx Hl]; subst.
  destruct (f x); [|exact (IH Hl)]. cbn [map]. constructor; [|exact (IH Hl)].
  intro I. apply Hx. apply in_map_iff in I. destruct I as (y & E & Hy). apply filter_In in Hy.
  rewrite <- E. apply in_map, Hy.
Qed.

Lemma sorted_app_inv {A} (R : A -> A -> Prop) l1 l2 :
  StronglySorted R (l1 ++ l2) ->
  StronglySorted R l1 /\ StronglySorted R l2 /\ forall a b, In a l1 -> In b l2 -> R a b.
Proof.
  induction l1 as [|x l1 IH]; cbn [app]; intro H.
  - split; [constructor|]. split; [exact H|]. intros a b [].
  - inversion H as [|? ? Hs Hall]; subst. destruct (IH Hs) as (S1 & S2 & Hc).
    rewrite Forall_app in Hall. destruct Hall as [F1 F2].
    split; [constructor; assumption|]. split; [exact S2|].
    intros a b [<- | Ha] Hb; [rewrite Forall_forall in F2; exact (F2 b Hb)|exact (Hc a b Ha Hb)].
Qed.

Lemma sorted_app_intro {A} (R : A -> A -> Prop) l1 l2 :
  StronglySorted R l1 -> StronglySorted R l2 -> (forall a b, In a l1 -> In b l2 -> R a b) ->
  StronglySorted R (l1 ++ l2).
Proof.
  induction 1 as [|x l1 Hs IH Hall]; intros S2 Hc; cbn [app]; [exact S2|]. constructor.
  - apply IH; [exact S2|]. intros a b Ha. apply Hc. right. exact Ha.
  - apply Forall_app. split; [exact Hall|]. apply Forall_forall. intros b Hb. apply Hc; [left; reflexivity|exact Hb].
Qed.

Lemma sorted_snoc {A} (R : A -> A -> Prop) l x :
  StronglySorted R l -> (forall y, In y l -> R y x) -> StronglySorted R (l ++ [x]).
Proof.
  intros S H. apply sorted_app_intro; [exact S|repeat constructor|].
  intros a b Ha [<- | []]. exact (H a Ha).
Qed.

Lemma nth_map_seq {A} (f : nat -> A) n k d : (k < n)%nat -> nth k (map f (seq 0 n)) d = f k.
Proof.
  intro Hk. rewrite (nth_indep _ d (f 0%nat)) by (rewrite map_length, seq_length; exact Hk).
  rewrite map_nth, seq_nth by exact Hk. reflexivity.
Qed.

Lemma firstn_app_exact {A} (a b : list A) : firstn (length a) (a ++ b) = a.
Proof. induction a as [|x a IH]; cbn [length firstn app]; [reflexivity|]. rewrite IH. reflexivity. Qed.

Lemma skipn_app_exact {A} (a b : list A) : skipn (length a) (a ++ b) = b.
Proof. induction a as [|x a IH]; cbn [length skipn app]; [reflexivity|exact IH]. Qed.

Lemma map_combine {A B} (l : list A) (l' : list B) :
  length l = length l' -> map fst (combine l l') = l /\ map snd (combine l l') = l'.
Proof.
  revert l'. induction l as [|a l IH]; intros [|b l'] H; try discriminate; [split; reflexivity|].
  injection H as H. destruct (IH l' H) as [H1 H2]. cbn [combine map fst snd]. rewrite H1, H2. split; reflexivity.
Qed.

Lemma In_firstn {A} (x : A) k l : In x (firstn k l) -> In x l.
Proof. intro H. rewrite <- (firstn_skipn k l). apply in_or_app. left. exact H. Qed.

Lemma In_skipn {A} (x : A) k l : In x (skipn k l) -> In x l.
Proof. intro H. rewrite <- (firstn_skipn k l). apply in_or_app. right. exact H. Qed.

Lemma Forall_firstn {A} (P : A -> Prop) k l : Forall P l -> Forall P (firstn k l).
Proof. rewrite !Forall_forall. intros H x Hx. exact (H x (In_firstn x k l Hx)). Qed.

Lemma nth_error_firstn_lt {A} (l : list A) : forall n k, (k < n)%nat -> nth_error (firstn n l) k = nth_error l k.
Proof.
  induction l as [|x l IH]; intros n k H; [rewrite firstn_nil; reflexivity|].
  destruct n as [|n]; [inversion H|]. destruct k as [|k]; cbn [firstn nth_error]; [reflexivity|].
  apply IH. apply Nat.succ_lt_mono. exact H.
Qed.
